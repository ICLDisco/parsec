(* C06 — invariant of the context model (CtxWaitDefs.v) and what follows from it for the wait
   and completion calls ([P_detected_means_done], [leave_effective] with [leave_facts],
   [P_epoch_reset]); Properties_C06.v derives its other statements from these in a few lines.
   [pool_ok]: what holds of every taskpool's detector after every event list;
   [Inv]: active_taskpools = start token + number of taskpools given to the context whose
   termination callback has not returned yet. *)
From PV Require Import Base.Tac Base.ListX CtxWait.CtxWaitDefs.
Local Open Scope Z_scope.

Definition notdone (ts : list tst) : Z := cnt (fun t => negb (is_done t)) ts.
Definition in_term (s : pst) : bool := match s with STermCb | STermDec | STerminated => true | _ => false end.
Definition norun (ts : list tst) : Prop := forall i, nth_error ts i <> Some TRun.

Lemma notdone_nonneg ts : 0 <= notdone ts. Proof. apply cnt_nonneg. Qed.
Lemma notdone_app ts t : notdone (ts ++ [t]) = notdone ts + (if is_done t then 0 else 1).
Proof. unfold notdone. rewrite cnt_app, cnt_cons, cnt_nil. destruct (is_done t); cbn; lia. Qed.
Lemma notdone_upd ts i a b : nth_error ts i = Some a ->
  notdone (upd ts i b) = notdone ts - (if is_done a then 0 else 1) + (if is_done b then 0 else 1).
Proof. intros H. unfold notdone. rewrite (cnt_upd _ _ _ _ _ H). cbv beta. destruct (is_done a), (is_done b); cbn [negb]; lia. Qed.
Lemma notdone_pos ts i a : nth_error ts i = Some a -> is_done a = false -> 0 < notdone ts.
Proof. intros H Ha. unfold notdone. apply (cnt_pos_of_nth _ _ _ _ H). now rewrite Ha. Qed.
Lemma notdone_repeat_idle n : notdone (repeat TIdle n) = Z.of_nat n.
Proof. unfold notdone. rewrite cnt_repeat. reflexivity. Qed.
Lemma notdone_zero_all ts : notdone ts = 0 -> forallb is_done ts = true.
Proof.
  induction ts as [|t ts IH]; intros H; [reflexivity|].
  unfold notdone in *. rewrite cnt_cons in H. pose proof (cnt_nonneg (fun t => negb (is_done t)) ts).
  destruct t; cbn [is_done negb] in H; try lia. cbn. apply IH. lia.
Qed.
Lemma all_done_norun ts : forallb is_done ts = true -> norun ts.
Proof.
  intros H i Hi. rewrite forallb_forall in H. apply nth_error_In in Hi. apply H in Hi. discriminate.
Qed.
Lemma norun_existsb ts : norun ts -> existsb is_run ts = false.
Proof.
  intros H. destruct (existsb is_run ts) eqn:E; [|reflexivity]. apply existsb_exists in E. destruct E as (t & Hin & Ht).
  destruct t; try discriminate. apply In_nth_error in Hin. destruct Hin as (i & Hi). elim (H i Hi).
Qed.
Lemma existsb_norun ts : existsb is_run ts = false -> norun ts.
Proof.
  intros H i Hi. assert (existsb is_run ts = true); [|congruence].
  apply existsb_exists. exists TRun. split; [eapply nth_error_In; eauto|reflexivity].
Qed.

(* the stage [su] of a PTG taskpool's startup task against the rest of the taskpool: up to stage 1 the
   detector is NOT_READY and no task has begun; from stage 2 on the detector is armed, and it detects
   termination only at stage 3 *)
Definition su_ok (su : nat) (ad : bool) (st : pst) (ts : list tst) : Prop :=
  (su <= 3)%nat /\ (ad = false <-> su = 0%nat) /\
  ((su <= 1)%nat -> st = SNotReady /\ ts = repeat TIdle (length ts)) /\
  ((2 <= su)%nat -> st <> SNotReady) /\
  (in_term st = true -> su = 3%nat).

Lemma su_ok_term su ad st ts : su_ok su ad st ts -> in_term st = true -> su = 3%nat.
Proof. intros (_ & _ & _ & _ & H5). exact H5. Qed.
(* from stage 2 on the tasks may change, the stage may advance, and the detector may move on as long
   as it stays armed *)
Lemma su_ok_ran su su' ad st ts st' ts' : su_ok su ad st ts -> (2 <= su <= su')%nat -> (su' <= 3)%nat ->
  (st' = SNotReady -> st = SNotReady) -> (in_term st' = true -> in_term st = true \/ su' = 3%nat) -> su_ok su' ad st' ts'.
Proof.
  intros (H1 & H2 & H3 & H4 & H5) Hsu Hsu' Hst Ht. split; [assumption|]. split; [rewrite H2; lia|]. split; [lia|].
  split; [intros _ E; apply H4; [lia|exact (Hst E)]|]. intros Ht'. destruct (Ht Ht') as [E|E]; [apply H5 in E|]; lia.
Qed.

(* [pool_pre]: between a counter update and the check that follows it *)
Record pool_pre (p : pool) : Prop := {
  ok_nt : k_nt p = if negb (k_dtd p) && Nat.ltb (k_su p) 2 then 0 else notdone (k_tasks p);
  ok_pa : if in_term (k_st p) then k_pa p = 0 /\ k_nt p = 0
          else k_pa p = (if negb (k_dtd p) && Nat.ltb (k_su p) 3 then 1 else 0) + (if 0 <? k_nt p then 1 else 0);
  ok_su : if k_dtd p then k_su p = 0%nat else su_ok (k_su p) (k_added p) (k_st p) (k_tasks p);
  ok_cb : k_dtd p = false -> k_cb p = if in_term (k_st p) then 1%nat else 0%nat;
  ok_att : k_att p = true -> k_added p = true;
  ok_new : k_added p = false -> k_st p = SNotReady /\ k_att p = false /\ (k_dtd p = true -> k_tasks p = [])
}.
Definition pool_ok (p : pool) : Prop := pool_pre p /\ (k_st p = SBusy -> 0 < k_pa p).

Lemma ok_term_done p : pool_pre p -> in_term (k_st p) = true -> all_done p = true /\ norun (k_tasks p).
Proof.
  intros H Ht. assert (Hz : notdone (k_tasks p) = 0).
  { pose proof (ok_nt p H) as Hn. pose proof (ok_pa p H) as Hp. pose proof (ok_su p H) as Hs. rewrite Ht in Hp.
    destruct (k_dtd p); cbn [negb andb] in Hn; [lia|].
    rewrite (su_ok_term _ _ _ _ Hs Ht) in Hn. cbn in Hn. lia. }
  unfold all_done. split; [apply notdone_zero_all; assumption|apply all_done_norun, notdone_zero_all; assumption].
Qed.

(* [psimpl] reduces the projections and setters of a taskpool record; [pk p] opens the record first *)
Ltac psimpl := cbn [k_dtd k_tasks k_nt k_pa k_st k_su k_added k_att k_cb
                     pset_tasks pset_nt pset_pa pset_st pset_su pset_att pset_cb in_term] in *.
Ltac pk p := destruct p as [dtd ts nt pa st su ad att cb]; psimpl.

Lemma check_ok p : pool_pre p -> pool_ok (p_check p).
Proof.
  intros [Hn Hp Hs Hc Ha Hw]. unfold p_check.
  destruct (is_busy (k_st p) && (k_pa p =? 0)) eqn:E.
  - apply andb_prop in E. destruct E as [Eb Ez]. apply Z.eqb_eq in Ez. pk p. destruct st; try discriminate. clear Eb.
    pose proof (notdone_nonneg ts).
    split; [|discriminate]. constructor; psimpl.
    + exact Hn.
    + destruct (0 <? nt) eqn:E0; destruct (negb dtd && Nat.ltb su 3) eqn:E1; try lia.
      destruct (negb dtd && Nat.ltb su 2) eqn:E2; lia.
    + destruct dtd; [assumption|].
      assert (Hsu : su = 3%nat).
      { cbn [negb andb] in Hp. pose proof (proj1 Hs). destruct (Nat.ltb_spec su 3); [destruct (0 <? nt); lia|lia]. }
      apply (su_ok_ran _ _ _ _ _ _ _ Hs); auto; [lia|lia|discriminate].
    + intros Hd. rewrite (Hc Hd). reflexivity.
    + exact Ha.
    + intros Hf. destruct (Hw Hf) as [Hx _]. discriminate.
  - split; [constructor; assumption|]. intros Hb. rewrite Hb in E. cbn in E. apply Z.eqb_neq in E.
    rewrite Hb in Hp. cbn [in_term] in Hp. destruct (negb (k_dtd p) && Nat.ltb (k_su p) 3), (0 <? k_nt p); lia.
Qed.

Lemma pre_of_ok p : pool_ok p -> pool_pre p. Proof. intros [H _]. exact H. Qed.

(* names the six fields of [pool_pre] Hn Hp Hs Hc Ha Hw, and the second half of [pool_ok] Hb *)
Ltac ok_intro H := destruct H as [[Hn Hp Hs Hc Ha Hw] Hb].

(* taskpool_ready on a DTD taskpool that was given to the context *)
Lemma ready_ok p : pool_ok p -> k_dtd p = true -> k_added p = true -> pool_ok (p_ready p).
Proof.
  intros H Hd Had. unfold p_ready. destruct (is_notready (k_st p)) eqn:E; [|exact H].
  apply check_ok. ok_intro H. pk p. subst dtd ad. destruct st; try discriminate.
  constructor; psimpl; auto; try discriminate.
Qed.

(* parsec_context_add_taskpool *)
Lemma add_ptg_ok p : pool_ok p -> k_dtd p = false -> k_added p = false -> pool_ok (pset_su (pset_att p true true) 1).
Proof.
  intros H Hd Had. ok_intro H. pk p. subst dtd ad. destruct (Hw eq_refl) as (Hst & Hat & _). subst st att.
  destruct Hs as (H1 & H2 & H3 & H4 & H5). assert (su = 0%nat) by (apply H2; reflexivity). subst su.
  destruct (H3 ltac:(lia)) as [_ Hts].
  split; [|discriminate]. constructor; psimpl; auto; try discriminate.
  repeat split; try lia; try discriminate; auto.
Qed.
Lemma add_dtd_ok p : pool_ok p -> k_dtd p = true -> k_added p = false -> pool_ok (pset_att p true true).
Proof.
  intros H Hd Had. ok_intro H. pk p. subst dtd ad. destruct (Hw eq_refl) as (Hst & Hat & _). subst st att.
  split; [|discriminate]. constructor; psimpl; auto; try discriminate.
Qed.

(* parsec_dtd_insert_task *)
Lemma insert_ok p : pool_ok p -> k_dtd p = true -> k_added p = true -> k_st p = SNotReady ->
  pool_ok (p_add_nt (pset_tasks p (k_tasks p ++ [TIdle])) 1).
Proof.
  intros H Hd Had Hst. ok_intro H. pk p. subst dtd ad st. unfold p_add_nt. psimpl. cbn [negb andb] in *.
  pose proof (notdone_nonneg ts). change (0 <? 1) with true. rewrite andb_true_r.
  split; [|destruct (nt =? 0); discriminate].
  destruct (Z.eqb_spec nt 0) as [Hz|Hz]; constructor; psimpl; cbn [negb andb]; auto; try discriminate;
    rewrite ?notdone_app; cbn [is_done]; try lia.
  all: destruct (0 <? nt) eqn:E1; destruct (0 <? nt + 1) eqn:E2; lia.
Qed.

(* the destructor of a DTD taskpool between two waits *)
Lemma free_ok p : pool_ok p -> k_dtd p = true -> k_added p = true -> k_st p = SNotReady -> k_nt p = 0 -> k_pa p = 0 ->
  pool_ok (pset_att (pset_cb (pset_st p STerminated) (S (k_cb p))) true false).
Proof.
  intros H Hd Had Hst Hz Hz'. ok_intro H. pk p. subst. split; [|discriminate].
  constructor; psimpl; auto; try discriminate.
Qed.

(* parsec_dtd_taskpool_leave_wait *)
Lemma rearm_ok p : pool_ok p -> k_dtd p = true -> k_added p = true -> k_st p = STerminated -> pool_ok (p_rearm p).
Proof.
  intros H Hd Had Hst. ok_intro H. pk p. subst. unfold p_rearm. psimpl. cbn [negb andb] in *. destruct Hp as [Hp1 Hp2].
  split; [|discriminate]. constructor; psimpl; cbn [negb andb]; auto; try discriminate; try lia.
Qed.

(* the startup task of a PTG taskpool *)
Lemma startup_ok p : pool_ok p -> k_dtd p = false -> k_su p = 1%nat ->
  pool_ok (p_ready (pset_su (p_add_nt p (Z.of_nat (length (k_tasks p)))) 2)).
Proof.
  intros H Hd Hsu. ok_intro H. pk p. subst dtd su. cbn [negb andb Nat.ltb Nat.leb] in *.
  destruct Hs as (H1 & H2 & H3 & H4 & H5). destruct (H3 ltac:(lia)) as [Hst Hts]. subst st. psimpl.
  assert (Had : ad = true). { destruct ad; auto. destruct H2 as [H2 _]. specialize (H2 eq_refl). discriminate. }
  subst ad nt. unfold p_add_nt. psimpl. change (0 =? 0) with true. cbn [andb].
  unfold p_ready. assert (Hnd : notdone ts = Z.of_nat (length ts)) by (rewrite Hts at 1; apply notdone_repeat_idle).
  change (0 <? 0) with false in Hp. cbv iota in Hp.
  destruct (Z.ltb_spec 0 (Z.of_nat (length ts))) as [Hpos|Hpos]; psimpl; cbn [is_notready]; apply check_ok;
    constructor; psimpl; cbn [negb andb Nat.ltb Nat.leb]; auto; try discriminate.
  (* with or without tasks the same two conditions are left: the pending actions and the startup stage *)
  1,3: destruct (Z.ltb_spec 0 (0 + Z.of_nat (length ts))); lia.
  all: split; [lia|]; split; [split; discriminate|]; split; [lia|]; split; discriminate.
Qed.

Lemma startup_done_ok p : pool_ok p -> k_dtd p = false -> k_su p = 2%nat -> pool_ok (p_dec_pa (pset_su p 3)).
Proof.
  intros H Hd Hsu. ok_intro H. pk p. subst dtd su. cbn [negb andb Nat.ltb Nat.leb] in *.
  assert (Hst : st = SBusy).
  { destruct Hs as (H1 & H2 & H3 & H4 & H5). destruct st; try reflexivity; try (specialize (H5 eq_refl); lia). elim (H4 ltac:(lia)). reflexivity. }
  subst st. psimpl. unfold p_dec_pa. psimpl. apply check_ok.
  constructor; psimpl; cbn [negb andb Nat.ltb Nat.leb]; auto; try discriminate.
  - lia.
  - apply (su_ok_ran _ _ _ _ _ _ _ Hs); auto.
Qed.

(* a task that is not done: the taskpool is not past its detection *)
Lemma undone_not_term p i t : pool_pre p -> nth_error (k_tasks p) i = Some t -> t <> TDone -> in_term (k_st p) = false.
Proof.
  intros H Hi Ht. destruct (in_term (k_st p)) eqn:E; [|reflexivity]. destruct (ok_term_done p H E) as [Hd _].
  unfold all_done in Hd. rewrite forallb_forall in Hd. apply nth_error_In in Hi. apply Hd in Hi. destruct t; try discriminate. congruence.
Qed.
(* a running task: a PTG taskpool has run its startup task; the taskpool was given to the context *)
Lemma running_su p i : pool_pre p -> nth_error (k_tasks p) i = Some TRun ->
  (k_dtd p = false -> (2 <= k_su p)%nat) /\ k_added p = true.
Proof.
  intros H Hi. pose proof (ok_su p H) as Hs. destruct (k_dtd p) eqn:Ed.
  - split; [discriminate|]. destruct (k_added p) eqn:E; [reflexivity|]. destruct (ok_new p H E) as (_ & _ & Hdt).
    rewrite (Hdt Ed) in Hi. destruct i; discriminate.
  - destruct Hs as (_ & H2 & H3 & _). destruct (Nat.le_gt_cases 2 (k_su p)) as [Hsu|Hsu].
    + split; [intros _; assumption|]. destruct (k_added p); [reflexivity|]. rewrite (proj1 H2 eq_refl) in Hsu. lia.
    + (* before its startup task has run, a PTG taskpool's tasks are all idle *)
      destruct (H3 ltac:(lia)) as [_ Hts]. rewrite Hts in Hi. apply nth_repeat_inv in Hi. discriminate.
Qed.

Lemma begin_ok p i : pool_ok p -> nth_error (k_tasks p) i = Some TIdle -> k_dtd p || Nat.leb 2 (k_su p) = true ->
  pool_ok (pset_tasks p (upd (k_tasks p) i TRun)).
Proof.
  intros H Hi Hsu. pose proof (undone_not_term p i TIdle (pre_of_ok p H) Hi ltac:(discriminate)) as Hnt.
  ok_intro H. pk p. pose proof (notdone_upd _ _ _ TRun Hi) as Hup. cbn [is_done] in Hup.
  split; [|exact Hb]. constructor; psimpl; auto.
  - rewrite Hup. replace (notdone ts - 1 + 1) with (notdone ts) by lia. exact Hn.
  - destruct dtd; [assumption|]. apply Nat.leb_le in Hsu. apply (su_ok_ran _ _ _ _ _ _ _ Hs); auto. apply (proj1 Hs).
  - intros Hf. destruct (Hw Hf) as (A & B & C). split; [assumption|]. split; [assumption|].
    intros Hd. rewrite (C Hd) in Hi. destruct i; discriminate.
Qed.

Lemma end_ok p i : pool_ok p -> nth_error (k_tasks p) i = Some TRun ->
  pool_ok (p_dec_nt (pset_tasks p (upd (k_tasks p) i TDone))).
Proof.
  intros H Hi. pose proof (undone_not_term p i TRun (pre_of_ok p H) Hi ltac:(discriminate)) as Hnt.
  destruct (running_su p i (pre_of_ok p H) Hi) as [Hsu Had].
  pose proof (notdone_pos _ _ _ Hi eq_refl) as Hpos.
  ok_intro H. pk p. subst ad. pose proof (notdone_upd _ _ _ TDone Hi) as Hup. cbn [is_done] in Hup. rewrite Hnt in Hp.
  assert (Hsu2 : negb dtd && Nat.ltb su 2 = false).
  { destruct dtd; [reflexivity|]. apply Nat.ltb_ge, Hsu. reflexivity. }
  rewrite Hsu2 in Hn.
  unfold p_dec_nt. psimpl. destruct (Z.ltb_spec 0 nt); [|lia]. cbn [andb].
  assert (Hsu' : if dtd then su = 0%nat else su_ok su true st (upd ts i TDone)).
  { destruct dtd; [assumption|]. apply (su_ok_ran _ _ _ _ _ _ _ Hs); auto. apply (proj1 Hs). }
  (* the tasks' pending action goes with the last task *)
  assert (Hpre : pool_pre (mkPool dtd (upd ts i TDone) (nt - 1) (if nt - 1 =? 0 then pa - 1 else pa) st su true att cb)).
  { constructor; psimpl; auto; try discriminate.
    - rewrite Hsu2, Hup. lia.
    - rewrite Hnt, Hp. destruct (Z.eqb_spec (nt - 1) 0), (Z.ltb_spec 0 (nt - 1)), (negb dtd && Nat.ltb su 3); lia. }
  destruct (Z.eqb_spec (nt - 1) 0) as [Hz|Hz].
  - unfold p_dec_pa. psimpl. apply check_ok. exact Hpre.
  - split; [exact Hpre|]. psimpl. intros _. rewrite Hp. destruct (negb dtd && Nat.ltb su 3); lia.
Qed.

(* past the detection the detector only moves on: the callback returns (STermDec), TERMINATED is stored *)
Lemma term_advance_ok p st' : pool_ok p -> in_term (k_st p) = true -> in_term st' = true -> pool_ok (pset_st p st').
Proof.
  intros H Ht Ht'. ok_intro H. pk p. rewrite Ht in Hp, Hc.
  split; [|psimpl; intros E; rewrite E in Ht'; discriminate]. constructor; psimpl; rewrite ?Ht'; auto.
  - destruct dtd; [assumption|]. pose proof (su_ok_term _ _ _ _ Hs Ht) as ->. apply (su_ok_ran _ _ _ _ _ _ _ Hs); auto.
    intros ->. discriminate.
  - intros Hf. destruct (Hw Hf) as (A & _). rewrite A in Ht. discriminate.
Qed.

(* a taskpool whose detector has left NOT_READY was given to the context *)
Lemma armed_added p : pool_pre p -> k_st p <> SNotReady -> k_added p = true.
Proof. intros H Hst. destruct (k_added p) eqn:E; [reflexivity|]. destruct (ok_new p H E) as (Hx & _). contradiction. Qed.

Lemma counted_check p : counted (p_check p) = counted p.
Proof.
  unfold p_check. destruct (is_busy (k_st p) && (k_pa p =? 0)) eqn:E; [|reflexivity].
  apply andb_prop in E. destruct E as [E _]. pk p. destruct st; try discriminate. reflexivity.
Qed.
Lemma counted_ready p : counted (p_ready p) = counted p.
Proof.
  unfold p_ready. destruct (is_notready (k_st p)) eqn:E; [|reflexivity]. rewrite counted_check.
  pk p. destruct st; try discriminate. reflexivity.
Qed.
Lemma counted_dec_pa p : counted (p_dec_pa p) = counted p.
Proof. unfold p_dec_pa. rewrite counted_check. reflexivity. Qed.
Lemma counted_dec_nt p : counted (p_dec_nt p) = counted p.
Proof.
  unfold p_dec_nt. cbv zeta. destruct ((0 <? k_nt p) && (k_nt p - 1 =? 0)); [rewrite counted_dec_pa|]; reflexivity.
Qed.
Lemma counted_add_nt p v : counted (p_add_nt p v) = counted p.
Proof. unfold p_add_nt. cbv zeta. destruct ((k_nt p =? 0) && (0 <? v)); reflexivity. Qed.

Definition in_wait (m : mpc) : bool := match m with MInWait => true | _ => false end.
(* the token parsec_context_start adds and parsec_context_wait removes *)
Definition tok (s : state) : Z := if started s && negb (in_wait (master s)) then 1 else 0.

Record Inv (s : state) : Prop := {
  i_pools : Forall pool_ok (pools s);
  i_active : active s = tok s + cnt counted (pools s);
  i_wait : waiting s = in_wait (master s);
  i_started : master s <> MIdle -> started s = true
}.

(* reduces the projections and setters of the context's state *)
Ltac sfields := cbn [pools started waiting master active epoch obs set_pools set_started set_waiting add_active set_master set_epoch add_obs].

Lemma on_pool_pools s q p f : nth_error (pools s) q = Some p -> on_pool q f s = set_pools s (upd (pools s) q (f p)).
Proof. intros H. unfold on_pool. rewrite H. reflexivity. Qed.
Lemma on_pool_master q f s : master (on_pool q f s) = master s.
Proof. unfold on_pool. destruct (nth_error (pools s) q); reflexivity. Qed.
Lemma on_pool_started q f s : started (on_pool q f s) = started s.
Proof. unfold on_pool. destruct (nth_error (pools s) q); reflexivity. Qed.

(* one taskpool changes and active_taskpools moves by its share, the flags do not change *)
Lemma upd_pool_inv s q p p' d : Inv s -> nth_error (pools s) q = Some p -> pool_ok p' ->
  Z.b2z (counted p') = Z.b2z (counted p) + d ->
  Inv (add_active (set_pools s (upd (pools s) q p')) d).
Proof.
  intros [Hp Ha Hw Hs] Hq Hok Hc. constructor; sfields; try assumption.
  - apply Forall_upd; assumption.
  - change (active s + d = tok s + cnt counted (upd (pools s) q p')).
    unfold Z.b2z in Hc. rewrite (cnt_upd _ _ _ _ _ Hq), Hc, Ha. ring.
Qed.
Lemma on_pool_inv s q p f d : Inv s -> nth_error (pools s) q = Some p -> pool_ok (f p) ->
  Z.b2z (counted (f p)) = Z.b2z (counted p) + d -> Inv (add_active (on_pool q f s) d).
Proof. intros Hi Hq. rewrite (on_pool_pools s q p f Hq). apply upd_pool_inv; assumption. Qed.
Lemma on_pool_inv0 s q p f : Inv s -> nth_error (pools s) q = Some p -> pool_ok (f p) ->
  counted (f p) = counted p -> Inv (on_pool q f s).
Proof.
  intros Hi Hq Hok Hc. destruct (on_pool_inv s q p f 0 Hi Hq Hok) as [A B C D]; [rewrite Hc; lia|].
  constructor; try assumption. rewrite <- (Z.add_0_r (active _)). exact B.
Qed.

(* the master moves between two places outside parsec_context_wait *)
Lemma set_master_inv s m : Inv s -> in_wait (master s) = false -> in_wait m = false ->
  (m <> MIdle -> started s = true) -> Inv (set_master s m).
Proof.
  intros [Hp Ha Hw Hs] Hm Hm' Hst. constructor; sfields; try assumption.
  - rewrite Ha. unfold tok. sfields. rewrite Hm, Hm'. reflexivity.
  - rewrite Hw, Hm, Hm'. reflexivity.
Qed.

(* an event whose condition does not hold, or that names no taskpool, leaves the state as it is *)
Lemma Inv_if (b : bool) s s' : Inv s -> (b = true -> Inv s') -> Inv (if b then s' else s).
Proof. intros H H'. destruct b; auto. Qed.
Lemma Inv_at s q (k : pool -> state) : Inv s ->
  (forall p, nth_error (pools s) q = Some p -> pool_ok p -> Inv (k p)) ->
  Inv (match pool_at s q with Some p => k p | None => s end).
Proof.
  intros Hi H. unfold pool_at. destruct (nth_error (pools s) q) as [p|] eqn:Hq; [|assumption].
  apply (H p eq_refl), (Forall_nth _ _ _ _ (i_pools s Hi) Hq).
Qed.

Lemma add_taskpool_inv s q : Inv s -> Inv (add_taskpool q s).
Proof.
  intros Hi. unfold add_taskpool. apply (Inv_at s q); [assumption|]. intros p Hq Hok.
  destruct (k_added p) eqn:Had; [assumption|].
  destruct (ok_new p (pre_of_ok p Hok) Had) as (Hst & _).
  assert (Hc0 : counted p = false) by (unfold counted; rewrite Had; reflexivity).
  assert (Hc1 : counted (pset_att p true true) = true) by (unfold counted; cbn; rewrite Hst; reflexivity).
  destruct (k_dtd p) eqn:Hd; rewrite (on_pool_pools (add_active s 1) q p) by assumption;
    apply (upd_pool_inv s q p _ 1 Hi Hq); rewrite ?Hc0.
  - destruct (waiting s); [apply ready_ok; [|assumption|reflexivity]|]; apply add_dtd_ok; assumption.
  - destruct (waiting s); rewrite ?counted_ready, Hc1; reflexivity.
  - apply add_ptg_ok; assumption.
  - change (counted (pset_su (pset_att p true true) 1)) with (counted (pset_att p true true)). rewrite Hc1. reflexivity.
Qed.

Lemma cnt_map_ext {A} (g h : A -> bool) (f : A -> A) l : (forall p, In p l -> g (f p) = h p) -> cnt g (map f l) = cnt h l.
Proof.
  induction l as [|x l IH]; intros H; [reflexivity|]. cbn [map]. rewrite !cnt_cons, IH.
  - rewrite (H x (or_introl eq_refl)). reflexivity.
  - intros p Hp. apply H. right. assumption.
Qed.
Lemma Forall_map_same {A} (P : A -> Prop) (f : A -> A) l : Forall P l -> (forall p, In p l -> P p -> P (f p)) -> Forall P (map f l).
Proof.
  intros Hl Hf. apply Forall_forall. intros y Hy. apply in_map_iff in Hy. destruct Hy as (x & <- & Hx).
  apply Hf; [assumption|]. rewrite Forall_forall in Hl. apply Hl. assumption.
Qed.

(* active_taskpools = 0: no taskpool counts any more (the token is not negative) *)
Lemma active_zero_uncounted s : Inv s -> active s = 0 -> forall q p, nth_error (pools s) q = Some p -> counted p = false.
Proof.
  intros Hi Ha. pose proof (i_active s Hi) as HA. pose proof (cnt_nonneg counted (pools s)). unfold tok in HA.
  apply cnt_zero_all. destruct (started s && _); lia.
Qed.

(* what the enabling condition of MWaitLeave gives *)
Lemma leave_facts s : Inv s -> active s = 0 -> quiescent s = true ->
  forall p, In p (pools s) -> counted p = false /\ p_quiet p = true /\ (k_added p = true -> k_st p = STerminated).
Proof.
  intros Hi Ha Hq p Hp. apply In_nth_error in Hp. destruct Hp as (q & Hq').
  pose proof (active_zero_uncounted s Hi Ha q p Hq') as Hc.
  unfold quiescent in Hq. rewrite forallb_forall in Hq. pose proof (Hq p (nth_error_In _ _ Hq')) as Hpq.
  split; [assumption|]. split; [assumption|]. intros Had.
  unfold counted in Hc. rewrite Had in Hc. unfold p_quiet in Hpq. apply andb_prop in Hpq. destruct Hpq as [_ Hcb].
  destruct (k_st p); cbn in *; try discriminate; reflexivity.
Qed.

Theorem step_inv s e : Inv s -> Inv (step s e).
Proof.
  intros Hi. destruct e as [|q|q| |q| | |q|q|q|q|q i|q i|q|q|p i q|p q]; cbn [step].
  - (* MStart *)
    apply Inv_if; [assumption|]. intros E.
    apply andb_prop in E. destruct E as [Em Es]. destruct (master s) eqn:Hm; try discriminate. apply negb_true_iff in Es.
    destruct Hi as [Hp Ha Hw Hst]. constructor; sfields; try assumption; [|reflexivity].
    rewrite Ha. unfold tok. sfields. rewrite Hm, Es. cbn [andb negb in_wait]. lia.
  - (* MAdd *)
    apply Inv_if; [assumption|]. intros _. apply add_taskpool_inv. assumption.
  - (* MInsert *)
    apply Inv_at; [assumption|]. intros p Hq Hok. apply Inv_if; [assumption|]. intros E.
    rewrite !andb_true_iff in E. destruct E as [[[_ Hd] Hat] Hst].
    apply (on_pool_inv0 s q p _ Hi Hq).
    + apply insert_ok; auto.
      * apply (ok_att p (pre_of_ok p Hok) Hat).
      * destruct (k_st p); try discriminate; reflexivity.
    + rewrite counted_add_nt. reflexivity.
  - (* MTest *)
    apply Inv_if; [assumption|]. intros _. destruct Hi as [Hp Ha Hw Hst]. constructor; sfields; assumption.
  - (* MFree *)
    apply Inv_at; [assumption|]. intros p Hq Hok. apply Inv_if; [assumption|]. intros E.
    rewrite !andb_true_iff in E. destruct E as [[[[[_ Hd] Hat] Hst] Hnt] Hpa]. apply Z.eqb_eq in Hnt, Hpa.
    assert (Hst' : k_st p = SNotReady) by (destruct (k_st p); try discriminate; reflexivity).
    pose proof (ok_att p (pre_of_ok p Hok) Hat) as Had.
    apply (on_pool_inv s q p _ (-1) Hi Hq).
    + apply free_ok; assumption.
    + unfold counted. cbn. rewrite Had, Hst'. reflexivity.
  - (* MWaitEnter *)
    apply Inv_if; [assumption|]. intros E.
    apply andb_prop in E. destruct E as [Em Es]. destruct (master s) eqn:Hm; try discriminate.
    destruct Hi as [Hp Ha Hw Hst]. constructor; sfields.
    + unfold enter_all. apply Forall_map_same; [assumption|]. intros p _ Hok.
      destruct (k_att p && k_dtd p) eqn:E; [|assumption]. apply andb_prop in E. destruct E as [Eat Ed].
      apply ready_ok; auto. apply (ok_att p (pre_of_ok p Hok)). assumption.
    + unfold enter_all. rewrite (cnt_map_ext counted counted).
      * rewrite Ha. unfold tok. sfields. rewrite Hm, Es. cbn [andb negb in_wait]. lia.
      * intros p _. destruct (k_att p && k_dtd p); [apply counted_ready|reflexivity].
    + reflexivity.
    + intros _. assumption.
  - (* MWaitLeave *)
    destruct (master s) eqn:Hm; try assumption. apply Inv_if; [assumption|]. intros E.
    apply andb_prop in E. destruct E as [Ea Eq]. apply Z.eqb_eq in Ea.
    pose proof (leave_facts s Hi Ea Eq) as Hf.
    destruct Hi as [Hp Ha Hw Hst]. constructor; sfields.
    + unfold rearm_all. apply Forall_map_same; [assumption|]. intros p Hin Hok.
      destruct (k_att p && k_dtd p) eqn:E; [|assumption]. apply andb_prop in E. destruct E as [Eat Ed].
      assert (Had : k_added p = true) by (apply (ok_att p (pre_of_ok p Hok)); assumption).
      apply rearm_ok; auto. apply (Hf p Hin). assumption.
    + unfold tok. sfields. cbn [andb]. unfold rearm_all, count_dtd_att. rewrite (cnt_map_ext counted (fun p => k_att p && k_dtd p)).
      * lia.
      * intros p Hin. destruct (Hf p Hin) as (Hc & _ & _). destruct (k_att p && k_dtd p) eqn:E; [|assumption].
        apply andb_prop in E. destruct E as [Eat Ed]. rewrite Forall_forall in Hp.
        pose proof (ok_att p (pre_of_ok p (Hp p Hin)) Eat) as Had. unfold counted, p_rearm. cbn. rewrite Had. reflexivity.
    + reflexivity.
    + intros Hx. elim Hx. reflexivity.
  - (* MTpEnter *)
    apply Inv_at; [assumption|]. intros p Hq Hok. apply Inv_if; [assumption|]. intros E.
    rewrite !andb_true_iff in E. destruct E as [[Em Es] Had]. destruct (master s) eqn:Hm; try discriminate.
    apply set_master_inv; rewrite ?on_pool_master, ?on_pool_started, ?Hm; auto. apply (on_pool_inv0 s q p _ Hi Hq).
    + destruct (k_dtd p) eqn:Hd; [apply ready_ok|]; auto.
    + destruct (k_dtd p); [apply counted_ready|reflexivity].
  - (* MTpLeave *)
    destruct (master s) as [| |q'] eqn:Hm; try assumption.
    apply Inv_at; [assumption|]. intros p Hq Hok. apply Inv_if; [assumption|]. intros E.
    apply andb_prop in E. destruct E as [_ E].
    assert (Hst : k_st p = STerminated) by (destruct (k_st p); try discriminate; reflexivity).
    apply set_master_inv; try reflexivity; try contradiction.
    + destruct (k_dtd p) eqn:Hd; [|assumption].
      assert (Had : k_added p = true) by (apply (armed_added p (pre_of_ok p Hok)); congruence).
      apply (on_pool_inv s q p _ 1 Hi Hq).
      * apply rearm_ok; assumption.
      * unfold counted, p_rearm. cbn. rewrite Had, Hst. reflexivity.
    + destruct (k_dtd p); sfields; rewrite ?on_pool_master, Hm; reflexivity.
  - (* WStartup *)
    apply Inv_at; [assumption|]. intros p Hq Hok. apply Inv_if; [assumption|]. intros E.
    rewrite !andb_true_iff in E. destruct E as [[_ Hd] Hsu]. apply negb_true_iff in Hd. apply Nat.eqb_eq in Hsu.
    apply (on_pool_inv0 s q p _ Hi Hq).
    + apply startup_ok; assumption.
    + rewrite counted_ready. apply counted_add_nt.
  - (* WStartupDone *)
    apply Inv_at; [assumption|]. intros p Hq Hok. apply Inv_if; [assumption|]. intros E. apply Nat.eqb_eq in E.
    apply (on_pool_inv0 s q p _ Hi Hq).
    + apply startup_done_ok; [assumption| |assumption].
      destruct (k_dtd p) eqn:Hd; [|reflexivity]. pose proof (ok_su p (pre_of_ok p Hok)) as Hs. rewrite Hd in Hs. lia.
    + rewrite counted_dec_pa. reflexivity.
  - (* WBegin *)
    apply Inv_at; [assumption|]. intros p Hq Hok. unfold task_at, pool_at. rewrite Hq.
    destruct (nth_error (k_tasks p) i) as [[| |]|] eqn:Hti; try assumption.
    apply Inv_if; [assumption|]. intros E. apply andb_prop in E. destruct E as [_ Hsu].
    apply (on_pool_inv0 s q p _ Hi Hq); [|reflexivity]. apply begin_ok; assumption.
  - (* WEnd *)
    unfold task_at, pool_at. destruct (nth_error (pools s) q) as [p|] eqn:Hq; [|assumption].
    destruct (nth_error (k_tasks p) i) as [[| |]|] eqn:Hti; try assumption.
    apply (on_pool_inv0 s q p _ Hi Hq).
    + apply end_ok; [apply (Forall_nth _ _ _ _ (i_pools s Hi) Hq)|assumption].
    + rewrite counted_dec_nt. reflexivity.
  - (* WCbDone *)
    apply Inv_at; [assumption|]. intros p Hq Hok. destruct (k_st p) eqn:Hst; try assumption.
    assert (Had : k_added p = true) by (apply (armed_added p (pre_of_ok p Hok)); congruence).
    apply (on_pool_inv s q p _ (-1) Hi Hq).
    + apply term_advance_ok; [assumption|rewrite Hst|]; reflexivity.
    + unfold counted. cbn. rewrite Had, Hst. reflexivity.
  - (* WFin *)
    apply Inv_at; [assumption|]. intros p Hq Hok. destruct (k_st p) eqn:Hst; try assumption.
    apply (on_pool_inv0 s q p _ Hi Hq).
    + apply term_advance_ok; [assumption|rewrite Hst|]; reflexivity.
    + unfold counted. cbn. rewrite Hst. reflexivity.
  - (* TAdd *)
    destruct (task_at s p i) as [[| |]|]; try assumption. apply add_taskpool_inv. assumption.
  - (* CAdd *)
    destruct (pool_at s p) as [pp|]; [|assumption]. destruct (k_st pp); try assumption. apply add_taskpool_inv. assumption.
Qed.

Lemma new_pool_ok d : pool_ok (new_pool d).
Proof.
  destruct d as [n|]; (split; [|discriminate]); constructor; cbn; auto; try discriminate.
  - split; [lia|]. split; [tauto|]. split; [intros _; split; [reflexivity|rewrite repeat_length; reflexivity]|].
    split; [intros; lia|discriminate].
  - intros _. split; [reflexivity|]. split; [reflexivity|discriminate].
Qed.

Lemma init_inv decls : Inv (init decls).
Proof.
  unfold init. constructor; sfields.
  - apply Forall_forall. intros p Hp. apply in_map_iff in Hp. destruct Hp as (d & <- & _). apply new_pool_ok.
  - unfold tok. sfields. cbn [andb]. rewrite cnt_all_false; [reflexivity|].
    intros p Hp. apply in_map_iff in Hp. destruct Hp as (d & <- & _). destruct d; reflexivity.
  - reflexivity.
  - intros H. elim H. reflexivity.
Qed.

Lemma run_inv decls evs : Inv (run decls evs).
Proof. unfold run. apply fold_left_inv; [intros; apply step_inv; assumption|apply init_inv]. Qed.

(* a taskpool whose termination was detected: all its tasks ended, none runs; the completion
   callback of a PTG taskpool ran exactly once (and not at all before) *)
Lemma P_detected_means_done s q p : Inv s ->
  nth_error (pools s) q = Some p ->
  (in_term (k_st p) = true -> all_done p = true /\ norun (k_tasks p)) /\
  (k_dtd p = false -> k_cb p = if in_term (k_st p) then 1%nat else 0%nat).
Proof.
  intros Hi Hq. pose proof (Forall_nth _ _ _ _ (i_pools _ Hi) Hq) as Hok. split.
  - apply ok_term_done. apply pre_of_ok. assumption.
  - apply (ok_cb p (pre_of_ok p Hok)).
Qed.

Lemma terminated_done s q p : Inv s -> nth_error (pools s) q = Some p -> k_st p = STerminated ->
  k_st p = STerminated /\ all_done p = true /\ norun (k_tasks p) /\ (k_dtd p = false -> k_cb p = 1%nat).
Proof.
  intros Hi Hq Hst. destruct (P_detected_means_done s q p Hi Hq) as [H1 H2]. rewrite Hst in *. cbn [in_term] in *.
  destruct (H1 eq_refl). auto.
Qed.

(* MWaitLeave changes the state exactly when its condition holds *)
Lemma leave_effective s : epoch (step s MWaitLeave) = S (epoch s) <->
  master s = MInWait /\ active s = 0 /\ quiescent s = true.
Proof.
  cbn [step]. destruct (master s) eqn:Hm.
  - split; [intros H; exfalso; lia|intros (H & _); discriminate].
  - destruct (Z.eqb_spec (active s) 0) as [Ha|Ha]; destruct (quiescent s) eqn:Hq; cbn [andb]; sfields;
      split; try (intros H; exfalso; lia); try tauto; intros (_ & A & B); try congruence; try discriminate.
  - split; [intros H; exfalso; lia|intros (H & _); discriminate].
Qed.

(* the state a context wait leaves behind *)
Definition fresh_like (s : state) : Prop :=
  started s = false /\ waiting s = false /\ master s = MIdle /\ active s = count_dtd_att (pools s) /\ settled s = true.

Lemma P_epoch_reset s : Inv s ->
  epoch (step s MWaitLeave) = S (epoch s) -> fresh_like (step s MWaitLeave).
Proof.
  intros Hi He. apply leave_effective in He. destruct He as (Hm & Ha & Hqq).
  pose proof (leave_facts _ Hi Ha Hqq) as Hf.
  cbn [step]. rewrite Hm, Ha, Hqq. cbn [Z.eqb andb]. unfold fresh_like. sfields.
  split; [reflexivity|]. split; [reflexivity|]. split; [reflexivity|]. split.
  - rewrite Ha. unfold count_dtd_att, rearm_all. rewrite (cnt_map_ext _ (fun p => k_att p && k_dtd p)); [lia|].
    intros p _. destruct (k_att p && k_dtd p) eqn:E; [|assumption]. unfold p_rearm. cbn. assumption.
  - unfold settled. sfields. unfold rearm_all. apply forallb_forall. intros p' Hp'. apply in_map_iff in Hp'.
    destruct Hp' as (p & <- & Hp). destruct (Hf p Hp) as (_ & Hquiet & Hst).
    apply In_nth_error in Hp. destruct Hp as (q & Hq).
    destruct (P_detected_means_done s q p Hi Hq) as [H1 _].
    unfold pool_settled. destruct (k_added p) eqn:Had.
    + specialize (Hst eq_refl). rewrite Hst in H1. destruct (H1 eq_refl) as [Hd _].
      destruct (k_att p && k_dtd p) eqn:E.
      * (* re-arming keeps the tasks, and NOT_READY is as quiet as TERMINATED *)
        apply andb_prop in E. destruct E as [Eat Ed].
        assert (Hq' : p_quiet (p_rearm p) = true) by (unfold p_quiet in Hquiet; rewrite Hst in Hquiet; exact Hquiet).
        change (all_done (p_rearm p)) with (all_done p). rewrite Hd, Hq'. cbn. rewrite Had, Ed, Eat. reflexivity.
      * rewrite Had. cbn [negb orb]. rewrite Hd, Hquiet, Hst. reflexivity.
    + destruct (k_att p && k_dtd p) eqn:E.
      * apply andb_prop in E. destruct E as [Eat Ed].
        pose proof (Forall_nth _ _ _ _ (i_pools _ Hi) Hq) as Hok. pose proof (ok_att p (pre_of_ok p Hok) Eat). congruence.
      * rewrite Had. reflexivity.
Qed.

(* parsec_taskpool_wait returns only for a terminated taskpool *)
Lemma tp_leave_effective s q : master s = MInTp q -> master (step s (MTpLeave q)) = MIdle ->
  exists p, nth_error (pools s) q = Some p /\ k_st p = STerminated.
Proof.
  intros Hm. cbn [step]. rewrite Hm. unfold pool_at. destruct (nth_error (pools s) q) as [p|] eqn:Hq; [|rewrite Hm; discriminate].
  destruct (Nat.eqb q q && is_terminated (k_st p)) eqn:E; [|rewrite Hm; discriminate].
  intros _. exists p. split; [reflexivity|]. apply andb_prop in E. destruct E as [_ E]. destruct (k_st p); try discriminate; reflexivity.
Qed.

