(* C06 — the per-thread choreography of __parsec_context_wait (CtxBarrierDefs.v): invariant over every
   interleaving, projection onto the context model, and the theorem that the master is released from
   the final barrier only in a state where active_taskpools = 0 and no thread is inside a task, a
   startup task or a termination callback — the condition CtxWaitDefs.step assumes for MWaitLeave.
   Properties_C06.v carries the statements of the context model over to this one through
   [project] (what holds after every run of the context model holds of the inner state, by
   [rrun_projects]); the longer arguments (the P_ theorems) are here. *)
From PV Require Import Base.Tac Base.ListX CtxWait.CtxWaitDefs CtxWait.CtxWaitProofs CtxWait.CtxBarrierDefs.
Local Open Scope Z_scope.

Definition sumZ (l : list Z) : Z := fold_right Z.add 0 l.
Lemma sumZ_cons x l : sumZ (x :: l) = x + sumZ l. Proof. reflexivity. Qed.
Lemma sumZ_app a b : sumZ (a ++ b) = sumZ a + sumZ b.
Proof. induction a as [|x a IH]; [reflexivity|]. rewrite <- app_comm_cons, !sumZ_cons, IH. lia. Qed.
Lemma sumZ_upd l t x y : nth_error l t = Some x -> sumZ (upd l t y) = sumZ l - x + y.
Proof.
  intros H. unfold upd. rewrite (split_nth l t x H) at 3. rewrite !sumZ_app, !sumZ_cons. lia.
Qed.
Lemma sumZ_repeat0 n : sumZ (repeat 0 n) = 0.
Proof. induction n as [|n IH]; [reflexivity|]. cbn [repeat]. rewrite sumZ_cons, IH. reflexivity. Qed.
Lemma sumZ_all0 l : (forall t x, nth_error l t = Some x -> x = 0) -> sumZ l = 0.
Proof.
  induction l as [|a l IH]; intros H; [reflexivity|]. rewrite sumZ_cons, (H 0%nat a eq_refl), IH; [reflexivity|].
  intros t x Hx. apply (H (S t)). exact Hx.
Qed.

Lemma p_ob_nonneg p : 0 <= p_ob p.
Proof. unfold p_ob. pose proof (cnt_nonneg is_run (k_tasks p)) as Hc. destruct (Nat.eqb _ _), (in_cb _); lia. Qed.

Lemma cnt_run_zero ts : cnt is_run ts = 0 <-> existsb is_run ts = false.
Proof.
  induction ts as [|t ts IH]; [split; reflexivity|]. rewrite cnt_cons. pose proof (cnt_nonneg is_run ts) as Hc.
  destruct t; cbn [is_run existsb orb]; rewrite <- ?IH; split; intros H; try lia; discriminate.
Qed.

Lemma p_ob_zero_quiet p : p_ob p = 0 -> p_quiet p = true.
Proof.
  unfold p_ob, p_quiet. pose proof (cnt_nonneg is_run (k_tasks p)) as Hc. intros H.
  destruct (Nat.eqb (k_su p) 2) eqn:E1; [lia|]. destruct (in_cb (k_st p)) eqn:E2; [lia|].
  rewrite (proj1 (cnt_run_zero (k_tasks p))) by lia. reflexivity.
Qed.

Lemma ob_zero_quiescent s : ob s = 0 -> quiescent s = true.
Proof.
  unfold ob, quiescent. induction (pools s) as [|p l IH]; [reflexivity|]. cbn [fold_right forallb].
  intros H. pose proof (p_ob_nonneg p).
  assert (0 <= fold_right (fun p a => p_ob p + a) 0 l).
  { clear. induction l as [|q l IH]; cbn [fold_right]; [lia|]. pose proof (p_ob_nonneg q). lia. }
  rewrite p_ob_zero_quiet by lia. apply IH. lia.
Qed.

Lemma quiescent_ob_zero s : quiescent s = true -> ob s = 0.
Proof.
  unfold ob, quiescent. induction (pools s) as [|p l IH]; [reflexivity|]. cbn [fold_right forallb].
  intros H. apply andb_prop in H. destruct H as [Hp Hl]. rewrite (IH Hl).
  unfold p_quiet in Hp. rewrite !andb_true_iff, !negb_true_iff in Hp. destruct Hp as [[H1 H2] H3].
  unfold p_ob. rewrite H2, H3, (proj2 (cnt_run_zero _) H1). reflexivity.
Qed.

Definition wcur (g : nat) (p : tpc) : bool :=
  match p with TWaitS g' | TWaitE g' => Nat.eqb g' g | _ => false end.

(* which program counters fit the phase: [run] = the work loop of an epoch is open *)
Definition pc_ok (run : bool) (g : nat) (t : nat) (p : tpc) : Prop :=
  match p with
  | TOut => t = 0%nat
  | TInc => t = 0%nat /\ run = true
  | TLoop => run = true
  | TPassed => run = false
  | TWaitS g' => if run then (g' < g)%nat else g' = g
  | TWaitE g' => if run then g' = g else (g' < g)%nat
  end.

Definition in_ctxwait (p : tpc) : bool := match p with TLoop | TWaitE _ | TPassed => true | _ => false end.
Definition in_start (p : tpc) : bool := match p with TWaitS _ | TInc => true | _ => false end.

Record RCore (r : rstate) : Prop := {
  v_len : length (busy r) = length (pcs r) /\ (1 <= length (pcs r))%nat;
  v_sum : sumZ (busy r) = ob (inner r);
  v_idle : forall t p, nth_error (pcs r) t = Some p -> p <> TLoop -> p <> TOut -> busy_of r t = 0;
  v_pc : forall t p, nth_error (pcs r) t = Some p -> pc_ok (running r) (bgen r) t p;
  v_cnt : Z.of_nat (bcnt r) = cnt (wcur (bgen r)) (pcs r) /\ (bcnt r < length (pcs r))%nat
}.
Record RMas (r : rstate) : Prop := {
  v_wait : in_ctxwait (pc_of r 0) = in_waitm (master (inner r));
  v_start : in_start (pc_of r 0) = true -> master (inner r) = MIdle /\ started (inner r) = true;
  v_run : running r = true -> started (inner r) = true;
  v_done : running r = false -> in_ctxwait (pc_of r 0) = true -> active (inner r) = 0;
  v_out : pc_of r 0 = TOut -> started (inner r) = true -> running r = true
}.
Definition RInv (r : rstate) : Prop := RCore r /\ RMas r.

Lemma nth_upd_eq {A} (l : list A) t u x y : nth_error l t = Some x ->
  nth_error (upd l t y) u = if Nat.eqb u t then Some y else nth_error l u.
Proof. apply nth_upd. Qed.

Lemma nth_upd_default {A} (l : list A) t u x y d : nth_error l t = Some x ->
  nth u (upd l t y) d = if Nat.eqb u t then y else nth u l d.
Proof.
  intros H. rewrite <- !nth_default_eq. unfold nth_default. rewrite (nth_upd _ _ _ _ _ H).
  destruct (Nat.eqb u t); reflexivity.
Qed.

(* what holds of every entry with its index survives an update whose new entry has it *)
Lemma all_upd {A} (P : nat -> A -> Prop) l t x y : nth_error l t = Some x ->
  (forall u q, nth_error l u = Some q -> u <> t -> P u q) -> P t y ->
  forall u q, nth_error (upd l t y) u = Some q -> P u q.
Proof.
  intros H Hl Hy u q Hq. rewrite (nth_upd _ _ _ _ _ H) in Hq. destruct (Nat.eqb_spec u t) as [->|Hne].
  - injection Hq as <-. exact Hy.
  - apply Hl; assumption.
Qed.

Lemma nth_pc_of r t : (t < length (pcs r))%nat -> nth_error (pcs r) t = Some (pc_of r t).
Proof. apply nth_error_nth'. Qed.
Lemma pc_of_nth r t p : nth_error (pcs r) t = Some p -> pc_of r t = p.
Proof. apply nth_error_nth. Qed.

Lemma pc0_after_upd r t x y : nth_error (pcs r) t = Some x ->
  nth 0 (upd (pcs r) t y) TOut = if Nat.eqb t 0 then y else pc_of r 0.
Proof. intros H. rewrite (nth_upd_default _ _ 0%nat _ _ _ H). destruct t; reflexivity. Qed.

(* reduces the projections of the per-thread state *)
Ltac rfields := cbn [inner pcs busy bgen bcnt running].

Lemma pc0_set_pc r t x y : nth_error (pcs r) t = Some x -> pc_of (set_pc r t y) 0 = if Nat.eqb t 0 then y else pc_of r 0.
Proof. apply pc0_after_upd. Qed.

Lemma wcur_all_le r : RCore r -> forall t p, nth_error (pcs r) t = Some p -> wcur (S (bgen r)) p = false.
Proof.
  intros Hi t p Hp. pose proof (v_pc r Hi t p Hp) as Hk. destruct p; cbn in *; try reflexivity;
    destruct (running r); apply Nat.eqb_neq; lia.
Qed.

(* the other threads are all waiting in the current generation when the counter says so *)
Lemma all_others_wait r t p : RCore r -> nth_error (pcs r) t = Some p -> wcur (bgen r) p = false ->
  S (bcnt r) = length (pcs r) ->
  forall u q, nth_error (pcs r) u = Some q -> u <> t -> wcur (bgen r) q = true.
Proof.
  intros Hi Hp Hw Hc u q Hq Hne. destruct (v_cnt r Hi) as [Hcnt _].
  assert (Hfull : cnt (wcur (bgen r)) (upd (pcs r) t (TWaitS (bgen r))) = Z.of_nat (length (upd (pcs r) t (TWaitS (bgen r))))).
  { rewrite (cnt_upd _ _ _ _ _ Hp), (len_upd _ _ _ _ Hp), Hw. cbn [wcur]. rewrite Nat.eqb_refl. lia. }
  apply (cnt_full_all _ _ Hfull u q). rewrite (nth_upd_other _ _ _ _ _ Hp Hne). exact Hq.
Qed.

(* ... among them the master: it is at the barrier of the phase *)
Lemma master_waits r t p : RCore r -> nth_error (pcs r) t = Some p -> wcur (bgen r) p = false ->
  S (bcnt r) = length (pcs r) -> t <> 0%nat ->
  pc_of r 0 = if running r then TWaitE (bgen r) else TWaitS (bgen r).
Proof.
  intros Hc Hp Hw Hl Hne. assert (H0 : (0 < length (pcs r))%nat) by lia.
  pose proof (nth_pc_of r 0 H0) as Hp0. pose proof (v_pc r Hc 0%nat _ Hp0) as Hk0.
  pose proof (all_others_wait r t p Hc Hp Hw Hl 0%nat _ Hp0 (not_eq_sym Hne)) as Hw0.
  destruct (pc_of r 0), (running r); cbn in Hw0, Hk0; try discriminate; apply Nat.eqb_eq in Hw0; subst; try reflexivity; lia.
Qed.

Lemma pc_ok_flip run g u q : wcur g q = true -> pc_ok run g u q -> pc_ok (negb run) (S g) u q.
Proof.
  destruct q; cbn; try discriminate; intros Hw Hk; apply Nat.eqb_eq in Hw; subst; destruct run; cbn in *; lia.
Qed.

(* thread t moves from p to p' within the generation; the counter follows when p' waits in it *)
Lemma move_core r t p p' : RCore r -> nth_error (pcs r) t = Some p -> wcur (bgen r) p = false ->
  pc_ok (running r) (bgen r) t p' -> (p' <> TLoop -> p' <> TOut -> busy_of r t = 0) ->
  let c := if wcur (bgen r) p' then S (bcnt r) else bcnt r in
  (c < length (pcs r))%nat ->
  RCore (mkR (inner r) (upd (pcs r) t p') (busy r) (bgen r) c (running r)).
Proof.
  intros [[Hl1 Hl2] Hs Hi Hk [Hc1 Hc2]] Hp Hw Hk' Hb c Hc. constructor; rfields.
  - rewrite (len_upd _ _ _ _ Hp). auto.
  - assumption.
  - apply (all_upd (fun u q => q <> TLoop -> q <> TOut -> busy_of r u = 0) _ _ _ _ Hp); [|exact Hb].
    intros u q Hq _. exact (Hi u q Hq).
  - apply (all_upd (pc_ok (running r) (bgen r)) _ _ _ _ Hp); [|exact Hk']. intros u q Hq _. exact (Hk u q Hq).
  - rewrite (len_upd _ _ _ _ Hp), (cnt_upd _ _ _ _ _ Hp), Hw. split; [|exact Hc].
    subst c. destruct (wcur (bgen r) p'); lia.
Qed.

(* a thread moves on without touching the barrier counter *)
Lemma set_pc_core r t p p' : RCore r ->
  nth_error (pcs r) t = Some p -> wcur (bgen r) p = false -> wcur (bgen r) p' = false ->
  pc_ok (running r) (bgen r) t p' -> (p' <> TLoop -> p' <> TOut -> busy_of r t = 0) ->
  RCore (set_pc r t p').
Proof.
  intros Hc Hp Hw Hw' Hk' Hb. pose proof (move_core r t p p' Hc Hp Hw Hk' Hb) as H.
  rewrite Hw' in H. apply H. apply (v_cnt r Hc).
Qed.

(* arriving at the barrier: the fields that do not mention the master's inner state *)
Lemma arrive_core r t p wait pass : RCore r ->
  nth_error (pcs r) t = Some p -> wcur (bgen r) p = false -> busy_of r t = 0 ->
  pc_ok (running r) (bgen r) t (wait (bgen r)) -> wcur (bgen r) (wait (bgen r)) = true ->
  pc_ok (negb (running r)) (S (bgen r)) t pass -> wcur (S (bgen r)) pass = false ->
  RCore (arrive r t wait pass).
Proof.
  intros Hc Hp Hw Hb Hkw Hww Hkp Hwp. unfold arrive.
  destruct (Nat.eqb_spec (S (bcnt r)) (length (pcs r))) as [Hlast|Hnl].
  - (* last arrival: a new generation, in which nobody waits yet *)
    pose proof (all_others_wait r t p Hc Hp Hw Hlast) as Hall. pose proof (wcur_all_le r Hc) as Hle.
    destruct Hc as [[Hl1 Hl2] Hs Hi Hk [Hc1 Hc2]]. constructor; rfields.
    + rewrite (len_upd _ _ _ _ Hp). auto.
    + assumption.
    + apply (all_upd (fun u q => q <> TLoop -> q <> TOut -> busy_of r u = 0) _ _ _ _ Hp); [|intros _ _; exact Hb].
      intros u q Hq _. exact (Hi u q Hq).
    + apply (all_upd (pc_ok (negb (running r)) (S (bgen r))) _ _ _ _ Hp); [|exact Hkp].
      intros u q Hq Hne. apply pc_ok_flip; [apply (Hall u q Hq Hne)|apply (Hk u q Hq)].
    + split; [|rewrite (len_upd _ _ _ _ Hp); lia].
      rewrite cnt_all_false; [reflexivity|]. intros q Hq. apply In_nth_error in Hq. destruct Hq as (u & Hq).
      revert u q Hq. apply (all_upd (fun _ q => wcur (S (bgen r)) q = false) _ _ _ _ Hp); [|exact Hwp].
      intros u q Hq _. exact (Hle u q Hq).
  - pose proof (move_core r t p (wait (bgen r)) Hc Hp Hw Hkw (fun _ _ => Hb)) as H.
    rewrite Hww in H. apply H. destruct (v_cnt r Hc). lia.
Qed.

(* an inner event performed by thread t *)
Lemma inner_core r t s' : RCore r -> (t < length (pcs r))%nat ->
  (forall p, nth_error (pcs r) t = Some p -> p = TLoop \/ p = TOut \/ ob s' = ob (inner r)) ->
  RCore (set_inner_busy r t s').
Proof.
  intros [[Hl1 Hl2] Hs Hi Hk [Hc1 Hc2]] Ht Hp. unfold set_inner_busy.
  assert (Hb : nth_error (busy r) t = Some (busy_of r t)) by (apply nth_error_nth'; lia).
  constructor; rfields; auto.
  - rewrite (len_upd _ _ _ _ Hb). auto.
  - rewrite (sumZ_upd _ _ _ _ Hb). lia.
  - intros u q Hq H1 H2. unfold busy_of at 1. rfields. rewrite (nth_upd_default _ _ _ _ _ _ Hb).
    pose proof (Hi u q Hq H1 H2) as Hz. destruct (Nat.eqb_spec u t) as [->|_]; [|exact Hz].
    destruct (Hp q Hq) as [A|[A|A]]; try contradiction. lia.
Qed.

Lemma on_pool_flags q f s : master (on_pool q f s) = master s /\ started (on_pool q f s) = started s.
Proof. split; [apply on_pool_master|apply on_pool_started]. Qed.
Lemma add_taskpool_flags q s : master (add_taskpool q s) = master s /\ started (add_taskpool q s) = started s.
Proof.
  unfold add_taskpool. destruct (nth_error (pools s) q) as [p|]; auto. destruct (k_added p); auto.
  destruct (k_dtd p); rewrite on_pool_master, on_pool_started; auto.
Qed.

Lemma worker_event_flags s e : is_worker_event e = true ->
  master (step s e) = master s /\ started (step s e) = started s.
Proof.
  destruct e; cbn [is_worker_event]; try discriminate; intros _; cbn [step]; unfold pool_at, task_at, pool_at.
  - destruct (nth_error (pools s) q) as [p|]; auto. destruct (_ && _ && _); auto. apply on_pool_flags.
  - destruct (nth_error (pools s) q) as [p|]; auto. destruct (Nat.eqb _ _); auto. apply on_pool_flags.
  - destruct (nth_error (pools s) q) as [p|]; auto. destruct (nth_error (k_tasks p) i) as [[| |]|]; auto.
    destruct (_ && _ && _); auto. apply on_pool_flags.
  - destruct (nth_error (pools s) q) as [p|]; auto. destruct (nth_error (k_tasks p) i) as [[| |]|]; auto. apply on_pool_flags.
  - destruct (nth_error (pools s) q) as [p|]; auto. destruct (k_st p); auto. exact (on_pool_flags q _ s).
  - destruct (nth_error (pools s) q) as [p|]; auto. destruct (k_st p); auto. apply on_pool_flags.
  - destruct (nth_error (pools s) p) as [pp|]; auto. destruct (nth_error (k_tasks pp) i) as [[| |]|]; auto. apply add_taskpool_flags.
  - destruct (nth_error (pools s) p) as [pp|]; auto. destruct (k_st pp); auto. apply add_taskpool_flags.
Qed.

(* master API events other than start / the two halves of context_wait, performed outside the wait *)
Lemma api_event_flags s e : is_worker_event e = false -> e <> MStart -> e <> MWaitEnter -> e <> MWaitLeave ->
  in_waitm (master s) = false ->
  in_waitm (master (step s e)) = false /\ started (step s e) = started s.
Proof.
  intros Hw H1 H2 H3 Hm. destruct e; cbn [is_worker_event] in Hw; try discriminate; try congruence; cbn [step]; unfold pool_at.
  - destruct (is_idle_m (master s)); [|auto]. destruct (add_taskpool_flags q s) as [A B]. rewrite A, B. auto.
  - destruct (nth_error (pools s) q) as [p|]; auto. destruct (_ && _ && _ && _); auto.
    rewrite on_pool_master, on_pool_started. auto.
  - destruct (is_idle_m (master s)); auto.
  - destruct (nth_error (pools s) q) as [p|]; auto. destruct (_ && _ && _ && _ && _ && _); auto.
    cbn [master started add_active]. rewrite on_pool_master, on_pool_started. auto.
  - destruct (nth_error (pools s) q) as [p|]; auto. destruct (_ && _ && _); auto.
    cbn [master started set_master]. rewrite on_pool_started. auto.
  - destruct (master s) as [| |q'] eqn:Em; destruct (nth_error (pools s) q) as [p|]; rewrite ?Em; auto.
    destruct (_ && _); [|rewrite Em; auto]. destruct (k_dtd p); cbn [master started set_master add_active]; auto.
    destruct (on_pool_flags q p_rearm s) as [A B]. auto.
Qed.

Lemma ob_rearm l : forallb p_quiet l = true ->
  fold_right (fun p a => p_ob p + a) 0 (rearm_all l) = fold_right (fun p a => p_ob p + a) 0 l.
Proof.
  induction l as [|p l IH]; [reflexivity|]. cbn [forallb rearm_all map fold_right]. intros H. apply andb_prop in H.
  destruct H as [Hp Hl]. fold (rearm_all l). rewrite (IH Hl). f_equal.
  destruct (k_att p && k_dtd p); [|reflexivity]. unfold p_quiet in Hp. apply andb_prop in Hp. destruct Hp as [_ Hc].
  apply negb_true_iff in Hc. unfold p_ob, p_rearm. cbn. rewrite Hc. reflexivity.
Qed.

(* the master's leave, in a state where its condition holds *)
Lemma leave_effect s : master s = MInWait -> active s = 0 -> quiescent s = true ->
  let s' := step s MWaitLeave in
  master s' = MIdle /\ started s' = false /\ ob s' = ob s /\ epoch s' = S (epoch s).
Proof.
  intros Hm Ha Hq. cbn [step]. rewrite Hm, Ha, Hq. cbn [Z.eqb andb].
  cbn [master started epoch set_epoch set_master set_started set_waiting add_active set_pools pools].
  repeat split. unfold ob. cbn [pools]. apply ob_rearm. exact Hq.
Qed.

(* between two epochs nobody is inside anything *)
Lemma all_busy_zero r : RCore r -> running r = false -> pc_of r 0 <> TOut -> ob (inner r) = 0.
Proof.
  intros Hc Hr H0. rewrite <- (v_sum r Hc). apply sumZ_all0. intros t x Hx.
  destruct (v_len r Hc) as [Hl _].
  assert (Ht : (t < length (pcs r))%nat) by (rewrite <- Hl; apply nth_error_Some; congruence).
  pose proof (nth_pc_of r t Ht) as Hp. pose proof (v_pc r Hc t _ Hp) as Hk. rewrite <- (nth_error_nth _ _ 0 Hx : busy_of r t = x).
  apply (v_idle r Hc t _ Hp); intros E; rewrite E in Hk; cbn in Hk.
  - congruence.
  - subst t. contradiction.
Qed.

(* master fields when the inner state and the phase are unchanged *)
Lemma mas_pc r r' : RMas r -> inner r' = inner r -> running r' = running r ->
  in_ctxwait (pc_of r' 0) = in_ctxwait (pc_of r 0) ->
  (in_start (pc_of r' 0) = true -> in_start (pc_of r 0) = true) ->
  (pc_of r' 0 = TOut -> pc_of r 0 = TOut \/ running r = true) -> RMas r'.
Proof.
  intros [Hw Hs Hr Hd Ho] Ei Er Ec Es Eo. constructor; rewrite ?Ei, ?Er, ?Ec; auto.
  intros H1 H2. destruct (Eo H1) as [A|A]; auto.
Qed.

(* a step that only changes the pc of t, to one of the same kind as far as the master's is concerned *)
Lemma mas_move r r' t p p' : RMas r -> nth_error (pcs r) t = Some p ->
  inner r' = inner r -> running r' = running r -> pcs r' = upd (pcs r) t p' ->
  (t = 0%nat -> in_ctxwait p' = in_ctxwait p /\ (in_start p' = true -> in_start p = true) /\
               (p' = TOut -> running r = true)) ->
  RMas r'.
Proof.
  intros Hm Hp Ei Er Ep H. apply (mas_pc r); auto; unfold pc_of at 1; rewrite Ep, (pc0_after_upd r t _ _ Hp);
    destruct (Nat.eqb_spec t 0) as [->|Hne]; auto; rewrite (pc_of_nth r 0 p Hp);
    destruct (H eq_refl) as (A & B & C); auto.
Qed.

(* the master inside parsec_context_start (at the start barrier or just released from it): the wait
   has not begun, so the fields about the wait hold whatever the phase *)
Lemma mas_starting r : in_start (pc_of r 0) = true -> master (inner r) = MIdle -> started (inner r) = true -> RMas r.
Proof.
  intros Hp Hm Hs. assert (Hw : in_ctxwait (pc_of r 0) = false) by (destruct (pc_of r 0); try discriminate; reflexivity).
  constructor; rewrite ?Hw, ?Hm, ?Hs; auto; try discriminate.
  intros E. rewrite E in Hp. discriminate.
Qed.

(* the master in the work loop of parsec_context_wait, the epoch's loop open *)
Lemma mas_in_loop r : pc_of r 0 = TLoop -> master (inner r) = MInWait -> started (inner r) = true ->
  running r = true -> RMas r.
Proof. intros Hp Hm Hs Hr. constructor; rewrite ?Hp, ?Hm, ?Hs, ?Hr; auto; discriminate. Qed.

(* the loop test saw active_taskpools = 0 from outside every task: the thread goes to the end barrier *)
Lemma loop_exit_inv r t : RInv r -> nth_error (pcs r) t = Some TLoop -> busy_of r t = 0 -> seen_active r = 0 ->
  RInv (arrive r t TWaitE TPassed).
Proof.
  intros [Hc Hm] Hp Eb Ea. pose proof (v_pc r Hc t _ Hp) as Hk. cbn in Hk. split.
  { apply (arrive_core r t TLoop); auto; cbn; rewrite ?Hk; cbn; auto. apply Nat.eqb_refl. }
  unfold arrive. destruct (Nat.eqb_spec (S (bcnt r)) (length (pcs r))) as [Hlast|Hnl].
  - (* the end barrier opens: the master is in the wait and the value read was the real one *)
    assert (H0 : in_ctxwait (pc_of r 0) = true /\ active (inner r) = 0).
    { unfold seen_active in Ea. destruct (Nat.eq_dec t 0) as [->|Hne].
      - rewrite (pc_of_nth r 0 _ Hp) in *. split; [reflexivity|lia].
      - rewrite (master_waits r t TLoop Hc Hp eq_refl Hlast Hne), Hk in *. split; [reflexivity|lia]. }
    destruct H0 as [Hin Hact]. destruct Hm as [Hw Hs Hr Hd Ho].
    constructor; rfields; unfold pc_of; rfields; rewrite ?(pc0_after_upd r t _ _ Hp).
    + rewrite <- Hw, Hin. destruct (Nat.eqb t 0); [reflexivity|exact Hin].
    + destruct (Nat.eqb t 0); [discriminate|exact Hs].
    + rewrite Hk. discriminate.
    + intros _ _. exact Hact.
    + destruct (Nat.eqb t 0); [discriminate|]. intros E. rewrite E in Hin. discriminate.
  - eapply (mas_move r _ t _ (TWaitE (bgen r)) Hm Hp); try reflexivity. intros _. split; [reflexivity|]. split; discriminate.
Qed.

(* a worker released from the end barrier goes back to the start barrier *)
Lemma worker_rearrive_inv r t : RInv r -> nth_error (pcs r) t = Some TPassed -> t <> 0%nat ->
  RInv (arrive r t TWaitS TLoop).
Proof.
  intros [Hc Hm] Hp Hne. pose proof (v_pc r Hc t _ Hp) as Hk. cbn in Hk. split.
  { apply (arrive_core r t TPassed); auto; cbn; rewrite ?Hk; cbn; auto.
    - apply (v_idle r Hc t _ Hp); discriminate.
    - apply Nat.eqb_refl. }
  unfold arrive. destruct (Nat.eqb_spec (S (bcnt r)) (length (pcs r))) as [Hlast|Hnl].
  - (* the start barrier opens: the master is in parsec_context_start *)
    pose proof (master_waits r t TPassed Hc Hp eq_refl Hlast Hne) as E0. rewrite Hk in E0.
    destruct (v_start r Hm) as [Hmi Hst]; [rewrite E0; reflexivity|].
    apply mas_starting; rfields; [|exact Hmi|exact Hst].
    unfold pc_of. rfields. rewrite (pc0_after_upd r t _ _ Hp), (proj2 (Nat.eqb_neq t 0) Hne), E0. reflexivity.
  - eapply (mas_move r _ t _ (TWaitS (bgen r)) Hm Hp); try reflexivity. contradiction.
Qed.

(* the master released from the end barrier leaves the wait: MWaitLeave is enabled *)
Lemma master_leave_inv r : RInv r -> nth_error (pcs r) 0 = Some TPassed ->
  RInv (set_pc (mkR (step (inner r) MWaitLeave) (pcs r) (busy r) (bgen r) (bcnt r) (running r)) 0 TOut).
Proof.
  intros [Hc Hm] Hp. pose proof (v_pc r Hc 0%nat _ Hp) as Hk. cbn in Hk. pose proof (pc_of_nth r 0 _ Hp) as Epc.
  destruct Hm as [Hw Hs Hr Hd Ho].
  assert (Hmi : master (inner r) = MInWait).
  { rewrite Epc in Hw. cbn in Hw. destruct (master (inner r)); try discriminate; reflexivity. }
  assert (Hact : active (inner r) = 0) by (apply Hd; [assumption|rewrite Epc; reflexivity]).
  assert (Hob : ob (inner r) = 0) by (apply all_busy_zero; auto; rewrite Epc; discriminate).
  destruct (leave_effect (inner r) Hmi Hact (ob_zero_quiescent _ Hob)) as (L1 & L2 & L3 & _).
  set (r1 := mkR (step (inner r) MWaitLeave) (pcs r) (busy r) (bgen r) (bcnt r) (running r)).
  assert (Hc1 : RCore r1).
  { destruct Hc as [A B C D E]. constructor; unfold r1; rfields; auto. rewrite L3. exact B. }
  split.
  - apply (set_pc_core r1 0%nat TPassed); auto; try reflexivity. congruence.
  - constructor; unfold set_pc, r1; rfields; unfold pc_of; rfields; rewrite ?(pc0_after_upd r 0%nat _ _ Hp); cbn [Nat.eqb].
    + rewrite L1. reflexivity.
    + discriminate.
    + rewrite Hk. discriminate.
    + discriminate.
    + rewrite L2. discriminate.
Qed.

(* a task-side event, performed by a thread in its loop or by the master inside parsec_taskpool_wait *)
Lemma worker_event_inv r t e : RInv r -> (t < length (pcs r))%nat -> is_worker_event e = true ->
  match pc_of r t with TLoop => true | TOut => Nat.eqb t 0 && in_tp (master (inner r)) | _ => false end = true ->
  RInv (set_inner_busy r t (step (inner r) e)).
Proof.
  intros [Hc Hm] Ht Ew Ewh. pose proof (nth_pc_of r t Ht) as Hp. pose proof (v_pc r Hc t _ Hp) as Hk.
  destruct (worker_event_flags (inner r) e Ew) as [Fm Fs]. split.
  - apply inner_core; auto. intros p Hp'. rewrite Hp in Hp'. injection Hp' as <-.
    destruct (pc_of r t); try discriminate; auto.
  - destruct Hm as [Hw Hs Hr Hd Ho]. constructor; unfold set_inner_busy; rfields; unfold pc_of in *; rfields; rewrite ?Fm, ?Fs; auto.
    (* the master is not between the end barrier and its leave *)
    intros Hrun Hin. exfalso. fold (pc_of r t) in Ewh, Hk.
    destruct (pc_of r t) eqn:Epc; try discriminate.
    + apply andb_prop in Ewh. destruct Ewh as [E0 _]. apply Nat.eqb_eq in E0. subst t.
      fold (pc_of r 0) in Hin. rewrite Epc in Hin. discriminate.
    + cbn in Hk. congruence.
Qed.

(* an API call by the master, outside parsec_context_wait before and after, CONTEXT_ACTIVE untouched *)
Lemma api_event_inv r s' : RInv r -> pc_of r 0 = TOut -> in_waitm (master s') = false ->
  started s' = started (inner r) -> RInv (set_inner_busy r 0 s').
Proof.
  intros [Hc Hm] Epc Hm' Hs'. assert (H0 : (0 < length (pcs r))%nat) by (destruct (v_len r Hc); lia). split.
  - apply inner_core; auto. intros p Hp. rewrite (nth_pc_of r 0 H0), Epc in Hp. injection Hp as <-. auto.
  - destruct Hm as [Hw Hs Hr Hd Ho].
    constructor; unfold set_inner_busy; rfields; unfold pc_of in *; rfields; rewrite ?Epc, ?Hs'; cbn; auto; try discriminate.
Qed.

(* parsec_context_start: CONTEXT_ACTIVE and the token, then the start barrier *)
Lemma start_inv r : RInv r -> pc_of r 0 = TOut -> master (inner r) = MIdle -> started (inner r) = false ->
  busy_of r 0 = 0 -> RInv (arrive (set_inner_busy r 0 (step (inner r) MStart)) 0 TWaitS TInc).
Proof.
  intros [Hc Hm] Epc Hmi E2 E3. assert (H0 : (0 < length (pcs r))%nat) by (destruct (v_len r Hc); lia).
  pose proof (nth_pc_of r 0 H0) as Hp. rewrite Epc in Hp.
  assert (Hrun : running r = false).
  { destruct (running r) eqn:Er; [|reflexivity]. rewrite (v_run r Hm Er) in E2. discriminate. }
  set (s' := step (inner r) MStart).
  assert (Es' : s' = add_active (set_started (inner r) true) 1).
  { unfold s'. cbn [step]. rewrite Hmi, E2. reflexivity. }
  assert (Hob : ob s' = ob (inner r)) by (rewrite Es'; reflexivity).
  set (r1 := set_inner_busy r 0 s').
  assert (Hc1 : RCore r1) by (apply inner_core; auto).
  assert (Hb1 : busy_of r1 0 = 0).
  { assert (Hb : nth_error (busy r) 0 = Some (busy_of r 0)) by (apply nth_error_nth'; destruct (v_len r Hc); lia).
    unfold r1, set_inner_busy, busy_of at 1. rfields. rewrite (nth_upd_default _ _ _ _ _ _ Hb). cbn [Nat.eqb]. lia. }
  assert (Hp1 : nth_error (pcs r1) 0 = Some TOut) by exact Hp.
  split.
  { apply (arrive_core r1 0%nat TOut); auto; unfold r1, set_inner_busy; rfields; rewrite ?Hrun; cbn; auto. apply Nat.eqb_refl. }
  assert (Hm' : master s' = MIdle) by (rewrite Es'; exact Hmi).
  assert (Hs' : started s' = true) by (rewrite Es'; reflexivity).
  unfold arrive. destruct (Nat.eqb (S (bcnt r1)) (length (pcs r1))); apply mas_starting; rfields; try assumption;
    unfold pc_of; rfields; rewrite (pc0_after_upd r1 0%nat _ _ Hp1); reflexivity.
Qed.

(* parsec_context_wait up to the work loop *)
Lemma wait_enter_inv r : RInv r -> pc_of r 0 = TOut -> master (inner r) = MIdle -> started (inner r) = true ->
  RInv (set_pc (set_inner_busy r 0 (step (inner r) MWaitEnter)) 0 TLoop).
Proof.
  intros [Hc Hm] Epc Hmi E2. assert (H0 : (0 < length (pcs r))%nat) by (destruct (v_len r Hc); lia).
  pose proof (nth_pc_of r 0 H0) as Hp. rewrite Epc in Hp.
  assert (Hrun : running r = true) by (apply (v_out r Hm Epc E2)).
  set (s' := step (inner r) MWaitEnter).
  assert (Em' : master s' = MInWait /\ started s' = true).
  { unfold s'. cbn [step]. rewrite Hmi, E2. cbn. auto. }
  destruct Em' as [Em' Est'].
  set (r1 := set_inner_busy r 0 s').
  assert (Hc1 : RCore r1).
  { apply inner_core; auto. intros p Hp'. rewrite Hp in Hp'. inversion Hp'; auto. }
  assert (Hp1 : nth_error (pcs r1) 0 = Some TOut) by exact Hp.
  split.
  { apply (set_pc_core r1 0%nat TOut); auto; try reflexivity. congruence. }
  apply mas_in_loop; try assumption. apply (pc0_set_pc r1 0%nat _ _ Hp1).
Qed.

Theorem rstep_inv r ev : RInv r -> RInv (rstep r ev).
Proof.
  intros Hi. pose proof Hi as [Hc Hm]. destruct ev as [t|t e]; cbn [rstep].
  - (* RBar t: the barrier, loop-test, increment and leave code *)
    destruct (Nat.ltb_spec t (length (pcs r))) as [Ht|Ht]; [|assumption].
    pose proof (nth_pc_of r t Ht) as Hp. pose proof (v_pc r Hc t _ Hp) as Hk.
    destruct (pc_of r t) as [| |g| |g|] eqn:Epc.
    + assumption.
    + (* loop test *)
      destruct ((busy_of r t =? 0) && (seen_active r =? 0)) eqn:E; [|assumption].
      apply andb_prop in E. destruct E as [Eb Ea]. apply Z.eqb_eq in Eb, Ea. apply loop_exit_inv; assumption.
    + (* waiting at the start barrier *)
      destruct (Nat.eqb_spec (bgen r) g) as [Eg|Eg]; [assumption|]. cbn in Hk.
      assert (Hrun : running r = true) by (destruct (running r); [reflexivity|congruence]).
      rewrite Hrun in Hk. split.
      * apply (set_pc_core r t (TWaitS g) _ Hc Hp).
        -- cbn. apply Nat.eqb_neq. lia.
        -- destruct (Nat.eqb t 0); reflexivity.
        -- destruct (Nat.eqb_spec t 0); cbn; auto.
        -- intros _ _. apply (v_idle r Hc t _ Hp); discriminate.
      * eapply (mas_move r _ t _ _ Hm Hp); try reflexivity. intros ->. cbn. auto using diff_false_true.
    + (* the increment of parsec_context_start *)
      destruct Hk as [-> Hrun]. split.
      * apply (set_pc_core r 0%nat TInc); auto; try reflexivity. congruence.
      * eapply (mas_move r _ 0%nat _ _ Hm Hp); try reflexivity. cbn. auto.
    + (* waiting at the end barrier *)
      destruct (Nat.eqb_spec (bgen r) g) as [Eg|Eg]; [assumption|]. cbn in Hk.
      assert (Hrun : running r = false) by (destruct (running r); [congruence|reflexivity]).
      split.
      * apply (set_pc_core r t (TWaitE g) TPassed Hc Hp).
        -- cbn. apply Nat.eqb_neq. lia.
        -- reflexivity.
        -- exact Hrun.
        -- intros _ _. apply (v_idle r Hc t _ Hp); discriminate.
      * eapply (mas_move r _ t _ _ Hm Hp); try reflexivity. intros _. split; [reflexivity|]. split; discriminate.
    + (* released from the end barrier *)
      destruct (Nat.eqb_spec t 0) as [->|Hne]; [apply master_leave_inv|apply worker_rearrive_inv]; assumption.
  - (* RIn t e: an inner event performed by thread t *)
    destruct (Nat.ltb_spec t (length (pcs r))) as [Ht|Ht]; cbn [negb]; [|assumption].
    destruct (is_worker_event e) eqn:Ew.
    + match goal with |- RInv (if ?c then _ else _) => destruct c eqn:E end; [|assumption].
      apply andb_prop in E. destruct E as [Ewh _]. apply worker_event_inv; assumption.
    + destruct (Nat.eqb_spec t 0) as [->|Hne]; [|assumption].
      destruct (pc_of r 0) eqn:Epc; try assumption.
      assert (Hnw : in_waitm (master (inner r)) = false) by (rewrite <- (v_wait r Hm), Epc; reflexivity).
      assert (Hapi : e <> MStart -> e <> MWaitEnter -> e <> MWaitLeave -> RInv (set_inner_busy r 0 (step (inner r) e))).
      { intros H1 H2 H3. destruct (api_event_flags (inner r) e Ew H1 H2 H3 Hnw) as [A B]. apply api_event_inv; assumption. }
      destruct e; try (apply Hapi; discriminate); try discriminate.
      * (* parsec_context_start *)
        destruct (is_idle_m (master (inner r)) && negb (started (inner r)) && (busy_of r 0 =? 0)) eqn:E; [|assumption].
        rewrite !andb_true_iff in E. destruct E as [[E1 E2] E3]. apply Z.eqb_eq in E3. apply negb_true_iff in E2.
        apply start_inv; auto. destruct (master (inner r)); try discriminate; reflexivity.
      * (* parsec_context_wait, first half *)
        destruct (is_idle_m (master (inner r)) && started (inner r) && (busy_of r 0 =? 0)) eqn:E; [|assumption].
        rewrite !andb_true_iff in E. destruct E as [[E1 E2] _].
        apply wait_enter_inv; auto. destruct (master (inner r)); try discriminate; reflexivity.
      * (* only RBar 0 performs the second half *)
        assumption.
      * (* parsec_taskpool_wait returns *)
        destruct (busy_of r 0 =? 0); [|assumption]. apply Hapi; discriminate.
Qed.

Lemma rinit_inv decls n : (1 <= n)%nat -> RInv (rinit decls n).
Proof.
  intros Hn. destruct n as [|m]; [lia|]. unfold rinit. replace (S m - 1)%nat with m by lia. split.
  - constructor; cbn [inner pcs busy bgen bcnt running].
    + cbn [length]. rewrite !repeat_length. split; [reflexivity|lia].
    + rewrite sumZ_repeat0. unfold ob, init. cbn [pools]. induction decls as [|d l IH]; [reflexivity|].
      cbn [map fold_right]. rewrite <- IH. destruct d; cbn; [|reflexivity].
      unfold p_ob. cbn. rewrite cnt_repeat. reflexivity.
    + intros t p _ _ _. apply nth_repeat.
    + intros [|t] p Hp; cbn in Hp.
      * inversion Hp. reflexivity.
      * apply nth_repeat_inv in Hp. subst p. reflexivity.
    + split; [|cbn [length]; rewrite repeat_length; lia].
      rewrite cnt_cons, cnt_repeat. cbn. lia.
  - constructor; cbn; auto; try discriminate.
Qed.

Lemma fold_RInv evs r : RInv r -> RInv (fold_left rstep evs r).
Proof. apply fold_left_inv. intros; apply rstep_inv; assumption. Qed.

Lemma rrun_inv decls n evs : (1 <= n)%nat -> RInv (rrun decls n evs).
Proof. intros Hn. apply fold_RInv, rinit_inv, Hn. Qed.

(* every refined run projects to a run of the context model *)
Lemma rstep_inner r ev : inner (rstep r ev) = inner r \/ exists e, inner (rstep r ev) = step (inner r) e.
Proof.
  destruct ev as [t|t e]; cbn [rstep].
  - destruct (Nat.ltb t (length (pcs r))); auto.
    destruct (pc_of r t); auto.
    + destruct (_ && _); auto. unfold arrive. destruct (Nat.eqb _ _); auto.
    + destruct (Nat.eqb _ _); auto.
    + destruct (Nat.eqb _ _); auto.
    + destruct (Nat.eqb t 0); [right; exists MWaitLeave; reflexivity|]. unfold arrive. destruct (Nat.eqb _ _); auto.
  - destruct (negb _); auto. destruct (is_worker_event e).
    + destruct (_ && _); [right; exists e; reflexivity|auto].
    + destruct (Nat.eqb t 0); auto. destruct (pc_of r 0); auto.
      destruct e; try (right; eexists; reflexivity); auto.
      * destruct (_ && _ && _); auto. right. exists MStart. unfold arrive. destruct (Nat.eqb _ _); reflexivity.
      * destruct (_ && _ && _); auto. right. exists MWaitEnter. reflexivity.
      * destruct (_ =? _); auto. right. eexists. reflexivity.
Qed.

Lemma rrun_projects decls n evs : exists evs', inner (rrun decls n evs) = run decls evs'.
Proof.
  unfold rrun. assert (G : forall evs r l, inner r = run decls l -> exists l', inner (fold_left rstep evs r) = run decls l').
  { induction evs0 as [|ev evs0 IH]; intros r l Hr; [exists l; exact Hr|]. cbn [fold_left].
    destruct (rstep_inner r ev) as [E|[e E]].
    - apply (IH _ l). rewrite E. exact Hr.
    - apply (IH _ (l ++ [e])). rewrite E, Hr. unfold run. rewrite fold_left_app. reflexivity. }
  apply (G evs (rinit decls n) []). reflexivity.
Qed.

(* THE POINT: whenever the master has been released from the final barrier of __parsec_context_wait —
   in any state of the invariant, hence under any interleaving of any number of threads ([rrun_inv]) —
   the condition that CtxWaitDefs assumes for MWaitLeave holds *)
Theorem P_master_passes_only_when_done r : RInv r ->
  pc_of r 0 = TPassed ->
  master (inner r) = MInWait /\ active (inner r) = 0 /\ quiescent (inner r) = true /\
  (forall t, t <> 0%nat -> pc_of r t <> TLoop).
Proof.
  intros [Hc Hm] Hp.
  assert (H0 : (0 < length (pcs r))%nat) by (destruct (v_len r Hc); lia).
  pose proof (v_pc r Hc 0%nat _ (nth_pc_of r 0 H0)) as Hk. rewrite Hp in Hk. cbn in Hk.
  split; [|split; [|split]].
  - pose proof (v_wait r Hm) as Hw. rewrite Hp in Hw. cbn in Hw. destruct (master (inner r)); try discriminate; reflexivity.
  - apply (v_done r Hm Hk). rewrite Hp. reflexivity.
  - apply ob_zero_quiescent. apply all_busy_zero; auto. rewrite Hp. discriminate.
  - intros t Ht E. destruct (Nat.lt_ge_cases t (length (pcs r))) as [Hl|Hl].
    + pose proof (v_pc r Hc t _ (nth_pc_of r t Hl)) as Hkt. rewrite E in Hkt. cbn in Hkt. congruence.
    + unfold pc_of in E. rewrite nth_overflow in E by assumption. discriminate.
Qed.

(* and the master's next step is the return: the epoch counter advances *)
Theorem P_master_returns r : RInv r ->
  pc_of r 0 = TPassed ->
  pc_of (rstep r (RBar 0)) 0 = TOut /\ inner (rstep r (RBar 0)) = step (inner r) MWaitLeave /\
  epoch (step (inner r) MWaitLeave) = S (epoch (inner r)).
Proof.
  intros Hi Hp. destruct (P_master_passes_only_when_done r Hi Hp) as (A & B & C & _). destruct Hi as [Hc Hm].
  assert (H0 : (0 < length (pcs r))%nat) by (destruct (v_len r Hc); lia).
  cbn [rstep]. destruct (Nat.ltb_spec 0 (length (pcs r))); [|lia]. rewrite Hp. cbn [Nat.eqb].
  split; [|split].
  - apply (pc0_set_pc _ 0%nat _ _ (nth_pc_of r 0 H0)).
  - reflexivity.
  - apply leave_effective. auto.
Qed.

(* no thread is left behind a barrier: the counter is exactly the number of threads waiting in the
   current generation and never reaches the number of threads ([v_cnt]); a thread waiting in an older
   generation passes at its next step *)
Theorem P_stale_waiter_passes r t g : (t < length (pcs r))%nat -> g <> bgen r ->
  (pc_of r t = TWaitE g -> pc_of (rstep r (RBar t)) t = TPassed) /\
  (pc_of r t = TWaitS g -> pc_of (rstep r (RBar t)) t = if Nat.eqb t 0 then TInc else TLoop).
Proof.
  intros Ht Hg. pose proof (nth_pc_of r t Ht) as Hp.
  split; intros E; cbn [rstep]; destruct (Nat.ltb_spec t (length (pcs r))); try lia; rewrite E;
    destruct (Nat.eqb_spec (bgen r) g); try congruence; unfold set_pc, pc_of; cbn [pcs];
    apply nth_error_nth; apply (nth_upd_same _ _ _ _ Hp).
Qed.

Lemma project (P : state -> Prop) decls n evs : (forall evs', P (run decls evs')) -> P (inner (rrun decls n evs)).
Proof. intros H. destruct (rrun_projects decls n evs) as (l & ->). apply H. Qed.

(* the master's return leaves the other threads where they are *)
Lemma master_return_others r t : pc_of r 0 = TPassed -> t <> 0%nat -> pc_of (rstep r (RBar 0)) t = pc_of r t.
Proof.
  intros Hp Ht. cbn [rstep]. destruct (Nat.ltb 0 (length (pcs r))) eqn:E0; [|reflexivity].
  rewrite Hp. cbn [Nat.eqb]. unfold set_pc, pc_of. cbn [pcs].
  assert (H0 : nth_error (pcs r) 0 = Some TPassed).
  { rewrite <- Hp. apply nth_pc_of. apply Nat.ltb_lt. exact E0. }
  rewrite (nth_upd_default _ _ t _ _ _ H0). destruct (Nat.eqb_spec t 0); [contradiction|reflexivity].
Qed.

(* the master's leave of parsec_taskpool_wait, when it has an effect, is that of the context model *)
Lemma rstep_tp_leave r q :
  master (inner r) = MInTp q -> master (inner (rstep r (RIn 0 (MTpLeave q)))) = MIdle ->
  master (step (inner r) (MTpLeave q)) = MIdle.
Proof.
  intros Hm Hl. destruct (rstep_inner r (RIn 0 (MTpLeave q))) as [E|[e E]].
  - rewrite E, Hm in Hl. discriminate.
  - revert Hl E. cbn [rstep]. destruct (negb _); [intros Hl; rewrite Hm in Hl; discriminate|]. cbn [is_worker_event Nat.eqb].
    destruct (pc_of r 0); try (intros Hl; rewrite Hm in Hl; discriminate).
    destruct (busy_of r 0 =? 0); [|intros Hl; rewrite Hm in Hl; discriminate]. unfold set_inner_busy. cbn [inner]. auto.
Qed.

Definition is_waitS (p : tpc) : bool := match p with TWaitS _ => true | _ => false end.
Definition is_loop (p : tpc) : bool := match p with TLoop => true | _ => false end.
(* the measure of the liveness argument: while the work is done, each step of a thread that does not
   wait in the current generation lowers it (start barrier -> loop -> end barrier) or opens the end barrier *)
Definition phi (r : rstate) : Z := 2 * cnt is_waitS (pcs r) + cnt is_loop (pcs r).

(* all the work given to the context is done and every thread is outside tasks *)
Definition work_done (r : rstate) : Prop :=
  running r = true /\ in_ctxwait (pc_of r 0) = true /\ active (inner r) = 0 /\ (forall t, busy_of r t = 0).

Lemma phi_nonneg r : 0 <= phi r.
Proof. unfold phi. pose proof (cnt_nonneg is_waitS (pcs r)). pose proof (cnt_nonneg is_loop (pcs r)). lia. Qed.

Lemma live_step r : RInv r -> work_done r ->
  exists t, let r' := rstep r (RBar t) in
    (work_done r' /\ phi r' < phi r) \/ (running r' = false /\ in_ctxwait (pc_of r' 0) = true).
Proof.
  intros [Hc Hm] (Hrun & Hin & Hact & Hbusy).
  destruct (v_cnt r Hc) as [Hcnt Hlt].
  destruct (exists_false (wcur (bgen r)) (pcs r)) as (t & p & Hp & Hw); [lia|].
  assert (Ht : (t < length (pcs r))%nat) by (apply nth_error_Some; congruence).
  pose proof (v_pc r Hc t p Hp) as Hk. rewrite Hrun in Hk.
  assert (Hpc : pc_of r t = p) by (apply pc_of_nth; exact Hp).
  assert (H0 : (0 < length (pcs r))%nat) by lia.
  assert (Hseen : seen_active r = 0).
  { unfold seen_active. rewrite Hact. destruct (pc_of r 0); try discriminate; reflexivity. }
  exists t. cbn [rstep]. destruct (Nat.ltb_spec t (length (pcs r))); [|lia]. rewrite Hpc.
  destruct p as [| |g| |g|]; cbn in Hk, Hw.
  - subst t. rewrite Hpc in Hin. discriminate.
  - (* loop test: arrives *)
    rewrite Hbusy, Hseen. cbn [Z.eqb andb]. unfold arrive.
    destruct (Nat.eqb_spec (S (bcnt r)) (length (pcs r))) as [Hl|Hl].
    + right. cbn [running pcs]. rewrite Hrun. split; [reflexivity|].
      unfold pc_of. cbn [pcs]. rewrite (pc0_after_upd r t _ _ Hp). destruct (Nat.eqb t 0); [reflexivity|exact Hin].
    + left. split.
      * split; [exact Hrun|]. split; [|split; [exact Hact|exact Hbusy]].
        unfold pc_of. cbn [pcs]. rewrite (pc0_after_upd r t _ _ Hp). destruct (Nat.eqb t 0); [reflexivity|exact Hin].
      * unfold phi. cbn [pcs]. rewrite !(cnt_upd _ _ _ _ _ Hp). cbn [is_waitS is_loop]. lia.
  - (* released from the start barrier: enters the loop *)
    destruct (Nat.eqb_spec (bgen r) g) as [E|E]; [lia|].
    assert (Hne : t <> 0%nat). { intros ->. rewrite Hpc in Hin. discriminate. }
    rewrite (proj2 (Nat.eqb_neq t 0) Hne). left. split.
    + split; [exact Hrun|]. split; [|split; [exact Hact|exact Hbusy]].
      rewrite (pc0_set_pc r t _ _ Hp), (proj2 (Nat.eqb_neq t 0) Hne). exact Hin.
    + unfold phi, set_pc. cbn [pcs]. rewrite !(cnt_upd _ _ _ _ _ Hp). cbn [is_waitS is_loop]. lia.
  - destruct Hk as [-> _]. rewrite Hpc in Hin. discriminate.
  - apply Nat.eqb_neq in Hw. congruence.
  - discriminate.
Qed.

Lemma live_to_end k : forall r, RInv r -> work_done r -> phi r <= Z.of_nat k ->
  exists sched, let r' := fold_left rstep sched r in running r' = false /\ in_ctxwait (pc_of r' 0) = true.
Proof.
  induction k as [|k IH]; intros r Hi Hd Hphi.
  - destruct (live_step r Hi Hd) as (t & [[Hd' Hlt]|Hend]).
    + pose proof (phi_nonneg (rstep r (RBar t))). lia.
    + exists [RBar t]. exact Hend.
  - destruct (live_step r Hi Hd) as (t & [[Hd' Hlt]|Hend]).
    + destruct (IH (rstep r (RBar t)) (rstep_inv r _ Hi) Hd') as (sched & Hs); [lia|].
      exists (RBar t :: sched). exact Hs.
    + exists [RBar t]. exact Hend.
Qed.

(* from every state of the invariant (every reachable state, [rrun_inv]) in which the master is inside
   parsec_context_wait, the work is done and the threads are outside tasks, there is a schedule (of
   barrier steps only) after which the master has been released from the final barrier — nobody is
   left behind *)
Theorem P_master_is_released r : RInv r ->
  work_done r -> exists sched, pc_of (fold_left rstep sched r) 0 = TPassed.
Proof.
  intros Hi Hd.
  destruct (live_to_end (Z.to_nat (phi r)) r Hi Hd) as (sched & Hrun & Hin).
  { pose proof (phi_nonneg r). lia. }
  set (r1 := fold_left rstep sched r) in *.
  assert (Hi1 : RInv r1) by (apply fold_RInv; exact Hi).
  destruct Hi1 as [Hc1 Hm1].
  assert (H0 : (0 < length (pcs r1))%nat) by (destruct (v_len r1 Hc1); lia).
  pose proof (nth_pc_of r1 0 H0) as Hp0.
  pose proof (v_pc r1 Hc1 0%nat _ Hp0) as Hk. rewrite Hrun in Hk.
  destruct (pc_of r1 0) as [| |g| |g|] eqn:E; try discriminate.
  - exists (sched ++ [RBar 0]). rewrite fold_left_app. fold r1. cbn [fold_left].
    cbn in Hk. apply (proj1 (P_stale_waiter_passes r1 0%nat g H0 ltac:(lia))). exact E.
  - exists sched. exact E.
Qed.

