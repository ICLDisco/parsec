(* Element conservation of the container models of Sched/SchedDefs.v:
   every operation permutes what it is given (nothing lost, nothing duplicated).
   In order: lists and list.h (sorted chaining, merge sort); hbbuffer.c, one
   buffer and then the buffers of a VP with their parents; maxheap.c and the
   heaps ltq groups a ring into; the spq list; the lifos of ll and llp
   (lifo_merge_ring). *)
From Coq Require Import ZArith List Bool Arith Lia Permutation.
From PV Require Import Base.ListX Sched.SchedDefs Sched.SchedPerm.
Import ListNotations.

Lemma insert_at_perm {A} i (x : A) l : Permutation (insert_at i x l) (x :: l).
Proof.
  unfold insert_at. rewrite <- (firstn_skipn i l) at 3.
  apply Permutation_sym, Permutation_middle.
Qed.

Lemma set_nth_length {A} i (v : A) l : length (set_nth i v l) = length l.
Proof. revert i; induction l as [|x l IH]; intros [|i]; cbn; auto. Qed.

Lemma set_nth_ge {A} i (v : A) l : length l <= i -> set_nth i v l = l.
Proof.
  revert i; induction l as [|x l IH]; intros [|i] H; cbn in *; auto; try lia.
  f_equal. apply IH. lia.
Qed.

Lemma nth_set_nth_same {A} i (v d : A) l : i < length l -> nth i (set_nth i v l) d = v.
Proof. revert i; induction l as [|x l IH]; intros [|i] H; cbn in *; auto; try lia. apply IH. lia. Qed.

Lemma nth_set_nth_other {A} i j (v d : A) l : i <> j -> nth j (set_nth i v l) d = nth j l d.
Proof.
  revert i j; induction l as [|x l IH]; intros [|i] [|j] H; cbn in *; auto; try lia.
Qed.

(* replacing the i-th of a list of "bags" by v trades what it held for what v holds *)
Lemma flat_set_nth {A B} (f : A -> list B) (d : A) i v l : i < length l ->
  Permutation (f (nth i l d) ++ flat_map f (set_nth i v l)) (f v ++ flat_map f l).
Proof.
  revert i; induction l as [|x l IH]; intros [|i] H; cbn in *; try lia.
  - perm_solve.
  - transitivity (f x ++ f (nth i l d) ++ flat_map f (set_nth i v l)); [perm_solve|].
    rewrite IH by lia. perm_solve.
Qed.

Lemma flat_map_nil_nth {A B} (f : A -> list B) (d : A) l :
  (forall i, i < length l -> f (nth i l d) = []) -> flat_map f l = [].
Proof.
  intros H. apply flat_map_nil. intros x Hx.
  destruct (In_nth l x d Hx) as (i & Hi & <-). apply H, Hi.
Qed.

Lemma flat_map_single {A} (l : list A) : flat_map (fun x => [x]) l = l.
Proof. induction l; cbn; congruence. Qed.

Lemma set_nth_perm {A} (d : A) i v l : i < length l ->
  Permutation (nth i l d :: set_nth i v l) (v :: l).
Proof.
  intros H. pose proof (flat_set_nth (fun x => [x]) d i v l H) as P.
  rewrite !flat_map_single in P. exact P.
Qed.

Lemma nth_lt {A} i (l : list A) d : nth i l d <> d -> i < length l.
Proof.
  intros H. destruct (Nat.lt_ge_cases i (length l)); auto.
  rewrite nth_overflow in H; auto; congruence.
Qed.

Lemma concat_flat_map {A} (l : list (list A)) : concat l = flat_map (fun x => x) l.
Proof. induction l; cbn; congruence. Qed.

Lemma concat_set_nth {A} i (v : list A) ls : i < length ls ->
  Permutation (nth i ls [] ++ concat (set_nth i v ls)) (v ++ concat ls).
Proof. rewrite !concat_flat_map. apply (flat_set_nth (fun x => x)). Qed.

Lemma last_cons {A} l : forall a d : A, last (a :: l) d = last l a.
Proof.
  induction l as [|b l IH]; intros a d; [reflexivity|].
  change (last (a :: b :: l) d) with (last (b :: l) d). rewrite !IH. reflexivity.
Qed.
Lemma removelast_last {A} (x : A) r : removelast (x :: r) ++ [last r x] = x :: r.
Proof. rewrite <- (last_cons r x x). symmetry. apply app_removelast_last. discriminate. Qed.

Lemma pop_back_some {A} (l l' : list A) t : pop_back l = (l', Some t) -> l = l' ++ [t].
Proof.
  destruct l as [|x r]; cbn [pop_back]; intros H; inversion H; subst.
  symmetry. apply removelast_last.
Qed.
Lemma pop_back_none {A} (l l' : list A) : pop_back l = (l', None) -> l = [] /\ l' = [].
Proof. destruct l; cbn; intros H; inversion H; auto. Qed.

Lemma pop_front_sel {A} (l l' : list A) o : pop_front l = (l', o) ->
  match o with Some t => Permutation l (t :: l') | None => l' = l end.
Proof. destruct l; cbn; intros H; inversion H; subst; auto. Qed.
Lemma pop_back_sel {A} (l l' : list A) o : pop_back l = (l', o) ->
  match o with Some t => Permutation l (t :: l') | None => l' = l end.
Proof.
  intros H. destruct o; [apply pop_back_some in H; subst; perm_solve|].
  apply pop_back_none in H. destruct H; subst; auto.
Qed.

Lemma chain_from_perm items : forall l pos, Permutation (chain_from l pos items) (items ++ l).
Proof.
  induction items as [|e r IH]; intros l pos; cbn [chain_from app]; [reflexivity|].
  rewrite IH, insert_at_perm. perm_solve.
Qed.

Lemma chain_sorted_perm l items : Permutation (chain_sorted l items) (items ++ l).
Proof.
  unfold chain_sorted. destruct items as [|e r]; [reflexivity|].
  destruct l; rewrite chain_from_perm; perm_solve.
Qed.

Lemma merge_asc_perm p : forall q, Permutation (merge_asc p q) (p ++ q).
Proof.
  induction p as [|a p IHp]; intros q.
  - destruct q; cbn; apply Permutation_refl.
  - induction q as [|b q IHq].
    + cbn. rewrite app_nil_r. apply Permutation_refl.
    + cbn [merge_asc]. destruct (Z.ltb (tprio a) (tprio b)).
      * cbn. apply perm_skip. apply IHp.
      * eapply Permutation_trans; [apply perm_skip; exact IHq|].
        apply (Permutation_middle (a :: p) q b).
Qed.

Lemma ms_pass_perm fuel k : forall l, Permutation (ms_pass fuel k l) l.
Proof.
  induction fuel as [|f IH]; intros l; cbn [ms_pass]; [apply Permutation_refl|].
  destruct l as [|x l]; [apply Permutation_refl|].
  set (L := x :: l).
  eapply Permutation_trans; [apply Permutation_app; [apply merge_asc_perm|apply IH]|].
  rewrite skipn_add, <- app_assoc, (firstn_skipn k (skipn k L)), (firstn_skipn k L).
  apply Permutation_refl.
Qed.

Lemma ms_loop_perm fuel : forall k l, Permutation (ms_loop fuel k l) l.
Proof.
  induction fuel as [|f IH]; intros k l; cbn [ms_loop]; [apply Permutation_refl|].
  destruct (length l <=? k + k).
  - apply ms_pass_perm.
  - eapply Permutation_trans; [apply IH|apply ms_pass_perm].
Qed.
Lemma list_sort_perm l : Permutation (list_sort l) l.
Proof. apply ms_loop_perm. Qed.

Lemma rnd_assign_ids ring : forall rnds d, map tid (rnd_assign ring rnds d) = map tid ring.
Proof.
  induction ring as [|t r IH]; intros rnds d; cbn [rnd_assign map]; auto.
  destruct rnds as [|x rs]; cbn; f_equal; apply IH.
Qed.

Section HBP.
  Context {A : Type}.
  Variable pr : A -> Z.
  Definition ol (o : option A) : list A := match o with None => [] | Some x => [x] end.
  Definition bitems (b : list (option A)) : list A := flat_map ol b.
  Definition allitems (bufs : list (list (option A))) : list A := flat_map bitems bufs.

  Lemma hb_items_eq (s : hbst A) : hb_items s = allitems (hb_bufs s) ++ hb_sys s.
  Proof. reflexivity. Qed.

  Lemma fill_spec b : forall elts b' left, fill A b elts = (b', left) ->
    Permutation (bitems b' ++ left) (bitems b ++ elts) /\ length b' = length b.
  Proof.
    induction b as [|s rest IH]; intros elts b' left H; cbn [fill] in H.
    - inversion H; subst. auto.
    - destruct elts as [|e es]; [inversion H; subst; auto|].
      destruct s as [x|].
      + destruct (fill A rest (e :: es)) as [r l] eqn:E. inversion H; subst.
        destruct (IH _ _ _ E) as [Hp Hl]. cbn. split; [apply perm_skip, Hp|f_equal; exact Hl].
      + destruct (fill A rest es) as [r l] eqn:E. inversion H; subst.
        destruct (IH _ _ _ E) as [Hp Hl]. cbn. split; [|f_equal; exact Hl].
        eapply Permutation_trans; [apply perm_skip, Hp|apply Permutation_middle].
  Qed.
  Lemma fill_length b : forall elts b' left, fill A b elts = (b', left) -> length b' = length b.
  Proof. intros elts b' left H. apply (fill_spec _ _ _ _ H). Qed.

  (* best_idx: the running best and the result point at filled slots of the whole array *)
  Lemma best_idx_filled b : forall pre best k,
    (forall k' p, best = Some (k', p) -> nth k' (pre ++ b) None <> None) ->
    best_idx A pr b (length pre) best = Some k -> nth k (pre ++ b) None <> None.
  Proof.
    induction b as [|s r IH]; intros pre best k Hb H; cbn [best_idx] in H.
    - destruct best as [[k' p]|]; inversion H; subst. eapply Hb; reflexivity.
    - assert (E : pre ++ s :: r = (pre ++ [s]) ++ r) by (rewrite <- app_assoc; reflexivity).
      assert (El : S (length pre) = length (pre ++ [s])) by (rewrite app_length; cbn; lia).
      assert (Hc : forall c, s = Some c -> nth (length pre) (pre ++ s :: r) None <> None)
        by (intros c ->; rewrite nth_middle; discriminate).
      rewrite E in *. rewrite El in H.
      destruct s as [c|]; [specialize (Hc c eq_refl)|eapply IH; eauto].
      destruct best as [[k' bp]|]; [destruct (Z.ltb bp (pr c))|];
        (eapply IH; [|exact H]); intros k'' p' Hk; inversion Hk; subst; eauto.
  Qed.
  Lemma best_idx_none b : forall i best, best_idx A pr b i best = None -> best = None /\ bitems b = [].
  Proof.
    induction b as [|s r IH]; intros i best H; cbn [best_idx] in H.
    - destruct best as [[k' p]|]; [discriminate|auto].
    - destruct s as [c|].
      + destruct best as [[k' bp]|].
        * destruct (Z.ltb bp (pr c)); apply IH in H; destruct H; discriminate.
        * apply IH in H; destruct H; discriminate.
      + apply IH in H. cbn. exact H.
  Qed.

  Lemma pop_best_some b b' x : pop_best A pr b = (b', Some x) -> Permutation (bitems b) (x :: bitems b').
  Proof.
    unfold pop_best. destruct (best_idx A pr b 0 None) as [i|]; [|discriminate].
    destruct (nth i b None) as [c|] eqn:E; [|discriminate].
    intros H; inversion H; subst. symmetry.
    assert (Hi : i < length b) by (apply (nth_lt i b None); congruence).
    pose proof (flat_set_nth ol None i None b Hi) as P. rewrite E in P. exact P.
  Qed.
  Lemma pop_best_none b b' : pop_best A pr b = (b', None) -> b' = b /\ bitems b = [].
  Proof.
    unfold pop_best. destruct (best_idx A pr b 0 None) as [i|] eqn:Eb.
    - destruct (nth i b None) as [c|] eqn:E; [discriminate|].
      apply (best_idx_filled b [] None i) in Eb; [contradiction|discriminate].
    - intros H; inversion H; subst. split; auto. apply best_idx_none in Eb. apply Eb.
  Qed.
  Lemma pop_best_length b b' o : pop_best A pr b = (b', o) -> length b' = length b.
  Proof.
    unfold pop_best. destruct (best_idx A pr b 0 None) as [i|]; [|intros H; inversion H; auto].
    destruct (nth i b None); intros H; inversion H; subst; auto using set_nth_length.
  Qed.

  Lemma prio_scan_range b : forall i best bp k, prio_scan A pr b i best bp = Some k ->
    best = Some k \/ (i <= k < i + length b).
  Proof.
    induction b as [|s r IH]; intros i best bp k H; cbn [prio_scan] in H.
    - left; auto.
    - destruct s as [c|].
      + destruct (Z.ltb (pr c) bp); apply IH in H; destruct H as [H|H]; cbn [length]; try (right; lia); auto.
        inversion H; subst. right; lia.
      + inversion H; subst. right. cbn; lia.
  Qed.

  Lemma prio_push_spec ring : forall b ej b' ej', prio_push A pr b ej ring = (b', ej') ->
    Permutation (bitems b' ++ ej') (bitems b ++ ej ++ ring) /\ length b' = length b.
  Proof.
    induction ring as [|t rest IH]; intros b ej b' ej' H; cbn [prio_push] in H.
    - inversion H; subst. rewrite app_nil_r. auto.
    - destruct (prio_scan A pr b 0 None (pr t)) as [i|] eqn:Es; [|inversion H; subst; split; [perm_solve|auto]].
      assert (Hi : i < length b).
      { apply prio_scan_range in Es. destruct Es as [Es|Es]; [discriminate|lia]. }
      (* slot i takes t; what it held, if anything, joins the ejected *)
      assert (Hx : Permutation (ol (nth i b None) ++ bitems (set_nth i (Some t) b)) (t :: bitems b))
        by apply (flat_set_nth ol None i (Some t) b Hi).
      destruct (nth i b None) as [c|]; apply IH in H; destruct H as [H Hl];
        (split; [|rewrite Hl; apply set_nth_length]); rewrite H; cbn [ol app] in Hx.
      + transitivity ((c :: bitems (set_nth i (Some t) b)) ++ ej ++ rest); [perm_solve|].
        rewrite Hx. perm_solve.
      + rewrite Hx. perm_solve.
  Qed.
End HBP.

Section HBS.
  Context {A : Type}.
  Variable pr : A -> Z.
  Variable parent : nat -> option nat.

  (* replacing buffer i by b' when b' ++ extra is a permutation of old ++ added *)
  Lemma bufs_replace i (bufs : list (list (option A))) b' extra added :
    Permutation (bitems b' ++ extra) (bitems (nth i bufs []) ++ added) ->
    (length bufs <= i -> b' = []) ->
    Permutation (allitems (set_nth i b' bufs) ++ extra) (allitems bufs ++ added).
  Proof.
    intros H Hout. destruct (Nat.lt_ge_cases i (length bufs)) as [Hi|Hi].
    - apply (Permutation_app_inv_l (bitems (nth i bufs []))).
      rewrite app_assoc, (flat_set_nth bitems [] i b' bufs Hi).
      transitivity ((bitems b' ++ extra) ++ allitems bufs); [perm_solve|]. rewrite H. perm_solve.
    - rewrite set_nth_ge by auto. rewrite (Hout Hi) in H. rewrite nth_overflow in H by auto.
      cbn in H. rewrite H. apply Permutation_refl.
  Qed.

  Lemma fill_nil elts : fill A [] elts = ([], elts).
  Proof. reflexivity. Qed.

  (* s' holds what s holds and [added], in as many buffers *)
  Definition hb_adds (s : hbst A) (added : list A) (s' : hbst A) : Prop :=
    Permutation (hb_items s') (hb_items s ++ added) /\ length (hb_bufs s') = length (hb_bufs s).

  Lemma hb_adds_nil s : hb_adds s [] s.
  Proof. split; [rewrite app_nil_r|]; reflexivity. Qed.
  Lemma hb_adds_trans s a s1 b s2 : hb_adds s a s1 -> hb_adds s1 b s2 -> hb_adds s (a ++ b) s2.
  Proof. intros [H1 L1] [H2 L2]. split; [rewrite H2, H1, app_assoc; reflexivity|congruence]. Qed.
  Lemma hb_adds_sys s r : hb_adds s r (mkHB (hb_bufs s) (hb_sys s ++ r)).
  Proof. split; [|reflexivity]. rewrite !hb_items_eq. cbn [hb_bufs hb_sys]. perm_solve. Qed.

  (* buffer b becomes b', having taken all of [ring] but [left], which [up] disposes of *)
  Lemma hb_adds_store s b b' left ring (up : hbst A -> list A -> hbst A) :
    (forall s' r, hb_adds s' r (up s' r)) ->
    Permutation (bitems b' ++ left) (bitems (nth b (hb_bufs s) []) ++ ring) /\
    length b' = length (nth b (hb_bufs s) []) ->
    hb_adds s ring (let s' := mkHB (set_nth b b' (hb_bufs s)) (hb_sys s) in
                    match left with [] => s' | _ :: _ => up s' left end).
  Proof.
    intros Hup [Hp Hl]. set (s' := mkHB (set_nth b b' (hb_bufs s)) (hb_sys s)). cbv zeta.
    assert (Hs : Permutation (hb_items s' ++ left) (hb_items s ++ ring)).
    { rewrite !hb_items_eq. cbn [s' hb_bufs hb_sys].
      transitivity ((allitems (set_nth b b' (hb_bufs s)) ++ left) ++ hb_sys s); [perm_solve|].
      rewrite (bufs_replace b (hb_bufs s) b' left ring Hp); [perm_solve|].
      intros Hge. rewrite nth_overflow in Hl by exact Hge. destruct b'; [reflexivity|discriminate]. }
    assert (Hn : length (hb_bufs s') = length (hb_bufs s)) by apply set_nth_length.
    destruct left as [|l0 lr].
    - rewrite app_nil_r in Hs. split; assumption.
    - destruct (Hup s' (l0 :: lr)) as [H1 H2]. split; [rewrite H1; exact Hs|congruence].
  Qed.

  (* what does not go into buffer b goes to its parent, or to the system queue *)
  Definition push_up (fuel b : nat) (d : Z) (s : hbst A) (r : list A) : hbst A :=
    match parent b with
    | None => mkHB (hb_bufs s) (hb_sys s ++ r)
    | Some p => push_all A parent fuel s p r (d - 1)
    end.
  Lemma push_up_adds fuel b d :
    (forall s b ring d, hb_adds s ring (push_all A parent fuel s b ring d)) ->
    forall s r, hb_adds s r (push_up fuel b d s r).
  Proof. intros IH s r. unfold push_up. destruct (parent b); [apply IH|apply hb_adds_sys]. Qed.

  Lemma push_all_adds fuel : forall s b ring d, hb_adds s ring (push_all A parent fuel s b ring d).
  Proof.
    induction fuel as [|f IH]; intros s b ring d; destruct ring as [|r0 rr]; cbn [push_all];
      try apply hb_adds_nil; [apply hb_adds_sys|].
    pose proof (push_up_adds f b d IH) as Hup.
    destruct (Z.eqb d 0); [|apply Hup].
    destruct (fill A (nth b (hb_bufs s) []) (r0 :: rr)) as [b' left] eqn:Ef.
    apply (hb_adds_store s b b' left (r0 :: rr) (push_up f b d) Hup (fill_spec _ _ _ _ Ef)).
  Qed.

  Lemma push_all_prio_adds fuel s b ring d :
    hb_adds s ring (push_all_prio A pr parent fuel s b ring d).
  Proof.
    destruct ring as [|r0 rr]; cbn [push_all_prio]; [apply hb_adds_nil|].
    pose proof (push_up_adds fuel b d (push_all_adds fuel)) as Hup.
    destruct (Z.eqb d 0); [|apply Hup].
    destruct (prio_push A pr (nth b (hb_bufs s) []) [] (r0 :: rr)) as [b' ej] eqn:Ef.
    apply (hb_adds_store s b b' ej (r0 :: rr) (push_up fuel b d) Hup (prio_push_spec pr _ _ _ _ _ Ef)).
  Qed.

  Lemma pop_best_bufs bufs b b' x : pop_best A pr (nth b bufs []) = (b', Some x) ->
    Permutation (allitems bufs) (x :: allitems (set_nth b b' bufs)).
  Proof.
    intros E. apply (pop_best_some pr) in E.
    assert (Hr : Permutation (allitems (set_nth b b' bufs) ++ [x]) (allitems bufs ++ [])).
    { apply bufs_replace; [rewrite E; perm_solve|].
      intros Hge. rewrite nth_overflow in E by auto. apply Permutation_nil in E. discriminate. }
    rewrite app_nil_r in Hr. rewrite <- Hr. perm_solve.
  Qed.

  Lemma pop_chain_spec order : forall bufs bufs' o, pop_chain A pr bufs order = (bufs', o) ->
    length bufs' = length bufs /\
    match o with
    | Some x => Permutation (allitems bufs) (x :: allitems bufs')
    | None => bufs' = bufs /\ forall b, In b order -> bitems (nth b bufs []) = []
    end.
  Proof.
    induction order as [|b r IH]; intros bufs bufs' o H; cbn [pop_chain] in H.
    - inversion H; subst. repeat split. intros b [].
    - destruct (pop_best A pr (nth b bufs [])) as [b' [y|]] eqn:E.
      + inversion H; subst. split; [apply set_nth_length|apply pop_best_bufs, E].
      + apply pop_best_none in E. destruct (IH _ _ _ H) as [Hl Ho]. split; [exact Hl|].
        destruct o; [exact Ho|]. destruct Ho as [H1 H2]. split; [exact H1|].
        intros b0 [Hb|Hb]; subst; auto. apply E.
  Qed.
End HBS.

Lemma swap_nth_perm l i j : Permutation (swap_nth l i j) l.
Proof.
  unfold swap_nth. destruct (nth_error l i) as [a|] eqn:Ei; [|apply Permutation_refl].
  destruct (nth_error l j) as [b|] eqn:Ej; [|apply Permutation_refl].
  assert (Hi : i < length l) by (apply nth_error_Some; congruence).
  assert (Hj : j < length l) by (apply nth_error_Some; congruence).
  pose proof (set_nth_perm a j a l Hj) as H1. rewrite (nth_error_nth l j a Ej) in H1.
  assert (Hi' : i < length (set_nth j a l)) by (rewrite set_nth_length; auto).
  pose proof (set_nth_perm a i b (set_nth j a l) Hi') as H2.
  assert (Ni : nth i (set_nth j a l) a = a).
  { destruct (Nat.eq_dec j i) as [->|Hne]; [apply nth_set_nth_same; auto|].
    rewrite nth_set_nth_other by auto. apply nth_error_nth, Ei. }
  rewrite Ni in H2.
  apply (Permutation_cons_inv (a := a)). rewrite H2. exact H1.
Qed.

Lemma sift_up_perm fuel : forall l i, Permutation (sift_up fuel l i) l.
Proof.
  induction fuel as [|f IH]; intros l i; cbn [sift_up]; [apply Permutation_refl|].
  destruct (i <=? 1); [apply Permutation_refl|].
  destruct (nth_error l (Nat.div2 i - 1)) as [a|]; [|apply Permutation_refl].
  destruct (nth_error l (i - 1)) as [e|]; [|apply Permutation_refl].
  destruct (Z.ltb (tprio a) (tprio e)); [|apply Permutation_refl].
  rewrite IH. apply swap_nth_perm.
Qed.
Lemma sift_down_perm fuel : forall l i, Permutation (sift_down fuel l i) l.
Proof.
  induction fuel as [|f IH]; intros l i; cbn [sift_down]; [apply Permutation_refl|].
  destruct (nth_error l (i - 1)) as [b|]; [|apply Permutation_refl].
  match goal with |- Permutation (if ?c then _ else _) _ => destruct c end.
  - rewrite IH. apply swap_nth_perm.
  - match goal with |- Permutation (if ?c then _ else _) _ => destruct c end.
    + rewrite IH. apply swap_nth_perm.
    + apply Permutation_refl.
Qed.

Local Opaque sift_up sift_down.

Lemma heap_insert_perm h e : Permutation (heap_insert h e) (e :: h).
Proof. unfold heap_insert. rewrite sift_up_perm. perm_solve. Qed.

Lemma heap_remove_some h t h' : heap_remove h = (Some t, h') -> Permutation h (t :: h').
Proof.
  destruct h as [|top [|x r]]; cbn [heap_remove]; intros H; inversion H; subst.
  - apply Permutation_refl.
  - apply perm_skip. rewrite sift_down_perm, <- (removelast_last x r) at 1. perm_solve.
Qed.
Lemma heap_remove_nonempty h : h <> [] -> exists t h', heap_remove h = (Some t, h').
Proof.
  destruct h as [|top rest]; [congruence|]. intros _. unfold heap_remove.
  destruct rest; eauto.
Qed.
Lemma heap_remove_none h h' : heap_remove h = (None, h') -> h = [].
Proof. unfold heap_remove. destruct h as [|top [|x r]]; intros H; inversion H; auto. Qed.

Lemma split_lv_perm fuel : forall w l x y, length l <= fuel -> 0 < w -> split_lv fuel w l = (x, y) ->
  Permutation l (x ++ y).
Proof.
  induction fuel as [|f IH]; intros w l x y Hl Hw H; cbn [split_lv] in H.
  - destruct l; [|cbn in Hl; lia]. inversion H; subst. apply Permutation_refl.
  - destruct l as [|z l]; [inversion H; subst; apply Permutation_refl|].
    set (L := z :: l) in *.
    destruct (split_lv f (w + w) (skipn w (skipn w L))) as [x' y'] eqn:E.
    inversion H; subst; clear H.
    assert (Hlen : length (skipn w (skipn w L)) <= f).
    { rewrite !skipn_length. subst L. cbn [length] in *. lia. }
    apply IH in E; [|auto|lia].
    rewrite <- (firstn_skipn w L) at 1. rewrite <- (firstn_skipn w (skipn w L)) at 1.
    rewrite E. perm_solve.
Qed.

Lemma heap_split_some h t hp nh : heap_split h = (Some t, hp, nh) -> Permutation h (t :: hp ++ nh).
Proof.
  unfold heap_split. destruct h as [|top rest]; [discriminate|].
  destruct rest as [|x [|y r]]; intros H.
  - inversion H; subst. apply Permutation_refl.
  - inversion H; subst. apply Permutation_refl.
  - destruct (split_lv (length (x :: y :: r)) 1 (x :: y :: r)) as [lft rgt] eqn:E.
    inversion H; subst. apply perm_skip.
    apply split_lv_perm in E; [|auto|lia]. rewrite E. perm_solve.
Qed.
Lemma heap_split_nonempty h : h <> [] -> exists t hp nh, heap_split h = (Some t, hp, nh).
Proof.
  destruct h as [|top rest]; [congruence|]. intros _. unfold heap_split.
  destruct rest as [|x [|y r]]; eauto.
  destruct (split_lv (length (x :: y :: r)) 1 (x :: y :: r)); eauto.
Qed.
Lemma heap_split_none h hp nh : heap_split h = (None, hp, nh) -> h = [].
Proof.
  unfold heap_split. destruct h as [|top [|x [|y r]]]; intros H; inversion H; auto.
  destruct (split_lv (length (x :: y :: r)) 1 (x :: y :: r)); discriminate.
Qed.
(* the second half gets a share as soon as the first level does not take everything *)
Lemma split_lv_snd fuel w l x y : 0 < w < length l -> 0 < fuel -> split_lv fuel w l = (x, y) -> y <> [].
Proof.
  intros Hw Hf H. destruct fuel as [|f]; [lia|]. cbn [split_lv] in H.
  destruct l as [|z l]; [cbn in Hw; lia|].
  destruct (split_lv f (w + w) (skipn w (skipn w (z :: l)))) as [x' y'].
  inversion H; subst. intros E. apply app_eq_nil in E. destruct E as [E _].
  apply (f_equal (@length _)) in E. rewrite firstn_length, skipn_length in E. cbn [length] in E, Hw. lia.
Qed.

(* heap_split_and_steal leaves *heap_ptr NULL only when nothing else is left *)
Lemma heap_split_hp_nil h t nh : heap_split h = (Some t, [], nh) -> nh = [].
Proof.
  unfold heap_split. destruct h as [|top [|x [|y rr]]]; intros Es; try (inversion Es; subst; auto; fail).
  destruct (split_lv (length (x :: y :: rr)) 1 (x :: y :: rr)) as [lft rgt] eqn:El.
  inversion Es; subst. apply split_lv_snd in El; [congruence|cbn; lia|cbn; lia].
Qed.

Lemma ltq_group_perm rest : forall h cur, Permutation (concat (ltq_group h cur rest)) (h ++ cur :: rest).
Proof.
  induction rest as [|nx r IH]; intros h cur; cbn [ltq_group].
  - cbn. rewrite app_nil_r, heap_insert_perm. perm_solve.
  - destruct (Z.eqb (ttag cur) (ttag nx)).
    + rewrite IH, heap_insert_perm. perm_solve.
    + cbn [concat]. rewrite IH, heap_insert_perm. perm_solve.
Qed.
Lemma heap_insert_nonempty h e : heap_insert h e <> [].
Proof.
  intros E. pose proof (heap_insert_perm h e) as H. rewrite E in H.
  apply Permutation_nil in H. discriminate.
Qed.
Lemma ltq_group_nonempty rest : forall h cur, Forall (fun g => g <> []) (ltq_group h cur rest).
Proof.
  induction rest as [|nx r IH]; intros h cur; cbn [ltq_group].
  - constructor; [apply heap_insert_nonempty|constructor].
  - destruct (Z.eqb (ttag cur) (ttag nx)); [apply IH|].
    constructor; [apply heap_insert_nonempty|apply IH].
Qed.
Lemma ltq_group_nonnil rest h cur : ltq_group h cur rest <> [].
Proof.
  revert h cur; induction rest as [|nx r IH]; intros h cur; cbn [ltq_group]; [discriminate|].
  destruct (Z.eqb (ttag cur) (ttag nx)); [apply IH|discriminate].
Qed.

Lemma spq_sched_perm q : forall d ring, Permutation (flat_map snd (spq_sched q d ring)) (flat_map snd q ++ ring).
Proof.
  induction q as [|[p l] r IH]; intros d ring; cbn [spq_sched].
  - cbn. rewrite app_nil_r, chain_sorted_perm. perm_solve.
  - destruct (Z.eqb p d).
    + cbn. rewrite chain_sorted_perm. perm_solve.
    + destruct (Z.ltb d p).
      * cbn. rewrite chain_sorted_perm. perm_solve.
      * cbn. rewrite IH. perm_solve.
Qed.
Lemma spq_sel_pend q : forall q' o, spq_sel q = (q', o) ->
  match o with
  | Some t => flat_map snd q = t :: flat_map snd q'
  | None => q' = q /\ flat_map snd q = []
  end.
Proof.
  induction q as [|[p l] r IH]; intros q' o H; cbn [spq_sel] in H.
  - inversion H; auto.
  - destruct l as [|x l']; [|inversion H; subst; reflexivity].
    destruct (spq_sel r) as [r' o'] eqn:E. inversion H; subst. specialize (IH _ _ eq_refl).
    destruct o; cbn; [exact IH|]. destruct IH as [-> IH]. auto.
Qed.

Lemma pop_lifos_spec order : forall ls ls' o, pop_lifos ls order = (ls', o) ->
  length ls' = length ls /\
  match o with
  | Some t => Permutation (concat ls) (t :: concat ls')
  | None => ls' = ls /\ forall i, In i order -> nth i ls [] = []
  end.
Proof.
  induction order as [|i r IH]; intros ls ls' o H; cbn [pop_lifos] in H.
  - inversion H; subst. repeat split. intros i [].
  - destruct (nth i ls []) as [|x l'] eqn:E.
    + destruct (IH _ _ _ H) as [Hl Ho]. split; [exact Hl|].
      destruct o; [exact Ho|]. destruct Ho as [H1 H2]. split; [exact H1|].
      intros j [Hj|Hj]; subst; auto.
    + inversion H; subst. split; [apply set_nth_length|].
      assert (Hi : i < length ls) by (apply (nth_lt i ls []); rewrite E; discriminate).
      pose proof (concat_set_nth i l' ls Hi) as P. rewrite E in P.
      apply (Permutation_app_inv_l l'). rewrite <- P. perm_solve.
Qed.

(* [mid] is only non-empty while `next` is strictly above the ring's last
   element, in which case the code never takes the "all at once" branch that
   would unlink it *)
Definition llp_ok (pre mid suf ring : list task) : Prop :=
  mid = [] \/ (pre <> [] /\ match ring with
                           | [] => True
                           | r0 :: rest => match suf with
                                           | [] => False
                                           | n :: _ => (tprio (last rest r0) < tprio n)%Z
                                           end
                           end).

(* llp_adv stays put or empties [mid] *)
Lemma llp_adv_spec dist rp ring suf : forall pre mid d pre' mid' suf' d',
  llp_adv dist rp pre mid suf d = (pre', mid', suf', d') -> llp_ok pre mid suf ring ->
  pre' ++ mid' ++ suf' = pre ++ mid ++ suf /\ llp_ok pre' mid' suf' ring.
Proof.
  induction suf as [|n s IH]; intros pre mid d pre' mid' suf' d' H Hok; cbn [llp_adv] in H.
  - inversion H; subst. auto.
  - destruct (negb ((Z.ltb d dist) || (Z.ltb rp (tprio n)))).
    + apply IH in H; [|left; reflexivity]. destruct H as [H1 H2]. split; [|exact H2].
      rewrite H1. cbn. rewrite <- !app_assoc. reflexivity.
    + inversion H; subst. auto.
Qed.

Lemma llp_merge_perm dist ring : forall pre mid suf d, llp_ok pre mid suf ring ->
  Permutation (llp_merge dist pre mid suf d ring) (pre ++ mid ++ suf ++ ring).
Proof.
  induction ring as [|r0 rest IH]; intros pre mid suf d Hok; cbn [llp_merge].
  - rewrite app_nil_r. apply Permutation_refl.
  - destruct (llp_adv dist (tprio r0) pre mid suf d) as [[[pre' mid'] suf'] d'] eqn:Ea.
    destruct (llp_adv_spec _ _ _ _ _ _ _ _ _ _ _ Ea Hok) as [Heq Hok'].
    rewrite (app_assoc mid), (app_assoc pre), <- Heq, <- !app_assoc.
    match goal with |- Permutation (if ?c then _ else _) _ => destruct c eqn:Efit end.
    + (* the whole ring goes between prev and next *)
      assert (Hm : mid' = []).
      { destruct Hok' as [Hm|[_ Hs]]; [exact Hm|].
        destruct suf' as [|n s]; [contradiction|]. apply negb_true_iff, Z.ltb_ge in Efit. lia. }
      subst. perm_solve.
    + destruct suf' as [|n s]; [discriminate|]. apply negb_false_iff, Z.ltb_lt in Efit.
      destruct pre' as [|p0 pr'].
      * assert (Hm : mid' = []) by (destruct Hok' as [Hm|[Hp _]]; [exact Hm|congruence]).
        subst. rewrite IH; [perm_solve|]. left; auto.
      * rewrite IH; [perm_solve|]. right. split; [discriminate|].
        destruct rest as [|r1 rest']; auto.
        rewrite last_cons in Efit. exact Efit.
Qed.

Lemma llp_chain_perm l d ring : Permutation (llp_chain l d ring) (l ++ ring).
Proof.
  unfold llp_chain. destruct ring as [|r0 rest]; [rewrite app_nil_r; apply Permutation_refl|].
  match goal with |- Permutation (if ?c then _ else _) _ => destruct c end.
  - perm_solve.
  - rewrite llp_merge_perm; [perm_solve|]. left; auto.
Qed.
