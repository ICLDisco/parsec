(* C08 over histories: the dispatch layer (next_task retention, schedule_vp,
   get_next_task, drain) on top of any of the 11 modules; every operation keeps
   [vinv] and conserves what is held ([vstep_cons], [vrun_spec]), from which
   [conservation], [drain_all] and [exactly_once] follow. *)
From Coq Require Import ZArith List Bool Arith Lia Permutation.
From PV Require Import Base.Tac Sched.SchedDefs Sched.SchedPerm Sched.SchedContProofs Sched.SchedProofs.
Import ListNotations.

Lemma vpend_eq {m} (s : vstate m) : vpend s = bitems (v_next s) ++ mpend m (v_mod s).
Proof. reflexivity. Qed.

Definition vinv {m} (c : config) (s : vstate m) : Prop :=
  minv m c (v_mod s) /\ length (v_next s) = cn c.

(* what an operation hands to the scheduler / what its observation hands back *)
Definition op_in (o : op) : list Z :=
  match o with
  | OSched _ _ ring _ | OVp _ _ ring _ => ids ring
  | _ => []
  end.
Definition ob_out (b : ob) : list Z :=
  match b with
  | ObNone | ObSel None => []
  | ObSel (Some t) => [tid t]
  | ObDrain l => ids (map snd l)
  end.

Lemma vinit_inv m c : vinv c (vinit m c).
Proof. split; [apply minv_init|apply repeat_length]. Qed.
Lemma vinit_pend m c : vpend (vinit m c) = [].
Proof.
  rewrite vpend_eq. cbn [vinit v_next v_mod]. rewrite mpend_init, app_nil_r.
  induction (cn c); cbn; auto.
Qed.

Lemma ids_app a b : ids (a ++ b) = ids a ++ ids b.
Proof. apply map_app. Qed.

(* writing v into the slot of stream es trades what the slot held for v *)
Lemma slot_set {m} c (s : vstate m) es v : vinv c s ->
  let s1 := mkV (v_mod s) (set_nth (norm c es) v (v_next s)) in
  vinv c s1 /\ Permutation (ol (nth (norm c es) (v_next s) None) ++ vpend s1) (ol v ++ vpend s).
Proof.
  intros [Hm Hn]. split; [split; [exact Hm|cbn; rewrite set_nth_length; exact Hn]|].
  assert (Hlt : norm c es < length (v_next s)) by (rewrite Hn; apply norm_lt).
  rewrite !vpend_eq, !app_assoc. apply Permutation_app_tail, (flat_set_nth ol None _ _ _ Hlt).
Qed.

Lemma vsched_spec {m} c (s : vstate m) es d ring rnds : vinv c s ->
  vinv c (vsched c s es d ring rnds) /\
  Permutation (ids (vpend (vsched c s es d ring rnds))) (ids (vpend s) ++ ids ring).
Proof.
  intros [Hm Hn]. unfold vsched. destruct ring as [|t r].
  - split; [split; auto|]. cbn. rewrite app_nil_r. apply Permutation_refl.
  - destruct (msched_spec m c (v_mod s) es d (t :: r) rnds Hm) as [Hm' Hp]. split; [split; auto|].
    rewrite !vpend_eq. cbn [v_mod v_next]. rewrite !ids_app, Hp. perm_solve.
Qed.

Lemma vvp_spec {m} c (s : vstate m) oes d ring rnds : vinv c s ->
  vinv c (vvp c s oes d ring rnds) /\
  Permutation (ids (vpend (vvp c s oes d ring rnds))) (ids (vpend s) ++ ids ring).
Proof.
  intros Hi. unfold vvp. destruct oes as [es0|]; [|apply vsched_spec; auto].
  destruct (Z.eqb d 0); [|apply vsched_spec; auto].
  destruct (nth (norm c es0) (v_next s) None) as [t0|] eqn:En; [apply vsched_spec; auto|].
  destruct ring as [|t rest]; [apply vsched_spec; auto|].
  destruct (slot_set c s es0 (Some t) Hi) as [Hi1 Hp]. rewrite En in Hp. cbn [ol app] in Hp.
  destruct (vsched_spec c _ (norm c es0) d rest rnds Hi1) as [H1 H2].
  split; [exact H1|]. rewrite H2, Hp. cbn [ids map]. perm_solve.
Qed.

Lemma vsel_spec {m} c (s : vstate m) es s' o : vinv c s -> vsel c s es = (s', o) ->
  vinv c s' /\ match o with
               | Some t => Permutation (vpend s) (t :: vpend s')
               | None => s' = s
               end.
Proof.
  intros [Hm Hn] H. unfold vsel in H.
  destruct (msel m c (v_mod s) es) as [sm om] eqn:Es. injection H as <- <-.
  destruct (msel_spec _ _ _ _ _ _ Hm Es) as [Hm' Ho]. split; [split; auto|].
  destruct om as [t|].
  - rewrite !vpend_eq. cbn [v_mod v_next]. rewrite Ho. perm_solve.
  - subst sm. destruct s; auto.
Qed.

Lemma vnext_spec {m} c (s : vstate m) es s' o : vinv c s -> vnext c s es = (s', o) ->
  vinv c s' /\ match o with
               | Some t => Permutation (vpend s) (t :: vpend s')
               | None => s' = s
               end.
Proof.
  intros Hi H. unfold vnext in H.
  destruct (nth (norm c es) (v_next s) None) as [t|] eqn:En.
  - injection H as <- <-. destruct (slot_set c s es None Hi) as [Hi1 Hp]. rewrite En in Hp.
    split; [exact Hi1|symmetry; exact Hp].
  - (* an empty slot: the module's select *)
    exact (vsel_spec c s (norm c es) s' o Hi H).
Qed.
Lemma vnext_none {m} c (s s' : vstate m) es : vnext c s es = (s', None) ->
  nth (norm c es) (v_next s) None = None /\ snd (msel m c (v_mod s) (norm c es)) = None.
Proof.
  unfold vnext. destruct (nth (norm c es) (v_next s) None); [discriminate|].
  destruct (msel m c (v_mod s) (norm c es)). intros H; inversion H; auto.
Qed.

Lemma vflush_spec {m} c (s : vstate m) es : vinv c s ->
  vinv c (vflush c s es) /\ Permutation (ids (vpend (vflush c s es))) (ids (vpend s)).
Proof.
  intros Hi. unfold vflush. destruct (nth (norm c es) (v_next s) None) as [t|] eqn:En; [|split; auto].
  destruct (slot_set c s es None Hi) as [Hi1 Hp]. rewrite En in Hp. cbn [ol app] in Hp.
  destruct (vsched_spec c _ (norm c es) 0 [t] [] Hi1) as [H1 H2].
  split; [exact H1|]. rewrite H2, <- Hp. cbn [ids map]. perm_solve.
Qed.

Lemma msel_norm m c s es : msel m c s (norm c es) = msel m c s es.
Proof.
  assert (E : norm c (norm c es) = norm c es) by (apply norm_id, norm_lt).
  destruct m; cbn [msel]; rewrite ?E; reflexivity.
Qed.

Lemma vround_spec {m} c ess : forall (s s' : vstate m) l, vinv c s -> vround c s ess = (s', l) ->
  vinv c s' /\ Permutation (vpend s) (map snd l ++ vpend s') /\
  (l = [] -> s' = s /\ forall es, In es ess -> snd (vnext c s es) = None) /\
  Forall (fun p => In (fst p) ess) l.
Proof.
  induction ess as [|es r IH]; intros s s' l Hi H; cbn [vround] in H.
  - injection H as <- <-. split; [auto|]. split; [apply Permutation_refl|]. split; [|constructor].
    intros _. split; [reflexivity|]. intros es [].
  - destruct (vnext c s es) as [s1 o] eqn:En. destruct (vround c s1 r) as [s2 l2] eqn:Er.
    injection H as <- <-.
    destruct (vnext_spec _ _ _ _ _ Hi En) as [Hi1 Ho].
    destruct (IH _ _ _ Hi1 Er) as (Hi2 & Hp & Hn & Hf).
    split; auto.
    assert (Hf' : Forall (fun p : nat * task => In (fst p) (es :: r)) l2).
    { eapply Forall_impl; [|apply Hf]. intros p Hp'. right; auto. }
    destruct o as [t|].
    + split; [cbn [map snd]; rewrite Ho, Hp; perm_solve|]. split; [discriminate|].
      constructor; auto. left; auto.
    + subst s1. split; [exact Hp|]. split; [|exact Hf'].
      intros ->. destruct (Hn eq_refl) as [Hs Hall]. split; [exact Hs|].
      intros es' [<-|Hin]; [rewrite En; auto|]. apply Hall; auto.
Qed.

(* every stream asked, nobody got anything: nothing is held *)
Lemma idle_means_empty {m} c (s : vstate m) : wf c -> vinv c s ->
  (forall es, es < cn c -> snd (vnext c s es) = None) -> vpend s = [].
Proof.
  intros Hwf Hi Hall. rewrite vpend_eq.
  assert (Hk : forall es, es < cn c -> nth es (v_next s) None = None /\ snd (msel m c (v_mod s) es) = None).
  { intros es Hes. specialize (Hall es Hes). destruct (vnext c s es) as [s' o] eqn:E. cbn in Hall; subst.
    apply vnext_none in E. rewrite norm_id in E by auto. exact E. }
  destruct Hi as [Hm Hn]. unfold bitems.
  rewrite (flat_map_nil_nth ol None); [|intros i Hlt; rewrite Hn in Hlt; rewrite (proj1 (Hk i Hlt)); reflexivity].
  apply (mlive m c (v_mod s) Hwf Hm). intros es Hes. apply Hk; auto.
Qed.

(* a round over all the streams of the VP; an empty one means that nothing is held *)
Lemma vround_all {m} c (s s' : vstate m) l : vinv c s -> vround c s (seq 0 (cn c)) = (s', l) ->
  vinv c s' /\ Permutation (vpend s) (map snd l ++ vpend s') /\ Forall (fun p => fst p < cn c) l /\
  (wf c -> l = [] -> vpend s' = []).
Proof.
  intros Hi H. destruct (vround_spec _ _ _ _ _ Hi H) as (Hi' & Hp & Hn & Hf).
  split; [exact Hi'|]. split; [exact Hp|]. split.
  - eapply Forall_impl; [|apply Hf]. intros p Hp'. apply in_seq in Hp'. lia.
  - intros Hwf ->. destruct (Hn eq_refl) as [-> Hnone].
    apply (idle_means_empty c s Hwf Hi). intros es Hes. apply Hnone, in_seq. lia.
Qed.

(* k full rounds, without stopping early *)
Fixpoint vrounds {m} (k : nat) (c : config) (s : vstate m) : vstate m * list (nat * task) :=
  match k with
  | O => (s, [])
  | S j => let (s1, l) := vround c s (seq 0 (cn c)) in
           let (s2, l2) := vrounds j c s1 in (s2, l ++ l2)
  end.

Lemma vrounds_spec {m} c k : forall (s s' : vstate m) l, wf c -> vinv c s -> vrounds k c s = (s', l) ->
  vinv c s' /\ Permutation (vpend s) (map snd l ++ vpend s') /\
  (length (vpend s) <= k -> vpend s' = []).
Proof.
  induction k as [|j IH]; intros s s' l Hwf Hi H; cbn [vrounds] in H.
  - injection H as <- <-. split; [auto|]. split; [apply Permutation_refl|].
    intros Hl. destruct (vpend s); [auto|cbn in Hl; lia].
  - destruct (vround c s (seq 0 (cn c))) as [s1 l1] eqn:Er. destruct (vrounds j c s1) as [s2 l2] eqn:Ek.
    injection H as <- <-.
    destruct (vround_all _ _ _ _ Hi Er) as (Hi1 & Hp1 & _ & He1).
    destruct (IH _ _ _ Hwf Hi1 Ek) as (Hi2 & Hp2 & Hb2).
    split; auto. split; [rewrite map_app, Hp1, Hp2; perm_solve|].
    intros Hl. apply Hb2. destruct l1 as [|p l1'].
    + rewrite (He1 Hwf eq_refl). cbn; lia.
    + apply Permutation_length in Hp1. rewrite app_length, map_length in Hp1. cbn [length] in Hp1. lia.
Qed.

(* the drain conserves even on a configuration that is not well formed (it may then stop
   early); with enough fuel on a well-formed one it stops only when nothing is held *)
Lemma vdrain_spec {m} c fuel : forall (s s' : vstate m) l, vinv c s -> vdrain fuel c s = (s', l) ->
  vinv c s' /\ Permutation (vpend s) (map snd l ++ vpend s') /\ Forall (fun p => fst p < cn c) l /\
  (wf c -> length (vpend s) < fuel -> vpend s' = []).
Proof.
  induction fuel as [|f IH]; intros s s' l Hi H; cbn [vdrain] in H.
  - injection H as <- <-. split; [exact Hi|repeat split; auto]. intros _ Hl. inversion Hl.
  - destruct (vround c s (seq 0 (cn c))) as [s1 l1] eqn:Er.
    destruct (vround_all _ _ _ _ Hi Er) as (Hi1 & Hp1 & Hf1 & He1).
    destruct l1 as [|p l1'].
    + injection H as <- <-. auto.
    + destruct (vdrain f c s1) as [s2 l2] eqn:Ed. injection H as <- <-.
      destruct (IH _ _ _ Hi1 Ed) as (Hi2 & Hp2 & Hf2 & He2). split; auto.
      change (p :: l1' ++ l2) with ((p :: l1') ++ l2).
      split; [rewrite map_app, Hp1, Hp2; perm_solve|]. split; [apply Forall_app; auto|].
      intros Hwf Hlen. apply (He2 Hwf).
      apply Permutation_length in Hp1. rewrite app_length, map_length in Hp1. cbn [length] in Hp1. lia.
Qed.

Lemma vstep_cons {m} c (s s' : vstate m) o b : vinv c s -> vstep c s o = (s', b) ->
  vinv c s' /\ Permutation (ids (vpend s) ++ op_in o) (ob_out b ++ ids (vpend s')).
Proof.
  intros Hi H. destruct o as [es d ring rnds|es|oes d ring rnds|es|es|]; cbn [vstep] in H.
  - injection H as <- <-. destruct (vsched_spec c s es d ring rnds Hi) as [H1 H2].
    split; [exact H1|symmetry; exact H2].
  - destruct (vsel c s es) as [s1 r] eqn:E. injection H as <- <-.
    destruct (vsel_spec _ _ _ _ _ Hi E) as [H1 H2]. split; [exact H1|].
    cbn [op_in]. rewrite app_nil_r. destruct r as [t|]; [unfold ids; rewrite H2|subst]; reflexivity.
  - injection H as <- <-. destruct (vvp_spec c s oes d ring rnds Hi) as [H1 H2].
    split; [exact H1|symmetry; exact H2].
  - destruct (vnext c s es) as [s1 r] eqn:E. injection H as <- <-.
    destruct (vnext_spec _ _ _ _ _ Hi E) as [H1 H2]. split; [exact H1|].
    cbn [op_in]. rewrite app_nil_r. destruct r as [t|]; [unfold ids; rewrite H2|subst]; reflexivity.
  - injection H as <- <-. destruct (vflush_spec c s es Hi) as [H1 H2].
    split; [exact H1|]. cbn [op_in]. rewrite app_nil_r. symmetry; exact H2.
  - destruct (vdrain (S (length (vpend s))) c s) as [s1 l] eqn:E. injection H as <- <-.
    destruct (vdrain_spec c _ _ _ _ Hi E) as (H1 & H2 & _). split; [exact H1|].
    cbn [op_in ob_out]. rewrite app_nil_r. unfold ids. rewrite H2, map_app. reflexivity.
Qed.

Lemma vrun_spec {m} c ops : forall (s s' : vstate m) obs, vinv c s -> vrun c s ops = (s', obs) ->
  vinv c s' /\ Permutation (ids (vpend s) ++ flat_map op_in ops) (flat_map ob_out obs ++ ids (vpend s')) /\
  length obs = length ops.
Proof.
  induction ops as [|o r IH]; intros s s' obs Hi H; cbn [vrun] in H.
  - injection H as <- <-. cbn. rewrite app_nil_r. auto.
  - destruct (vstep c s o) as [s1 b] eqn:Es. destruct (vrun c s1 r) as [s2 bs] eqn:Er.
    injection H as <- <-.
    destruct (vstep_cons _ _ _ _ _ Hi Es) as [Hi1 Hp1].
    destruct (IH _ _ _ Hi1 Er) as (Hi2 & Hp2 & Hl). split; auto. split; [|cbn; lia].
    cbn [flat_map]. rewrite app_assoc, Hp1, <- (app_assoc _ (ids (vpend s1))), Hp2. perm_solve.
Qed.

Lemma vrun_app {m} c ops1 : forall ops2 (s : vstate m),
  vrun c s (ops1 ++ ops2) =
  let (s1, o1) := vrun c s ops1 in let (s2, o2) := vrun c s1 ops2 in (s2, o1 ++ o2).
Proof.
  induction ops1 as [|o r IH]; intros ops2 s; cbn [vrun app].
  - destruct (vrun c s ops2); reflexivity.
  - destruct (vstep c s o) as [s1 b]. rewrite IH.
    destruct (vrun c s1 r) as [s2 o1]. destruct (vrun c s2 ops2) as [s3 o2]. reflexivity.
Qed.

(* states reachable by a history *)
Definition reach (m : modid) (c : config) (s : vstate m) : Prop :=
  exists ops obs, vrun c (vinit m c) ops = (s, obs).
Lemma reach_inv m c s : reach m c s -> vinv c s.
Proof. intros (ops & obs & H). apply (vrun_spec c ops _ _ _ (vinit_inv m c) H). Qed.

Lemma drain_all {m} c (s s' : vstate m) l : wf c -> vinv c s ->
  vdrain (S (length (vpend s))) c s = (s', l) ->
  vinv c s' /\ Permutation (vpend s) (map snd l) /\ vpend s' = [] /\ Forall (fun p => fst p < cn c) l.
Proof.
  intros Hwf Hi E. destruct (vdrain_spec c _ _ _ _ Hi E) as (H1 & H2 & H3 & H4).
  specialize (H4 Hwf (Nat.lt_succ_diag_r _)). rewrite H4, app_nil_r in H2. auto.
Qed.

Theorem conservation m c ops s obs : vrun c (vinit m c) ops = (s, obs) ->
  Permutation (flat_map op_in ops) (flat_map ob_out obs ++ ids (vpend s)).
Proof.
  intros H. destruct (vrun_spec c ops _ _ _ (vinit_inv m c) H) as (_ & Hp & _).
  rewrite vinit_pend in Hp. exact Hp.
Qed.

Theorem exactly_once m c ops s obs : wf c -> NoDup (flat_map op_in ops) ->
  vrun c (vinit m c) (ops ++ [ODrain]) = (s, obs) ->
  Permutation (flat_map op_in ops) (flat_map ob_out obs) /\ NoDup (flat_map ob_out obs) /\ vpend s = [].
Proof.
  intros Hwf Hnd H. pose proof (conservation _ _ _ _ _ H) as Hc.
  rewrite vrun_app in H. destruct (vrun c (vinit m c) ops) as [s1 o1] eqn:E1. cbn [vrun vstep] in H.
  destruct (vdrain (S (length (vpend s1))) c s1) as [s2 l] eqn:E2. injection H as <- <-.
  assert (Hi : vinv c s1) by (apply reach_inv; exists ops, o1; exact E1).
  destruct (drain_all c _ _ _ Hwf Hi E2) as (_ & _ & He & _).
  rewrite He, flat_map_app in Hc. cbn [ids map flat_map op_in] in Hc. rewrite !app_nil_r in Hc.
  repeat split; auto. eapply Permutation_NoDup; eauto.
Qed.
