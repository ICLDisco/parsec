(* C09: the simulations by which the priority schedulers ap, ip (distance 0) and spq
   refine the reference semantics of Sched/SchedPrioDefs.v, what the reference picks
   mean, and the history on which ip with a non-zero distance departs from it. *)
From Coq Require Import ZArith List Bool Arith Lia Permutation.
From PV Require Import Sched.SchedDefs Sched.SchedPrioDefs Sched.SchedContProofs.
Import ListNotations.
Local Open Scope Z_scope.

(* tasks of priority k, in list order *)
Definition cls (k : Z) (l : list task) : list task := filter (fun t => tprio t =? k) l.
(* non-increasing priorities *)
Fixpoint desc (l : list task) : Prop :=
  match l with [] => True | x :: r => Forall (fun y => tprio y <= tprio x) r /\ desc r end.
(* stable insertion: after every element that is not strictly lower *)
Definition sins (l : list task) (e : task) : list task := insert_at (scan (tprio e) l) e l.

Lemma cls_app k a b : cls k (a ++ b) = cls k a ++ cls k b.
Proof. apply filter_app. Qed.
Lemma cls_cons k x l : cls k (x :: l) = if tprio x =? k then x :: cls k l else cls k l.
Proof. reflexivity. Qed.
Lemma cls_in k l x : In x (cls k l) <-> In x l /\ tprio x = k.
Proof. unfold cls. rewrite filter_In, Z.eqb_eq. tauto. Qed.
Lemma cls_nil_forall k l : Forall (fun x => tprio x <> k) l -> cls k l = [].
Proof.
  induction 1 as [|x r Hx Hr IH]; cbn; auto. apply Z.eqb_neq in Hx. rewrite Hx. auto.
Qed.
Lemma cls_rev k l : cls k (rev l) = rev (cls k l).
Proof.
  induction l as [|x r IH]; [reflexivity|]. cbn [rev]. rewrite cls_app, IH. unfold cls at 2 3. cbn [filter].
  destruct (tprio x =? k); cbn [rev app]; auto. rewrite app_nil_r; auto.
Qed.

Lemma desc_app a b : desc (a ++ b) <-> desc a /\ desc b /\ Forall (fun x => Forall (fun y => tprio y <= tprio x) b) a.
Proof.
  induction a as [|x r IH]; cbn [app desc].
  - split; [intros H; repeat split; auto|intros (_ & H & _); auto].
  - rewrite IH. rewrite Forall_app. split.
    + intros ((H1 & H2) & H3 & H4 & H5). repeat split; auto.
    + intros ((H1 & H2) & H3 & H4). inversion H4; subst. repeat split; auto.
Qed.

Lemma scan_le p l : (scan p l <= length l)%nat.
Proof. induction l as [|x r IH]; cbn; [lia|]. destruct (tprio x <? p); lia. Qed.

Lemma sins_cons x r e : sins (x :: r) e = if tprio x <? tprio e then e :: x :: r else x :: sins r e.
Proof. unfold sins, insert_at. cbn [scan]. destruct (tprio x <? tprio e); reflexivity. Qed.

Lemma sins_desc l e : desc l -> desc (sins l e).
Proof.
  induction l as [|x r IH]; intros Hd; [cbn; auto|]. destruct Hd as [Hx Hr].
  rewrite sins_cons. destruct (Z.ltb_spec (tprio x) (tprio e)); cbn [desc].
  - split; [|split; auto]. constructor; [lia|]. eapply Forall_impl; [|apply Hx]. cbn; intros; lia.
  - split; [|apply IH, Hr]. unfold sins. rewrite insert_at_perm. constructor; auto.
Qed.
Lemma sins_cls l e k : desc l -> cls k (sins l e) = if tprio e =? k then cls k l ++ [e] else cls k l.
Proof.
  induction l as [|x r IH]; intros Hd; [cbn; destruct (tprio e =? k); reflexivity|].
  destruct Hd as [Hx Hr]. rewrite sins_cons. destruct (Z.ltb_spec (tprio x) (tprio e)).
  - (* e is strictly above everything: its class was empty *)
    rewrite cls_cons. destruct (Z.eqb_spec (tprio e) k) as [E|]; [subst k|reflexivity].
    rewrite (cls_nil_forall (tprio e) (x :: r)); [reflexivity|].
    constructor; [lia|]. eapply Forall_impl; [|apply Hx]. cbn; intros; lia.
  - rewrite !cls_cons, (IH Hr). destruct (tprio x =? k); destruct (tprio e =? k); reflexivity.
Qed.

Lemma fold_sins items : forall l, desc l ->
  desc (fold_left sins items l) /\ forall k, cls k (fold_left sins items l) = cls k l ++ cls k items.
Proof.
  induction items as [|e r IH]; intros l Hd; cbn [fold_left].
  - split; auto. intros k. cbn. rewrite app_nil_r; auto.
  - destruct (IH _ (sins_desc l e Hd)) as [H1 H2]. split; auto.
    intros k. rewrite H2, sins_cls by auto.
    change (cls k (e :: r)) with (if tprio e =? k then e :: cls k r else cls k r).
    destruct (tprio e =? k); auto. rewrite <- app_assoc. reflexivity.
Qed.

(* chain_sorted on a sorted list is the stable insertion of each element *)
Lemma scan_skip p n : forall l, Forall (fun x => p <= tprio x) (firstn n l) -> (n <= length l)%nat ->
  scan p l = (n + scan p (skipn n l))%nat.
Proof.
  induction n as [|n IH]; intros l H Hn; [reflexivity|].
  destruct l as [|x r]; [cbn in Hn; lia|]. cbn [firstn] in H. inversion H; subst.
  cbn [scan skipn]. assert (E : tprio x <? p = false) by (apply Z.ltb_ge; auto). rewrite E.
  rewrite (IH r); auto. cbn in Hn; lia.
Qed.
Lemma desc_prefix_ge l : forall pos d, desc l -> (pos < length l)%nat ->
  Forall (fun x => tprio (nth pos l d) <= tprio x) (firstn pos l).
Proof.
  induction l as [|x r IH]; intros pos d Hd Hp; [cbn in Hp; lia|].
  destruct pos as [|pos]; [constructor|]. cbn [firstn nth]. destruct Hd as [Hx Hr].
  constructor; [|apply IH; auto; cbn in Hp; lia].
  rewrite Forall_forall in Hx. apply Hx, nth_In. cbn in Hp; lia.
Qed.

Lemma chain_from_sorted items : forall l pos, desc l -> (pos < length l)%nat ->
  chain_from l pos items = fold_left sins items l.
Proof.
  induction items as [|e r IH]; intros l pos Hd Hp; cbn [chain_from fold_left]; auto.
  assert (Hj : ((if (tprio (nth pos l e) <? tprio e)%Z then 0 else pos) +
                scan (tprio e) (skipn (if (tprio (nth pos l e) <? tprio e)%Z then 0 else pos) l))%nat
               = scan (tprio e) l).
  { destruct (tprio (nth pos l e) <? tprio e) eqn:E; [reflexivity|].
    symmetry. apply scan_skip; [|lia].
    eapply Forall_impl; [|apply (desc_prefix_ge l pos e Hd Hp)]. cbn. apply Z.ltb_ge in E. intros; lia. }
  rewrite Hj. fold (sins l e). apply IH; [apply sins_desc; auto|].
  unfold sins. rewrite (Permutation_length (insert_at_perm _ _ _)). cbn [length].
  pose proof (scan_le (tprio e) l). lia.
Qed.

Lemma chain_sorted_sorted l items : desc l -> chain_sorted l items = fold_left sins items l.
Proof.
  intros Hd. unfold chain_sorted. destruct items as [|e r]; auto.
  destruct l as [|x l'].
  - cbn [fold_left]. replace (sins [] e) with [e] by reflexivity.
    apply chain_from_sorted; cbn; auto.
  - apply chain_from_sorted; auto. cbn [length]. lia.
Qed.

(* the simulation invariant *)
Definition sameI (Q : list task) (P : list ptask) : Prop := forall k, cls k Q = cls k (map snd P).
Definition apI (Q : list task) (P : list ptask) : Prop := desc Q /\ sameI Q P.

Lemma apI_sched Q P d ring : apI Q P -> apI (chain_sorted Q ring) (P ++ map (pair d) ring).
Proof.
  intros [Hd Hs]. rewrite chain_sorted_sorted by auto. destruct (fold_sins ring Q Hd) as [H1 H2].
  split; auto. intros k. rewrite H2, Hs, map_app, cls_app. f_equal. f_equal.
  rewrite map_map. cbn. rewrite map_id. reflexivity.
Qed.

Lemma sameI_in Q P u : sameI Q P -> (In u Q <-> In u (map snd P)).
Proof.
  intros Hs. pose proof (cls_in (tprio u) Q u) as H1. pose proof (cls_in (tprio u) (map snd P) u) as H2.
  rewrite Hs in H1. tauto.
Qed.

Lemma take_spec f P : forall P' o, take f P = (P', o) ->
  match o with
  | Some x => exists a b, P = a ++ x :: b /\ P' = a ++ b /\ Forall (fun y => f y = false) a /\ f x = true
  | None => P' = P /\ Forall (fun y => f y = false) P
  end.
Proof.
  induction P as [|z r IH]; intros P' o H; cbn [take] in H; [injection H as <- <-; auto|].
  destruct (f z) eqn:E.
  - injection H as <- <-. exists [], r. auto.
  - destruct (take f r) as [r' o'] eqn:Et. injection H as <- <-. specialize (IH _ _ eq_refl).
    destruct o' as [x|].
    + destruct IH as (a & b & -> & -> & H3 & H4). exists (z :: a), b. auto.
    + destruct IH as [-> H]. auto.
Qed.
Lemma take_none f : forall P, Forall (fun y => f y = false) P -> take f P = (P, None).
Proof.
  induction 1 as [|z r Hz Hr IH]; cbn [take]; auto. rewrite Hz, IH. reflexivity.
Qed.

(* removing the head of [t :: R'] corresponds to taking the first element of priority
   tprio t out of P *)
Lemma take_sim R' t P : sameI (t :: R') P ->
  exists a x b, P = a ++ x :: b /\ take (fun y => pprio y =? tprio t) P = (a ++ b, Some x) /\
                snd x = t /\ sameI R' (a ++ b).
Proof.
  intros Hs.
  assert (Hin : In t (map snd P)) by (apply (sameI_in _ _ t Hs); left; auto).
  apply in_map_iff in Hin. destruct Hin as (y & Hy1 & Hy2).
  destruct (take (fun y => pprio y =? tprio t) P) as [P' [x|]] eqn:Et; apply take_spec in Et.
  2:{ destruct Et as [_ Et]. rewrite Forall_forall in Et. specialize (Et y Hy2).
      unfold pprio in Et. rewrite Hy1, Z.eqb_refl in Et. discriminate. }
  destruct Et as (a & b & H1 & -> & H2 & H3).
  exists a, x, b. split; auto. split; auto.
  assert (Hca : cls (tprio t) (map snd a) = []).
  { apply cls_nil_forall. rewrite Forall_map. eapply Forall_impl; [|apply H2]. cbn. intros z Hz. apply Z.eqb_neq; auto. }
  pose proof (Hs (tprio t)) as Hk. subst P.
  rewrite map_app, cls_app, Hca in Hk. cbn [map app] in Hk. rewrite !cls_cons in Hk.
  rewrite Z.eqb_refl in Hk. change (tprio (snd x)) with (pprio x) in Hk. rewrite H3 in Hk.
  injection Hk as Hx Hrest.
  split; [auto|].
  intros k. pose proof (Hs k) as Hk'. rewrite !map_app, !cls_app in *. cbn [map] in Hk'. rewrite !cls_cons in Hk'.
  rewrite <- Hx in Hk'.
  destruct (tprio t =? k) eqn:E.
  - apply Z.eqb_eq in E. subst k. rewrite Hca. cbn [app]. exact Hrest.
  - exact Hk'.
Qed.

Lemma sameI_nil P : sameI [] P -> P = [].
Proof.
  intros Hs. destruct P as [|x r]; auto. exfalso.
  assert (H : In (snd x) []) by (apply (sameI_in _ _ (snd x) Hs); left; auto). destruct H.
Qed.

(* extrema: [op] returns the [le]-greater of its two arguments *)
Section Extremum.
  Variables (op : Z -> Z -> Z) (le : Z -> Z -> Prop).
  Hypothesis op_spec : forall x y, (le y x /\ op x y = x) \/ (le x y /\ op x y = y).
  Hypothesis le_refl : forall x, le x x.
  Hypothesis le_trans : forall x y z, le x y -> le y z -> le x z.
  Hypothesis le_antisym : forall x y, le x y -> le y x -> x = y.

  Lemma fold_ext_spec r : forall x,
    In (fold_left op r x) (x :: r) /\ forall y, In y (x :: r) -> le y (fold_left op r x).
  Proof.
    induction r as [|z r IH]; intros x; cbn [fold_left].
    - split; [left; auto|]. intros y [->|[]]. apply le_refl.
    - destruct (IH (op x z)) as [H1 H2].
      assert (Hop : In (op x z) [x; z] /\ le x (op x z) /\ le z (op x z)).
      { destruct (op_spec x z) as [[L ->]|[L ->]]; cbn; auto. }
      destruct Hop as (Hin & Lx & Lz). split.
      + destruct H1 as [<-|H1]; [|right; right; exact H1]. destruct Hin as [<-|[<-|[]]]; cbn; auto.
      + intros y [<-|[<-|Hy]]; [apply (le_trans _ _ _ Lx)|apply (le_trans _ _ _ Lz)|]; apply H2; cbn; auto.
  Qed.
  Lemma ext_list_iff l k :
    match l with [] => None | x :: r => Some (fold_left op r x) end = Some k <->
    In k l /\ forall y, In y l -> le y k.
  Proof.
    destruct l as [|x r]; [split; [discriminate|intros [[] _]]|].
    destruct (fold_ext_spec r x) as [H3 H4]. split.
    - intros H; inversion H; subst. auto.
    - intros [H1 H2]. f_equal. apply le_antisym; auto.
  Qed.
End Extremum.

Lemma zmax_list_iff l k : zmax_list l = Some k <-> In k l /\ forall y, In y l -> y <= k.
Proof. apply (ext_list_iff Z.max Z.le); intros; lia. Qed.
Lemma zmin_list_iff l k : zmin_list l = Some k <-> In k l /\ forall y, In y l -> k <= y.
Proof. apply (ext_list_iff Z.min (fun a b => b <= a)); intros; lia. Qed.

Lemma ap_sel_sim t Q' P : apI (t :: Q') P ->
  exists x P', ap_pick P = (P', Some x) /\ snd x = t /\ apI Q' P'.
Proof.
  intros [[Hle Hd] Hs].
  destruct (take_sim Q' t P Hs) as (a & x & b & H1 & H2 & H3 & H4).
  exists x, (a ++ b). split; [|split; [auto|split; auto]].
  unfold ap_pick. rewrite (proj2 (zmax_list_iff (map pprio P) (tprio t))); auto. split.
  - apply in_map_iff. exists x. split; [unfold pprio; rewrite H3; auto|]. subst P. apply in_or_app; right; left; auto.
  - intros y Hy. apply in_map_iff in Hy. destruct Hy as (z & <- & Hz).
    assert (Hq : In (snd z) (t :: Q')) by (apply (sameI_in _ _ _ Hs), in_map; auto).
    destruct Hq as [Hq|Hq]; [unfold pprio; rewrite <- Hq; lia|]. rewrite Forall_forall in Hle. apply Hle; auto.
Qed.

Lemma sameI_rev Q P : sameI Q P -> sameI (rev Q) (rev P).
Proof. intros Hs k. rewrite map_rev, !cls_rev, Hs. reflexivity. Qed.

Lemma desc_last Q' t : desc (Q' ++ [t]) -> forall u, In u Q' -> tprio t <= tprio u.
Proof.
  intros Hd u Hu. apply desc_app in Hd. destruct Hd as (_ & _ & H). rewrite Forall_forall in H.
  specialize (H u Hu). inversion H; auto.
Qed.

Lemma ip_sel_sim t Q' P : apI (Q' ++ [t]) P ->
  exists x P', ip_pick P = (P', Some x) /\ snd x = t /\ apI Q' P'.
Proof.
  intros [Hd Hs]. pose proof (sameI_rev _ _ Hs) as Hr. rewrite rev_app_distr in Hr. cbn [rev app] in Hr.
  destruct (take_sim (rev Q') t (rev P) Hr) as (a & x & b & H1 & H2 & H3 & H4).
  exists x, (rev (a ++ b)). split; [|split; [auto|split]].
  - unfold ip_pick. rewrite (proj2 (zmin_list_iff (map pprio P) (tprio t))).
    { unfold take_last. rewrite H2. reflexivity. }
    split.
    + apply in_map_iff. exists x. split; [unfold pprio; rewrite H3; auto|].
      apply in_rev. rewrite H1. apply in_or_app; right; left; auto.
    + intros y Hy. apply in_map_iff in Hy. destruct Hy as (z & <- & Hz).
      assert (Hq : In (snd z) (Q' ++ [t])) by (apply (sameI_in _ _ _ Hs), in_map; auto).
      apply in_app_or in Hq. destruct Hq as [Hq|[Hq|[]]]; [|unfold pprio; rewrite <- Hq; lia].
      apply (desc_last _ _ Hd); auto.
  - apply desc_app in Hd. tauto.
  - apply sameI_rev in H4. rewrite rev_involutive in H4. exact H4.
Qed.

Lemma ap_pick_meaning P P' x : ap_pick P = (P', Some x) ->
  exists a b, P = a ++ x :: b /\ P' = a ++ b /\
              (forall y, In y P -> pprio y <= pprio x) /\ (forall y, In y a -> pprio y < pprio x).
Proof.
  unfold ap_pick. destruct (zmax_list (map pprio P)) as [k|] eqn:Ek; [|discriminate].
  intros H. destruct (take_spec _ _ _ _ H) as (a & b & H1 & H2 & H3 & H4).
  apply zmax_list_iff in Ek. destruct Ek as [_ Hmax]. apply Z.eqb_eq in H4.
  exists a, b. repeat split; auto.
  - intros y Hy. rewrite H4. apply Hmax, in_map; auto.
  - intros y Hy. rewrite Forall_forall in H3. specialize (H3 y Hy). apply Z.eqb_neq in H3.
    assert (pprio y <= k) by (apply Hmax, in_map; subst P; apply in_or_app; auto). lia.
Qed.
Lemma ip_pick_meaning P P' x : ip_pick P = (P', Some x) ->
  exists a b, P = a ++ x :: b /\ P' = a ++ b /\
              (forall y, In y P -> pprio x <= pprio y) /\ (forall y, In y b -> pprio x < pprio y).
Proof.
  unfold ip_pick. destruct (zmin_list (map pprio P)) as [k|] eqn:Ek; [|discriminate].
  unfold take_last. destruct (take (fun x0 => pprio x0 =? k) (rev P)) as [r o] eqn:Et.
  intros H. inversion H; subst. destruct (take_spec _ _ _ _ Et) as (a & b & H1 & H2 & H3 & H4).
  apply zmin_list_iff in Ek. destruct Ek as [_ Hmin]. apply Z.eqb_eq in H4.
  exists (rev b), (rev a).
  assert (HP : P = rev b ++ x :: rev a).
  { rewrite <- (rev_involutive P), H1, rev_app_distr. cbn [rev]. rewrite <- app_assoc. reflexivity. }
  repeat split; auto.
  - subst r. rewrite rev_app_distr. reflexivity.
  - intros y Hy. rewrite H4. apply Hmin, in_map; auto.
  - intros y Hy. apply in_rev in Hy. rewrite Forall_forall in H3. specialize (H3 y Hy). apply Z.eqb_neq in H3.
    assert (k <= pprio y).
    { apply Hmin, in_map. apply in_rev. rewrite H1. apply in_or_app; auto. }
    lia.
Qed.

(* spq: distances ascend along the queue, and the list kept for distance d stands in the ap
   invariant with the reference's tasks of distance d *)
Fixpoint qd (q : list (Z * list task)) (d : Z) : list task :=
  match q with [] => [] | (p, l) :: r => if p =? d then l else qd r d end.
Fixpoint ascl (l : list Z) : Prop :=
  match l with [] => True | p :: r => Forall (fun e => p < e) r /\ ascl r end.
Definition asc (q : list (Z * list task)) : Prop := ascl (map fst q).
Definition pd (P : list ptask) (d : Z) : list ptask := filter (fun x => fst x =? d) P.
Definition spI (q : list (Z * list task)) (P : list ptask) : Prop :=
  asc q /\ forall d, apI (qd q d) (pd P d).

Lemma qd_below q d : Forall (fun e => d < e) (map fst q) -> qd q d = [].
Proof.
  induction q as [|[p l] r IH]; cbn [qd map fst]; intros H; [reflexivity|].
  inversion H; subst. rewrite (proj2 (Z.eqb_neq p d)) by lia. auto.
Qed.

Lemma spq_sched_fsts q : forall p d ring, Forall (fun e => p < e) (map fst q) -> p < d ->
  Forall (fun e => p < e) (map fst (spq_sched q d ring)).
Proof.
  induction q as [|[p0 l] r IH]; intros p d ring H Hd; cbn [spq_sched].
  - cbn. constructor; auto.
  - cbn [map fst] in H. inversion H; subst.
    destruct (p0 =? d); [cbn; constructor; auto|].
    destruct (d <? p0); [cbn; constructor; auto|].
    cbn. constructor; auto.
Qed.

Lemma spq_sched_spec q : forall d ring, asc q ->
  asc (spq_sched q d ring) /\
  forall d', qd (spq_sched q d ring) d' = if d =? d' then chain_sorted (qd q d) ring else qd q d'.
Proof.
  induction q as [|[p l] r IH]; intros d ring Ha; cbn [spq_sched].
  - split; [cbn; auto|reflexivity].
  - destruct Ha as [Hp Hr]. change (asc r) in Hr. cbn [qd].
    destruct (Z.eqb_spec p d) as [->|Hne].
    + split; [split; auto|].
      intros d'. cbn [qd]. destruct (d =? d'); reflexivity.
    + destruct (Z.ltb_spec d p) as [Hlt|Hge].
      * rewrite (qd_below r d) by (eapply Forall_impl; [|apply Hp]; cbn; intros; lia). split.
        { cbn. split; [|split; auto]. constructor; auto.
          eapply Forall_impl; [|apply Hp]. cbn; intros; lia. }
        intros d'. cbn [qd]. destruct (d =? d'); reflexivity.
      * destruct (IH d ring Hr) as [H1 H2]. split.
        { cbn. split; [apply spq_sched_fsts; auto; lia|exact H1]. }
        intros d'. cbn [qd]. rewrite H2. destruct (Z.eqb_spec p d') as [<-|]; [|reflexivity].
        rewrite (proj2 (Z.eqb_neq d p)) by auto. reflexivity.
Qed.

Lemma spq_sel_spec q : forall q' o, asc q -> spq_sel q = (q', o) ->
  map fst q' = map fst q /\
  match o with
  | Some t => exists p l', qd q p = t :: l' /\ (forall d', d' < p -> qd q d' = []) /\
                           forall d', qd q' d' = if p =? d' then l' else qd q d'
  | None => q' = q /\ forall d, qd q d = []
  end.
Proof.
  induction q as [|[p l] r IH]; intros q' o Ha H; cbn [spq_sel] in H.
  - inversion H; subst. auto.
  - destruct Ha as [Hp Hr]. change (asc r) in Hr.
    destruct l as [|t l'].
    + destruct (spq_sel r) as [r' o'] eqn:E. inversion H; subst.
      destruct (IH _ _ Hr eq_refl) as [Hf Ho]. split; [cbn; f_equal; auto|].
      destruct o as [t|].
      * destruct Ho as (p0 & l' & H1 & H2 & H3).
        assert (Hne : p =? p0 = false).
        { apply Z.eqb_neq. intros ->. rewrite qd_below in H1; [discriminate|exact Hp]. }
        exists p0, l'. cbn [qd]. rewrite Hne. split; [auto|]. split.
        { intros d' Hd. destruct (p =? d'); auto. }
        intros d'. rewrite H3. destruct (Z.eqb_spec p d') as [<-|]; [|reflexivity].
        rewrite Z.eqb_sym, Hne. reflexivity.
      * destruct Ho as [-> Ho]. split; auto. intros d. cbn [qd]. destruct (p =? d); auto.
    + inversion H; subst. split; [reflexivity|].
      exists p, l'. cbn [qd]. rewrite Z.eqb_refl. split; [auto|]. split.
      * intros d' Hd. rewrite (proj2 (Z.eqb_neq p d')) by lia.
        apply qd_below. eapply Forall_impl; [|apply Hp]. cbn; intros; lia.
      * intros d'. destruct (p =? d'); reflexivity.
Qed.

Lemma pd_app P1 P2 d : pd (P1 ++ P2) d = pd P1 d ++ pd P2 d.
Proof. apply filter_app. Qed.
Lemma pd_ring d ring d' : pd (map (pair d) ring) d' = if d =? d' then map (pair d) ring else [].
Proof.
  unfold pd. induction ring as [|t r IH]; cbn [map filter fst]; [destruct (d =? d'); auto|].
  rewrite IH. destruct (d =? d'); reflexivity.
Qed.

Lemma spI_sched q P d ring : spI q P -> spI (spq_sched q d ring) (P ++ map (pair d) ring).
Proof.
  intros [Ha Hq]. destruct (spq_sched_spec q d ring Ha) as [H1 H2]. split; auto.
  intros d'. rewrite H2, pd_app, pd_ring. destruct (d =? d') eqn:E.
  - apply Z.eqb_eq in E. subst d'. apply apI_sched. apply Hq.
  - rewrite app_nil_r. apply Hq.
Qed.

Lemma take_filter g h : forall P L' x, take h (filter g P) = (L', Some x) ->
  exists P', take (fun y => g y && h y) P = (P', Some x) /\ filter g P' = L' /\
             forall g', (forall y, g' y = true -> g y = false) -> filter g' P' = filter g' P.
Proof.
  induction P as [|z r IH]; intros L' x H; cbn [filter] in H; [discriminate|].
  cbn [take]. destruct (g z) eqn:Eg; cbn [andb].
  - cbn [take] in H. destruct (h z) eqn:Eh.
    + injection H as <- <-. exists r. repeat split; auto.
      intros g' Hg'. cbn [filter]. destruct (g' z) eqn:E; auto. apply Hg' in E. congruence.
    + destruct (take h (filter g r)) as [L'' o] eqn:Et. injection H as <- ->.
      destruct (IH _ _ eq_refl) as (P'' & H1 & H2 & H3). rewrite H1. exists (z :: P''). cbn [filter]. rewrite Eg.
      repeat split; auto. { f_equal; auto. }
      intros g' Hg'. cbn [filter]. rewrite (H3 g' Hg'). reflexivity.
  - destruct (IH _ _ H) as (P'' & H1 & H2 & H3). rewrite H1. exists (z :: P''). cbn [filter]. rewrite Eg.
    repeat split; auto. intros g' Hg'. cbn [filter]. rewrite (H3 g' Hg'). reflexivity.
Qed.

Lemma pd_all_nil P : (forall d, pd P d = []) -> P = [].
Proof.
  intros H. destruct P as [|x r]; auto. specialize (H (fst x)). unfold pd in H. cbn [filter] in H.
  rewrite Z.eqb_refl in H. discriminate.
Qed.

Lemma spq_sel_sim q P q' t : spI q P -> spq_sel q = (q', Some t) ->
  exists x P', spq_pick P = (P', Some x) /\ snd x = t /\ spI q' P'.
Proof.
  intros [Ha Hq] Hs. destruct (spq_sel_spec q _ _ Ha Hs) as [Hf (p & l' & H1 & H2 & H3)].
  pose proof (Hq p) as Hp. rewrite H1 in Hp.
  destruct (ap_sel_sim _ _ _ Hp) as (x & L' & Hpick & Hx & HI).
  unfold ap_pick in Hpick. destruct (zmax_list (map pprio (pd P p))) as [k|] eqn:Ek; [|discriminate].
  destruct (take_spec _ _ _ _ Hpick) as (a & b & Hab & _ & _ & _).
  assert (Hxin : In x P /\ fst x = p).
  { assert (Hin : In x (pd P p)) by (rewrite Hab; apply in_or_app; right; left; auto).
    unfold pd in Hin. apply filter_In in Hin. rewrite Z.eqb_eq in Hin. exact Hin. }
  assert (Hdm : zmin_list (map fst P) = Some p).
  { apply zmin_list_iff. split.
    - apply in_map_iff. exists x. tauto.
    - intros d' Hd'. apply in_map_iff in Hd'. destruct Hd' as (y & <- & Hy).
      destruct (Z.lt_ge_cases (fst y) p) as [Hlt|]; [|lia]. exfalso.
      pose proof (Hq (fst y)) as [_ Hsame]. rewrite (H2 _ Hlt) in Hsame. apply sameI_nil in Hsame.
      assert (Hin : In y (pd P (fst y))) by (unfold pd; apply filter_In; split; auto; apply Z.eqb_refl).
      rewrite Hsame in Hin. destruct Hin. }
  destruct (take_filter (fun y => fst y =? p) (fun y => pprio y =? k) P L' x Hpick) as (P' & Ht & Hg & Hother).
  exists x, P'. split; [|split; auto].
  - unfold spq_pick. rewrite Hdm. fold (pd P p). rewrite Ek. exact Ht.
  - split.
    + unfold asc. rewrite Hf. exact Ha.
    + intros d'. rewrite H3. destruct (Z.eqb_spec p d') as [<-|E].
      * unfold pd. rewrite Hg. exact HI.
      * unfold pd. rewrite (Hother (fun y => fst y =? d')); [apply Hq|].
        intros y Hy. apply Z.eqb_eq in Hy. apply Z.eqb_neq. congruence.
Qed.

Lemma spq_sel_none_sim q P q' : spI q P -> spq_sel q = (q', None) -> q' = q /\ P = [].
Proof.
  intros [Ha Hq] Hs. destruct (spq_sel_spec q _ _ Ha Hs) as [_ [-> Hall]]. split; auto.
  apply pd_all_nil. intros d. destruct (Hq d) as [_ Hsame]. rewrite Hall in Hsame. apply sameI_nil in Hsame. exact Hsame.
Qed.

Lemma spq_pick_meaning P P' x : spq_pick P = (P', Some x) ->
  exists a b, P = a ++ x :: b /\ P' = a ++ b /\
              (forall y, In y P -> fst x <= fst y) /\
              (forall y, In y P -> fst y = fst x -> pprio y <= pprio x) /\
              (forall y, In y a -> fst y = fst x -> pprio y < pprio x).
Proof.
  unfold spq_pick. destruct (zmin_list (map fst P)) as [dm|] eqn:Ed; [|discriminate].
  destruct (zmax_list (map pprio (filter (fun x0 => fst x0 =? dm) P))) as [k|] eqn:Ek; [|discriminate].
  intros H. destruct (take_spec _ _ _ _ H) as (a & b & H1 & H2 & H3 & H4).
  apply andb_true_iff in H4. destruct H4 as [H4 H5]. apply Z.eqb_eq in H4, H5.
  apply zmin_list_iff in Ed. destruct Ed as [_ Hmin]. apply zmax_list_iff in Ek. destruct Ek as [_ Hmax].
  exists a, b. repeat split; auto.
  - intros y Hy. rewrite H4. apply Hmin, in_map; auto.
  - intros y Hy Hf. rewrite H5. apply Hmax, in_map. apply filter_In. split; auto. apply Z.eqb_eq. congruence.
  - intros y Hy Hf. rewrite Forall_forall in H3. specialize (H3 y Hy). apply andb_false_iff in H3.
    assert (Hle : pprio y <= k).
    { apply Hmax, in_map. apply filter_In. split; [subst P; apply in_or_app; auto|apply Z.eqb_eq; congruence]. }
    destruct H3 as [H3|H3]; apply Z.eqb_neq in H3; [congruence|lia].
Qed.

Lemma vrun_snd_cons {m} c (s : vstate m) o r :
  snd (vrun c s (o :: r)) = snd (vstep c s o) :: snd (vrun c (fst (vstep c s o)) r).
Proof. cbn [vrun]. destruct (vstep c s o) as [s1 b]. cbn [fst snd]. destruct (vrun c s1 r). reflexivity. Qed.

Definition dists (okd : Z -> Prop) (ops : list op) : Prop :=
  Forall (fun o => match o with OSched _ d _ _ => okd d | _ => True end) ops.
(* [dists (fun d => d = 0)] written out (convertible to it) *)
Definition dist0 (ops : list op) : Prop :=
  Forall (fun o => match o with OSched _ d _ _ => d = 0 | _ => True end) ops.

(* Module m refines the reference with [pick] on plain histories whose distances satisfy
   [okd], given an invariant that its schedule and select keep in step with the reference. *)
Section Sim.
  Variable m : modid.
  Variable inv : mstate m -> list ptask -> Prop.
  Variable pick : list ptask -> list ptask * option ptask.
  Variable okd : Z -> Prop.
  Hypothesis sched_sim : forall c Q P es d ring rnds, okd d -> inv Q P ->
    inv (msched m c Q es d ring rnds) (P ++ map (pair d) ring).
  Hypothesis sel_sim : forall c Q P es Q' o, inv Q P -> msel m c Q es = (Q', o) ->
    exists P' x, pick P = (P', x) /\ option_map snd x = o /\ inv Q' P'.

  Lemma sim c ops : forall Q P nx, plain ops -> dists okd ops -> inv Q P ->
    snd (vrun c (@mkV m Q nx) ops) = srun pick P ops.
  Proof.
    induction ops as [|o r IH]; intros Q P nx Hpl Hds HI; [reflexivity|].
    inversion Hpl as [|? ? Ho Hr]; subst. inversion Hds as [|? ? Hd Hdr]; subst.
    rewrite vrun_snd_cons.
    destruct o as [es d ring rnds|es| | | |]; try contradiction; cbn [vstep srun].
    - cbn [fst snd]. f_equal. unfold vsched. cbn [v_mod v_next].
      destruct ring as [|t0 rr]; [cbn [map]; rewrite app_nil_r|]; apply IH; auto.
    - unfold vsel. cbn [v_mod v_next]. destruct (msel m c Q es) as [Q' o] eqn:E.
      destruct (sel_sim _ _ _ _ _ _ HI E) as (P' & x & Hp & Hx & HI'). rewrite Hp, Hx.
      cbn [fst snd]. f_equal. apply IH; auto.
  Qed.
End Sim.

Lemma dists_true ops : dists (fun _ => True) ops.
Proof. apply Forall_forall. intros [] _; exact I. Qed.

Lemma apI_init : apI [] [].
Proof. split; [exact I|intros k; reflexivity]. Qed.
Lemma spI_init : spI [] [].
Proof. split; [exact I|intros d; apply apI_init]. Qed.

(* ip with a non-zero distance: the refuting history *)
Definition c1 : config := mkCfg 0 [] [] [] [].
Definition ip_witness : list op :=
  [OSched 0 0 [mkT 0 5 0 false] []; OSched 0 0 [mkT 1 3 0 false] []; OSched 0 1 [mkT 2 10 0 false] [];
   OSel 0; OSel 0; OSel 0].
