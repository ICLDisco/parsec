(* C08, module by module: the invariant of each of the 11 scheduler modules
   ([minv]); `schedule` adds the ring to what the module holds and `select`
   takes one task out of it, nothing lost or duplicated ([msched_spec],
   [msel_spec]); when the select of every stream of the virtual process finds
   nothing, the module holds nothing ([mlive]).  The theorems over histories
   of whole operations are in SchedHistProofs.v. *)
From Coq Require Import ZArith List Bool Arith Lia Permutation Morphisms.
From PV Require Import Sched.SchedDefs Sched.SchedPerm Sched.SchedContProofs.
Import ListNotations.

Definition ids (l : list task) : list Z := map tid l.
Global Instance ids_proper : Proper (@Permutation task ==> @Permutation Z) ids.
Proof. intros a b H. apply Permutation_map, H. Qed.

(* every buffer of the VP is some stream's task queue or one of its steal targets *)
Definition wf (c : config) : Prop :=
  forall b, b < length (c_sizes c) ->
  exists es, es < cn c /\ (b = ctq c es \/ In b (tl (cchain c es))).

(* ltq: every stored heap is non-empty *)
Definition lgood (s : hbst heap) : Prop := Forall (fun h : heap => h <> []) (hb_items s).

Definition minv (m : modid) (c : config) : mstate m -> Prop :=
  match m with
  | LL | LLP => fun s => length s = cn c
  | LFQ | LHQ | PBQ => fun s => length (hb_bufs s) = length (c_sizes c)
  | LTQ => fun s => length (hb_bufs s) = length (c_sizes c) /\ lgood s
  | AP | GD | IP | RND | SPQ => fun _ => True
  end.

Lemma norm_lt c es : norm c es < cn c.
Proof. unfold norm. destruct (es <? cn c) eqn:E; [apply Nat.ltb_lt; auto|unfold cn; lia]. Qed.
Lemma norm_id c es : es < cn c -> norm c es = es.
Proof. intros H. unfold norm. apply Nat.ltb_lt in H. rewrite H. auto. Qed.

Lemma hb_init_items {A} c : hb_items (@hb_init A c) = [].
Proof.
  unfold hb_init, hb_items. cbn [hb_bufs hb_sys]. rewrite app_nil_r.
  induction (c_sizes c) as [|n r IH]; cbn; auto. rewrite IH, app_nil_r.
  induction n; cbn; auto.
Qed.
Lemma hb_init_nbufs {A} c : length (hb_bufs (@hb_init A c)) = length (c_sizes c).
Proof. apply map_length. Qed.

Lemma minv_init m c : minv m c (minit m c).
Proof.
  destruct m; cbn [minv minit]; auto using repeat_length, (@hb_init_nbufs task).
  split; [apply hb_init_nbufs|]. unfold lgood. rewrite hb_init_items. constructor.
Qed.
Lemma mpend_init m c : mpend m (minit m c) = [].
Proof.
  destruct m; cbn [mpend minit]; rewrite ?hb_init_items; auto; induction (cn c); cbn; auto.
Qed.

Lemma ll_target_lt c es d : es < cn c -> ll_target c es d < cn c.
Proof.
  intros H. unfold ll_target. destruct (Z.ltb 0 d); auto.
  assert (Hn : 0 < cn c) by (unfold cn; lia).
  match goal with |- (if ?x then _ else _) < _ => destruct x end.
  - apply Nat.mod_upper_bound. lia.
  - assert (Hm := Z.mod_pos_bound (Z.of_nat es + d) (Z.of_nat (cn c))). lia.
Qed.

Lemma hb_sched_adds byprio c s es d ring : hb_adds s ring (hb_sched byprio c s es d ring).
Proof. unfold hb_sched. destruct byprio; [apply push_all_prio_adds|apply push_all_adds]. Qed.

Lemma concat_perm {A} (l l' : list (list A)) : Permutation l l' -> Permutation (concat l) (concat l').
Proof. intros H. rewrite !concat_flat_map. rewrite H. apply Permutation_refl. Qed.

Lemma ltq_sched_items c s es d ring :
  Permutation (concat (hb_items (ltq_sched c s es d ring))) (concat (hb_items s) ++ ring) /\
  length (hb_bufs (ltq_sched c s es d ring)) = length (hb_bufs s) /\
  (lgood s -> lgood (ltq_sched c s es d ring)).
Proof.
  unfold ltq_sched. destruct ring as [|t r].
  - rewrite app_nil_r. auto.
  - destruct (push_all_adds (cparent c) (cfuel c) s (ctq c es) (ltq_group [] t r) d) as [Hp Hl].
    split; [|split; [exact Hl|]].
    + rewrite (concat_perm _ _ Hp), concat_app, ltq_group_perm. apply Permutation_refl.
    + intros HF. unfold lgood. rewrite Hp. apply Forall_app. split; auto. apply ltq_group_nonempty.
Qed.

Lemma msched_spec m c s es d ring rnds : minv m c s ->
  minv m c (msched m c s es d ring rnds) /\
  Permutation (ids (mpend m (msched m c s es d ring rnds))) (ids (mpend m s) ++ ids ring).
Proof.
  unfold ids. rewrite <- map_app.
  destruct m; cbn [minv msched mpend mstate]; intros Hinv.
  (* the goals come in the order ap gd ip lfq lhq ll llp ltq pbq rnd spq; modules with the
     same container are done together, each selector counting the goals still open *)
  (* lfq lhq pbq *)
  4, 5, 9: edestruct hb_sched_adds as [Hp Hl]; split; [rewrite Hl; exact Hinv|apply Permutation_map, Hp].
  - (* ap *) split; [exact I|]. apply Permutation_map. unfold ap_sched. rewrite chain_sorted_perm. perm_solve.
  - (* gd *) split; [exact I|]. apply Permutation_map. unfold gd_sched.
    destruct ring as [|t r]; [rewrite app_nil_r; auto|]. destruct (thi t && Z.eqb d 0); perm_solve.
  - (* ip *) split; [exact I|]. apply Permutation_map. unfold ip_sched.
    destruct (Z.eqb d 0); [rewrite chain_sorted_perm|]; perm_solve.
  - (* ll *) unfold ll_sched. split; [rewrite set_nth_length; exact Hinv|]. apply Permutation_map.
    assert (Ht : ll_target c (norm c es) d < length s) by (rewrite Hinv; apply ll_target_lt, norm_lt).
    apply (Permutation_app_inv_l (nth (ll_target c (norm c es) d) s [])).
    rewrite (concat_set_nth _ _ s Ht). perm_solve.
  - (* llp *) unfold llp_sched. split; [rewrite set_nth_length; exact Hinv|]. apply Permutation_map.
    assert (Ht : norm c es < length s) by (rewrite Hinv; apply norm_lt).
    apply (Permutation_app_inv_l (nth (norm c es) s [])).
    rewrite (concat_set_nth _ _ s Ht), llp_chain_perm. perm_solve.
  - (* ltq *) destruct Hinv as [H1 H2]. destruct (ltq_sched_items c s (norm c es) d ring) as (Hp & Hl & HF).
    split; [split; [congruence|auto]|apply Permutation_map, Hp].
  - (* rnd *) split; [exact I|]. unfold rnd_sched. rewrite chain_sorted_perm, list_sort_perm.
    rewrite !map_app, rnd_assign_ids. perm_solve.
  - (* spq *) split; [exact I|]. apply Permutation_map. apply spq_sched_perm.
Qed.

Lemma hb_sel_spec c s es s' o : hb_sel c s es = (s', o) ->
  length (hb_bufs s') = length (hb_bufs s) /\
  match o with
  | Some t => Permutation (hb_items s) (t :: hb_items s')
  | None => s' = s /\ hb_sys s = [] /\
            forall b, In b (ctq c es :: cchain c es) -> bitems (nth b (hb_bufs s) []) = []
  end.
Proof.
  unfold hb_sel. destruct (pop_chain task tprio (hb_bufs s) (ctq c es :: cchain c es)) as [bufs' [x|]] eqn:E;
    apply pop_chain_spec in E; destruct E as [Hl E].
  - intros H; inversion H; subst. split; [exact Hl|].
    rewrite !hb_items_eq. cbn [hb_bufs hb_sys]. rewrite E. perm_solve.
  - destruct (hb_sys s) as [|y r] eqn:Es; intros H; inversion H; subst; (split; [reflexivity|]).
    + repeat split. apply E.
    + rewrite !hb_items_eq. cbn [hb_bufs hb_sys]. rewrite Es. perm_solve.
Qed.

Lemma ltq_push_spec c s b hs : hb_adds s hs (ltq_push c s b hs).
Proof. apply push_all_adds. Qed.

Lemma nonempty_cons h hs : nonempty (h :: hs) = nonempty [h] ++ nonempty hs.
Proof. destruct h; reflexivity. Qed.
Lemma concat_nonempty hs : concat (nonempty hs) = concat hs.
Proof. unfold nonempty. induction hs as [|[|x h] r IH]; cbn; congruence. Qed.
Lemma nonempty_good hs : Forall (fun h : heap => h <> []) (nonempty hs).
Proof.
  apply Forall_forall. intros h Hh. apply filter_In in Hh. destruct Hh as [_ Hh]. destruct h; discriminate.
Qed.

Lemma lgood_take (s s_ : hbst heap) h : lgood s -> Permutation (hb_items s) (h :: hb_items s_) ->
  h <> [] /\ lgood s_.
Proof. unfold lgood. intros Hg Ht. rewrite Ht in Hg. inversion Hg; auto. Qed.

(* heap h is taken out of s, leaving s_; its top t is returned and the pieces of
   the rest that are not empty are pushed back, giving s' *)
Lemma ltq_return (s s_ s' : hbst heap) h t pieces :
  lgood s -> Permutation (hb_items s) (h :: hb_items s_) -> length (hb_bufs s_) = length (hb_bufs s) ->
  Permutation h (t :: concat pieces) -> hb_adds s_ (nonempty pieces) s' ->
  length (hb_bufs s') = length (hb_bufs s) /\ lgood s' /\
  Permutation (concat (hb_items s)) (t :: concat (hb_items s')).
Proof.
  intros Hg Ht Hl Hs [Hp Hl']. destruct (lgood_take _ _ _ Hg Ht) as [_ Hg_].
  split; [congruence|]. split.
  - unfold lgood. rewrite Hp. apply Forall_app. split; [exact Hg_|apply nonempty_good].
  - rewrite (concat_perm _ _ Ht), (concat_perm _ _ Hp), concat_app, concat_nonempty.
    cbn [concat]. rewrite Hs. perm_solve.
Qed.

(* taking buffer b's best heap out *)
Lemma take_heap (s : hbst heap) b b' h : pop_best heap hprio (nth b (hb_bufs s) []) = (b', Some h) ->
  Permutation (hb_items s) (h :: hb_items (mkHB (set_nth b b' (hb_bufs s)) (hb_sys s))).
Proof.
  intros E. rewrite !hb_items_eq. cbn [hb_bufs hb_sys]. rewrite (pop_best_bufs hprio _ _ _ _ E). perm_solve.
Qed.

Lemma ltq_steal_spec c tq order : forall s s' o, lgood s -> ltq_steal c s tq order = (s', o) ->
  length (hb_bufs s') = length (hb_bufs s) /\ lgood s' /\
  match o with
  | Some t => Permutation (concat (hb_items s)) (t :: concat (hb_items s'))
  | None => s' = s /\ forall b, In b order -> bitems (nth b (hb_bufs s) []) = []
  end.
Proof.
  induction order as [|b r IH]; intros s s' o Hg H; cbn [ltq_steal] in H.
  - injection H as <- <-. repeat split; auto. intros b [].
  - destruct (pop_best heap hprio (nth b (hb_bufs s) [])) as [b' [h|]] eqn:E.
    + pose proof (take_heap s b b' h E) as Ht.
      set (s1 := mkHB (set_nth b b' (hb_bufs s)) (hb_sys s)) in *.
      destruct (lgood_take _ _ _ Hg Ht) as [Hh _].
      destruct (heap_split_nonempty h Hh) as (t & hp & nh & Es). rewrite Es in H.
      injection H as <- <-.
      apply (ltq_return s s1 _ h t [nh; hp] Hg Ht (set_nth_length _ _ _)).
      * rewrite (heap_split_some _ _ _ _ Es). cbn [concat]. perm_solve.
      * destruct hp as [|p0 pr]; [rewrite (heap_split_hp_nil _ _ _ Es); apply hb_adds_nil|].
        rewrite nonempty_cons. eapply hb_adds_trans; apply ltq_push_spec.
    + apply pop_best_none in E. destruct E as [_ E].
      destruct (IH _ _ _ Hg H) as (H1 & H2 & H3). repeat split; auto.
      destruct o; auto. destruct H3 as [H3 H4]. split; auto.
      intros b0 [Hb|Hb]; subst; auto.
Qed.

Lemma ltq_sel_spec c s es s' o : lgood s -> ltq_sel c s es = (s', o) ->
  length (hb_bufs s') = length (hb_bufs s) /\ lgood s' /\
  match o with
  | Some t => Permutation (concat (hb_items s)) (t :: concat (hb_items s'))
  | None => s' = s /\ hb_sys s = [] /\
            forall b, In b (ctq c es :: tl (cchain c es)) -> bitems (nth b (hb_bufs s) []) = []
  end.
Proof.
  intros Hg. unfold ltq_sel.
  destruct (pop_best heap hprio (nth (ctq c es) (hb_bufs s) [])) as [b' [h|]] eqn:E.
  - (* own queue has a heap: its top is returned *)
    pose proof (take_heap s _ b' h E) as Ht.
    set (s0 := mkHB (set_nth (ctq c es) b' (hb_bufs s)) (hb_sys s)) in *.
    destruct (lgood_take _ _ _ Hg Ht) as [Hh _].
    destruct (heap_remove_nonempty h Hh) as (t & h' & Er). rewrite Er.
    assert (Hr : Permutation h (t :: concat [h'])) by (cbn; rewrite app_nil_r; apply heap_remove_some, Er).
    destruct h' as [|x r]; intros H; injection H as <- <-;
      apply (ltq_return s s0 _ h t _ Hg Ht (set_nth_length _ _ _) Hr); [apply hb_adds_nil|apply ltq_push_spec].
  - apply pop_best_none in E. destruct E as [_ E].
    destruct (ltq_steal c s (ctq c es) (tl (cchain c es))) as [s2 ot] eqn:Est.
    destruct (ltq_steal_spec _ _ _ _ _ _ Hg Est) as (H1 & H2 & H3). destruct ot as [t|].
    + intros H; injection H as <- <-. auto.
    + destruct H3 as [-> H4].
      destruct (hb_sys s) as [|h sys'] eqn:Es.
      * intros H; injection H as <- <-. repeat split; auto.
        intros b [Hb|Hb]; subst; auto.
      * (* the first heap of the system queue is split *)
        set (s3 := mkHB (hb_bufs s) sys').
        assert (Ht : Permutation (hb_items s) (h :: hb_items s3)).
        { rewrite !hb_items_eq. cbn [s3 hb_bufs hb_sys]. rewrite Es. perm_solve. }
        destruct (lgood_take _ _ _ Hg Ht) as [Hh _].
        destruct (heap_split_nonempty h Hh) as (t & hp & nh & Esp). rewrite Esp.
        intros H; injection H as <- <-.
        apply (ltq_return s s3 _ h t [hp; nh] Hg Ht eq_refl).
        -- rewrite (heap_split_some _ _ _ _ Esp). cbn [concat]. perm_solve.
        -- destruct hp as [|p0 pr]; [rewrite (heap_split_hp_nil _ _ _ Esp); apply hb_adds_nil|apply ltq_push_spec].
Qed.

Lemma msel_spec m c s es s' o : minv m c s -> msel m c s es = (s', o) ->
  minv m c s' /\
  match o with Some t => Permutation (mpend m s) (t :: mpend m s') | None => s' = s end.
Proof.
  destruct m; cbn [minv msel mpend mstate]; intros Hinv E.
  (* ap gd rnd *)
  1, 2, 10: split; [exact I|apply pop_front_sel, E].
  (* lfq lhq pbq *)
  2, 3, 7: apply hb_sel_spec in E; destruct E as [Hl E]; split; [congruence|]; destruct o; [exact E|apply E].
  (* ll llp *)
  2, 3: apply pop_lifos_spec in E; destruct E as [Hl E]; split; [congruence|]; destruct o; [exact E|apply E].
  - (* ip *) split; [exact I|apply pop_back_sel, E].
  - (* ltq *) destruct Hinv as [Hl Hg]. destruct (ltq_sel_spec _ _ _ _ _ Hg E) as (Hl' & Hg' & Ho).
    split; [split; [congruence|exact Hg']|]. destruct o; [exact Ho|apply Ho].
  - (* spq *) split; [exact I|]. apply spq_sel_pend in E. destruct o; [rewrite E; auto|apply E].
Qed.

(* when every stream's select finds nothing, the module is empty: every buffer is looked
   into by some stream ([wf]), and every stream looks into the system queue *)
Lemma bufs_live {A} c (s : hbst A) : wf c -> length (hb_bufs s) = length (c_sizes c) ->
  (forall es, es < cn c -> hb_sys s = [] /\
     forall b, In b (ctq c es :: tl (cchain c es)) -> bitems (nth b (hb_bufs s) []) = []) ->
  hb_items s = [].
Proof.
  intros Hwf Hl Hall. rewrite hb_items_eq.
  destruct (Hall 0) as [-> _]; [unfold cn; lia|]. rewrite app_nil_r.
  apply (flat_map_nil_nth bitems []). intros b Hb. rewrite Hl in Hb. destruct (Hwf b Hb) as (es & Hes & Hin).
  apply (Hall es Hes). destruct Hin as [->|Hin]; [left|right]; auto.
Qed.

Lemma hb_live c s : wf c -> length (hb_bufs s) = length (c_sizes c) ->
  (forall es, es < cn c -> snd (hb_sel c s (norm c es)) = None) -> hb_items s = [].
Proof.
  intros Hwf Hl Hall. apply (bufs_live c s Hwf Hl). intros es Hes.
  specialize (Hall es Hes). rewrite norm_id in Hall by exact Hes.
  destruct (hb_sel c s es) as [s' o] eqn:E. cbn in Hall; subst o.
  apply hb_sel_spec in E. destruct E as (_ & _ & Hs & He). split; [exact Hs|].
  intros b [Hb|Hb]; apply He; [left; exact Hb|right]. destruct (cchain c es); [destruct Hb|right; exact Hb].
Qed.

Lemma lifos_live c s : length s = cn c ->
  (forall es, es < cn c -> snd (lifos_sel c s (norm c es)) = None) -> concat s = [].
Proof.
  intros Hl Hall. rewrite concat_flat_map. apply (flat_map_nil_nth (fun l => l) []). intros i Hi. rewrite Hl in Hi. specialize (Hall i Hi).
  unfold lifos_sel in Hall. rewrite norm_id in Hall by exact Hi.
  destruct (pop_lifos s (i :: steal_order (cn c) i)) as [s' o] eqn:E. cbn in Hall; subst o.
  apply pop_lifos_spec in E. apply E. left; reflexivity.
Qed.

Lemma mlive m c s : wf c -> minv m c s ->
  (forall es, es < cn c -> snd (msel m c s es) = None) -> mpend m s = [].
Proof.
  intros Hwf Hinv Hall.
  assert (H0 : 0 < cn c) by (unfold cn; lia).
  destruct m; cbn [minv msel mpend mstate] in *.
  (* ap gd ip rnd *)
  1-3, 10: specialize (Hall 0 H0); destruct s; [reflexivity|discriminate].
  (* lfq lhq pbq *)
  1, 2, 6: apply (hb_live c s Hwf Hinv Hall).
  (* ll llp *)
  1, 2: apply (lifos_live c s Hinv Hall).
  - (* ltq *) destruct Hinv as [Hlen Hg]. rewrite (bufs_live c s Hwf Hlen); [reflexivity|].
    intros es Hes. specialize (Hall es Hes). rewrite norm_id in Hall by exact Hes.
    destruct (ltq_sel c s es) as [s' o] eqn:E. cbn in Hall; subst o.
    apply (ltq_sel_spec _ _ _ _ _ Hg E).
  - (* spq *) specialize (Hall 0 H0). destruct (spq_sel s) as [s' o] eqn:E. cbn in Hall; subst.
    apply spq_sel_pend in E. apply E.
Qed.
