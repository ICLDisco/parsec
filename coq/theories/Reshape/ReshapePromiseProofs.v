(* C18 — proofs about reshape promises (datacopy futures): a promise is fulfilled at most once, a
   fulfilment only ADDS a copy (no existing copy is touched), consumers that request the same
   shape from a promise share one copy and one conversion, and no conversion happens when the
   requested shape is the shape of the produced copy. *)
From PV Require Import Base.Tac DType.DTypeDefs Reshape.ReshapeDefs.
Local Open Scope Z_scope.

Lemma length_lset {A} (l : list A) n x : length (lset l n x) = length l.
Proof. revert n; induction l as [|y l IH]; intros [|n]; cbn; auto. Qed.

Lemma nth_lset_same {A} (l : list A) n x d : (n < length l)%nat -> nth n (lset l n x) d = x.
Proof. revert n; induction l as [|y l IH]; intros [|n] H; cbn in *; try lia; auto. apply IH; lia. Qed.

Lemma nth_lset_other {A} (l : list A) n m x d : n <> m -> nth m (lset l n x) d = nth m l d.
Proof. revert n m; induction l as [|y l IH]; intros [|n] [|m] H; cbn; auto; try lia. Qed.

Lemma nth_app_l {A} (l l' : list A) n d : (n < length l)%nat -> nth n (l ++ l') d = nth n l d.
Proof. intros; apply app_nth1; auto. Qed.

Lemma nth_app_new {A} (l : list A) x d : nth (length l) (l ++ [x]) d = x.
Proof. rewrite app_nth2 by lia. rewrite Nat.sub_diag. reflexivity. Qed.

Lemma getf_setf_same s i F : (i < length (futs s))%nat -> getf (setf s i F) i = F.
Proof. intros H. unfold getf, setf. cbn. apply nth_lset_same. exact H. Qed.
Lemma getf_setf_other s i g F : i <> g -> getf (setf s i F) g = getf s g.
Proof. intros H. unfold getf, setf. cbn. apply nth_lset_other. exact H. Qed.
Lemma length_futs_setf s i F : length (futs (setf s i F)) = length (futs s).
Proof. unfold setf. cbn. apply length_lset. Qed.
Lemma getf_add_fut_old s N g : (g < length (futs s))%nat -> getf (add_fut s N) g = getf s g.
Proof. intros H. unfold getf, add_fut. cbn. apply app_nth1. exact H. Qed.
Lemma getf_add_fut_new s N : getf (add_fut s N) (length (futs s)) = N.
Proof. unfold getf, add_fut. cbn. apply nth_app_new. Qed.

(* s' has the copies of s, unchanged, possibly followed by new ones *)
Definition ext (s s' : st) : Prop := exists l, copies s' = copies s ++ l.

Lemma ext_refl s : ext s s.
Proof. exists []. rewrite app_nil_r. reflexivity. Qed.

Lemma ext_trans a b c : ext a b -> ext b c -> ext a c.
Proof. intros [l1 H1] [l2 H2]. exists (l1 ++ l2). rewrite H2, H1, app_assoc. reflexivity. Qed.

Lemma ext_getc s s' i : ext s s' -> (i < length (copies s))%nat -> getc s' i = getc s i.
Proof. intros [l H] Hi. unfold getc. rewrite H. apply app_nth1; auto. Qed.

Lemma ext_same_copies s s' : copies s' = copies s -> ext s s'.
Proof. intros H. exists []. rewrite app_nil_r. exact H. Qed.

Lemma ext_set_err s e : ext s (set_err s e).
Proof. apply ext_same_copies. reflexivity. Qed.

Lemma ext_setf s i f : ext s (setf s i f).
Proof. apply ext_same_copies. reflexivity. Qed.

Lemma ext_add_fut s f : ext s (add_fut s f).
Proof. apply ext_same_copies. reflexivity. Qed.

Lemma ext_repo_set s k f : ext s (repo_set s k f).
Proof. apply ext_same_copies. reflexivity. Qed.

Lemma ext_repo_del s k : ext s (repo_del s k).
Proof. apply ext_same_copies. reflexivity. Qed.

Lemma get_internal_ext E s f b : ext s (fst (get_internal E s f b)).
Proof.
  unfold get_internal. destruct (f_val (getf s f)); cbn [fst]; [apply ext_refl|].
  destruct (negb b); cbn [fst]; [apply ext_set_err|].
  destruct (negb (sendrecv_ok _ _)); cbn [fst]; [apply ext_set_err|].
  eexists. cbn. reflexivity.
Qed.

Lemma find_nested_ext E l : forall s s0 s1 r, find_nested E s l s0 s1 = Some r -> ext s (fst r).
Proof.
  induction l as [|n l IH]; intros s s0 s1 r H; cbn in H; [discriminate|].
  destruct (get_internal E s n true) as [s' d] eqn:Hg.
  assert (He : ext s s') by (pose proof (get_internal_ext E s n true) as X; rewrite Hg in X; exact X).
  destruct d as [c|].
  - destruct (match_spec _ _ s0 s1).
    + inv H. exact He.
    + eapply ext_trans; [exact He|]. eapply IH; eauto.
  - inv H. exact He.
Qed.

Lemma get_spec_ext E s f s0 s1 : ext s (fst (get_spec E s f s0 s1)).
Proof.
  unfold get_spec. destruct (match_spec _ _ s0 s1); [apply get_internal_ext|].
  destruct (find_nested E s (f_nested (getf s f)) s0 s1) as [r|] eqn:Hf.
  - eapply find_nested_ext; eauto.
  - eapply ext_trans; [|apply get_internal_ext].
    eapply ext_trans; [apply ext_add_fut|apply ext_setf].
Qed.

(* obtaining a copy through a promise never alters a copy that already exists (the
   producer's, another consumer's, a tile of the collection) *)
Lemma get_from_dep_ext E s f ti : ext s (fst (get_from_dep E s f ti)).
Proof. unfold get_from_dep. destruct (f_guard _); [apply get_internal_ext|apply get_spec_ext]. Qed.

Lemma new_promise_ext s X rank b src cnt dst : ext s (fst (new_promise s X rank b src cnt dst)).
Proof. unfold new_promise. cbn [fst]. apply ext_add_fut. Qed.

Lemma create_ext E fx s pk sk X rank cur b src cnt dst : ext s (fst (create E fx s pk sk X rank cur b src cnt dst)).
Proof.
  unfold create.
  assert (Huse : forall s k cur, ext s (fst (match cur with
      | Some f => (repo_set s k f, Some f)
      | None => let '(s1, f) := new_promise s X rank b src cnt dst in (repo_set s1 k f, Some f) end))).
  { intros s0 k [f|]; cbn [fst]; [apply ext_repo_set|].
    destruct (new_promise s0 X rank b src cnt dst) as [s1 f] eqn:Hn. cbn [fst].
    eapply ext_trans; [|apply ext_repo_set].
    pose proof (new_promise_ext s0 X rank b src cnt dst) as H. rewrite Hn in H. exact H. }
  destruct (repo_get s pk) as [pf|]; [|apply Huse].
  destruct (negb b); [apply Huse|].
  destruct (if fx then (s, f_val (getf s pf)) else get_internal E s pf false) as [s1 d] eqn:Hd.
  assert (He : ext s s1).
  { destruct fx; [inv Hd; apply ext_refl|].
    pose proof (get_internal_ext E s pf false) as H. rewrite Hd in H. exact H. }
  destruct (match d with Some c => Nat.eqb c X | None => false end).
  - cbn [fst]. eapply ext_trans; [exact He|apply ext_repo_set].
  - eapply ext_trans; [exact He|apply (Huse s1 sk None)].
Qed.

Lemma setup_local_ext E fx s pk sk X rank cur to : ext s (fst (setup_local E fx s pk sk X rank cur to)).
Proof. unfold setup_local. apply create_ext. Qed.

Lemma get_internal_done E s f b c : f_val (getf s f) = Some c -> get_internal E s f b = (s, Some c).
Proof. intros H. unfold get_internal. rewrite H. reflexivity. Qed.

(* what a fulfilment does: exactly one new copy of the destination type, holding the conversion of
   the promise's input copy into a fresh tile; one conversion event; the promise now tracks it *)
Lemma get_internal_fulfil E s f :
  f_val (getf s f) = None -> (f < length (futs s))%nat ->
  sendrecv_ok (lay E (f_src (getf s f)) (f_cnt (getf s f))) (lay E (f_dst (getf s f)) 1) = true ->
  let F := getf s f in
  let id := length (copies s) in
  let s' := fst (get_internal E s f true) in
  snd (get_internal E s f true) = Some id /\
  copies s' = copies s ++ [{| cp_dtt := f_dst F; cp_rank := f_rank F;
                              cp_data := convert (lay E (f_src F) (f_cnt F)) (lay E (f_dst F) 1)
                                                 (cp_data (getc s (f_in F))) (e_fresh E) |}] /\
  evs s' = EConv (f_in F) (f_src F) (f_cnt F) id (f_dst F) :: evs s /\
  f_val (getf s' f) = Some id /\
  (forall g, g <> f -> getf s' g = getf s g) /\
  length (futs s') = length (futs s) /\ repo s' = repo s /\ err s' = err s.
Proof.
  intros Hv Hf Hok F id s'. subst s' F id. unfold get_internal. rewrite Hv, Hok. cbn [negb fst snd].
  repeat split; auto.
  - rewrite getf_setf_same by exact Hf. reflexivity.
  - intros g Hg. rewrite getf_setf_other by auto. reflexivity.
  - rewrite length_futs_setf. reflexivity.
Qed.

(* ... in terms of the promises alone, for a request known to have returned copy c *)
Lemma get_internal_futs E s f s' c :
  f_val (getf s f) = None -> (f < length (futs s))%nat -> get_internal E s f true = (s', Some c) ->
  getf s' f = fut_val (getf s f) (Some c) /\ (forall g, g <> f -> getf s' g = getf s g) /\
  length (futs s') = length (futs s).
Proof.
  intros Hv Hf H. unfold get_internal in H. rewrite Hv in H. cbn [negb] in H.
  destruct (negb (sendrecv_ok _ _)); inv H.
  split; [apply getf_setf_same; exact Hf|].
  split; [intros g Hg; rewrite getf_setf_other by auto; reflexivity|rewrite length_futs_setf; reflexivity].
Qed.

(* the second request to the same promise finds it completed: same copy, no event, same state *)
Lemma get_internal_idem E s f s1 c b :
  (f < length (futs s))%nat -> get_internal E s f true = (s1, Some c) -> get_internal E s1 f b = (s1, Some c).
Proof.
  intros Hf H. apply get_internal_done.
  destruct (f_val (getf s f)) as [c0|] eqn:Hv.
  - rewrite (get_internal_done E s f true c0 Hv) in H. inv H. exact Hv.
  - destruct (get_internal_futs E s f s1 c Hv Hf H) as [-> _]. reflexivity.
Qed.

(* number of conversions recorded *)
Definition nconv (s : st) : nat := length (filter (fun e => match e with EConv _ _ _ _ _ => true | _ => false end) (evs s)).

Lemma get_internal_nconv E s f b : (nconv (fst (get_internal E s f b)) <= nconv s + 1)%nat.
Proof.
  unfold get_internal. destruct (f_val (getf s f)); cbn [fst]; [lia|].
  destruct (negb b); cbn [fst]; [unfold nconv; cbn; lia|].
  destruct (negb (sendrecv_ok _ _)); cbn [fst]; unfold nconv; cbn; lia.
Qed.

(* every nested promise of f is a distinct, existing, completed promise (true in the sequential
   model after every request: a nested promise is triggered by the request that creates it) *)
Definition nested_done (s : st) (f : nat) : Prop :=
  forall n, In n (f_nested (getf s f)) -> (n < length (futs s))%nat /\ n <> f /\ f_val (getf s n) <> None.

Lemma find_nested_done E s l s0 s1 :
  (forall n, In n l -> f_val (getf s n) <> None) ->
  find_nested E s l s0 s1 =
  match find (fun n => match_spec (f_m0 (getf s n)) (f_m1 (getf s n)) s0 s1) l with
  | Some n => Some (s, f_val (getf s n))
  | None => None
  end.
Proof.
  induction l as [|n l IH]; intros H; cbn; [reflexivity|].
  destruct (f_val (getf s n)) as [c|] eqn:Hv; [|exfalso; eapply H; [left; reflexivity|exact Hv]].
  rewrite (get_internal_done E s n true c Hv).
  destruct (match_spec _ _ s0 s1); [rewrite Hv; reflexivity|].
  apply IH. intros m Hm. apply H. right. exact Hm.
Qed.

Lemma match_spec_refl s0 s1 : match_spec s0 s1 s0 s1 = true.
Proof. unfold match_spec. rewrite !Z.eqb_refl. reflexivity. Qed.

Lemma find_ext' {A} (p q : A -> bool) l : (forall x, In x l -> p x = q x) -> find p l = find q l.
Proof. induction l as [|y l IH]; cbn; intros H; [reflexivity|]. rewrite (H y) by auto. destruct (q y); auto. Qed.

Lemma find_app_none {A} (p : A -> bool) l x : find p l = None -> find p (l ++ [x]) = if p x then Some x else None.
Proof. induction l as [|y l IH]; cbn; intros H; [reflexivity|]. destruct (p y); [discriminate|auto]. Qed.

(* the nested promise parsec_setup_nested_future makes for the request (s0, s1) to promise F: the
   record [get_spec] builds (ReshapeDefs.v), written out the same way, so that [get_spec_done]
   below closes its last branch by conversion *)
Definition nested_fut (F : fut) (s0 s1 : Z) : fut :=
  {| f_in := f_in F; f_m0 := s0; f_m1 := s1; f_src := f_src F; f_cnt := f_cnt F; f_dst := s1;
     f_val := None; f_nested := []; f_guard := false; f_rank := f_rank F |}.
(* ... and the state in which it is triggered: it is the last promise, and the last nested one of f *)
Definition nest (s : st) (f : nat) (s0 s1 : Z) : st :=
  let sa := add_fut s (nested_fut (getf s f) s0 s1) in
  setf sa f (fut_nested (getf sa f) (f_nested (getf s f) ++ [length (futs s)])).

Lemma nest_state s f s0 s1 : (f < length (futs s))%nat ->
  let n := length (futs s) in
  let sb := nest s f s0 s1 in
  copies sb = copies s /\ evs sb = evs s /\ length (futs sb) = S n /\
  getf sb n = nested_fut (getf s f) s0 s1 /\
  getf sb f = fut_nested (getf s f) (f_nested (getf s f) ++ [n]) /\
  (forall g, g <> f -> (g < n)%nat -> getf sb g = getf s g).
Proof.
  intros Hf n sb. subst sb. unfold nest.
  assert (Hla : length (futs (add_fut s (nested_fut (getf s f) s0 s1))) = S n)
    by (unfold add_fut; cbn; rewrite app_length; cbn; lia).
  split; [reflexivity|]. split; [reflexivity|]. split; [rewrite length_futs_setf; exact Hla|]. split; [|split].
  - rewrite getf_setf_other by (unfold n; lia). apply getf_add_fut_new.
  - rewrite getf_setf_same by lia. rewrite getf_add_fut_old by exact Hf. reflexivity.
  - intros g Hg Hlt. rewrite getf_setf_other by auto. apply getf_add_fut_old. exact Hlt.
Qed.

(* a request when every nested promise is completed (as it is in the sequential model) *)
Lemma get_spec_done E s f s0 s1 :
  (forall n, In n (f_nested (getf s f)) -> f_val (getf s n) <> None) ->
  get_spec E s f s0 s1 =
  if match_spec (f_m0 (getf s f)) (f_m1 (getf s f)) s0 s1 then get_internal E s f true
  else match find (fun n => match_spec (f_m0 (getf s n)) (f_m1 (getf s n)) s0 s1) (f_nested (getf s f)) with
       | Some n => (s, f_val (getf s n))
       | None => get_internal E (nest s f s0 s1) (length (futs s)) true
       end.
Proof.
  intros H. unfold get_spec. rewrite find_nested_done by exact H.
  destruct (match_spec _ _ s0 s1); [reflexivity|]. destruct (find _ _); reflexivity.
Qed.

(* a request (s0, s1) to promise f that returns copy c leaves the promise in a state where the
   same request returns the same copy c without any further conversion, and the first request
   itself performed at most one conversion *)
Lemma get_spec_shared E s f s0 s1 s' c :
  (f < length (futs s))%nat -> nested_done s f ->
  get_spec E s f s0 s1 = (s', Some c) ->
  get_spec E s' f s0 s1 = (s', Some c) /\ nested_done s' f /\ (nconv s' <= nconv s + 1)%nat /\
  (f < length (futs s'))%nat.
Proof.
  intros Hf Hnd H. rewrite get_spec_done in H by (intros n Hn; apply (Hnd n Hn)).
  destruct (match_spec (f_m0 (getf s f)) (f_m1 (getf s f)) s0 s1) eqn:Hm.
  - (* the promise itself has the requested shape *)
    assert (Hi := get_internal_idem E s f s' c true Hf H).
    assert (Hn : (nconv s' <= nconv s + 1)%nat) by (pose proof (get_internal_nconv E s f true) as X; rewrite H in X; exact X).
    destruct (f_val (getf s f)) as [c0|] eqn:Hv.
    + rewrite (get_internal_done E s f true c0 Hv) in H. inv H.
      split; [unfold get_spec; rewrite Hm; exact Hi|]. auto.
    + destruct (get_internal_futs E s f s' c Hv Hf H) as [Hself [Hoth Hlen]].
      rewrite Hlen. split; [|split; [|split; [exact Hn|exact Hf]]].
      * unfold get_spec. rewrite Hself. cbn [f_m0 f_m1 fut_val]. rewrite Hm. exact Hi.
      * intros n Hn'. rewrite Hself in Hn'. cbn [f_nested fut_val] in Hn'.
        destruct (Hnd n Hn') as [H1 [H2 H3]]. rewrite Hlen, Hoth by exact H2. auto.
  - (* another shape: look among the nested promises *)
    destruct (find (fun n => match_spec (f_m0 (getf s n)) (f_m1 (getf s n)) s0 s1) (f_nested (getf s f))) as [n|] eqn:Hfind.
    + (* an existing nested promise has it *)
      inv H. split; [|split; [exact Hnd|split; [lia|exact Hf]]].
      rewrite get_spec_done by (intros m Hm'; apply (Hnd m Hm')). rewrite Hm, Hfind. congruence.
    + (* a new nested promise n is created and fulfilled *)
      destruct (nest_state s f s0 s1 Hf) as [_ [Hev [Hlen_b [HbN [Hbf Hbg]]]]].
      set (n := length (futs s)) in *. set (sb := nest s f s0 s1) in *.
      assert (Hnf : n <> f) by (unfold n; lia).
      assert (Hn1 : (nconv s' <= nconv s + 1)%nat).
      { pose proof (get_internal_nconv E sb n true) as X. rewrite H in X. unfold nconv in *. rewrite Hev in X. exact X. }
      assert (HvN : f_val (getf sb n) = None) by (rewrite HbN; reflexivity).
      destruct (get_internal_futs E sb n s' c HvN ltac:(lia) H) as [H2n [H2g H2len]].
      rewrite HbN in H2n. rewrite Hlen_b in H2len.
      assert (H2f : getf s' f = fut_nested (getf s f) (f_nested (getf s f) ++ [n])) by (rewrite H2g by auto; exact Hbf).
      assert (Hnd' : nested_done s' f).
      { intros m Hm'. rewrite H2f in Hm'. cbn [f_nested fut_nested] in Hm'.
        rewrite H2len. apply in_app_or in Hm'. destruct Hm' as [Hm'|[<-|[]]].
        - destruct (Hnd m Hm') as [H1 [H2 H3]]. split; [unfold n; lia|]. split; [exact H2|].
          rewrite H2g by (unfold n; lia). rewrite Hbg by (auto; unfold n; lia). exact H3.
        - split; [lia|]. split; [exact Hnf|]. rewrite H2n. discriminate. }
      split; [|split; [exact Hnd'|split; [exact Hn1|rewrite H2len; unfold n; lia]]].
      rewrite get_spec_done by (intros m Hm'; apply (Hnd' m Hm')).
      rewrite H2f. cbn [f_m0 f_m1 f_nested fut_nested]. rewrite Hm.
      (* the old nested promises still do not match, the new one does *)
      assert (Hold : find (fun m => match_spec (f_m0 (getf s' m)) (f_m1 (getf s' m)) s0 s1)
                          (f_nested (getf s f)) = None).
      { rewrite <- Hfind. apply find_ext'. intros m Hm'. destruct (Hnd m Hm') as [H1 [H2 _]].
        rewrite H2g by (unfold n; lia). rewrite Hbg by (auto; unfold n; lia). reflexivity. }
      rewrite (find_app_none _ _ _ Hold). cbv beta. rewrite H2n. cbn [f_m0 f_m1 f_val fut_val nested_fut].
      rewrite match_spec_refl. cbv beta iota. rewrite H2n. reflexivity.
Qed.

Lemma repo_get_set s k g : repo_get (repo_set s k g) k = Some g.
Proof.
  unfold repo_get, repo_set. cbn. destruct k as [[[[a b] c] e] g0]. cbn. rewrite !Z.eqb_refl. reflexivity.
Qed.

(* no conversion when the shapes are identical: the producer's copy X has type d; the output
   dependency has no [type] or [type = d], the predecessor's repo entry is free, nothing is carried: the promise set up is already fulfilled
   with X itself, and a consumer without [type] or with [type = d] obtains X, with no conversion
   and no new copy *)
Lemma identical_shapes_no_conversion E fx s pk sk X rank to ti :
  let d := cp_dtt (getc s X) in
  repo_get s pk = None -> (to = 0 \/ to = d) -> (ti = 0 \/ ti = d) ->
  let '(s1, cur) := setup_local E fx s pk sk X rank None to in
  exists f, cur = Some f /\ repo_get s1 pk = Some f /\
    get_from_dep E s1 f ti = (s1, Some X) /\ copies s1 = copies s /\ evs s1 = evs s.
Proof.
  intros d Hfree Hto Hti. unfold setup_local. fold d.
  assert (Hful : ((to =? 0) || (to =? d)) = true) by (destruct Hto; subst; rewrite ?Z.eqb_refl, ?orb_true_r; reflexivity).
  rewrite Hful.
  replace (keep_cur fx s None d d) with (@None nat) by (unfold keep_cur; destruct fx; reflexivity).
  unfold create. rewrite Hfree. unfold new_promise. fold d. cbn [fst snd].
  exists (length (futs s)). split; [reflexivity|]. split.
  - apply repo_get_set.
  - split; [|split; reflexivity].
    unfold get_from_dep.
    set (s1 := repo_set (add_fut s _) pk (length (futs s))).
    assert (Hg : getf s1 (length (futs s)) =
                 {| f_in := X; f_m0 := d; f_m1 := d; f_src := d; f_cnt := 1; f_dst := d;
                    f_val := Some X; f_nested := []; f_guard := false; f_rank := rank |}).
    { unfold getf, s1, repo_set, add_fut. cbn. apply nth_app_new. }
    rewrite Hg. cbn [f_guard]. unfold get_spec. rewrite Hg. cbn [f_m0 f_m1].
    assert (Hm : match_spec d d ti ti = true).
    { unfold match_spec. destruct Hti; subst; rewrite ?Z.eqb_refl, ?orb_true_r; reflexivity. }
    rewrite Hm. apply get_internal_done. rewrite Hg. reflexivity.
Qed.
