(* C18 — one producer, any number of local consumers served by ONE reshape promise (all output
   dependencies towards this rank carry the same [type], or there is a single one): every
   consumer, whatever [type] its input dependency declares and in whatever order the consumers
   run, obtains exactly what the documentation promises (CHANGELOG.ptg.md): the producer's copy
   itself when no conversion is declared, otherwise a NEW copy holding
   convert (layout of pack type) (layout of unpack type) producer's data, fresh tile.
   This is the situation in which the code as it is (p_fixed = false) satisfies the property;
   the proof covers both variants. *)
From PV Require Import Base.Tac DType.DTypeDefs Reshape.ReshapeDefs Reshape.ReshapePromiseProofs.
Local Open Scope Z_scope.

Section Fanout.
Variable E : env.
Variables f X n0 : nat.        (* the promise, the producer's copy, number of copies when the promise was made *)
Variable xdata : tile.         (* the producer's data *)
Variables d t : Z.             (* type of the producer's copy; type of the promise: d, or the output [type] *)

(* c is a copy made after the promise, of type u, holding the conversion (pack p, unpack u) *)
Definition good (s : st) (c : nat) (p u : Z) : Prop :=
  (n0 <= c < length (copies s))%nat /\ cp_dtt (getc s c) = u /\
  cp_data (getc s c) = convert (lay E p 1) (lay E u 1) xdata (e_fresh E).

(* n is a nested promise of f for another shape, and it is fulfilled *)
Definition nested_ok (s : st) (n : nat) : Prop :=
  (n < length (futs s))%nat /\ n <> f /\ f_m0 (getf s n) = f_m1 (getf s n) /\
  exists c, f_val (getf s n) = Some c /\ good s c t (f_m1 (getf s n)).

Record PS (s : st) : Prop := {
  ps_f : (f < length (futs s))%nat;
  ps_X : (X < n0)%nat;
  ps_n0 : (n0 <= length (copies s))%nat;
  ps_xd : cp_data (getc s X) = xdata;
  ps_xt : cp_dtt (getc s X) = d;
  ps_in : f_in (getf s f) = X;
  ps_m0 : f_m0 (getf s f) = t;
  ps_m1 : f_m1 (getf s f) = t;
  ps_src : f_src (getf s f) = t;
  ps_dst : f_dst (getf s f) = t;
  ps_cnt : f_cnt (getf s f) = 1;
  ps_g : f_guard (getf s f) = false;
  ps_val : forall c, f_val (getf s f) = Some c -> if t =? d then c = X else good s c t t;
  ps_ful : t = d -> f_val (getf s f) = Some X;
  ps_nest : forall n, In n (f_nested (getf s f)) -> nested_ok s n
}.

Lemma good_ext s s' c p u : ext s s' -> good s c p u -> good s' c p u.
Proof.
  intros He [[H1 H2] [H3 H4]]. destruct He as [l Hl]. unfold good.
  assert (Hg : getc s' c = getc s c) by (unfold getc; rewrite Hl; apply app_nth1; exact H2).
  rewrite Hg. split; [|auto]. rewrite Hl, app_length. lia.
Qed.

Lemma nested_ok_ext s s' n : ext s s' -> (length (futs s) <= length (futs s'))%nat ->
  getf s' n = getf s n -> nested_ok s n -> nested_ok s' n.
Proof.
  intros He Hl Hg (H1 & H2 & H3 & c & H4 & H5). unfold nested_ok. rewrite Hg.
  split; [lia|]. split; [exact H2|]. split; [exact H3|]. exists c. split; [exact H4|]. eapply good_ext; eauto.
Qed.

(* a request leaves the promise f as it was but for its value v and its nested promises ns; the copies
   and promises made meanwhile come after the old ones *)
Lemma PS_update s s' v ns : PS s -> ext s s' -> (length (futs s) <= length (futs s'))%nat ->
  getf s' f = fut_nested (fut_val (getf s f) v) ns ->
  (forall c, v = Some c -> if t =? d then c = X else good s' c t t) ->
  (t = d -> v = Some X) ->
  (forall n, In n ns -> nested_ok s' n) -> PS s'.
Proof.
  intros P He Hl Hf Hv Hful Hns.
  assert (HXl : (X < length (copies s))%nat) by (pose proof (ps_X s P); pose proof (ps_n0 s P); lia).
  constructor; rewrite ?Hf, ?(ext_getc s s' X He HXl);
    cbn [fut_nested fut_val f_in f_m0 f_m1 f_src f_dst f_cnt f_guard f_val f_nested]; try apply P; try assumption.
  - pose proof (ps_f s P). lia.
  - destruct He as [l El]. rewrite El, app_length. pose proof (ps_n0 s P). lia.
Qed.

(* what a consumer must obtain, by cases on its input [type] ti *)
Definition delivered (s : st) (c : nat) (ti : Z) : Prop :=
  if (ti =? 0) || (ti =? t) then (if t =? d then c = X else good s c t t) else good s c t ti.

Lemma getc_add_ev s e i : getc (add_ev s e) i = getc s i.
Proof. reflexivity. Qed.

(* state after a fulfilment, in the vocabulary of this section *)
Lemma fulfil_state s g s' c :
  f_val (getf s g) = None -> (g < length (futs s))%nat ->
  f_in (getf s g) = X -> f_cnt (getf s g) = 1 -> cp_data (getc s X) = xdata -> (n0 <= length (copies s))%nat ->
  get_internal E s g true = (s', Some c) ->
  ext s s' /\ good s' c (f_src (getf s g)) (f_dst (getf s g)) /\
  getf s' g = fut_val (getf s g) (Some c) /\ (forall h, h <> g -> getf s' h = getf s h) /\
  length (futs s') = length (futs s).
Proof.
  intros Hv Hg Hin Hcnt Hxd Hn0 H.
  pose proof (get_internal_ext E s g true) as He. rewrite H in He.
  split; [exact He|]. split; [|exact (get_internal_futs E s g s' c Hv Hg H)].
  unfold get_internal in H. rewrite Hv in H. cbn [negb] in H. destruct (negb (sendrecv_ok _ _)); [discriminate H|]. injection H as <- <-.
  unfold good, getc. cbn [copies setf with_futs add_ev add_copy with_copies].
  rewrite app_length, nth_app_new. cbn [length cp_dtt cp_data].
  split; [lia|]. split; [reflexivity|]. rewrite Hin, Hcnt. fold (getc s X). rewrite Hxd. reflexivity.
Qed.

Lemma match_tt ti : match_spec t t ti ti = (ti =? 0) || (ti =? t).
Proof. unfold match_spec. rewrite (Z.eqb_sym t ti). destruct (ti =? t), (ti =? 0); reflexivity. Qed.

(* one consumer: its request preserves the invariant and delivers the documented copy *)
Lemma consumer_step s ti s' c :
  PS s -> get_from_dep E s f ti = (s', Some c) -> PS s' /\ delivered s' c ti /\ ext s s'.
Proof.
  intros P H. unfold get_from_dep in H. rewrite (ps_g s P) in H. rewrite get_spec_done in H.
  2:{ intros n Hn. destruct (ps_nest s P n Hn) as (_ & _ & _ & cn & Hcn & _). rewrite Hcn. discriminate. }
  rewrite (ps_m0 s P), (ps_m1 s P), match_tt in H. unfold delivered.
  destruct ((ti =? 0) || (ti =? t)) eqn:Hm.
  - (* the promise itself is what the consumer asks for *)
    destruct (f_val (getf s f)) as [c0|] eqn:Hv.
    + rewrite (get_internal_done E s f true c0 Hv) in H. injection H as Hs Hc. subst s' c0.
      split; [exact P|]. split; [apply (ps_val s P); exact Hv|apply ext_refl].
    + assert (Htd : (t =? d) = false).
      { apply Z.eqb_neq. intros Heq. rewrite (ps_ful s P Heq) in Hv. discriminate. }
      destruct (fulfil_state s f s' c Hv (ps_f s P) (ps_in s P) (ps_cnt s P) (ps_xd s P) (ps_n0 s P) H)
        as (He & Hg & Hself & Hoth & Hlen).
      rewrite (ps_src s P), (ps_dst s P) in Hg. rewrite Htd.
      split; [|split; [exact Hg|exact He]].
      apply (PS_update s s' (Some c) (f_nested (getf s f)) P He); [lia|rewrite Hself; reflexivity| | |].
      * intros c1 Hc1. injection Hc1 as <-. rewrite Htd. exact Hg.
      * lia.
      * intros n Hn. pose proof (ps_nest s P n Hn) as Hok.
        apply (nested_ok_ext s s' n He); [lia|apply Hoth, Hok|exact Hok].
  - (* another shape: the nested promises *)
    destruct (find (fun n => match_spec (f_m0 (getf s n)) (f_m1 (getf s n)) ti ti) (f_nested (getf s f))) as [n|] eqn:Hfind.
    + injection H as Hs H2. subst s'. apply find_some in Hfind. destruct Hfind as [Hn Hmt].
      destruct (ps_nest s P n Hn) as (_ & _ & H3 & cn & H4 & H5).
      rewrite H3 in Hmt. unfold match_spec in Hmt.
      assert (Hm1 : f_m1 (getf s n) = ti) by lia.
      split; [exact P|]. split; [|apply ext_refl].
      rewrite H4 in H2. injection H2 as H2. subst cn. rewrite Hm1 in H5. exact H5.
    + (* a new nested promise n is created and fulfilled *)
      pose proof (ps_f s P) as Hf.
      destruct (nest_state s f ti ti Hf) as (Hcb & _ & Hlen_b & HbN & Hbf & Hbg).
      set (n := length (futs s)) in *. set (sb := nest s f ti ti) in *.
      assert (Hgc : forall i, getc sb i = getc s i) by (intros i; unfold getc; rewrite Hcb; reflexivity).
      assert (HvN : f_val (getf sb n) = None) by (rewrite HbN; reflexivity).
      destruct (fulfil_state sb n s' c HvN ltac:(lia)
                  ltac:(rewrite HbN; cbn; apply P) ltac:(rewrite HbN; cbn; apply P)
                  ltac:(rewrite Hgc; apply P) ltac:(rewrite Hcb; apply P) H)
        as (He & Hg & Hself & Hoth & Hlen).
      rewrite HbN in Hg. cbn [f_src f_dst nested_fut] in Hg. rewrite (ps_src s P) in Hg.
      assert (Hes : ext s s') by (destruct He as [l Hl]; exists l; rewrite Hl, Hcb; reflexivity).
      split; [|split; [exact Hg|exact Hes]].
      apply (PS_update s s' (f_val (getf s f)) (f_nested (getf s f) ++ [n]) P Hes); [lia| | | |].
      * rewrite (Hoth f) by lia. exact Hbf.
      * intros c1 Hc1. pose proof (ps_val s P c1 Hc1) as Hv1. destruct (t =? d); [exact Hv1|]. eapply good_ext; eauto.
      * apply P.
      * intros m Hm'. apply in_app_or in Hm'. destruct Hm' as [Hm'|[<-|[]]].
        -- pose proof (ps_nest s P m Hm') as Hok. destruct Hok as (H1 & H2 & _).
           apply (nested_ok_ext s s' m Hes); [lia| |apply (ps_nest s P m Hm')].
           rewrite (Hoth m) by lia. apply Hbg; assumption.
        -- split; [lia|]. split; [lia|]. rewrite Hself, HbN. cbn. split; [reflexivity|].
           exists c. split; [reflexivity|exact Hg].
Qed.

(* any number of consumers, any input types, any order *)
Fixpoint consume (s : st) (tis : list Z) : st * list (option nat) :=
  match tis with
  | [] => (s, [])
  | ti :: r => let '(s1, c) := get_from_dep E s f ti in
               let '(s2, cs) := consume s1 r in (s2, c :: cs)
  end.

Lemma consumers_all s tis s' cs :
  PS s -> consume s tis = (s', cs) -> Forall (fun c => c <> None) cs ->
  PS s' /\ ext s s' /\
  Forall2 (fun ti oc => exists c, oc = Some c /\ delivered s' c ti) tis cs.
Proof.
  revert s s' cs; induction tis as [|ti r IH]; intros s s' cs P H Hall; cbn in H.
  - injection H as Hs Hc. subst s' cs. split; [exact P|]. split; [apply ext_refl|constructor].
  - destruct (get_from_dep E s f ti) as [s1 oc] eqn:H1. destruct (consume s1 r) as [s2 cs2] eqn:H2. injection H as Hs Hc. subst s' cs.
    apply Forall_cons_iff in Hall. destruct Hall as [Hoc H4]. destruct oc as [c|]; [|congruence].
    destruct (consumer_step s ti s1 c P H1) as [P1 [D1 E1]].
    destruct (IH s1 s2 cs2 P1 H2 H4) as [P2 [E2 F2]].
    split; [exact P2|]. split; [eapply ext_trans; eauto|].
    constructor; [|exact F2]. exists c. split; [reflexivity|].
    unfold delivered in *. destruct ((ti =? 0) || (ti =? t)); [destruct (t =? d); [exact D1|]|]; eapply good_ext; eauto.
Qed.

End Fanout.

(* the promise a producer sets up for its first local successor satisfies the invariant *)
Lemma setup_first_PS E fx s pk sk X rank to :
  (X < length (copies s))%nat -> repo_get s pk = None ->
  let d := cp_dtt (getc s X) in
  let t := if (to =? 0) || (to =? d) then d else to in
  let '(s1, cur) := setup_local E fx s pk sk X rank None to in
  cur = Some (length (futs s)) /\ repo_get s1 pk = Some (length (futs s)) /\
  PS E (length (futs s)) X (length (copies s)) (cp_data (getc s X)) d t s1 /\ evs s1 = evs s.
Proof.
  intros HX Hfree d t. unfold setup_local. fold d.
  replace (keep_cur fx s None _ _) with (@None nat) by (unfold keep_cur; destruct fx; reflexivity).
  unfold create. rewrite Hfree. unfold new_promise. fold d. cbn [fst snd].
  split; [reflexivity|]. split.
  { apply repo_get_set. }
  split; [|reflexivity].
  set (F := if (to =? 0) || (to =? d) then _ else _).
  set (s1 := repo_set (add_fut s F) pk (length (futs s))).
  assert (Hg : getf s1 (length (futs s)) = F) by (unfold getf, s1, repo_set, add_fut; cbn; apply nth_app_new).
  assert (Hc : forall i, getc s1 i = getc s i) by reflexivity.
  assert (Hl : length (futs s1) = S (length (futs s))).
  { unfold s1, repo_set, add_fut. cbn. rewrite app_length. cbn. lia. }
  assert (Hcs : copies s1 = copies s) by reflexivity.
  subst t. destruct ((to =? 0) || (to =? d)) eqn:Hful; subst F;
    (constructor; rewrite ?Hg, ?Hc, ?Hl, ?Hcs; cbn [f_in f_m0 f_m1 f_src f_dst f_cnt f_guard f_val f_nested];
      try reflexivity; try lia; try exact HX; [|intros n []]).
  - intros c Hc'. injection Hc' as <-. rewrite Z.eqb_refl. reflexivity.
  - discriminate.
Qed.

(* a further local successor through an output dependency of the same [type] is handed the same
   promise (in its own repo entry or in the predecessor's), and nothing else changes *)
Lemma setup_next_same E fx s pk sk X rank to g :
  let d := cp_dtt (getc s X) in
  let t := if (to =? 0) || (to =? d) then d else to in
  repo_get s pk = Some g -> f_m0 (getf s g) = t -> f_m1 (getf s g) = t ->
  (t = d -> f_val (getf s g) = Some X) ->
  let '(s1, cur) := setup_local E fx s pk sk X rank (Some g) to in
  cur = Some g /\ copies s1 = copies s /\ futs s1 = futs s /\ evs s1 = evs s /\ err s1 = err s /\
  (repo_get s1 sk = Some g \/ repo s1 = repo (repo_set s pk g)).
Proof.
  intros d t Hpk Hm0 Hm1 Hful. unfold setup_local. fold d.
  assert (Hkeep : keep_cur fx s (Some g) t t = Some g).
  { unfold keep_cur. destruct fx; [|reflexivity]. rewrite Hm0, Hm1, !Z.eqb_refl. reflexivity. }
  subst t. destruct ((to =? 0) || (to =? d)) eqn:Hf.
  - rewrite Hkeep. unfold create. rewrite Hpk. cbn [negb].
    rewrite (Hful eq_refl).
    assert (Hgi : get_internal E s g false = (s, Some X)) by (apply get_internal_done; apply Hful; reflexivity).
    rewrite Hgi. replace (if fx then (s, Some X) else (s, Some X)) with (s, Some X) by (destruct fx; reflexivity).
    rewrite Nat.eqb_refl. repeat split; auto.
  - rewrite Hkeep. unfold create. rewrite Hpk. cbn [negb].
    repeat split; auto. left. apply repo_get_set.
Qed.

(* the copy a consumer must observe according to the documentation, for the producer's copy X (type d,
   data xdata) existing in a state with n0 copies *)
Definition documented (E : env) (s : st) (X n0 : nat) (xdata : tile) (c : nat) (e : option (Z * Z)) : Prop :=
  match e with
  | None => c = X
  | Some (p, u) => (n0 <= c < length (copies s))%nat /\ cp_dtt (getc s c) = u /\
                   cp_data (getc s c) = convert (lay E p 1) (lay E u 1) xdata (e_fresh E)
  end.

Lemma delivered_documented E X n0 xdata d to s c ti :
  let t := if (to =? 0) || (to =? d) then d else to in
  delivered E X n0 xdata d t s c ti -> documented E s X n0 xdata c (expected_local d to ti).
Proof.
  intros t. unfold delivered, expected_local, documented, good. fold t.
  destruct (ti =? 0) eqn:H0; cbn [orb].
  - destruct (t =? d) eqn:Htd; cbn [andb]; rewrite ?Htd; auto.
  - destruct (ti =? t) eqn:Ht.
    + assert (ti = t) by lia. subst ti. destruct (t =? d) eqn:Htd; cbn [andb]; rewrite ?Htd; auto.
    + destruct ((t =? d) && (ti =? d)) eqn:Hb; [lia|auto].
Qed.

Lemma Forall2_impl' {A B} (P Q : A -> B -> Prop) l l' :
  (forall a b, P a b -> Q a b) -> Forall2 P l l' -> Forall2 Q l l'.
Proof. intros H F. induction F; constructor; auto. Qed.

(* ONE producer, any number of local consumers behind one promise: each obtains what is documented;
   every copy that existed before is unchanged *)
Lemma uniform_fanout E fx s pk sk X rank to tis s1 cur s2 cs :
  (X < length (copies s))%nat -> repo_get s pk = None ->
  setup_local E fx s pk sk X rank None to = (s1, cur) ->
  consume E (length (futs s)) s1 tis = (s2, cs) -> Forall (fun c => c <> None) cs ->
  Forall2 (fun ti oc => exists c, oc = Some c /\
             documented E s2 X (length (copies s)) (cp_data (getc s X)) c (expected_local (cp_dtt (getc s X)) to ti)) tis cs
  /\ (forall i, (i < length (copies s))%nat -> getc s2 i = getc s i).
Proof.
  intros HX Hfree Hs1 Hcons Hall.
  pose proof (setup_first_PS E fx s pk sk X rank to HX Hfree) as H. cbv zeta in H. rewrite Hs1 in H.
  destruct H as [_ [_ [P _]]].
  destruct (consumers_all E _ _ _ _ _ _ s1 tis s2 cs P Hcons Hall) as [P2 [He F2]].
  split.
  - eapply Forall2_impl'; [|exact F2]. intros ti oc [c [Hc Hd]]. exists c. split; [exact Hc|].
    apply delivered_documented. exact Hd.
  - intros i Hi. rewrite (ext_getc s1 s2 i He).
    + pose proof (setup_local_ext E fx s pk sk X rank None to) as H1. rewrite Hs1 in H1. cbn [fst] in H1.
      apply ext_getc; auto.
    + pose proof (setup_local_ext E fx s pk sk X rank None to) as H1. rewrite Hs1 in H1. cbn [fst] in H1.
      destruct H1 as [l Hl]. rewrite Hl, app_length. lia.
Qed.
