(* C18 — the two programs on which the faithful model (and the real code, see
   notes/findings/C18-*.md) violates the property as stated, and the summary of a run by which
   Properties_C18 shows it, for the code as it is and for the repaired variant. *)
From PV Require Import Base.Tac DType.DTypeDefs Reshape.ReshapeDefs.
Local Open Scope Z_scope.

Definition leaf : cls := {| c_R := 1; c_mod := false; c_in := InT 0 0 0 0; c_outs := []; c_in2 := None; c_bfirst := false |}.

(* one rank, 3 x 3 tiles of 4-byte elements:
     C0(k): RW A <- descA(k)   -> A C1(k) [type = LOWER_TILE]   -> A C2(k) [type = UPPER_TILE]
     C1(k): READ A <- A C0(k)          C2(k): READ A <- A C0(k)                                   *)
Definition P_stale (fixed : bool) : prog :=
  {| p_nranks := 1; p_mb := 3; p_esz := 4; p_nt := 1; p_owner := [0; 0; 0];
     p_cls := [ {| c_R := 1; c_mod := false; c_in := InD 0 0; c_outs := [OutE 1 2 0; OutE 2 3 0]; c_in2 := None; c_bfirst := false |}; leaf; leaf ];
     p_fixed := fixed |}.

(*   C0(k): RW A <- descA(k)   -> A C1(k) [type = LOWER_TILE]   -> A C2(k) [type = DEFAULT] *)
Definition P_crash (fixed : bool) : prog :=
  {| p_nranks := 1; p_mb := 3; p_esz := 4; p_nt := 1; p_owner := [0; 0; 0];
     p_cls := [ {| c_R := 1; c_mod := false; c_in := InD 0 0; c_outs := [OutE 1 2 0; OutE 2 1 0]; c_in2 := None; c_bfirst := false |}; leaf; leaf ];
     p_fixed := fixed |}.

(* the copy and the content instance (c, k, r) saw at body entry *)
Definition body_of (s : st) (c k r : Z) : option (nat * Z * tile) :=
  match find (fun e => match e with EBody c' k' r' _ _ _ => (c' =? c) && (k' =? k) && (r' =? r) | _ => false end) (evs s) with
  | Some (EBody _ _ _ cp d t) => Some (cp, d, t)
  | _ => None
  end.

(* bytes of layout l on which two tiles differ *)
Definition diff_on (l : list Z) (a b : tile) : list Z := filter (fun o => negb (rd a o =? rd b o)) l.

Definition upper3 := shape_layout 4 3 3.

(* (error code, copy and type seen by C0, C1, C2, bytes of layout l1 on which C1's tile differs from
   C0's, bytes of l2 on which C2's tile differs from C0's) *)
Definition summary (P : prog) (l1 l2 : list Z) :=
  let s := run P in
  match body_of s 0 0 0, body_of s 1 0 0, body_of s 2 0 0 with
  | Some (c0, d0, t0), Some (c1, d1, t1), Some (c2, d2, t2) =>
      (err s, [(c0, d0); (c1, d1); (c2, d2)], diff_on l1 t1 t0, diff_on l2 t2 t0)
  | _, _, _ => (err s, [], [], [])
  end.

Definition lower3 := shape_layout 4 3 2.
