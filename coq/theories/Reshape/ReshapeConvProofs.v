(* C18 — proofs about the conversion itself: pack with the source type, unpack with the
   destination type, for every tile, every pair of layouts; then for the layouts of the
   FULL / LOWER / UPPER / LOWS / UPPS arena datatypes of every tile size (through C19). *)
From PV Require Import Base.Tac DType.DTypeDefs DType.DTypeProofs Reshape.ReshapeDefs.
Local Open Scope Z_scope.

Lemma length_upd_nat t n v : length (upd_nat t n v) = length t.
Proof. revert n; induction t as [|x t IH]; intros [|n]; cbn; auto. Qed.

Lemma length_upd t o v : length (upd t o v) = length t.
Proof. unfold upd. destruct (o <? 0); auto using length_upd_nat. Qed.

Lemma nth_upd_nat_same t n v d : (n < length t)%nat -> nth n (upd_nat t n v) d = v.
Proof. revert n; induction t as [|x t IH]; intros [|n] H; cbn in *; try lia; auto. apply IH; lia. Qed.

Lemma nth_upd_nat_other t n m v d : n <> m -> nth m (upd_nat t n v) d = nth m t d.
Proof. revert n m; induction t as [|x t IH]; intros [|n] [|m] H; cbn; auto; try lia. Qed.

Lemma rd_upd_same t o v : 0 <= o < Z.of_nat (length t) -> rd (upd t o v) o = v.
Proof.
  intros H. unfold rd, upd. destruct (o <? 0) eqn:E; [lia|].
  apply nth_upd_nat_same. lia.
Qed.

Lemma rd_upd_other t o o' v : o <> o' -> rd (upd t o v) o' = rd t o'.
Proof.
  intros H. unfold rd, upd. destruct (o' <? 0) eqn:E'; [reflexivity|].
  destruct (o <? 0) eqn:E; [reflexivity|].
  apply nth_upd_nat_other. lia.
Qed.

Lemma firstn_In' {A} n (l : list A) x : In x (firstn n l) -> In x l.
Proof. revert n; induction l as [|y l IH]; intros [|n] H; cbn in *; auto; try tauto. destruct H; eauto. Qed.

Lemma length_unpack l buf dst : length (unpack l buf dst) = length dst.
Proof.
  revert buf dst; induction l as [|o l IH]; intros [|v buf] dst; cbn; auto.
  rewrite IH. apply length_upd.
Qed.

Lemma length_pack l src : length (pack l src) = length l.
Proof. apply map_length. Qed.

(* bytes outside the part of the destination type that receives data keep their value *)
Lemma unpack_other l buf dst b :
  ~ In b (firstn (length buf) l) -> rd (unpack l buf dst) b = rd dst b.
Proof.
  revert buf dst; induction l as [|o l IH]; intros [|v buf] dst Hn; cbn in *; auto.
  rewrite IH by tauto. apply rd_upd_other. tauto.
Qed.

(* the k-th selected byte of the destination receives the k-th packed byte *)
Lemma unpack_selected l buf dst k :
  NoDup l -> (forall o, In o l -> 0 <= o < Z.of_nat (length dst)) ->
  (k < length l)%nat -> (k < length buf)%nat ->
  rd (unpack l buf dst) (nth k l 0) = nth k buf 0.
Proof.
  revert buf dst k; induction l as [|o l IH]; intros [|v buf] dst k Hnd Hr Hk Hb; cbn in *; try lia.
  inv Hnd. destruct k as [|k].
  - rewrite unpack_other.
    + apply rd_upd_same. apply Hr; auto.
    + intros Hin. apply H1. eapply firstn_In'; eauto.
  - apply IH; auto; try lia.
    intros o' Ho'. rewrite length_upd. apply Hr; auto.
Qed.

Lemma nth_pack l src k : (k < length l)%nat -> nth k (pack l src) 0 = rd src (nth k l 0).
Proof.
  intros H. unfold pack. rewrite (nth_indep _ 0 (rd src 0)) by (rewrite map_length; lia).
  apply map_nth.
Qed.

(* general form: the k-th selected byte of the consumer's copy is the k-th selected byte of
   the producer's copy, for every k both types have *)
Lemma convert_selected ls ld src dst k :
  NoDup ld -> (forall o, In o ld -> 0 <= o < Z.of_nat (length dst)) ->
  (k < length ls)%nat -> (k < length ld)%nat ->
  rd (convert ls ld src dst) (nth k ld 0) = rd src (nth k ls 0).
Proof.
  intros Hnd Hr Hks Hkd. unfold convert.
  rewrite unpack_selected; auto; [|rewrite length_pack; lia].
  apply nth_pack; auto.
Qed.

(* general form: every other byte of the destination tile is unchanged *)
Lemma convert_other ls ld src dst b :
  ~ In b (firstn (length ls) ld) -> rd (convert ls ld src dst) b = rd dst b.
Proof. intros H. unfold convert. apply unpack_other. rewrite length_pack. exact H. Qed.

(* same type on both sides: positions are preserved *)
Lemma convert_same_selected l src dst b :
  NoDup l -> (forall o, In o l -> 0 <= o < Z.of_nat (length dst)) ->
  In b l -> rd (convert l l src dst) b = rd src b.
Proof.
  intros Hnd Hr Hb. destruct (In_nth _ _ 0 Hb) as [k [Hk <-]].
  apply convert_selected; auto.
Qed.

Lemma convert_same_other l src dst b : ~ In b l -> rd (convert l l src dst) b = rd dst b.
Proof. intros H. apply convert_other. rewrite firstn_all. exact H. Qed.

(* what a receiver gets from a sender is the same conversion: unpack of the packed bytes *)
Lemma convert_is_unpack_pack ls ld src dst : convert ls ld src dst = unpack ld (pack ls src) dst.
Proof. reflexivity. Qed.

(* the region of the tile a shape code names, in the vocabulary of C19 *)
Definition shape_uplo (s : Z) : Z :=
  if (s =? 2) || (s =? 4) then PARSEC_MATRIX_LOWER else if (s =? 3) || (s =? 5) then PARSEC_MATRIX_UPPER else PARSEC_MATRIX_FULL.
Definition shape_diag (s : Z) : Z := if (s =? 2) || (s =? 3) then 1 else 0.
Definition in_shape (s i j : Z) : bool := region (shape_uplo s) (shape_diag s) i j.

Lemma shape_layout_spec esz mb s :
  0 < esz -> 1 <= mb -> mb * mb * esz < 2 ^ 31 -> 1 <= s <= 5 ->
  shape_layout esz mb s = elems esz (region_enum (in_shape s) mb mb mb).
Proof.
  intros Hsz Hmb Hov Hs. unfold shape_layout.
  replace ((s <=? 0) || (5 <? s)) with false by lia.
  assert (Hc : s = 1 \/ s = 2 \/ s = 3 \/ s = 4 \/ s = 5) by lia.
  unfold shape_adt, in_shape, shape_uplo, shape_diag.
  destruct Hc as [-> | [-> | [-> | [-> | ->]]]]; cbn [Z.eqb Pos.eqb orb].
  - destruct (adt_spec 0 esz 0 mb mb mb Hsz Hmb Hmb ltac:(lia) Hov Hov ltac:(lia)) as [t [Ht [Hsel _]]].
    rewrite Ht. cbn [fst]. rewrite Hsel. reflexivity.
  - destruct (adt_spec 2 esz 1 mb mb mb Hsz Hmb Hmb ltac:(lia) Hov Hov ltac:(lia)) as [t [Ht [Hsel _]]].
    rewrite Ht. cbn [fst]. rewrite Hsel. reflexivity.
  - destruct (adt_spec 1 esz 1 mb mb mb Hsz Hmb Hmb ltac:(lia) Hov Hov ltac:(lia)) as [t [Ht [Hsel _]]].
    rewrite Ht. cbn [fst]. rewrite Hsel. reflexivity.
  - destruct (adt_spec 2 esz 0 mb mb mb Hsz Hmb Hmb ltac:(lia) Hov Hov ltac:(lia)) as [t [Ht [Hsel _]]].
    rewrite Ht. cbn [fst]. rewrite Hsel. reflexivity.
  - destruct (adt_spec 1 esz 0 mb mb mb Hsz Hmb Hmb ltac:(lia) Hov Hov ltac:(lia)) as [t [Ht [Hsel _]]].
    rewrite Ht. cbn [fst]. rewrite Hsel. reflexivity.
Qed.

Lemma shape_layout_NoDup esz mb s :
  0 < esz -> 1 <= mb -> mb * mb * esz < 2 ^ 31 -> 1 <= s <= 5 -> NoDup (shape_layout esz mb s).
Proof.
  intros. rewrite shape_layout_spec by auto. apply elems_NoDup; auto. apply region_enum_NoDup. lia.
Qed.

(* byte b belongs to the layout iff it is a byte of an element (i, j) of the shape *)
Lemma shape_layout_In esz mb s b :
  0 < esz -> 1 <= mb -> mb * mb * esz < 2 ^ 31 -> 1 <= s <= 5 ->
  (In b (shape_layout esz mb s) <->
   exists i j, 0 <= i < mb /\ 0 <= j < mb /\ in_shape s i j = true /\
               (i + j * mb) * esz <= b < (i + j * mb + 1) * esz).
Proof.
  intros Hsz Hmb Hov Hs. rewrite shape_layout_spec by auto. apply elems_region_In. exact Hsz.
Qed.

Lemma shape_layout_range esz mb s b :
  0 < esz -> 1 <= mb -> mb * mb * esz < 2 ^ 31 -> 1 <= s <= 5 ->
  In b (shape_layout esz mb s) -> 0 <= b < mb * mb * esz.
Proof.
  intros Hsz Hmb Hov Hs Hb. apply shape_layout_In in Hb; auto.
  destruct Hb as [i [j [Hi [Hj [_ Hb]]]]].
  assert (He : 0 <= i + j * mb <= mb * mb - 1) by nia.
  assert (H1 : (i + j * mb + 1) * esz <= mb * mb * esz) by (apply Z.mul_le_mono_nonneg_r; lia).
  assert (H0 : 0 <= (i + j * mb) * esz) by (apply Z.mul_nonneg_nonneg; lia).
  lia.
Qed.

(* [convert_selected] and [convert_other] for the arena datatypes, every tile size, same shape on
   both sides: element (i, j) of the consumer's copy is the producer's element when (i, j) belongs to the shape, and the
   destination tile's own element otherwise (byte by byte, d = byte of the element) *)
Lemma shape_convert_same esz mb s src dst i j d :
  0 < esz -> 1 <= mb -> mb * mb * esz < 2 ^ 31 -> 1 <= s <= 5 ->
  Z.of_nat (length dst) = mb * mb * esz ->
  0 <= i < mb -> 0 <= j < mb -> 0 <= d < esz ->
  let l := shape_layout esz mb s in
  let b := (i + j * mb) * esz + d in
  rd (convert l l src dst) b = if in_shape s i j then rd src b else rd dst b.
Proof.
  intros Hsz Hmb Hov Hs Hlen Hi Hj Hd l b. subst l b.
  destruct (in_shape s i j) eqn:HP.
  - apply convert_same_selected.
    + apply shape_layout_NoDup; auto.
    + intros o Ho. rewrite Hlen. eapply shape_layout_range; eauto.
    + apply shape_layout_In; auto. exists i, j. repeat split; auto; lia.
  - apply convert_same_other. intros Hin. apply shape_layout_In in Hin; auto.
    destruct Hin as [i' [j' [Hi' [Hj' [HP' Hb]]]]].
    assert (i' + j' * mb = i + j * mb) by nia.
    assert (j' = j) by nia. assert (i' = i) by nia. subst. congruence.
Qed.

(* different shapes ("pack t1, unpack t2"): what is not among the first |l1| bytes, in type order, of the
   destination shape keeps the destination tile's value *)
Lemma shape_convert_rest esz mb s1 s2 src dst b :
  let l1 := shape_layout esz mb s1 in
  let l2 := shape_layout esz mb s2 in
  ~ In b (firstn (length l1) l2) -> rd (convert l1 l2 src dst) b = rd dst b.
Proof. intros l1 l2. apply convert_other. Qed.
