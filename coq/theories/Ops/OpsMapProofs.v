(* Ops — map_operator.c: for every number of cores, every ownership predicate and EVERY
   interleaving of the startup function and the task chains, no tile is visited twice, only
   local tiles are visited, and when all agents have finished the visits are exactly the
   local tiles (each once).  Every non-finished agent can take a step and every step
   decreases a measure, so every run can be completed and every complete run is finite. *)
From Coq Require Import List Bool Lia Permutation Arith PeanoNat.
From PV Require Base.ListX.
From PV Require Import Base.Tac Ops.OpsBase Ops.OpsDefs Ops.OpsLib.
Import ListNotations.
Local Open Scope nat_scope.

Definition tile_dec : forall a b : nat * nat, {a = b} + {a <> b}.
Proof. decide equality; apply Nat.eq_dec. Defined.
Definition cnt (x : nat * nat) (l : list (nat * nat)) : nat := count_occ tile_dec l x.
Lemma cnt_app x a b : cnt x (a ++ b) = cnt x a + cnt x b.
Proof. apply count_occ_app. Qed.

Section MapProofs.
  Variables mt nt ncores : nat.
  Variable local : nat -> nat -> bool.
  Notation scan := (scan mt local).
  Notation col_from := (col_from mt local).
  Notation mstep := (mstep mt nt ncores local).
  Notation local_tiles := (local_tiles mt nt local).

  Lemma scan_fuel_some n : forall k m m', scan_fuel local k m n = Some m' ->
    m <= m' < m + k /\ local m' n = true /\
    filter (fun r => local r n) (seq m k) = filter (fun r => local r n) (seq m' (m + k - m')).
  Proof.
    induction k as [|k IH]; intros m m' H; cbn [scan_fuel] in H; [discriminate|].
    destruct (local m n) eqn:E.
    - inv H. repeat split; try lia; auto. replace (m' + S k - m') with (S k) by lia. reflexivity.
    - apply IH in H. destruct H as (H1 & H2 & H3). repeat split; try lia; auto.
      cbn [seq filter]. rewrite E. rewrite H3. f_equal. f_equal. lia.
  Qed.
  Lemma scan_fuel_none n : forall k m, scan_fuel local k m n = None ->
    filter (fun r => local r n) (seq m k) = [].
  Proof.
    induction k as [|k IH]; intros m H; cbn [scan_fuel] in H; [reflexivity|].
    destruct (local m n) eqn:E; [discriminate|]. cbn [seq filter]. rewrite E. auto.
  Qed.
  Lemma scan_some m n m' : scan m n = Some m' ->
    m <= m' < mt /\ local m' n = true /\ col_from m n = col_from m' n.
  Proof.
    unfold OpsDefs.scan. intros H. apply scan_fuel_some in H. destruct H as (H1 & H2 & H3).
    repeat split; try lia; auto. unfold OpsDefs.col_from. rewrite H3. f_equal. f_equal. f_equal. lia.
  Qed.
  Lemma scan_none m n : scan m n = None -> col_from m n = [].
  Proof. unfold OpsDefs.scan, OpsDefs.col_from. intros H. rewrite (scan_fuel_none _ _ _ H). reflexivity. Qed.
  Lemma col_from_cons m n : m < mt -> local m n = true -> col_from m n = (m, n) :: col_from (S m) n.
  Proof.
    intros H1 H2. unfold OpsDefs.col_from. replace (mt - m) with (S (mt - S m)) by lia.
    cbn [seq filter]. rewrite H2. reflexivity.
  Qed.

  Definition rem_agent (a : agent) : list (nat * nat) :=
    match a with
    | SU n _ => if n <? nt then col_from 0 n else []
    | Task m n => col_from m n
    | Claim => []
    | Done => []
    end.
  Definition unclaimed (next : nat) : list (nat * nat) := flat_map (col_from 0) (seq (S next) (nt - S next)).
  Definition pending (s : mstate) : list (nat * nat) := flat_map rem_agent (m_agents s) ++ unclaimed (m_next s).
  Definition total (s : mstate) : list (nat * nat) := m_log s ++ pending s.

  Lemma unclaimed_cons next : S next < nt -> unclaimed next = col_from 0 (S next) ++ unclaimed (S next).
  Proof.
    intros H. unfold unclaimed. replace (nt - S next) with (S (nt - S (S next))) by lia. reflexivity.
  Qed.
  Lemma unclaimed_nil next : nt <= S next -> unclaimed next = [].
  Proof. intros H. unfold unclaimed. replace (nt - S next) with 0 by lia. reflexivity. Qed.

  Lemma rem_scan m n : rem_agent (match scan m n with Some m' => Task m' n | None => Claim end) = col_from m n.
  Proof.
    destruct (scan m n) as [m'|] eqn:E; cbn [rem_agent]; symmetry; [apply (scan_some _ _ _ E)|apply (scan_none _ _ E)].
  Qed.
  (* whoever obtains column S next, the startup function or a chain, takes its tiles out of the unclaimed ones *)
  Lemma unclaimed_su next c : unclaimed next = rem_agent (SU (S next) c) ++ unclaimed (S next).
  Proof.
    cbn [rem_agent]. destruct (S next <? nt) eqn:E.
    - apply Nat.ltb_lt in E. apply unclaimed_cons, E.
    - apply Nat.ltb_ge in E. rewrite !unclaimed_nil by lia. reflexivity.
  Qed.
  Lemma unclaimed_claim next : unclaimed next = rem_agent (after_claim mt nt local (S next)) ++ unclaimed (S next).
  Proof.
    rewrite (unclaimed_su next 0). f_equal. unfold after_claim. cbn [rem_agent].
    destruct (S next <? nt); [symmetry; apply rem_scan|reflexivity].
  Qed.

  (* Decreases at every step ([ef_measure] below): a task visits a pending tile (2 units) and keeps weight 1;
     a claim or the startup function takes a column (2 units) or finishes.  The startup function weighs 4
     while its column is inside the matrix, so that it pays for the task it creates (1) even when the
     column it takes next is past the last one and it drops to 2 (4 > 2 + 1). *)
  Definition weight (a : agent) : nat :=
    match a with SU n _ => if n <? nt then 4 else 2 | Task _ _ => 1 | Claim => 1 | Done => 0 end.
  Definition measure (s : mstate) : nat :=
    2 * length (pending s) + 2 * (nt - Nat.min (m_next s) nt) + list_sum (map weight (m_agents s)).

  Notation upd := (upd_agent).
  Lemma cnt_upd x l i old a : nth_error l i = Some old ->
    cnt x (flat_map rem_agent (upd l i a)) + cnt x (rem_agent old) =
    cnt x (flat_map rem_agent l) + cnt x (rem_agent a).
  Proof.
    intros H. rewrite (ListX.split_nth l i old H) at 2. unfold upd_agent.
    rewrite !flat_map_app. cbn [flat_map]. rewrite !cnt_app. lia.
  Qed.
  Lemma len_upd l i old a : nth_error l i = Some old ->
    length (flat_map rem_agent (upd l i a)) + length (rem_agent old) =
    length (flat_map rem_agent l) + length (rem_agent a).
  Proof.
    intros H. rewrite (ListX.split_nth l i old H) at 2. unfold upd_agent.
    rewrite !flat_map_app. cbn [flat_map]. rewrite !app_length. lia.
  Qed.
  Lemma sum_upd l i old a : nth_error l i = Some old ->
    list_sum (map weight (upd l i a)) + weight old = list_sum (map weight l) + weight a.
  Proof.
    intros H. rewrite (ListX.split_nth l i old H) at 2. unfold upd_agent.
    rewrite !map_app, !list_sum_app. cbn [map list_sum fold_right]. lia.
  Qed.
  Lemma In_upd (x : agent) l i a ex : In x (upd l i a ++ ex) -> In x (a :: ex) \/ In x l.
  Proof.
    unfold upd_agent. rewrite !in_app_iff. cbn [In]. intros [[H|[H|H]]|H]; auto; right.
    - rewrite <- (firstn_skipn i l). apply in_or_app. left; assumption.
    - rewrite <- (firstn_skipn (S i) l). apply in_or_app. right; assumption.
  Qed.
  Lemma length_upd l i old a : nth_error l i = Some old -> length (upd l i a) = length l.
  Proof. apply ListX.len_upd. Qed.

  Definition agent_ok (next : nat) (a : agent) : Prop :=
    match a with
    | Task m n => m < mt /\ n < nt /\ local m n = true
    | SU n _ => n <= next
    | _ => True
    end.
  Lemma agent_ok_mono next next' a : next <= next' -> agent_ok next a -> agent_ok next' a.
  Proof. destruct a; cbn [agent_ok]; auto; lia. Qed.

  Record Inv (s : mstate) : Prop := {
    inv_cnt  : forall x, cnt x (total s) = cnt x local_tiles;
    inv_ok   : forall a, In a (m_agents s) -> agent_ok (m_next s) a;
    inv_live : mfinal s = true -> nt <= S (m_next s)
  }.

  Lemma Inv_init : Inv (minit).
  Proof.
    constructor.
    - intros x. unfold total, pending, minit. cbn [m_log m_agents m_next flat_map rem_agent app].
      rewrite app_nil_r. unfold OpsDefs.local_tiles, unclaimed. destruct nt as [|k] eqn:E.
      + reflexivity.
      + cbn [Nat.ltb Nat.leb seq flat_map]. replace (S k - 1) with k by lia. reflexivity.
    - intros a [<-|[]]. cbn. lia.
    - cbn. discriminate.
  Qed.

  (* What a step of agent i (`old`, not finished) does: the agent becomes `a`, the agents `ex` are created,
     the tiles `lg` are visited, next_n may grow.  What is left to visit is conserved, the new agents
     are as the invariant wants them, and the agent's share of the measure decreases. *)
  Record effect (s : mstate) (i : nat) (old : agent) (s' : mstate) (a : agent) (ex : list agent)
                (lg : list (nat * nat)) : Prop := {
    ef_agents : m_agents s' = upd (m_agents s) i a ++ ex;
    ef_log : m_log s' = lg ++ m_log s;
    ef_left : rem_agent old ++ unclaimed (m_next s) = lg ++ flat_map rem_agent ex ++ rem_agent a ++ unclaimed (m_next s');
    ef_next : m_next s <= m_next s';
    ef_ok : Forall (agent_ok (m_next s')) (a :: ex);
    ef_live : forallb is_done (a :: ex) = true -> nt <= S (m_next s');
    ef_measure : 2 * (nt - Nat.min (m_next s') nt) + weight a + list_sum (map weight ex)
                 < 2 * length lg + 2 * (nt - Nat.min (m_next s) nt) + weight old
  }.

  (* computes the fields of the state after the step and the lists of the agents named *)
  Ltac simpl_effect :=
    cbn [m_next m_agents m_log rem_agent flat_map app weight map list_sum fold_right length forallb is_done andb].

  Lemma mstep_effect s i old : Inv s -> nth_error (m_agents s) i = Some old -> is_done old = false ->
    exists a ex lg, effect s i old (mstep s i) a ex lg.
  Proof.
    intros [_ Hok _] En Hnd. assert (Hold : agent_ok (m_next s) old) by (eapply Hok, nth_error_In, En).
    unfold OpsDefs.mstep. rewrite En. destruct old as [n c|m n| |]; [| | |discriminate]; cbn [agent_ok] in Hold.
    - (* the startup function *)
      destruct (n <? nt) eqn:Elt; [destruct (scan 0 n) as [m|] eqn:Esc; [destruct (S c =? ncores)|]|].
      + destruct (scan_some _ _ _ Esc) as (Hm & Hloc & Hcol). pose proof (proj1 (Nat.ltb_lt _ _) Elt).
        exists Done, [Task m n], []. split; simpl_effect;
          [reflexivity|reflexivity|rewrite Elt, Hcol, app_nil_r; reflexivity|lia
          |repeat constructor; tauto|discriminate|rewrite Elt; lia].
      + destruct (scan_some _ _ _ Esc) as (Hm & Hloc & Hcol). pose proof (proj1 (Nat.ltb_lt _ _) Elt).
        exists (SU (S (m_next s)) (S c)), [Task m n], []. split; simpl_effect;
          [reflexivity|reflexivity| |lia|repeat constructor; tauto|discriminate|rewrite Elt; destruct (S (m_next s) <? nt) eqn:E; lia].
        rewrite Elt, Hcol, app_nil_r, (unclaimed_su (m_next s) (S c)). reflexivity.
      + exists (SU (S (m_next s)) c), [], []. split; simpl_effect;
          [symmetry; apply app_nil_r|reflexivity| |lia|repeat constructor|discriminate|rewrite Elt; destruct (S (m_next s) <? nt) eqn:E; lia].
        rewrite Elt, (scan_none _ _ Esc). apply (unclaimed_su _ c).
      + pose proof (proj1 (Nat.ltb_ge _ _) Elt).
        exists Done, [], []. split; simpl_effect;
          [symmetry; apply app_nil_r|reflexivity|rewrite Elt; reflexivity|lia|repeat constructor|lia|rewrite Elt; lia].
    - (* a task executes, then looks for the next local tile of its column *)
      destruct Hold as (Hm & Hn & Hloc).
      exists (match scan (S m) n with Some m' => Task m' n | None => Claim end), [], [(m, n)]. split; simpl_effect;
        [symmetry; apply app_nil_r|reflexivity| |lia| | |].
      + rewrite rem_scan. rewrite (col_from_cons _ _ Hm Hloc). reflexivity.
      + repeat constructor. destruct (scan (S m) n) as [m'|] eqn:Esc; [|exact I].
        apply scan_some in Esc. cbn [agent_ok]. repeat split; try tauto; lia.
      + destruct (scan (S m) n); discriminate.
      + destruct (scan (S m) n); cbn [weight]; lia.
    - (* a claim *)
      pose proof (unclaimed_claim (m_next s)) as Hleft. unfold after_claim in *.
      destruct (S (m_next s) <? nt) eqn:E2;
        [apply Nat.ltb_lt in E2; destruct (scan 0 (S (m_next s))) as [m|] eqn:Esc|apply Nat.ltb_ge in E2].
      + apply scan_some in Esc.
        exists (Task m (S (m_next s))), [], []. split; simpl_effect;
          [symmetry; apply app_nil_r|reflexivity|exact Hleft|lia|repeat constructor; tauto|discriminate|lia].
      + exists Claim, [], []. split; simpl_effect;
          [symmetry; apply app_nil_r|reflexivity|exact Hleft|lia|repeat constructor|discriminate|lia].
      + exists Done, [], []. split; simpl_effect;
          [symmetry; apply app_nil_r|reflexivity|exact Hleft|lia|repeat constructor|lia|lia].
  Qed.

  Lemma Inv_step s i : Inv s -> Inv (mstep s i).
  Proof.
    intros I. destruct (nth_error (m_agents s) i) as [old|] eqn:En; [|unfold OpsDefs.mstep; rewrite En; assumption].
    destruct (is_done old) eqn:Ed; [unfold OpsDefs.mstep; rewrite En; destruct old; try discriminate; assumption|].
    destruct (mstep_effect s i old I En Ed) as (a & ex & lg & [Ea Elog Eleft Enext Eok Elive _]).
    destruct I as [Hc Hok Hl]. constructor.
    - intros x. rewrite <- (Hc x). unfold total, pending. rewrite Ea, Elog, flat_map_app.
      pose proof (cnt_upd x _ _ _ a En) as Hu. apply (f_equal (cnt x)) in Eleft. rewrite !cnt_app in *. lia.
    - intros b Hb. rewrite Ea in Hb. apply In_upd in Hb. destruct Hb as [Hb|Hb].
      + exact (proj1 (Forall_forall _ _) Eok b Hb).
      + apply (agent_ok_mono (m_next s)); [exact Enext|apply Hok, Hb].
    - unfold mfinal. rewrite Ea. intros Hf. apply Elive.
      unfold upd_agent in Hf. rewrite !forallb_app in Hf. cbn [forallb] in *. rewrite !andb_true_iff in *. tauto.
  Qed.

  Theorem Inv_run sched : Inv (mrun mt nt ncores local sched).
  Proof. unfold mrun. apply fold_left_inv; [intros; apply Inv_step; assumption|apply Inv_init]. Qed.

  Lemma NoDup_col m n : NoDup (col_from m n).
  Proof.
    unfold OpsDefs.col_from. apply FinFun.Injective_map_NoDup.
    - intros a b E. inv E. reflexivity.
    - apply NoDup_filter, seq_NoDup.
  Qed.
  Lemma NoDup_local_tiles : NoDup local_tiles.
  Proof.
    unfold OpsDefs.local_tiles. apply ListX.NoDup_flat_map.
    - apply seq_NoDup.
    - intros c _. apply NoDup_col.
    - intros c c' [r q] _ _ Hne H1 H2. unfold OpsDefs.col_from in H1, H2.
      apply in_map_iff in H1, H2. destruct H1 as (r1 & E1 & _). destruct H2 as (r2 & E2 & _).
      inv E1. inv E2. contradiction.
  Qed.
  Lemma In_local_tiles m n : In (m, n) local_tiles <-> m < mt /\ n < nt /\ local m n = true.
  Proof.
    unfold OpsDefs.local_tiles. rewrite in_flat_map. split.
    - intros (c & Hc & H). unfold OpsDefs.col_from in H. apply in_map_iff in H. destruct H as (r & E & Hr). inv E.
      apply filter_In in Hr. destruct Hr as [Hr Hl]. apply in_seq in Hr, Hc. repeat split; auto; lia.
    - intros (H1 & H2 & H3). exists n. split; [apply in_seq; lia|]. unfold OpsDefs.col_from. apply in_map_iff.
      exists m. split; [reflexivity|]. apply filter_In. split; [apply in_seq; lia|assumption].
  Qed.

  (* at every moment of every interleaving ([Inv_run]): no tile twice, only local tiles of the matrix *)
  Theorem map_never_twice s : Inv s ->
    NoDup (m_log s) /\ forall m n, In (m, n) (m_log s) -> m < mt /\ n < nt /\ local m n = true.
  Proof.
    intros [Hc _ _].
    assert (Hle : forall x, cnt x (m_log s) <= cnt x local_tiles).
    { intros x. rewrite <- Hc. unfold total. rewrite cnt_app. lia. }
    split.
    - apply (NoDup_count_occ tile_dec). intros x. specialize (Hle x).
      pose proof (proj1 (NoDup_count_occ tile_dec local_tiles) NoDup_local_tiles x). unfold cnt in *. lia.
    - intros m n H. apply In_local_tiles. apply (count_occ_In tile_dec) in H. specialize (Hle (m, n)).
      apply (count_occ_In tile_dec). unfold cnt in *. lia.
  Qed.

  (* a complete run visits exactly the local tiles, each once *)
  Theorem map_exactly_once s : Inv s -> mfinal s = true -> Permutation (m_log s) local_tiles.
  Proof.
    intros [Hc _ Hl] Hf.
    apply (Permutation_count_occ tile_dec). intros x. specialize (Hc x). unfold cnt, total, pending in Hc.
    rewrite !count_occ_app in Hc. rewrite (unclaimed_nil _ (Hl Hf)) in Hc.
    assert (Hz : flat_map rem_agent (m_agents s) = []).
    { unfold mfinal in Hf. induction (m_agents s) as [|a l IH]; [reflexivity|]. cbn [forallb] in Hf.
      apply andb_true_iff in Hf. destruct Hf as [Ha Hf]. destruct a; try discriminate. cbn [flat_map rem_agent app]. auto. }
    rewrite Hz in Hc. cbn [count_occ] in Hc. lia.
  Qed.

  Theorem map_progress s i a : Inv s -> nth_error (m_agents s) i = Some a -> is_done a = false ->
    measure (mstep s i) < measure s.
  Proof.
    intros I En Hnd. destruct (mstep_effect s i a I En Hnd) as (a' & ex & lg & [Ea _ Eleft _ _ _ Emeasure]).
    unfold measure, pending. rewrite Ea, flat_map_app, map_app, list_sum_app, !app_length.
    pose proof (len_upd _ _ _ a' En) as Hu. pose proof (sum_upd _ _ _ a' En) as Hw.
    apply (f_equal (@length _)) in Eleft. rewrite !app_length in Eleft. lia.
  Qed.

  Theorem map_progress_run sched i a :
    nth_error (m_agents (mrun mt nt ncores local sched)) i = Some a -> is_done a = false ->
    measure (mrun mt nt ncores local (sched ++ [i])) < measure (mrun mt nt ncores local sched).
  Proof.
    intros H1 H2. unfold mrun. rewrite fold_left_app. cbn [fold_left].
    eapply map_progress; eauto. apply Inv_run.
  Qed.
End MapProofs.
