(* Ops — apply.jdf: the operator is called exactly once on every tile of the requested
   region, for every uplo, mt, nt; proofs over the GENERATED definitions of Gen_ops.v. *)
From Coq Require Import ZArith List Bool Lia Permutation String.
From PV Require Import Base.Tac Base.ListX Ops.OpsBase Gen.Gen_ops Ops.OpsDefs Ops.OpsLib.
Import ListNotations.
Local Open Scope Z_scope.

(* a class whose execution space is a nest of two loops, resp. one loop: its calls in the order of the space.
   The generated definitions have these shapes by computation: both hypotheses are met by eq_refl, whatever
   bounds the generated text gives the loops. *)
Lemma calls_nest2 c (R1 : list Z) (sp2 : Z -> list Z) (f : Z -> Z -> list Z) :
  g_space c = flat_map (fun m => flat_map (fun n => [[m; n]]) (sp2 m)) R1 ->
  (forall m n, g_opcall c [m; n] = Some (f m n)) ->
  calls_of c = flat_map (fun m => map (f m) (sp2 m)) R1.
Proof.
  intros Hs Hc. unfold calls_of. rewrite Hs, flat_map_flat_map. apply flat_map_ext. intros m.
  rewrite flat_map_flat_map, <- flat_map_single. apply flat_map_ext. intros n.
  cbn [flat_map]. rewrite Hc. reflexivity.
Qed.
Lemma calls_nest1 c (R : list Z) (f : Z -> list Z) :
  g_space c = flat_map (fun k => [[k]]) R -> (forall k, g_opcall c [k] = Some (f k)) -> calls_of c = map f R.
Proof.
  intros Hs Hc. unfold calls_of. rewrite Hs, flat_map_flat_map, <- flat_map_single. apply flat_map_ext. intros k.
  cbn [flat_map]. rewrite Hc. reflexivity.
Qed.

Lemma tiles_nest2 c R1 sp2 (u : Z -> Z -> Z) :
  g_space c = flat_map (fun m => flat_map (fun n => [[m; n]]) (sp2 m)) R1 ->
  (forall m n, g_opcall c [m; n] = Some [u m n; m; n]) ->
  map call_tile (calls_of c) = flat_map (fun m => map (fun n => (m, n)) (sp2 m)) R1.
Proof.
  intros Hs Hc. rewrite (calls_nest2 c R1 sp2 _ Hs Hc), map_flat_map. apply flat_map_ext. intros m. apply map_map.
Qed.
Lemma forallb_nest2 (P : list Z -> bool) (R1 : list Z) (sp2 : Z -> list Z) :
  (forall m n, P [m; n] = true) -> forallb P (flat_map (fun m => flat_map (fun n => [[m; n]]) (sp2 m)) R1) = true.
Proof.
  intros H. apply forallb_forall. intros ps Hps. apply in_flat_map in Hps. destruct Hps as (m & _ & Hps).
  apply in_flat_map in Hps. destruct Hps as (n & _ & [<-|[]]). apply H.
Qed.
Lemma forallb_nest1 (P : list Z -> bool) (R : list Z) :
  (forall k, P [k] = true) -> forallb P (flat_map (fun k => [[k]]) R) = true.
Proof.
  intros H. apply forallb_forall. intros ps Hps. apply in_flat_map in Hps. destruct Hps as (k & _ & [<-|[]]). apply H.
Qed.

Ltac cops := unfold c_tern, c_lt, c_eq, c_le, c_gt, c_ge, c_ne, c_not, c_land, c_lor in *; rewrite ?cb_0 in *.
(* one case split per comparison, whatever comparisons the generated text uses *)
Ltac ctests := repeat match goal with
  | |- context[Z.ltb ?a ?b] => destruct (Z.ltb a b) eqn:?
  | |- context[Z.leb ?a ?b] => destruct (Z.leb a b) eqn:?
  | |- context[Z.eqb ?a ?b] => destruct (Z.eqb a b) eqn:?
  end.

Section Apply.
  Variables uplo mt nt : Z.
  Let G := apply_New_G uplo (md_of mt nt).

  Lemma In_L m n : In (m, n) (map call_tile (calls_of (apply_APPLY_L_class G))) <->
    (uplo <> matrix_upper_v /\ 0 <= m <= mt - 1 /\ 0 <= n <= nt - 1 /\ n < m).
  Proof.
    rewrite (tiles_nest2 (apply_APPLY_L_class G) _ _ _ eq_refl (fun m n => eq_refl)), In_pairs, !In_zrange. subst G. cbn [apply_New_G md_of apply_uplo apply_descA_mt apply_descA_nt md_mt md_nt].
    unfold apply_matrix_upper, matrix_upper_v. cops.
    (* the generated bounds: m = 1 .. (UPPER ? 0 : mt - 1), empty for UPPER; n = 0 .. min(m, nt) - 1, the
       minimum written as a C conditional *)
    ctests; cbn [negb andb orb]; lia.
  Qed.

  Lemma In_U m n : In (m, n) (map call_tile (calls_of (apply_APPLY_U_class G))) <->
    (uplo <> matrix_lower_v /\ 0 <= m <= mt - 1 /\ 0 <= n <= nt - 1 /\ m < n).
  Proof.
    rewrite (tiles_nest2 (apply_APPLY_U_class G) _ _ _ eq_refl (fun m n => eq_refl)), In_pairs, !In_zrange. subst G. cbn [apply_New_G md_of apply_uplo apply_descA_mt apply_descA_nt md_mt md_nt].
    unfold apply_matrix_lower, matrix_lower_v. cops.
    (* the generated bounds: m = 0 .. mt - 1; n = m + 1 .. (LOWER ? 0 : nt - 1), empty for LOWER *)
    ctests; cbn [negb andb orb]; lia.
  Qed.

  Lemma In_D m n : In (m, n) (map call_tile (calls_of (apply_APPLY_DIAG_class G))) <->
    (0 <= m <= mt - 1 /\ 0 <= n <= nt - 1 /\ m = n).
  Proof.
    rewrite (calls_nest1 (apply_APPLY_DIAG_class G) _ _ eq_refl (fun k => eq_refl)), map_map, in_map_iff. subst G. cbn [apply_New_G md_of apply_uplo apply_descA_mt apply_descA_nt md_mt md_nt].
    cops. split. (* the generated bound: k = 0 .. min(mt, nt) - 1, the minimum written as a C conditional *)
    - intros (k & E & Hk). inv E. apply In_zrange in Hk. revert Hk. ctests; cbn [negb andb orb]; lia.
    - intros (H1 & H2 & ->). exists n. split; [reflexivity|]. apply In_zrange. ctests; cbn [negb andb orb]; lia.
  Qed.

  Lemma In_region m n : In (m, n) (region uplo mt nt) <->
    (0 <= m <= mt - 1 /\ 0 <= n <= nt - 1 /\ in_region uplo m n = true).
  Proof.
    unfold region. rewrite filter_In. unfold tiles. rewrite In_pairs, !In_zrange. cbn [fst snd]. tauto.
  Qed.

  Lemma NoDup_region : NoDup (region uplo mt nt).
  Proof.
    unfold region. apply NoDup_filter. unfold tiles. apply NoDup_pairs.
    - apply NoDup_zrange.
    - intros; apply NoDup_zrange.
  Qed.

  Lemma apply_tiles_unfold :
    map call_tile (apply_calls uplo mt nt) =
    map call_tile (calls_of (apply_APPLY_L_class G)) ++
    map call_tile (calls_of (apply_APPLY_U_class G)) ++
    map call_tile (calls_of (apply_APPLY_DIAG_class G)).
  Proof.
    unfold apply_calls, all_calls, apply_classes. cbn [flat_map]. rewrite app_nil_r, !map_app. reflexivity.
  Qed.

  Lemma NoDup_apply_tiles : NoDup (map call_tile (apply_calls uplo mt nt)).
  Proof.
    rewrite apply_tiles_unfold. apply NoDup_app_intro; [|apply NoDup_app_intro|].
    - rewrite (tiles_nest2 (apply_APPLY_L_class G) _ _ _ eq_refl (fun m n => eq_refl)). apply NoDup_pairs; [apply NoDup_zrange|intros; apply NoDup_zrange].
    - rewrite (tiles_nest2 (apply_APPLY_U_class G) _ _ _ eq_refl (fun m n => eq_refl)). apply NoDup_pairs; [apply NoDup_zrange|intros; apply NoDup_zrange].
    - rewrite (calls_nest1 (apply_APPLY_DIAG_class G) _ _ eq_refl (fun k => eq_refl)), map_map. apply FinFun.Injective_map_NoDup; [|apply NoDup_zrange]. intros a b E. inv E. reflexivity.
    - intros [m n] H1 H2. apply In_U in H1. apply In_D in H2. lia.
    - intros [m n] H1 H2. apply In_L in H1. apply in_app_iff in H2. destruct H2 as [H2|H2].
      + apply In_U in H2. lia.
      + apply In_D in H2. lia.
  Qed.

  (* the region, tile by tile: below the diagonal unless UPPER is asked for, above it unless LOWER, on it always *)
  Lemma in_region_cases m n : valid_uplo uplo = true ->
    in_region uplo m n = true <->
    (uplo <> matrix_upper_v /\ n < m) \/ (uplo <> matrix_lower_v /\ m < n) \/ m = n.
  Proof.
    unfold in_region, valid_uplo, matrix_upper_v, matrix_lower_v, matrix_full_v. intros Hv.
    destruct (uplo =? 121) eqn:E1; [|destruct (uplo =? 122) eqn:E2]; rewrite ?Z.leb_le; lia.
  Qed.

  (* every tile of the region, each exactly once *)
  Theorem apply_exactly_once : valid_uplo uplo = true ->
    Permutation (map call_tile (apply_calls uplo mt nt)) (region uplo mt nt).
  Proof.
    intros Hv. apply NoDup_Permutation; [apply NoDup_apply_tiles|apply NoDup_region|].
    intros [m n]. rewrite apply_tiles_unfold, !in_app_iff, In_L, In_U, In_D, In_region, (in_region_cases m n Hv).
    tauto.
  Qed.

  (* the uplo argument: the diagonal tiles get the caller's uplo, the others FULL *)
  Theorem apply_uplo_argument : forall a, In a (apply_calls uplo mt nt) ->
    call_uplo a = if fst (call_tile a) =? snd (call_tile a) then uplo else matrix_full_v.
  Proof.
    intros a Ha. change (In a (all_calls (apply_classes G))) in Ha. unfold all_calls, apply_classes in Ha. cbn [flat_map] in Ha.
    rewrite app_nil_r, !in_app_iff in Ha. destruct Ha as [Ha|[Ha|Ha]].
    - pose proof (in_map call_tile _ _ Ha) as Hc.
      rewrite (calls_nest2 (apply_APPLY_L_class G) _ _ _ eq_refl (fun m n => eq_refl)) in Ha.
      apply in_flat_map in Ha. destruct Ha as (m & _ & Ha). apply in_map_iff in Ha. destruct Ha as (n & <- & _).
      apply In_L in Hc. cbn [call_tile call_uplo fst snd]. destruct (m =? n) eqn:E; [lia|reflexivity].
    - pose proof (in_map call_tile _ _ Ha) as Hc.
      rewrite (calls_nest2 (apply_APPLY_U_class G) _ _ _ eq_refl (fun m n => eq_refl)) in Ha.
      apply in_flat_map in Ha. destruct Ha as (m & _ & Ha). apply in_map_iff in Ha. destruct Ha as (n & <- & _).
      apply In_U in Hc. cbn [call_tile call_uplo fst snd]. destruct (m =? n) eqn:E; [lia|reflexivity].
    - rewrite (calls_nest1 (apply_APPLY_DIAG_class G) _ _ eq_refl (fun k => eq_refl)) in Ha.
      apply in_map_iff in Ha. destruct Ha as (k & <- & _). cbn [call_tile call_uplo fst snd].
      rewrite Z.eqb_refl. reflexivity.
  Qed.

  (* every instance is placed on the tile it passes to the operator, reads it and writes it back *)
  Theorem apply_on_tile : apply_insts_on_tile uplo mt nt = true.
  Proof.
    unfold apply_insts_on_tile, apply_classes. cbn [forallb]. rewrite !andb_true_iff. repeat split.
    - apply (forallb_nest2 (inst_on_tile (apply_APPLY_L_class _))). intros m n.
      unfold inst_on_tile. cbn -[zlist_eqb]. rewrite !zlist_eqb_refl. reflexivity.
    - apply (forallb_nest2 (inst_on_tile (apply_APPLY_U_class _))). intros m n.
      unfold inst_on_tile. cbn -[zlist_eqb]. rewrite !zlist_eqb_refl. reflexivity.
    - apply (forallb_nest1 (inst_on_tile (apply_APPLY_DIAG_class _))). intros k.
      unfold inst_on_tile. cbn -[zlist_eqb]. rewrite !zlist_eqb_refl. reflexivity.
  Qed.
End Apply.
