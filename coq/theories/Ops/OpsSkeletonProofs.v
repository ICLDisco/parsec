(* Ops — reduce_col.jdf / reduce_row.jdf as instantiated by parsec_reduce_col_New /
   parsec_reduce_row_New (reduce_wrapper.c): what the faithful model shows.
   * the bodies never call the user operator (no shape, no instance);
   * parsec_reduce_col_New binds M = src->lnt, N = src->lmt as INCLUSIVE upper bounds of
     row and col: for every matrix shape the instance reduce_in_col(lnt, lmt) is placed on
     the tile src(lnt, lmt), which is outside the lmt x lnt tile grid;
   * for some shapes a task waits for a predecessor that is not in the execution space. *)
From Coq Require Import ZArith List Bool Lia String.
From PV Require Import Base.Tac Base.ListX Ops.OpsBase Gen.Gen_ops Ops.OpsDefs Ops.OpsLib.
Import ListNotations.
Local Open Scope Z_scope.

Lemma calls_none c : (forall ps, g_opcall c ps = None) -> calls_of c = [].
Proof. intros H. unfold calls_of. apply flat_map_nil. intros ps _. rewrite H. reflexivity. Qed.

Theorem rcol_no_operator G : all_calls (rcol_classes G) = [].
Proof.
  unfold all_calls, rcol_classes. cbn [flat_map]. rewrite !calls_none; [reflexivity| |].
  - intros ps. cbn [g_opcall rcol_reduce_col_class]. destruct ps as [|a [|b [|c [|e r]]]]; reflexivity.
  - intros ps. cbn [g_opcall rcol_reduce_in_col_class]. destruct ps as [|a [|b [|e r]]]; reflexivity.
Qed.

Theorem rrow_no_operator G : all_calls (rrow_classes G) = [].
Proof.
  unfold all_calls, rrow_classes. cbn [flat_map]. rewrite !calls_none; [reflexivity| |].
  - intros ps. cbn [g_opcall rrow_reduce_row_class]. destruct ps as [|a [|b [|c [|e r]]]]; reflexivity.
  - intros ps. cbn [g_opcall rrow_reduce_in_row_class]. destruct ps as [|a [|b [|e r]]]; reflexivity.
Qed.

(* the same for reduce.jdf, whose body is a printf *)
Theorem reduce_no_operator G : all_calls (reduce_classes G) = [].
Proof.
  unfold all_calls, reduce_classes. cbn [flat_map]. rewrite !calls_none; [reflexivity|].
  intros ps. cbn [g_opcall reduce_reduce_class]. destruct ps as [|a [|b [|e r]]]; reflexivity.
Qed.

(* every shape: an instance placed outside the matrix *)
Theorem rcol_out_of_matrix src dest : 0 <= md_lmt src -> 0 <= md_lnt src ->
  let G := rcol_New_G src dest in
  In [md_lnt src; md_lmt src] (rcol_reduce_in_col_space G) /\
  rcol_reduce_in_col_place G (md_lnt src) (md_lmt src) = RData "src" [md_lnt src; md_lmt src] /\
  tile_in_matrix src (RData "src" [md_lnt src; md_lmt src]) = false.
Proof.
  intros H1 H2 G. split; [|split].
  - unfold rcol_reduce_in_col_space. apply in_flat_map. exists (md_lnt src). split.
    + apply In_zrange. subst G. cbn. lia.
    + apply in_flat_map. exists (md_lmt src). split; [|left; reflexivity]. apply In_zrange. subst G. cbn. lia.
  - reflexivity.
  - cbn [tile_in_matrix]. destruct (md_lnt src <? md_lmt src) eqn:E1; destruct (md_lmt src <? md_lnt src) eqn:E2;
      rewrite ?andb_false_r, ?andb_false_l; try reflexivity. lia.
Qed.

(* witnesses (computed): tasks that wait for an instance outside the execution space *)
Theorem rcol_dangling_witness : dangling_inputs (rcol_classes (rcol_New_G (md_of 5 5) (md_of 1 5))) <> [].
Proof. vm_compute. discriminate. Qed.
Theorem rrow_out_of_matrix_witness :
  out_of_matrix (md_of 3 3) (rrow_reduce_in_row_class (rrow_New_G (md_of 3 3) (md_of 3 1))) <> [].
Proof. vm_compute. discriminate. Qed.
