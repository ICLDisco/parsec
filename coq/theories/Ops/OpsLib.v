(* Ops — list lemmas used by the proofs of C22 (ranges, flat_map, NoDup, Permutation). *)
From Coq Require Import ZArith List Bool Lia Permutation Arith.
From PV Require Import Base.Tac Base.ListX Ops.OpsBase Ops.OpsDefs.
Import ListNotations.
Local Open Scope Z_scope.

Lemma In_zrange x lo hi : In x (zrange lo hi) <-> lo <= x <= hi.
Proof.
  unfold zrange. rewrite in_map_iff. split.
  - intros (i & <- & Hi). apply in_seq in Hi. lia.
  - intros H. exists (Z.to_nat (x - lo)). split; [lia|]. apply in_seq. lia.
Qed.

Lemma NoDup_zrange lo hi : NoDup (zrange lo hi).
Proof.
  unfold zrange. apply FinFun.Injective_map_NoDup; [|apply seq_NoDup].
  intros a b H. lia.
Qed.

Lemma zrange_empty lo hi : hi < lo -> zrange lo hi = [].
Proof. intros H. unfold zrange. replace (Z.to_nat (hi - lo + 1)) with O by lia. reflexivity. Qed.

Lemma zrange_cons lo hi : lo <= hi -> zrange lo hi = lo :: zrange (lo + 1) hi.
Proof.
  intros H. unfold zrange.
  replace (Z.to_nat (hi - lo + 1)) with (S (Z.to_nat (hi - (lo + 1) + 1))) by lia.
  cbn [seq map]. f_equal; [lia|]. rewrite <- seq_shift, map_map. apply map_ext. intros a. lia.
Qed.

Lemma zrange_single a : zrange a a = [a].
Proof. rewrite zrange_cons by lia. rewrite zrange_empty by lia. reflexivity. Qed.

Lemma seq_shift_by k : forall len s, seq (s + k) len = map (fun i => (i + k)%nat) (seq s len).
Proof. induction len as [|len IH]; intros s; cbn [seq map]; [reflexivity|]. f_equal. apply (IH (S s)). Qed.

Lemma zrange_app lo mid hi : lo <= mid + 1 -> mid <= hi -> zrange lo mid ++ zrange (mid + 1) hi = zrange lo hi.
Proof.
  intros H1 H2. unfold zrange.
  replace (Z.to_nat (hi - lo + 1)) with (Z.to_nat (mid - lo + 1) + Z.to_nat (hi - (mid + 1) + 1))%nat by lia.
  rewrite seq_app, map_app. f_equal.
  rewrite seq_shift_by, map_map. apply map_ext. intros a. lia.
Qed.

Lemma NoDup_pairs {A B} (R1 : list A) (sp2 : A -> list B) :
  NoDup R1 -> (forall m, In m R1 -> NoDup (sp2 m)) ->
  NoDup (flat_map (fun m => map (fun n => (m, n)) (sp2 m)) R1).
Proof.
  intros H1 H2. apply NoDup_flat_map; auto.
  - intros m Hm. apply FinFun.Injective_map_NoDup; [|auto]. intros a b E. inv E. reflexivity.
  - intros x y z _ _ Hxy Hz Hz'. apply in_map_iff in Hz, Hz'.
    destruct Hz as (n & <- & _). destruct Hz' as (n' & E & _). inv E. contradiction.
Qed.

Lemma In_pairs {A B} (R1 : list A) (sp2 : A -> list B) m n :
  In (m, n) (flat_map (fun m => map (fun n => (m, n)) (sp2 m)) R1) <-> In m R1 /\ In n (sp2 m).
Proof.
  rewrite in_flat_map. split.
  - intros (x & Hx & H). apply in_map_iff in H. destruct H as (y & E & Hy). inv E. auto.
  - intros [H1 H2]. exists m. split; auto. apply in_map_iff. exists n. auto.
Qed.

Lemma flat_map_single {A B} (f : A -> B) l : flat_map (fun x => [f x]) l = map f l.
Proof. induction l as [|a l IH]; cbn [flat_map map app]; [reflexivity|]. rewrite IH. reflexivity. Qed.

Lemma cb_0 b : (cb b =? 0) = negb b. Proof. destruct b; reflexivity. Qed.
Lemma c_band_cb a b : c_band (cb a) (cb b) = cb (a && b).
Proof. destruct a, b; reflexivity. Qed.
Lemma c_shl_1 l : 0 <= l -> c_shl 1 l = 2 ^ l.
Proof. intros H. unfold c_shl. rewrite Z.shiftl_1_l. reflexivity. Qed.

Lemma zlist_eqb_refl l : zlist_eqb l l = true.
Proof.
  unfold zlist_eqb. rewrite Nat.eqb_refl. cbn [andb]. induction l as [|x l IH]; cbn; [reflexivity|].
  rewrite Z.eqb_refl. exact IH.
Qed.
