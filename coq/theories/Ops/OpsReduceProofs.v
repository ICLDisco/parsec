(* Ops — reduce.jdf: the tree of partial reductions named by the input dependencies of the
   generated definitions; every source tile is a leaf exactly once (in order), and for an
   associative operator the root carries the sequential fold.  Also: the instance that
   reads a tile outside the matrix when MT is even. *)
From Coq Require Import ZArith List Bool Lia Permutation String.
From PV Require Import Base.Tac Ops.OpsBase Gen.Gen_ops Ops.OpsDefs Ops.OpsLib.
Import ListNotations.
Local Open Scope Z_scope.

Lemma mem_space_In ps sp : In ps sp -> mem_space ps sp = true.
Proof. intros H. unfold mem_space. apply existsb_exists. exists ps. split; [assumption|apply zlist_eqb_refl]. Qed.

(* sequential fold of the tiles lo..hi *)
Section Seg.
  Context {V : Type}.
  Variable op : V -> V -> V.
  Variable tl : Z -> V.
  Hypothesis op_assoc : forall a b c, op a (op b c) = op (op a b) c.

  Definition seg (lo hi : Z) : V := fold_left op (map tl (zrange (lo + 1) hi)) (tl lo).

  Lemma fold_assoc : forall l a x, op a (fold_left op l x) = fold_left op l (op a x).
  Proof.
    induction l as [|y l IH]; intros a x; cbn [fold_left]; [reflexivity|].
    rewrite IH, op_assoc. reflexivity.
  Qed.

  Lemma seg_single a : seg a a = tl a.
  Proof. unfold seg. rewrite zrange_empty by lia. reflexivity. Qed.

  Lemma seg_app lo mid hi : lo <= mid -> mid < hi -> op (seg lo mid) (seg (mid + 1) hi) = seg lo hi.
  Proof.
    intros H1 H2. unfold seg.
    rewrite <- (zrange_app (lo + 1) mid hi) by lia.
    rewrite map_app, fold_left_app.
    rewrite (zrange_cons (mid + 1) hi) by lia. cbn [map fold_left].
    rewrite fold_assoc. reflexivity.
  Qed.

  Lemma fold1_seg lo hi : lo <= hi -> fold1 op (map tl (zrange lo hi)) = Some (seg lo hi).
  Proof. intros H. rewrite zrange_cons by lia. reflexivity. Qed.
End Seg.

Lemma fold_app_single : forall (l acc : list Z), fold_left (@app Z) (map (fun i => [i]) l) acc = acc ++ l.
Proof.
  induction l as [|x l IH]; intros acc; cbn [map fold_left]; [rewrite app_nil_r; reflexivity|].
  rewrite IH, <- app_assoc. reflexivity.
Qed.
Lemma seg_app_list lo hi : lo <= hi -> seg (@app Z) (fun i => [i]) lo hi = zrange lo hi.
Proof.
  intros H. unfold seg. rewrite fold_app_single. rewrite (zrange_cons lo hi) by lia. reflexivity.
Qed.

Section Reduce.
  Variable MT : Z.
  Hypothesis HMT : 1 <= MT.
  Let G := reduce_G_of MT.
  Let d := Z.log2_up MT.

  Lemma pow_d : MT <= 2 ^ d.
  Proof. subst d. destruct (Z.eq_dec MT 1) as [->|]; [cbn; lia|]. apply Z.log2_up_spec. lia. Qed.
  Lemma d_nonneg : 0 <= d. Proof. apply Z.log2_up_nonneg. Qed.

  Lemma In_space l p : 1 <= l <= d + 1 -> 0 <= p -> p * 2 ^ l <= MT -> In [l; p] (reduce_reduce_space G).
  Proof.
    intros Hl Hp Hlt. unfold reduce_reduce_space. apply in_flat_map. exists l. split.
    - apply In_zrange. subst G. unfold reduce_depth, reduce_G_of, c_clog2. cbn [reduce_descA_mt]. fold d. lia.
    - apply in_flat_map. exists p. split; [|left; reflexivity]. apply In_zrange. split; [lia|].
      unfold reduce_MT. subst G. cbn [reduce_G_of reduce_descA_mt]. rewrite c_shl_1 by lia.
      unfold c_div. rewrite Z.quot_div_nonneg by lia. apply Z.div_le_lower_bound; lia.
  Qed.

  Lemma space_inv l p : In [l; p] (reduce_reduce_space G) -> 1 <= l <= d + 1 /\ 0 <= p /\ p * 2 ^ l <= MT.
  Proof.
    unfold reduce_reduce_space. intros H. apply in_flat_map in H. destruct H as (l' & Hl & H).
    apply in_flat_map in H. destruct H as (p' & Hp & H). destruct H as [E|[]]. inv E.
    apply In_zrange in Hl, Hp. subst G. unfold reduce_depth, reduce_MT, reduce_G_of, c_clog2 in *. cbn [reduce_descA_mt] in *.
    fold d in Hl. rewrite c_shl_1 in Hp by lia. unfold c_div in Hp. rewrite Z.quot_div_nonneg in Hp by lia.
    split; [lia|]. split; [lia|].
    assert (0 < 2 ^ l) by lia. pose proof (Z.mul_div_le MT (2 ^ l) H). nia.
  Qed.

  Ltac gsimp := subst G; unfold reduce_MT, reduce_G_of; cbn [reduce_descA_mt].

  Lemma inA_1 p : active_in (reduce_reduce_in_A G 1 p) = Some (RData "descA" [2 * p; 0]).
  Proof. reflexivity. Qed.
  Lemma inA_gt l p : l <> 1 -> active_in (reduce_reduce_in_A G l p) = Some (RTask "reduce" "C" [l - 1; 2 * p]).
  Proof.
    intros H. unfold reduce_reduce_in_A. cbn [active_in d_guard d_then d_else]. unfold c_eq. rewrite cb_0.
    destruct (1 =? l) eqn:E; [lia|]. reflexivity.
  Qed.

  Lemma inB_null l p : 1 <= l -> MT <= p * 2 ^ l + 2 ^ (l - 1) -> active_in (reduce_reduce_in_B G l p) = Some RNull.
  Proof.
    intros Hl H. unfold reduce_reduce_in_B. cbn [active_in d_guard d_then d_else]. gsimp.
    rewrite !c_shl_1 by lia. unfold c_ge. rewrite cb_0. destruct (MT <=? p * 2 ^ l + 2 ^ (l - 1)) eqn:E; [reflexivity|lia].
  Qed.
  Lemma inB_1 p : 2 * p + 1 < MT -> active_in (reduce_reduce_in_B G 1 p) = Some (RData "descA" [2 * p + 1; 0]).
  Proof.
    intros H. unfold reduce_reduce_in_B. cbn [active_in d_guard d_then d_else]. gsimp.
    rewrite !c_shl_1 by lia. change (2 ^ 1) with 2. change (2 ^ (1 - 1)) with 1.
    unfold c_ge, c_eq, c_lt, c_ne. rewrite !c_band_cb, !cb_0.
    destruct (MT <=? p * 2 + 1) eqn:E; [lia|].
    destruct (p * 2 + 1 <? MT) eqn:E2; [|lia]. reflexivity.
  Qed.
  Lemma inB_gt l p : 1 < l -> p * 2 ^ l + 2 ^ (l - 1) < MT ->
    active_in (reduce_reduce_in_B G l p) = Some (RTask "reduce" "C" [l - 1; p * 2 + 1]).
  Proof.
    intros Hl H. unfold reduce_reduce_in_B. cbn [active_in d_guard d_then d_else]. gsimp.
    rewrite !c_shl_1 by lia.
    unfold c_ge, c_eq, c_lt, c_ne. rewrite !c_band_cb, !cb_0.
    destruct (MT <=? p * 2 ^ l + 2 ^ (l - 1)) eqn:E; [lia|].
    destruct (1 =? l) eqn:E1; [lia|]. destruct (p * 2 ^ l + 2 ^ (l - 1) <? MT) eqn:E2; [|lia]. reflexivity.
  Qed.

  Lemma rd_task_in l p : In [l; p] (reduce_reduce_space G) -> rd_task G (RTask "reduce" "C" [l; p]) = Some (l, p).
  Proof. intros H. unfold rd_task. rewrite (mem_space_In _ _ H). reflexivity. Qed.

  Section Val.
    Context {V : Type}.
    Variable op : V -> V -> V.
    Variable tl : Z -> V.
    Hypothesis op_assoc : forall a b c, op a (op b c) = op (op a b) c.

    (* the value at reduce(l, p): the fold of the tiles p*2^l .. min((p+1)*2^l, MT) - 1 *)
    Lemma rval_seg : forall (k : nat) (fuel : nat) (p : Z),
      let l := Z.of_nat (S k) in
      l <= d + 1 -> 0 <= p -> p * 2 ^ l < MT -> (S k <= fuel)%nat ->
      rval op tl G fuel l p = Some (seg op tl (p * 2 ^ l) (Z.min ((p + 1) * 2 ^ l) MT - 1)).
    Proof.
      induction k as [|k IH]; intros fuel p l Hl Hp Hlt Hf.
      - destruct fuel as [|f]; [lia|]. subst l. change (Z.of_nat 1) with 1 in *. change (2 ^ 1) with 2 in *.
        cbn [rval]. rewrite inA_1. cbn [rd_data String.eqb Ascii.eqb Bool.eqb andb Z.eqb].
        destruct (Z_lt_le_dec (2 * p + 1) MT) as [HB|HB].
        + rewrite inB_1 by assumption. cbn [rd_data String.eqb Ascii.eqb Bool.eqb andb Z.eqb].
          f_equal. replace (Z.min ((p + 1) * 2) MT - 1) with (2 * p + 1) by lia.
          replace (p * 2) with (2 * p) by lia.
          rewrite <- (seg_app op tl op_assoc (2 * p) (2 * p) (2 * p + 1)) by lia.
          rewrite !seg_single. reflexivity.
        + rewrite inB_null; [|lia|change (2 ^ 1) with 2; change (2 ^ (1 - 1)) with 1; lia].
          f_equal. replace (Z.min ((p + 1) * 2) MT - 1) with (p * 2) by lia.
          rewrite seg_single. f_equal. lia.
      - destruct fuel as [|f]; [lia|].
        set (l' := Z.of_nat (S k)) in *.
        assert (El : l = l' + 1) by (subst l l'; lia).
        assert (Hl' : 1 <= l') by (subst l'; lia).
        assert (Epow : 2 ^ l = 2 * 2 ^ l') by (rewrite El; apply Z.pow_succ_r; lia).
        assert (Hpos : 0 < 2 ^ l') by lia.
        cbn [rval]. rewrite inA_gt by lia.
        replace (l - 1) with l' by lia.
        cbn [rd_data].
        assert (HinA : In [l'; 2 * p] (reduce_reduce_space G)) by (apply In_space; nia).
        rewrite (rd_task_in _ _ HinA).
        rewrite (IH f (2 * p)); [|lia|lia|nia|lia].
        destruct (Z_lt_le_dec (p * 2 ^ l + 2 ^ l') MT) as [HB|HB].
        + rewrite inB_gt; [|lia|replace (l - 1) with l' by lia; assumption].
          replace (l - 1) with l' by lia. cbn [rd_data].
          assert (HinB : In [l'; p * 2 + 1] (reduce_reduce_space G)) by (apply In_space; nia).
          rewrite (rd_task_in _ _ HinB).
          rewrite (IH f (p * 2 + 1)); [|lia|lia|nia|lia].
          f_equal.
          replace (Z.min ((2 * p + 1) * 2 ^ l') MT - 1) with ((p * 2 + 1) * 2 ^ l' - 1) by nia.
          replace (2 * p * 2 ^ l') with (p * 2 ^ l) by nia.
          replace ((p * 2 + 1 + 1) * 2 ^ l') with ((p + 1) * 2 ^ l) by nia.
          replace ((p * 2 + 1) * 2 ^ l') with ((p * 2 + 1) * 2 ^ l' - 1 + 1) at 2 by lia.
          apply seg_app; [assumption|nia|nia].
        + rewrite inB_null; [|lia|replace (l - 1) with l' by lia; lia].
          f_equal. f_equal; nia.
    Qed.

    Theorem reduce_root_fold :
      reduce_root_value op tl MT = fold1 op (map tl (zrange 0 (MT - 1))).
    Proof.
      unfold reduce_root_value. change (reduce_depth (reduce_G_of MT)) with d. change (reduce_G_of MT) with G.
      pose proof d_nonneg as Hd. pose proof pow_d as Hp.
      replace (d + 1) with (Z.of_nat (S (Z.to_nat d))) by lia.
      rewrite rval_seg; [|lia|lia|lia|lia].
      rewrite fold1_seg by lia.
      replace (Z.of_nat (S (Z.to_nat d))) with (Z.succ d) by lia.
      rewrite Z.pow_succ_r by lia.
      replace (Z.min ((0 + 1) * (2 * 2 ^ d)) MT - 1) with (MT - 1) by lia.
      reflexivity.
    Qed.
  End Val.

  (* every source tile is a leaf of the tree exactly once (and in order) *)
  Theorem reduce_leaves_all : reduce_leaves MT = Some (zrange 0 (MT - 1)).
  Proof.
    unfold reduce_leaves. change (rval (@app Z) (fun i => [i]) (reduce_G_of MT) _ _ 0) with
      (reduce_root_value (@app Z) (fun i => [i]) MT).
    rewrite reduce_root_fold by (intros; apply app_assoc).
    rewrite fold1_seg by lia. rewrite seg_app_list by lia. reflexivity.
  Qed.

  (* the root writes its flow C to R(0, 0) and nowhere else *)
  Theorem reduce_root_output : reduce_root_out MT = [RData "R" [0; 0]].
  Proof.
    unfold reduce_root_out, reduce_reduce_out_C. cbn [active_outs d_guard d_then d_else].
    unfold c_eq, c_ne. rewrite !c_band_cb, Z.eqb_refl. cbn [cb Z.eqb negb andb app]. reflexivity.
  Qed.

  (* when MT is even the execution space has an instance that reads the tile MT, one past the last *)
  Theorem reduce_even_reads_outside : Z.even MT = true ->
    In [1; MT / 2] (reduce_reduce_space G) /\
    active_in (reduce_reduce_in_A G 1 (MT / 2)) = Some (RData "descA" [MT; 0]).
  Proof.
    intros He. apply Z.even_spec in He. destruct He as [h Eh].
    assert (Eh2 : MT / 2 = h) by (rewrite Eh, Z.mul_comm, Z.div_mul by lia; reflexivity).
    split.
    - apply In_space; [pose proof d_nonneg; lia|lia|change (2 ^ 1) with 2; lia].
    - rewrite inA_1. rewrite Eh2. f_equal. f_equal. f_equal. lia.
  Qed.
End Reduce.
