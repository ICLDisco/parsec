(* Counter-mode dependency tracking: for any goal g > 0, any number n <= g of
   releases and any schedule, at most one release returns "ready", and one does
   exactly when all g read-modify-writes have happened. *)
From PV Require Import Base.Tac Base.ListX Deps.DepsDefs.
Local Open Scope Z_scope.

Definition CInv (g : Z) (c : ccfg) : Prop :=
  let k := cnt c_is_done (cpcs c) in
  Z.of_nat (length (cpcs c)) <= g /\
  (k = 0 -> cdeps c = 0) /\ (0 < k -> cdeps c = g - k) /\
  (0 < cnt c_is_dec (cpcs c) -> 0 < k) /\
  cnt c_is_ready (cpcs c) = (if k =? g then 1 else 0).

Lemma not_done_not_ready p : c_is_done p = false -> c_is_ready p = false.
Proof. destruct p as [| | |[|]]; auto. Qed.

(* a release moves on without touching the word; it reaches the decrement only
   after it has seen the word non-zero, that is after some read-modify-write *)
Lemma cinv_move g c t p q : nth_error (cpcs c) t = Some p -> CInv g c ->
  c_is_done p = false -> c_is_done q = false -> (c_is_dec q = true -> cdeps c <> 0) ->
  CInv g {| cdeps := cdeps c; cpcs := upd (cpcs c) t q |}.
Proof.
  intros E (Hlen & Hk0 & Hk & Hdec & Hrdy) Hp Hq Hd. unfold CInv; cbn [cdeps cpcs].
  rewrite (len_upd _ _ _ _ E), !(cnt_upd _ _ _ _ _ E), Hp, Hq, !not_done_not_ready by auto.
  pose proof (cnt_nonneg c_is_done (cpcs c)). pose proof (cnt_nonneg c_is_dec (cpcs c)).
  rewrite !Z.sub_0_r, !Z.add_0_r.
  repeat split; try lia. destruct (c_is_dec q); [specialize (Hd eq_refl)|]; iflia.
Qed.

(* a release performs its read-modify-write, the (k+1)-th: the word becomes
   g - (k+1), and the release is ready exactly when that is 0 *)
Lemma cinv_rmw g c t p d : nth_error (cpcs c) t = Some p -> CInv g c -> c_is_done p = false ->
  d = g - (cnt c_is_done (cpcs c) + 1) ->
  CInv g {| cdeps := d; cpcs := upd (cpcs c) t (CDone (d =? 0)) |}.
Proof.
  intros E (Hlen & Hk0 & Hk & Hdec & Hrdy) Hp ->. unfold CInv; cbn [cdeps cpcs].
  rewrite (len_upd _ _ _ _ E), !(cnt_upd _ _ _ _ _ E), Hp, not_done_not_ready by auto. cbn [c_is_done c_is_dec].
  pose proof (cnt_nonneg c_is_done (cpcs c)). pose proof (cnt_lt_len c_is_done _ _ _ E Hp).
  assert (Hr : cnt c_is_ready (cpcs c) = 0) by (rewrite Hrdy; iflia).
  rewrite Hr. repeat split; try lia.
  destruct (g - (cnt c_is_done (cpcs c) + 1) =? 0) eqn:E0; cbn [c_is_ready]; iflia.
Qed.

Lemma cinv_step g c t : 0 < g -> CInv g c -> CInv g (cstep g c t).
Proof.
  intros Hg HI. pose proof HI as (Hlen & Hk0 & Hk & Hdec & Hrdy). unfold cstep.
  destruct (nth_error (cpcs c) t) as [p|] eqn:E; [|exact HI].
  pose proof (cnt_nonneg c_is_done (cpcs c)) as Hkn.
  destruct p as [| | |r].
  - apply (cinv_move g c t _ _ E HI); destruct (cdeps c =? 0) eqn:Ez; auto; try discriminate. lia.
  - destruct (cdeps c =? 0) eqn:Ez.
    + (* the word is 0: nobody has written it yet *)
      pose proof (cnt_lt_len c_is_done _ _ _ E eq_refl).
      apply (cinv_rmw g c t _ _ E HI); auto. lia.
    + apply (cinv_move g c t _ _ E HI); auto. lia.
  - (* a release at the decrement has seen the word non-zero: some write came before *)
    pose proof (cnt_pos_of_nth c_is_dec _ _ _ E eq_refl).
    apply (cinv_rmw g c t _ _ E HI); auto. lia.
  - exact HI.
Qed.

Lemma cinv_init g n : 0 < g -> Z.of_nat n <= g -> CInv g (cinit n).
Proof.
  intros Hg Hn. unfold CInv, cinit; cbn [cdeps cpcs].
  rewrite repeat_length, !cnt_repeat. cbn [c_is_done c_is_dec c_is_ready].
  repeat split; try lia. destruct (0 =? g) eqn:E; lia.
Qed.

Lemma cinv_run g n sched : 0 < g -> Z.of_nat n <= g -> CInv g (crun g (cinit n) sched).
Proof.
  intros Hg Hn. unfold crun. apply fold_left_inv.
  - intros a b Ha. apply cinv_step; assumption.
  - apply cinv_init; assumption.
Qed.

Lemma cstep_len g c t : length (cpcs (cstep g c t)) = length (cpcs c).
Proof.
  unfold cstep. destruct (nth_error (cpcs c) t) as [p|] eqn:E; [|reflexivity].
  destruct p; cbn [cpcs]; try reflexivity;
    try (destruct (cdeps c =? 0); cbn [cpcs]); rewrite (len_upd _ _ _ _ E); reflexivity.
Qed.
Lemma crun_len g c sched : length (cpcs (crun g c sched)) = length (cpcs c).
Proof. revert c; induction sched as [|t s IH]; intros c; [reflexivity|].
  cbn [crun fold_left]. fold (crun g (cstep g c t) s). rewrite IH. apply cstep_len. Qed.

(* the dependency word counts the releases still missing *)
Theorem counter_value g n sched : 0 < g -> Z.of_nat n <= g ->
  let c := crun g (cinit n) sched in
  cdeps c = (if cnt c_is_done (cpcs c) =? 0 then 0 else g - cnt c_is_done (cpcs c)).
Proof. intros Hg Hn c. destruct (cinv_run g n sched Hg Hn) as (_ & H0 & H1 & _).
  pose proof (cnt_nonneg c_is_done (cpcs c)). fold c in H0, H1.
  destruct (cnt c_is_done (cpcs c) =? 0) eqn:E; lia. Qed.
