(* Mask-mode dependency tracking: releases carry distinct flow bits that belong
   to the goal and are not collection inputs; for every schedule exactly the
   release whose fetch-or is last returns "ready". *)
From PV Require Import Base.Tac Base.ListX Deps.DepsDefs.
Local Open Scope N_scope.

Lemma land_eq_iff x g : N.land x g = g <-> forall k, N.testbit g k = true -> N.testbit x k = true.
Proof.
  split.
  - intros H k Hk. rewrite <- H in Hk. rewrite N.land_spec in Hk. apply andb_true_iff in Hk. tauto.
  - intros H. apply N.bits_inj. intros k. rewrite N.land_spec. destruct (N.testbit g k) eqn:E.
    + rewrite H by assumption. reflexivity.
    + apply andb_false_r.
Qed.

Lemma bit_spec i k : N.testbit (bit i) k = (k =? i).
Proof. unfold bit. rewrite N.shiftl_1_l, N.pow2_bits_eqb. apply N.eqb_sym. Qed.
Lemma IN_DONE_spec k : N.testbit IN_DONE k = (k =? 30).
Proof. apply (bit_spec 30). Qed.

Section Mask.
Variables (goal inmask : N) (idxs : list N).
Hypothesis Hnd : NoDup idxs.
Hypothesis Hidx : forall i, In i idxs -> i <> 30 /\ N.testbit goal i = true /\ N.testbit inmask i = false.
Hypothesis Hcov : forall k, N.testbit goal k = true -> N.testbit inmask k = true \/ In k idxs \/ k = 30.

Definition nv_ok (c : mcfg) (i nv : N) : Prop :=
  nv = N.lor (N.lor IN_DONE (bit i)) inmask \/
  (nv = N.lor IN_DONE (bit i) /\ (0 < cnt m_is_done (mpcs c))%Z).

(* some release on flow k has performed its fetch-or *)
Definition has_done (l : list mpc) (k : N) : Prop := exists t r, nth_error l t = Some (MDone k r).

Definition MInv (c : mcfg) : Prop :=
  map m_idx (mpcs c) = idxs /\
  (forall k, N.testbit (mdeps c) k = true <->
     ((0 < cnt m_is_done (mpcs c))%Z /\ (k = 30 \/ N.testbit inmask k = true)) \/ has_done (mpcs c) k) /\
  (forall t i nv, nth_error (mpcs c) t = Some (MOr i nv) -> nv_ok c i nv) /\
  cnt m_is_ready (mpcs c) = (if (cnt m_is_done (mpcs c) =? Z.of_nat (length idxs))%Z then 1 else 0)%Z.

Lemma idx_of_nth c t p : map m_idx (mpcs c) = idxs -> nth_error (mpcs c) t = Some p ->
  nth_error idxs t = Some (m_idx p) /\ In (m_idx p) idxs.
Proof.
  intros Ha Hp. assert (H : nth_error idxs t = Some (m_idx p)).
  { rewrite <- Ha. apply map_nth_error. exact Hp. }
  split; [exact H|]. eapply nth_error_In; eauto.
Qed.

Lemma has_done_upd l t p q k : nth_error l t = Some p -> m_is_done p = false ->
  (has_done (upd l t q) k <-> (exists r, q = MDone k r) \/ has_done l k).
Proof.
  intros E Hp. split.
  - intros (u & r & Hu). destruct (nth_upd_inv _ _ _ _ _ _ E Hu) as [[_ H]|[_ H]]; [left|right; exists u]; eauto.
  - intros [(r & ->)|(u & r & Hu)].
    + exists t, r. apply (nth_upd_same _ _ _ _ E).
    + exists u, r. rewrite (nth_upd_other _ _ _ _ _ E); [exact Hu|]. intros ->. rewrite E in Hu. injection Hu as ->. discriminate.
Qed.

(* the word after the fetch-or of a release on flow i: a value without the collection bits was
   computed after some release had already brought them *)
Lemma lor_nv_bits c i nv k : MInv c -> nv_ok c i nv ->
  (N.testbit (N.lor (mdeps c) nv) k = true <->
   (k = 30 \/ N.testbit inmask k = true) \/ k = i \/ has_done (mpcs c) k).
Proof.
  intros (_ & Hb & _) Hnv. rewrite N.lor_spec, orb_true_iff, Hb.
  destruct Hnv as [->|[-> Hpos]]; rewrite !N.lor_spec, IN_DONE_spec, bit_spec, !orb_true_iff, !N.eqb_eq; tauto.
Qed.

Lemma minv_step c t : MInv c -> MInv (mstep goal inmask c t).
Proof.
  intros HI. pose proof HI as (Ha & Hb & Hc & Hd). unfold mstep.
  destruct (nth_error (mpcs c) t) as [p|] eqn:E; [|exact HI].
  destruct p as [i|i nv|i r].
  - (* MStart: plain read *)
    set (nv := N.lor (N.lor IN_DONE (bit i)) (if N.testbit (mdeps c) 30 then 0 else inmask)).
    assert (Hcnt : cnt m_is_done (upd (mpcs c) t (MOr i nv)) = cnt m_is_done (mpcs c)).
    { rewrite (cnt_upd _ _ _ _ _ E). cbn. lia. }
    unfold MInv, nv_ok; cbn [mdeps mpcs]. rewrite Hcnt. split; [|split; [|split]].
    + rewrite (map_upd m_idx _ _ _ _ E); auto.
    + intros k. rewrite (has_done_upd _ _ _ _ k E eq_refl), Hb.
      split; [tauto|]. intros [H|[(r & H)|H]]; [tauto|discriminate|tauto].
    + intros u j nv' Hu. destruct (nth_upd_inv _ _ _ _ _ _ E Hu) as [[_ H]|[_ H]]; [|apply (Hc _ _ _ H)].
      injection H as -> ->. unfold nv. destruct (N.testbit (mdeps c) 30) eqn:E30; [right|left; reflexivity].
      split; [apply N.lor_0_r|].
      apply Hb in E30. destruct E30 as [[H _]|(v & r & Hv)]; [exact H|].
      apply (cnt_pos_of_nth m_is_done _ _ _ Hv). reflexivity.
    + rewrite (cnt_upd _ _ _ _ _ E). cbn. lia.
  - (* MOr: the atomic fetch-or *)
    pose proof (lor_nv_bits c i nv) as Hcur. specialize (fun k => Hcur k HI (Hc _ _ _ E)).
    set (cur := N.lor (mdeps c) nv) in *.
    set (r := N.land cur goal =? goal).
    assert (Hcnt : cnt m_is_done (upd (mpcs c) t (MDone i r)) = (cnt m_is_done (mpcs c) + 1)%Z).
    { rewrite (cnt_upd _ _ _ _ _ E). cbn. lia. }
    pose proof (cnt_nonneg m_is_done (mpcs c)) as Hnn.
    assert (Hlen : Z.of_nat (length (mpcs c)) = Z.of_nat (length idxs)).
    { rewrite <- Ha, map_length. reflexivity. }
    pose proof (cnt_lt_len m_is_done _ _ _ E eq_refl) as Hlt.
    destruct (idx_of_nth c t _ Ha E) as [Hti Hiin]. cbn [m_idx] in Hti, Hiin.
    (* the goal is reached when, and only when, no other release is still to come *)
    assert (Hr : r = true <-> (cnt m_is_done (mpcs c) + 1 = Z.of_nat (length idxs))%Z).
    { unfold r. rewrite N.eqb_eq, land_eq_iff. split.
      - intros Hall.
        destruct (Z_le_gt_dec (cnt m_is_done (mpcs c)) (Z.of_nat (length (mpcs c)) - 2)) as [Hle|Hgt]; [|lia].
        exfalso. destruct (exists_other_false m_is_done _ t Hle) as (u & q & Hne & Hu & Hq).
        destruct (idx_of_nth c u _ Ha Hu) as [Huj Hjin].
        destruct (Hidx _ Hjin) as (Hj30 & Hjg & Hjm).
        specialize (Hall _ Hjg). apply Hcur in Hall.
        destruct Hall as [[H|H]|[H|(v & r' & Hv)]]; try congruence.
        + subst i. apply Hne. eapply NoDup_nth_inj; eauto.
        + destruct (idx_of_nth c v _ Ha Hv) as [Hvj _]. cbn [m_idx] in Hvj.
          assert (v = u) by (eapply NoDup_nth_inj; eauto). subst v.
          rewrite Hu in Hv. inversion Hv as [Hq']. rewrite Hq' in Hq. discriminate.
      - intros Hall k Hk. apply Hcur. destruct (Hcov _ Hk) as [H|[H|H]]; auto.
        apply In_nth_error in H. destruct H as (u & Hu).
        rewrite <- Ha in Hu. apply nth_error_map_inv in Hu. destruct Hu as (q & Hq & Hqk).
        destruct (Nat.eq_dec u t) as [->|Hne].
        + rewrite E in Hq. inversion Hq; subst q. cbn in Hqk. auto.
        + right; right. destruct (m_is_done q) eqn:Eq.
          * destruct q as [?|? ?|j r']; try discriminate. cbn in Hqk; subst j. exists u, r'. auto.
          * pose proof (cnt_two_false m_is_done _ t u _ _ (not_eq_sym Hne) E eq_refl Hq Eq). lia. }
    unfold MInv, nv_ok; cbn [mdeps mpcs]. rewrite Hcnt. split; [|split; [|split]].
    + rewrite (map_upd m_idx _ _ _ _ E); auto.
    + intros k. rewrite (has_done_upd _ _ _ _ k E eq_refl), Hcur. split.
      * intros [H|[H|H]]; [left; split; [lia|exact H]|right; left; exists r; congruence|tauto].
      * intros [[_ H]|[(r' & H)|H]]; [tauto|injection H as <- _; right; left; reflexivity|tauto].
    + intros u j nv' Hu. destruct (nth_upd_inv _ _ _ _ _ _ E Hu) as [[_ H]|[_ H]]; [discriminate|].
      destruct (Hc _ _ _ H) as [H1|[H1 _]]; [left; exact H1|right]. split; [exact H1|lia].
    + rewrite (cnt_upd _ _ _ _ _ E), Hd. cbn [m_is_ready]. destruct r; iflia.
  - exact HI.
Qed.

Lemma minv_init : idxs <> [] -> MInv (minit idxs).
Proof.
  intros Hne. unfold MInv, minit; cbn [mdeps mpcs].
  rewrite !cnt_map_false by reflexivity. repeat split.
  - rewrite map_map. cbn. apply map_id.
  - intros H. rewrite N.bits_0 in H. discriminate.
  - intros [[H _]|(t & r & Ht)]; [lia|].
    apply nth_error_map_inv in Ht. destruct Ht as (x & _ & Hx). discriminate.
  - intros t i nv Ht. apply nth_error_map_inv in Ht. destruct Ht as (x & _ & Hx). discriminate.
  - destruct idxs; [congruence|]. cbn [length]. destruct (0 =? Z.of_nat (S (length l)))%Z eqn:E; lia.
Qed.

Lemma minv_run sched : idxs <> [] -> MInv (mrun goal inmask (minit idxs) sched).
Proof.
  intros Hne. unfold mrun. apply fold_left_inv.
  - intros a b Ha. apply minv_step; assumption.
  - apply minv_init; assumption.
Qed.

End Mask.
