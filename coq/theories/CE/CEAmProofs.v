(* C14 — one AM tag over the abstract MPI: the invariant AInv (sent = delivered + pending + in flight
   as a permutation, no message sent twice, a matched receive's buffer holds the body of its message)
   holds after every event list.  Properties_C14 derives from it that a message handed to the callback
   was sent and that none is handed over twice.
   The oracle (AMatch / AReport) is not constrained at all — a report of a receive that is not complete
   is a no-op of the model (MPI cannot report it). *)
From Coq Require Import List Arith Bool Lia Permutation.
From PV Require Import Base.Tac CE.CEDefs.
Import ListNotations.

Lemma set_nth_length {A} n (x : A) l : length (set_nth n x l) = length l.
Proof. revert n; induction l as [|y l IH]; intros [|n]; cbn; auto. Qed.

Lemma nth_set_nth_eq {A} n (x d : A) l : n < length l -> nth n (set_nth n x l) d = x.
Proof. revert n; induction l as [|y l IH]; intros [|n] H; cbn in *; try lia; auto. apply IH; lia. Qed.

Lemma nth_set_nth_neq {A} n m (x d : A) l : n <> m -> nth m (set_nth n x l) d = nth m l d.
Proof. revert n m; induction l as [|y l IH]; intros [|n] [|m] H; cbn; auto; try lia. Qed.

Lemma nth_map_seq {A} (f : nat -> A) n i d : i < n -> nth i (map f (seq 0 n)) d = f i.
Proof.
  intros Hi. rewrite nth_indep with (d' := f 0) by (rewrite map_length, seq_length; lia).
  rewrite (map_nth f), seq_nth by lia. reflexivity.
Qed.

Lemma somes_app {A} (a b : list (option A)) : somes (a ++ b) = somes a ++ somes b.
Proof. induction a as [|[x|] a IH]; cbn; auto. now rewrite IH. Qed.

Lemma somes_map_Some {A} (l : list A) : somes (map (@Some A) l) = l.
Proof. induction l; cbn; auto. now rewrite IHl. Qed.

Lemma concat_repeat_nil {A} n : concat (repeat (@nil A) n) = [].
Proof. induction n; cbn; auto. Qed.

Lemma concat_set_nth_snoc {A} s (x : A) l :
  s < length l -> Permutation (concat (set_nth s (nth s l [] ++ [x]) l)) (concat l ++ [x]).
Proof.
  revert s; induction l as [|y l IH]; intros [|s] H; cbn in *; try lia.
  - rewrite <- !app_assoc. apply Permutation_app_head. apply Permutation_app_comm.
  - rewrite <- app_assoc. apply Permutation_app_head. apply IH; lia.
Qed.

Lemma concat_set_nth_tail {A} s (m : A) r l :
  nth s l [] = m :: r -> Permutation (concat l) (m :: concat (set_nth s r l)).
Proof.
  revert s; induction l as [|y l IH]; intros [|s] H; cbn in *; try discriminate.
  - subst y. reflexivity.
  - rewrite (IH _ H). symmetry. apply Permutation_middle.
Qed.

Lemma first_unmatched_spec l b i a :
  first_unmatched l = Some (b, i, a) -> l = b ++ (i, None) :: a.
Proof.
  revert b i a; induction l as [|[j [m|]] l IH]; intros b i a H; cbn in H; try discriminate.
  - destruct (first_unmatched l) as [[[b' i'] a']|] eqn:E; try discriminate.
    inv H. cbn. f_equal. now apply IH.
  - inv H. reflexivity.
Qed.

Lemma drop_req_notin i l : ~ In i (map fst l) -> drop_req i l = l.
Proof.
  unfold drop_req. induction l as [|[k y] l IH]; cbn; intro H; auto.
  destruct (Nat.eqb_spec k i) as [->|_]; cbn; [tauto|]. f_equal. tauto.
Qed.

Lemma lookup_split i l x :
  NoDup (map fst l) -> lookup i l = Some x ->
  exists p1 p2, l = p1 ++ (i, x) :: p2 /\ drop_req i l = p1 ++ p2.
Proof.
  induction l as [|[j m] l IH]; intros Hn H; cbn in *; try discriminate.
  inv Hn. unfold drop_req in *. cbn. destruct (Nat.eqb_spec j i) as [->|E]; cbn.
  - inv H. exists [], l. split; auto. now apply drop_req_notin.
  - destruct (IH H3 H) as (p1 & p2 & -> & Hd). exists ((j, m) :: p1), p2. split; auto. cbn. now f_equal.
Qed.

Lemma in_app_mid {A} (y x : A) l1 l2 : In y (l1 ++ l2) -> In y (l1 ++ x :: l2).
Proof. rewrite !in_app_iff. cbn. tauto. Qed.

Lemma lookup_In i l x : lookup i l = Some x -> In (i, x) l.
Proof.
  induction l as [|[j m] l IH]; cbn; try discriminate.
  destruct (j =? i) eqn:E; intro H.
  - apply Nat.eqb_eq in E; subst. inv H. auto.
  - right; auto.
Qed.

Lemma pending_init P : somes (map snd (map (fun i : nat => (i, @None msg)) (seq 0 P))) = [].
Proof. generalize 0; induction P; intro s; cbn; auto. Qed.

Record AInv (st : amst) : Prop := {
  ai_nodup : NoDup (map fst (a_posted st));
  ai_buf : forall i m, In (i, Some m) (a_posted st) -> nth i (a_bufs st) [] = m_body m;
  ai_rng : forall i x, In (i, x) (a_posted st) -> i < length (a_bufs st);
  ai_perm : Permutation (a_sent st) (a_deliv st ++ pending st ++ concat (a_chan st));
  ai_sent : NoDup (a_sent st);
  ai_seq : forall m, In m (a_sent st) -> m_seq m < count_from (m_src m) (a_sent st)
}.

Lemma init_am_inv P T nsrc : AInv (init_am P T nsrc).
Proof.
  constructor; cbn.
  - rewrite map_map. cbn. rewrite map_id. apply seq_NoDup.
  - intros i m H. apply in_map_iff in H. destruct H as (j & E & _). discriminate.
  - intros i x H. apply in_map_iff in H. destruct H as (j & E & Hj). inv E.
    rewrite repeat_length. apply in_seq in Hj. lia.
  - unfold pending; cbn. rewrite pending_init, concat_repeat_nil. constructor.
  - constructor.
  - intros m [].
Qed.

Lemma count_from_app s a b : count_from s (a ++ b) = count_from s a + count_from s b.
Proof. unfold count_from. now rewrite filter_app, app_length. Qed.

Lemma aserve_inv st o : AInv st -> AInv (aserve st o).
Proof.
  intros I. unfold aserve.
  destruct (nth o (w_slots (a_w st)) None) as [i|]; auto.
  destruct (lookup i (a_posted st)) as [[m|]|] eqn:EL; auto.
  destruct (lookup_split _ _ _ (ai_nodup _ I) EL) as (p1 & p2 & Ep & Ed).
  assert (Hb : nth i (a_bufs st) [] = m_body m) by (apply (ai_buf _ I); now apply lookup_In).
  assert (Hn : NoDup (map fst (p1 ++ p2) ++ [i])).
  { pose proof (ai_nodup _ I) as H. rewrite Ep in H. rewrite map_app in H. cbn in H.
    rewrite map_app. rewrite <- app_assoc.
    eapply Permutation_NoDup; [|exact H].
    apply Permutation_app_head. apply Permutation_cons_append. }
  constructor; cbn [a_w a_posted a_bufs a_chan a_sent a_deliv].
  - rewrite Ed, map_app. cbn. exact Hn.
  - intros j m' H. rewrite Ed in H. apply in_app_or in H. destruct H as [H|[H|[]]]; [|discriminate].
    apply (ai_buf _ I). rewrite Ep. now apply in_app_mid.
  - intros j x H. rewrite Ed in H. apply in_app_or in H. destruct H as [H|[H|[]]].
    + apply (ai_rng _ I j x). rewrite Ep. now apply in_app_mid.
    + inv H. apply (ai_rng _ I j (Some m)). now apply lookup_In.
  - pose proof (ai_perm _ I) as H. unfold pending in *. cbn [a_posted]. rewrite Ep in H. rewrite Ed.
    rewrite !map_app, !somes_app in H. rewrite !map_app, !somes_app. cbn in *. rewrite app_nil_r.
    rewrite Hb. replace (mkm (m_src m) (m_seq m) (m_body m)) with m by (destruct m; reflexivity).
    rewrite H. rewrite <- !app_assoc. apply Permutation_app_head. cbn.
    symmetry. apply Permutation_middle.
  - apply (ai_sent _ I).
  - apply (ai_seq _ I).
Qed.

Lemma astep_inv st x : AInv st -> AInv (astep st x).
Proof.
  intros I. destruct x as [s b|s|sel]; cbn [astep].
  - (* send *)
    destruct (s <? length (a_chan st)) eqn:E; auto. apply Nat.ltb_lt in E.
    set (m := mkm s (count_from s (a_sent st)) b).
    constructor; cbn [a_w a_posted a_bufs a_chan a_sent a_deliv].
    + apply (ai_nodup _ I).
    + apply (ai_buf _ I).
    + apply (ai_rng _ I).
    + unfold pending; cbn.
      eapply Permutation_trans; [apply Permutation_app_tail, (ai_perm _ I)|].
      unfold pending. rewrite <- !app_assoc. do 2 apply Permutation_app_head.
      symmetry. apply (concat_set_nth_snoc s m _ E).
    + eapply Permutation_NoDup; [apply Permutation_cons_append|].
      constructor; [|apply (ai_sent _ I)].
      intro H. pose proof (ai_seq _ I m H) as Hs. cbn in Hs. lia.
    + intros m' H. rewrite count_from_app. apply in_app_or in H. destruct H as [H|[H|[]]].
      * pose proof (ai_seq _ I _ H). lia.
      * subst m'. cbn. rewrite Nat.eqb_refl. cbn. lia.
  - (* match *)
    destruct (nth s (a_chan st) []) as [|m r] eqn:EC; auto.
    destruct (first_unmatched (a_posted st)) as [[[bq i] aq]|] eqn:EF; auto.
    pose proof (first_unmatched_spec _ _ _ _ EF) as Ep.
    assert (Hi : i < length (a_bufs st)) by (apply (ai_rng _ I i None); rewrite Ep; apply in_elt).
    assert (Hni : ~ In i (map fst (bq ++ aq))).
    { pose proof (ai_nodup _ I) as H. rewrite Ep, map_app in H. cbn in H. apply NoDup_remove_2 in H. now rewrite map_app. }
    constructor; cbn [a_w a_posted a_bufs a_chan a_sent a_deliv].
    + pose proof (ai_nodup _ I) as H. rewrite Ep in H. rewrite !map_app in *. exact H.
    + intros j m' H. apply in_elt_inv in H. destruct H as [H|H].
      * inv H. now apply nth_set_nth_eq.
      * rewrite nth_set_nth_neq. { apply (ai_buf _ I). rewrite Ep. now apply in_app_mid. }
        intros <-. apply Hni. apply (in_map fst) in H. exact H.
    + intros j x H. rewrite set_nth_length. apply in_elt_inv in H. destruct H as [H|H].
      * inv H. exact Hi.
      * apply (ai_rng _ I j x). rewrite Ep. now apply in_app_mid.
    + pose proof (ai_perm _ I) as H. unfold pending in *. cbn [a_posted]. rewrite Ep in H.
      rewrite !map_app, !somes_app in H. rewrite !map_app, !somes_app. cbn in *.
      rewrite H. apply Permutation_app_head.
      rewrite <- !app_assoc. apply Permutation_app_head. cbn.
      rewrite (concat_set_nth_tail _ _ _ _ EC).
      symmetry. apply Permutation_middle.
    + apply (ai_sent _ I).
    + apply (ai_seq _ I).
  - (* report *)
    assert (H : AInv (fold_left aserve sel st)) by (apply fold_left_inv; auto; intros; now apply aserve_inv).
    destruct H; constructor; auto.
Qed.

Lemma arun_inv st l : AInv st -> AInv (arun st l).
Proof. apply fold_left_inv. intros; now apply astep_inv. Qed.
