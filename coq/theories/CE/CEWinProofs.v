(* C14 — the tested window of an AM tag (mpi_funnelled_refill_am_requests): packing and
   refilling never drops or duplicates a posted receive.  Then the engine: every step keeps every
   window consistent, and the relation Ext (what issuing a request or draining the pending FIFOs
   may change), which CEDynProofs builds on. *)
From Coq Require Import List Arith Bool Lia Permutation.
From PV Require Import Base.Tac CE.CEDefs CE.CEAmProofs.
Import ListNotations.

(* a window is consistent when reqs_in_testsome describes exactly the receives that sit in its
   slots, each at most once *)
Definition Wok (w : tagw) : Prop :=
  length (w_ints w) = w_P w /\ length (w_slots w) <= w_P w /\ w_ridx w < w_P w /\
  NoDup (somes (w_slots w)) /\
  (forall i, In i (somes (w_slots w)) <-> (i < w_P w /\ nth i (w_ints w) false = true)).

Definition Wfull (w : tagw) : Prop := Forall (fun s => s <> None) (w_slots w).

Lemma somes_length_le {A} (l : list (option A)) : length (somes l) <= length l.
Proof. induction l as [|[x|] l IH]; cbn; lia. Qed.

Lemma map_Some_full {A} (l : list A) : Forall (fun s => s <> None) (map (@Some A) l).
Proof. apply Forall_forall. intros x Hx. apply in_map_iff in Hx. destruct Hx as (y & <- & _). discriminate. Qed.

(* the scan returns the first free entry at or after the cursor, in cyclic order *)
Lemma find_free_min ints P fuel : forall r j0,
  0 < P -> r < P -> j0 < fuel -> nth ((r + j0) mod P) ints false = false ->
  exists j, j <= j0 /\ find_free ints P r fuel = (r + j) mod P /\
            nth ((r + j) mod P) ints false = false.
Proof.
  induction fuel as [|f IH]; intros r j0 HP Hr Hj Hn; [lia|].
  cbn [find_free]. destruct (nth r ints false) eqn:E.
  - destruct j0 as [|j0].
    + rewrite Nat.add_0_r, Nat.mod_small in Hn by lia. congruence.
    + destruct (IH ((r + 1) mod P) j0 HP) as (j & Hle & Ef & Efree).
      * apply Nat.mod_upper_bound; lia.
      * lia.
      * rewrite Nat.add_mod_idemp_l by lia. replace (r + 1 + j0) with (r + S j0) by lia. exact Hn.
      * exists (S j). rewrite Nat.add_mod_idemp_l in Ef, Efree by lia.
        replace (r + S j) with (r + 1 + j) by lia. split; [lia|split; auto].
  - exists 0. rewrite Nat.add_0_r, Nat.mod_small by lia. split; [lia|split; auto].
Qed.

Lemma cyclic_cover P r i : r < P -> i < P -> exists j, j < P /\ (r + j) mod P = i.
Proof.
  intros Hr Hi. destruct (le_lt_dec r i).
  - exists (i - r). split; [lia|]. replace (r + (i - r)) with i by lia. apply Nat.mod_small; lia.
  - exists (i + P - r). split; [lia|]. replace (r + (i + P - r)) with (i + 1 * P) by lia.
    rewrite Nat.mod_add by lia. apply Nat.mod_small; lia.
Qed.

(* pigeonhole: were all P pool entries marked, the window would hold P distinct receives *)
Lemma free_exists w : Wok w -> length (w_slots w) < w_P w ->
  exists i, i < w_P w /\ nth i (w_ints w) false = false.
Proof.
  intros (Hl & _ & _ & Hnd & Hiff) Hlt.
  destruct (Forall_Exists_dec (fun i => nth i (w_ints w) false = true) (fun i => bool_dec _ true) (seq 0 (w_P w)))
    as [Hall|Hex].
  - exfalso. rewrite Forall_forall in Hall.
    assert (Hinc : incl (seq 0 (w_P w)) (somes (w_slots w))).
    { intros i Hi. apply Hiff. split; [apply in_seq in Hi; lia|auto]. }
    apply NoDup_incl_length in Hinc; [|apply seq_NoDup]. rewrite seq_length in Hinc.
    pose proof (somes_length_le (w_slots w)). lia.
  - apply Exists_exists in Hex. destruct Hex as (i & Hi & Hn). apply in_seq in Hi.
    exists i. split; [lia|]. now apply not_true_is_false.
Qed.

(* one pass of the loop body of fill *)
Definition pick (w : tagw) : tagw :=
  let r := find_free (w_ints w) (w_P w) (w_ridx w) (w_P w) in
  mkw (w_tag w) (w_P w) ((r + 1) mod w_P w) (set_nth r true (w_ints w)) (w_slots w ++ [Some r]).

Lemma fill_S n w : fill (S n) w = fill n (pick w).
Proof. reflexivity. Qed.

Lemma pick_free w : Wok w -> length (w_slots w) < w_P w ->
  let r := find_free (w_ints w) (w_P w) (w_ridx w) (w_P w) in
  r < w_P w /\ nth r (w_ints w) false = false.
Proof.
  intros Hw Hlt. destruct (free_exists w Hw Hlt) as (i & Hi & Hn).
  destruct Hw as (_ & _ & Hr & _).
  destruct (cyclic_cover (w_P w) (w_ridx w) i Hr Hi) as (j0 & Hj0 & Ej).
  rewrite <- Ej in Hn.
  destruct (find_free_min (w_ints w) (w_P w) (w_P w) (w_ridx w) j0) as (j & _ & -> & Hf); auto; [lia|].
  split; [apply Nat.mod_upper_bound; lia|exact Hf].
Qed.

Lemma pick_ok w : Wok w -> length (w_slots w) < w_P w -> Wok (pick w).
Proof.
  intros Hw Hlt. destruct (pick_free w Hw Hlt) as (HrP & Hrf). unfold pick.
  set (r := find_free (w_ints w) (w_P w) (w_ridx w) (w_P w)) in *.
  destruct Hw as (Hl & Hsl & Hr & Hnd & Hiff).
  assert (Hnot : ~ In r (somes (w_slots w))) by (intro H; apply Hiff in H; destruct H; congruence).
  unfold Wok; cbn. rewrite somes_app; cbn. repeat split.
  - now rewrite set_nth_length.
  - rewrite app_length; cbn; lia.
  - apply Nat.mod_upper_bound; lia.
  - eapply Permutation_NoDup; [apply Permutation_cons_append|]. now constructor.
  - apply in_app_or in H. destruct H as [H|[H|[]]]; [now apply Hiff in H|now subst].
  - apply in_app_or in H. destruct H as [H|[H|[]]].
    + destruct (Nat.eq_dec r i) as [->|Hne]; [contradiction|].
      rewrite nth_set_nth_neq by auto. now apply Hiff in H.
    + subst. apply nth_set_nth_eq. lia.
  - intros (Hi & Hn). apply in_or_app.
    destruct (Nat.eq_dec r i) as [->|Hne]; [right; left; auto|].
    left. apply Hiff. split; auto. now rewrite nth_set_nth_neq in Hn by auto.
Qed.

(* whatever the window, fill n appends n entries of the pool and changes neither size nor tag *)
Lemma fill_shape n : forall w,
  w_P (fill n w) = w_P w /\ w_tag (fill n w) = w_tag w /\
  exists picks, length picks = n /\ w_slots (fill n w) = w_slots w ++ map (@Some nat) picks.
Proof.
  induction n as [|n IH]; intros w.
  - split; [auto|split; [auto|]]. exists []. cbn. now rewrite app_nil_r.
  - rewrite fill_S. destruct (IH (pick w)) as (HP & Ht & picks & Hl & Hs).
    split; [auto|split; [auto|]].
    exists (find_free (w_ints w) (w_P w) (w_ridx w) (w_P w) :: picks).
    rewrite Hs. cbn. now rewrite Hl, <- app_assoc.
Qed.

Lemma fill_ok n : forall w, Wok w -> length (w_slots w) + n <= w_P w -> Wok (fill n w).
Proof.
  induction n as [|n IH]; intros w Hw Hlen; [exact Hw|].
  rewrite fill_S. apply IH; [apply pick_ok; [auto|lia]|].
  cbn. rewrite app_length. cbn. lia.
Qed.

(* the surviving requests packed to the front *)
Definition pack (w : tagw) : tagw :=
  mkw (w_tag w) (w_P w) (w_ridx w) (w_ints w) (map (@Some nat) (somes (w_slots w))).

Lemma refill_pack w : refill_w w = fill (length (w_slots w) - length (somes (w_slots w))) (pack w).
Proof. unfold refill_w. now rewrite map_length. Qed.

Lemma pack_ok w : Wok w -> Wok (pack w).
Proof.
  intros (Hl & Hsl & Hr & Hnd & Hiff). unfold Wok, pack; cbn. rewrite somes_map_Some, map_length.
  pose proof (somes_length_le (w_slots w)).
  split; [auto|split; [lia|split; [auto|split; [auto|exact Hiff]]]].
Qed.

Lemma refill_len w : length (w_slots (refill_w w)) = length (w_slots w).
Proof.
  rewrite refill_pack.
  destruct (fill_shape (length (w_slots w) - length (somes (w_slots w))) (pack w)) as (_ & _ & picks & Hl & ->).
  cbn. rewrite app_length, !map_length, Hl.
  pose proof (somes_length_le (w_slots w)). lia.
Qed.

Lemma refill_ok w : Wok w ->
  Wok (refill_w w) /\ Wfull (refill_w w) /\ length (w_slots (refill_w w)) = length (w_slots w) /\
  w_P (refill_w w) = w_P w /\ w_tag (refill_w w) = w_tag w /\
  exists picks, somes (w_slots (refill_w w)) = somes (w_slots w) ++ picks.
Proof.
  intros Hw. pose proof (refill_len w) as Hlen. rewrite refill_pack in *.
  destruct (fill_shape (length (w_slots w) - length (somes (w_slots w))) (pack w)) as (HP & Ht & picks & _ & Hs).
  split; [|split; [|split; [auto|split; [auto|split; [auto|]]]]].
  - apply fill_ok; [now apply pack_ok|].
    destruct Hw as (_ & Hsl & _). cbn. rewrite map_length. pose proof (somes_length_le (w_slots w)). lia.
  - unfold Wfull. rewrite Hs. cbn. apply Forall_app. split; apply map_Some_full.
  - exists picks. rewrite Hs. cbn. now rewrite somes_app, !somes_map_Some.
Qed.

Lemma nth_split_set {A} o (l : list (option A)) i :
  nth o l None = Some i -> exists a b, l = a ++ Some i :: b /\ set_nth o None l = a ++ None :: b.
Proof.
  revert o; induction l as [|y l IH]; intros [|o] H; cbn in *; try discriminate.
  - subst. exists [], l. auto.
  - destruct (IH _ H) as (a & b & -> & E). exists (y :: a), b. cbn. now rewrite E.
Qed.

Lemma release_ok w o : Wok w -> Wok (release_w w o).
Proof.
  intros Hw. unfold release_w. destruct (nth o (w_slots w) None) as [i|] eqn:E; auto.
  destruct Hw as (Hl & Hsl & Hr & Hnd & Hiff).
  destruct (nth_split_set _ _ _ E) as (a & b & Ea & Eb).
  rewrite Ea, somes_app in Hnd, Hiff. cbn in Hnd, Hiff.
  destruct (NoDup_remove _ _ _ Hnd) as (Hnd' & Hni).
  assert (Hi : i < w_P w /\ nth i (w_ints w) false = true) by apply Hiff, in_elt.
  unfold Wok; cbn. rewrite Eb, somes_app. cbn.
  split; [now rewrite set_nth_length|split; [now rewrite <- Eb, set_nth_length|split; [auto|split; [auto|]]]].
  (* the receives left are those of before other than i, and only the mark of i changed *)
  intro x. destruct (Nat.eq_dec i x) as [<-|Hne].
  - rewrite nth_set_nth_eq by lia. split; [contradiction|intros (_ & H); discriminate].
  - rewrite nth_set_nth_neq, <- Hiff, !in_app_iff by auto. cbn. intuition.
Qed.

Lemma init_w_ok t P T : 1 <= T -> T <= P -> Wok (init_w t P T) /\ Wfull (init_w t P T).
Proof.
  intros H1 H2. unfold Wok, Wfull, init_w; cbn [w_ints w_slots w_P w_ridx w_tag]. rewrite somes_map_Some, !map_length, !seq_length.
  repeat split; auto.
  - apply Nat.mod_upper_bound; lia.
  - apply seq_NoDup.
  - apply in_seq in H. lia.
  - apply in_seq in H. rewrite nth_map_seq by lia. apply Nat.ltb_lt. lia.
  - intros (Hi & Hn). rewrite nth_map_seq in Hn by lia. apply Nat.ltb_lt in Hn. apply in_seq. lia.
  - apply map_Some_full.
Qed.

(* the engine keeps every window consistent, for any report and any callback behaviour *)

(* e' extends e: same windows and parameters, the dynamic region only grew at its end.
   Issuing a request and draining the pending FIFOs extend the engine. *)
Definition Ext (e e' : eng) : Prop :=
  e_ws e' = e_ws e /\ e_D e' = e_D e /\ e_R e' = e_R e /\
  exists app, e_dyn e' = e_dyn e ++ app /\ Forall (fun s => s <> None) app.

Lemma Ext_same e e' : e_ws e' = e_ws e -> e_D e' = e_D e -> e_R e' = e_R e -> e_dyn e' = e_dyn e -> Ext e e'.
Proof. intros A B C D. split; [auto|split; [auto|split; [auto|]]]. exists []. rewrite app_nil_r. auto. Qed.

Lemma Ext_refl e : Ext e e.
Proof. now apply Ext_same. Qed.

Lemma Ext_snoc e e' d :
  e_ws e' = e_ws e -> e_D e' = e_D e -> e_R e' = e_R e -> e_dyn e' = e_dyn e ++ [Some d] -> Ext e e'.
Proof.
  intros A B C D. split; [auto|split; [auto|split; [auto|]]]. exists [Some d]. split; auto.
  constructor; [discriminate|constructor].
Qed.

Lemma Ext_trans a b c : Ext a b -> Ext b c -> Ext a c.
Proof.
  intros (A1 & A2 & A3 & x & A4 & A5) (B1 & B2 & B3 & y & B4 & B5).
  split; [congruence|split; [congruence|split; [congruence|]]]. exists (x ++ y). split.
  - rewrite B4, A4. now rewrite app_assoc.
  - apply Forall_app; auto.
Qed.

Lemma run_op_ext e o : Ext e (run_op e o).
Proof.
  destruct o; cbn; unfold issue_send, issue_recv.
  - destruct (length (e_dyn e) <? e_D e); [eapply Ext_snoc|apply Ext_same]; reflexivity.
  - destruct ((length (e_dyn e) <? e_D e) && (e_nrecv e <? e_R e)); [eapply Ext_snoc|apply Ext_same]; reflexivity.
Qed.

Lemma run_ops_ext l : forall e, Ext e (run_ops e l).
Proof.
  induction l as [|o l IH]; intros e; cbn; [apply Ext_refl|].
  eapply Ext_trans; [apply run_op_ext|apply IH].
Qed.

Lemma push_posted_ext e e' : push_posted e = Some e' -> Ext e e'.
Proof.
  unfold push_posted. destruct (if e_nrecv e <? e_R e then e_recvq e else []) as [|n q].
  - destruct (e_sendq e) as [|n q]; [discriminate|]. intro H; inv H. eapply Ext_snoc; reflexivity.
  - intro H; inv H. eapply Ext_snoc; reflexivity.
Qed.

Lemma feed_ext f : forall e, Ext e (feed f e).
Proof.
  induction f as [|f IH]; intros e; cbn [feed]; [apply Ext_refl|].
  match goal with |- context[if ?c then _ else _] => destruct c end; [|apply Ext_refl].
  destruct (push_posted e) as [e'|] eqn:EP; [|apply Ext_refl].
  eapply Ext_trans; [apply push_posted_ext, EP|apply IH].
Qed.

Lemma Forall_set_nth {A} (Q : A -> Prop) k x l : Forall Q l -> Q x -> Forall Q (set_nth k x l).
Proof.
  revert k; induction l as [|y l IH]; intros [|k] Hl Hx; cbn; auto; inv Hl; constructor; auto.
Qed.

Lemma Forall_nth_d {A} (Q : A -> Prop) k d l : Forall Q l -> Q d -> Q (nth k l d).
Proof. revert k; induction l as [|y l IH]; intros [|k] Hl Hd; cbn; auto; inv Hl; auto. Qed.

Lemma dummy_ok : Wok dummy_w -> True. Proof. auto. Qed.

Lemma locate_nth_ok ws : Forall Wok ws -> forall pos k o, locate ws pos = Some (k, o) -> Wok (nth k ws dummy_w).
Proof.
  induction 1 as [|w ws Hw Hws IH]; intros pos k o EL; cbn [locate] in EL; [discriminate|].
  destruct (pos <? length (w_slots w)).
  - inv EL. cbn. auto.
  - destruct (locate ws (pos - length (w_slots w))) as [[k' o']|] eqn:E; [|discriminate].
    inv EL. cbn. eapply IH; eauto.
Qed.

Lemma serve_ws_ok e r : Forall Wok (e_ws e) -> Forall Wok (e_ws (serve e r)).
Proof.
  intros H. destruct r as [pos ops]. unfold serve.
  destruct (locate (e_ws e) pos) as [[k o]|] eqn:EL.
  - destruct (nth o (w_slots (nth k (e_ws e) dummy_w)) None) eqn:En; auto.
    cbn. rewrite (proj1 (run_ops_ext _ e)). apply Forall_set_nth; auto.
    apply release_ok.
    eapply locate_nth_ok; eauto.
  - destruct (nth (pos - static_sz e) (e_dyn e) None) as [[b n]|]; auto.
    rewrite (proj1 (run_ops_ext _ _)). cbn. auto.
Qed.

Definition EWin (e : eng) : Prop := Forall (fun w => Wok w /\ Wfull w) (e_ws e).

Theorem step_windows e x : EWin e -> EWin (step e x).
Proof.
  intros H. destruct x as [o|rep]; cbn [step].
  - unfold EWin. now rewrite (proj1 (run_op_ext e o)).
  - unfold EWin, progress_iter. rewrite (proj1 (feed_ext _ _)). cbn.
    assert (H1 : Forall Wok (e_ws (fold_left serve rep e))).
    { apply fold_left_inv with (P := fun e => Forall Wok (e_ws e)).
      - intros; now apply serve_ws_ok.
      - eapply Forall_impl; [|exact H]. now intros w []. }
    apply Forall_forall. intros w Hw. apply in_map_iff in Hw. destruct Hw as (w0 & <- & Hw0).
    rewrite Forall_forall in H1. destruct (refill_ok w0 (H1 _ Hw0)) as (A & B & _). auto.
Qed.

Theorem init_windows tags P T D R : 1 <= T -> T <= P -> EWin (init_eng tags P T D R).
Proof.
  intros. unfold EWin, init_eng; cbn. apply Forall_forall. intros w Hw.
  apply in_map_iff in Hw. destruct Hw as (t & <- & _). now apply init_w_ok.
Qed.
