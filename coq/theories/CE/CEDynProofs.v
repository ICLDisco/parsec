(* C14 — the dynamic region of the request array, its compaction, and the two pending FIFOs:
   every dynamic request ever issued is, at any time, exactly one of: in a slot, queued, completed. *)
From Coq Require Import List Arith Bool Lia Permutation Sorted.
From PV Require Import Base.Tac CE.CEDefs CE.CEAmProofs CE.CEWinProofs.
Import ListNotations.

Definition qids (e : eng) : list dreq := map (pair false) (e_sendq e) ++ map (pair true) (e_recvq e).
Definition dlive (e : eng) : list dreq := somes (e_dyn e) ++ qids e.
Definition allids (e : eng) : list dreq := map (pair false) (seq 0 (e_ns e)) ++ map (pair true) (seq 0 (e_nr e)).
Definition nrecvs (l : list dreq) : nat := length (filter (@fst bool nat) l).
Arguments nrecvs : simpl never.
Definition Dfull (e : eng) : Prop := Forall (fun s => s <> None) (e_dyn e).

(* done: the dynamic requests whose completion has been reported so far *)
Record DInv (e : eng) (done : list dreq) : Prop := {
  di_perm : Permutation (allids e) (dlive e ++ done);
  di_len : length (e_dyn e) <= e_D e;
  di_nrecv : e_nrecv e = nrecvs (somes (e_dyn e));
  di_lim : e_nrecv e <= e_R e
}.

Lemma nrecvs_app a b : nrecvs (a ++ b) = nrecvs a + nrecvs b.
Proof. unfold nrecvs. now rewrite filter_app, app_length. Qed.

Lemma nrecvs_snoc l d : nrecvs (somes (l ++ [Some d])) = nrecvs (somes l) + (if fst d then 1 else 0).
Proof. rewrite somes_app, nrecvs_app. unfold nrecvs. cbn. destruct (fst d); reflexivity. Qed.

Lemma nrecvs_perm a b : Permutation a b -> nrecvs a = nrecvs b.
Proof.
  unfold nrecvs. induction 1; cbn; auto.
  - destruct (fst x); cbn; auto.
  - destruct (fst x), (fst y); cbn; auto.
  - congruence.
Qed.

Definition dreq_dec (a b : dreq) : {a = b} + {a <> b}.
Proof. decide equality; [apply Nat.eq_dec|apply bool_dec]. Defined.

(* [permc] closes a Permutation goal over concatenations by counting: the goal and every Permutation
   hypothesis (each is consumed) become equations between the occurrence counts of an arbitrary request,
   the counts are split over ++, map and somes, the comparisons with that request are decided, and lia
   concludes.  A call rests on exactly the Permutation hypotheses in its context. *)
Ltac permc :=
  let zz := fresh "zz" in
  apply (Permutation_count_occ dreq_dec); intro zz;
  repeat match goal with H : Permutation _ _ |- _ =>
    let H' := fresh in pose proof (proj1 (Permutation_count_occ dreq_dec _ _) H zz) as H'; clear H end;
  repeat (rewrite ?count_occ_app, ?map_app, ?somes_app in *; cbn [count_occ map somes] in * );
  repeat match goal with
         | |- context[dreq_dec ?a ?b] => destruct (dreq_dec a b)
         | H : context[dreq_dec ?a ?b] |- _ => destruct (dreq_dec a b) end;
  try lia.

Lemma seq_snoc n : seq 0 (S n) = seq 0 n ++ [n].
Proof. rewrite seq_S. reflexivity. Qed.

(* a request moves into the free slot at the end of the region: a new one (allids grows by it)
   or one taken from a pending FIFO (qids shrinks by it) *)
Lemma install_inv e e' done d :
  DInv e done -> length (e_dyn e) < e_D e -> (fst d = true -> e_nrecv e < e_R e) ->
  e_dyn e' = e_dyn e ++ [Some d] -> e_D e' = e_D e -> e_R e' = e_R e ->
  e_nrecv e' = e_nrecv e + (if fst d then 1 else 0) ->
  Permutation (allids e' ++ qids e) (allids e ++ d :: qids e') ->
  DInv e' done.
Proof.
  intros [Hp Hl Hn Hm] Hlt Hd Edyn ED ER En Hq. constructor.
  - unfold dlive in *. rewrite Edyn. permc.
  - rewrite Edyn, ED, app_length. cbn. lia.
  - rewrite Edyn, nrecvs_snoc. lia.
  - rewrite ER, En. destruct (fst d); [specialize (Hd eq_refl)|]; lia.
Qed.

Lemma issue_send_inv e done : DInv e done -> DInv (issue_send e) done.
Proof.
  intros I. unfold issue_send.
  destruct (length (e_dyn e) <? e_D e) eqn:E.
  - apply Nat.ltb_lt in E. apply (install_inv e _ done (false, e_ns e) I); auto; [discriminate|].
    unfold allids, qids; cbn -[seq]. rewrite seq_snoc. permc.
  - destruct I as [Hp Hl Hn Hm]. constructor; auto.
    unfold allids, dlive, qids in *; cbn -[seq]. rewrite seq_snoc. permc.
Qed.

Lemma issue_recv_inv e done : DInv e done -> DInv (issue_recv e) done.
Proof.
  intros I. unfold issue_recv.
  destruct ((length (e_dyn e) <? e_D e) && (e_nrecv e <? e_R e)) eqn:E.
  - apply andb_prop in E. destruct E as [E1 E2]. apply Nat.ltb_lt in E1, E2.
    apply (install_inv e _ done (true, e_nr e) I); cbn -[seq]; auto; [lia|].
    unfold allids, qids; cbn -[seq]. rewrite seq_snoc. permc.
  - destruct I as [Hp Hl Hn Hm]. constructor; auto.
    unfold allids, dlive, qids in *; cbn -[seq]. rewrite seq_snoc. permc.
Qed.

Lemma run_op_inv e o done : DInv e done -> DInv (run_op e o) done.
Proof. destruct o; [apply issue_send_inv|apply issue_recv_inv]. Qed.

Lemma run_ops_inv l e done : DInv e done -> DInv (run_ops e l) done.
Proof. apply (fold_left_inv run_op (fun e => DInv e done)). intros; now apply run_op_inv. Qed.

(* mpi_funnelled_static_req_idx as a function of the windows *)
Definition width (ws : list tagw) : nat := fold_right (fun w a => length (w_slots w) + a) 0 ws.

Lemma static_width e : static_sz e = width (e_ws e).
Proof. reflexivity. Qed.

Lemma locate_spec ws : forall pos,
  match locate ws pos with Some _ => pos < width ws | None => width ws <= pos end.
Proof.
  induction ws as [|w ws IH]; intros pos; cbn [locate width fold_right]; [lia|].
  destruct (pos <? length (w_slots w)) eqn:E.
  - apply Nat.ltb_lt in E. lia.
  - apply Nat.ltb_ge in E. specialize (IH (pos - length (w_slots w))). fold (width ws).
    destruct (locate ws (pos - length (w_slots w))) as [[k o]|]; lia.
Qed.

Lemma release_len w o : length (w_slots (release_w w o)) = length (w_slots w).
Proof. unfold release_w. destruct (nth o (w_slots w) None); cbn; auto. apply set_nth_length. Qed.

Lemma width_set_nth ws : forall k x,
  length (w_slots x) = length (w_slots (nth k ws dummy_w)) -> width (set_nth k x ws) = width ws.
Proof.
  induction ws as [|w ws IH]; intros [|k] x H; cbn in *; auto.
Qed.

Lemma width_map_refill ws : width (map refill_w ws) = width ws.
Proof. induction ws as [|w ws IH]; cbn; auto. fold (width ws) (width (map refill_w ws)). now rewrite refill_len, IH. Qed.

Lemma somes_set_None {A} j (l : list (option A)) x :
  nth j l None = Some x -> Permutation (somes l) (x :: somes (set_nth j None l)).
Proof.
  intro H. destruct (nth_split_set _ _ _ H) as (a & b & -> & ->).
  rewrite !somes_app. cbn. symmetry. apply Permutation_middle.
Qed.

(* the state while the callbacks of one Testsome call run: st = static size, dyn0 = dynamic
   region and D = its capacity at the call, S = positions served so far *)
Record Mid (st : nat) (dyn0 : list (option dreq)) (D : nat) (e : eng) (S : list nat) (done : list dreq) : Prop := {
  mi_static : static_sz e = st;
  mi_D : e_D e = D;
  mi_len : length dyn0 <= length (e_dyn e);
  mi_served : forall j, j < length dyn0 -> In (st + j) S -> nth j (e_dyn e) None = None;
  mi_kept : forall j, j < length dyn0 -> ~ In (st + j) S -> nth j (e_dyn e) None = nth j dyn0 None;
  mi_new : forall j, length dyn0 <= j < length (e_dyn e) -> nth j (e_dyn e) None <> None;
  mi_inv : DInv e done
}.

Lemma Mid_ext st dyn0 D e e' S done :
  Mid st dyn0 D e S done -> Ext e e' -> DInv e' done -> Mid st dyn0 D e' S done.
Proof.
  intros [Ms MD Ml Mse Mk Mn Mi] (Xw & XD & XR & app & Xd & Xa) I.
  constructor; auto.
  - now rewrite static_width, Xw.
  - congruence.
  - rewrite Xd, app_length. lia.
  - intros j Hj Hin. rewrite Xd, app_nth1 by lia. auto.
  - intros j Hj Hin. rewrite Xd, app_nth1 by lia. auto.
  - intros j Hj. rewrite Xd in *. rewrite app_length in Hj.
    destruct (lt_dec j (length (e_dyn e))).
    + rewrite app_nth1 by lia. apply Mn. lia.
    + rewrite app_nth2 by lia. rewrite Forall_forall in Xa. apply Xa. apply nth_In. lia.
Qed.

(* a position before the dynamic region says nothing about it *)
Lemma Mid_skip st dyn0 D e S done p :
  p < st -> Mid st dyn0 D e S done -> Mid st dyn0 D e (S ++ [p]) done.
Proof.
  intros Hp [Ms MD Ml Mse Mk Mn Mi]. constructor; auto.
  - intros j Hj Hin. apply Mse; auto. apply in_app_or in Hin. destruct Hin as [Hin|[Hin|[]]]; [auto|lia].
  - intros j Hj Hin. apply Mk; auto. intro; apply Hin, in_or_app; auto.
Qed.

(* replacing a window by one of the same size moves nothing *)
Lemma Mid_window st dyn0 D e S done k x :
  length (w_slots x) = length (w_slots (nth k (e_ws e) dummy_w)) ->
  Mid st dyn0 D e S done -> Mid st dyn0 D (with_ws e (set_nth k x (e_ws e))) S done.
Proof.
  intros Hx [Ms MD Ml Mse Mk Mn Mi]. constructor; auto.
  - rewrite static_width. cbn. now rewrite width_set_nth.
  - destruct Mi; constructor; auto.
Qed.

Definition dynreq (st : nat) (dyn0 : list (option dreq)) (p : nat) : list dreq :=
  if st <=? p then match nth (p - st) dyn0 None with Some d => [d] | None => [] end else [].

Lemma serve_mid st dyn0 D e S done p ops :
  Mid st dyn0 D e S done -> ~ In p S -> p < st + length dyn0 ->
  Forall (fun s => s <> None) dyn0 ->
  Mid st dyn0 D (serve e (p, ops)) (S ++ [p]) (done ++ dynreq st dyn0 p).
Proof.
  intros M Hp Hlt Hfull. pose proof M as [Ms MD Ml Mse Mk Mn Mi].
  unfold serve, dynreq. pose proof (locate_spec (e_ws e) p) as HL. rewrite <- static_width, Ms in HL.
  destruct (locate (e_ws e) p) as [[k o]|] eqn:EL.
  - (* an AM slot: its callback may issue requests, then the slot is released *)
    destruct (Nat.leb_spec st p); [lia|]. rewrite app_nil_r. apply Mid_skip; [exact HL|].
    destruct (nth o (w_slots (nth k (e_ws e) dummy_w)) None); [|exact M].
    set (e1 := run_ops e _).
    assert (X1 : Ext e e1) by apply run_ops_ext.
    apply Mid_window.
    + rewrite release_len. now rewrite (proj1 X1).
    + eapply Mid_ext; [exact M|exact X1|now apply run_ops_inv].
  - (* a dynamic slot: emptied, counted as completed, then its callback runs *)
    destruct (Nat.leb_spec st p); [|lia]. rewrite Ms. set (j := p - st).
    assert (Hj : j < length dyn0) by (unfold j; lia).
    assert (Hpj : p = st + j) by (unfold j; lia).
    assert (Ekept : nth j (e_dyn e) None = nth j dyn0 None) by (apply Mk; auto; now rewrite <- Hpj).
    assert (Hsome : nth j dyn0 None <> None) by (rewrite Forall_forall in Hfull; apply Hfull, nth_In; lia).
    rewrite Ekept. destruct (nth j dyn0 None) as [[b n]|] eqn:E0; [|congruence].
    set (e1 := with_dyn e (set_nth j None (e_dyn e)) (if b then e_nrecv e - 1 else e_nrecv e)).
    pose proof (somes_set_None j (e_dyn e) (b, n) Ekept) as Hset.
    assert (I1 : DInv e1 (done ++ [(b, n)])).
    { destruct Mi as [Hp' Hl' Hn' Hm']. unfold e1. constructor; cbn -[seq].
      - (* from Hp' and Hset *)
        unfold allids, dlive, qids in *; cbn -[seq]. permc.
      - now rewrite set_nth_length.
      - rewrite Hn', (nrecvs_perm _ _ Hset).
        unfold nrecvs. cbn. destruct b; cbn; lia.
      - destruct b; lia. }
    assert (M1 : Mid st dyn0 D e1 (S ++ [p]) (done ++ [(b, n)])).
    { unfold e1. constructor; cbn; auto.
      - rewrite set_nth_length. auto.
      - intros i Hi Hin. destruct (Nat.eq_dec i j) as [->|Hne].
        + apply nth_set_nth_eq. lia.
        + rewrite nth_set_nth_neq by auto. apply Mse; auto.
          apply in_app_or in Hin. destruct Hin as [Hin|[Hin|[]]]; auto. lia.
      - intros i Hi Hin. destruct (Nat.eq_dec i j) as [->|Hne].
        + exfalso. apply Hin. apply in_or_app. right. left. lia.
        + rewrite nth_set_nth_neq by auto. apply Mk; auto. intro; apply Hin. apply in_or_app; auto.
      - intros i Hi. rewrite set_nth_length in Hi. rewrite nth_set_nth_neq by lia. apply Mn. lia. }
    eapply Mid_ext; [exact M1|apply run_ops_ext|now apply run_ops_inv].
Qed.

Lemma somes_set_Some {A} (l : list (option A)) : forall j x,
  j < length l -> nth j l None = None -> Permutation (somes (set_nth j (Some x) l)) (x :: somes l).
Proof.
  induction l as [|y l IH]; intros [|j] x Hj Hn; cbn in *; try lia.
  - subst y. reflexivity.
  - destruct y as [y|]; cbn.
    + rewrite (IH j x) by (auto; lia). apply perm_swap.
    + apply IH; auto; lia.
Qed.

(* one step, on an offset j that holds None while everything after it is Some *)
Lemma compact1_spec st (d : list (option dreq)) p :
  st <= p -> p - st < length d -> nth (p - st) d None = None ->
  (forall i, p - st < i < length d -> nth i d None <> None) ->
  let d' := compact1 st d p in
  length d' = length d - 1 /\ Permutation (somes d') (somes d) /\
  (forall i, i < p - st -> nth i d' None = nth i d None) /\
  (forall i, p - st <= i < length d' -> nth i d' None <> None).
Proof.
  intros Hst Hj Hn Hafter. unfold compact1. cbv zeta.
  destruct (Nat.ltb_spec p st); [lia|]. set (j := p - st) in *. rewrite Hn.
  destruct (exists_last (l := d)) as (d0 & x & ->); [intros ->; cbn in Hj; lia|].
  rewrite removelast_last, somes_app. rewrite app_length in *. cbn [length] in *.
  replace (length d0 + 1 - 1) with (length d0) by lia. rewrite nth_middle.
  destruct (Nat.ltb_spec j (length d0)) as [E2|E2].
  - (* the last entry moves into the hole *)
    assert (Hx : x <> None) by (rewrite <- (nth_middle d0 [] x None); apply Hafter; lia).
    destruct x as [x|]; [|congruence].
    rewrite app_nth1 in Hn by lia.
    repeat split.
    + rewrite set_nth_length. lia.
    + rewrite (somes_set_Some d0 j x) by auto. cbn. apply Permutation_cons_append.
    + intros i Hi. rewrite nth_set_nth_neq by lia. now rewrite app_nth1 by lia.
    + intros i Hi. rewrite set_nth_length in Hi. destruct (Nat.eq_dec i j) as [->|Hne2].
      * rewrite nth_set_nth_eq by lia. discriminate.
      * rewrite nth_set_nth_neq by auto. rewrite <- (app_nth1 d0 [Some x]) by lia. apply Hafter. lia.
  - (* the hole is the last entry *)
    replace j with (length d0) in Hn by lia. rewrite nth_middle in Hn. subst x.
    split; [reflexivity|split; [cbn; now rewrite app_nil_r|split]].
    + intros i Hi. now rewrite app_nth1 by lia.
    + intros i Hi. lia.
Qed.

(* all reported positions, visited from the largest to the smallest *)
Lemma compact_all st : forall (ps : list nat) (d : list (option dreq)),
  StronglySorted gt ps ->
  (forall p, In p ps -> st <= p -> p - st < length d /\ nth (p - st) d None = None) ->
  (forall i, i < length d -> nth i d None = None -> In (st + i) ps) ->
  let d' := fold_left (compact1 st) ps d in
  Forall (fun s => s <> None) d' /\ Permutation (somes d') (somes d) /\ length d' <= length d.
Proof.
  induction ps as [|p ps IH]; intros d Hs Hin Hnone; cbn [fold_left].
  - repeat split; auto. apply Forall_forall. intros x Hx Ex. subst x.
    apply In_nth with (d := None) in Hx. destruct Hx as (i & Hi & Ei). exact (Hnone i Hi Ei).
  - inv Hs.
    destruct (le_lt_dec st p) as [Hle|Hlt].
    + destruct (Hin p (or_introl eq_refl) Hle) as (Hj & Hn).
      assert (Hafter : forall i, p - st < i < length d -> nth i d None <> None).
      { intros i Hi Ei. apply Hnone in Ei; [|lia]. destruct Ei as [Ei|Ei]; [lia|].
        rewrite Forall_forall in H2. apply H2 in Ei. lia. }
      destruct (compact1_spec st d p Hle Hj Hn Hafter) as (L1 & P1 & K1 & A1).
      destruct (IH (compact1 st d p) H1) as (F2 & P2 & L2).
      * intros q Hq Hqs. rewrite Forall_forall in H2. pose proof (H2 _ Hq) as Hgt.
        destruct (Hin q (or_intror Hq) Hqs) as (Hqj & Hqn).
        split; [lia|]. rewrite K1 by lia. exact Hqn.
      * intros i Hi Ei. destruct (lt_dec i (p - st)) as [Hlt|Hge].
        -- rewrite K1 in Ei by lia. apply Hnone in Ei; [|lia]. destruct Ei as [Ei|Ei]; [lia|auto].
        -- exfalso. apply (A1 i); [lia|auto].
      * repeat split; auto; [etransitivity; eauto|lia].
    + (* an AM position: untouched *)
      assert (Ec : compact1 st d p = d) by (unfold compact1; destruct (p <? st) eqn:E; auto; apply Nat.ltb_ge in E; lia).
      rewrite Ec. apply IH; auto.
      * intros q Hq Hqs. apply Hin; auto. now right.
      * intros i Hi Ei. apply Hnone in Ei; auto. destruct Ei as [Ei|Ei]; [lia|auto].
Qed.

Lemma Dfull_ext e e' : Ext e e' -> Dfull e -> Dfull e'.
Proof.
  intros (_ & _ & _ & app & E & Fa) F. unfold Dfull. rewrite E. apply Forall_app. auto.
Qed.

Lemma push_posted_inv e e' done : DInv e done -> length (e_dyn e) < e_D e -> push_posted e = Some e' ->
  DInv e' done /\ length (e_sendq e') + length (e_recvq e') < length (e_sendq e) + length (e_recvq e).
Proof.
  intros I Hlt. unfold push_posted.
  destruct (if e_nrecv e <? e_R e then e_recvq e else []) as [|n q] eqn:Eq.
  - destruct (e_sendq e) as [|n q] eqn:Es; [discriminate|]. intro H; inv H. split; [|cbn; lia].
    apply (install_inv e _ done (false, n) I); auto; [discriminate|].
    unfold allids, qids; cbn -[seq]. rewrite Es. permc.
  - destruct (e_nrecv e <? e_R e) eqn:E; [|discriminate]. apply Nat.ltb_lt in E.
    intro H; inv H. cbn. rewrite Eq. split; [|cbn; lia].
    apply (install_inv e _ done (true, n) I); cbn; auto; [lia|].
    unfold allids, qids; cbn -[seq]. rewrite Eq. permc.
Qed.

Definition settled (e : eng) : Prop :=
  length (e_dyn e) < e_D e -> e_sendq e = [] /\ (e_recvq e = [] \/ e_R e <= e_nrecv e).

Lemma feed_inv fuel : forall e done,
  DInv e done -> length (e_sendq e) + length (e_recvq e) <= fuel ->
  let e' := feed fuel e in DInv e' done /\ settled e'.
Proof.
  induction fuel as [|f IH]; intros e done I Hq; cbn [feed].
  - split; [auto|]. intros _.
    destruct (e_sendq e), (e_recvq e); cbn in Hq; auto; lia.
  - destruct (length (e_dyn e) <? e_D e) eqn:E1; cbn [andb].
    + apply Nat.ltb_lt in E1.
      destruct (negb match e_sendq e with [] => true | _ :: _ => false end
                || negb match e_recvq e with [] => true | _ :: _ => false end) eqn:E2.
      * destruct (push_posted e) as [e'|] eqn:EP.
        -- destruct (push_posted_inv e e' done I E1 EP) as (I' & Q'). apply IH; [auto|lia].
        -- split; [auto|]. intros _. unfold push_posted in EP.
           destruct (e_nrecv e <? e_R e) eqn:E3.
           ++ destruct (e_recvq e); [|discriminate]. destruct (e_sendq e); [|discriminate]. auto.
           ++ apply Nat.ltb_ge in E3. destruct (e_sendq e); [|discriminate]. auto.
      * split; [auto|]. intros _.
        destruct (e_sendq e), (e_recvq e); cbn in E2; try discriminate. auto.
    + apply Nat.ltb_ge in E1. split; [auto|]. intro; lia.
Qed.

Definition valid_report (e : eng) (rep : list (nat * list op)) : Prop :=
  StronglySorted lt (map fst rep) /\ Forall (fun p => p < last_active e) (map fst rep).

Definition completed (e : eng) (rep : list (nat * list op)) : list dreq :=
  flat_map (dynreq (static_sz e) (e_dyn e)) (map fst rep).

Lemma serve_fold st dyn0 D : forall rep e S done,
  Mid st dyn0 D e S done -> Forall (fun s => s <> None) dyn0 ->
  StronglySorted lt (map fst rep) ->
  Forall (fun p => p < st + length dyn0) (map fst rep) ->
  (forall p, In p (map fst rep) -> ~ In p S) ->
  Mid st dyn0 D (fold_left serve rep e) (S ++ map fst rep) (done ++ flat_map (dynreq st dyn0) (map fst rep)).
Proof.
  induction rep as [|[p ops] rep IH]; intros e S done M F Hs Hb Hn; cbn [fold_left map flat_map fst].
  - now rewrite !app_nil_r.
  - cbn in Hs, Hb. inv Hs. inv Hb.
    assert (M1 := serve_mid st dyn0 D e S done p ops M (Hn p (or_introl eq_refl)) H3 F).
    specialize (IH _ _ _ M1 F H1 H4).
    replace (S ++ p :: map fst rep) with ((S ++ [p]) ++ map fst rep) by now rewrite <- app_assoc.
    rewrite app_assoc. apply IH.
    intros q Hq Hin. apply in_app_or in Hin. destruct Hin as [Hin|[Hin|[]]].
    + apply (Hn q); auto. now right.
    + subst q. rewrite Forall_forall in H2. apply H2 in Hq. lia.
Qed.

Lemma StronglySorted_gt_snoc x : forall a,
  StronglySorted gt a -> Forall (fun y => x < y) a -> StronglySorted gt (a ++ [x]).
Proof.
  induction 1 as [|y a Hs IHa Hfa]; intros Hall; cbn; [repeat constructor|].
  inv Hall. constructor; auto. apply Forall_app. split; auto.
Qed.

Lemma StronglySorted_rev_gt l : StronglySorted lt l -> StronglySorted gt (rev l).
Proof.
  induction 1 as [|x l Hs IH Hf]; cbn; [constructor|].
  apply StronglySorted_gt_snoc; auto. apply Forall_forall. intros y Hy. apply in_rev in Hy.
  rewrite Forall_forall in Hf. now apply Hf.
Qed.

(* the four phases of the pass: callbacks, window refill, compaction, FIFO drain *)
Lemma progress_iter_inv e rep done :
  DInv e done -> Dfull e -> valid_report e rep ->
  let e' := progress_iter e rep in
  DInv e' (done ++ completed e rep) /\ Dfull e' /\ settled e' /\ e_D e' = e_D e.
Proof.
  intros I F (Hs & Hb). cbv zeta.
  set (st := static_sz e). set (dyn0 := e_dyn e).
  assert (M0 : Mid st dyn0 (e_D e) e [] done).
  { constructor; auto; try lia.
    - intros j Hj [].
    - intros j Hj. unfold dyn0 in Hj. lia. }
  assert (Hb' : Forall (fun p => p < st + length dyn0) (map fst rep)) by exact Hb.
  pose proof (serve_fold st dyn0 (e_D e) rep e [] done M0 F Hs Hb' (fun _ _ H => H)) as M1. cbn in M1.
  unfold progress_iter.
  set (e1 := fold_left serve rep e) in *.
  destruct M1 as [Ms MD Ml Mse Mk Mn Mi].
  set (e2 := with_ws e1 (map refill_w (e_ws e1))).
  assert (Hst2 : static_sz e2 = st) by (rewrite static_width; cbn; now rewrite width_map_refill).
  rewrite Hst2.
  destruct (compact_all st (rev (map fst rep)) (e_dyn e1)) as (CF & CP & CL).
  { now apply StronglySorted_rev_gt. }
  { intros p Hp Hle. apply in_rev in Hp. rewrite Forall_forall in Hb'. pose proof (Hb' _ Hp).
    split; [lia|]. apply Mse; [lia|]. replace (st + (p - st)) with p by lia. exact Hp. }
  { intros i Hi Ei. apply in_rev. rewrite rev_involutive.
    destruct (lt_dec i (length dyn0)) as [Hlt|Hge].
    - destruct (in_dec Nat.eq_dec (st + i) (map fst rep)) as [Hin|Hnin]; auto.
      exfalso. rewrite Mk in Ei by auto. unfold Dfull in F. rewrite Forall_forall in F. apply (F None); auto.
      rewrite <- Ei. apply nth_In. exact Hlt.
    - exfalso. apply (Mn i); [lia|auto]. }
  set (d3 := fold_left (compact1 st) (rev (map fst rep)) (e_dyn e1)) in *.
  set (e3 := with_dyn e2 d3 (e_nrecv e2)).
  assert (I3 : DInv e3 (done ++ completed e rep)).
  { destruct Mi as [Hp Hl Hn Hm]. unfold e3, e2. constructor; cbn -[seq].
    - (* from Hp, the invariant after the callbacks, and CP, compaction keeps the requests *)
      unfold allids, dlive, qids in *; cbn -[seq]. unfold completed. fold st dyn0. permc.
    - lia.
    - rewrite Hn. apply nrecvs_perm. now symmetry.
    - exact Hm. }
  destruct (feed_inv (length (e_sendq e3) + length (e_recvq e3)) e3 _ I3 (le_n _)) as (A & S).
  pose proof (feed_ext (length (e_sendq e3) + length (e_recvq e3)) e3) as X.
  split; [exact A|split; [exact (Dfull_ext _ _ X CF)|split; [exact S|]]].
  destruct X as (_ & XD & _). exact (eq_trans XD MD).
Qed.

Fixpoint valid_run (e : eng) (l : list ev) : Prop :=
  match l with
  | [] => True
  | EvOp o :: r => valid_run (run_op e o) r
  | EvTest rep :: r => valid_report e rep /\ valid_run (progress_iter e rep) r
  end.

Fixpoint done_run (e : eng) (l : list ev) : list dreq :=
  match l with
  | [] => []
  | EvOp o :: r => done_run (run_op e o) r
  | EvTest rep :: r => completed e rep ++ done_run (progress_iter e rep) r
  end.

Theorem run_dyn l : forall e done,
  DInv e done -> Dfull e -> valid_run e l ->
  DInv (fold_left step l e) (done ++ done_run e l) /\ Dfull (fold_left step l e) /\
  e_D (fold_left step l e) = e_D e.
Proof.
  induction l as [|[o|rep] l IH]; intros e done I F V; cbn [fold_left step valid_run done_run] in *.
  - now rewrite app_nil_r.
  - pose proof (run_op_ext e o) as X.
    rewrite <- (proj1 (proj2 X)). apply IH; auto; [now apply run_op_inv|eapply Dfull_ext; eauto].
  - destruct V as [V1 V2]. destruct (progress_iter_inv e rep done I F V1) as (I1 & F1 & _ & <-).
    rewrite app_assoc. apply IH; auto.
Qed.

Lemma init_dyn tags P T D R : DInv (init_eng tags P T D R) [] /\ Dfull (init_eng tags P T D R).
Proof.
  split; [constructor; cbn; auto; try lia; constructor|constructor].
Qed.
