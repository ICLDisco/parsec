(* C14 — next_tag(k): the tags of the data messages stay in [0, MAX_MPI_TAG] and, counted from the
   initial value 0 of __VAL_NEXT_TAG, any floor(MAX_MPI_TAG / k) consecutive allocations are disjoint. *)
From Coq Require Import List ZArith Lia.
From PV Require Import Base.Tac CE.CEDefs CE.CEAmProofs.
Import ListNotations.
Local Open Scope Z_scope.

Lemma next_tag_step MAX k v :
  1 <= k <= MAX -> 0 <= v <= MAX ->
  0 <= fst (next_tag MAX k v) /\ fst (next_tag MAX k v) + k <= MAX /\
  snd (next_tag MAX k v) = fst (next_tag MAX k v) + k /\ 0 <= snd (next_tag MAX k v) <= MAX.
Proof.
  intros Hk Hv. unfold next_tag. cbn. destruct (Z.gtb_spec v (MAX - k)); lia.
Qed.

(* closed form: r allocations since the last roll-over, __VAL_NEXT_TAG = r * k *)
Lemma tags_closed MAX k n : forall r,
  1 <= k <= MAX -> 0 <= r <= MAX / k ->
  tags_from MAX k (r * k) n = map (fun i => ((r + Z.of_nat i) mod (MAX / k)) * k) (seq 0 n).
Proof.
  set (m := MAX / k).
  induction n as [|n IH]; intros r Hk Hr; cbn [tags_from]; [reflexivity|].
  assert (Hm : 1 <= m) by (apply Z.div_le_lower_bound; lia).
  assert (Hdm : MAX = k * m + MAX mod k) by (apply Z.div_mod; lia).
  assert (Hrem : 0 <= MAX mod k < k) by (apply Z.mod_pos_bound; lia).
  unfold next_tag.
  destruct (Z.gtb_spec (r * k) (MAX - k)) as [Hgt|Hle].
  - (* roll-over: r = m *)
    assert (r = m) by nia. subst r.
    cbn [seq map]. rewrite Z.add_0_r, Z_mod_same_full. f_equal.
    replace (0 + k) with (1 * k) by lia. rewrite IH by lia.
    rewrite <- seq_shift, map_map. apply map_ext. intros i.
    f_equal. replace (m + Z.of_nat (S i)) with (1 + Z.of_nat i + 1 * m) by lia.
    now rewrite Z_mod_plus_full.
  - assert (r < m) by nia.
    cbn [seq map]. rewrite Z.add_0_r, Z.mod_small by lia. f_equal.
    replace (r * k + k) with ((r + 1) * k) by lia. rewrite IH by lia.
    rewrite <- seq_shift, map_map. apply map_ext. intros i.
    f_equal. f_equal. lia.
Qed.

Lemma mod_differ m a b : 0 < m -> a < b < a + m -> a mod m <> b mod m.
Proof.
  intros Hm Hab E.
  assert (H : (b - a) mod m = 0) by (rewrite Zminus_mod, E, Z.sub_diag; apply Z.mod_0_l; lia).
  rewrite Z.mod_small in H by lia. lia.
Qed.

Theorem tags_distinct MAX k n i j :
  1 <= k <= MAX -> (i < j < n)%nat -> Z.of_nat j - Z.of_nat i < MAX / k ->
  let ts := tags_from MAX k 0 n in
  nth i ts 0 + k <= nth j ts 0 \/ nth j ts 0 + k <= nth i ts 0.
Proof.
  intros Hk Hij Hd. cbn.
  assert (Hm : 1 <= MAX / k) by (apply Z.div_le_lower_bound; lia).
  pose proof (tags_closed MAX k n 0) as Hc. rewrite Z.mul_0_l in Hc. rewrite Hc by lia. clear Hc.
  rewrite !nth_map_seq by lia. rewrite !Z.add_0_l.
  assert (Hxy : Z.of_nat i mod (MAX / k) <> Z.of_nat j mod (MAX / k)) by (apply mod_differ; lia).
  set (x := Z.of_nat i mod (MAX / k)) in *. set (y := Z.of_nat j mod (MAX / k)) in *.
  (* distinct multiples of k lie at least k apart *)
  clearbody x y. clear - Hk Hxy. destruct (Z_lt_ge_dec x y); [left|right]; nia.
Qed.
