(* C14 — the pool rotation of mpi_funnelled_refill_am_requests is fair: a posted receive that is
   outside the tested window is brought into it after at most req_count further picks, whatever
   the order in which the receives of the window complete. *)
From Coq Require Import List Arith Bool Lia Permutation.
From PV Require Import Base.Tac CE.CEDefs CE.CEAmProofs CE.CEWinProofs.
Import ListNotations.

(* receive i sits d steps ahead of the cursor *)
Definition Ahead (w : tagw) (i d : nat) : Prop := d < w_P w /\ (w_ridx w + d) mod w_P w = i.

Definition free (w : tagw) (i : nat) : Prop := nth i (w_ints w) false = false.

(* one pick either takes i or brings the cursor closer to it: the scan stops at the first free
   entry, so at i or before it *)
Lemma pick_progress w i d :
  Wok w -> free w i -> Ahead w i d ->
  In i (somes (w_slots (pick w))) \/ (free (pick w) i /\ exists d', Ahead (pick w) i d' /\ d' + 1 <= d).
Proof.
  intros (_ & _ & Hr & _) Hf (Hd & Ei).
  destruct (find_free_min (w_ints w) (w_P w) (w_P w) (w_ridx w) d) as (j & Hj & Er & _);
    [lia|auto|auto|now rewrite Ei|].
  unfold pick, free, Ahead. set (r := find_free (w_ints w) (w_P w) (w_ridx w) (w_P w)) in *. cbn.
  destruct (Nat.eq_dec r i) as [Eri|Hne].
  - left. rewrite somes_app, in_app_iff. cbn. auto.
  - right. split; [now rewrite nth_set_nth_neq|].
    assert (j <> d) by (intros ->; congruence).
    exists (d - j - 1). split; [split; [lia|]|lia].
    rewrite Nat.add_mod_idemp_l by lia. replace (r + 1 + (d - j - 1)) with (r + (d - j)) by lia.
    rewrite Er, Nat.add_mod_idemp_l by lia. rewrite <- Ei. f_equal. lia.
Qed.

Lemma fill_progress n : forall w i d,
  Wok w -> length (w_slots w) + n <= w_P w -> free w i -> Ahead w i d ->
  In i (somes (w_slots (fill n w))) \/
  (free (fill n w) i /\ exists d', Ahead (fill n w) i d' /\ d' + n <= d).
Proof.
  induction n as [|n IH]; intros w i d Hw Hlen Hf Ha.
  - right. split; auto. exists d. split; [auto|lia].
  - rewrite fill_S. destruct (pick_progress w i d Hw Hf Ha) as [Hin|(Hf1 & d1 & Ha1 & Hle1)].
    + left. destruct (fill_shape n (pick w)) as (_ & _ & picks & _ & ->).
      rewrite somes_app. apply in_or_app. auto.
    + destruct (IH (pick w) i d1) as [Hin|(Hfr & d' & Ha' & Hle)]; auto.
      * apply pick_ok; [auto|lia].
      * cbn. rewrite app_length. cbn. lia.
      * right. split; auto. exists d'. split; auto. lia.
Qed.

(* a whole refill: k = number of empty slots of the window *)
Definition holes (w : tagw) : nat := length (w_slots w) - length (somes (w_slots w)).

Lemma refill_progress w i d :
  Wok w -> free w i -> Ahead w i d ->
  In i (somes (w_slots (refill_w w))) \/
  (free (refill_w w) i /\ exists d', Ahead (refill_w w) i d' /\ d' + holes w <= d).
Proof.
  intros Hw Hf Ha. rewrite refill_pack. unfold holes.
  apply (fill_progress _ (pack w) i d (pack_ok w Hw)); auto.
  destruct Hw as (_ & Hsl & _). cbn. rewrite map_length. pose proof (somes_length_le (w_slots w)). lia.
Qed.

(* serving a slot neither moves the cursor nor takes i *)
Lemma release_keeps w o i d : free w i -> Ahead w i d -> free (release_w w o) i /\ Ahead (release_w w o) i d.
Proof.
  intros Hf Ha. unfold release_w. destruct (nth o (w_slots w) None) as [x|]; auto.
  unfold free, Ahead in *; cbn. split; auto.
  destruct (Nat.eq_dec x i) as [->|Hne].
  - destruct (le_lt_dec (length (w_ints w)) i).
    + rewrite nth_overflow; auto. now rewrite set_nth_length.
    + now apply nth_set_nth_eq.
  - now rewrite nth_set_nth_neq.
Qed.

(* the life of one tag's window: callbacks (any slot, any order), then a refill *)
Inductive wop := WServe (o : nat) | WRefill.
Definition wstep (w : tagw) (x : wop) : tagw :=
  match x with WServe o => release_w w o | WRefill => refill_w w end.

Fixpoint ever_in (i : nat) (w : tagw) (l : list wop) : Prop :=
  In i (somes (w_slots w)) \/ match l with [] => False | x :: r => ever_in i (wstep w x) r end.

(* number of pool entries moved into the window along a history *)
Fixpoint picks (w : tagw) (l : list wop) : nat :=
  match l with
  | [] => 0
  | WServe o :: r => picks (release_w w o) r
  | WRefill :: r => holes w + picks (refill_w w) r
  end.

Lemma wstep_ok w x : Wok w -> Wok (wstep w x).
Proof. destruct x; cbn; [apply release_ok|intro H; apply (refill_ok w H)]. Qed.

Theorem window_fair l : forall w i d,
  Wok w -> free w i -> Ahead w i d -> d < picks w l -> ever_in i w l.
Proof.
  induction l as [|[o|] l IH]; intros w i d Hw Hf Ha Hp; cbn [picks] in Hp; [lia| |].
  - cbn [ever_in wstep]. right.
    destruct (release_keeps w o i d Hf Ha) as (Hf' & Ha').
    eapply IH; eauto. now apply release_ok.
  - cbn [ever_in wstep]. right.
    destruct (refill_progress w i d Hw Hf Ha) as [Hin|(Hf' & d' & Ha' & Hle)].
    + destruct l; cbn; auto.
    + eapply (IH (refill_w w) i d'); eauto; [apply (refill_ok w Hw)|lia].
Qed.

(* every entry of the pool is at most req_count - 1 steps ahead of the cursor *)
Lemma ahead_exists w i : Wok w -> i < w_P w -> exists d, Ahead w i d.
Proof.
  intros (_ & _ & Hr & _) Hi. destruct (cyclic_cover (w_P w) (w_ridx w) i Hr Hi) as (j & Hj & Ej).
  exists j. split; auto.
Qed.

