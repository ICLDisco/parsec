(* Byte-level lemmas for the trace-format model: little-endian integers,
   prefixes/suffixes of known length, C strings, the offset map. *)
From PV Require Import Base.Tac Base.ListX Prof.ProfDefs.
From Coq Require Import NArith.
Local Open Scope N_scope.

Lemma length_le : forall k n, length (le k n) = k.
Proof. induction k as [|k IH]; intros n; cbn [le length]; auto. Qed.

Lemma unle_le : forall k n, n < 256 ^ N.of_nat k -> unle (le k n) = n.
Proof.
  induction k as [|k IH]; intros n Hn.
  - cbn in *. lia.
  - cbn [le unle]. rewrite IH.
    + pose proof (N.div_mod n 256 ltac:(lia)) as Hd. lia.
    + rewrite Nat2N.inj_succ, N.pow_succ_r' in Hn.
      apply N.div_lt_upper_bound; lia.
Qed.

Lemma skipn_app_ge {A} : forall n (a b : list A), (length a <= n)%nat -> skipn n (a ++ b) = skipn (n - length a) b.
Proof.
  intros n a b Hl. rewrite skipn_app. rewrite (skipn_all2 a) by lia. reflexivity.
Qed.
Lemma skipn_app_lt {A} : forall n (a b : list A), (n <= length a)%nat -> skipn n (a ++ b) = skipn n a ++ b.
Proof.
  intros n a b Hl. rewrite skipn_app. replace (n - length a)%nat with O by lia. reflexivity.
Qed.

(* reading a k-byte field that sits at the front *)
Lemma unle_field : forall k n r, n < 256 ^ N.of_nat k -> unle (firstn k (le k n ++ r)) = n.
Proof. intros k n r Hn. rewrite firstn_app_len by apply length_le. apply unle_le, Hn. Qed.
Lemma skip_field : forall k n r, skipn k (le k n ++ r) = r.
Proof. intros. apply skipn_app_len, length_le. Qed.

Definition nonul (s : list N) : Prop := Forall (fun b => b <> 0) s.
Lemma cstr_app_nul : forall s r, nonul s -> cstr (s ++ 0 :: r) = s.
Proof.
  induction s as [|b s IH]; intros r Hs; cbn [cstr app].
  - reflexivity.
  - inversion Hs as [|? ? Hb Hs']; subst. destruct (b =? 0) eqn:E.
    + apply N.eqb_eq in E. contradiction.
    + f_equal. apply IH, Hs'.
Qed.
Lemma nonul_firstn : forall n s, nonul s -> nonul (firstn n s).
Proof. intros n s Hs. rewrite <- (firstn_skipn n s) in Hs. apply Forall_app in Hs. apply Hs. Qed.
Lemma nonul_skipn : forall n s, nonul s -> nonul (skipn n s).
Proof. intros n s Hs. rewrite <- (firstn_skipn n s) in Hs. apply Forall_app in Hs. apply Hs. Qed.
Lemma firstn_repeat0 : forall n m, (n <= m)%nat -> firstn n (repeat 0 m) = repeat 0 n.
Proof.
  induction n as [|n IH]; intros m Hm; cbn [firstn repeat]; auto.
  destruct m as [|m]; [lia|]. cbn [repeat]. f_equal. apply IH. lia.
Qed.
(* a string shorter than its field is followed by a NUL *)
Lemma padz_nul : forall w s r, (length s < w)%nat ->
  padz w s ++ r = s ++ 0 :: repeat 0 (w - S (length s)) ++ r.
Proof.
  intros w s r Hl. unfold padz. replace (w - length s)%nat with (S (w - S (length s))) by lia.
  rewrite <- app_assoc. reflexivity.
Qed.
(* ... so it is read back, within a window of [w] bytes or without one *)
Lemma cstr_firstn_nul : forall w s r,
  nonul s -> (length s < w)%nat -> cstr (firstn w (s ++ 0 :: r)) = s.
Proof.
  intros w s r Hs Hl. rewrite firstn_app, (firstn_all2 s) by lia.
  replace (w - length s)%nat with (S (w - length s - 1)) by lia. cbn [firstn].
  apply cstr_app_nul, Hs.
Qed.
Lemma cstr_padz_field : forall w s r, nonul s -> (length s < w)%nat -> cstr (firstn w (padz w s ++ r)) = s.
Proof. intros w s r Hs Hl. rewrite padz_nul by exact Hl. apply cstr_firstn_nul; assumption. Qed.
Lemma cstr_padz : forall w s r, nonul s -> (length s < w)%nat -> cstr (padz w s ++ r) = s.
Proof. intros w s r Hs Hl. rewrite padz_nul by exact Hl. apply cstr_app_nul, Hs. Qed.
Lemma length_padz : forall w s, (length s <= w)%nat -> length (padz w s) = w.
Proof. intros. unfold padz. rewrite app_length, repeat_length. lia. Qed.
Lemma skip_padz : forall w s r, (length s <= w)%nat -> skipn w (padz w s ++ r) = r.
Proof. intros. apply skipn_app_len, length_padz. assumption. Qed.

Lemma lookup_in : forall l k v,
  In (k, v) l -> (forall v', In (k, v') l -> v' = v) -> lookup k l = Some v.
Proof.
  induction l as [|[k0 v0] l IH]; intros k v Hin Hf; cbn [lookup].
  - destruct Hin.
  - destruct (k0 =? k) eqn:E.
    + apply N.eqb_eq in E; subst. f_equal. apply Hf. left; reflexivity.
    + apply IH.
      * destruct Hin as [H|H]; [inversion H; subst; rewrite N.eqb_refl in E; discriminate|exact H].
      * intros v' Hv'. apply Hf. right; exact Hv'.
Qed.
