(* Count-driven tables (dictionary, thread table): the walk of the reader along
   a chain of buffers, and the read-back of one dictionary entry and of one
   thread-table entry. *)
From PV Require Import Base.Tac Base.ListX Prof.ProfDefs Prof.ProfBytes Prof.ProfWriter Prof.ProfEvents.
From Coq Require Import NArith.
Local Open Scope N_scope.

Section TableChain.
  Context {V : Type}.
  Variable parse1 : list N -> V * nat.
  Variable vw : list N -> V.
  Variable avail : N.
  Variable bt : N.
  Variable alloc : nat -> N.
  Variable cs : list (list (list N)).          (* chunks of entries; an entry is its byte string *)
  Variable file : N -> option (list N).
  Hypothesis Halloc : forall j, alloc j < NOOFF.
  Hypothesis Hfile : forall j, (j < length cs)%nat ->
    file (alloc j) = Some (cbuf (fun x : list N => x) avail bt (next_of alloc (length cs) j) (nth j cs []) (alloc j)).
  Hypothesis Hcs : Forall (fun c => c <> [] /\ N.of_nat (length c) < 18446744073709551616) cs.
  Hypothesis Hparse : forall x, In x (concat cs) -> forall rest, parse1 (x ++ rest) = (vw x, length x).

  Let buf (j : nat) : list N :=
    cbuf (fun x : list N => x) avail bt (next_of alloc (length cs) j) (nth j cs []) (alloc j).

  Lemma buf_nb : forall j, (j < length cs)%nat ->
    nth j cs [] <> [] /\ b_nb (buf j) = N.of_nat (length (nth j cs [])).
  Proof.
    intros j Hj. rewrite Forall_forall in Hcs. destruct (Hcs (nth j cs [])) as [Hne Hlen]; [apply nth_In, Hj|].
    split; [exact Hne|]. apply b_nb_ser, Hlen.
  Qed.

  Lemma skipn_S_nonempty : forall j, length (concat (skipn (S j) cs)) <> O -> (S j < length cs)%nat.
  Proof.
    intros j Hne. destruct (Nat.lt_ge_cases (S j) (length cs)) as [Hlt|Hge]; [exact Hlt|].
    rewrite skipn_all2 in Hne by exact Hge. cbn in Hne. contradiction.
  Qed.

  (* the reader stands in buffer j at [pos], in front of the entries [post] of its chunk *)
  Lemma dec_table_from : forall n j pos post tail,
    (j < length cs)%nat -> incl post (nth j cs []) -> post <> [] ->
    skipn pos (b_pay (buf j)) = flat (fun x : list N => x) post ++ tail ->
    n = (length post + length (concat (skipn (S j) cs)))%nat ->
    dec_table parse1 file n (buf j) pos (Z.of_nat (length post))
    = Some (map vw (post ++ concat (skipn (S j) cs))).
  Proof.
    induction n as [|n IH]; intros j pos post tail Hj Hincl Hpost Hpay Hn;
      (destruct post as [|x post']; [contradiction|]); cbn [length] in Hn; [lia|]. clear Hpost.
    assert (Hn' : n = (length post' + length (concat (skipn (S j) cs)))%nat) by lia. clear Hn.
    unfold flat in Hpay. cbn [flat_map] in Hpay. fold (flat (fun y : list N => y) post') in Hpay.
    rewrite <- app_assoc in Hpay.
    cbn [dec_table]. rewrite Hpay, Hparse.
    2:{ apply in_concat. exists (nth j cs []). split; [apply nth_In, Hj|apply Hincl; left; reflexivity]. }
    cbv beta iota. destruct post' as [|y post''].
    - (* last entry of this buffer *)
      cbn [length Nat.add] in *. replace (Z.of_nat 1 - 1)%Z with 0%Z by lia. cbn [Z.eqb].
      destruct (Nat.eqb_spec n 0) as [En|En]; cbn [negb andb].
      + (* and of the table *)
        subst n. cbn [dec_table].
        destruct (concat (skipn (S j) cs)); [reflexivity|cbn [length] in *; lia].
      + assert (HSj : (S j < length cs)%nat) by (apply skipn_S_nonempty; lia).
        assert (Hnext : b_next (buf j) = alloc (S j)).
        { unfold buf, cbuf, next_of.
          destruct (Nat.eqb_spec (S j) (length cs)); [lia|].
          pose proof (Halloc (S j)) as H1. apply b_next_ser. unfold NOOFF in H1. lia. }
        rewrite Hnext, (Hfile (S j) HSj). fold (buf (S j)).
        destruct (buf_nb (S j) HSj) as [Hne Hnb]. rewrite Hnb, nat_N_Z.
        rewrite (skipn_nth_cons cs (S j) []) in * by exact HSj. cbn [concat] in *. rewrite app_length in Hn'.
        rewrite (IH (S j) 0%nat (nth (S j) cs []) _ HSj (incl_refl _) Hne (b_pay_ser _ _ _ _ _ _) Hn'). reflexivity.
    - (* more entries in this buffer *)
      replace (Z.of_nat (length (x :: y :: post'')) - 1)%Z with (Z.of_nat (length (y :: post'')))
        by (cbn [length]; lia).
      replace (Z.of_nat (length (y :: post'')) =? 0)%Z with false by (cbn [length]; lia).
      rewrite andb_false_r, (IH j (pos + length x)%nat (y :: post'') tail Hj); [reflexivity| |discriminate| |exact Hn'].
      + intros z Hz. apply Hincl. right. exact Hz.
      + rewrite skipn_add, Hpay. apply skipn_app_len. reflexivity.
  Qed.

  Theorem dec_table_emit : forall buf0,
    cs <> [] -> file (alloc 0%nat) = Some buf0 ->
    dec_table parse1 file (length (concat cs)) buf0 0 (Z.of_N (b_nb buf0)) = Some (map vw (concat cs)).
  Proof.
    intros buf0 Hne Hb.
    assert (H0 : (0 < length cs)%nat) by (destruct cs; [contradiction|cbn [length]; lia]).
    rewrite (Hfile 0%nat H0) in Hb. inversion Hb as [Hb']. clear Hb. fold (buf 0%nat).
    destruct (buf_nb 0%nat H0) as [Hc Hnb]. rewrite Hnb, nat_N_Z.
    change cs with (skipn 0 cs) at 1 3. rewrite (skipn_nth_cons cs 0%nat []) by exact H0. cbn [concat].
    apply (dec_table_from _ 0%nat 0%nat (nth 0%nat cs []) _ H0 (incl_refl _) Hc (b_pay_ser _ _ _ _ _ _)).
    apply app_length.
  Qed.
End TableChain.

Definition key_ok (k : kent) : Prop :=
  nonul (k_name k) /\ nonul (k_attr k) /\ (6 <= length (k_attr k))%nat /\
  N.of_nat (length (k_conv k)) < 4294967296 /\ k_ilen k < 4294967296.

Lemma length_ser_key : forall k, length (ser_key k) = (203 + length (k_conv k))%nat.
Proof.
  intros k. unfold ser_key. rewrite !app_length, !length_le.
  rewrite !length_padz by (pose proof (firstn_le_length 63 (k_name k)); pose proof (firstn_le_length 127 (k_attr k)); lia).
  cbn [length]. lia.
Qed.

Lemma parse_key_ser : forall k rest, key_ok k -> parse_key (ser_key k ++ rest) = (key_view k, length (ser_key k)).
Proof.
  intros k rest (Hname & Hattr & Hal & Hcs & Hil).
  rewrite length_ser_key. unfold ser_key, key_view. repeat rewrite <- app_assoc.
  remember (firstn 63 (k_name k)) as nm eqn:Enm.
  remember (firstn 127 (k_attr k)) as a eqn:Ea.
  assert (Hnm : nonul nm) by (subst nm; apply nonul_firstn, Hname).
  assert (Ha : nonul a) by (subst a; apply nonul_firstn, Hattr).
  assert (Hlnm : (length nm <= 63)%nat) by (subst nm; apply firstn_le_length).
  assert (Hla : (6 <= length a <= 127)%nat) by (subst a; rewrite firstn_length; lia).
  unfold parse_key. cbv zeta.
  (* name, strlen of the attributes *)
  rewrite (cstr_padz_field 64 nm), (skip_padz 64 nm), (cstr_padz 128 a) by (assumption || lia).
  (* the fixed-size fields, each behind those before it *)
  rewrite (skipn_add 192 4), (skipn_add 192 8), (skipn_add 4 4), (skipn_add 64 128), !skip_padz, !skip_field by lia.
  rewrite !unle_field by assumption.
  (* the last 6 characters *)
  replace (64 + length a - 6)%nat with (64 + (length a - 6))%nat by lia.
  rewrite skipn_add, skip_padz, padz_nul, skipn_app_lt by lia.
  rewrite cstr_firstn_nul; [|apply nonul_skipn, Ha|rewrite skipn_length; lia].
  rewrite Nat2N.id, firstn_app_len by reflexivity. reflexivity.
Qed.

Definition thread_ok (t : thread) : Prop :=
  nonul (t_hr t) /\ t_nbev t < 18446744073709551616 /\ t_first t < 18446744073709551616 /\
  N.of_nat (length (t_infos t)) < 4294967296 /\
  Forall (fun kv => N.of_nat (length (fst kv)) < 4294967296 /\ N.of_nat (length (snd kv)) < 4294967296) (t_infos t).

Lemma length_ser_info : forall kv, length (ser_info kv) = (length (fst kv) + length (snd kv) + 11)%nat.
Proof. intros kv. unfold ser_info. rewrite !app_length, !length_le. cbn [length]. lia. Qed.

Lemma parse_infos_ser : forall infos rest,
  Forall (fun kv => N.of_nat (length (fst kv)) < 4294967296 /\ N.of_nat (length (snd kv)) < 4294967296) infos ->
  parse_infos (length infos) (concat (map ser_info infos) ++ rest)
  = (infos, length (concat (map ser_info infos))).
Proof.
  induction infos as [|kv infos IH]; intros rest Hok; [reflexivity|].
  inversion Hok as [|? ? [Hk Hv] Hok']; subst.
  cbn [length map concat]. rewrite <- app_assoc.
  remember (concat (map ser_info infos) ++ rest) as R eqn:ER.
  cbn [parse_infos]. cbv zeta.
  assert (Hks : N.to_nat (unle (firstn 4 (ser_info kv ++ R))) = length (fst kv)).
  { unfold ser_info. repeat rewrite <- app_assoc.
    rewrite unle_field by exact Hk. apply Nat2N.id. }
  assert (Hvs : N.to_nat (unle (firstn 4 (skipn 4 (ser_info kv ++ R)))) = length (snd kv)).
  { unfold ser_info. repeat rewrite <- app_assoc. rewrite skip_field.
    rewrite unle_field by exact Hv. apply Nat2N.id. }
  rewrite Hks, Hvs.
  rewrite (skipn_app_len (length (fst kv) + length (snd kv) + 11) (ser_info kv) R)
    by apply length_ser_info.
  subst R. rewrite (IH rest Hok').
  rewrite app_length, length_ser_info.
  f_equal. f_equal.
  destruct kv as [ky vl]. cbn [fst snd]. unfold ser_info. cbn [fst snd]. repeat rewrite <- app_assoc.
  f_equal.
  - change 8%nat with (4 + 4)%nat. rewrite skipn_add, !skip_field.
    apply firstn_app_len. reflexivity.
  - rewrite skipn_add. change 8%nat with (4 + 4)%nat. rewrite skipn_add, !skip_field.
    rewrite skipn_app_len by reflexivity. apply firstn_app_len. reflexivity.
Qed.

Lemma parse_thread_ser : forall t rest, thread_ok t -> parse_thread (ser_thread t ++ rest) = (thread_view t, length (ser_thread t)).
Proof.
  intros t rest (Hhr & Hnbev & Hfirst & Hni & Hinfos).
  unfold ser_thread, thread_view. repeat rewrite <- app_assoc.
  remember (firstn 127 (t_hr t)) as hr eqn:Ehr.
  assert (Hnh : nonul hr) by (subst hr; apply nonul_firstn, Hhr).
  assert (Hlh : (length hr <= 127)%nat) by (subst hr; apply firstn_le_length).
  remember (concat (map ser_info (t_infos t))) as I eqn:EI.
  rewrite !app_length, !length_le, length_padz by lia.
  unfold parse_thread. cbv zeta.
  (* every field is reached by skipping those before it, one at a time *)
  rewrite (skipn_add 152 4), (skipn_add 144 8), (skipn_add 16 128), (skipn_add 8 8).
  rewrite !skip_field, skip_padz, !skip_field by lia.
  (* nb_events, hr_id, first_events_buffer_offset, nb_infos, infos *)
  rewrite !(unle_field 8), (unle_field 4), (cstr_padz_field 128 hr) by (assumption || lia).
  rewrite Nat2N.id. subst I. rewrite (parse_infos_ser (t_infos t) rest Hinfos).
  reflexivity.
Qed.
