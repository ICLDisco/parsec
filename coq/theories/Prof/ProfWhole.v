(* The whole profile: dictionary, thread table and the events of every stream
   are read back from the file the writer produced. *)
From PV Require Import Base.Tac Prof.ProfDefs Prof.ProfBytes Prof.ProfWriter Prof.ProfEvents Prof.ProfFile Prof.ProfTables Prof.ProfDump.
From Coq Require Import NArith.
Local Open Scope N_scope.

Section TableInFile.
  Variable alloc : nat -> nat -> N.
  Hypothesis Hinj : forall c j c' j', alloc c j = alloc c' j' -> c = c' /\ j = j'.
  Hypothesis Halloc : forall c j, alloc c j < NOOFF.
  Variable chains : list (nat * list (N * list N)).
  Hypothesis Hnd : NoDup (map fst chains).
  Hypothesis Hcf : forall c l, In (c, l) chains -> chain_fun (alloc c) l.
  Variable avail : N.
  Hypothesis Havail : avail < 4294967296.

  (* a table of entries [ys], stored as [ser y], on which the parser of the reader returns [view y] *)
  Lemma table_in_file {B V} : forall (parse1 : list N -> V * nat) (ser : B -> list N) (view : B -> V) c bt ys,
    In (c, enc_table avail bt (alloc c) (map ser ys)) chains ->
    Forall (fun y => 0 < N.of_nat (length (ser y)) < avail) ys ->
    (forall y, In y ys -> forall rest, parse1 (ser y ++ rest) = (view y, length (ser y))) ->
    exists buf0, lookup (alloc c 0%nat) (whole chains) = Some buf0 /\
      dec_table parse1 (fun o => lookup o (whole chains)) (length ys) buf0 0 (Z.of_N (b_nb buf0)) = Some (map view ys).
  Proof.
    intros parse1 ser view c bt ys Hin Hlen Hparse.
    destruct ys as [|y0 ys0].
    - (* an empty table: one buffer announcing nothing *)
      eexists. split; [|reflexivity].
      eapply (whole_lookup alloc Hinj chains Hnd Hcf c _ _ _ Hin).
      unfold enc_table, w_flush, w_run. cbn [map fold_left w_init w_out w_idx app]. left. reflexivity.
    - set (ys := y0 :: ys0) in *.
      assert (Hitem : Forall (item_ok (fun x : list N => N.of_nat (length x)) false avail) (map ser ys)).
      { apply Forall_map. eapply Forall_impl; [|exact Hlen]. intros y Hy. exact Hy. }
      destruct (writer_spec (fun x : list N => N.of_nat (length x)) (fun x => x) false avail bt (alloc c) (map ser ys)
                  Hitem ltac:(discriminate)) as (cs & Hcat & Hcs & Hch & Hfl & _).
      unfold enc_table in Hin. rewrite Hfl in Hin.
      assert (H0 : (0 < length cs)%nat) by (destruct cs; [contradiction|cbn [length]; lia]).
      pose proof (whole_lookup_emit alloc Hinj chains Hnd Hcf (fun x : list N => x) avail bt c cs 0%nat Hin H0) as Hb0.
      eexists. split; [exact Hb0|].
      (* on the stored bytes alone the parser returns the view as well *)
      assert (Hnil : forall y, In y ys -> parse1 (ser y) = (view y, length (ser y))).
      { intros y Hy. rewrite <- (Hparse y Hy []), app_nil_r. reflexivity. }
      assert (Hview : map (fun x => fst (parse1 x)) (map ser ys) = map view ys).
      { rewrite map_map. apply map_ext_in. intros y Hy. rewrite (Hnil y Hy). reflexivity. }
      rewrite <- Hview, <- (map_length ser ys), <- Hcat.
      apply (dec_table_emit parse1 (fun x => fst (parse1 x)) avail bt (alloc c) cs (fun o => lookup o (whole chains))).
      + intros j. apply Halloc.
      + intros j Hj. apply (whole_lookup_emit alloc Hinj chains Hnd Hcf (fun x : list N => x) avail bt c cs j Hin Hj).
      + rewrite <- Hcat in Hitem. apply Forall_concat in Hitem. rewrite Forall_forall in *.
        intros ch Hch'. destruct (Hch ch Hch') as [Hne Hw]. split; [exact Hne|].
        pose proof (length_le_sumlen _ _ _ ch (Hitem ch Hch')). unfold within in Hw. lia.
      + intros x Hx rest. rewrite Hcat in Hx. apply in_map_iff in Hx. destruct Hx as (y & <- & Hy).
        rewrite (Hparse y Hy rest), (Hnil y Hy). reflexivity.
      + exact Hcs.
      + exact Hb0.
  Qed.
End TableInFile.

(* what the writer API needs from a profile for the file to be readable *)
Definition dict_ok (avail : N) (d : list kent) : Prop :=
  Forall (fun k => key_ok k /\ N.of_nat (203 + length (k_conv k)) < avail) d.
Definition stream_ok (il : list N) (avail : N) (s : stream) : Prop :=
  nonul (s_hr s) /\ N.of_nat (length (s_events s)) < 18446744073709551616 /\
  N.of_nat (length (s_infos s)) < 4294967296 /\
  Forall (fun kv => N.of_nat (length (fst kv)) < 4294967296 /\ N.of_nat (length (snd kv)) < 4294967296) (s_infos s) /\
  156 < avail /\                                         (* an entry without infos fits; then thread_size(thread) < event_avail_space *)
  evs_ok il avail (s_events s).

Lemma length_ser_thread : forall t, length (ser_thread t) = (156 + length (concat (map ser_info (t_infos t))))%nat.
Proof.
  intros t. unfold ser_thread. rewrite !app_length, !length_le, length_padz.
  - lia.
  - pose proof (firstn_le_length 127 (t_hr t)). lia.
Qed.

Lemma in_stored : forall ss i s, In (i, s) (stored ss) -> nth_error ss i = Some s /\ s_events s <> [].
Proof.
  intros ss i s Hin. unfold stored in Hin. apply filter_In in Hin. destruct Hin as [Hin Hev].
  apply in_indexed in Hin. destruct Hin as [_ Hn]. rewrite Nat.sub_0_r in Hn. split; [exact Hn|].
  cbn [snd] in Hev. unfold has_events in Hev. destruct (s_events s); [discriminate|discriminate].
Qed.

Theorem encode_read_back : forall avail alloc d ss fuel,
  (forall c j c' j', alloc c j = alloc c' j' -> c = c' /\ j = j') ->
  (forall c j, alloc c j < NOOFF) ->
  avail < 4294967296 ->
  dict_ok avail d ->
  Forall (stream_ok (map k_ilen d) avail) ss ->
  (length (encode avail alloc d ss) <= fuel)%nat ->
  decode fuel (fun o => lookup o (encode avail alloc d ss))
         (alloc 0%nat 0%nat) (length d) (alloc 1%nat 0%nat) (length (stored ss))
  = Some (profile_view avail alloc d ss).
Proof.
  intros avail alloc d ss fuel Hinj Hlt Hav Hd Hss Hfuel.
  rewrite encode_whole.
  set (chains := chains_of avail alloc d ss).
  pose proof (chains_of_nodup avail alloc d ss) as Hnd.
  pose proof (chains_of_fun avail alloc d ss) as Hcf.
  unfold dict_ok in Hd. rewrite Forall_forall in Hd, Hss.
  (* dictionary *)
  destruct (table_in_file alloc Hinj Hlt chains Hnd Hcf avail Hav parse_key ser_key key_view
              0%nat BT_DICT d) as (db & Hdb & Hdict).
  { left. reflexivity. }
  { rewrite Forall_forall. intros k Hk. destruct (Hd k Hk) as [_ Hl]. rewrite length_ser_key. lia. }
  { intros k Hk rest. apply parse_key_ser, Hd, Hk. }
  (* thread table *)
  assert (Htok : forall i s, In (i, s) (stored ss) -> thread_ok (thread_of avail alloc i s) /\ stream_ok (map k_ilen d) avail s).
  { intros i s Hin. destruct (in_stored ss i s Hin) as [Hn _]. apply nth_error_In in Hn.
    pose proof (Hss s Hn) as Hs. split; [|exact Hs].
    destruct Hs as (H1 & H2 & H3 & H4 & _ & _).
    unfold thread_ok, thread_of, kept_infos. cbn [t_hr t_nbev t_first t_infos]. repeat apply conj; auto.
    - pose proof (Hlt (2 + i)%nat 0%nat) as Hl. unfold NOOFF in Hl. lia.
    - pose proof (kept_length avail (s_infos s) 156). lia.
    - rewrite Forall_forall in *. intros kv Hkv. apply H4. eapply kept_incl, Hkv. }
  destruct (table_in_file alloc Hinj Hlt chains Hnd Hcf avail Hav parse_thread
              (fun p => ser_thread (thread_of avail alloc (fst p) (snd p)))
              (fun p => thread_view (thread_of avail alloc (fst p) (snd p)))
              1%nat BT_THREAD (stored ss)) as (tb & Htb & Hths).
  { right. left. reflexivity. }
  { rewrite Forall_forall. intros [i s] Hp.
    destruct (Htok i s Hp) as [_ (_ & _ & _ & _ & Hsz & _)]. cbn [fst snd].
    rewrite length_ser_thread. unfold thread_of. cbn [t_infos].
    pose proof (thread_size_kept avail (s_infos s) 156) as Hk. fold (kept_infos avail (s_infos s)) in Hk.
    rewrite infos_sz_ser in Hk. pose proof (thread_size_lt avail (s_infos s) 156 Hsz). lia. }
  { intros [i s] Hp rest. apply parse_thread_ser, Htok, Hp. }
  unfold decode. rewrite Hdb, Hdict, Htb, Hths.
  unfold profile_view. fold (stored ss). f_equal. f_equal.
  (* the events of every stored stream, with the info lengths the reader found *)
  rewrite map_map. apply map_ext_in. intros [i s] Hp. cbn [fst snd]. f_equal.
  rewrite map_map. change (map (fun k => k_ilen (key_view k)) d) with (map k_ilen d).
  destruct (in_stored ss i s Hp) as [Hn Hne]. destruct (Htok i s Hp) as [_ (_ & _ & _ & _ & _ & Hev)].
  unfold chains. rewrite <- encode_whole. apply encode_stream_roundtrip; assumption.
Qed.

Lemma thread_of_all_infos : forall avail alloc i s,
  156 + infos_sz (s_infos s) < avail -> t_infos (thread_of avail alloc i s) = s_infos s.
Proof. intros. unfold thread_of. cbn [t_infos]. apply kept_infos_all_when_fit. assumption. Qed.
