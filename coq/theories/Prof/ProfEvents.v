(* Events: what the reader parses out of a buffer the writer filled, and the
   walk along a chain of such buffers. *)
From PV Require Import Base.Tac Base.ListX Prof.ProfDefs Prof.ProfBytes Prof.ProfWriter.
From Coq Require Import NArith.
Local Open Scope N_scope.

(* the calls the C types allow (uint16 key and flags, uint32 taskpool id,
   uint64 ids and dates), an info area of the length the dictionary declares,
   and the HAS_INFO flag set exactly when an info pointer was given *)
Definition ev_ok (il : list N) (e : event) : Prop :=
  e_key e < 65536 /\ e_flags e < 65536 /\ e_tp e < 4294967296 /\
  e_id e < 18446744073709551616 /\ e_ts e < 18446744073709551616 /\
  match e_info e with
  | Some bs => N.testbit (e_flags e) 0 = true /\ length bs = N.to_nat (ilen_of il (e_key e))
  | None => N.testbit (e_flags e) 0 = false
  end.

Lemma length_ser_event : forall il e, ev_ok il e -> N.of_nat (length (ser_event e)) = ev_len il e.
Proof.
  intros il e (_ & _ & _ & _ & _ & Hi). unfold ser_event, ev_len.
  rewrite !app_length, !length_le. destruct (e_info e) as [bs|].
  - destruct Hi as [_ Hl]. rewrite Hl. lia.
  - cbn [length]. lia.
Qed.

Lemma length_flat_ser_event : forall il c,
  Forall (ev_ok il) c -> N.of_nat (length (flat ser_event c)) = sumlen (ev_len il) c.
Proof.
  intros il c Hc. unfold flat, sumlen. induction Hc as [|e c He _ IH]; [reflexivity|].
  cbn [flat_map fold_right]. rewrite app_length, Nat2N.inj_add, (length_ser_event il e He), IH. reflexivity.
Qed.

Lemma parse_events_flat : forall il c rest,
  Forall (ev_ok il) c -> parse_events il (length c) (flat ser_event c ++ rest) = c.
Proof.
  intros il c rest. induction c as [|e c IH]; intros Hok; [reflexivity|].
  inversion Hok as [|? ? (Hk & Hf & Ht & Hi & Hs & Hinfo) Hc]; subst.
  cbn [length flat flat_map]. fold (flat ser_event c).
  rewrite <- app_assoc. remember (flat ser_event c ++ rest) as R eqn:HR.
  unfold ser_event. repeat rewrite <- app_assoc. cbn [parse_events]. cbv zeta.
  repeat (rewrite ?unle_field, ?skip_field by assumption).
  destruct e as [key fl tp id ts info]; cbn [e_key e_flags e_tp e_id e_ts e_info] in *.
  destruct info as [bs|].
  - destruct Hinfo as [Hb Hl]. rewrite Hb.
    rewrite firstn_app_len, skipn_app_len by exact Hl.
    f_equal. subst R. apply IH, Hc.
  - rewrite Hinfo. cbn [firstn skipn app]. f_equal. subst R. apply IH, Hc.
Qed.

Lemma b_next_ser : forall avail this next nb bt pay,
  next < 18446744073709551616 -> b_next (ser_buffer avail this next nb bt pay) = next.
Proof.
  intros. unfold b_next, ser_buffer. rewrite skip_field. apply unle_field. assumption.
Qed.
Lemma b_nb_ser : forall avail this next nb bt pay,
  nb < 18446744073709551616 -> b_nb (ser_buffer avail this next nb bt pay) = nb.
Proof.
  intros. unfold b_nb, ser_buffer. rewrite (app_assoc (le 8 this)).
  rewrite skipn_app_len by (rewrite app_length, !length_le; reflexivity).
  apply unle_field. assumption.
Qed.
Lemma b_pay_ser : forall avail this next nb bt pay,
  b_pay (ser_buffer avail this next nb bt pay) = pay ++ repeat 0 (N.to_nat avail - length pay).
Proof.
  intros. unfold b_pay, ser_buffer, HDR.
  do 3 (rewrite skipn_app_ge by (rewrite length_le; lia); rewrite length_le; cbn [Nat.sub]).
  reflexivity.
Qed.
Lemma length_ser_buffer : forall avail this next nb bt pay,
  (length pay <= N.to_nat avail)%nat -> length (ser_buffer avail this next nb bt pay) = (25 + N.to_nat avail)%nat.
Proof.
  intros. unfold ser_buffer. rewrite !app_length, !length_le, repeat_length. cbn [length]. lia.
Qed.

Lemma skipn_nth_cons {A} : forall (l : list A) j d, (j < length l)%nat -> skipn j l = nth j l d :: skipn (S j) l.
Proof.
  induction l as [|x l IH]; intros j d Hj; cbn [length] in Hj; [lia|].
  destruct j as [|j]; [reflexivity|]. cbn [skipn nth]. rewrite (IH j d) by lia. reflexivity.
Qed.

Lemma dec_chain_nooff : forall f file il, dec_chain f file il NOOFF = [].
Proof. intros [|f] file il; reflexivity. Qed.

Section Chain.
  Variable il : list N.
  Variable avail : N.
  Variable alloc : nat -> N.
  Variable cs : list (list event).
  Variable file : N -> option (list N).
  Hypothesis Halloc : forall j, alloc j < NOOFF.
  Hypothesis Hfile : forall j, (j < length cs)%nat ->
    file (alloc j) = Some (cbuf ser_event avail BT_EVENTS (next_of alloc (length cs) j) (nth j cs []) (alloc j)).
  Hypothesis Hcs : Forall (fun c => c <> [] /\ Forall (ev_ok il) c /\ N.of_nat (length c) < 18446744073709551616) cs.

  Lemma dec_chain_from : forall m j fuel,
    (j + m = length cs)%nat -> (0 < m)%nat -> (m <= fuel)%nat ->
    dec_chain fuel file il (alloc j) = concat (skipn j cs).
  Proof.
    induction m as [|m IH]; intros j fuel Hjm Hm Hf; [lia|].
    destruct fuel as [|f]; [lia|]. cbn [dec_chain].
    pose proof (Halloc j) as Haj.
    destruct (alloc j =? NOOFF) eqn:E; [apply N.eqb_eq in E; lia|].
    rewrite Hfile by lia. unfold cbuf.
    assert (Hc : nth j cs [] <> [] /\ Forall (ev_ok il) (nth j cs []) /\
                 N.of_nat (length (nth j cs [])) < 18446744073709551616).
    { rewrite Forall_forall in Hcs. apply Hcs. apply nth_In. lia. }
    destruct Hc as (Hne & Hok & Hlen).
    rewrite b_nb_ser, b_pay_ser by exact Hlen.
    rewrite Nat2N.id.
    replace (Nat.max 1 (length (nth j cs []))) with (length (nth j cs []))
      by (destruct (nth j cs []); [contradiction|cbn [length]; lia]).
    rewrite parse_events_flat by exact Hok.
    rewrite (skipn_nth_cons cs j []) by lia. cbn [concat]. f_equal.
    unfold next_of. destruct (Nat.eqb (S j) (length cs)) eqn:E2.
    - apply Nat.eqb_eq in E2. rewrite b_next_ser by reflexivity.
      rewrite dec_chain_nooff, skipn_all2 by lia. reflexivity.
    - apply Nat.eqb_neq in E2. pose proof (Halloc (S j)) as H1.
      rewrite b_next_ser by (unfold NOOFF in H1; lia).
      apply IH; lia.
  Qed.

  Lemma dec_chain_emit : forall fuel,
    cs <> [] -> (length cs <= fuel)%nat -> dec_chain fuel file il (alloc 0%nat) = concat cs.
  Proof.
    intros fuel Hne Hf. rewrite (dec_chain_from (length cs) 0 fuel); [reflexivity|lia| |exact Hf].
    destruct cs; [contradiction|cbn [length]; lia].
  Qed.
End Chain.

(* a < 2^n says that a is its own low n bits, and the bitwise operations commute with taking them *)
Lemma lor_lt_pow2 : forall a b n, a < 2^n -> b < 2^n -> N.lor a b < 2^n.
Proof.
  intros a b n Ha Hb. rewrite <- (N.mod_small a (2^n) Ha), <- (N.mod_small b (2^n) Hb).
  rewrite <- !N.land_ones, <- N.land_lor_distr_l, N.land_ones. apply N.mod_lt, N.pow_nonzero. discriminate.
Qed.
Lemma land_lt_pow2 : forall a b n, a < 2^n -> N.land a b < 2^n.
Proof.
  intros a b n Ha. rewrite <- (N.mod_small a (2^n) Ha).
  rewrite <- N.land_ones, <- N.land_assoc, (N.land_comm _ b), N.land_assoc, N.land_ones.
  apply N.mod_lt, N.pow_nonzero. discriminate.
Qed.

(* the info area has the declared length (whatever flags the caller passes) *)
Definition call_ok (il : list N) (c : call) : Prop :=
  match c_info c with
  | Some bs => length bs = N.to_nat (ilen_of il (c_key c mod 65536))
  | None => True
  end.
Lemma log_event_ok : forall il c ts, call_ok il c -> ev_ok il (log_event c ts).
Proof.
  intros il c ts Hc. unfold ev_ok, log_event, call_ok in *.
  cbn [e_key e_flags e_tp e_id e_ts e_info].
  repeat apply conj; try (apply N.mod_lt; discriminate).
  - change 65536 with (2 ^ 16). apply lor_lt_pow2.
    + destruct (c_info c); cbn; lia.
    + apply land_lt_pow2. apply N.mod_lt. discriminate.
  - destruct (c_info c) as [bs|].
    + split; [|exact Hc]. rewrite N.lor_spec. reflexivity.
    + rewrite N.lor_spec, N.land_spec. cbn [N.testbit]. rewrite Bool.andb_false_r. reflexivity.
Qed.

(* for [log_event_prefix], the writer before the repair 27f62af, the flag is part of the precondition *)
Definition call_ok_prefix (il : list N) (c : call) : Prop :=
  match c_info c with
  | Some bs => length bs = N.to_nat (ilen_of il (c_key c mod 65536))
  | None => N.testbit (c_flags c) 0 = false
  end.
Lemma log_event_prefix_ok : forall il c ts, call_ok_prefix il c -> ev_ok il (log_event_prefix c ts).
Proof.
  intros il c ts Hc. unfold ev_ok, log_event_prefix, call_ok_prefix in *.
  cbn [e_key e_flags e_tp e_id e_ts e_info].
  repeat apply conj; try (apply N.mod_lt; discriminate).
  - change 65536 with (2 ^ 16). apply lor_lt_pow2.
    + destruct (c_info c); cbn; lia.
    + apply N.mod_lt. discriminate.
  - destruct (c_info c) as [bs|].
    + split; [|exact Hc]. rewrite N.lor_spec. reflexivity.
    + rewrite N.lor_spec. change 65536 with (2 ^ 16). rewrite N.mod_pow2_bits_low by lia.
      rewrite Hc. reflexivity.
Qed.
