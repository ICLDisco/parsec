(* The merged dictionary of the reader: through dico_map every file gets back
   the keys it wrote, whatever the other files registered and in which order. *)
From PV Require Import Base.Tac Prof.ProfDefs.
From Coq Require Import NArith.
Local Open Scope N_scope.

Lemma bytes_eqb_eq : forall a b, bytes_eqb a b = true <-> a = b.
Proof.
  induction a as [|x a IH]; intros [|y b]; cbn [bytes_eqb]; split; intros H; try discriminate; auto.
  - apply andb_prop in H. destruct H as [H1 H2]. apply N.eqb_eq in H1. apply IH in H2. subst. reflexivity.
  - inversion H; subst. rewrite N.eqb_refl. apply IH. reflexivity.
Qed.
Lemma key_eqb_refl : forall k, key_eqb k k = true.
Proof.
  intros k. unfold key_eqb. rewrite N.eqb_refl. rewrite (proj2 (bytes_eqb_eq _ _) eq_refl).
  rewrite (proj2 (bytes_eqb_eq _ _) eq_refl). reflexivity.
Qed.
Lemma key_eqb_fields : forall a b, key_eqb a b = true ->
  k_ilen a = k_ilen b /\ k_name a = k_name b /\ cstr (k_conv a) = cstr (k_conv b).
Proof.
  intros a b H. unfold key_eqb in H. apply andb_prop in H. destruct H as [H H3].
  apply andb_prop in H. destruct H as [H1 H2].
  apply N.eqb_eq in H1. apply bytes_eqb_eq in H2. apply bytes_eqb_eq in H3. auto.
Qed.

(* find_key returns the index of an equal entry, or the length of the list *)
Lemma find_key_spec : forall k m i,
  (exists x, nth_error m (find_key k m i - i) = Some x /\ key_eqb k x = true /\ (i <= find_key k m i)%nat)
  \/ find_key k m i = (i + length m)%nat.
Proof.
  intros k m. induction m as [|x m IH]; intros i; cbn [find_key length].
  - right. lia.
  - destruct (key_eqb k x) eqn:E.
    + left. exists x. rewrite Nat.sub_diag. repeat split; auto.
    + destruct (IH (S i)) as [(y & Hn & He & Hle)|Hr].
      * left. exists y. repeat split; auto; [|lia].
        replace (find_key k m (S i) - i)%nat with (S (find_key k m (S i) - S i)) by lia. exact Hn.
      * right. lia.
Qed.

(* one entry: the merged dictionary only grows at the end, and the index recorded points to an equal entry *)
Lemma merge_one_spec : forall m mp k,
  exists ext i x, merge_one (m, mp) k = (m ++ ext, mp ++ [i]) /\
                  nth_error (m ++ ext) i = Some x /\ key_eqb k x = true.
Proof.
  intros m mp k. unfold merge_one. cbn [fst snd].
  destruct (find_key_spec k m 0) as [(x & Hn & He & _)|Hr].
  - rewrite Nat.sub_0_r in Hn.
    assert (Hlt : (find_key k m 0 < length m)%nat) by (apply nth_error_Some; congruence).
    destruct (Nat.eqb (find_key k m 0) (length m)) eqn:E; [apply Nat.eqb_eq in E; lia|].
    exists [], (find_key k m 0), x. rewrite app_nil_r. auto.
  - cbn [Nat.add] in Hr. rewrite Hr, Nat.eqb_refl.
    exists [k], (length m), k. repeat split.
    + rewrite nth_error_app2, Nat.sub_diag by lia. reflexivity.
    + apply key_eqb_refl.
Qed.

(* the map of a file sends every local entry to an equal entry of the merged dictionary *)
Definition map_ok (merged local : list kent) (mp : list nat) : Prop :=
  Forall2 (fun k i => exists x, nth_error merged i = Some x /\ key_eqb k x = true) local mp.

Lemma Forall2_nth_error {A B} (R : A -> B -> Prop) : forall l l' n a,
  Forall2 R l l' -> nth_error l n = Some a -> exists b, nth_error l' n = Some b /\ R a b.
Proof.
  intros l l' n a H. revert n. induction H as [|x y l l' Hxy _ IH]; intros [|n] Hn; try discriminate.
  - inversion Hn; subst. exists y. split; [reflexivity|exact Hxy].
  - apply IH, Hn.
Qed.
Lemma Forall2_length {A B} (R : A -> B -> Prop) : forall l l', Forall2 R l l' -> length l = length l'.
Proof. intros l l' H. induction H; cbn [length]; congruence. Qed.

Lemma map_ok_grow : forall merged ext local mp, map_ok merged local mp -> map_ok (merged ++ ext) local mp.
Proof.
  intros merged ext local mp H. induction H as [|k i local mp (x & Hx & He) _ IH]; constructor; [|exact IH].
  exists x. split; [|exact He]. rewrite nth_error_app1; [exact Hx|]. apply nth_error_Some. congruence.
Qed.

Lemma merge_fold_spec : forall rest m mp done,
  map_ok m done mp ->
  exists ext mp', fold_left merge_one rest (m, mp) = (m ++ ext, mp') /\ map_ok (m ++ ext) (done ++ rest) mp'.
Proof.
  induction rest as [|k rest IH]; intros m mp done Hok; cbn [fold_left].
  - exists [], mp. rewrite !app_nil_r. split; [reflexivity|exact Hok].
  - destruct (merge_one_spec m mp k) as (e1 & i & x & Hm & Hn & He). rewrite Hm.
    destruct (IH (m ++ e1) (mp ++ [i]) (done ++ [k])) as (e2 & mp' & Hf & Hok2).
    { apply Forall2_app; [apply map_ok_grow, Hok|]. constructor; [exists x; split; assumption|constructor]. }
    exists (e1 ++ e2), mp'. rewrite app_assoc. split; [exact Hf|]. rewrite <- (app_assoc done) in Hok2. exact Hok2.
Qed.
Lemma merge_file_spec : forall m local,
  exists ext mp, merge_file m local = (m ++ ext, mp) /\ map_ok (m ++ ext) local mp.
Proof. intros m local. apply (merge_fold_spec local m [] []). constructor. Qed.

Theorem merge_files_spec : forall files m merged maps,
  merge_files m files = (merged, maps) ->
  (exists ext, merged = m ++ ext) /\ Forall2 (map_ok merged) files maps.
Proof.
  induction files as [|l files IH]; intros m merged maps H; cbn [merge_files] in H.
  - inversion H; subst. split; [exists []; rewrite app_nil_r; reflexivity|constructor].
  - destruct (merge_file_spec m l) as (e1 & mp & Hm & Hok). rewrite Hm in H.
    destruct (merge_files (m ++ e1) files) as [m2 mps] eqn:E. inversion H; subst merged maps.
    destruct (IH _ _ _ E) as ((e2 & ->) & Hall).
    split; [exists (e1 ++ e2); rewrite app_assoc; reflexivity|].
    constructor; [apply map_ok_grow, Hok|exact Hall].
Qed.
Lemma merge_files_map : forall files merged maps f local,
  merge_files [] files = (merged, maps) -> nth_error files f = Some local ->
  exists mp, nth_error maps f = Some mp /\ map_ok merged local mp.
Proof.
  intros files merged maps f local Hm Hf. destruct (merge_files_spec files [] merged maps Hm) as [_ Hall].
  apply (Forall2_nth_error _ _ _ _ _ Hall Hf).
Qed.

Corollary presented_ilens : forall files merged maps f local,
  merge_files [] files = (merged, maps) -> nth_error files f = Some local ->
  exists mp, nth_error maps f = Some mp /\ map k_ilen (presented merged mp) = map k_ilen local.
Proof.
  intros files merged maps f local Hm Hf.
  destruct (merge_files_map files merged maps f local Hm Hf) as (mp & Hmp & Hok). exists mp. split; [exact Hmp|].
  unfold presented. clear Hm Hf Hmp. induction Hok as [|k i local mp (x & Hx & He) _ IH]; [reflexivity|].
  cbn [map]. rewrite IH, (nth_error_nth merged i kent0 Hx).
  destruct (key_eqb_fields k x He) as (Ha & _). rewrite Ha. reflexivity.
Qed.

Lemma decode_split : forall fuel file doff dn toff tn,
  decode fuel file doff dn toff tn =
  match decode_keys file doff dn with
  | None => None
  | Some keys => match decode_rest fuel file toff tn keys with None => None | Some r => Some (keys, r) end
  end.
Proof.
  intros. unfold decode, decode_keys, decode_rest. destruct (file doff) as [db|]; [|reflexivity].
  destruct (dec_table parse_key file dn db 0 (Z.of_N (b_nb db))) as [keys|]; [|reflexivity].
  destruct (file toff) as [tb|]; [|reflexivity].
  destruct (dec_table parse_thread file tn tb 0 (Z.of_N (b_nb tb))); reflexivity.
Qed.
