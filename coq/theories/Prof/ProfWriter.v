(* The buffered writer of ProfDefs packs any sequence of entries into chunks,
   one chunk per buffer: nothing is lost, nothing is reordered, no entry is
   split between two buffers, and the buffers are chained in order. *)
From PV Require Import Base.Tac Prof.ProfDefs Prof.ProfBytes.
From Coq Require Import NArith.
Local Open Scope N_scope.

Section WriterProofs.
  Context {A : Type}.
  Variable len : A -> N.
  Variable ser : A -> list N.
  Variable strict : bool.
  Variable avail : N.
  Variable btype : N.
  Variable alloc : nat -> N.

  Definition sumlen (c : list A) : N := fold_right (fun x a => len x + a) 0 c.
  Definition flat (c : list A) : list N := flat_map ser c.
  (* the space test of the writer, seen from the other side *)
  Definition within (s : N) : Prop := if strict then s <= avail else s < avail.
  Definition chunk_ok (c : list A) : Prop := c <> [] /\ within (sumlen c).
  Definition item_ok (x : A) : Prop := 0 < len x /\ within (len x).

  (* the buffer holding chunk [c] at offset [this], pointing to [next] *)
  Definition cbuf (next : N) (c : list A) (this : N) : list N :=
    ser_buffer avail this next (N.of_nat (length c)) btype (flat c).
  (* the buffers of a list of chunks: buffer j at alloc j, pointing to [nxt j] *)
  Definition bufs (nxt : nat -> N) (cs : list (list A)) : list (N * list N) :=
    map (fun j => (alloc j, cbuf (nxt j) (nth j cs []) (alloc j))) (seq 0 (length cs)).
  Definition next_of (n j : nat) : N := if Nat.eqb (S j) n then NOOFF else alloc (S j).
  (* while the chain grows every buffer points to alloc (j+1); in the finished chain the last one points to -1 *)
  Definition emit_closed : list (list A) -> list (N * list N) := bufs (fun j => alloc (S j)).
  Definition emit (cs : list (list A)) : list (N * list N) := bufs (next_of (length cs)) cs.

  Lemma sumlen_app : forall a b, sumlen (a ++ b) = sumlen a + sumlen b.
  Proof. unfold sumlen. induction a as [|x a IH]; intros b; cbn [fold_right app]; [lia|]. rewrite IH. lia. Qed.
  Lemma flat_app : forall a b, flat (a ++ b) = flat a ++ flat b.
  Proof. intros. apply flat_map_app. Qed.

  Lemma bufs_snoc : forall nxt nxt' cs c,
    (forall j, (j < length cs)%nat -> nxt j = nxt' j) ->
    bufs nxt (cs ++ [c]) = bufs nxt' cs ++ [(alloc (length cs), cbuf (nxt (length cs)) c (alloc (length cs)))].
  Proof.
    intros nxt nxt' cs c Hn. unfold bufs. rewrite app_length. cbn [length].
    rewrite Nat.add_1_r, seq_S, map_app. cbn [map Nat.add]. f_equal.
    - apply map_ext_in. intros j Hj. apply in_seq in Hj.
      rewrite app_nth1, Hn by lia. reflexivity.
    - rewrite nth_middle. reflexivity.
  Qed.
  Lemma emit_closed_snoc : forall cs c,
    emit_closed (cs ++ [c]) =
    emit_closed cs ++ [(alloc (length cs), cbuf (alloc (S (length cs))) c (alloc (length cs)))].
  Proof. intros cs c. apply bufs_snoc. reflexivity. Qed.
  Lemma emit_snoc : forall cs c,
    emit (cs ++ [c]) = emit_closed cs ++ [(alloc (length cs), cbuf NOOFF c (alloc (length cs)))].
  Proof.
    intros cs c. unfold emit. rewrite app_length, Nat.add_1_r. cbn [length].
    rewrite (bufs_snoc _ (fun j => alloc (S j))); unfold next_of.
    - rewrite Nat.eqb_refl. reflexivity.
    - intros j Hj. destruct (Nat.eqb_spec (S j) (S (length cs))); [lia|reflexivity].
  Qed.

  Definition Inv (xs : list A) (st : wst) : Prop :=
    exists cs cur,
      xs = concat cs ++ cur /\ w_idx st = length cs /\ w_out st = emit_closed cs /\
      w_pay st = flat cur /\ w_pos st = sumlen cur /\ w_nb st = N.of_nat (length cur) /\
      Forall chunk_ok cs /\ ((cur = [] /\ cs = []) \/ chunk_ok cur).

  Lemma Inv_init : Inv [] w_init.
  Proof. exists [], []. cbn. repeat split; auto. Qed.

  Lemma sumlen_pos : forall c, Forall item_ok c -> c <> [] -> 0 < sumlen c.
  Proof.
    intros c Hc Hne. destruct c as [|x c]; [contradiction|].
    inversion Hc as [|? ? [Hx _] _]; subst. unfold sumlen. cbn [fold_right]. lia.
  Qed.

  Lemma length_le_sumlen : forall c, Forall item_ok c -> N.of_nat (length c) <= sumlen c.
  Proof.
    intros c Hc. unfold sumlen. induction Hc as [|x c [Hx _] _ IH]; cbn [length fold_right]; lia.
  Qed.

  Lemma Inv_step : forall xs st x,
    Inv xs st -> item_ok x -> Inv (xs ++ [x]) (w_put len ser strict avail btype alloc st x).
  Proof.
    intros xs st x (cs & cur & Hxs & Hidx & Hout & Hpay & Hpos & Hnb & Hcs & Hcur) [Hx0 Hxw].
    unfold w_put. destruct (overflows strict avail (w_pos st) (len x)) eqn:Hov.
    - (* the entry does not fit: the current buffer is closed *)
      assert (Hok : chunk_ok cur).
      { destruct Hcur as [[Hc _]|Hc]; [|exact Hc]. subst cur. cbn [sumlen fold_right] in Hpos.
        unfold overflows, within in *. rewrite Hpos in Hov. destruct strict; lia. }
      exists (cs ++ [cur]), [x]. cbn [w_switch w_idx w_pos w_nb w_pay w_out].
      repeat apply conj.
      + rewrite concat_app. cbn [concat]. rewrite app_nil_r, Hxs. reflexivity.
      + rewrite app_length. cbn [length]. lia.
      + rewrite emit_closed_snoc, Hout, Hidx, Hnb, Hpay. reflexivity.
      + cbn [flat flat_map app]. rewrite app_nil_r. reflexivity.
      + unfold sumlen. cbn [fold_right]. lia.
      + cbn [length]. lia.
      + apply Forall_app; split; [exact Hcs|]. constructor; [exact Hok|constructor].
      + right. split; [discriminate|]. unfold sumlen. cbn [fold_right]. rewrite N.add_0_r. exact Hxw.
    - (* it fits *)
      exists cs, (cur ++ [x]). cbn [w_idx w_pos w_nb w_pay w_out].
      repeat apply conj; auto.
      + rewrite Hxs, app_assoc. reflexivity.
      + rewrite flat_app, Hpay. cbn [flat flat_map]. rewrite app_nil_r. reflexivity.
      + rewrite sumlen_app, Hpos. unfold sumlen. cbn [fold_right]. lia.
      + rewrite app_length, Hnb. cbn [length]. lia.
      + right. split; [destruct cur; discriminate|].
        rewrite sumlen_app. unfold sumlen at 2. cbn [fold_right]. rewrite N.add_0_r.
        unfold overflows, within in *. rewrite Hpos in Hov. destruct strict; lia.
  Qed.

  Lemma Inv_run_from : forall xs done st,
    Inv done st -> Forall item_ok xs ->
    Inv (done ++ xs) (fold_left (w_put len ser strict avail btype alloc) xs st).
  Proof.
    induction xs as [|x xs IH]; intros done st Hinv Hok; cbn [fold_left].
    - rewrite app_nil_r. exact Hinv.
    - inversion Hok as [|? ? Hx Hxs]; subst.
      replace (done ++ x :: xs) with ((done ++ [x]) ++ xs) by (rewrite <- app_assoc; reflexivity).
      apply IH; [apply Inv_step; assumption|exact Hxs].
  Qed.
  Lemma Inv_run : forall xs, Forall item_ok xs -> Inv xs (w_run len ser strict avail btype alloc xs).
  Proof. intros xs Hok. apply (Inv_run_from xs [] w_init Inv_init Hok). Qed.

  (* what reaches the file when a non-empty sequence is written and flushed *)
  Theorem writer_spec : forall xs,
    Forall item_ok xs -> xs <> [] ->
    let st := w_run len ser strict avail btype alloc xs in
    exists cs, concat cs = xs /\ cs <> [] /\ Forall chunk_ok cs /\
               w_flush avail btype alloc st = emit cs /\ w_pos st <> 0.
  Proof.
    intros xs Hok Hne st.
    destruct (Inv_run xs Hok) as (cs & cur & Hxs & Hidx & Hout & Hpay & Hpos & Hnb & Hcs & Hcur).
    fold st in Hidx, Hout, Hpay, Hpos, Hnb.
    assert (Hc : chunk_ok cur).
    { destruct Hcur as [[H1 H2]|H]; [|exact H]. rewrite H1, H2 in Hxs. cbn in Hxs. contradiction. }
    exists (cs ++ [cur]). repeat apply conj.
    - rewrite concat_app. cbn [concat]. rewrite app_nil_r. symmetry. exact Hxs.
    - destruct cs; discriminate.
    - apply Forall_app; split; [exact Hcs|]. constructor; [exact Hc|constructor].
    - unfold w_flush. rewrite emit_snoc, Hout, Hidx, Hnb, Hpay. reflexivity.
    - rewrite Hpos. destruct Hc as [Hc1 _].
      assert (Hin : Forall item_ok cur).
      { rewrite Forall_forall in *. intros y Hy. apply Hok. rewrite Hxs. apply in_or_app. right; exact Hy. }
      pose proof (sumlen_pos cur Hin Hc1). lia.
  Qed.

  Lemma in_emit : forall cs k v,
    In (k, v) (emit cs) <->
    exists j, (j < length cs)%nat /\ k = alloc j /\ v = cbuf (next_of (length cs) j) (nth j cs []) (alloc j).
  Proof.
    intros cs k v. unfold emit, bufs. rewrite in_map_iff. split.
    - intros (j & Hj & Hin). apply in_seq in Hin. inversion Hj; subst. exists j. repeat split; auto. lia.
    - intros (j & Hj & -> & ->). exists j. split; [reflexivity|]. apply in_seq. lia.
  Qed.
  Lemma length_emit : forall cs, length (emit cs) = length cs.
  Proof. intros. unfold emit, bufs. rewrite map_length, seq_length. reflexivity. Qed.

  (* without any hypothesis on the entries: buffer j goes to offset alloc j *)
  Lemma w_run_keys : forall xs,
    let st := w_run len ser strict avail btype alloc xs in
    map fst (w_out st) = map alloc (seq 0 (w_idx st)).
  Proof.
    intros xs. cbv zeta. unfold w_run.
    apply (fold_left_inv (w_put len ser strict avail btype alloc)
             (fun st => map fst (w_out st) = map alloc (seq 0 (w_idx st)))); [|reflexivity].
    intros st x H. unfold w_put.
    destruct (overflows strict avail (w_pos st) (len x)); cbn [w_out w_idx w_switch]; [|exact H].
    rewrite map_app, H, seq_S, map_app. reflexivity.
  Qed.
  Lemma w_flush_keys : forall st,
    map fst (w_out st) = map alloc (seq 0 (w_idx st)) ->
    map fst (w_flush avail btype alloc st) = map alloc (seq 0 (S (w_idx st))).
  Proof. intros st H. unfold w_flush. rewrite map_app, H, seq_S, map_app. reflexivity. Qed.
End WriterProofs.
