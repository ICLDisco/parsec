(* Several chains in one file: every chain takes its offsets from its own row
   of an injective allocation, so the chains do not disturb each other
   (stream_roundtrip, encode_stream_roundtrip).  Also here: the buffers that
   the events of one stream become (enc_events_spec; enc_events_layout: no event
   lies across two buffers), a trace of n streams interleaved
   (streams_of_trace), and the arithmetic of START_KEY / END_KEY / BASE_KEY. *)
From PV Require Import Base.Tac Prof.ProfDefs Prof.ProfBytes Prof.ProfWriter Prof.ProfEvents.
From Coq Require Import NArith.
Local Open Scope N_scope.

(* every entry of [l] sits at an offset of the row [al], and its content is a function of the index *)
Definition chain_fun (al : nat -> N) (l : list (N * list N)) : Prop :=
  exists f : nat -> list N, forall k v, In (k, v) l -> exists j, k = al j /\ v = f j.

Lemma in_concat_snd {K B} : forall (chains : list (K * list B)) x,
  In x (concat (map snd chains)) <-> exists c l, In (c, l) chains /\ In x l.
Proof.
  intros chains x. rewrite in_concat. split.
  - intros (l & Hl & Hx). apply in_map_iff in Hl. destruct Hl as ([c l'] & <- & Hin). exists c, l'. split; assumption.
  - intros (c & l & Hin & Hx). exists l. split; [|exact Hx]. apply in_map_iff. exists (c, l). split; [reflexivity|exact Hin].
Qed.
Lemma nodup_fst_fun {K B} : forall (l : list (K * B)) c x y,
  NoDup (map fst l) -> In (c, x) l -> In (c, y) l -> x = y.
Proof.
  induction l as [|[c0 z] l IH]; intros c x y Hnd Hx Hy; [destruct Hx|].
  cbn [map fst] in Hnd. inversion Hnd as [|? ? Hni Hnd']; subst.
  destruct Hx as [Hx|Hx], Hy as [Hy|Hy].
  - inversion Hx; inversion Hy; subst; reflexivity.
  - inversion Hx; subst. destruct Hni. apply (in_map fst _ _ Hy).
  - inversion Hy; subst. destruct Hni. apply (in_map fst _ _ Hx).
  - eapply IH; eauto.
Qed.
Lemma length_in_concat_snd {K B} : forall (chains : list (K * list B)) c l,
  In (c, l) chains -> (length l <= length (concat (map snd chains)))%nat.
Proof.
  induction chains as [|[c0 l0] chains IH]; intros c l Hin; [destruct Hin|].
  cbn [map snd concat]. rewrite app_length. destruct Hin as [Hin|Hin].
  - inversion Hin; subst. lia.
  - specialize (IH c l Hin). lia.
Qed.

Definition evs_ok (il : list N) (avail : N) (evs : list event) : Prop :=
  Forall (fun e => ev_ok il e /\ ev_len il e <= avail) evs.

Lemma evs_item_ok : forall il avail evs,
  evs_ok il avail evs -> Forall (item_ok (ev_len il) true avail) evs.
Proof.
  intros il avail evs H. eapply Forall_impl; [|exact H]. intros e [_ Hl]. split; [|exact Hl].
  unfold ev_len. lia.
Qed.

(* what enc_events sends to the file *)
Theorem enc_events_spec : forall il avail al evs,
  evs_ok il avail evs -> evs <> [] ->
  exists cs, concat cs = evs /\ cs <> [] /\ Forall (chunk_ok (ev_len il) true avail) cs /\
             enc_events il avail al evs = emit ser_event avail BT_EVENTS al cs.
Proof.
  intros il avail al evs Hok Hne.
  destruct (writer_spec (ev_len il) ser_event true avail BT_EVENTS al evs (evs_item_ok _ _ _ Hok) Hne)
    as (cs & Hcat & Hcs & Hch & Hfl & Hpos).
  exists cs. repeat apply conj; auto. unfold enc_events.
  destruct (w_pos (w_run (ev_len il) ser_event true avail BT_EVENTS al evs) =? 0) eqn:E.
  - apply N.eqb_eq in E. contradiction.
  - exact Hfl.
Qed.
Lemma enc_events_nil : forall il avail al, enc_events il avail al [] = [].
Proof. reflexivity. Qed.
Lemma evs_ok_chunk : forall il avail cs c, evs_ok il avail (concat cs) -> In c cs -> Forall (ev_ok il) c.
Proof.
  intros il avail cs c Hok Hc. apply Forall_concat in Hok. rewrite Forall_forall in Hok.
  eapply Forall_impl; [|exact (Hok c Hc)]. intros e He. apply He.
Qed.

Section File.
  Variable alloc : nat -> nat -> N.
  Hypothesis Hinj : forall c j c' j', alloc c j = alloc c' j' -> c = c' /\ j = j'.
  Variable chains : list (nat * list (N * list N)).
  Hypothesis Hnd : NoDup (map fst chains).
  Hypothesis Hcf : forall c l, In (c, l) chains -> chain_fun (alloc c) l.
  Definition whole : list (N * list N) := concat (map snd chains).

  Lemma whole_functional : forall k v v', In (k, v) whole -> In (k, v') whole -> v = v'.
  Proof.
    intros k v v' H1 H2. unfold whole in *.
    apply in_concat_snd in H1. destruct H1 as (c1 & l1 & Hc1 & Hl1).
    apply in_concat_snd in H2. destruct H2 as (c2 & l2 & Hc2 & Hl2).
    destruct (Hcf c1 l1 Hc1) as (f1 & Hf1). destruct (Hcf c2 l2 Hc2) as (f2 & Hf2).
    destruct (Hf1 k v Hl1) as (j1 & Hk1 & Hv1). destruct (Hf2 k v' Hl2) as (j2 & Hk2 & _).
    (* same key, so same row, so same chain; then both values are f1 at the same index *)
    assert (c1 = c2) by (apply (Hinj c1 j1 c2 j2); congruence). subst c2.
    assert (l1 = l2) by (eapply nodup_fst_fun; eauto). subst l2.
    destruct (Hf1 k v' Hl2) as (i2 & Hi2 & Hv2).
    assert (j1 = i2) by (apply (Hinj c1 j1 c1 i2); congruence). subst. reflexivity.
  Qed.

  Lemma whole_lookup : forall c l k v, In (c, l) chains -> In (k, v) l -> lookup k whole = Some v.
  Proof.
    intros c l k v Hc Hl.
    assert (Hin : In (k, v) whole) by (apply in_concat_snd; exists c, l; split; assumption).
    apply lookup_in; [exact Hin|]. intros v' Hv'. eapply whole_functional; eauto.
  Qed.

  Lemma whole_lookup_emit {A} : forall (ser : A -> list N) avail bt c cs j,
    In (c, emit ser avail bt (alloc c) cs) chains -> (j < length cs)%nat ->
    lookup (alloc c j) whole = Some (cbuf ser avail bt (next_of (alloc c) (length cs) j) (nth j cs []) (alloc c j)).
  Proof.
    intros ser avail bt c cs j Hc Hj. eapply whole_lookup; [exact Hc|].
    apply in_emit. exists j. repeat split; auto.
  Qed.

  Hypothesis Halloc : forall c j, alloc c j < NOOFF.
  Variable il : list N.
  Variable avail : N.
  Hypothesis Havail : avail < 4294967296.

  Theorem stream_roundtrip : forall c evs fuel,
    In (c, enc_events il avail (alloc c) evs) chains ->
    evs_ok il avail evs -> evs <> [] ->
    (length whole <= fuel)%nat ->
    dec_chain fuel (fun o => lookup o whole) il (alloc c 0%nat) = evs.
  Proof.
    intros c evs fuel Hin Hok Hne Hfuel.
    destruct (enc_events_spec il avail (alloc c) evs Hok Hne) as (cs & Hcat & Hcs & Hch & Henc).
    rewrite Henc in Hin. rewrite <- Hcat.
    apply (dec_chain_emit il avail (alloc c) cs (fun o => lookup o whole)).
    - intros j. apply Halloc.
    - intros j Hj. apply (whole_lookup_emit ser_event avail BT_EVENTS c cs j Hin Hj).
    - pose proof (evs_item_ok _ _ _ Hok) as Hit. rewrite <- Hcat in Hok, Hit. apply Forall_concat in Hit.
      rewrite Forall_forall in *. intros ch Hch'. destruct (Hch ch Hch') as [Hne' Hw].
      repeat apply conj; [exact Hne'|exact (evs_ok_chunk _ _ _ _ Hok Hch')|].
      (* a chunk has at most avail < 2^32 events, so its count fits the 64-bit nb_events field *)
      pose proof (length_le_sumlen _ _ _ ch (Hit ch Hch')). unfold within in Hw. lia.
    - exact Hcs.
    - pose proof (length_in_concat_snd chains c _ Hin) as Hl. rewrite length_emit in Hl. unfold whole in Hfuel. lia.
  Qed.
End File.

Lemma chain_fun_keys : forall al l n, map fst l = map al (seq 0 n) -> chain_fun al l.
Proof.
  intros al l n H. exists (fun j => nth j (map snd l) []). intros k v Hin.
  assert (Hn : n = length l) by (apply (f_equal (@length N)) in H; rewrite !map_length, seq_length in H; lia).
  destruct (In_nth l (k, v) (0, []) Hin) as (j & Hj & Hnth). exists j. split.
  - assert (Hk : nth j (map fst l) (fst (0, @nil N)) = k) by (rewrite map_nth, Hnth; reflexivity).
    cbn [fst] in Hk. rewrite H in Hk. rewrite <- Hk.
    rewrite (nth_indep _ 0 (al 0%nat)) by (rewrite map_length, seq_length; lia).
    rewrite (map_nth al (seq 0 n) 0%nat j), seq_nth by lia. reflexivity.
  - change (@nil N) with (snd (0, @nil N)). rewrite map_nth, Hnth. reflexivity.
Qed.
Lemma chain_fun_enc_events_any : forall il avail al evs, chain_fun al (enc_events il avail al evs).
Proof.
  intros il avail al evs. unfold enc_events.
  pose proof (w_run_keys (ev_len il) ser_event true avail BT_EVENTS al evs) as Hk. cbv zeta in Hk.
  destruct (w_pos _ =? 0).
  - eapply chain_fun_keys, Hk.
  - eapply chain_fun_keys. apply w_flush_keys, Hk.
Qed.
Lemma chain_fun_enc_events : forall il avail al evs, evs_ok il avail evs -> chain_fun al (enc_events il avail al evs).
Proof. intros il avail al evs _. apply chain_fun_enc_events_any. Qed.
Lemma chain_fun_enc_table : forall avail bt al xs, chain_fun al (enc_table avail bt al xs).
Proof.
  intros avail bt al xs. unfold enc_table. eapply chain_fun_keys.
  apply w_flush_keys. apply (w_run_keys (fun x : list N => N.of_nat (length x)) (fun x => x) false avail bt al xs).
Qed.

Lemma map_fst_indexed {A} : forall (l : list A) a, map fst (indexed a l) = seq a (length l).
Proof. induction l as [|x l IH]; intros a; cbn [indexed map length seq fst]; [reflexivity|]. rewrite IH. reflexivity. Qed.
Lemma in_indexed {A} : forall (l : list A) a i x,
  In (i, x) (indexed a l) <-> (a <= i)%nat /\ nth_error l (i - a) = Some x.
Proof.
  induction l as [|y l IH]; intros a i x; cbn [indexed In].
  - split; [intros []|]. intros [_ H]. destruct (i - a)%nat; discriminate.
  - rewrite IH. split.
    + intros [H|[Hle H]].
      * inversion H; subst. rewrite Nat.sub_diag. split; [lia|reflexivity].
      * split; [lia|]. replace (i - a)%nat with (S (i - S a)) by lia. exact H.
    + intros [Hle H]. destruct (Nat.eq_dec i a) as [->|Hne].
      * left. rewrite Nat.sub_diag in H. cbn in H. inversion H; reflexivity.
      * right. split; [lia|]. replace (i - a)%nat with (S (i - S a)) in H by lia. exact H.
Qed.

Definition dict_chain avail alloc (d : list kent) : list (N * list N) :=
  enc_table avail BT_DICT (alloc 0%nat) (map ser_key d).
Definition stored (ss : list stream) : list (nat * stream) :=
  filter (fun p => has_events (snd p)) (indexed 0 ss).
Definition thread_chain avail (alloc : nat -> nat -> N) (ss : list stream) : list (N * list N) :=
  enc_table avail BT_THREAD (alloc 1%nat)
    (map (fun p => ser_thread (thread_of avail alloc (fst p) (snd p))) (stored ss)).
Definition chains_of avail (alloc : nat -> nat -> N) (d : list kent) (ss : list stream)
  : list (nat * list (N * list N)) :=
  (0%nat, dict_chain avail alloc d) :: (1%nat, thread_chain avail alloc ss)
  :: map (fun p => ((2 + fst p)%nat, enc_events (map k_ilen d) avail (alloc (2 + fst p)%nat) (s_events (snd p))))
         (indexed 0 ss).

Lemma encode_whole : forall avail alloc d ss, encode avail alloc d ss = whole (chains_of avail alloc d ss).
Proof.
  intros. unfold encode, whole, chains_of, dict_chain, thread_chain, stored.
  cbn [map snd concat]. rewrite map_map. cbn [snd]. reflexivity.
Qed.
Lemma chains_of_nodup : forall avail alloc d ss, NoDup (map fst (chains_of avail alloc d ss)).
Proof.
  intros. unfold chains_of. cbn [map fst]. rewrite map_map. cbn [fst].
  rewrite <- (map_map fst (fun i => (2 + i)%nat)), map_fst_indexed.
  change (fun i => (2 + i)%nat) with (fun i => S (S i)).
  rewrite <- (map_map S S), !seq_shift.
  change (0%nat :: 1%nat :: seq 2 (length ss)) with (seq 0 (2 + length ss)). apply seq_NoDup.
Qed.
Lemma chains_of_fun : forall avail alloc d ss c l,
  In (c, l) (chains_of avail alloc d ss) -> chain_fun (alloc c) l.
Proof.
  intros avail alloc d ss c l Hin. unfold chains_of in Hin.
  destruct Hin as [H|[H|H]].
  - inversion H; subst. apply chain_fun_enc_table.
  - inversion H; subst. apply chain_fun_enc_table.
  - apply in_map_iff in H. destruct H as ([i s] & Heq & _). inversion Heq; subst. apply chain_fun_enc_events_any.
Qed.

(* the events of stream number i of a whole profile, whatever the other streams logged *)
Theorem encode_stream_roundtrip : forall avail alloc d ss i s fuel,
  (forall c j c' j', alloc c j = alloc c' j' -> c = c' /\ j = j') ->
  (forall c j, alloc c j < NOOFF) ->
  avail < 4294967296 ->
  nth_error ss i = Some s ->
  evs_ok (map k_ilen d) avail (s_events s) -> s_events s <> [] ->
  (length (encode avail alloc d ss) <= fuel)%nat ->
  dec_chain fuel (fun o => lookup o (encode avail alloc d ss)) (map k_ilen d) (alloc (2 + i)%nat 0%nat) = s_events s.
Proof.
  intros avail alloc d ss i s fuel Hinj Hlt Hav Hnth Hok Hne Hfuel.
  rewrite encode_whole in *.
  apply (stream_roundtrip alloc Hinj (chains_of avail alloc d ss) (chains_of_nodup _ _ _ _)
           (chains_of_fun _ _ _ _) Hlt (map k_ilen d) avail Hav (2 + i)%nat (s_events s) fuel); auto.
  unfold chains_of. right. right. apply in_map_iff. exists (i, s). split; [reflexivity|].
  apply in_indexed. split; [lia|]. rewrite Nat.sub_0_r. exact Hnth.
Qed.

(* no event is split between two buffers: the file holds, for a sequence of
   chunks of the logged events, one buffer of exactly 25 + avail bytes per
   chunk, made of the header, the events of the chunk back to back, zeros *)
Theorem enc_events_layout : forall il avail al evs,
  evs_ok il avail evs -> evs <> [] ->
  exists cs, concat cs = evs /\
    enc_events il avail al evs =
      map (fun j => (al j, ser_buffer avail (al j) (next_of al (length cs) j)
                             (N.of_nat (length (nth j cs []))) BT_EVENTS (flat ser_event (nth j cs []))))
          (seq 0 (length cs)) /\
    Forall (fun c => c <> [] /\ N.of_nat (length (flat ser_event c)) <= avail) cs /\
    Forall (fun kv => length (snd kv) = (25 + N.to_nat avail)%nat) (enc_events il avail al evs).
Proof.
  intros il avail al evs Hok Hne.
  destruct (enc_events_spec il avail al evs Hok Hne) as (cs & Hcat & _ & Hch & Henc).
  (* the events of a chunk are well formed, so their bytes are as many as the writer counted *)
  assert (Hlen : Forall (fun c => c <> [] /\ N.of_nat (length (flat ser_event c)) <= avail) cs).
  { rewrite <- Hcat in Hok. rewrite Forall_forall in *. intros c Hc. destruct (Hch c Hc) as [Hn Hw].
    split; [exact Hn|]. rewrite (length_flat_ser_event il) by exact (evs_ok_chunk _ _ _ _ Hok Hc). exact Hw. }
  exists cs. rewrite Henc. repeat apply conj; [exact Hcat|reflexivity|exact Hlen|].
  rewrite Forall_forall in *. intros [k v] Hin. apply in_emit in Hin.
  destruct Hin as (j & Hj & _ & ->). apply length_ser_buffer.
  destruct (Hlen (nth j cs [])) as [_ Hl]; [apply nth_In; exact Hj|]. lia.
Qed.

(* the calls of n streams interleaved in time *)
Definition streams_of_trace (n : nat) (hr : nat -> list N) (infos : nat -> list (list N * list N))
                            (tr : list (nat * event)) : list stream :=
  map (fun i => mk_stream (hr i) (infos i) (proj i tr)) (seq 0 n).
Lemma nth_error_streams_of_trace : forall n hr infos tr i,
  (i < n)%nat -> nth_error (streams_of_trace n hr infos tr) i = Some (mk_stream (hr i) (infos i) (proj i tr)).
Proof.
  intros n hr infos tr i Hi. unfold streams_of_trace.
  rewrite nth_error_map, nth_error_nth' with (d := 0%nat) by (rewrite seq_length; exact Hi).
  rewrite seq_nth by exact Hi. reflexivity.
Qed.

Lemma key_of_base : forall k b,
  base_key (key_of k b) = k /\ key_is_end (key_of k b) = b /\ key_is_start (key_of k b) = negb b.
Proof.
  intros k b. unfold key_is_end, key_is_start, base_key, key_of, end_key, start_key.
  assert (H1 : (2 * k + 1) / 2 = k) by (symmetry; apply (N.div_unique (2 * k + 1) 2 k 1); lia).
  assert (H0 : (2 * k) / 2 = k) by (symmetry; apply (N.div_unique (2 * k) 2 k 0); lia).
  destruct b; rewrite ?H1, ?H0; repeat split; cbn [negb];
    try apply N.eqb_refl; apply N.eqb_neq; lia.
Qed.
Lemma base_key_of : forall key, key_of (base_key key) (key_is_end key) = key.
Proof.
  intros key. unfold key_is_end, base_key, key_of, end_key, start_key.
  pose proof (N.div_mod key 2 ltac:(lia)) as Hd. pose proof (N.mod_lt key 2 ltac:(lia)) as Hm.
  remember (key / 2) as q eqn:Hq. remember (key mod 2) as m eqn:Hmm. clear Hq Hmm.
  destruct (key =? 2 * q + 1) eqn:E.
  - apply N.eqb_eq in E. lia.
  - apply N.eqb_neq in E. lia.
Qed.
