(* The infos of a thread entry (dump_thread after the repair 54d29e4: an info
   that does not fit is skipped) and the loop as it was before. *)
From PV Require Import Base.Tac Prof.ProfDefs Prof.ProfBytes Prof.ProfTables.
From Coq Require Import NArith.
Local Open Scope N_scope.

Definition infos_sz (infos : list (list N * list N)) : N := fold_right (fun kv a => info_sz kv + a) 0 infos.

(* thread_size() and the copy loop make the same choices: the entry is as long as
   thread_size says, it always ends before the end of the buffer, and the copy
   loop keeps the same infos wherever the entry is placed *)
Lemma thread_size_kept : forall avail infos s,
  thread_size_from avail s infos = s + infos_sz (kept_from avail s infos).
Proof.
  intros avail infos. unfold infos_sz. induction infos as [|kv r IH]; intros s; cbn [thread_size_from kept_from fold_right].
  - lia.
  - destruct (avail <=? s + info_sz kv); [apply IH|]. rewrite IH. cbn [fold_right]. lia.
Qed.
Lemma thread_size_lt : forall avail infos s, s < avail -> thread_size_from avail s infos < avail.
Proof.
  intros avail infos. induction infos as [|kv r IH]; intros s Hs; cbn [thread_size_from]; [exact Hs|].
  destruct (avail <=? s + info_sz kv) eqn:E; [apply IH, Hs|]. apply N.leb_gt in E. apply IH, E.
Qed.
Lemma kept_shift : forall avail infos s p,
  p + thread_size_from avail s infos < avail ->
  kept_from avail (p + s) infos = kept_from avail s infos.
Proof.
  intros avail infos.
  induction infos as [|kv r IH]; intros s p Hp; cbn [thread_size_from kept_from] in *; [reflexivity|].
  destruct (avail <=? s + info_sz kv) eqn:E.
  - apply N.leb_le in E.
    destruct (avail <=? p + s + info_sz kv) eqn:E1; [|apply N.leb_gt in E1; lia].
    apply IH, Hp.
  - apply N.leb_gt in E.
    pose proof (thread_size_kept avail r (s + info_sz kv)) as Hk.
    destruct (avail <=? p + s + info_sz kv) eqn:E1; [apply N.leb_le in E1; lia|].
    replace (p + s + info_sz kv) with (p + (s + info_sz kv)) by lia. rewrite (IH _ _ Hp). reflexivity.
Qed.
Theorem kept_position_independent : forall avail infos p,
  p + thread_size_from avail 156 infos < avail ->
  kept_from avail (p + 156) infos = kept_infos avail infos.
Proof. intros avail infos p Hp. apply (kept_shift avail infos 156 p Hp). Qed.

Lemma kept_all : forall avail infos s, s + infos_sz infos < avail -> kept_from avail s infos = infos.
Proof.
  intros avail infos. unfold infos_sz. induction infos as [|kv r IH]; intros s Hs; cbn [kept_from fold_right] in *; [reflexivity|].
  destruct (avail <=? s + info_sz kv) eqn:E; [apply N.leb_le in E; lia|].
  rewrite IH by lia. reflexivity.
Qed.
Theorem kept_infos_all_when_fit : forall avail infos,
  156 + infos_sz infos < avail -> kept_infos avail infos = infos /\ omits avail infos = false.
Proof.
  intros avail infos H. unfold omits. rewrite (kept_all avail infos 156 H : kept_infos avail infos = infos).
  rewrite Nat.eqb_refl. split; reflexivity.
Qed.
(* what is kept is a subsequence, in order, of what was added *)
Lemma kept_incl : forall avail infos s kv, In kv (kept_from avail s infos) -> In kv infos.
Proof.
  intros avail infos. induction infos as [|k r IH]; intros s kv Hin; cbn [kept_from] in Hin; [destruct Hin|].
  destruct (avail <=? s + info_sz k).
  - right. eapply IH, Hin.
  - destruct Hin as [->|Hin]; [left; reflexivity|right; eapply IH, Hin].
Qed.
Lemma kept_length : forall avail infos s, (length (kept_from avail s infos) <= length infos)%nat.
Proof.
  intros avail infos. induction infos as [|k r IH]; intros s; cbn [kept_from length]; [lia|].
  destruct (avail <=? s + info_sz k); [specialize (IH s)|specialize (IH (s + info_sz k)); cbn [length]]; lia.
Qed.
Lemma too_large_omitted : forall avail infos s kv,
  avail <= 156 + info_sz kv -> 156 <= s -> ~ In kv (kept_from avail s infos).
Proof.
  intros avail infos. induction infos as [|k r IH]; intros s kv Hbig Hs Hin; cbn [kept_from] in Hin; [destruct Hin|].
  destruct (avail <=? s + info_sz k) eqn:E.
  - eapply IH; eauto.
  - apply N.leb_gt in E. destruct Hin as [->|Hin]; [lia|]. eapply (IH (s + info_sz k)); eauto. lia.
Qed.

Lemma infos_sz_ser : forall infos, infos_sz infos = N.of_nat (length (concat (map ser_info infos))).
Proof.
  induction infos as [|kv r IH]; cbn [infos_sz fold_right map concat]; [reflexivity|].
  fold (infos_sz r). rewrite IH, app_length, length_ser_info, Nat2N.inj_add. reflexivity.
Qed.

(* where the loop before the repair returned, the repaired one copies the same infos *)
Theorem repaired_loop_agrees_with_prefix : forall avail infos pos p,
  copy_infos_prefix avail pos infos = Some p ->
  kept_from avail pos infos = infos /\ p = pos + infos_sz infos.
Proof.
  intros avail infos. unfold infos_sz. induction infos as [|kv r IH]; intros pos p H; cbn [copy_infos_prefix kept_from fold_right] in *.
  - inversion H. split; [reflexivity|lia].
  - destruct (avail <=? pos + info_sz kv); [discriminate|].
    destruct (IH _ _ H) as [H1 H2]. rewrite H1. split; [reflexivity|lia].
Qed.
