(* Proofs for PTGVal/ValEngine.v: for EVERY schedule, on a hazard-free (Safe) program,
   the body of every task reads exactly the values the JDF names (Vin), and the final
   memory of a complete run does not depend on the schedule. *)
From Coq Require Import ZArith List Arith Bool Lia.
From PV Require Import Base.Tac PTG.Engine PTG.EngineProofs PTGVal.ValEngine.
Import ListNotations.

Section ValEngineProofs.
  Variable task : Type.
  Variable teq : forall a b : task, {a = b} + {a <> b}.
  Variable tasks : list task.
  Variable preds succs : task -> list task.
  Variable nfl : task -> nat.
  Variable src : task -> nat -> source task.
  Variable reads writes : task -> nat -> bool.
  Variable wbs : task -> list (nat * Z).
  Variable F : task -> nat -> list (nat * Z) -> Z.
  Variable D0 : Z -> Z.
  Variable U0 : task -> nat -> Z.
  Variable rank : task -> nat.

  (* the finite DAG (as in EngineProofs) *)
  Hypothesis H_conv : forall p t, In p tasks -> In t tasks ->
                                  count_occ teq (succs p) t = count_occ teq (preds t) p.
  Hypothesis H_succ_in : forall p s, In p tasks -> In s (succs p) -> In s tasks.
  Hypothesis H_pred_in : forall t p, In t tasks -> In p (preds t) -> In p tasks.
  Hypothesis H_rank : forall t p, In t tasks -> In p (preds t) -> rank p < rank t.
  (* a data input from a task is one of the dependency edges *)
  Hypothesis H_src : forall t f p fp, In t tasks -> src t f = STask p fp -> In p (preds t).
  (* written flows are flows of the class *)
  Hypothesis H_wr_nfl : forall t f, writes t f = true -> f < nfl t.

  Local Notation cellT := (cell task).
  Local Notation vstateT := (vstate task).
  Local Notation vstepE := (vstep task teq tasks succs nfl src reads writes wbs F).
  Local Notation vinitE := (vinit task teq tasks preds D0 U0).
  Local Notation vrunE := (vrun task teq tasks preds succs nfl src reads writes wbs F D0 U0).
  Local Notation BE := (B task src rank).
  Local Notation BnE := (Bn task src).
  Local Notation VoutE := (Vout task nfl src reads writes F D0 U0 rank).
  Local Notation VonE := (Von task nfl src reads writes F D0 U0).
  Local Notation VinE := (Vin task nfl src reads writes F D0 U0 rank).
  Local Notation expectedE := (expected_reads task nfl src reads writes F D0 U0 rank).
  Local Notation ancE := (anc task preds).
  Local Notation SafeE := (Safe task tasks preds src writes wbs rank).
  Local Notation InvE := (Inv task teq tasks preds).
  Local Notation stE := (st task).
  Local Notation rflowsE := (rflows task nfl reads).
  Local Notation init_memE := (init_mem task D0 U0).
  Local Notation cdec := (cell_eq_dec task teq).

  Hypothesis H_safe : SafeE.

  Lemma src_pred t f p fp : In t tasks -> src t f = STask p fp ->
    In p (preds t) /\ In p tasks /\ rank p < rank t.
  Proof.
    intros Ht Es. pose proof (H_src t f p fp Ht Es) as Hp.
    split; [assumption|]. split; [apply (H_pred_in t p Ht Hp)|apply (H_rank t p Ht Hp)].
  Qed.

  (* induction along the dependencies *)
  Lemma preds_ind (Q : task -> Prop) :
    (forall t, In t tasks -> (forall p, In p (preds t) -> Q p) -> Q t) -> forall t, In t tasks -> Q t.
  Proof.
    intros step. assert (H : forall n t, rank t < n -> In t tasks -> Q t).
    { induction n as [|n IH]; intros t Hr Ht; [lia|]. apply (step t Ht). intros p Hp.
      pose proof (H_rank t p Ht Hp). apply IH; [lia|apply (H_pred_in t p Ht Hp)]. }
    intros t. apply (H (S (rank t))). lia.
  Qed.

  Lemma Bn_indep t : In t tasks -> forall f n m, rank t < n -> rank t < m -> BnE n t f = BnE m t f.
  Proof.
    revert t. refine (preds_ind _ _). intros t Ht IH f [|n] [|m] Hn Hm; try lia. cbn [Bn].
    destruct (src t f) as [|p fp|k| |] eqn:Es; try reflexivity.
    destruct (src_pred t f p fp Ht Es) as (Hp & _ & Hr). apply (IH p Hp); lia.
  Qed.

  Lemma B_eq t f : In t tasks ->
    BE t f = match src t f with
             | STask p fp => BE p fp
             | SMem k => Some (CMem k)
             | SNew => Some (CNew t f)
             | _ => None
             end.
  Proof.
    intros Ht. unfold B at 1. cbn [Bn].
    destruct (src t f) as [|p fp|k| |] eqn:Es; try reflexivity.
    destruct (src_pred t f p fp Ht Es) as (_ & Hp & Hr). apply Bn_indep; [assumption|lia|lia].
  Qed.

  Lemma Von_indep t : In t tasks -> forall f n m, rank t < n -> rank t < m -> VonE n t f = VonE m t f.
  Proof.
    revert t. refine (preds_ind _ _). intros t Ht IH f [|n] [|m] Hn Hm; try lia. cbn [Von].
    assert (Hv : forall g, match src t g with STask p fp => VonE n p fp | SMem k => D0 k | SNew => U0 t g | _ => vnull end
                         = match src t g with STask p fp => VonE m p fp | SMem k => D0 k | SNew => U0 t g | _ => vnull end).
    { intros g. destruct (src t g) as [|p fp|k| |] eqn:Es; try reflexivity.
      destruct (src_pred t g p fp Ht Es) as (Hp & _ & Hr). apply (IH p Hp); lia. }
    destruct (writes t f); [|apply Hv].
    f_equal. apply map_ext. intros g. rewrite Hv. reflexivity.
  Qed.

  Lemma Vin_fuel t g : In t tasks ->
    match src t g with STask p fp => VonE (rank t) p fp | SMem k => D0 k | SNew => U0 t g | _ => vnull end = VinE t g.
  Proof.
    intros Ht. unfold Vin. destruct (src t g) as [|p fp|k| |] eqn:Es; try reflexivity.
    destruct (src_pred t g p fp Ht Es) as (_ & Hp & Hr). apply Von_indep; [assumption|lia|lia].
  Qed.

  Lemma Vout_eq t f : In t tasks ->
    VoutE t f = if writes t f then F t f (expectedE t) else VinE t f.
  Proof.
    intros Ht. unfold Vout. cbn [Von].
    destruct (writes t f); [|apply Vin_fuel; assumption].
    f_equal. unfold expected_reads. apply map_ext. intros g. rewrite Vin_fuel by assumption. reflexivity.
  Qed.

  Lemma anc_in_rank p t : ancE p t -> In t tasks -> In p tasks /\ rank p < rank t.
  Proof.
    induction 1 as [p t Hp|p q t Hpq IH Hq]; intros Ht.
    - split; [apply (H_pred_in t p Ht Hp)|apply (H_rank t p Ht Hp)].
    - pose proof (H_pred_in t q Ht Hq) as Hqt. pose proof (H_rank t q Ht Hq).
      destruct (IH Hqt) as [H1 H2]. split; [assumption|lia].
  Qed.

  Lemma anc_irrefl t : In t tasks -> ~ ancE t t.
  Proof. intros Ht H. destruct (anc_in_rank t t H Ht). lia. Qed.
  Lemma anc_asym p t : In t tasks -> ancE p t -> ~ ancE t p.
  Proof.
    intros Ht H1 H2. destruct (anc_in_rank p t H1 Ht) as [Hp Hr].
    destruct (anc_in_rank t p H2 Hp). lia.
  Qed.

  (* a flow without copy holds NULL *)
  Lemma none_vin t : In t tasks -> forall g, BE t g = None -> VinE t g = vnull.
  Proof.
    revert t. refine (preds_ind _ _). intros t Ht IH g Hb.
    rewrite B_eq in Hb by assumption. unfold Vin.
    destruct (src t g) as [|p fp|k| |] eqn:Es; try reflexivity; try discriminate.
    destruct (src_pred t g p fp Ht Es) as (Hp & Hpt & _). rewrite (Vout_eq p fp Hpt).
    destruct (writes p fp) eqn:Ew; [destruct (sf_wr_cell _ _ _ _ _ _ _ H_safe p fp Hpt Ew Hb)|].
    apply (IH p Hp fp Hb).
  Qed.

  Definition cls (s : status) : nat := match s with Running => 1 | Done => 2 | _ => 0 end.
  Lemma cls_running s : cls s = 1 <-> s = Running.
  Proof. destruct s; cbn; split; intros H; try discriminate; reflexivity. Qed.
  Lemma cls_done s : cls s = 2 <-> s = Done.
  Proof. destruct s; cbn; split; intros H; try discriminate; reflexivity. Qed.
  Lemma cls_rel1 s : cls (rel1 s) = cls s.
  Proof. destruct s as [|[|[|n]]| | |]; reflexivity. Qed.
  Lemma cls_start1 s : cls (start1 s) = cls s.
  Proof. destruct s as [|[|n]| | |]; reflexivity. Qed.
  Lemma cls_iter k s : cls (Nat.iter k rel1 s) = cls s.
  Proof. induction k as [|k IH]; [reflexivity|]. rewrite iter_S, cls_rel1. exact IH. Qed.

  Local Notation stepE := (step task teq tasks succs).

  Lemma cls_step_begin c t : stE c t = Ready ->
    forall v, cls (stE (stepE c (Begin t)) v) = if teq v t then 1 else cls (stE c v).
  Proof.
    intros Ht v. cbn [step]. rewrite Ht. cbn [st].
    destruct (teq v t) as [->|Hne]; [rewrite upd_same; reflexivity|rewrite upd_other by assumption; reflexivity].
  Qed.
  Lemma cls_step_end c t : stE c t = Running ->
    forall v, cls (stE (stepE c (End t)) v) = if teq v t then 2 else cls (stE c v).
  Proof.
    intros Ht v. cbn [step]. rewrite Ht. cbn [st].
    rewrite fold_release, cls_iter.
    destruct (teq v t) as [->|Hne]; [rewrite upd_same; reflexivity|rewrite upd_other by assumption; reflexivity].
  Qed.
  Lemma cls_step_begin_off c t : stE c t <> Ready -> stepE c (Begin t) = c.
  Proof. intros Ht. cbn [step]. destruct (stE c t); try reflexivity. congruence. Qed.
  Lemma cls_step_end_off c t : stE c t <> Running -> stepE c (End t) = c.
  Proof. intros Ht. cbn [step]. destruct (stE c t); try reflexivity. congruence. Qed.
  Lemma cls_step_startup c v : cls (stE (stepE c Startup) v) = cls (stE c v).
  Proof.
    cbn [step st]. rewrite fold_start. destruct (in_dec teq v tasks); [apply cls_start1|reflexivity].
  Qed.
  Lemma cls_step_startup1 c t v : cls (stE (stepE c (StartupOne t)) v) = cls (stE c v).
  Proof.
    cbn [step st]. unfold start_one.
    destruct (teq v t) as [->|Hne]; [rewrite upd_same; apply cls_start1|rewrite upd_other by assumption; reflexivity].
  Qed.

  (* a task that has started (or is about to: Ready) has all its ancestors done *)
  Lemma preds_done c t p : InvE c -> In t tasks -> In p (preds t) ->
    (stE c t = Ready \/ stE c t = Running \/ stE c t = Done) -> stE c p = Done.
  Proof.
    intros I Ht Hp Hs. pose proof (inv_count _ _ _ _ c I t Ht) as Hc.
    apply (pending_zero_all_done task preds (stE c) t); [|assumption].
    destruct Hs as [Hs|[Hs|Hs]]; rewrite Hs in Hc; exact Hc.
  Qed.
  Lemma anc_done c p t : InvE c -> ancE p t -> In t tasks ->
    (stE c t = Ready \/ stE c t = Running \/ stE c t = Done) -> stE c p = Done.
  Proof.
    intros I H. induction H as [p t Hp|p q t Hpq IH Hq]; intros Ht Hs.
    - apply (preds_done c t p I Ht Hp Hs).
    - apply IH; [apply (H_pred_in t q Ht Hq)|]. right; right. apply (preds_done c t q I Ht Hq Hs).
  Qed.
  Local Notation mupdE := (mupd task teq).
  Lemma mupd_same m c v : mupdE m c v c = v.
  Proof. unfold mupd. destruct (cdec c c); congruence. Qed.
  Lemma mupd_other m c v x : x <> c -> mupdE m c v x = m x.
  Proof. unfold mupd. destruct (cdec x c); congruence. Qed.

  Local Notation write1E := (write1 task teq writes F).

  Lemma fold_nowrite (s : vstateT) t rv c : forall l m,
    (forall h, In h l -> writes t h = true -> bind task s t h <> Some c) ->
    fold_left (write1E s t rv) l m c = m c.
  Proof.
    induction l as [|a l IH]; intros m H; cbn [fold_left]; [reflexivity|].
    rewrite IH by (intros h Hh; apply H; right; assumption).
    unfold write1. destruct (writes t a) eqn:Ew; [|reflexivity].
    destruct (bind task s t a) as [c'|] eqn:Eb; [|reflexivity].
    apply mupd_other. intros ->. apply (H a (or_introl eq_refl) Ew). assumption.
  Qed.

  Lemma fold_write (s : vstateT) t rv c h : forall l m,
    NoDup l -> In h l -> writes t h = true -> bind task s t h = Some c ->
    (forall h', In h' l -> writes t h' = true -> bind task s t h' = Some c -> h' = h) ->
    fold_left (write1E s t rv) l m c = F t h rv.
  Proof.
    induction l as [|a l IH]; intros m Hnd Hin Hw Hb Hu; [destruct Hin|].
    cbn [fold_left]. inversion Hnd as [|a' l' Hna Hnd']; subst.
    destruct (Nat.eq_dec a h) as [->|Hne].
    - rewrite fold_nowrite.
      + unfold write1. rewrite Hw, Hb. apply mupd_same.
      + intros h' Hh' Hw' Hb'. apply Hna. rewrite <- (Hu h' (or_intror Hh') Hw' Hb'). assumption.
    - destruct Hin as [Hin|Hin]; [congruence|].
      apply IH; try assumption. intros h' Hh'. apply Hu. right; assumption.
  Qed.

  Lemma remove_nth_in {A} (x : A) : forall i l, In x (remove_nth i l) -> In x l.
  Proof.
    induction i as [|i IH]; intros [|a l] H; cbn [remove_nth] in H; try contradiction.
    - right; assumption.
    - destruct H as [H|H]; [left; assumption|right; apply IH; assumption].
  Qed.
  Lemma remove_nth_keep {A} (x y : A) : forall i l, nth_error l i = Some y -> x <> y -> In x l -> In x (remove_nth i l).
  Proof.
    induction i as [|i IH]; intros [|a l] Hn Hne Hin; cbn [nth_error remove_nth] in *; try discriminate.
    - inversion Hn; subst. destruct Hin as [Hin|Hin]; [congruence|assumption].
    - destruct Hin as [Hin|Hin]; [left; assumption|right; apply IH; assumption].
  Qed.
  Lemma remove_nth_length {A} : forall i (l : list A), i < length l -> length (remove_nth i l) = pred (length l).
  Proof.
    induction i as [|i IH]; intros [|a l] H; cbn [remove_nth length] in *; try lia.
    rewrite IH by lia. destruct l; cbn [length] in *; lia.
  Qed.

  (* a copy is the destination of a write-back (no flow is bound to it), or has its initial content
     and no writer has completed, or holds what its last completed writer left *)
  Definition CellOK (s : vstateT) (c : cellT) : Prop :=
    (exists t f k c0, c = CMem k /\ In t tasks /\ In (f, k) (wbs t) /\ BE t f = Some c0 /\ c0 <> CMem k)
    \/ ((forall v h, In v tasks -> BE v h = Some c -> writes v h = true -> stE (core task s) v <> Done)
        /\ mem task s c = init_memE c)
    \/ (exists v h, In v tasks /\ BE v h = Some c /\ writes v h = true /\ stE (core task s) v = Done
                    /\ mem task s c = VoutE v h
                    /\ (forall v' h', In v' tasks -> BE v' h' = Some c -> writes v' h' = true ->
                                      stE (core task s) v' = Done -> v' = v \/ ancE v' v)).

  Record VInv (s : vstateT) : Prop := {
    vi_core : InvE (core task s);
    vi_bind : forall t, In t tasks -> (stE (core task s) t = Running \/ stE (core task s) t = Done) ->
                        forall f, bind task s t f = BE t f;
    vi_rlog : forall t, In t tasks -> stE (core task s) t = Done -> rlog task s t = expectedE t;
    vi_cell : forall c, CellOK s c;
    (* a write-back of a completed task is still posted or has been performed ... *)
    vi_wb : forall t f k c, In t tasks -> In (f, k) (wbs t) -> BE t f = Some c -> c <> CMem k ->
                            stE (core task s) t = Done ->
                            In (c, k) (pend task s) \/ mem task s (CMem k) = VoutE t f;
    (* ... and a posted copy is the write-back of a completed task, whose value the source still holds *)
    vi_pend : forall c k, In (c, k) (pend task s) ->
                          exists t f, In t tasks /\ In (f, k) (wbs t) /\ BE t f = Some c /\ c <> CMem k
                                      /\ stE (core task s) t = Done /\ mem task s c = VoutE t f
  }.

  (* the clause of a copy depends on its content and on which of its writers are done *)
  Lemma CellOK_keep (s s' : vstateT) c : mem task s' c = mem task s c ->
    (forall v h, In v tasks -> BE v h = Some c -> writes v h = true ->
                 (stE (core task s') v = Done <-> stE (core task s) v = Done)) ->
    CellOK s c -> CellOK s' c.
  Proof.
    intros Hm Hd. unfold CellOK. rewrite Hm.
    intros [HT|[[Hnw Hmm]|(v & h & Hv & Hbv & Hwv & Hdv & Hmm & Hmax)]].
    - left. exact HT.
    - right; left. split; [|assumption]. intros v h Hv Hbv Hwv Hdone.
      apply (Hnw v h Hv Hbv Hwv). apply (Hd v h); assumption.
    - right; right. exists v, h. repeat split; try assumption; [apply (Hd v h); assumption|].
      intros v' h' Hv' Hb' Hw' Hd'. apply (Hmax v' h' Hv' Hb' Hw'). apply (Hd v' h'); assumption.
  Qed.

  Lemma VInv_init : VInv vinitE.
  Proof.
    assert (Hnd : forall t, stE (init task teq tasks preds) t <> Done /\ stE (init task teq tasks preds) t <> Running).
    { intros t. cbn. destruct (in_dec teq t tasks); split; discriminate. }
    split; cbn [vinit core bind mem rlog pend].
    - apply Inv_init.
    - intros t _ [H|H]; exfalso; destruct (Hnd t); auto.
    - intros t _ H. exfalso. destruct (Hnd t); auto.
    - intros c. right; left. split; [|reflexivity]. intros v h _ _ _. apply (Hnd v).
    - intros t f k c _ _ _ _ H. exfalso. destruct (Hnd t); auto.
    - intros c k [].
  Qed.

  (* A task t past its dependencies finds in a flow bound to the copy c the value its input names,
     provided every completed writer of c comes before t: by induction along the producers, up to
     the last completed writer or to where the copy originates *)
  Lemma held_value (s : vstateT) c : InvE (core task s) -> CellOK s c -> forall t, In t tasks ->
    forall g, BE t g = Some c ->
    (stE (core task s) t = Ready \/ stE (core task s) t = Running \/ stE (core task s) t = Done) ->
    (forall v h, In v tasks -> BE v h = Some c -> writes v h = true -> stE (core task s) v = Done -> ancE v t) ->
    mem task s c = VinE t g.
  Proof.
    intros I C. refine (preds_ind _ _). intros t Ht IH g Hb Hs Hw.
    destruct C as [(t0 & f0 & k0 & c0 & -> & Ht0 & Hwb & Hb0 & Hc0)|C];
      [destruct (sf_wb_tgt _ _ _ _ _ _ _ H_safe t0 f0 k0 c0 t g Ht0 Hwb Hb0 Hc0 Ht Hb)|].
    (* a completed writer is the producer named by the input of t, or comes before that producer *)
    assert (Hsrc : forall v h, In v tasks -> BE v h = Some c -> writes v h = true -> stE (core task s) v = Done ->
                   match src t g with STask p _ => v = p \/ ancE v p | _ => False end).
    { intros v h Hv Hbv Hwv Hdv. pose proof (Hw v h Hv Hbv Hwv Hdv) as Ha.
      assert (Hne : t <> v) by (intros ->; apply (anc_irrefl v Hv Ha)).
      destruct (sf_order _ _ _ _ _ _ _ H_safe t g v h c Ht Hv Hne Hb Hbv Hwv) as [Ho|[_ Ho]]; [|exact Ho].
      destruct (anc_asym v t Ht Ha Ho). }
    pose proof Hb as Hb'. rewrite (B_eq t g Ht) in Hb'. unfold Vin.
    destruct (src t g) as [|p fp|k| |] eqn:Es; try discriminate.
    2, 3: injection Hb' as <-;
      destruct C as [[_ Hm]|(v & h & Hv & Hbv & Hwv & Hdv & _)]; [exact Hm|destruct (Hsrc v h Hv Hbv Hwv Hdv)].
    destruct (src_pred t g p fp Ht Es) as (Hp & Hpt & _).
    pose proof (preds_done (core task s) t p I Ht Hp Hs) as Hdp.
    destruct (writes p fp) eqn:Ew.
    - (* the producer wrote the copy: it is the last completed writer *)
      destruct C as [[Hnw _]|(v & h & Hv & Hbv & Hwv & Hdv & Hm & Hmax)]; [destruct (Hnw p fp Hpt Hb' Ew Hdp)|].
      rewrite Hm. destruct (Hsrc v h Hv Hbv Hwv Hdv) as [->|Ha].
      + rewrite (sf_same _ _ _ _ _ _ _ H_safe p fp h c Hpt Hb' Hbv Hwv). reflexivity.
      + destruct (Hmax p fp Hpt Hb' Ew Hdp) as [->|Ha2];
          [destruct (anc_irrefl v Hv Ha)|destruct (anc_asym v p Hpt Ha Ha2)].
    - (* the producer forwards the copy it received *)
      rewrite (Vout_eq p fp Hpt), Ew. apply (IH p Hp fp Hb'); [right; right; assumption|].
      intros v h Hv Hbv Hwv Hdv. destruct (Hsrc v h Hv Hbv Hwv Hdv) as [->|Ha]; [|exact Ha].
      rewrite (sf_same _ _ _ _ _ _ _ H_safe p fp h c Hpt Hb' Hbv Hwv) in Ew. congruence.
  Qed.

  (* nobody writes the copies of a running task *)
  Lemma live_value (s : vstateT) t g c : VInv s -> In t tasks -> stE (core task s) t = Running ->
    BE t g = Some c -> mem task s c = VinE t g.
  Proof.
    intros V Ht Hs Hb. pose proof (vi_core s V) as I.
    apply (held_value s c I (vi_cell s V c) t Ht g Hb); [right; left; assumption|].
    (* a completed writer that t precedes would have waited for t *)
    intros v h Hv Hbv Hwv Hdv. assert (Hne : t <> v) by congruence.
    destruct (sf_order _ _ _ _ _ _ _ H_safe t g v h c Ht Hv Hne Hb Hbv Hwv) as [Ho|[Ho _]]; [|exact Ho].
    pose proof (anc_done (core task s) t v I Ho Hv (or_intror (or_intror Hdv))). congruence.
  Qed.

  Lemma rdval_running (s : vstateT) t g : VInv s -> In t tasks -> stE (core task s) t = Running ->
    rdval task s t g = VinE t g.
  Proof.
    intros V Ht Hs. unfold rdval. rewrite (vi_bind s V t Ht (or_introl Hs)).
    destruct (BE t g) as [c|] eqn:Eb; [apply (live_value s t g c V Ht Hs Eb)|].
    symmetry. apply none_vin; assumption.
  Qed.

  Lemma reads_ok (s : vstateT) t : VInv s -> In t tasks -> stE (core task s) t = Running ->
    body_reads task nfl reads s t = expectedE t.
  Proof.
    intros V Ht Hs. unfold body_reads, expected_reads. apply map_ext. intros g. f_equal.
    apply rdval_running; assumption.
  Qed.

  Lemma body_writes_other (s : vstateT) t rv c : VInv s -> In t tasks -> stE (core task s) t = Running ->
    (forall h, writes t h = true -> BE t h <> Some c) ->
    body_writes task teq nfl writes F s t rv c = mem task s c.
  Proof.
    intros V Ht Hs Hn. apply fold_nowrite. intros h _ Hw.
    rewrite (vi_bind s V t Ht (or_introl Hs)). apply Hn; assumption.
  Qed.

  (* what t leaves in the copies of its flows *)
  Lemma end_values (s : vstateT) t f c : VInv s -> In t tasks -> stE (core task s) t = Running ->
    BE t f = Some c -> body_writes task teq nfl writes F s t (expectedE t) c = VoutE t f.
  Proof.
    intros V Ht Hs Hb. pose proof (vi_bind s V t Ht (or_introl Hs)) as Hbind.
    rewrite (Vout_eq t f Ht). destruct (writes t f) eqn:Ew.
    - apply fold_write; [apply seq_NoDup| |assumption|rewrite Hbind; assumption|].
      + apply in_seq. pose proof (H_wr_nfl t f Ew). lia.
      + intros h _ Hw Hbh. rewrite Hbind in Hbh. apply (sf_same _ _ _ _ _ _ _ H_safe t h f c Ht Hbh Hb Ew).
    - rewrite (body_writes_other s t _ c V Ht Hs); [apply (live_value s t f c V Ht Hs Hb)|].
      intros h Hw Hbh. rewrite (sf_same _ _ _ _ _ _ _ H_safe t f h c Ht Hb Hbh Hw) in Ew. congruence.
  Qed.

  (* a step that changes neither memory, read log, posted copies nor which tasks are done: only the
     bindings of the tasks that run are to be established again *)
  Lemma VInv_same_done (s s' : vstateT) : VInv s -> InvE (core task s') ->
    (forall v, stE (core task s') v = Done <-> stE (core task s) v = Done) ->
    mem task s' = mem task s -> rlog task s' = rlog task s -> pend task s' = pend task s ->
    (forall t, In t tasks -> (stE (core task s') t = Running \/ stE (core task s') t = Done) ->
               forall f, bind task s' t f = BE t f) ->
    VInv s'.
  Proof.
    intros V I Hd Hm Hr Hp Hbind.
    split.
    - exact I.
    - exact Hbind.
    - intros t Ht Hs. rewrite Hr. apply (vi_rlog s V t Ht). apply Hd; assumption.
    - intros c. apply (CellOK_keep s); [rewrite Hm; reflexivity|intros v h _ _ _; apply Hd|apply (vi_cell s V c)].
    - intros t f k c Ht Hwb Hbc Hck Hs. rewrite Hp, Hm. apply (vi_wb s V t f k c Ht Hwb Hbc Hck). apply Hd; assumption.
    - intros c k Hin. rewrite Hp in Hin. destruct (vi_pend s V c k Hin) as (t & f & H1 & H2 & H3 & H4 & H5 & H6).
      exists t, f. rewrite Hm. repeat split; try assumption. apply Hd; assumption.
  Qed.

  (* in particular a step that changes no binding either and leaves every task in its class *)
  Lemma VInv_frame (s s' : vstateT) : VInv s -> InvE (core task s') ->
    (forall v, cls (stE (core task s') v) = cls (stE (core task s) v)) ->
    bind task s' = bind task s -> mem task s' = mem task s -> rlog task s' = rlog task s ->
    pend task s' = pend task s -> VInv s'.
  Proof.
    intros V I Hc Hb Hm Hr Hp.
    apply (VInv_same_done s); try assumption.
    - intros v. rewrite <- !cls_done, Hc. tauto.
    - intros t Ht Hs f. rewrite Hb. apply (vi_bind s V t Ht).
      rewrite <- !cls_running, <- !cls_done, Hc in *. assumption.
  Qed.

  (* whether t writes the copy c through one of its flows *)
  Lemma writer_dec t c :
    (exists h, writes t h = true /\ BE t h = Some c) \/ (forall h, writes t h = true -> BE t h <> Some c).
  Proof.
    assert (D : forall h, {writes t h = true /\ BE t h = Some c} + {~ (writes t h = true /\ BE t h = Some c)}).
    { intros h. destruct (writes t h); [|right; intros [H _]; discriminate].
      destruct (BE t h) as [c'|]; [|right; intros [_ H]; discriminate].
      destruct (cdec c' c) as [->|Hne]; [left; auto|right; intros [_ H]; congruence]. }
    destruct (Exists_dec _ (seq 0 (nfl t)) D) as [E|E].
    - left. apply Exists_exists in E. destruct E as (h & _ & Hh). exists h. exact Hh.
    - right. intros h Hw Hb. apply E, Exists_exists. exists h. split; [|auto].
      apply in_seq. pose proof (H_wr_nfl t h Hw). lia.
  Qed.

  Lemma in_new_copies (s : vstateT) t c k :
    In (c, k) (new_copies task teq wbs s t) <-> exists f, In (f, k) (wbs t) /\ bind task s t f = Some c /\ c <> CMem k.
  Proof.
    unfold new_copies. rewrite in_flat_map. split.
    - intros ([f k'] & Hin & H). cbn [fst snd] in H.
      destruct (bind task s t f) as [c'|] eqn:Eb; [|destruct H].
      destruct (cdec c' (CMem k')) as [->|Hne]; [destruct H|].
      destruct H as [H|[]]. inversion H; subst. exists f. repeat split; assumption.
    - intros (f & Hin & Hb & Hne). exists (f, k). split; [assumption|]. cbn [fst snd]. rewrite Hb.
      destruct (cdec c (CMem k)); [contradiction|left; reflexivity].
  Qed.

  Lemma VInv_begin (s : vstateT) t : VInv s -> VInv (vstepE s (VE (Begin t))).
  Proof.
    intros V. cbn [vstep]. destruct (stE (core task s) t) eqn:Hst; try exact V.
    pose proof (vi_core s V) as I.
    assert (Ht : In t tasks) by (apply (in_tasks_of_status _ _ _ _ (core task s) t I); rewrite Hst; discriminate).
    set (c' := stepE (core task s) (Begin t)).
    assert (Hc : forall v, cls (stE c' v) = if teq v t then 1 else cls (stE (core task s) v))
      by (apply cls_step_begin; assumption).
    assert (Hd : forall v, stE c' v = Done <-> stE (core task s) v = Done).
    { intros v. rewrite <- !cls_done, Hc. destruct (teq v t) as [->|]; [|tauto].
      rewrite Hst. cbn. split; discriminate. }
    apply (VInv_same_done s); cbn [core bind mem rlog pend]; try reflexivity; try assumption.
    - apply Inv_step; assumption.
    - intros v Hv Hs f. destruct (teq v t) as [->|Hne].
      + (* the copies are those of the producers, which are done *)
        unfold lookup. rewrite (B_eq t f Ht).
        destruct (src t f) as [|p fp|k| |] eqn:Es; try reflexivity.
        destruct (src_pred t f p fp Ht Es) as (Hp & Hpt & _).
        apply (vi_bind s V p Hpt). right.
        apply (preds_done (core task s) t p I Ht Hp). left; assumption.
      + apply (vi_bind s V v Hv). rewrite <- cls_running, Hd in *. rewrite Hc in Hs.
        destruct (teq v t); [contradiction|assumption].
  Qed.

  Lemma VInv_end (s : vstateT) t : VInv s -> VInv (vstepE s (VE (End t))).
  Proof.
    intros V. cbn [vstep]. destruct (stE (core task s) t) eqn:Hst; try exact V.
    pose proof (vi_core s V) as I.
    assert (Ht : In t tasks) by (apply (in_tasks_of_status _ _ _ _ (core task s) t I); rewrite Hst; discriminate).
    set (c' := stepE (core task s) (End t)).
    assert (Hc : forall v, cls (stE c' v) = if teq v t then 2 else cls (stE (core task s) v))
      by (apply cls_step_end; assumption).
    assert (Hd : forall v, stE c' v = Done <-> v = t \/ stE (core task s) v = Done).
    { intros v. rewrite <- !cls_done, Hc. destruct (teq v t) as [->|Hne]; [tauto|].
      split; [tauto|]. intros [H|H]; [contradiction|assumption]. }
    assert (Hnd : stE (core task s) t <> Done) by (rewrite Hst; discriminate).
    pose proof (vi_bind s V t Ht (or_introl Hst)) as Hbind.
    rewrite (reads_ok s t V Ht Hst).
    pose proof (fun f c => end_values s t f c V Ht Hst) as W1.
    pose proof (fun c => body_writes_other s t (expectedE t) c V Ht Hst) as W2.
    (* t is not ordered with a later task, hence does not write the copy it left *)
    assert (Hnotdone : forall v, ancE t v -> In v tasks -> stE (core task s) v <> Done).
    { intros v Ha Hv Hdv. apply Hnd. apply (anc_done (core task s) t v I Ha Hv). right; right; assumption. }
    split; cbn [core bind mem rlog pend].
    - apply Inv_step; assumption.
    - intros v Hv Hs f. apply (vi_bind s V v Hv). rewrite <- cls_running, Hd in Hs. rewrite Hc in Hs.
      destruct (teq v t) as [->|Hne]; [left; assumption|].
      rewrite cls_running in Hs. destruct Hs as [Hs|[Hs|Hs]]; [left|contradiction|right]; assumption.
    - intros v Hv Hs. apply Hd in Hs. destruct (teq v t) as [->|Hne]; [reflexivity|].
      destruct Hs as [Hs|Hs]; [contradiction|]. apply (vi_rlog s V v Hv Hs).
    - intros c. destruct (writer_dec t c) as [(h & Hw & Hb)|Hn].
      + (* t is the last completed writer *)
        right; right. exists t, h. cbn [core mem]. repeat split; try assumption.
        * apply Hd. left; reflexivity.
        * apply (W1 h c Hb).
        * intros v' h' Hv' Hb' Hw' Hd'. apply Hd in Hd'. destruct Hd' as [->|Hd']; [left; reflexivity|].
          assert (Hne : t <> v') by (intros <-; contradiction).
          destruct (sf_order _ _ _ _ _ _ _ H_safe t h v' h' c Ht Hv' Hne Hb Hb' Hw') as [Ha|[Ha _]].
          -- exfalso. apply (Hnotdone v' Ha Hv' Hd').
          -- right; assumption.
      + apply (CellOK_keep s); [apply (W2 c Hn)| |apply (vi_cell s V c)].
        intros v h Hv Hbv Hwv. cbn [core]. rewrite Hd. split; [|right; assumption].
        intros [->|Hdv]; [destruct (Hn h Hwv Hbv)|assumption].
    - intros v f k c Hv Hwb Hbc Hck Hs. apply Hd in Hs. destruct Hs as [->|Hs].
      + left. apply in_or_app. right. apply in_new_copies. exists f. rewrite Hbind. repeat split; assumption.
      + destruct (vi_wb s V v f k c Hv Hwb Hbc Hck Hs) as [Hin|Hm].
        * left. apply in_or_app. left; assumption.
        * right. rewrite W2; [assumption|]. intros h Hw Hbh.
          apply (sf_wb_tgt _ _ _ _ _ _ _ H_safe v f k c t h Hv Hwb Hbc Hck Ht Hbh).
    - intros c k Hin. apply in_app_or in Hin. destruct Hin as [Hin|Hin].
      + destruct (vi_pend s V c k Hin) as (v & f & Hv & Hwb & Hbc & Hck & Hs & Hm).
        exists v, f. repeat split; try assumption; [apply Hd; right; assumption|].
        (* a writer of the source is v or comes before v, and t is neither *)
        rewrite W2; [assumption|]. intros h Hw Hbh.
        destruct (sf_wb_src _ _ _ _ _ _ _ H_safe v f k c t h Hv Hwb Hbc Hck Ht Hbh Hw) as [->|Ha]; [congruence|].
        apply (Hnotdone v Ha Hv Hs).
      + apply in_new_copies in Hin. destruct Hin as (f & Hwb & Hb & Hck). rewrite Hbind in Hb.
        exists t, f. repeat split; try assumption; [apply Hd; left; reflexivity|apply (W1 f c Hb)].
  Qed.

  Lemma VInv_copy (s : vstateT) i : VInv s -> VInv (vstepE s (VCopy i)).
  Proof.
    intros V. cbn [vstep]. destruct (nth_error (pend task s) i) as [[c1 k1]|] eqn:En; [|assumption].
    destruct (vi_pend s V c1 k1 (nth_error_In _ _ En)) as (t1 & f1 & Ht1 & Hwb1 & Hb1 & Hck1 & Hd1 & Hm1).
    assert (Hfree : forall v h c, In v tasks -> BE v h = Some c -> c <> CMem k1)
      by (intros v h c Hv Hb ->; apply (sf_wb_tgt _ _ _ _ _ _ _ H_safe t1 f1 k1 c1 v h Ht1 Hwb1 Hb1 Hck1 Hv Hb)).
    split; cbn [core bind mem rlog pend].
    - apply (vi_core s V).
    - apply (vi_bind s V).
    - apply (vi_rlog s V).
    - intros c. destruct (cdec c (CMem k1)) as [->|Hne].
      + left. exists t1, f1, k1, c1. repeat split; assumption.
      + apply (CellOK_keep s); [apply mupd_other; assumption|intros; reflexivity|apply (vi_cell s V c)].
    - intros v f k c Hv Hwb Hbc Hck Hs. destruct (Z.eq_dec k k1) as [->|Hk].
      + (* the copy performed is the one write-back into this element *)
        right. destruct (sf_wb_uniq _ _ _ _ _ _ _ H_safe v f k1 c t1 f1 c1 Hv Ht1 Hwb Hwb1 Hbc Hck Hb1 Hck1) as [-> ->].
        rewrite mupd_same. exact Hm1.
      + destruct (vi_wb s V v f k c Hv Hwb Hbc Hck Hs) as [Hin|Hm].
        * left. apply (remove_nth_keep (c, k) (c1, k1) i _ En); [congruence|assumption].
        * right. rewrite mupd_other by congruence. assumption.
    - intros c k Hin. apply remove_nth_in in Hin.
      destruct (vi_pend s V c k Hin) as (v & f & Hv & Hwb & Hbc & Hck & Hs & Hm).
      exists v, f. repeat split; try assumption. rewrite mupd_other; [assumption|apply (Hfree v f c Hv Hbc)].
  Qed.

  Lemma VInv_step (s : vstateT) e : VInv s -> VInv (vstepE s e).
  Proof.
    intros V. destruct e as [ev|i]; [|apply VInv_copy; assumption].
    destruct ev as [|t|t|t].
    - cbn [vstep]. apply (VInv_frame s); cbn [core bind mem rlog pend]; try reflexivity; try assumption.
      + apply Inv_step; try assumption. apply (vi_core s V).
      + apply cls_step_startup.
    - cbn [vstep]. apply (VInv_frame s); cbn [core bind mem rlog pend]; try reflexivity; try assumption.
      + apply Inv_step; try assumption. apply (vi_core s V).
      + apply cls_step_startup1.
    - apply VInv_begin; assumption.
    - apply VInv_end; assumption.
  Qed.

  Theorem VInv_run evs : VInv (vrunE evs).
  Proof. unfold vrun. apply fold_left_inv; [intros a b; apply VInv_step|apply VInv_init]. Qed.
  Local Notation runE := (run task teq tasks preds succs).

  Definition core_events (evs : list (vevent task)) : list (event task) :=
    flat_map (fun e => match e with VE ev => [ev] | VCopy _ => [] end) evs.

  Lemma core_vstep (s : vstateT) e :
    core task (vstepE s e) = match e with VE ev => stepE (core task s) ev | VCopy _ => core task s end.
  Proof.
    destruct e as [ev|i]; cbn [vstep].
    - destruct ev as [|t|t|t]; try reflexivity; cbn [step]; destruct (stE (core task s) t); reflexivity.
    - destruct (nth_error (pend task s) i) as [[c k]|]; reflexivity.
  Qed.

  (* the dependency part of a run is a run of the engine of C01 *)
  Theorem core_vrun evs : core task (vrunE evs) = runE (core_events evs).
  Proof.
    assert (H : forall evs s, core task (fold_left vstepE evs s) = fold_left stepE (core_events evs) (core task s)).
    { clear. induction evs as [|e evs IH]; intros s; cbn [fold_left core_events flat_map]; [reflexivity|].
      rewrite IH, core_vstep. destruct e as [ev|i]; reflexivity. }
    unfold vrun, run. rewrite H. reflexivity.
  Qed.

  (* (a) a task that has started found, in every data flow, the copy of its producer, the
     producer had completed, and the copy holds the value the producer left there *)
  Theorem started_inputs evs t : In t tasks ->
    stE (core task (vrunE evs)) t = Running ->
    forall g p fp, src t g = STask p fp ->
      stE (core task (vrunE evs)) p = Done
      /\ bind task (vrunE evs) t g = bind task (vrunE evs) p fp
      /\ rdval task (vrunE evs) t g = VoutE p fp.
  Proof.
    intros Ht Hs g p fp Es. pose proof (VInv_run evs) as V. pose proof (vi_core _ V) as I.
    destruct (src_pred t g p fp Ht Es) as (Hp & Hpt & _).
    assert (Hd : stE (core task (vrunE evs)) p = Done)
      by (apply (preds_done _ t p I Ht Hp); right; left; assumption).
    split; [assumption|]. split.
    - rewrite (vi_bind _ V t Ht (or_introl Hs)), (vi_bind _ V p Hpt (or_intror Hd)).
      rewrite (B_eq t g Ht), Es. reflexivity.
    - rewrite (rdval_running _ t g V Ht Hs). unfold Vin. rewrite Es. reflexivity.
  Qed.

  (* every copy held by a running task holds the value the JDF names, until the task completes *)
  Theorem running_values evs t g : In t tasks -> stE (core task (vrunE evs)) t = Running ->
    rdval task (vrunE evs) t g = VinE t g.
  Proof.
    intros Ht Hs. apply rdval_running; [apply VInv_run|assumption|assumption].
  Qed.

  (* the values read by the body of a completed task *)
  Theorem observed_reads evs t : In t tasks -> stE (core task (vrunE evs)) t = Done ->
    rlog task (vrunE evs) t = expectedE t.
  Proof. intros Ht Hs. apply (vi_rlog _ (VInv_run evs) t Ht Hs). Qed.

  (* (c) they do not depend on the schedule *)
  Theorem reads_schedule_independent evs1 evs2 t : In t tasks ->
    stE (core task (vrunE evs1)) t = Done -> stE (core task (vrunE evs2)) t = Done ->
    rlog task (vrunE evs1) t = rlog task (vrunE evs2) t.
  Proof. intros Ht H1 H2. rewrite (observed_reads evs1 t Ht H1), (observed_reads evs2 t Ht H2). reflexivity. Qed.

  Local Notation completeE := (complete task tasks).

  Lemma confluent (s1 s2 : vstateT) : VInv s1 -> VInv s2 -> completeE s1 -> completeE s2 ->
    forall c, mem task s1 c = mem task s2 c.
  Proof.
    intros V1 V2 [D1 P1] [D2 P2] c.
    assert (HT : (exists t f k c0, c = CMem k /\ In t tasks /\ In (f, k) (wbs t) /\ BE t f = Some c0 /\ c0 <> CMem k) ->
                 mem task s1 c = mem task s2 c).
    { intros (t & f & k & c0 & -> & Ht & Hwb & Hb & Hck).
      destruct (vi_wb s1 V1 t f k c0 Ht Hwb Hb Hck (D1 t Ht)) as [Hin|Hm1]; [rewrite P1 in Hin; destruct Hin|].
      destruct (vi_wb s2 V2 t f k c0 Ht Hwb Hb Hck (D2 t Ht)) as [Hin|Hm2]; [rewrite P2 in Hin; destruct Hin|].
      congruence. }
    destruct (vi_cell s1 V1 c) as [HT1|[[Hnw1 Hm1]|(v1 & h1 & Hv1 & Hb1 & Hw1 & Hd1 & Hm1 & Hmax1)]]; [apply HT; assumption| |];
      (destruct (vi_cell s2 V2 c) as [HT2|[[Hnw2 Hm2]|(v2 & h2 & Hv2 & Hb2 & Hw2 & Hd2 & Hm2 & Hmax2)]]; [apply HT; assumption| |]).
    - congruence.
    - exfalso. apply (Hnw1 v2 h2 Hv2 Hb2 Hw2). apply D1; assumption.
    - exfalso. apply (Hnw2 v1 h1 Hv1 Hb1 Hw1). apply D2; assumption.
    - rewrite Hm1, Hm2.
      destruct (Hmax1 v2 h2 Hv2 Hb2 Hw2 (D1 v2 Hv2)) as [->|Ha].
      + rewrite (sf_same _ _ _ _ _ _ _ H_safe v1 h2 h1 c Hv1 Hb2 Hb1 Hw1). reflexivity.
      + destruct (Hmax2 v1 h1 Hv1 Hb1 Hw1 (D2 v1 Hv1)) as [->|Ha2].
        * rewrite (sf_same _ _ _ _ _ _ _ H_safe v2 h2 h1 c Hv2 Hb2 Hb1 Hw1). reflexivity.
        * exfalso. apply (anc_asym v2 v1 Hv1 Ha Ha2).
  Qed.

  (* (b) two complete runs end with the same memory, whatever their schedules *)
  Theorem final_memory_schedule_independent evs1 evs2 :
    completeE (vrunE evs1) -> completeE (vrunE evs2) ->
    forall c, mem task (vrunE evs1) c = mem task (vrunE evs2) c.
  Proof. intros C1 C2. apply confluent; try assumption; apply VInv_run. Qed.

  Variable order : list task.
  Hypothesis H_all : forall t, In t tasks -> In t order.
  Hypothesis H_topo : forall l1 t l2, order = l1 ++ t :: l2 -> forall p, In p (preds t) -> In p l1.

  Local Notation seq_tasksE := (seq_tasks task).

  Definition SeqP (done : list task) (s : vstateT) : Prop :=
    forall t, In t tasks -> In t done -> stE (core task s) t = Done.

  Lemma all_done_pending f t : (forall p, In p (preds t) -> f p = Done) -> pending task preds f t = 0.
  Proof.
    intros H. unfold pending. induction (preds t) as [|a l IH]; [reflexivity|].
    cbn [filter]. rewrite (H a (or_introl eq_refl)). cbn [isdone negb]. apply IH.
    intros p Hp. apply H. right; assumption.
  Qed.

  Lemma own_events_run c t : stE c t = Ready ->
    forall v, cls (stE (stepE (stepE c (Begin t)) (End t)) v) = if teq v t then 2 else cls (stE c v).
  Proof.
    intros Hr v.
    assert (R : stE (stepE c (Begin t)) t = Running).
    { apply cls_running. rewrite (cls_step_begin c t Hr). destruct (teq t t); congruence. }
    rewrite (cls_step_end _ t R). destruct (teq v t) as [|Hne]; [reflexivity|].
    rewrite (cls_step_begin c t Hr). destruct (teq v t); [contradiction|reflexivity].
  Qed.

  (* StartupOne t; Begin t; End t, where the predecessors of t are done: afterwards t is done
     if it is a task, and every other task is in the class it was in *)
  Lemma own_events c t : InvE c ->
    (In t tasks -> forall p, In p (preds t) -> stE c p = Done) ->
    let c' := stepE (stepE (stepE c (StartupOne t)) (Begin t)) (End t) in
    (In t tasks -> stE c' t = Done) /\ (forall v, v <> t -> cls (stE c' v) = cls (stE c v)).
  Proof.
    intros I Hp. set (c1 := stepE c (StartupOne t)).
    assert (C1 : forall v, cls (stE c1 v) = cls (stE c v)) by (intros v; apply cls_step_startup1).
    assert (S1 : stE c1 t = start1 (stE c t)) by (cbn [c1 step st]; apply upd_same).
    assert (Hs : ~ In t tasks \/ stE c t = Done \/ stE c t = Running \/ start1 (stE c t) = Ready).
    { destruct (in_dec teq t tasks) as [Ht|Ht]; [right|left; assumption].
      pose proof (inv_count _ _ _ _ c I t Ht) as Hc. rewrite (all_done_pending _ t (Hp Ht)) in Hc.
      destruct (stE c t) as [|n| | |] eqn:Et; [|subst n| | |]; auto.
      destruct (inv_present _ _ _ _ c I t Ht Et). }
    destruct Hs as [Ht|[Hd|[Hr|Hr]]]; cbn zeta.
    - (* t is not a task: nothing is enabled *)
      pose proof (inv_absent _ _ _ _ c I t Ht) as Ha.
      rewrite (cls_step_begin_off c1 t), (cls_step_end_off c1 t) by (rewrite S1, Ha; discriminate).
      split; [contradiction|intros v _; apply C1].
    - (* t is done already: nothing is enabled *)
      rewrite (cls_step_begin_off c1 t), (cls_step_end_off c1 t) by (rewrite S1, Hd; discriminate).
      split; [intros _; rewrite S1, Hd; reflexivity|intros v _; apply C1].
    - (* t runs already: it completes *)
      rewrite (cls_step_begin_off c1 t) by (rewrite S1, Hr; discriminate).
      assert (R : stE c1 t = Running) by (rewrite S1, Hr; reflexivity).
      split.
      + intros _. apply cls_done. rewrite (cls_step_end c1 t R). destruct (teq t t); congruence.
      + intros v Hne. rewrite (cls_step_end c1 t R). destruct (teq v t); [contradiction|apply C1].
    - (* t runs now *)
      rewrite <- S1 in Hr. split.
      + intros _. apply cls_done. rewrite (own_events_run c1 t Hr). destruct (teq t t); congruence.
      + intros v Hne. rewrite (own_events_run c1 t Hr). destruct (teq v t); [contradiction|apply C1].
  Qed.

  Lemma seq_one (s : vstateT) l1 t l2 : order = l1 ++ t :: l2 -> VInv s -> SeqP l1 s ->
    SeqP (l1 ++ [t]) (fold_left vstepE [VE (StartupOne t); VE (Begin t); VE (End t)] s).
  Proof.
    intros Ho V P1. pose proof (vi_core s V) as I.
    destruct (own_events (core task s) t I) as [Hd Hc].
    { intros Ht p Hp. apply P1; [apply (H_pred_in t p Ht Hp)|apply (H_topo l1 t l2 Ho p Hp)]. }
    cbn [fold_left]. unfold SeqP. rewrite !core_vstep.
    intros v Hv Hin. destruct (teq v t) as [->|Hne]; [apply Hd; assumption|].
    apply cls_done. rewrite Hc by assumption. apply cls_done. apply P1; [assumption|].
    apply in_app_or in Hin. destruct Hin as [Hin|[<-|[]]]; [assumption|contradiction].
  Qed.

  Lemma seq_prefix : forall l2 l1 (s : vstateT), order = l1 ++ l2 -> VInv s -> SeqP l1 s ->
    SeqP order (fold_left vstepE (seq_tasksE l2) s).
  Proof.
    induction l2 as [|t l2 IH]; intros l1 s Ho V P.
    - cbn. rewrite app_nil_r in Ho. subst l1. assumption.
    - unfold seq_tasks. cbn [flat_map]. rewrite fold_left_app.
      apply (IH (l1 ++ [t])).
      + rewrite <- app_assoc. assumption.
      + apply fold_left_inv; [intros a b; apply VInv_step|assumption].
      + apply (seq_one s l1 t l2 Ho V P).
  Qed.

  Lemma seq_tasks_done : forall t, In t tasks -> stE (core task (vrunE (seq_tasksE order))) t = Done.
  Proof.
    intros t Ht.
    assert (P : SeqP order (vrunE (seq_tasksE order))).
    { unfold vrun. apply (seq_prefix order []); [reflexivity|apply VInv_init|].
      intros v _ []. }
    apply P; [assumption|apply H_all; assumption].
  Qed.

  Lemma drain_steps : forall n (s : vstateT), length (pend task s) = n ->
    core task (Nat.iter n (fun x => vstepE x (VCopy 0)) s) = core task s
    /\ pend task (Nat.iter n (fun x => vstepE x (VCopy 0)) s) = [].
  Proof.
    induction n as [|n IH]; intros s Hl.
    - cbn. split; [reflexivity|]. destruct (pend task s); [reflexivity|discriminate].
    - rewrite iter_succ_r.
      destruct (pend task s) as [|[c k] r] eqn:Ep; [discriminate|].
      assert (Hl' : length (pend task (vstepE s (VCopy 0))) = n).
      { cbn [vstep]. rewrite Ep. cbn [nth_error pend remove_nth]. cbn [length] in Hl. lia. }
      destruct (IH _ Hl') as [H1 H2]. split; [|assumption].
      rewrite H1, core_vstep. reflexivity.
  Qed.

  Local Notation seq_execE := (seq_exec task teq tasks preds succs nfl src reads writes wbs F D0 U0 order).
  Local Notation seq_eventsE := (seq_events task teq tasks preds succs nfl src reads writes wbs F D0 U0 order).

  Lemma seq_exec_is_run : seq_execE = vrunE seq_eventsE.
  Proof.
    unfold seq_exec, seq_events, drain, vrun. rewrite fold_left_app.
    generalize (fold_left vstepE (seq_tasksE order) vinitE). intros s.
    generalize (length (pend task s)). intros n. revert s.
    induction n as [|n IH]; intros s; [reflexivity|].
    cbn [repeat fold_left]. rewrite iter_succ_r. apply IH.
  Qed.

  Theorem seq_exec_complete : completeE seq_execE.
  Proof.
    unfold seq_exec, drain.
    destruct (drain_steps _ (vrunE (seq_tasksE order)) eq_refl) as [H1 H2].
    split; [|assumption]. intros t Ht. rewrite H1. apply seq_tasks_done; assumption.
  Qed.

  (* (b) every complete run ends with the memory of the sequential execution *)
  Theorem final_memory_is_sequential evs : completeE (vrunE evs) ->
    forall c, mem task (vrunE evs) c = mem task seq_execE c.
  Proof.
    intros C c. pose proof seq_exec_complete as Cs. rewrite seq_exec_is_run in *.
    apply final_memory_schedule_independent; assumption.
  Qed.

  Theorem reads_are_sequential evs t : In t tasks -> stE (core task (vrunE evs)) t = Done ->
    rlog task (vrunE evs) t = rlog task seq_execE t.
  Proof.
    intros Ht Hs. destruct seq_exec_complete as [Hd _]. rewrite seq_exec_is_run in *.
    apply reads_schedule_independent; [assumption|assumption|apply Hd; assumption].
  Qed.
End ValEngineProofs.
