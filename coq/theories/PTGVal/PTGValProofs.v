(* C02 — from wf_program_fm and the hazard check safeb to the hypotheses of
   PTGVal/ValEngineProofs.v, and the theorems for every well-formed hazard-free
   program and every schedule. *)
From Coq Require Import ZArith List Bool Arith Lia.
From PV Require Import Base.Tac PTG.PTGDefs PTG.Engine PTG.EngineProofs PTG.PTGProofs
     PTGVal.ValEngine PTGVal.ValEngineProofs PTGVal.PTGValDefs.
Import ListNotations.

Lemma cell_eqb_spec (a b : cell tid) : cell_eqb a b = true <-> a = b.
Proof.
  destruct a as [k|t f], b as [k'|t' f']; cbn [cell_eqb]; split; intros H; try discriminate.
  - apply Z.eqb_eq in H. congruence.
  - inversion H. apply Z.eqb_refl.
  - apply andb_true_iff in H. destruct H as [H1 H2]. apply tid_eqb_spec in H1. apply Nat.eqb_eq in H2. congruence.
  - inversion H; subst. apply andb_true_iff. split; [apply tid_eqb_spec; reflexivity|apply Nat.eqb_refl].
Qed.

Lemma cell_eqb_refl (c : cell tid) : cell_eqb c c = true.
Proof. apply cell_eqb_spec. reflexivity. Qed.

Lemma flat_mapi_in {A C} (g : nat -> A -> list C) : forall l k i a x,
  nth_error l i = Some a -> In x (g (k + i)%nat a) -> In x (flat_mapi g k l).
Proof.
  induction l as [|b l IH]; intros k i a x Hn Hx; [destruct i; discriminate|].
  cbn [flat_mapi]. apply in_or_app. destruct i as [|i]; cbn [nth_error] in Hn.
  - inversion Hn; subst. left. rewrite Nat.add_0_r in Hx. assumption.
  - right. apply (IH (S k) i a x Hn). replace (S k + i)%nat with (k + S i)%nat by lia. assumption.
Qed.

Lemma flow_at_nfl P t f c env fl : flow_at P t f = Some (c, env, fl) ->
  env_of P t = Some (c, env) /\ nth_error (c_flows c) f = Some fl /\ (f < nflows P t)%nat.
Proof.
  unfold flow_at, nflows. destruct (env_of P t) as [[c0 env0]|]; [|discriminate].
  destruct (nth_error (c_flows c0) f) as [fl0|] eqn:En; [|discriminate].
  intros H; inversion H; subst. repeat split; try assumption.
  apply nth_error_Some. rewrite En. discriminate.
Qed.

(* a data input from a task is one of the predecessor edges *)
Lemma ptg_src_pred P t f p fp : flow_src P t f = STask p fp -> In p (preds P t).
Proof.
  unfold flow_src. destruct (flow_at P t f) as [[[c env] fl]|] eqn:Ef; [|discriminate].
  destruct (flow_at_nfl P t f c env fl Ef) as (He & Hn & _).
  destruct (is_ctl fl) eqn:Ec; [discriminate|].
  destruct (first_active (p_globals P) env (f_deps fl)) as [[c' f' args|[|e args]| |]|] eqn:Ea; try discriminate.
  destruct (expand_args (p_globals P) env args) as [|ps [|ps2 r]] eqn:Ex; try discriminate.
  intros H; inversion H; subst p fp.
  unfold preds, pred_edges. rewrite He.
  apply in_map_iff. exists (f, (c', ps), f'). split; [reflexivity|].
  apply (flat_mapi_in (flow_preds (p_globals P) env) (c_flows c) 0 f fl _ Hn).
  cbn [Nat.add]. unfold flow_preds. rewrite Ec, Ea. cbn [target_tasks]. rewrite Ex. left; reflexivity.
Qed.

Lemma ptg_wr_nfl P t f : flow_writes P t f = true -> (f < nflows P t)%nat.
Proof.
  unfold flow_writes. destruct (flow_at P t f) as [[[c env] fl]|] eqn:Ef; [|discriminate].
  intros _. apply (flow_at_nfl P t f c env fl Ef).
Qed.

Lemma ptg_src_nfl P t f : flow_src P t f <> SNone -> (f < nflows P t)%nat.
Proof.
  unfold flow_src. destruct (flow_at P t f) as [[[c env] fl]|] eqn:Ef; [|congruence].
  intros _. apply (flow_at_nfl P t f c env fl Ef).
Qed.

(* wf_program implies wf_program_fm (exactly one active input => at least one) *)
Lemma data_inputs_ok_fm G L f : data_inputs_ok G L f = true -> data_inputs_fm G L f = true.
Proof.
  unfold data_inputs_ok, data_inputs_fm. destruct (is_ctl f); [auto|].
  destruct (has_inputs f); [|auto]. intros H. apply Nat.eqb_eq in H. rewrite H. reflexivity.
Qed.

Lemma wf_program_fm_with P : wf_program_fm P = wf_with data_inputs_fm P.
Proof. reflexivity. Qed.

Lemma findex_le t l : (findex t l <= length l)%nat.
Proof. induction l as [|x l IH]; cbn [findex length]; [lia|]. destruct (tid_eq_dec t x); lia. Qed.

Lemma rank_lt_fuel P t : wf_program_fm P = true -> (ptg_rank P t < bfuel P)%nat.
Proof.
  intros H. destruct (wf_with_order data_inputs_fm P H) as (Hl & _ & _). unfold ptg_rank, bfuel.
  pose proof (findex_le t (topo_order P)). lia.
Qed.

Section PerProgram.
  Variable names : list (list Z).
  Variable P : program.
  Hypothesis H_wf : wf_program_fm P = true.

  Let Hnd := proj1 (wf_with_engine data_inputs_fm P H_wf).
  Let Hconv := proj1 (proj2 (wf_with_engine data_inputs_fm P H_wf)).
  Let Hsucc := proj1 (proj2 (proj2 (wf_with_engine data_inputs_fm P H_wf))).
  Let Hpred := proj1 (proj2 (proj2 (proj2 (wf_with_engine data_inputs_fm P H_wf)))).
  Let Hrank := proj2 (proj2 (proj2 (proj2 (wf_with_engine data_inputs_fm P H_wf)))).
  Let Hsrc : forall t f p fp, In t (instances P) -> flow_src P t f = STask p fp -> In p (preds P t)
    := fun t f p fp _ H => ptg_src_pred P t f p fp H.
  Let Hwr := ptg_wr_nfl P.

  Lemma Bf_is_B t f : In t (instances P) -> Bf P t f = ptg_B P t f.
  Proof.
    intros Ht. unfold Bf, ptg_B, B.
    apply (Bn_indep tid (instances P) (preds P) (flow_src P) (ptg_rank P) Hpred Hrank Hsrc); try assumption.
    - apply rank_lt_fuel; assumption.
    - lia.
  Qed.

  Lemma B_some_nfl t f c : In t (instances P) -> ptg_B P t f = Some c -> (f < nflows P t)%nat.
  Proof.
    intros Ht Hb. unfold ptg_B in Hb.
    rewrite (B_eq tid (instances P) (preds P) (flow_src P) (ptg_rank P) Hpred Hrank Hsrc t f Ht) in Hb.
    apply ptg_src_nfl. intros Hs. rewrite Hs in Hb. discriminate.
  Qed.

  Lemma ancb_sound : forall n a t, ancb P n a t = true -> anc tid (preds P) a t.
  Proof.
    induction n as [|n IH]; intros a t H; [discriminate|].
    cbn [ancb] in H. apply existsb_exists in H. destruct H as (p & Hp & H).
    apply orb_true_iff in H. destruct H as [H|H].
    - apply tid_eqb_spec in H. subst p. apply anc_pred. assumption.
    - apply (anc_trans tid (preds P) a p t); [apply IH; assumption|assumption].
  Qed.

  Lemma in_holders t f c : In (t, f, c) (holders P) <-> In t (instances P) /\ (f < nflows P t)%nat /\ Bf P t f = Some c.
  Proof.
    unfold holders. rewrite in_flat_map. split.
    - intros (t' & Ht' & H). apply in_flat_map in H. destruct H as (f' & Hf' & H).
      destruct (Bf P t' f') as [c'|] eqn:Eb; [|destruct H].
      destruct H as [H|[]]. inversion H; subst. apply in_seq in Hf'. repeat split; try assumption; lia.
    - intros (Ht & Hf & Hb). exists t. split; [assumption|]. apply in_flat_map. exists f.
      split; [apply in_seq; lia|]. rewrite Hb. left; reflexivity.
  Qed.

  Lemma in_writebacks t f k c :
    In (t, f, k, c) (writebacks P) <-> In t (instances P) /\ In (f, k) (flow_wbs P t) /\ Bf P t f = Some c /\ c <> CMem k.
  Proof.
    unfold writebacks. rewrite in_flat_map. split.
    - intros (t' & Ht' & H). apply in_flat_map in H. destruct H as ([f' k'] & Hfk & H). cbn [fst snd] in H.
      destruct (Bf P t' f') as [c'|] eqn:Eb; [|destruct H].
      destruct (cell_eqb c' (CMem k')) eqn:Ec; [destruct H|].
      destruct H as [H|[]]. inversion H; subst. repeat split; try assumption.
      intros ->. rewrite cell_eqb_refl in Ec. discriminate.
    - intros (Ht & Hfk & Hb & Hne). exists t. split; [assumption|]. apply in_flat_map. exists (f, k).
      split; [assumption|]. cbn [fst snd]. rewrite Hb.
      destruct (cell_eqb c (CMem k)) eqn:Ec; [apply cell_eqb_spec in Ec; contradiction|left; reflexivity].
  Qed.

  Lemma nodup_fk_sound : forall l, nodup_fk l = true -> NoDup l.
  Proof.
    induction l as [|[f k] l IH]; cbn [nodup_fk]; intros H; [constructor|].
    apply andb_true_iff in H. destruct H as [H1 H2]. constructor; [|apply IH; assumption].
    intros Hin. apply negb_true_iff in H1.
    assert (existsb (fun x => Nat.eqb (fst x) f && (snd x =? k)%Z) l = true).
    { apply existsb_exists. exists (f, k). split; [assumption|]. cbn [fst snd].
      rewrite Nat.eqb_refl, Z.eqb_refl. reflexivity. }
    congruence.
  Qed.

  Theorem safeb_sound : safeb P = true -> ptg_Safe P.
  Proof.
    unfold safeb. intros H.
    apply andb_true_iff in H. destruct H as [H Hnd4].
    apply andb_true_iff in H. destruct H as [H Hwb].
    apply andb_true_iff in H. destruct H as [Hwc Hpair].
    rewrite forallb_forall in Hpair, Hwb, Hnd4.
    assert (HB : forall t f c, In t (instances P) -> ptg_B P t f = Some c -> In (t, f, c) (holders P)).
    { intros t f c Ht Hb. apply in_holders. split; [assumption|]. split; [apply (B_some_nfl t f c Ht Hb)|].
      rewrite Bf_is_B by assumption. assumption. }
    assert (Hpr : forall u g v h c, In u (instances P) -> In v (instances P) ->
                   ptg_B P u g = Some c -> ptg_B P v h = Some c -> flow_writes P v h = true ->
                   safe_pair P (u, g, c) (v, h, c) = true).
    { intros u g v h c Hu Hv Hbu Hbv Hw.
      pose proof (Hpair _ (HB u g c Hu Hbu)) as H1. rewrite forallb_forall in H1. apply (H1 _ (HB v h c Hv Hbv)). }
    assert (HW : forall t f k c, In t (instances P) -> In (f, k) (flow_wbs P t) -> ptg_B P t f = Some c -> c <> CMem k ->
                   In (t, f, k, c) (writebacks P)).
    { intros t f k c Ht Hfk Hb Hne. apply in_writebacks. repeat split; try assumption.
      rewrite Bf_is_B by assumption. assumption. }
    split.
    - (* sf_wr_cell *)
      intros t f Ht Hw Hb. unfold safe_wr_cell in Hwc. rewrite forallb_forall in Hwc.
      pose proof (Hwc t Ht) as H1. rewrite forallb_forall in H1.
      assert (Hf : In f (seq 0 (nflows P t))) by (apply in_seq; pose proof (ptg_wr_nfl P t f Hw); lia).
      specialize (H1 f Hf). rewrite Hw in H1. rewrite Bf_is_B in H1 by assumption.
      fold (ptg_B P t f) in Hb. rewrite Hb in H1. discriminate.
    - (* sf_same *)
      intros t f h c Ht Hbf Hbh Hw.
      pose proof (Hpr t f t h c Ht Ht Hbf Hbh Hw) as H1. cbn [safe_pair] in H1.
      rewrite cell_eqb_refl, Hw in H1. cbn [andb] in H1.
      rewrite (proj2 (tid_eqb_spec t t) eq_refl) in H1. apply Nat.eqb_eq. assumption.
    - (* sf_order *)
      intros u g v h c Hu Hv Hne Hbu Hbv Hw.
      pose proof (Hpr u g v h c Hu Hv Hbu Hbv Hw) as H1. cbn [safe_pair] in H1.
      rewrite cell_eqb_refl, Hw in H1. cbn [andb] in H1.
      destruct (tid_eqb u v) eqn:Euv; [apply tid_eqb_spec in Euv; contradiction|].
      apply orb_true_iff in H1. destruct H1 as [H1|H1]; [left; apply (ancb_sound _ _ _ H1)|].
      right. apply andb_true_iff in H1. destruct H1 as [H1 H2]. split; [apply (ancb_sound _ _ _ H1)|].
      destruct (flow_src P u g) as [|p fp|k| |]; try discriminate.
      apply orb_true_iff in H2. destruct H2 as [H2|H2]; [left; apply tid_eqb_spec; assumption|right; apply (ancb_sound _ _ _ H2)].
    - (* sf_wb_src *)
      intros t f k c v h Ht Hfk Hb Hne Hv Hbv Hw.
      pose proof (Hwb _ (HW t f k c Ht Hfk Hb Hne)) as H1. cbn [safe_wb] in H1.
      apply andb_true_iff in H1. destruct H1 as [H1 _]. rewrite forallb_forall in H1.
      specialize (H1 _ (HB v h c Hv Hbv)). cbn beta iota in H1.
      apply andb_true_iff in H1. destruct H1 as [_ H1].
      rewrite cell_eqb_refl, Hw in H1. cbn [andb] in H1.
      apply orb_true_iff in H1. destruct H1 as [H1|H1]; [left; apply tid_eqb_spec; assumption|right; apply (ancb_sound _ _ _ H1)].
    - (* sf_wb_tgt *)
      intros t f k c v h Ht Hfk Hb Hne Hv Hbv.
      pose proof (Hwb _ (HW t f k c Ht Hfk Hb Hne)) as H1. cbn [safe_wb] in H1.
      apply andb_true_iff in H1. destruct H1 as [H1 _]. rewrite forallb_forall in H1.
      specialize (H1 _ (HB v h (CMem k) Hv Hbv)). cbn beta iota in H1.
      apply andb_true_iff in H1. destruct H1 as [H1 _].
      rewrite cell_eqb_refl in H1. discriminate.
    - (* sf_wb_uniq *)
      intros t f k c t' f' c' Ht Ht' Hfk Hfk' Hb Hne Hb' Hne'.
      pose proof (Hwb _ (HW t f k c Ht Hfk Hb Hne)) as H1. cbn [safe_wb] in H1.
      apply andb_true_iff in H1. destruct H1 as [_ H1]. rewrite forallb_forall in H1.
      specialize (H1 _ (HW t' f' k c' Ht' Hfk' Hb' Hne')). cbn beta iota in H1.
      rewrite Z.eqb_refl in H1. apply andb_true_iff in H1. destruct H1 as [H1 H2].
      split; [apply tid_eqb_spec; assumption|apply Nat.eqb_eq; assumption].
    - (* sf_wb_nodup *)
      intros t Ht. apply nodup_fk_sound. apply Hnd4. assumption.
  Qed.

  Hypothesis H_safe : ptg_Safe P.

  Let Horder := wf_with_order data_inputs_fm P H_wf.

  Theorem ptgval_started_inputs evs t : In t (instances P) ->
    st tid (core tid (ptg_vrun names P evs)) t = Running ->
    forall g p fp, flow_src P t g = STask p fp ->
      st tid (core tid (ptg_vrun names P evs)) p = Done
      /\ bind tid (ptg_vrun names P evs) t g = bind tid (ptg_vrun names P evs) p fp
      /\ rdval tid (ptg_vrun names P evs) t g = ptg_Vout names P p fp.
  Proof. apply started_inputs; assumption. Qed.

  Theorem ptgval_running_values evs t g : In t (instances P) ->
    st tid (core tid (ptg_vrun names P evs)) t = Running ->
    rdval tid (ptg_vrun names P evs) t g = ptg_Vin names P t g.
  Proof. apply running_values; assumption. Qed.

  Theorem ptgval_observed_reads evs t : In t (instances P) ->
    st tid (core tid (ptg_vrun names P evs)) t = Done ->
    rlog tid (ptg_vrun names P evs) t = ptg_expected_reads names P t.
  Proof. apply observed_reads; assumption. Qed.

  Theorem ptgval_seq_complete : ptg_complete P (ptg_seq_exec names P).
  Proof. destruct Horder as (_ & Hall & Htopo). apply seq_exec_complete with (rank := ptg_rank P); assumption. Qed.

  Theorem ptgval_final_memory evs : ptg_complete P (ptg_vrun names P evs) ->
    forall c, mem tid (ptg_vrun names P evs) c = mem tid (ptg_seq_exec names P) c.
  Proof. destruct Horder as (_ & Hall & Htopo). apply final_memory_is_sequential with (rank := ptg_rank P); assumption. Qed.

  Theorem ptgval_reads_sequential evs t : In t (instances P) ->
    st tid (core tid (ptg_vrun names P evs)) t = Done ->
    rlog tid (ptg_vrun names P evs) t = rlog tid (ptg_seq_exec names P) t.
  Proof. destruct Horder as (_ & Hall & Htopo). apply reads_are_sequential with (rank := ptg_rank P); assumption. Qed.

  Theorem ptgval_reads_schedule_independent evs1 evs2 t : In t (instances P) ->
    st tid (core tid (ptg_vrun names P evs1)) t = Done -> st tid (core tid (ptg_vrun names P evs2)) t = Done ->
    rlog tid (ptg_vrun names P evs1) t = rlog tid (ptg_vrun names P evs2) t.
  Proof. apply reads_schedule_independent with (rank := ptg_rank P); assumption. Qed.
End PerProgram.
