(* C13 — a generic counting argument: when every node other than the root has a
   unique sender (its parent) and parents are reached, the breadth-first levels
   started at the root contain every node exactly once. *)
From PV Require Import Base.Tac.
From Coq Require Import NArith.
Local Open Scope N_scope.

Notation cnt l x := (count_occ N.eq_dec l x).

Lemma list_sum_cons a l : list_sum (a :: l) = (a + list_sum l)%nat.
Proof. reflexivity. Qed.
Lemma cnt_flat_map {A} (f : A -> list N) l x :
  cnt (flat_map f l) x = list_sum (map (fun s => cnt (f s) x) l).
Proof.
  induction l as [|a l IH]; [reflexivity|].
  cbn [flat_map map]. now rewrite count_occ_app, list_sum_cons, IH.
Qed.
Lemma cnt_concat_zero (Ls : list (list N)) x : (forall l, In l Ls -> cnt l x = 0%nat) -> cnt (concat Ls) x = 0%nat.
Proof.
  induction Ls as [|l Ls IH]; cbn [concat]; intros H; [reflexivity|].
  rewrite count_occ_app, H by (now left). apply IH. intros; apply H; now right.
Qed.
Lemma list_sum_indicator (l : list N) p :
  list_sum (map (fun s => if s =? p then 1%nat else 0%nat) l) = cnt l p.
Proof.
  induction l as [|a l IH]; [reflexivity|]. cbn [map]. rewrite list_sum_cons, IH.
  destruct (N.eq_dec a p) as [->|Hne].
  - rewrite N.eqb_refl, count_occ_cons_eq by reflexivity. reflexivity.
  - rewrite count_occ_cons_neq by assumption. apply N.eqb_neq in Hne. now rewrite Hne.
Qed.
Lemma list_sum_zero {A} (f : A -> nat) l : (forall s, f s = 0%nat) -> list_sum (map f l) = 0%nat.
Proof. intros H. induction l as [|a l IH]; [reflexivity|]. cbn [map]. now rewrite list_sum_cons, H, IH. Qed.

Section Levels.
Variable succ : N -> list N.
Variable root : N.

Fixpoint level (t : nat) : list N :=
  match t with O => [root] | S t' => flat_map succ (level t') end.

Inductive Reach : nat -> N -> Prop :=
| Reach_root : Reach 0 root
| Reach_child d p x : Reach d p -> x <> root ->
    (forall s, cnt (succ s) x = if s =? p then 1%nat else 0%nat) -> Reach (S d) x.

Lemma Reach_nonroot d x : Reach d x -> x <> root -> (1 <= d)%nat.
Proof. destruct 1; [congruence|lia]. Qed.

Hypothesis root_not_sent : forall s, cnt (succ s) root = 0%nat.

Lemma reach_level d x : Reach d x -> forall t, cnt (level t) x = if (t =? d)%nat then 1%nat else 0%nat.
Proof.
  induction 1 as [|d p x Hp IH Hx Hc]; intros t.
  - destruct t as [|t]; cbn [level].
    + cbn. destruct (N.eq_dec root root); [reflexivity|contradiction].
    + rewrite cnt_flat_map, list_sum_zero by apply root_not_sent. reflexivity.
  - destruct t as [|t]; cbn [level].
    + cbn. destruct (N.eq_dec root x); [congruence|reflexivity].
    + rewrite cnt_flat_map. rewrite (map_ext _ (fun s => if s =? p then 1%nat else 0%nat)) by apply Hc.
      rewrite list_sum_indicator, IH. reflexivity.
Qed.

Lemma unreached_level x : x <> root -> (forall s, cnt (succ s) x = 0%nat) -> forall t, cnt (level t) x = 0%nat.
Proof.
  intros Hx Hc [|t]; cbn [level].
  - cbn. destruct (N.eq_dec root x); [congruence|reflexivity].
  - rewrite cnt_flat_map. now apply list_sum_zero.
Qed.

(* levels t .. t+k-1 *)
Fixpoint levels_range (t k : nat) : list N :=
  match k with O => [] | S k' => level t ++ levels_range (S t) k' end.

Lemma reach_range d x : Reach d x -> forall k t,
  cnt (levels_range t k) x = if ((t <=? d) && (d <? t + k))%nat then 1%nat else 0%nat.
Proof.
  intros Hr. induction k as [|k IH]; intros t; cbn [levels_range].
  - cbn [count_occ]. iflia.
  - rewrite count_occ_app, IH, (reach_level d x Hr t). iflia.
Qed.
Lemma unreached_range x : x <> root -> (forall s, cnt (succ s) x = 0%nat) ->
  forall k t, cnt (levels_range t k) x = 0%nat.
Proof.
  intros Hx Hc. induction k as [|k IH]; intros t; cbn [levels_range]; [reflexivity|].
  rewrite count_occ_app, IH. now rewrite unreached_level.
Qed.
End Levels.
