(* C13 — closing the propagation: masks, the static description of every rank's
   sends, and the main theorems. *)
From PV Require Import Base.Tac Base.ListX.
From Coq Require Import NArith Ndigits.
From PV Require Import Bcast.BcastDefs Bcast.BcastBits Bcast.BcastTopo Bcast.BcastWalk Bcast.BcastLevels Bcast.BcastTree.
Local Open Scope N_scope.

Lemma in_mask_bits m k : In k (mask_bits m) <-> N.testbit m (N.of_nat k) = true.
Proof.
  unfold mask_bits. rewrite filter_In, in_seq. split; [tauto|]. intros H. split; [|exact H].
  split; [lia|]. cbn [plus]. destruct (Nat.lt_ge_cases k (N.size_nat m)) as [Hlt|Hge]; [exact Hlt|].
  rewrite Ntestbit_Nbit, Nbit_Nsize in H by assumption. discriminate.
Qed.

Lemma fold_setbit_spec (cond : nat -> bool) ks : forall acc k,
  N.testbit (fold_left (fun acc k => if cond k then N.setbit acc (N.of_nat k) else acc) ks acc) (N.of_nat k) =
  N.testbit acc (N.of_nat k) || (existsb (Nat.eqb k) ks && cond k).
Proof.
  induction ks as [|a ks IH]; intros acc k; cbn [fold_left existsb].
  - now rewrite Bool.orb_false_r.
  - rewrite IH. destruct (Nat.eqb_spec k a) as [->|Hne].
    + destruct (cond a) eqn:Ec.
      * rewrite N.setbit_eqb, N.eqb_refl. cbn. now rewrite Bool.orb_true_r.
      * cbn [orb]. now rewrite !Bool.andb_false_r.
    + cbn [orb]. destruct (cond a); [|reflexivity].
      rewrite N.setbit_eqb. replace (N.of_nat a =? N.of_nat k) with false by lia. reflexivity.
Qed.
Lemma existsb_eqb_in k ks : existsb (Nat.eqb k) ks = true <-> In k ks.
Proof.
  rewrite existsb_exists. split.
  - intros [x [Hx He]]. apply Nat.eqb_eq in He. now subst.
  - intros H. exists k. split; [exact H|apply Nat.eqb_refl].
Qed.
Lemma existsb_eqb_mask m k : existsb (Nat.eqb k) (mask_bits m) = N.testbit m (N.of_nat k).
Proof. apply Bool.eq_true_iff_eq. rewrite existsb_eqb_in. apply in_mask_bits. Qed.

Lemma pack_mask_spec n root outs om peer k :
  N.testbit (pack_mask n root outs om peer) (N.of_nat k) =
  N.testbit om (N.of_nat k) && bit_at (rank_bits (nth k outs (empty_out n))) (rel_of n root peer).
Proof.
  unfold pack_mask. rewrite rank_to_bit_rel.
  rewrite (fold_setbit_spec (fun k => getbit (rank_bits (nth k outs (empty_out n))) (rel_of n root peer / 32) (rel_of n root peer mod 32))).
  rewrite N.bits_0, existsb_eqb_mask. reflexivity.
Qed.

(* a mask built over the outputs 0 .. len-1 by a condition that fails beyond them *)
Lemma fold_setbit_seq (cond : nat -> bool) len k : (forall j, (len <= j)%nat -> cond j = false) ->
  N.testbit (fold_left (fun acc k => if cond k then N.setbit acc (N.of_nat k) else acc) (seq 0 len) 0) (N.of_nat k) = cond k.
Proof.
  intros Hc. rewrite fold_setbit_spec, N.bits_0. cbn [orb].
  destruct (Nat.lt_ge_cases k len) as [Hlt|Hge]; [|rewrite (Hc k Hge); apply Bool.andb_false_r].
  replace (existsb (Nat.eqb k) (seq 0 len)) with true; [reflexivity|].
  symmetry. apply existsb_eqb_in, in_seq. lia.
Qed.

Lemma root_mask_spec root sets k :
  N.testbit (root_mask root sets) (N.of_nat k) = has_remote root (nth k sets []).
Proof.
  apply (fold_setbit_seq (fun k => has_remote root (nth k sets []))).
  intros j Hj. now rewrite nth_overflow.
Qed.
Lemma relay_mask_spec me sets pm k :
  N.testbit (relay_mask me sets pm) (N.of_nat k) = N.testbit pm (N.of_nat k) && mem me (nth k sets []).
Proof.
  apply (fold_setbit_seq (fun k => N.testbit pm (N.of_nat k) && mem me (nth k sets []))).
  intros j Hj. rewrite nth_overflow by assumption. apply Bool.andb_false_r.
Qed.

Lemma nth_root_outs n root sets k :
  nth k (root_outs n root sets) (empty_out n) = mk_output n root (nonroot root (nth k sets [])).
Proof. exact (map_nth (fun s => mk_output n root (nonroot root s)) sets [] k). Qed.
Lemma nth_relay_outs n root sets pm k :
  nth k (relay_outs n root sets pm) (empty_out n) =
  if N.testbit pm (N.of_nat k) then mk_output n root (nth k sets []) else empty_out n.
Proof.
  unfold relay_outs. destruct (Nat.lt_ge_cases k (length sets)) as [Hlt|Hge].
  - set (f := fun k => if N.testbit pm (N.of_nat k) then mk_output n root (nth k sets []) else empty_out n).
    rewrite (nth_indep _ _ (f 0%nat)) by (now rewrite map_length, seq_length).
    rewrite (map_nth f), seq_nth by assumption. reflexivity.
  - rewrite !nth_overflow by (rewrite ?map_length, ?seq_length; lia).
    destruct (N.testbit pm (N.of_nat k)); reflexivity.
Qed.

Lemma filter_filter {A} (p q : A -> bool) l : filter p (filter q l) = filter (fun x => q x && p x) l.
Proof. induction l as [|a l IH]; cbn; [reflexivity|]. destruct (q a); cbn; [destruct (p a)|]; now rewrite IH. Qed.
Lemma filter_length_le {A} (p : A -> bool) l : (length (filter p l) <= length l)%nat.
Proof. induction l as [|a l IH]; cbn; [lia|]. destruct (p a); cbn; lia. Qed.

Lemma fresh_spec Ls : forall fwl, (forall L, In L Ls -> NoDup L) ->
  NoDup (concat (fresh fwl Ls)) /\
  forall x, In x (concat (fresh fwl Ls)) <-> ~ In x fwl /\ exists L, In L Ls /\ In x L.
Proof.
  induction Ls as [|L Ls IH]; intros fwl Hnd; cbn [fresh concat].
  - split; [constructor|]. intros x. split; [intros []|intros [_ [L [[] _]]]].
  - set (F := filter (fun r => negb (mem r fwl)) L).
    destruct (IH (rev F ++ fwl) (fun L' H => Hnd L' (or_intror H))) as [IH1 IH2].
    assert (HF : forall x, In x F <-> ~ In x fwl /\ In x L).
    { intros x. subst F. rewrite filter_In, Bool.negb_true_iff, mem_false. tauto. }
    split.
    + apply NoDup_app_iff. split; [apply NoDup_filter, Hnd; now left|]. split; [exact IH1|].
      intros x Hx Hx'. apply IH2 in Hx'. destruct Hx' as [Hm _].
      apply Hm, in_or_app. left. now apply -> in_rev.
    + intros x. rewrite in_app_iff, IH2, in_app_iff, <- in_rev, HF.
      split.
      * intros [[Hm Hx]|[Hm [L' [HL' Hx]]]]; (split; [tauto|]); [exists L|exists L']; cbn [In]; tauto.
      * intros [Hm [L' [[<-|HL'] Hx]]]; [tauto|].
        destruct (in_dec N.eq_dec x L); [tauto|]. right. split; [tauto|eauto].
Qed.
Lemma fresh_in Ls : forall fwl F, In F (fresh fwl Ls) ->
  exists L, In L Ls /\ (forall x, In x F -> In x L) /\ (length F <= length L)%nat.
Proof.
  induction Ls as [|L Ls IH]; intros fwl F; cbn [fresh]; [intros []|].
  intros [<-|H].
  - exists L. split; [now left|]. split; [|apply filter_length_le]. intros x Hx. apply filter_In in Hx. tauto.
  - destruct (IH _ _ H) as [L' [H1 H2]]. exists L'. split; [now right|exact H2].
Qed.

Lemma mem_nonroot root s x : mem x (nonroot root s) = mem x s && negb (x =? root).
Proof.
  apply Bool.eq_true_iff_eq. unfold nonroot. rewrite Bool.andb_true_iff, !mem_In, filter_In. reflexivity.
Qed.

(* with the star predicate only index 0, the root, has children *)
Lemma walk_star s F : forall idx my, (0 <= idx)%Z -> (my = -1 \/ 1 <= my)%Z ->
  walk s star_child F idx my = [].
Proof.
  induction F as [|r F IH]; intros idx my Hi Hm; cbn [walk]; [reflexivity|].
  destruct (my =? -1)%Z eqn:E.
  - apply IH; [lia|]. destruct (r =? s); lia.
  - unfold star_child at 1. replace (my =? 0)%Z with false by lia. cbn [app]. apply IH; lia.
Qed.

Section Closed.
Variables n root : N.
Variable sets : list (list N).
Variable t : topo.
Hypothesis Hn31 : n < 2 ^ 31.
Hypothesis Hroot : root < n.
Hypothesis Hsets : forall s, In s sets -> forall r, In r s -> r < n.

Let Hn : 0 < n. Proof. lia. Qed.
Notation child := (child_fn t).
Notation rm := (root_mask root sets).

Definition Lk (k : nat) : list N := filter (fun r => mem r (nth k sets [])) (order n root).
Definition FS : list (list N) := fresh [root] (map Lk (mask_bits rm)).

Lemma nth_sets_lt k r : In r (nth k sets []) -> r < n.
Proof.
  destruct (Nat.lt_ge_cases k (length sets)) as [Hlt|Hge].
  - apply Hsets. now apply nth_In.
  - rewrite nth_overflow by assumption. intros [].
Qed.

Lemma plist_relay k : In k (mask_bits rm) ->
  plist n root (nth k (relay_outs n root sets rm) (empty_out n)) = Lk k.
Proof.
  intros Hk. apply in_mask_bits in Hk. rewrite nth_relay_outs, Hk.
  unfold plist. apply enum_mk_output; auto. apply nth_sets_lt.
Qed.
Lemma plist_root k :
  plist n root (nth k (root_outs n root sets) (empty_out n)) =
  filter (fun r => mem r (nonroot root (nth k sets []))) (order n root).
Proof.
  rewrite nth_root_outs. unfold plist. apply enum_mk_output; auto.
  intros r Hr. unfold nonroot in Hr. apply filter_In in Hr. apply (nth_sets_lt k). tauto.
Qed.

Lemma fresh_root_eq ks : forall fwl, In root fwl ->
  fresh fwl (map (fun k => filter (fun r => mem r (nonroot root (nth k sets []))) (order n root)) ks) =
  fresh fwl (map Lk ks).
Proof.
  induction ks as [|k ks IH]; intros fwl Hr; cbn [map fresh]; [reflexivity|].
  assert (He : filter (fun r => negb (mem r fwl)) (filter (fun r => mem r (nonroot root (nth k sets []))) (order n root)) =
               filter (fun r => negb (mem r fwl)) (Lk k)).
  { unfold Lk. rewrite !filter_filter. apply filter_ext. intros x. rewrite mem_nonroot.
    destruct (x =? root) eqn:E; cbn [negb]; [|now rewrite Bool.andb_true_r].
    apply N.eqb_eq in E. subst x. apply mem_In in Hr. rewrite Hr. cbn. now rewrite !Bool.andb_false_r. }
  rewrite He. f_equal. apply IH. apply in_or_app. now right.
Qed.

Lemma repr_init : repr n root (mark_forwarded n root (zeros n) root) [root].
Proof. apply repr_mark; auto. apply repr_zeros. Qed.

Lemma filter_order p : NoDup (filter p (order n root)) /\ forall r, In r (filter p (order n root)) -> r < n.
Proof.
  split; [apply NoDup_filter, NoDup_order; auto|].
  intros r H. apply filter_In in H. destruct H as [H _]. now apply in_order in H.
Qed.

Theorem dests_relay me : dests n root me child (relay_outs n root sets rm) rm = succ root child FS me.
Proof.
  unfold dests. rewrite (fold_outputs n root Hn Hroot me child _ _ _ _ [root] repr_init).
  - cbn [app]. unfold succ, FS. do 3 f_equal.
    apply map_ext_in. intros k Hk. now apply plist_relay.
  - intros k Hk. rewrite plist_relay by assumption. apply filter_order.
Qed.
Theorem dests_root : dests n root root child (root_outs n root sets) rm = succ root child FS root.
Proof.
  unfold dests. rewrite (fold_outputs n root Hn Hroot root child _ _ _ _ [root] repr_init).
  - cbn [app]. unfold succ, FS. do 2 f_equal.
    rewrite <- fresh_root_eq by (now left). f_equal.
    apply map_ext. intros k. apply plist_root.
  - intros k Hk. rewrite plist_root. apply filter_order.
Qed.

Lemma FS_fresh : NoDup (concat FS) /\
  forall x, In x (concat FS) <-> ~ In x [root] /\ exists L, In L (map Lk (mask_bits rm)) /\ In x L.
Proof. apply fresh_spec. intros L HL. apply in_map_iff in HL. destruct HL as [k [<- _]]. apply filter_order. Qed.
Lemma FS_nodup : NoDup (concat FS).
Proof. apply FS_fresh. Qed.

Lemma has_remote_false s x : has_remote root s = false -> x <> root -> mem x s = false.
Proof.
  intros H Hx. apply mem_false. intros Hi.
  assert (has_remote root s = true); [|congruence].
  apply existsb_exists. exists x. split; [exact Hi|]. apply Bool.negb_true_iff. now apply N.eqb_neq.
Qed.

Lemma FS_in x : In x (concat FS) <-> x <> root /\ exists k, mem x (nth k sets []) = true.
Proof.
  rewrite (proj2 FS_fresh). split.
  - intros [Hx [L [HL HxL]]]. split; [intros ->; apply Hx; now left|].
    apply in_map_iff in HL. destruct HL as [k [<- _]]. exists k. unfold Lk in HxL. apply filter_In in HxL. tauto.
  - intros [Hx [k Hk]]. split; [intros [E|[]]; now apply Hx|]. exists (Lk k). split.
    + apply in_map. apply in_mask_bits. rewrite root_mask_spec.
      destruct (has_remote root (nth k sets [])) eqn:E; [reflexivity|].
      rewrite (has_remote_false _ x E Hx) in Hk. discriminate.
    + unfold Lk. apply filter_In. split; [|exact Hk]. apply in_order; auto. apply (nth_sets_lt k). now apply mem_In.
Qed.
Lemma FS_root : ~ In root (concat FS).
Proof. intros H. apply FS_in in H. destruct H as [H _]. now apply H. Qed.
Lemma FS_lt x : In x (concat FS) -> x < n.
Proof. intros H. apply FS_in in H. destruct H as [_ [k Hk]]. apply (nth_sets_lt k). now apply mem_In. Qed.
Lemma FS_length F : In F FS -> (length F <= N.to_nat n)%nat.
Proof.
  intros HF. apply fresh_in in HF. destruct HF as [L [HL [_ Hlen]]].
  apply in_map_iff in HL. destruct HL as [k [<- _]]. unfold Lk in Hlen.
  pose proof (filter_length_le (fun r => mem r (nth k sets [])) (order n root)) as H2.
  rewrite length_order in H2. lia.
Qed.
Lemma FS_len31 F : In F FS -> (Z.of_nat (length F) < 2 ^ 31)%Z.
Proof. intros HF. apply FS_length in HF. lia. Qed.
Lemma bit_at_mk_output s d : (forall r, In r s -> r < n) -> d < n ->
  bit_at (rank_bits (mk_output n root s)) (rel_of n root d) = mem d s.
Proof.
  intros Hs Hd. destruct (mk_output_inv n root Hn Hroot s Hs) as (_ & Hb & _).
  rewrite Hb. rewrite <- mem_rank_of; auto; [|now apply rel_of_lt].
  now rewrite rank_of_rel_of.
Qed.

(* what every message of the closed propagation satisfies *)
Definition good (m : msg) : Prop :=
  m_pm m = rm /\
  (forall k, N.testbit (m_ann m) (N.of_nat k) =
             mem (m_dst m) (nth k sets []) && ((m_src m =? root) || mem (m_src m) (nth k sets []))) /\
  In (m_dst m) (succ root child FS (m_src m)).

Lemma succ_dst s d : In d (succ root child FS s) -> In d (concat FS).
Proof. intros H. apply succ_in in H. destruct H as [F [HF [Hd _]]]. apply in_concat. eauto. Qed.

(* a relay and the rank it sends to consume a common output *)
Lemma succ_same_set s d : In d (succ root child FS s) -> s <> root ->
  exists j, mem s (nth j sets []) = true /\ mem d (nth j sets []) = true.
Proof.
  intros H Hs. apply succ_in in H. destruct H as [F [HF [Hd [E|HsF]]]]; [contradiction|].
  apply fresh_in in HF. destruct HF as [L [HL [Hin _]]].
  apply in_map_iff in HL. destruct HL as [k [<- _]]. exists k.
  apply Hin in HsF, Hd. unfold Lk in HsF, Hd. apply filter_In in HsF, Hd. tauto.
Qed.

Lemma good_root m : In m (root_sends n root sets child) -> good m.
Proof.
  unfold root_sends. destruct (rm =? 0); [intros []|].
  unfold activate. rewrite dests_root. intros Hm. apply in_map_iff in Hm. destruct Hm as [d [<- Hd]].
  pose proof (succ_dst _ _ Hd) as HdF. pose proof (FS_lt _ HdF) as Hdn.
  assert (Hdr : d <> root) by (apply FS_in in HdF; tauto).
  unfold good. cbn [m_pm m_dst m_ann m_src]. repeat split; auto.
  intros k. rewrite pack_mask_spec, root_mask_spec, nth_root_outs, N.eqb_refl. cbn [orb].
  rewrite bit_at_mk_output; auto.
  2:{ intros r Hr. unfold nonroot in Hr. apply filter_In in Hr. apply (nth_sets_lt k). tauto. }
  rewrite mem_nonroot. replace (d =? root) with false by (symmetry; now apply N.eqb_neq).
  cbn [negb]. rewrite !Bool.andb_true_r.
  destruct (has_remote root (nth k sets [])) eqn:E; [reflexivity|].
  now rewrite (has_remote_false _ d E Hdr).
Qed.

Lemma good_relay m' m : good m' -> In m (relay_sends n root sets child m') -> good m.
Proof.
  intros (Hpm & _ & Hme). apply succ_dst in Hme. unfold relay_sends. rewrite Hpm. unfold activate. rewrite dests_relay.
  intros Hm. apply in_map_iff in Hm. destruct Hm as [d [<- Hd]].
  set (me := m_dst m') in *.
  pose proof (succ_dst _ _ Hd) as HdF. pose proof (FS_lt _ HdF) as Hdn.
  assert (Hdr : d <> root) by (apply FS_in in HdF; tauto).
  assert (Hmr : me <> root) by (apply FS_in in Hme; tauto).
  unfold good. cbn [m_pm m_dst m_ann m_src]. repeat split; auto.
  intros k. rewrite pack_mask_spec, relay_mask_spec, root_mask_spec, nth_relay_outs, root_mask_spec.
  replace (me =? root) with false by (symmetry; now apply N.eqb_neq). cbn [orb].
  destruct (has_remote root (nth k sets [])) eqn:E; cbn [andb].
  - rewrite bit_at_mk_output; auto; [apply Bool.andb_comm|apply nth_sets_lt].
  - now rewrite (has_remote_false _ d E Hdr).
Qed.

(* the rounds of the propagation are the breadth-first levels of [sc] *)
Notation sc := (succ root child FS).

Lemma relay_dsts m' : m_pm m' = rm -> map m_dst (relay_sends n root sets child m') = sc (m_dst m').
Proof.
  intros Hpm. unfold relay_sends, activate. rewrite Hpm, map_map, dests_relay. cbn [m_dst]. apply map_id.
Qed.
Lemma root_dsts : map m_dst (root_sends n root sets child) = sc root.
Proof.
  unfold root_sends. destruct (rm =? 0) eqn:E.
  - apply N.eqb_eq in E. unfold succ, FS. rewrite E. reflexivity.
  - unfold activate. rewrite map_map, dests_root. cbn [m_dst]. apply map_id.
Qed.

Lemma flat_map_snd_map {A B} (f : A -> list B) (l : list A) :
  flat_map snd (map (fun m => (m, f m)) l) = flat_map f l.
Proof. induction l as [|a l IH]; cbn; [reflexivity|]. now rewrite IH. Qed.

Lemma step_good fr : Forall good fr ->
  Forall good (flat_map (relay_sends n root sets child) fr) /\
  map m_dst (flat_map (relay_sends n root sets child) fr) = flat_map sc (map m_dst fr).
Proof.
  intros Hg. split.
  - apply Forall_forall. intros m Hm. apply in_flat_map in Hm. destruct Hm as [m' [Hm' Hm]].
    rewrite Forall_forall in Hg. eapply good_relay; eauto.
  - rewrite map_flat_map, flat_map_map. induction Hg as [|m' fr Hm' Hfr IH]; cbn; [reflexivity|].
    rewrite IH. f_equal. apply relay_dsts. apply Hm'.
Qed.

Lemma rounds_levels fuel : forall fr lv, Forall good fr -> map m_dst fr = level sc root lv ->
  Forall good (flat_map snd (fst (rounds n root sets child fuel fr))) /\
  map m_dst (flat_map snd (fst (rounds n root sets child fuel fr))) = levels_range sc root (S lv) fuel /\
  map m_dst (snd (rounds n root sets child fuel fr)) = level sc root (lv + fuel).
Proof.
  induction fuel as [|fuel IH]; intros fr lv Hg Hl; cbn [rounds].
  - cbn. rewrite Nat.add_0_r. auto.
  - rewrite flat_map_snd_map. destruct (step_good fr Hg) as [Hg' Hd'].
    specialize (IH (flat_map (relay_sends n root sets child) fr) (S lv) Hg').
    rewrite Hd', Hl in IH. specialize (IH eq_refl).
    destruct (rounds n root sets child fuel (flat_map (relay_sends n root sets child) fr)) as [log rest].
    cbn [fst snd] in *. destruct IH as (I1 & I2 & I3).
    rewrite flat_map_app, flat_map_snd_map. repeat split.
    + apply Forall_app. split; assumption.
    + rewrite map_app, I2, Hd', Hl. reflexivity.
    + rewrite I3. f_equal. lia.
Qed.

(* the closed propagation: its messages are good, their receivers are the levels
   1 .. nb_nodes+1 of the tree, and what is left is level nb_nodes+1 *)
Lemma propagate_levels :
  Forall good (all_msgs (propagate n root sets child)) /\
  map m_dst (all_msgs (propagate n root sets child)) = levels_range sc root 1 (S (N.to_nat n)) /\
  map m_dst (leftover (propagate n root sets child)) = level sc root (S (N.to_nat n)).
Proof.
  assert (Hg : Forall good (root_sends n root sets child)).
  { apply Forall_forall. intros m. apply good_root. }
  assert (Hl : map m_dst (root_sends n root sets child) = level sc root 1).
  { cbn [level flat_map]. rewrite app_nil_r. apply root_dsts. }
  destruct (rounds_levels (N.to_nat n) _ 1%nat Hg Hl) as (R1 & R2 & R3).
  unfold propagate. destruct (rounds n root sets child (N.to_nat n) (root_sends n root sets child)) as [log rest].
  cbn [all_msgs leftover levels_range fst snd] in *. repeat split.
  - apply Forall_app. split; assumption.
  - now rewrite map_app, Hl, R2.
  - exact R3.
Qed.

Lemma all_good m : In m (all_msgs (propagate n root sets child)) -> good m.
Proof. apply Forall_forall, propagate_levels. Qed.

Lemma reach_FS x : In x (concat FS) -> exists d, (1 <= d <= N.to_nat n)%nat /\ Reach sc root d x.
Proof.
  intros Hx. apply in_concat in Hx. destruct Hx as [F [HF HxF]].
  destruct (reach_bound root child (parent_idx t) (parent_idx_range t) (unique_parent_b t) FS FS_nodup FS_root FS_len31 F x HF HxF) as [d [Hd Hr]].
  apply FS_length in HF. exists d. split; [lia|exact Hr].
Qed.

Lemma cnt_sc_root s : cnt (sc s) root = 0%nat.
Proof. apply succ_root. apply FS_root. Qed.

Lemma is_dest_FS r : is_dest root sets r = true <-> In r (concat FS).
Proof.
  unfold is_dest. rewrite FS_in, Bool.andb_true_iff, Bool.negb_true_iff, N.eqb_neq, existsb_exists.
  split; intros [H1 H2]; (split; [exact H1|]).
  - destruct H2 as [s [Hs Hm]]. destruct (In_nth _ _ [] Hs) as [k [_ Hk]]. exists k. now rewrite Hk.
  - destruct H2 as [k Hk]. exists (nth k sets []). split; [|exact Hk].
    destruct (Nat.lt_ge_cases k (length sets)); [now apply nth_In|].
    rewrite nth_overflow in Hk by assumption. discriminate.
Qed.

Lemma recv_count_cnt r ms : recv_count r ms = cnt (map m_dst ms) r.
Proof.
  unfold recv_count. induction ms as [|m ms IH]; [reflexivity|]. cbn [filter map].
  destruct (N.eq_dec (m_dst m) r) as [He|Hne].
  - rewrite count_occ_cons_eq by assumption. apply N.eqb_eq in He. rewrite He. cbn [length]. now rewrite IH.
  - rewrite count_occ_cons_neq by assumption. apply N.eqb_neq in Hne. now rewrite Hne.
Qed.

(* every destination rank receives exactly one activation, nobody else any *)
Theorem activation_exactly_once r :
  recv_count r (all_msgs (propagate n root sets child)) = if is_dest root sets r then 1%nat else 0%nat.
Proof.
  rewrite recv_count_cnt, (proj1 (proj2 propagate_levels)).
  destruct (is_dest root sets r) eqn:E.
  - apply is_dest_FS in E. destruct (reach_FS r E) as [d [Hd Hr]].
    rewrite (reach_range sc root cnt_sc_root d r Hr).
    replace ((1 <=? d)%nat && (d <? 1 + S (N.to_nat n))%nat) with true by lia. reflexivity.
  - destruct (N.eq_dec r root) as [->|Hne].
    + rewrite (reach_range sc root cnt_sc_root 0 root (Reach_root sc root)). reflexivity.
    + apply unreached_range; [exact Hne|]. intros s. apply succ_notin.
      intros Hi. apply is_dest_FS in Hi. congruence.
Qed.

(* the propagation is over after nb_nodes rounds: nothing is left undelivered *)
Theorem propagation_terminates : leftover (propagate n root sets child) = [].
Proof.
  destruct propagate_levels as (_ & _ & Hl).
  destruct (leftover (propagate n root sets child)) as [|m ms]; [reflexivity|exfalso].
  (* a receiver at level nb_nodes+1 is a destination, and those are reached earlier *)
  assert (Hy : In (m_dst m) (level sc root (S (N.to_nat n)))) by (rewrite <- Hl; now left).
  pose proof Hy as Hs. cbn [level] in Hs. apply in_flat_map in Hs. destruct Hs as [s [_ Hs]].
  destruct (reach_FS _ (succ_dst _ _ Hs)) as [d [Hd Hr]].
  apply (count_occ_In N.eq_dec) in Hy. rewrite (reach_level sc root cnt_sc_root d _ Hr) in Hy.
  destruct (Nat.eqb_spec (S (N.to_nat n)) d); lia.
Qed.

(* what a message announces: exactly the outputs its receiver consumes and its sender holds *)
Theorem announced_iff m k : In m (all_msgs (propagate n root sets child)) ->
  N.testbit (m_ann m) (N.of_nat k) =
  mem (m_dst m) (nth k sets []) && ((m_src m =? root) || mem (m_src m) (nth k sets [])).
Proof. intros Hm. apply (all_good m Hm). Qed.

(* the payload clause is decided by relay_lacks_output *)
Theorem payload_iff : payload_ok n root sets child <-> relay_lacks_output n root sets child = false.
Proof.
  unfold payload_ok, relay_lacks_output. split.
  - intros H. apply Bool.not_true_is_false. intros He. apply existsb_exists in He.
    destruct He as [m [Hm He]]. apply existsb_exists in He. destruct He as [k [_ He]].
    apply Bool.andb_true_iff in He. destruct He as [H1 H2].
    destruct (H m Hm k H1) as [H3 _]. rewrite H3 in H2. discriminate.
  - intros He m Hm k Hk.
    assert (Ha : N.testbit (m_ann m) (N.of_nat k) = true).
    { apply Bool.not_false_iff_true. intros E. apply Bool.not_true_iff_false in He. apply He.
      apply existsb_exists. exists m. split; [exact Hm|]. apply existsb_exists. exists k. split; [|now rewrite Hk, E].
      apply in_seq. destruct (Nat.lt_ge_cases k (length sets)); [lia|]. rewrite nth_overflow in Hk by assumption. discriminate. }
    split; [exact Ha|]. rewrite (announced_iff m k Hm), Hk in Ha. cbn [andb] in Ha.
    apply Bool.orb_true_iff in Ha. destruct Ha as [Ha|Ha]; [left; now apply N.eqb_eq|now right].
Qed.

Lemma payload_from_senders :
  (forall m, In m (all_msgs (propagate n root sets child)) ->
   forall k, mem (m_dst m) (nth k sets []) = true -> m_src m = root \/ mem (m_src m) (nth k sets []) = true) ->
  payload_ok n root sets child.
Proof.
  intros H m Hm k Hk. split; [|now apply H].
  rewrite (announced_iff m k Hm), Hk. cbn [andb]. destruct (H m Hm k Hk) as [->|Hs].
  - now rewrite N.eqb_refl.
  - rewrite Hs. apply Bool.orb_true_r.
Qed.

Theorem payload_same_or_disjoint : same_or_disjoint root sets -> payload_ok n root sets child.
Proof.
  intros Hc. apply payload_from_senders. intros m Hm k Hk.
  destruct (N.eq_dec (m_src m) root) as [He|Hne]; [now left|right].
  destruct (all_good m Hm) as (_ & _ & Hd).
  destruct (succ_same_set _ _ Hd Hne) as [j [Hj1 Hj2]]. apply succ_dst, FS_in in Hd. destruct Hd as [Hd _].
  destruct (Hc j k) as [Heq|Hdis].
  - rewrite <- Heq; assumption.
  - rewrite (Hdis _ Hd Hj2) in Hk. discriminate.
Qed.

(* each consumer of an output gets it announced exactly once when the payload clause holds *)
Theorem each_output_once : payload_ok n root sets child ->
  forall k r, mem r (nth k sets []) = true -> r <> root ->
  exists m, In m (all_msgs (propagate n root sets child)) /\ m_dst m = r /\
            N.testbit (m_ann m) (N.of_nat k) = true /\
            (m_src m = root \/ mem (m_src m) (nth k sets []) = true) /\
            forall m', In m' (all_msgs (propagate n root sets child)) -> m_dst m' = r -> m' = m.
Proof.
  intros Hp k r Hk Hr.
  assert (Hd : is_dest root sets r = true).
  { apply is_dest_FS, FS_in. split; [exact Hr|]. eauto. }
  pose proof (activation_exactly_once r) as Hc. rewrite Hd in Hc. unfold recv_count in Hc.
  destruct (filter (fun m => m_dst m =? r) (all_msgs (propagate n root sets child))) as [|m [|m2 l]] eqn:Hf; try discriminate.
  assert (Hm : In m (filter (fun m => m_dst m =? r) (all_msgs (propagate n root sets child)))) by (rewrite Hf; now left).
  apply filter_In in Hm. destruct Hm as [Hm He]. apply N.eqb_eq in He.
  exists m. split; [exact Hm|]. split; [exact He|].
  destruct (Hp m Hm k ltac:(now rewrite He)) as [H1 H2]. split; [exact H1|]. split; [exact H2|].
  intros m' Hm' He'.
  assert (Hin : In m' (filter (fun m => m_dst m =? r) (all_msgs (propagate n root sets child)))).
  { apply filter_In. split; [exact Hm'|]. now apply N.eqb_eq. }
  rewrite Hf in Hin. destruct Hin as [<-|[]]. reflexivity.
Qed.

Theorem star_only_root m : t = Star -> In m (all_msgs (propagate n root sets child)) -> m_src m = root.
Proof.
  intros Ht Hm. destruct (all_good m Hm) as (_ & _ & Hd).
  destruct (N.eq_dec (m_src m) root) as [He|Hne]; [exact He|exfalso].
  unfold succ, m0 in Hd. apply N.eqb_neq in Hne. rewrite N.eqb_sym, Hne, Ht in Hd.
  apply in_concat in Hd. destruct Hd as [l [Hl Hx]]. apply in_map_iff in Hl. destruct Hl as [F [<- _]].
  cbn [child_fn] in Hx. rewrite walk_star in Hx by lia. destruct Hx.
Qed.
End Closed.
