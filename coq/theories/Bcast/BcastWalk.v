(* C13 — the loop of parsec_remote_dep_activate against a static description:
   the participants of output i that are not yet forwarded form the "fresh" list F_i,
   numbered 1..|F_i|; the sends are the walk over F_i. *)
From PV Require Import Base.Tac Base.ListX.
From Coq Require Import NArith.
From PV Require Import Bcast.BcastDefs Bcast.BcastBits.
Local Open Scope N_scope.

Lemma mem_In r l : mem r l = true <-> In r l.
Proof.
  unfold mem. rewrite existsb_exists. split.
  - intros [x [Hx He]]. apply N.eqb_eq in He. now subst.
  - intros H. exists r. split; [exact H|apply N.eqb_refl].
Qed.
Lemma mem_false r l : mem r l = false <-> ~ In r l.
Proof. rewrite <- mem_In. destruct (mem r l); split; congruence. Qed.
Lemma mem_app r a b : mem r (a ++ b) = mem r a || mem r b.
Proof. apply existsb_app. Qed.
Lemma mem_rev r a : mem r (rev a) = mem r a.
Proof. apply Bool.eq_true_iff_eq. rewrite !mem_In. symmetry. apply in_rev. Qed.
Lemma mem_cons r x l : mem r (x :: l) = (r =? x) || mem r l.
Proof. reflexivity. Qed.

(* the sends of one rank over one fresh list, numbering from idx+1 *)
Fixpoint walk (me : N) (child : Z -> Z -> bool) (F : list N) (idx my : Z) : list N :=
  match F with
  | [] => []
  | r :: F' =>
    let idx' := (idx + 1)%Z in
    if (my =? -1)%Z then walk me child F' idx' (if r =? me then idx' else (-1)%Z)
    else (if child my idx' then [r] else []) ++ walk me child F' idx' my
  end.

(* do_output starts the numbering of every output at idx = 0, with my_idx = 0 on the
   root and unknown elsewhere: the root has index 0 and the j-th fresh rank index j+1 *)
Definition m0 (root me : N) : Z := if root =? me then 0%Z else (-1)%Z.

Fixpoint fresh (fwl : list N) (Ls : list (list N)) : list (list N) :=
  match Ls with
  | [] => []
  | L :: Ls' => let F := filter (fun r => negb (mem r fwl)) L in F :: fresh (rev F ++ fwl) Ls'
  end.

Section Loop.
Variables n root : N.
Hypothesis Hn : 0 < n.
Hypothesis Hroot : root < n.
Variable me : N.
Variable child : Z -> Z -> bool.

Definition repr (fwc fwl : list N) : Prop :=
  length fwc = nbanks n /\ forall r, r < n -> is_forwarded n root fwc r = mem r fwl.

Lemma repr_zeros : repr (zeros n) [].
Proof.
  split; [apply repeat_length|]. intros r _. rewrite is_forwarded_rel. apply bit_at_zeros.
Qed.

Lemma repr_mark fwc fwl r : r < n -> repr fwc fwl -> repr (mark_forwarded n root fwc r) (r :: fwl).
Proof.
  intros Hr [Hl Hb]. rewrite mark_forwarded_rel. split; [now rewrite length_setbit|].
  intros r' Hr'. rewrite is_forwarded_rel, bit_at_setbit.
  2:{ rewrite Hl. apply nbanks_covers. now apply rel_of_lt. }
  rewrite <- is_forwarded_rel, Hb by assumption. rewrite mem_cons, Bool.orb_comm. f_equal.
  apply N_eqb_iff. split; [now apply rel_of_inj|congruence].
Qed.

Lemma filter_notin_cons (fwl : list N) x L : ~ In x L ->
  filter (fun r => negb (mem r (x :: fwl))) L = filter (fun r => negb (mem r fwl)) L.
Proof.
  intros Hx. apply filter_ext_in. intros r Hr. rewrite mem_cons.
  destruct (r =? x) eqn:E; [apply N.eqb_eq in E; subst; contradiction|reflexivity].
Qed.

Lemma visit_fwd st r : is_forwarded n root (fw st) r = true -> visit n root me child st r = st.
Proof. intros H. unfold visit. now rewrite H. Qed.
Lemma visit_unknown st r : is_forwarded n root (fw st) r = false -> my_idx st = (-1)%Z ->
  visit n root me child st r =
  {| fw := mark_forwarded n root (fw st) r; idx := (idx st + 1)%Z;
     my_idx := if r =? me then (idx st + 1)%Z else (-1)%Z; sent := sent st |}.
Proof. intros H1 H2. unfold visit. rewrite H1, H2. reflexivity. Qed.
Lemma visit_known st r : is_forwarded n root (fw st) r = false -> my_idx st <> (-1)%Z ->
  visit n root me child st r =
  {| fw := mark_forwarded n root (fw st) r; idx := (idx st + 1)%Z; my_idx := my_idx st;
     sent := if child (my_idx st) (idx st + 1)%Z then sent st ++ [r] else sent st |}.
Proof.
  intros H1 H2. unfold visit. rewrite H1. destruct (my_idx st =? -1)%Z eqn:E; [lia|reflexivity].
Qed.

(* one step of the C loop on a fresh rank is one step of [walk] *)
Lemma visit_walk st r F : is_forwarded n root (fw st) r = false ->
  let st' := visit n root me child st r in
  fw st' = mark_forwarded n root (fw st) r /\
  sent st' ++ walk me child F (idx st') (my_idx st') = sent st ++ walk me child (r :: F) (idx st) (my_idx st).
Proof.
  intros H. cbn [walk]. destruct (Z.eqb_spec (my_idx st) (-1)) as [E|E].
  - rewrite visit_unknown by assumption. cbn [fw idx my_idx sent]. auto.
  - rewrite visit_known by assumption. cbn [fw idx my_idx sent].
    destruct (child (my_idx st) (idx st + 1)%Z); cbn [app]; rewrite <- ?app_assoc; auto.
Qed.

Lemma fold_visit L : forall st fwl, NoDup L -> (forall r, In r L -> r < n) -> repr (fw st) fwl ->
  let st' := fold_left (visit n root me child) L st in
  let F := filter (fun r => negb (mem r fwl)) L in
  repr (fw st') (rev F ++ fwl) /\ sent st' = sent st ++ walk me child F (idx st) (my_idx st).
Proof.
  induction L as [|r L IH]; intros st fwl Hnd Hlt Hrep; cbn [fold_left filter].
  - cbn. split; [exact Hrep|now rewrite app_nil_r].
  - inv Hnd. assert (Hr : r < n) by (apply Hlt; now left).
    assert (Hlt' : forall x, In x L -> x < n) by (intros; apply Hlt; now right).
    pose proof Hrep as [Hl Hb]. specialize (Hb r Hr).
    destruct (mem r fwl) eqn:Hm; cbn [negb].
    + rewrite visit_fwd by assumption. apply IH; auto.
    + destruct (visit_walk st r (filter (fun r => negb (mem r fwl)) L) Hb) as [Hfw Hsent].
      destruct (IH (visit n root me child st r) (r :: fwl) H2 Hlt') as [R1 R2].
      { rewrite Hfw. apply repr_mark; auto. }
      rewrite filter_notin_cons in R1, R2 by assumption. split.
      * cbn [rev]. rewrite <- app_assoc. exact R1.
      * rewrite R2. exact Hsent.
Qed.

Definition plist (o : outp) : list N := enum_banks n root (count_bits o) 0 (rank_bits o).

Lemma fold_outputs (outs : list outp) ks : forall fwc snt fwl, repr fwc fwl ->
  (forall k, In k ks -> NoDup (plist (nth k outs (empty_out n))) /\
                        forall r, In r (plist (nth k outs (empty_out n))) -> r < n) ->
  snd (fold_left (fun acc i => do_output n root me child (nth i outs (empty_out n)) acc) ks (fwc, snt)) =
  snt ++ concat (map (fun F => walk me child F 0%Z (m0 root me))
                     (fresh fwl (map (fun k => plist (nth k outs (empty_out n))) ks))).
Proof.
  induction ks as [|k ks IH]; intros fwc snt fwl Hrep Hks; cbn [fold_left map fresh concat].
  - cbn. now rewrite app_nil_r.
  - destruct (Hks k (or_introl eq_refl)) as [Hnd Hlt].
    unfold do_output at 2. cbn [fst snd].
    match goal with |- context[fold_left (visit _ _ _ _) _ ?s] => set (st0 := s) end.
    destruct (fold_visit (plist (nth k outs (empty_out n))) st0 fwl Hnd Hlt Hrep) as [R1 R2].
    fold (plist (nth k outs (empty_out n))).
    rewrite (IH _ _ _ R1) by (intros; apply Hks; now right).
    rewrite R2. subst st0. cbn [sent idx my_idx]. fold (m0 root me). now rewrite <- app_assoc.
Qed.
End Loop.

Section WalkFacts.
Variable me : N.
Variable child : Z -> Z -> bool.
Notation walk := (walk me child).
Notation cnt l x := (count_occ N.eq_dec l x).

Lemma walk_incl F : forall idx my x, In x (walk F idx my) -> In x F.
Proof.
  induction F as [|r F IH]; intros idx my x; cbn [BcastDefs.mem BcastWalk.walk]; [auto|].
  destruct (my =? -1)%Z.
  - intros H. right. eapply IH; eauto.
  - intros H. apply in_app_or in H. destruct H as [H|H].
    + destruct (child my (idx + 1)%Z); [destruct H as [<-|[]]; now left|destruct H].
    + right. eapply IH; eauto.
Qed.
Lemma cnt_walk_notin F idx my x : ~ In x F -> cnt (walk F idx my) x = 0%nat.
Proof. intros H. apply count_occ_not_In. intros Hi. apply H. eapply walk_incl; eauto. Qed.

Lemma walk_known_app A : forall B idx my, my <> (-1)%Z ->
  walk (A ++ B) idx my = walk A idx my ++ walk B (idx + Z.of_nat (length A))%Z my.
Proof.
  induction A as [|a A IH]; intros B idx my Hmy; cbn [app BcastWalk.walk length].
  - now rewrite Z.add_0_r.
  - destruct (my =? -1)%Z eqn:E; [lia|]. rewrite IH by assumption. rewrite <- app_assoc.
    do 3 f_equal. lia.
Qed.
Lemma walk_skip A : forall B idx, ~ In me A ->
  walk (A ++ B) idx (-1)%Z = walk B (idx + Z.of_nat (length A))%Z (-1)%Z.
Proof.
  induction A as [|a A IH]; intros B idx Hme; cbn [app BcastWalk.walk length].
  - now rewrite Z.add_0_r.
  - cbn. destruct (a =? me) eqn:E; [apply N.eqb_eq in E; subst; exfalso; apply Hme; now left|].
    rewrite IH by (intros H; apply Hme; now right). f_equal. lia.
Qed.
Lemma walk_unknown_nil F idx : ~ In me F -> walk F idx (-1)%Z = [].
Proof. intros H. rewrite <- (app_nil_r F), walk_skip by assumption. reflexivity. Qed.
Lemma walk_found B idx : walk (me :: B) idx (-1)%Z = walk B (idx + 1)%Z (idx + 1)%Z.
Proof. cbn. now rewrite N.eqb_refl. Qed.

(* the sender knows its index [my] *)
Lemma cnt_walk_known A x B my : my <> (-1)%Z -> ~ In x (A ++ B) ->
  forall idx, cnt (walk (A ++ x :: B) idx my) x =
              if child my (idx + Z.of_nat (length A) + 1)%Z then 1%nat else 0%nat.
Proof.
  intros Hmy Hx idx. rewrite in_app_iff in Hx.
  rewrite walk_known_app by assumption. rewrite count_occ_app, cnt_walk_notin by tauto.
  cbn [BcastWalk.walk]. destruct (my =? -1)%Z eqn:E; [lia|]. rewrite count_occ_app, (cnt_walk_notin B) by tauto.
  destruct (child my (idx + Z.of_nat (length A) + 1)%Z); cbn; [|reflexivity].
  destruct (N.eq_dec x x); [reflexivity|contradiction].
Qed.

(* a sender listed before x learns its index there and sends to x iff x's index is a child of it *)
Lemma cnt_walk_before A1 A2 x B idx : (-1 <= idx)%Z -> NoDup (A1 ++ me :: A2 ++ x :: B) ->
  cnt (walk (A1 ++ me :: A2 ++ x :: B) idx (-1)%Z) x =
  if child (idx + Z.of_nat (length A1) + 1)%Z (idx + Z.of_nat (length A1) + 1 + Z.of_nat (length A2) + 1)%Z
  then 1%nat else 0%nat.
Proof.
  intros Hi Hnd. pose proof (NoDup_remove_2 _ _ _ Hnd) as Hme. apply NoDup_remove_1, NoDup_app_iff in Hnd. destruct Hnd as (_ & Hnd & _).
  rewrite walk_skip, walk_found by (intros H; apply Hme, in_or_app; now left).
  apply cnt_walk_known; [lia|now apply NoDup_remove_2].
Qed.

(* a sender that is not listed before x sends nothing to x *)
Lemma cnt_walk_not_before A x B idx : ~ In me A -> ~ In x B ->
  cnt (walk (A ++ x :: B) idx (-1)%Z) x = 0%nat.
Proof.
  intros HA HB. rewrite walk_skip by assumption. cbn [BcastWalk.walk Z.eqb].
  destruct (x =? me); now apply cnt_walk_notin.
Qed.

Lemma walk_from_root root F : walk F 0%Z (m0 root me) = walk (root :: F) (-1)%Z (-1)%Z.
Proof. reflexivity. Qed.
End WalkFacts.
