(* C13 — bit layer: rank <-> (bank, bit) is a bijection; word arrays; mk_output and
   the enumeration loop of parsec_remote_dep_activate produce the destination set in
   increasing relative rank, each rank once. *)
From PV Require Import Base.Tac Base.ListX.
From Coq Require Import NArith FinFun.
From PV Require Import Bcast.BcastDefs.
Local Open Scope N_scope.
(* lets [lia] decide goals with division and modulo by constants (the /32 and mod 32 of the bit layout) *)
Ltac Zify.zify_post_hook ::= Z.to_euclidean_division_equations.

Definition rel_of (n root rank : N) : N := (rank + n - root) mod n.
Definition rank_of (n root rel : N) : N := (rel + root) mod n.

Lemma N_eqb_iff a b c d : (a = b <-> c = d) -> (a =? b) = (c =? d).
Proof. intros H. apply Bool.eq_true_iff_eq. now rewrite !N.eqb_eq. Qed.

Lemma rel_of_lt n root rank : 0 < n -> rel_of n root rank < n.
Proof. intros; unfold rel_of; apply N.mod_lt; lia. Qed.
Lemma rank_of_lt n root rel : 0 < n -> rank_of n root rel < n.
Proof. intros; unfold rank_of; apply N.mod_lt; lia. Qed.

(* both maps reduce a number below 2n: at most one wrap *)
Lemma mod_wrap n a : 0 < n -> a < 2 * n -> a mod n = if a <? n then a else a - n.
Proof.
  intros Hn Ha. destruct (N.ltb_spec a n); [now apply N.mod_small|].
  symmetry; apply N.mod_unique with (q := 1); lia.
Qed.
Lemma rank_of_rel_of n root rank : root < n -> rank < n -> rank_of n root (rel_of n root rank) = rank.
Proof.
  intros Hr Hk. unfold rank_of, rel_of. rewrite (mod_wrap n (rank + n - root)) by lia.
  destruct (rank + n - root <? n) eqn:E; rewrite mod_wrap by lia; iflia.
Qed.
Lemma rel_of_rank_of n root rel : root < n -> rel < n -> rel_of n root (rank_of n root rel) = rel.
Proof.
  intros Hr Hk. unfold rank_of, rel_of. rewrite (mod_wrap n (rel + root)) by lia.
  destruct (rel + root <? n) eqn:E; rewrite mod_wrap by lia; iflia.
Qed.

Lemma rank_to_bit_rel n root rank :
  rank_to_bit n root rank = (rel_of n root rank / 32, rel_of n root rank mod 32).
Proof. reflexivity. Qed.
Lemma bit_to_rank_rel n root b i : bit_to_rank n root b i = rank_of n root (b * 32 + i).
Proof. reflexivity. Qed.

(* the bijection between ranks and (bank, bit) positions *)
Lemma rank_to_bit_to_rank n root rank : root < n -> rank < n ->
  let '(b, i) := rank_to_bit n root rank in
  bit_to_rank n root b i = rank /\ i < 32 /\ b * 32 + i < n.
Proof.
  intros Hr Hk. rewrite rank_to_bit_rel, bit_to_rank_rel.
  pose proof (rel_of_lt n root rank ltac:(lia)) as Hl.
  replace (rel_of n root rank / 32 * 32 + rel_of n root rank mod 32) with (rel_of n root rank) by lia.
  rewrite rank_of_rel_of by assumption. repeat split; lia.
Qed.
Lemma bit_to_rank_to_bit n root b i : root < n -> i < 32 -> b * 32 + i < n ->
  bit_to_rank n root b i < n /\ rank_to_bit n root (bit_to_rank n root b i) = (b, i).
Proof.
  intros Hr Hi Hb. rewrite bit_to_rank_rel, rank_to_bit_rel. split.
  - apply rank_of_lt; lia.
  - rewrite rel_of_rank_of by assumption. f_equal; lia.
Qed.
Lemma rank_to_bit_inj n root r1 r2 : root < n -> r1 < n -> r2 < n ->
  rank_to_bit n root r1 = rank_to_bit n root r2 -> r1 = r2.
Proof.
  intros Hr H1 H2 He.
  pose proof (rank_to_bit_to_rank n root r1 Hr H1) as A.
  pose proof (rank_to_bit_to_rank n root r2 Hr H2) as B.
  rewrite He in A. destruct (rank_to_bit n root r2) as [b i]. destruct A as [A _], B as [B _]. congruence.
Qed.
Lemma rel_of_inj n root r1 r2 : root < n -> r1 < n -> r2 < n -> rel_of n root r1 = rel_of n root r2 -> r1 = r2.
Proof. intros Hr H1 H2 He. rewrite <- (rank_of_rel_of n root r1), <- (rank_of_rel_of n root r2) by assumption. now rewrite He. Qed.

Lemma length_upd ws b v : length (upd ws b v) = length ws.
Proof. revert b; induction ws as [|w ws IH]; intros [|b]; cbn; auto. Qed.
Lemma nth_upd ws b v b' : nth b' (upd ws b v) 0 = if (b' =? b)%nat && (b <? length ws)%nat then v else nth b' ws 0.
Proof.
  revert b b'; induction ws as [|w ws IH]; intros b b'.
  - cbn. destruct b, b'; cbn; try reflexivity; now rewrite Bool.andb_false_r.
  - destruct b as [|b], b' as [|b']; cbn [upd nth length]; try reflexivity.
    rewrite IH. reflexivity.
Qed.

Definition bit_at (ws : list N) (rel : N) : bool := getbit ws (rel / 32) (rel mod 32).

Lemma bit_at_setbit ws rel rel' : (N.to_nat (rel / 32) < length ws)%nat ->
  bit_at (setbit ws (rel / 32) (rel mod 32)) rel' = bit_at ws rel' || (rel' =? rel).
Proof.
  intros Hl. unfold bit_at, getbit, setbit. rewrite nth_upd.
  destruct (N.to_nat (rel' / 32) =? N.to_nat (rel / 32))%nat eqn:Hb.
  - apply Nat.eqb_eq in Hb. apply Nat.ltb_lt in Hl. rewrite Hl. cbn [andb].
    assert (Hbb : rel' / 32 = rel / 32) by lia. rewrite Hbb.
    rewrite N.lor_spec, N.shiftl_1_l, N.pow2_bits_eqb. f_equal. apply N_eqb_iff. lia.
  - cbn [andb]. apply Nat.eqb_neq in Hb.
    destruct (rel' =? rel) eqn:E2; [exfalso; apply N.eqb_eq in E2; subst; lia|].
    now rewrite Bool.orb_false_r.
Qed.
Lemma length_setbit ws b i : length (setbit ws b i) = length ws.
Proof. apply length_upd. Qed.
Lemma bit_at_zeros n rel : bit_at (zeros n) rel = false.
Proof. unfold bit_at, getbit, zeros. now rewrite nth_repeat. Qed.
Lemma bit_at_short ws rel : (length ws <= N.to_nat (rel / 32))%nat -> bit_at ws rel = false.
Proof. intros H. unfold bit_at, getbit. now rewrite nth_overflow. Qed.

Lemma is_forwarded_rel n root fw rank : is_forwarded n root fw rank = bit_at fw (rel_of n root rank).
Proof. reflexivity. Qed.
Lemma mark_forwarded_rel n root fw rank :
  mark_forwarded n root fw rank = setbit fw (rel_of n root rank / 32) (rel_of n root rank mod 32).
Proof. reflexivity. Qed.

Lemma nbanks_covers n rel : rel < n -> (N.to_nat (rel / 32) < nbanks n)%nat.
Proof. intros H. unfold nbanks. lia. Qed.

Definition rels (k : nat) : list N := map N.of_nat (seq 0 k).
Lemma NoDup_rels k : NoDup (rels k).
Proof.
  unfold rels. apply FinFun.Injective_map_NoDup; [|apply seq_NoDup].
  intros a b H. lia.
Qed.
Lemma in_rels k x : In x (rels k) <-> (N.to_nat x < k)%nat.
Proof.
  unfold rels. rewrite in_map_iff. split.
  - intros [y [<- Hy]]. apply in_seq in Hy. lia.
  - intros H. exists (N.to_nat x). split; [lia|]. apply in_seq. lia.
Qed.
Lemma flat_map_if {A B} (p : A -> bool) (g : A -> B) l :
  flat_map (fun x => if p x then [g x] else []) l = map g (filter p l).
Proof. induction l as [|a l IH]; cbn; [reflexivity|]. destruct (p a); cbn; now rewrite IH. Qed.
Lemma filter_map_comm {A B} (p : B -> bool) (f : A -> B) l :
  filter p (map f l) = map f (filter (fun x => p (f x)) l).
Proof. induction l as [|a l IH]; cbn; [reflexivity|]. destruct (p (f a)); cbn; now rewrite IH. Qed.
Lemma filter_add_one (f g : N -> bool) l a : NoDup l -> In a l -> f a = false ->
  (forall x, g x = f x || (x =? a)) -> length (filter g l) = S (length (filter f l)).
Proof.
  intros Hnd Hin Hfa Hg. induction l as [|x l IH]; [destruct Hin|].
  inv Hnd. cbn [filter]. rewrite Hg. destruct Hin as [->|Hin].
  - rewrite Hfa, N.eqb_refl. cbn. f_equal. f_equal. apply filter_ext_in.
    intros y Hy. rewrite Hg. destruct (y =? a) eqn:E; [apply N.eqb_eq in E; subst; contradiction|].
    now rewrite Bool.orb_false_r.
  - destruct (x =? a) eqn:E; [apply N.eqb_eq in E; subst; contradiction|].
    rewrite Bool.orb_false_r. destruct (f x); cbn [length]; rewrite IH; auto.
Qed.

Lemma seq_shift_map s k : seq s k = map (fun i => s + i)%nat (seq 0 k).
Proof.
  induction s as [|s IH]; [now rewrite map_id|].
  rewrite <- seq_shift, IH, map_map. reflexivity.
Qed.

Section MkOutput.
Variables n root : N.
Hypothesis Hn : 0 < n.
Hypothesis Hroot : root < n.

Definition has_rel (s : list N) (rel : N) : bool := existsb (fun r => rel_of n root r =? rel) s.

Definition out_inv (o : outp) (s : list N) : Prop :=
  length (rank_bits o) = nbanks n /\
  (forall rel, bit_at (rank_bits o) rel = has_rel s rel) /\
  count_bits o = length (filter (bit_at (rank_bits o)) (rels (32 * nbanks n))).

Lemma out_inv_empty : out_inv (empty_out n) [].
Proof.
  unfold out_inv, empty_out; cbn [rank_bits count_bits]. repeat split.
  - unfold zeros. apply repeat_length.
  - intros rel. apply bit_at_zeros.
  - rewrite filter_none; [reflexivity|]. intros x _. apply bit_at_zeros.
Qed.

Lemma add_rank_rel o rank :
  add_rank n root o rank =
  if bit_at (rank_bits o) (rel_of n root rank) then o
  else {| rank_bits := setbit (rank_bits o) (rel_of n root rank / 32) (rel_of n root rank mod 32);
          count_bits := S (count_bits o) |}.
Proof. reflexivity. Qed.

Lemma out_inv_add o s rank : rank < n -> out_inv o s -> out_inv (add_rank n root o rank) (s ++ [rank]).
Proof.
  intros Hr (Hlen & Hbit & Hcnt). rewrite add_rank_rel.
  pose proof (rel_of_lt n root rank Hn) as Hrel.
  assert (Hhas : forall rel, has_rel (s ++ [rank]) rel = has_rel s rel || (rel =? rel_of n root rank)).
  { intros rel. unfold has_rel. rewrite existsb_app. cbn. rewrite Bool.orb_false_r. f_equal. apply N.eqb_sym. }
  destruct (bit_at (rank_bits o) (rel_of n root rank)) eqn:Hb.
  - repeat split; auto. intros rel. rewrite Hhas, <- Hbit.
    destruct (rel =? rel_of n root rank) eqn:E; [|now rewrite Bool.orb_false_r].
    apply N.eqb_eq in E; subst. now rewrite Hb.
  - unfold out_inv. cbn [rank_bits count_bits].
    assert (Hbk : (N.to_nat (rel_of n root rank / 32) < length (rank_bits o))%nat).
    { rewrite Hlen. now apply nbanks_covers. }
    repeat split.
    + now rewrite length_setbit.
    + intros rel. rewrite bit_at_setbit by assumption. now rewrite Hhas, Hbit.
    + rewrite Hcnt. symmetry.
      apply filter_add_one with (a := rel_of n root rank); auto using NoDup_rels.
      * apply in_rels. unfold nbanks. lia.
      * intros x. now apply bit_at_setbit.
Qed.

Lemma out_inv_fold s : forall o s0, (forall r, In r s -> r < n) -> out_inv o s0 ->
  out_inv (fold_left (add_rank n root) s o) (s0 ++ s).
Proof.
  induction s as [|r s IH]; intros o s0 Hs Hi; cbn [fold_left].
  - now rewrite app_nil_r.
  - replace (s0 ++ r :: s) with ((s0 ++ [r]) ++ s) by (now rewrite <- app_assoc).
    apply IH; [intros; apply Hs; now right|]. apply out_inv_add; auto. apply Hs; now left.
Qed.

Lemma mk_output_inv s : (forall r, In r s -> r < n) -> out_inv (mk_output n root s) s.
Proof. intros Hs. unfold mk_output. apply (out_inv_fold s _ []); auto using out_inv_empty. Qed.

Fixpoint enum_full (ai : nat) (ws : list N) : list N :=
  match ws with [] => [] | w :: ws' => enum_word n root ai w ++ enum_full (S ai) ws' end.

Lemma enum_banks_full ws : forall count ai, count = length (enum_full ai ws) ->
  enum_banks n root count ai ws = enum_full ai ws.
Proof.
  induction ws as [|w ws IH]; intros count ai Hc.
  - destruct count; reflexivity.
  - cbn [enum_full] in *. destruct count as [|c].
    + symmetry in Hc. apply length_zero_iff_nil in Hc. now rewrite Hc.
    + cbn [enum_banks]. f_equal. apply IH. rewrite app_length in Hc. lia.
Qed.

Lemma enum_word_spec ai w :
  enum_word n root ai w =
  map (rank_of n root) (filter (fun rel => N.testbit w (rel mod 32)) (map N.of_nat (seq (32 * ai) 32))).
Proof.
  unfold enum_word. rewrite flat_map_if.
  rewrite (seq_shift_map (32 * ai) 32).
  rewrite !map_map. rewrite filter_map_comm, map_map.
  rewrite (filter_ext_in (fun x => N.testbit w (N.of_nat (32 * ai + x) mod 32)) (fun bi => N.testbit w (N.of_nat bi))).
  - apply map_ext. intros bi. rewrite bit_to_rank_rel. f_equal. lia.
  - intros bi Hbi. apply in_seq in Hbi. f_equal. lia.
Qed.

Lemma enum_full_spec ws : forall ai pre, length pre = ai ->
  enum_full ai ws =
  map (rank_of n root) (filter (bit_at (pre ++ ws)) (map N.of_nat (seq (32 * ai) (32 * length ws)))).
Proof.
  induction ws as [|w ws IH]; intros ai pre Hp.
  - cbn [enum_full length]. rewrite Nat.mul_0_r. reflexivity.
  - cbn [enum_full length]. replace (32 * S (length ws))%nat with (32 + 32 * length ws)%nat by lia.
    rewrite seq_app, map_app, filter_app, map_app. f_equal.
    + rewrite enum_word_spec. f_equal. apply filter_ext_in. intros rel Hrel.
      apply in_map_iff in Hrel. destruct Hrel as [k [<- Hk]]. apply in_seq in Hk.
      unfold bit_at, getbit. replace (N.to_nat (N.of_nat k / 32)) with ai by lia.
      rewrite app_nth2 by lia. now rewrite Hp, Nat.sub_diag.
    + rewrite (IH (S ai) (pre ++ [w])) by (rewrite app_length; cbn; lia).
      rewrite <- app_assoc. cbn [app]. replace (32 * S ai)%nat with (32 * ai + 32)%nat by lia. reflexivity.
Qed.

Definition order : list N := map (rank_of n root) (rels (N.to_nat n)).

Lemma mem_rank_of s rel : (forall r, In r s -> r < n) -> rel < n ->
  mem (rank_of n root rel) s = has_rel s rel.
Proof.
  intros Hs Hrel. unfold mem, has_rel. induction s as [|r s IH]; [reflexivity|]. cbn [existsb].
  rewrite IH by (intros; apply Hs; now right). f_equal.
  assert (Hr : r < n) by (apply Hs; now left).
  apply N_eqb_iff. split; intros <-; [now apply rel_of_rank_of|now apply rank_of_rel_of].
Qed.

Theorem enum_mk_output s : (forall r, In r s -> r < n) ->
  enum_banks n root (count_bits (mk_output n root s)) 0 (rank_bits (mk_output n root s)) =
  filter (fun r => mem r s) order.
Proof.
  intros Hs. destruct (mk_output_inv s Hs) as (Hlen & Hbit & Hcnt).
  set (o := mk_output n root s) in *.
  pose proof (enum_full_spec (rank_bits o) 0 [] eq_refl) as Hf. cbn [app] in Hf. rewrite Nat.mul_0_r in Hf.
  rewrite enum_banks_full.
  2:{ rewrite Hf, map_length, Hcnt, Hlen. reflexivity. }
  rewrite Hf, Hlen. fold (rels (32 * nbanks n)).
  assert (Hsplit : rels (32 * nbanks n) = rels (N.to_nat n) ++ map N.of_nat (seq (N.to_nat n) (32 * nbanks n - N.to_nat n))).
  { unfold rels. rewrite <- map_app, <- seq_app. f_equal. f_equal. unfold nbanks. lia. }
  rewrite Hsplit, filter_app, map_app.
  rewrite (filter_none _ (map N.of_nat _)).
  2:{ intros x Hx. apply in_map_iff in Hx. destruct Hx as [k [<- Hk]]. apply in_seq in Hk.
      rewrite Hbit. unfold has_rel. apply Bool.not_true_is_false. intros He.
      apply existsb_exists in He. destruct He as [r [_ He]]. apply N.eqb_eq in He.
      pose proof (rel_of_lt n root r Hn). lia. }
  cbn [map]. rewrite app_nil_r. unfold order. rewrite filter_map_comm. f_equal.
  apply filter_ext_in. intros rel Hrel. apply in_rels in Hrel.
  rewrite Hbit. symmetry. apply mem_rank_of; auto. lia.
Qed.

Lemma NoDup_order : NoDup order.
Proof.
  (* the relative ranks of [order] are 0 .. n-1 *)
  apply (NoDup_map_inv (rel_of n root)). unfold order. rewrite map_map.
  rewrite (map_ext_in _ (fun rel => rel)), map_id; [apply NoDup_rels|].
  intros rel H. apply in_rels in H. apply rel_of_rank_of; lia.
Qed.
Lemma in_order r : In r order <-> r < n.
Proof.
  unfold order. rewrite in_map_iff. split.
  - intros [rel [<- _]]. now apply rank_of_lt.
  - intros Hr. exists (rel_of n root r). split; [now apply rank_of_rel_of|].
    apply in_rels. pose proof (rel_of_lt n root r Hn). lia.
Qed.
Lemma length_order : length order = N.to_nat n.
Proof. unfold order, rels. now rewrite !map_length, seq_length. Qed.
End MkOutput.
