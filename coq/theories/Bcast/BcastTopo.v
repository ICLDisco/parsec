(* C13 — the three child predicates: every index q >= 1 has exactly one parent p in [0, q). *)
From PV Require Import Base.Tac.
From PV Require Import Bcast.BcastDefs.
Local Open Scope Z_scope.

Lemma lxor_clear a k : 0 <= k -> Z.testbit a k = true -> Z.lxor a (2 ^ k) = a - 2 ^ k.
Proof.
  intros Hk Hb.
  rewrite Z.sub_nocarry_ldiff.
  - apply Z.bits_inj'. intros m Hm. rewrite Z.lxor_spec, Z.ldiff_spec, Z.pow2_bits_eqb by assumption.
    destruct (Z.eqb_spec k m) as [->|Hne].
    + rewrite Hb. reflexivity.
    + destruct (Z.testbit a m); reflexivity.
  - apply Z.bits_inj'. intros m Hm. rewrite Z.ldiff_spec, Z.pow2_bits_eqb, Z.bits_0 by assumption.
    destruct (Z.eqb_spec k m) as [->|Hne]; [now rewrite Hb|reflexivity].
Qed.

Lemma clear_top_spec k : forall him, 0 < him < 2 ^ Z.of_nat k -> clear_top k him = him - 2 ^ Z.log2 him.
Proof.
  induction k as [|k IH]; intros him Hh.
  - cbn in Hh. lia.
  - cbn [clear_top]. rewrite Nat2Z.inj_succ, Z.pow_succ_r in Hh by lia.
    destruct (Z.lt_ge_cases him (2 ^ Z.of_nat k)) as [H|H].
    + (* bit k is above the top bit of him *)
      rewrite Z.bits_above_log2; [apply IH; lia|lia|apply Z.log2_lt_pow2; lia].
    + (* bit k is the top bit of him *)
      assert (Hl : Z.log2 him = Z.of_nat k).
      { apply Z.log2_unique; [lia|]. rewrite Z.pow_succ_r by lia. lia. }
      pose proof (Z.bit_log2 him ltac:(lia)) as Hb. rewrite Hl in *.
      rewrite Hb. apply lxor_clear; [lia|exact Hb].
Qed.

Definition parent_idx (t : topo) (q : Z) : Z :=
  match t with Star => 0 | Chain => q - 1 | Binomial => q - 2 ^ Z.log2 q end.

Lemma parent_idx_range t q : 1 <= q -> 0 <= parent_idx t q < q.
Proof.
  intros Hq. destruct t; cbn [parent_idx]; try lia.
  pose proof (Z.log2_spec q ltac:(lia)) as [H1 H2].
  pose proof (Z.pow_pos_nonneg 2 (Z.log2 q) ltac:(lia) (Z.log2_nonneg q)). lia.
Qed.

(* q is a C int: q < 2^31 *)
Theorem unique_parent t q p : 1 <= q < 2 ^ 31 -> 0 <= p ->
  child_fn t p q = true <-> p = parent_idx t q.
Proof.
  intros Hq Hp. destruct t; cbn [child_fn parent_idx].
  - unfold star_child. lia.
  - unfold chain_child. destruct (p =? -1) eqn:E; lia.
  - unfold binomial_child. destruct (q =? 0) eqn:E0; [lia|]. destruct (p =? -1) eqn:E1; [lia|].
    rewrite clear_top_spec by (cbn; lia). lia.
Qed.
Lemma unique_parent_b t q p : 1 <= q < 2 ^ 31 -> 0 <= p ->
  child_fn t p q = (p =? parent_idx t q).
Proof.
  intros Hq Hp. apply Bool.eq_true_iff_eq. rewrite Z.eqb_eq. now apply unique_parent.
Qed.
