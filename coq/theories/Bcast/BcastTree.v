(* C13 — the fresh lists form a forest rooted at the root: every element of a fresh
   list has exactly one sender, its parent.  All that is asked of the child predicate
   is that every index q >= 1 that fits a C int has exactly one parent, and that it
   lies in [0, q). *)
From PV Require Import Base.Tac Base.ListX.
From Coq Require Import NArith.
From PV Require Import Bcast.BcastDefs Bcast.BcastBits Bcast.BcastWalk Bcast.BcastLevels.
Local Open Scope N_scope.

Lemma nth_NoDup_middle (A1 A2 : list N) s i : NoDup (A1 ++ s :: A2) -> (i < length (A1 ++ s :: A2))%nat ->
  nth i (A1 ++ s :: A2) 0 = s -> i = length A1.
Proof.
  intros Hnd Hi He. rewrite NoDup_nth in Hnd. apply (Hnd i (length A1) Hi).
  - rewrite app_length. cbn. lia.
  - rewrite He. now rewrite nth_middle.
Qed.

Section Tree.
Variable root : N.
Variable child : Z -> Z -> bool.
Variable parent : Z -> Z.
Hypothesis parent_range : forall q, (1 <= q -> 0 <= parent q < q)%Z.
Hypothesis child_parent : forall q p, (1 <= q < 2 ^ 31 -> 0 <= p -> child p q = (p =? parent q))%Z.
Variable Fs : list (list N).
Hypothesis HFnd : NoDup (concat Fs).
Hypothesis HFroot : ~ In root (concat Fs).
Hypothesis HFlen : forall F, In F Fs -> (Z.of_nat (length F) < 2 ^ 31)%Z.

Definition succ (s : N) : list N :=
  concat (map (fun F => walk s child F 0%Z (m0 root s)) Fs).

Lemma succ_in s x : In x (succ s) -> exists F, In F Fs /\ In x F /\ (s = root \/ In s F).
Proof.
  unfold succ. intros H. apply in_concat in H. destruct H as [l [Hl Hx]].
  apply in_map_iff in Hl. destruct Hl as [F [<- HF]]. exists F. split; [exact HF|]. split.
  - eapply walk_incl; eauto.
  - unfold m0 in Hx. destruct (root =? s) eqn:E; [left; apply N.eqb_eq in E; auto|].
    right. destruct (in_dec N.eq_dec s F) as [Hi|Hn]; [exact Hi|].
    rewrite walk_unknown_nil in Hx by assumption. destruct Hx.
Qed.
Lemma succ_notin s x : ~ In x (concat Fs) -> cnt (succ s) x = 0%nat.
Proof.
  intros Hx. apply count_occ_not_In. intros Hi. apply succ_in in Hi. destruct Hi as [F [HF [HxF _]]].
  apply Hx. apply in_concat. eauto.
Qed.
Lemma succ_root s : cnt (succ s) root = 0%nat.
Proof. now apply succ_notin. Qed.

(* x, listed after A in its fresh list, has index |A| + 1 in root :: A ++ x :: ...;
   its sender is the rank whose index is the parent of that one *)
Definition parent_of (A : list N) : N :=
  nth (Z.to_nat (parent (Z.of_nat (length A) + 1))) (root :: A) 0.

Lemma parent_count A x B : In (A ++ x :: B) Fs ->
  forall s, cnt (succ s) x = if s =? parent_of A then 1%nat else 0%nat.
Proof.
  intros HF s. pose proof HF as HFs. apply in_split in HFs. destruct HFs as (Fs1 & Fs2 & HFs).
  assert (Hnd : NoDup (concat Fs1 ++ (A ++ x :: B) ++ concat Fs2)).
  { rewrite HFs, concat_app in HFnd. exact HFnd. }
  apply NoDup_app_iff in Hnd. destruct Hnd as (_ & Hnd & D1).
  apply NoDup_app_iff in Hnd. destruct Hnd as (HndF & _ & D2).
  assert (HxF : In x (A ++ x :: B)) by (apply in_or_app; right; now left).
  (* only the list that contains x matters *)
  assert (Hred : cnt (succ s) x = cnt (walk s child (A ++ x :: B) 0%Z (m0 root s)) x).
  { unfold succ. rewrite HFs, map_app, concat_app. cbn [map concat]. rewrite !count_occ_app.
    rewrite !cnt_concat_zero; [lia| |].
    - intros l Hl. apply in_map_iff in Hl. destruct Hl as [F' [<- HF']]. apply cnt_walk_notin.
      intros Hi. apply (D2 x HxF). apply in_concat. eauto.
    - intros l Hl. apply in_map_iff in Hl. destruct Hl as [F' [<- HF']]. apply cnt_walk_notin.
      intros Hi. apply (D1 x); [apply in_concat; eauto|apply in_or_app; now left]. }
  rewrite Hred, walk_from_root. clear Hred.
  (* the numbered list: the root, then the fresh list; x has index q, its parent index pp *)
  set (G := root :: A). change (root :: A ++ x :: B) with (G ++ x :: B).
  assert (HndG : NoDup (G ++ x :: B)).
  { constructor; [intros Hi; apply HFroot, in_concat; eauto|exact HndF]. }
  set (q := Z.of_nat (length G)).
  unfold parent_of. fold G. replace (Z.of_nat (length A) + 1)%Z with q by (subst q G; cbn [length]; lia).
  assert (Hq : (1 <= q < 2 ^ 31)%Z).
  { specialize (HFlen _ HF). rewrite app_length in HFlen. cbn [length] in HFlen. subst q G. cbn [length]. lia. }
  pose proof (parent_range q ltac:(lia)) as Hpp. set (pp := parent q) in *.
  destruct (in_dec N.eq_dec s G) as [HsG|HsG].
  - (* s has index |A1| *)
    apply in_split in HsG. destruct HsG as [A1 [A2 HG]].
    assert (HG' : NoDup (A1 ++ s :: A2)) by (rewrite <- HG; apply NoDup_app_iff in HndG; apply HndG).
    assert (Hlen : length G = (length A1 + S (length A2))%nat) by (rewrite HG, app_length; reflexivity).
    rewrite HG, <- app_assoc in HndG |- *. cbn [app] in HndG |- *. rewrite (cnt_walk_before s child A1 A2 x B (-1)%Z ltac:(lia) HndG).
    replace (-1 + Z.of_nat (length A1) + 1 + Z.of_nat (length A2) + 1)%Z with q by lia.
    rewrite (child_parent q) by lia. fold pp.
    destruct (N.eqb_spec s (nth (Z.to_nat pp) (A1 ++ s :: A2) 0)) as [E|E],
             (Z.eqb_spec (-1 + Z.of_nat (length A1) + 1) pp) as [E'|E']; try reflexivity; exfalso.
    + symmetry in E. apply nth_NoDup_middle in E; [lia|assumption|rewrite app_length; cbn [length]; lia].
    + apply E. replace (Z.to_nat pp) with (length A1) by lia. now rewrite nth_middle.
  - (* s is x itself, or comes after x, or is not in this list: nothing is sent to x *)
    rewrite cnt_walk_not_before; [|assumption|apply NoDup_app_iff in HndG; destruct HndG as (_ & HndG & _); inv HndG; assumption].
    destruct (N.eqb_spec s (nth (Z.to_nat pp) G 0)) as [E|E]; [|reflexivity].
    exfalso. apply HsG. rewrite E. apply nth_In. subst q. lia.
Qed.

(* every rank of the numbered list root :: F is reached, at a depth bounded by its index *)
Lemma reach_index F : In F Fs -> forall j, (j <= length F)%nat ->
  exists d, (d <= j)%nat /\ Reach succ root d (nth j (root :: F) 0).
Proof.
  intros HF j. induction j as [j IH] using lt_wf_ind. intros Hj.
  destruct j as [|j]; [exists 0%nat; split; [lia|constructor]|]. cbn [nth].
  destruct (nth_split F 0 (n := j)) as (A & B & HAB & HlA); [lia|].
  set (x := nth j F 0) in *.
  assert (Hxr : x <> root).
  { intros E. apply HFroot, in_concat. exists F. split; [exact HF|]. rewrite <- E. apply nth_In. lia. }
  pose proof (parent_count A x B ltac:(now rewrite <- HAB)) as Hc.
  unfold parent_of in Hc. rewrite HlA in Hc.
  pose proof (parent_range (Z.of_nat j + 1) ltac:(lia)) as Hpp.
  set (i := Z.to_nat (parent (Z.of_nat j + 1))) in *.
  destruct (IH i ltac:(lia) ltac:(lia)) as [d [Hd Hr]].
  replace (nth i (root :: F) 0) with (nth i (root :: A) 0) in Hr.
  2:{ rewrite HAB. symmetry. apply (app_nth1 (root :: A) (x :: B)). cbn [length]. lia. }
  exists (S d). split; [lia|]. exact (Reach_child succ root d _ x Hr Hxr Hc).
Qed.

Lemma reach_bound F x : In F Fs -> In x F ->
  exists d, (1 <= d <= length F)%nat /\ Reach succ root d x.
Proof.
  intros HF Hx. destruct (In_nth F x 0 Hx) as (j & Hj & <-).
  destruct (reach_index F HF (S j) Hj) as [d [Hd Hr]]. cbn [nth] in Hr.
  exists d. split; [|exact Hr]. split; [|lia].
  apply (Reach_nonroot succ root d _ Hr). intros E. apply HFroot, in_concat. exists F. split; [exact HF|]. rewrite <- E. now apply nth_In.
Qed.
End Tree.
