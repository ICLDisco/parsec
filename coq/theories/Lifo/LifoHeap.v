(* Heap lemmas for the LIFO model: list segments in [nxt], the writes of push/chain,
   the per-thread decomposition of the items held by threads. *)
From PV Require Import Base.Tac Base.ListX Lifo.LifoDefs.
From Coq Require Import Permutation.

Lemma opt_eqb_eq a b : opt_eqb a b = true <-> a = b.
Proof.
  destruct a as [x|], b as [y|]; cbn; split; intros H; try congruence; try discriminate.
  - apply Nat.eqb_eq in H. congruence.
  - inversion H. apply Nat.eqb_refl.
Qed.
Lemma opt_eqb_refl a : opt_eqb a a = true.
Proof. now apply opt_eqb_eq. Qed.

Lemma set_same f x v : set f x v x = v.
Proof. unfold set. now rewrite Nat.eqb_refl. Qed.
Lemma set_other f x v y : y <> x -> set f x v y = f y.
Proof. intros H. unfold set. apply Nat.eqb_neq in H. now rewrite H. Qed.

Lemma link_other f xs h y : ~ In y xs -> link f xs h y = f y.
Proof.
  revert f. induction xs as [|x r IH]; intros f Hy; cbn [link]; [reflexivity|].
  rewrite IH by (intros ?; apply Hy; now right).
  apply set_other. intros ->. apply Hy. now left.
Qed.

(* [seg f o l h]: o -> x1 -> ... -> xm -> h along [f], with l = [x1; ...; xm] *)
Fixpoint seg (f : item -> option item) (o : option item) (l : list item) (h : option item) : Prop :=
  match l with
  | [] => o = h
  | x :: r => o = Some x /\ seg f (f x) r h
  end.
Definition linked f o l := seg f o l None.

Lemma seg_ext f g o l h : (forall x, In x l -> g x = f x) -> seg f o l h -> seg g o l h.
Proof.
  revert o. induction l as [|x r IH]; intros o He Hs; cbn [seg] in *; [assumption|].
  destruct Hs as [-> Hs]. split; [reflexivity|].
  rewrite He by now left. apply IH; [|assumption]. intros y Hy. apply He. now right.
Qed.

Lemma seg_app f o a m b h : seg f o a m -> seg f m b h -> seg f o (a ++ b) h.
Proof.
  revert o. induction a as [|x r IH]; intros o Ha Hb; cbn [seg app] in *.
  - now subst.
  - destruct Ha as [-> Ha]. split; [reflexivity|]. now apply IH.
Qed.

Lemma seg_link f xs h : NoDup xs -> xs <> [] -> seg (link f xs h) (hd_error xs) xs h.
Proof.
  revert f. induction xs as [|x r IH]; intros f Hnd Hne; [congruence|].
  inversion Hnd as [|? ? Hx Hr]; subst. cbn [hd_error seg link]. split; [reflexivity|].
  rewrite link_other by assumption. rewrite set_same.
  destruct r as [|y r']; [cbn; reflexivity|].
  apply (IH (set f x (Some y))); [assumption|discriminate].
Qed.

Lemma last_In (xs : list item) : xs <> [] -> In (last xs O) xs.
Proof.
  induction xs as [|x r IH]; [congruence|]. intros _. destruct r as [|y r']; [now left|].
  right. apply IH. discriminate.
Qed.

Lemma seg_set_last f xs h h' : NoDup xs -> xs <> [] ->
  seg f (hd_error xs) xs h -> seg (set f (last xs O) h') (hd_error xs) xs h'.
Proof.
  induction xs as [|x r IH]; intros Hnd Hne Hs; [congruence|].
  inversion Hnd as [|? ? Hx Hr]; subst. cbn [hd_error seg] in *. destruct Hs as [_ Hs].
  split; [reflexivity|].
  destruct r as [|y r'].
  - cbn [last seg] in *. now rewrite set_same.
  - change (last (x :: y :: r') O) with (last (y :: r') O).
    assert (Hl : In (last (y :: r') O) (y :: r')) by now apply last_In.
    rewrite set_other by (intros E; apply Hx; now rewrite E).
    cbn [seg] in Hs. destruct Hs as [Hy Hs]. rewrite Hy.
    apply IH; [assumption|discriminate|]. cbn [hd_error seg]. split; [reflexivity|exact Hs].
Qed.

Lemma linked_nil f o : linked f o [] <-> o = None.
Proof. reflexivity. Qed.

Lemma linked_walk f o l fuel : linked f o l -> (length l < fuel)%nat -> walk fuel f o = l.
Proof.
  unfold linked. revert o l. induction fuel as [|n IH]; intros o l Hl Hlen; [lia|].
  destruct l as [|x r]; cbn [seg] in Hl.
  - subst. reflexivity.
  - destruct Hl as [-> Hl]. cbn [walk]. f_equal. apply IH; [assumption|cbn in Hlen; lia].
Qed.

Lemma remove_nth_perm j l y : nth_error l j = Some y -> Permutation l (y :: remove_nth j l).
Proof.
  revert j. induction l as [|x r IH]; intros [|j] H; cbn in *; try discriminate.
  - inversion H. reflexivity.
  - rewrite perm_swap. constructor. now apply IH.
Qed.
Lemma pick_perm j l x l' : pick j l = Some (x, l') -> Permutation l (x :: l').
Proof.
  unfold pick. destruct (nth_error l j) as [y|] eqn:E.
  - intros H. inversion H; subst. now apply remove_nth_perm.
  - destruct l as [|z r]; intros H; inversion H; subst. reflexivity.
Qed.

Section Split.
Context {A B : Type} (f : A -> list B).
Lemma concat_split (l : list A) t th : nth_error l t = Some th ->
  exists rest,
    Permutation (concat (map f l)) (f th ++ rest) /\
    (forall th', Permutation (concat (map f (upd l t th'))) (f th' ++ rest)) /\
    (forall u thu, u <> t -> nth_error l u = Some thu -> incl (f thu) rest).
Proof.
  intros H.
  exists (concat (map f (firstn t l)) ++ concat (map f (skipn (S t) l))).
  assert (Hl : length (firstn t l) = t).
  { apply firstn_length_le. apply Nat.lt_le_incl. apply nth_error_Some. congruence. }
  split; [|split].
  - rewrite (split_nth l t th H) at 1. rewrite map_app, concat_app. cbn [map concat].
    rewrite app_assoc. rewrite (Permutation_app_comm (concat _) (f th)). now rewrite <- app_assoc.
  - intros th'. unfold upd. rewrite map_app, concat_app. cbn [map concat].
    rewrite app_assoc. rewrite (Permutation_app_comm (concat _) (f th')). now rewrite <- app_assoc.
  - intros u thu Hne Hu x Hx. apply in_or_app.
    rewrite (split_nth l t th H) in Hu.
    destruct (Nat.lt_ge_cases u t) as [Hlt|Hge].
    + left. rewrite nth_error_app1 in Hu by lia. apply nth_error_In in Hu.
      apply in_concat. exists (f thu). split; [now apply in_map|assumption].
    + right. rewrite nth_error_app2 in Hu by lia. rewrite Hl in Hu.
      destruct (u - t)%nat as [|k] eqn:E; [lia|]. cbn in Hu. apply nth_error_In in Hu.
      apply in_concat. exists (f thu). split; [now apply in_map|assumption].
Qed.
End Split.

Lemma NoDup_app_disj {A} (a b : list A) x : NoDup (a ++ b) -> In x a -> In x b -> False.
Proof. intros H. apply NoDup_app_iff in H. apply H. Qed.
Lemma NoDup_app_remove_r {A} (a b : list A) : NoDup (a ++ b) -> NoDup a.
Proof. intros H. apply NoDup_app_iff in H. apply H. Qed.
Lemma NoDup_app_remove_l {A} (a b : list A) : NoDup (a ++ b) -> NoDup b.
Proof. intros H. apply NoDup_app_iff in H. apply H. Qed.
