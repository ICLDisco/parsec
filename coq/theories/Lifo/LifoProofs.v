(* Linearizability of the LIFO model by forward simulation.

   The abstract stack is the replay of the linearisation events of the history on a
   list; the invariant [Inv] relates it to the heap and the head; one step of any thread
   preserves it.  The counter is used in the [PopCas] case exactly as the code uses it:
   a pop whose counter still equals the head's counter has seen no successful pop since
   it read the item, so the item is still in the stack with the same successor. *)
From PV Require Import Base.Tac Base.ListX Lifo.LifoDefs Lifo.LifoHeap.
From Coq Require Import Permutation.
Local Open Scope Z_scope.

(* what a thread suspended at [p] may rely on *)
Definition pc_ok (nx : item -> option item) (hc : Z) (s : list item) (p : pc) : Prop :=
  match p with
  | PWr xs => xs <> [] /\ exists h, seg nx (hd_error xs) xs h
  | PCas xs h => xs <> [] /\ seg nx (hd_error xs) xs h
  | PopRd _ k => k <= hc
  | PopCas _ k it nx' => k <= hc /\ (k = hc -> In it s /\ nx it = nx')
  | Idle | PopRetry | PRet _ => True
  end.

Section Inv.
Variable all0 : list item.
Variable s0 : list item.
Hypothesis all0_nodup : NoDup all0.

Record Inv (c : cfg) (s : list item) : Prop := {
  I_replay : replay s0 (hist c) = Some s;
  I_linked : linked (nxt c) (hitem c) s;
  I_perm : Permutation (s ++ held_all c) all0;
  I_pc : forall t th, nth_error (thr c) t = Some th -> pc_ok (nxt c) (hcnt c) s (t_pc th) }.

(* the items of the stack and of thread [t], beside those of the other threads *)
Lemma Inv_split c s t th : Inv c s -> nth_error (thr c) t = Some th ->
  exists rest,
    Permutation ((s ++ held th) ++ rest) all0 /\
    (forall th', Permutation (concat (map held (upd (thr c) t th'))) (held th' ++ rest)) /\
    (forall u thu, u <> t -> nth_error (thr c) u = Some thu -> incl (held thu) rest).
Proof.
  intros HI Hth. destruct (concat_split held (thr c) t th Hth) as (rest & Hp & Hp' & Hrest).
  exists rest. split; [|now split].
  rewrite <- (I_perm _ _ HI). unfold held_all. now rewrite Hp, app_assoc.
Qed.

Lemma Inv_nodup c s t th : Inv c s -> nth_error (thr c) t = Some th -> NoDup (s ++ held th).
Proof.
  intros HI Hth. destruct (Inv_split c s t th HI Hth) as (rest & Hp & _).
  apply (NoDup_app_remove_r _ rest). now rewrite Hp.
Qed.

(* A step of thread [t]: the new abstract stack is the replay of the new history and is linked
   from the new head; items move only between the stack and thread [t]; the heap changes only at
   those items; the counter does not decrease, and while it stays the same the items of the
   stack stay there with their successors. *)
Lemma Inv_update c s t th nx' hc' hi' th' h' s' :
  Inv c s -> nth_error (thr c) t = Some th ->
  replay s0 h' = Some s' ->
  linked nx' hi' s' ->
  Permutation (s' ++ held th') (s ++ held th) ->
  pc_ok nx' hc' s' (t_pc th') ->
  (forall x, ~ In x (s ++ held th) -> nx' x = nxt c x) ->
  hcnt c <= hc' ->
  (hc' = hcnt c -> forall x, In x s -> In x s' /\ nx' x = nxt c x) ->
  Inv {| nxt := nx'; hcnt := hc'; hitem := hi'; thr := upd (thr c) t th'; hist := h' |} s'.
Proof.
  intros HI Hth Hrep Hlnk Hperm Hpc Hfr Hle Hsame.
  destruct (Inv_split c s t th HI Hth) as (rest & Hp & Hp' & Hrest).
  assert (Hnd : NoDup ((s ++ held th) ++ rest)) by now rewrite Hp.
  constructor; cbn [nxt hcnt hitem thr hist].
  - exact Hrep.
  - exact Hlnk.
  - unfold held_all; cbn [thr]. now rewrite Hp', app_assoc, Hperm.
  - intros u thu Hu. destruct (Nat.eq_dec u t) as [->|Hne].
    + rewrite (nth_upd_same _ _ _ _ Hth) in Hu. inversion Hu; subst. exact Hpc.
    + rewrite (nth_upd_other _ _ _ _ _ Hth Hne) in Hu.
      pose proof (I_pc _ _ HI _ _ Hu) as Hok. pose proof (Hrest _ _ Hne Hu) as Hin.
      assert (Hfr' : forall x, In x (infl (t_pc thu)) -> nx' x = nxt c x).
      { intros x Hx. apply Hfr. intros Hx'. apply (NoDup_app_disj _ _ x Hnd Hx'). apply Hin.
        apply in_or_app. now right. }
      destruct (t_pc thu) as [|xs|xs h|try k|try k it nx| |a] eqn:Epc; cbn [pc_ok infl] in *.
      * exact I.
      * destruct Hok as [Hne' [h Hseg]]. split; [assumption|]. exists h.
        apply (seg_ext (nxt c)); assumption.
      * destruct Hok as [Hne' Hseg]. split; [assumption|].
        apply (seg_ext (nxt c)); assumption.
      * lia.
      * destruct Hok as [Hk Hok]. split; [lia|]. intros E.
        assert (E' : hc' = hcnt c) by lia. assert (E'' : k = hcnt c) by lia.
        destruct (Hok E'') as [Hit Hnx]. destruct (Hsame E' it Hit) as [Hit' Hnx'].
        split; [assumption|congruence].
      * exact I.
      * exact I.
Qed.

(* the step writes only list_next fields of items that thread [t] holds; stack, head and counter stay *)
Lemma Inv_write c s t th nx' th' h' :
  Inv c s -> nth_error (thr c) t = Some th ->
  replay s0 h' = Some s ->
  Permutation (held th') (held th) ->
  pc_ok nx' (hcnt c) s (t_pc th') ->
  (forall x, ~ In x (held th) -> nx' x = nxt c x) ->
  Inv {| nxt := nx'; hcnt := hcnt c; hitem := hitem c; thr := upd (thr c) t th'; hist := h' |} s.
Proof.
  intros HI Hth Hrep Hperm Hpc Hfr.
  assert (Hs : forall x, In x s -> nx' x = nxt c x).
  { intros x Hx. apply Hfr. exact (NoDup_app_disj _ _ x (Inv_nodup _ _ _ _ HI Hth) Hx). }
  apply (Inv_update c s t th); try assumption.
  - apply (seg_ext (nxt c)); [exact Hs|exact (I_linked _ _ HI)].
  - now apply Permutation_app_head.
  - intros x Hx. apply Hfr. intros Hx'. apply Hx. apply in_or_app. now right.
  - lia.
  - intros _ x Hx. split; [assumption|now apply Hs].
Qed.

(* the step touches nothing shared: only the thread's own record and the history change *)
Lemma Inv_local c s t th th' h' :
  Inv c s -> nth_error (thr c) t = Some th ->
  replay s0 h' = Some s ->
  held th' = held th ->
  pc_ok (nxt c) (hcnt c) s (t_pc th') ->
  Inv {| nxt := nxt c; hcnt := hcnt c; hitem := hitem c; thr := upd (thr c) t th'; hist := h' |} s.
Proof.
  intros HI Hth Hrep Hh Hpc. apply (Inv_write c s t th); try assumption; [now rewrite Hh|reflexivity].
Qed.

Lemma linked_empty_iff f o s : linked f o s ->
  is_none o = match s with [] => true | _ => false end.
Proof. destruct s as [|x r]; cbn; [intros ->|intros [-> _]]; reflexivity. Qed.

Lemma step_Inv c s t : Inv c s -> exists s', Inv (step true c t) s'.
Proof.
  intros HI. unfold step.
  destruct (nth_error (thr c) t) as [[p ops own rs]|] eqn:Hth; [|now exists s].
  pose proof (Inv_nodup _ _ _ _ HI Hth) as Hnd.
  pose proof (I_pc _ _ HI _ _ Hth) as Hok.
  pose proof (I_replay _ _ HI) as Hrep. pose proof (I_linked _ _ HI) as Hlnk.
  unfold held in Hnd. cbn [t_pc t_ops t_own t_res] in *. cbn zeta.
  destruct p as [|xs|xs h|try k|try k it nx| |a]; cbn [pc_ok infl] in *.
  - (* Idle: start the next operation *)
    destruct ops as [|o ops]; [now exists s|].
    assert (Hstart : forall xs own', xs <> [] -> Permutation own (xs ++ own') ->
              Inv {| nxt := link (nxt c) xs (hitem c); hcnt := hcnt c; hitem := hitem c;
                thr := upd (thr c) t (mkth (PCas xs (hitem c)) ops own' rs);
                hist := EInv t o :: hist c |} s).
    { intros xs own' Hne Hp. rewrite app_nil_r in Hnd.
      apply (Inv_write c s t _ _ _ _ HI Hth).
      - exact Hrep.
      - unfold held; cbn [mkth t_own t_pc infl]. rewrite app_nil_r, Hp. apply Permutation_app_comm.
      - split; [assumption|]. apply seg_link; [|assumption].
        apply NoDup_app_remove_l in Hnd. rewrite Hp in Hnd. now apply NoDup_app_remove_r in Hnd.
      - intros x Hx. apply link_other. intros Hx'. apply Hx. unfold held; cbn [t_own t_pc infl].
        rewrite app_nil_r, Hp. apply in_or_app. now left. }
    exists s. destruct o as [j|n| | |].
    + destruct (pick j own) as [[x own']|] eqn:Ep.
      * apply Hstart; [discriminate|]. now apply (pick_perm j).
      * apply (Inv_local c s t _ _ _ HI Hth); [cbn; now rewrite Hrep|reflexivity|exact I].
    + destruct (firstn n own) as [|x r] eqn:Ef.
      * apply (Inv_local c s t _ _ _ HI Hth); [cbn; now rewrite Hrep|reflexivity|exact I].
      * apply Hstart; [discriminate|]. rewrite <- Ef. now rewrite firstn_skipn.
    + apply (Inv_local c s t _ _ _ HI Hth); [exact Hrep|reflexivity|cbn; lia].
    + apply (Inv_local c s t _ _ _ HI Hth); [exact Hrep|reflexivity|cbn; lia].
    + apply (Inv_local c s t _ _ _ HI Hth); [|reflexivity|exact I].
      cbn. rewrite Hrep, (linked_empty_iff _ _ _ Hlnk). now rewrite eqb_reflx.
  - (* PWr: re-read the head, rewrite tail->list_next *)
    destruct Hok as [Hne [h Hseg]]. exists s.
    apply (Inv_write c s t _ _ _ _ HI Hth).
    + exact Hrep.
    + reflexivity.
    + split; [assumption|]. apply (seg_set_last _ _ h); [|assumption|assumption].
      apply NoDup_app_remove_l in Hnd. now apply NoDup_app_remove_l in Hnd.
    + intros x Hx. apply set_other. intros ->. apply Hx. apply in_or_app. right. now apply last_In.
  - (* PCas: the CAS of push / chain *)
    destruct Hok as [Hne Hseg].
    destruct (opt_eqb (hitem c) h) eqn:Ecas.
    + apply opt_eqb_eq in Ecas. exists (xs ++ s).
      apply (Inv_update c s t _ _ _ _ _ _ (xs ++ s) HI Hth).
      * cbn. now rewrite Hrep.
      * apply (seg_app _ _ _ h); [assumption|]. now rewrite <- Ecas.
      * unfold held; cbn [mkth t_own t_pc infl]. rewrite app_nil_r.
        rewrite <- app_assoc. etransitivity; [apply Permutation_app_comm|]. now rewrite <- app_assoc.
      * exact I.
      * reflexivity.
      * lia.
      * intros _ x Hx. split; [apply in_or_app; now right|reflexivity].
    + exists s. apply (Inv_local c s t _ _ _ HI Hth); [exact Hrep|reflexivity|].
      split; [assumption|now exists h].
  - (* PopRd: read of the item pointer (and of its successor) *)
    exists s. destruct (hitem c) as [it|] eqn:Ehd; rewrite <- Ehd at 1.
    + apply (Inv_local c s t _ _ _ HI Hth); [exact Hrep|reflexivity|].
      split; [assumption|]. intros _. split; [|reflexivity].
      destruct s as [|x r]; cbn in Hlnk; [discriminate|]. destruct Hlnk as [E _].
      inversion E. now left.
    + assert (Es : s = []).
      { destruct s as [|x r]; [reflexivity|]. cbn in Hlnk. destruct Hlnk as [E _]. discriminate. }
      apply (Inv_local c s t _ _ _ HI Hth); [|reflexivity|exact I].
      cbn. rewrite Hrep, Es. reflexivity.
  - (* PopCas: the 128-bit CAS; the counter decides *)
    destruct Hok as [Hk Hok].
    destruct ((k =? hcnt c) && opt_eqb (hitem c) (Some it)) eqn:Ecas.
    + apply andb_true_iff in Ecas. destruct Ecas as [Ek Ehd].
      apply Z.eqb_eq in Ek. apply opt_eqb_eq in Ehd.
      destruct (Hok Ek) as [_ Hnx].
      destruct s as [|x r]; cbn in Hlnk; [congruence|]. destruct Hlnk as [E Hlnk].
      assert (x = it) by congruence. subst x.
      exists r. apply (Inv_update c (it :: r) t _ _ _ _ _ _ r HI Hth).
      * cbn. rewrite Hrep. cbn. now rewrite Nat.eqb_refl.
      * now rewrite <- Hnx.
      * unfold held; cbn [mkth t_own t_pc infl]. rewrite !app_nil_r.
        rewrite app_assoc. exact (Permutation_app_comm (r ++ own) [it]).
      * exact I.
      * reflexivity.
      * lia.
      * intros E'. lia.
    + exists s. destruct try.
      * apply (Inv_local c s t _ _ _ HI Hth); [cbn; now rewrite Hrep|reflexivity|exact I].
      * apply (Inv_local c s t _ _ _ HI Hth); [exact Hrep|reflexivity|exact I].
  - (* PopRetry: re-read the counter *)
    exists s. apply (Inv_local c s t _ _ _ HI Hth); [exact Hrep|reflexivity|cbn; lia].
  - (* PRet: item->list_next = NULL after a pop; return *)
    exists s. destruct a as [xs|[it|]| |b];
      try (apply (Inv_local c s t _ _ _ HI Hth); [exact Hrep|reflexivity|exact I]).
    apply (Inv_write c s t _ _ _ _ HI Hth).
    + exact Hrep.
    + unfold held; cbn [fin mkth t_own t_pc infl]. rewrite app_nil_r. apply Permutation_cons_append.
    + exact I.
    + intros x Hx. apply set_other. intros ->. apply Hx. apply in_or_app. right. now left.
Qed.

Lemma run_Inv sched : forall c s, Inv c s -> exists s', Inv (run true c sched) s'.
Proof.
  induction sched as [|t r IH]; intros c s HI; [now exists s|].
  cbn [run fold_left]. destruct (step_Inv c s t HI) as [s1 H1]. exact (IH _ _ H1).
Qed.
End Inv.
