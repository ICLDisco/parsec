(* Consequences of the forward simulation (LifoProofs.v) for every run from an initial
   configuration, the history-shape invariants (every response is preceded by the
   linearisation event of the same operation, with the same value, after its invocation),
   and the bound of the head counter by the number of steps. *)
From PV Require Import Base.Tac Base.ListX Lifo.LifoDefs Lifo.LifoHeap Lifo.LifoProofs.
From Coq Require Import Permutation.
Local Open Scope Z_scope.

Definition all_items (s0 : list item) (ths : list (list item * list op)) : list item :=
  s0 ++ concat (map fst ths).
(* what a drain with nolock_pop returns (the fuel is any bound on the number of items) *)
Definition contents (n : nat) (c : cfg) : list item := walk (S n) (nxt c) (hitem c).

Lemma init_linked (ch : bool) s0 : NoDup s0 ->
  let e := (fun _ : item => @None item, @None item) in
  let st := if ch then nl_chain e s0 else fold_right (fun x st => nl_push st x) e s0 in
  linked (fst st) (snd st) s0.
Proof.
  intros Hnd e st. subst st. destruct ch.
  - destruct s0 as [|x r]; [reflexivity|]. unfold nl_chain. cbn [fst snd].
    apply (seg_link _ (x :: r) None Hnd). discriminate.
  - induction s0 as [|x r IH]; [reflexivity|].
    inversion Hnd as [|? ? Hx Hr]; subst. cbn [fold_right]. unfold nl_push at 1, nl_chain.
    cbn [fst snd link]. split; [reflexivity|]. rewrite set_same.
    apply (seg_ext (fst (fold_right (fun x st => nl_push st x) e r))); [|now apply IH].
    intros y Hy. apply set_other. intros ->. contradiction.
Qed.

Lemma held_all_init (ths : list (list item * list op)) :
  concat (map held (map mk_thread ths)) = concat (map fst ths).
Proof.
  induction ths as [|p r IH]; [reflexivity|]. cbn [map concat]. rewrite IH.
  unfold held, mk_thread, mkth. cbn. now rewrite app_nil_r.
Qed.

Lemma init_Inv ch s0 ths : NoDup (all_items s0 ths) ->
  Inv (all_items s0 ths) s0 (init ch s0 ths) s0.
Proof.
  intros Hnd. unfold init. constructor; cbn [nxt hcnt hitem thr hist].
  - reflexivity.
  - apply init_linked. now apply NoDup_app_remove_r in Hnd.
  - unfold held_all; cbn [thr]. now rewrite held_all_init.
  - intros t th Hth. destruct (nth_error_map_inv _ _ _ _ Hth) as (p & _ & <-). exact I.
Qed.

Lemma reach_Inv ch s0 ths sched : NoDup (all_items s0 ths) ->
  exists s, Inv (all_items s0 ths) s0 (run true (init ch s0 ths) sched) s.
Proof. intros Hnd. exact (run_Inv _ _ Hnd sched _ _ (init_Inv ch s0 ths Hnd)). Qed.

Lemma Inv_contents all0 s0 c s : NoDup all0 -> Inv all0 s0 c s -> contents (length all0) c = s.
Proof.
  intros Hnd HI. unfold contents. apply linked_walk; [exact (I_linked _ _ _ _ HI)|].
  pose proof (Permutation_length (I_perm _ _ _ _ HI)) as Hl. rewrite app_length in Hl. lia.
Qed.

(* linearizability: the linearisation events form a stack history that ends in the concrete contents *)
Lemma Inv_linearizable all0 s0 c s : NoDup all0 -> Inv all0 s0 c s ->
  replay s0 (hist c) = Some (contents (length all0) c).
Proof. intros Hnd HI. rewrite (Inv_contents _ _ _ _ Hnd HI). exact (I_replay _ _ _ _ HI). Qed.

Theorem lifo_linearizable ch s0 ths sched : NoDup (all_items s0 ths) ->
  let c := run true (init ch s0 ths) sched in
  replay s0 (hist c) = Some (contents (length (all_items s0 ths)) c).
Proof.
  intros Hnd c. destruct (reach_Inv ch s0 ths sched Hnd) as [s HI]. exact (Inv_linearizable _ _ _ _ Hnd HI).
Qed.

(* one more step that linearises action [a] (alone, or together with the response of the same
   operation) transforms the concrete contents as the sequential stack does *)
Theorem lifo_lp_step ch s0 ths sched t a : NoDup (all_items s0 ths) ->
  let n := length (all_items s0 ths) in
  let c := run true (init ch s0 ths) sched in
  let c' := step true c t in
  hist c' = ELin t a :: hist c \/ hist c' = fin_ev t a ++ hist c ->
  astep (contents n c) a = Some (contents n c').
Proof.
  intros Hnd n c c' Hh.
  pose proof (lifo_linearizable ch s0 ths sched Hnd) as H1.
  pose proof (lifo_linearizable ch s0 ths (sched ++ [t]) Hnd) as H2.
  cbn zeta in H1, H2. unfold run in H2. rewrite fold_left_app in H2. cbn [fold_left] in H2.
  fold (run true (init ch s0 ths) sched) in H2. fold c in H1, H2. fold c' in H2. fold n in H1, H2.
  destruct Hh as [Hh|Hh]; rewrite Hh in H2; cbn [fin_ev app replay] in H2; rewrite H1 in H2; exact H2.
Qed.

Definition ev_tid (e : event) : nat :=
  match e with EInv t _ => t | ELin t _ => t | ERes t _ => t end.
Definition proj (t : nat) (h : list event) : list event := filter (fun e => Nat.eqb (ev_tid e) t) h.
(* the values returned at the linearisation points of thread t, newest first *)
Fixpoint lin_res (t : nat) (h : list event) : list res :=
  match h with
  | [] => []
  | ELin u a :: h' => if Nat.eqb u t then res_of a :: lin_res t h' else lin_res t h'
  | _ :: h' => lin_res t h'
  end.
(* newest first: complete operations are triples response / linearisation point / invocation *)
Fixpoint triples (l : list event) : Prop :=
  match l with
  | [] => True
  | ERes _ r :: ELin _ a :: EInv _ _ :: l' => r = res_of a /\ triples l'
  | _ => False
  end.
(* complete operations, possibly below one operation in progress, before or after its
   linearisation point *)
Definition thread_hist_ok (l : list event) : Prop :=
  triples l \/
  (exists t o l', l = EInv t o :: l' /\ triples l') \/
  (exists t a o l', l = ELin t a :: EInv t o :: l' /\ triples l').
(* value of a linearisation point whose response is still to come *)
Definition pending (p : pc) : list res := match p with PRet a => [res_of a] | _ => [] end.

Definition running (p : pc) : Prop := match p with Idle | PRet _ => False | _ => True end.
(* Where a thread stands within its operation: outside any, running (invoked and not yet
   linearised), or linearised with a and about to return.  Every event of thread t moves it
   one phase on. *)
Inductive phase := Out | In | Lin (a : act).
Definition ph (p : pc) : phase := match p with Idle => Out | PRet a => Lin a | _ => In end.
Definition st (th : thread) : phase * list res := (ph (t_pc th), t_res th).
Inductive ev_step (t : nat) : event -> phase * list res -> phase * list res -> Prop :=
  | E_inv o rs : ev_step t (EInv t o) (Out, rs) (In, rs)
  | E_lin a rs : ev_step t (ELin t a) (In, rs) (Lin a, rs)
  | E_res a rs : ev_step t (ERes t (res_of a)) (Lin a, rs) (Out, res_of a :: rs).
(* from history h in state s to history h' (h with newer events of t in front) in state s' *)
Inductive path (t : nat) (h : list event) (s : phase * list res) : list event -> phase * list res -> Prop :=
  | P_nil : path t h s h s
  | P_cons e h' s' s'' : path t h s h' s' -> ev_step t e s' s'' -> path t h s (e :: h') s''.

Lemma step_path uc c t :
  step uc c t = c \/
  exists th th', nth_error (thr c) t = Some th /\ thr (step uc c t) = upd (thr c) t th' /\
                 path t (hist c) (st th) (hist (step uc c t)) (st th').
Proof.
  unfold step. destruct (nth_error (thr c) t) as [[p ops own rs]|] eqn:Hth; [|now left].
  cbn [t_pc t_ops t_own t_res]. cbn zeta.
  (* every branch that changes the configuration shows its thread and its events *)
  destruct p as [|xs|xs h|try k|try k it nx| |a].
  - destruct ops as [|[j|n| | |] ops]; [now left|..]; right; eexists;
      [destruct (pick j own) as [[x own']|]|destruct (firstn n own) as [|x r]|..];
      eexists; repeat split; repeat econstructor.
  - right. eexists. eexists; repeat split; repeat econstructor.
  - right. eexists. destruct (opt_eqb (hitem c) h); eexists; repeat split; repeat econstructor.
  - right. eexists. destruct (hitem c) as [it|]; eexists; repeat split; repeat econstructor.
  - right. eexists. destruct ((if uc then k =? hcnt c else true) && opt_eqb (hitem c) (Some it));
      [|destruct try]; eexists; repeat split; repeat econstructor.
  - right. eexists. eexists; repeat split; repeat econstructor.
  - right. eexists. destruct a as [xs|[it|]| |b]; eexists; repeat split; repeat econstructor.
Qed.

Lemma ev_other u e h : ev_tid e <> u -> proj u (e :: h) = proj u h /\ lin_res u (e :: h) = lin_res u h.
Proof.
  intros Hne. apply Nat.eqb_neq in Hne. unfold proj. destruct e; cbn in *; rewrite Hne; now split.
Qed.

(* invariant on histories and results, for every thread *)
Definition th_hist_inv (t : nat) (s : phase * list res) (h : list event) : Prop :=
  match fst s with
  | Out => lin_res t h = snd s /\ triples (proj t h)
  | In => lin_res t h = snd s /\ exists o l, proj t h = EInv t o :: l /\ triples l
  | Lin a => lin_res t h = res_of a :: snd s /\
             exists o l, proj t h = ELin t a :: EInv t o :: l /\ triples l
  end.
Definition tst (c : cfg) (t : nat) : phase * list res :=
  match nth_error (thr c) t with Some th => st th | None => (Out, []) end.
Definition HistInv (c : cfg) : Prop := forall t, th_hist_inv t (tst c t) (hist c).

Lemma ev_inv t e s s' h : ev_step t e s s' -> th_hist_inv t s h -> th_hist_inv t s' (e :: h).
Proof.
  unfold th_hist_inv, proj. intros [o rs|a rs|a rs]; cbn; rewrite Nat.eqb_refl.
  - intros [Hl Ht]. eauto.
  - intros [Hl (o & l & -> & Ht)]. rewrite Hl. eauto.
  - intros [Hl (o & l & -> & Ht)]. now repeat split.
Qed.

Lemma path_inv t h s h' s' : path t h s h' s' -> th_hist_inv t s h -> th_hist_inv t s' h'.
Proof. induction 1; eauto using ev_inv. Qed.

Lemma path_other t u h s h' s' x : path t h s h' s' -> u <> t -> th_hist_inv u x h -> th_hist_inv u x h'.
Proof.
  intros Hp Hne Hi. induction Hp as [|e h' s' s'' _ IH He]; [exact Hi|].
  assert (Hu : ev_tid e <> u) by (destruct He; cbn; congruence).
  unfold th_hist_inv. now destruct (ev_other u e h' Hu) as [-> ->].
Qed.

Lemma step_HistInv uc c t : HistInv c -> HistInv (step uc c t).
Proof.
  intros H. destruct (step_path uc c t) as [->|(th & th' & Hth & Ethr & Hp)]; [exact H|].
  intros u. specialize (H u). unfold tst in *. rewrite Ethr. destruct (Nat.eq_dec u t) as [->|Hne].
  - rewrite (nth_upd_same _ _ _ _ Hth). rewrite Hth in H. exact (path_inv _ _ _ _ _ Hp H).
  - rewrite (nth_upd_other _ _ _ _ _ Hth Hne). exact (path_other _ _ _ _ _ _ _ Hp Hne H).
Qed.

Lemma init_HistInv ch s0 ths : HistInv (init ch s0 ths).
Proof.
  intros t. unfold tst. cbn [init thr hist]. destruct (nth_error (map mk_thread ths) t) as [th|] eqn:Hth.
  - destruct (nth_error_map_inv _ _ _ _ Hth) as (p & _ & <-). now split.
  - now split.
Qed.

Lemma run_HistInv uc sched : forall c, HistInv c -> HistInv (run uc c sched).
Proof. intros c. apply fold_left_inv. intros a b. apply step_HistInv. Qed.

Theorem lifo_lp_within ch s0 ths sched t :
  thread_hist_ok (proj t (hist (run true (init ch s0 ths) sched))).
Proof.
  pose proof (run_HistInv true sched _ (init_HistInv ch s0 ths) t) as H. unfold th_hist_inv in H.
  destruct (fst (tst _ t)); destruct H as [_ H].
  - now left.
  - right. left. destruct H as (o & l & E & Hl). now exists t, o, l.
  - right. right. destruct H as (o & l & E & Hl). now exists t, a, o, l.
Qed.

(* the ABA counter counts successful pops: it is bounded by the number of steps *)
Lemma step_counter c t : hcnt c <= hcnt (step true c t) <= hcnt c + 1.
Proof.
  unfold step. destruct (nth_error (thr c) t) as [th|]; [|lia]. cbn zeta.
  destruct (t_pc th) as [|xs|xs h|try k|try k it nx| |a].
  - destruct (t_ops th) as [|o ops]; [lia|]. destruct o as [j|n| | |]; cbn [hcnt]; try lia.
    + destruct (pick j (t_own th)) as [[x own']|]; cbn [hcnt]; lia.
    + destruct (firstn n (t_own th)); cbn [hcnt]; lia.
  - cbn [hcnt]; lia.
  - destruct (opt_eqb (hitem c) h); cbn [hcnt]; lia.
  - destruct (hitem c); cbn [hcnt]; lia.
  - destruct (k =? hcnt c) eqn:E; cbn [andb].
    + apply Z.eqb_eq in E. destruct (opt_eqb (hitem c) (Some it)); [cbn [hcnt]; lia|].
      destruct try; cbn [hcnt]; lia.
    + destruct try; cbn [hcnt]; lia.
  - cbn [hcnt]; lia.
  - destruct a as [xs|[it|]| |b]; cbn [hcnt]; lia.
Qed.

Lemma run_counter sched : forall c, hcnt c <= hcnt (run true c sched) <= hcnt c + Z.of_nat (length sched).
Proof.
  induction sched as [|t r IH]; intros c; [cbn; lia|].
  cbn [run fold_left length]. fold (run true (step true c t) r).
  pose proof (IH (step true c t)). pose proof (step_counter c t). lia.
Qed.
