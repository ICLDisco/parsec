(* Proofs about the maxheap model: the complete-tree shape addressed by the
   bits of size, max-heap order, conservation of the multiset of tasks, for
   insert / remove / split and for every history over a table of heaps. *)
From PV Require Import Base.Tac Base.ListX HeapBuf.HeapBufDefs HeapBuf.HeapBufPerm HeapBuf.HeapBufBits.
Local Open Scope Z_scope.

(* all leaves at depth h *)
Fixpoint perfect (h : nat) (t : tree) : Prop :=
  match h, t with
  | O, Leaf => True
  | S h', Node l _ r => perfect h' l /\ perfect h' r
  | _, _ => False
  end.

(* nodes exactly at the positions 1..n of the level-order numbering, where the
   digits of n after the leading 1 are [bits]: if the next digit is 0 the last
   node is in the left subtree and the right subtree is perfect, one level
   shorter; if it is 1 the left subtree is perfect and the last node is on
   the right *)
Fixpoint complete (bits : list bool) (t : tree) {struct t} : Prop :=
  match t with
  | Leaf => False
  | Node l _ r =>
      match bits with
      | [] => l = Leaf /\ r = Leaf
      | false :: rest => complete rest l /\ perfect (length rest) r
      | true :: rest => perfect (S (length rest)) l /\ complete rest r
      end
  end.

Definition shape (n : N) (t : tree) : Prop :=
  match n with N0 => t = Leaf | Npos p => complete (path_pos p) t end.

Lemma shape_val l t : shape (val l) t <-> complete l t.
Proof.
  pose proof (path_val l) as H. unfold shape. destruct (val l) as [|p] eqn:E.
  - unfold val in E. pose proof (pow2_pos (N.of_nat (length l))). lia.
  - cbn [path] in H. now rewrite H.
Qed.

(* same shape, any tasks *)
Fixpoint sshape (a b : tree) : Prop :=
  match a, b with
  | Leaf, Leaf => True
  | Node l1 _ r1, Node l2 _ r2 => sshape l1 l2 /\ sshape r1 r2
  | _, _ => False
  end.

Lemma sshape_refl t : sshape t t.
Proof. induction t; cbn; auto. Qed.

Lemma sshape_root l x y r t : sshape t (Node l x r) -> sshape t (Node l y r).
Proof. destruct t; auto. Qed.

Lemma sshape_leaf t : sshape Leaf t -> t = Leaf.
Proof. destruct t; [reflexivity|intros []]. Qed.

Lemma perfect_sshape h : forall a b, sshape a b -> perfect h a -> perfect h b.
Proof.
  induction h as [|h IH]; intros [|l1 x1 r1] [|l2 x2 r2] Hs Hp; cbn in *; try contradiction; auto.
  destruct Hs, Hp. split; eapply IH; eauto.
Qed.

Lemma complete_sshape a : forall bits b, sshape a b -> complete bits a -> complete bits b.
Proof.
  induction a as [|l1 IHl x1 r1 IHr]; intros bits [|l2 x2 r2] Hs Hc; cbn [sshape complete] in *; try contradiction.
  destruct Hs as [Hl Hr]. destruct bits as [|[] rest].
  - destruct Hc as [-> ->]. split; now apply sshape_leaf.
  - destruct Hc. split; [eapply perfect_sshape; eauto|eapply IHr; eauto].
  - destruct Hc. split; [eapply IHl; eauto|eapply perfect_sshape; eauto].
Qed.

Lemma perfect_complete_ones k : forall t, perfect (S k) t <-> complete (repeat true k) t.
Proof.
  induction k as [|k IH]; intros [|l x r]; cbn [perfect complete repeat]; try tauto.
  - destruct l, r; cbn; intuition congruence.
  - rewrite repeat_length. rewrite <- IH. cbn [perfect]. tauto.
Qed.

Lemma perfect_shape k t : perfect k t -> shape (2 ^ N.of_nat k - 1) t.
Proof.
  destruct k as [|k]; intros H.
  - destruct t; [reflexivity|contradiction].
  - apply perfect_complete_ones, shape_val in H.
    replace (2 ^ N.of_nat (S k) - 1)%N with (val (repeat true k)); [exact H|].
    pose proof (val_ones k). rewrite pow2_S. lia.
Qed.

(* the end of the path is a free place below existing nodes *)
Fixpoint fits (p : list bool) (t : tree) : Prop :=
  match p, t with
  | [], Leaf => True
  | b :: p', Node l _ r => fits p' (if b then r else l)
  | _, _ => False
  end.

(* hang a leaf at the end of a path *)
Fixpoint graft (p : list bool) (e : task) (t : tree) : tree :=
  match p with
  | [] => Node Leaf e Leaf
  | b :: p' =>
      match t with
      | Leaf => Leaf
      | Node l x r => if b then Node l x (graft p' e r) else Node (graft p' e l) x r
      end
  end.

Lemma graft_perfect k e : forall t, perfect k t ->
  fits (repeat false k) t /\ complete (repeat false k) (graft (repeat false k) e t).
Proof.
  induction k as [|k IH]; intros [|l x r] H; cbn in H; try contradiction.
  - cbn. auto.
  - destruct H as [Hl Hr]. destruct (IH _ Hl). cbn [repeat graft complete fits].
    rewrite repeat_length. auto.
Qed.

(* position n+1, whose digits are [succ_bits l], is free, and the tree with a leaf grafted there
   is complete again *)
Lemma graft_complete e l : forall t, complete l t ->
  fits (succ_bits l) t /\ complete (succ_bits l) (graft (succ_bits l) e t).
Proof.
  induction l as [|b r IH]; intros [|tl x tr] H; cbn [complete] in H; try contradiction.
  - destruct H as [-> ->]. cbn. auto.
  - unfold succ_bits in *. cbn [inc]. pose proof (inc_length r) as Hlen. pose proof (inc_carry r) as Hcar.
    destruct (inc r) as [r' [|]]; cbn [fst] in Hlen.
    + (* the digits below b are all 1: the subtree they address is perfect *)
      destruct (Hcar _ eq_refl) as [Hr1 ->]. rewrite Hr1 in H. destruct b; destruct H as [Hl Hr].
      * apply perfect_complete_ones in Hr. rewrite repeat_length in Hl.
        apply (graft_perfect (S (S (length r))) e (Node tl x tr)). cbn [perfect]. auto.
      * apply perfect_complete_ones in Hl. rewrite repeat_length in Hr.
        cbn [fits graft complete]. rewrite repeat_length. destruct (graft_perfect _ e _ Hr). auto.
    + (* no carry into b: the last node stays on its side *)
      destruct b; destruct H as [Hl Hr]; cbn [fits graft complete]; rewrite Hlen.
      * destruct (IH _ Hr). auto.
      * destruct (IH _ Hl). auto.
Qed.

Lemma graft_shape e n t : shape n t ->
  fits (path (N.succ n)) t /\ shape (N.succ n) (graft (path (N.succ n)) e t).
Proof.
  destruct n as [|p]; cbn [shape N.succ path].
  - intros ->. cbn. auto.
  - rewrite path_succ. apply graft_complete.
Qed.

(* number of nodes = size *)
Lemma perfect_count h : forall t, perfect h t ->
  (N.of_nat (length (preorder t)) + 1 = 2 ^ N.of_nat h)%N.
Proof.
  induction h as [|h IH]; intros [|l x r] H; cbn in H; try contradiction.
  - reflexivity.
  - destruct H as [Hl Hr]. specialize (IH _ Hl) as H1. specialize (IH _ Hr) as H2.
    cbn [preorder length]. rewrite app_length, pow2_S. lia.
Qed.

Lemma complete_count l : forall t, complete l t -> N.of_nat (length (preorder t)) = val l.
Proof.
  induction l as [|b r IH]; intros [|tl x tr] H; cbn [complete] in H; try contradiction.
  - destruct H as [-> ->]. reflexivity.
  - rewrite val_cons. cbn [preorder length]. rewrite app_length. destruct b; destruct H as [Hl Hr].
    + apply perfect_count in Hl. rewrite pow2_S in Hl. specialize (IH _ Hr). unfold val in IH. lia.
    + apply perfect_count in Hr. specialize (IH _ Hl). unfold val in IH. lia.
Qed.

Lemma shape_count n t : shape n t -> N.of_nat (length (preorder t)) = n.
Proof.
  destruct n as [|p]; cbn [shape].
  - now intros ->.
  - intros H. rewrite (complete_count _ _ H). apply val_path.
Qed.

Definition le_all (x : task) (l : list task) : Prop := Forall (fun y => prio y <= prio x) l.

Fixpoint hord (t : tree) : Prop :=
  match t with
  | Leaf => True
  | Node l x r => le_all x (preorder l) /\ le_all x (preorder r) /\ hord l /\ hord r
  end.

Definition root (t : tree) : option task := match t with Leaf => None | Node _ x _ => Some x end.

Lemma le_all_perm x l l' : Permutation l l' -> le_all x l -> le_all x l'.
Proof. intros HP H. unfold le_all in *. now rewrite <- HP. Qed.

Lemma le_all_trans x y l : prio x <= prio y -> le_all x l -> le_all y l.
Proof. intros Hxy H. unfold le_all in *. eapply Forall_impl; [|exact H]. cbn. intros; lia. Qed.

Lemma le_all_app x l1 l2 : le_all x (l1 ++ l2) <-> le_all x l1 /\ le_all x l2.
Proof. unfold le_all. apply Forall_app. Qed.

Lemma le_all_cons x y l : le_all x (y :: l) <-> prio y <= prio x /\ le_all x l.
Proof. unfold le_all. apply Forall_cons_iff. Qed.

Lemma le_all_root x t y : le_all x (preorder t) -> root t = Some y -> prio y <= prio x.
Proof. destruct t; intros H E; inv E. cbn [preorder] in H. apply le_all_cons in H. tauto. Qed.

Lemma hord_root_max l x r : hord (Node l x r) -> le_all x (preorder (Node l x r)).
Proof.
  intros (Hl & Hr & _). cbn [preorder]. apply le_all_cons. split; [lia|]. apply le_all_app. auto.
Qed.

Lemma ins_sshape p e : forall t, sshape (graft p e t) (fst (ins p e t)).
Proof.
  induction p as [|b p IH]; intros t; cbn [ins graft].
  - cbn. auto.
  - destruct t as [|l x r]; [cbn; auto|].
    specialize (IH (if b then r else l)).
    destruct (ins p e (if b then r else l)) as [c up]. cbn [fst] in IH.
    destruct c as [|cl y cr].
    + destruct b; cbn [fst sshape]; auto using sshape_refl.
    + destruct (up && (prio x <? prio e)); destruct b; cbn [fst]; cbn [sshape];
        (split; [try apply sshape_refl|try apply sshape_refl]); try exact IH;
        eapply sshape_root; exact IH.
Qed.

Lemma ins_spec p e : forall t t' up, ins p e t = (t', up) -> fits p t -> hord t ->
  Permutation (preorder t') (e :: preorder t) /\ hord t' /\
  root t' = (if up then Some e else root t).
Proof.
  induction p as [|b p IH]; intros t t' up H Hfit Hord; cbn [ins] in H.
  - destruct t; cbn in Hfit; [|contradiction]. inv H. cbn. repeat split; auto; constructor.
  - destruct t as [|l x r]; cbn [fits] in Hfit; [contradiction|].
    destruct Hord as (Hlx & Hrx & Hl & Hr).
    destruct (ins p e (if b then r else l)) as [c up'] eqn:E.
    assert (Hc : hord (if b then r else l)) by (destruct b; assumption).
    destruct (IH _ _ _ E Hfit Hc) as (HP & Hoc & Hroot).
    destruct c as [|cl y cr].
    { exfalso. cbn in HP. eapply Permutation_nil_cons; exact HP. }
    assert (Hmax : le_all y (preorder (Node cl y cr))) by now apply hord_root_max.
    cbn [preorder] in HP, Hmax. cbn [root] in Hroot.
    destruct Hoc as (Hcl & Hcr & Hocl & Hocr).
    destruct (up' && (prio x <? prio e)) eqn:Esw.
    + (* e swaps with its parent x *)
      apply andb_prop in Esw. destruct Esw as [-> Hlt]. inv Hroot.
      assert (Hxe : prio x < prio e) by lia.
      assert (HP' : Permutation (preorder cl ++ preorder cr) (preorder (if b then r else l)))
        by now apply Permutation_cons_inv in HP.
      assert (Hsub : le_all x (preorder cl ++ preorder cr)).
      { eapply le_all_perm; [symmetry; exact HP'|]. destruct b; assumption. }
      apply le_all_app in Hsub. destruct Hsub as [Hsl Hsr].
      assert (Hel : le_all e (preorder l)) by (apply (le_all_trans x); [lia|exact Hlx]).
      assert (Her : le_all e (preorder r)) by (apply (le_all_trans x); [lia|exact Hrx]).
      assert (Hec : le_all e (x :: preorder cl ++ preorder cr))
        by (apply le_all_cons; split; [lia|]; apply le_all_app; auto).
      destruct b; inv H; cbn [preorder root hord]; (split; [perm|split; [|reflexivity]]);
        repeat split; auto.
    + (* e stays below x *)
      assert (Hex : prio e <= prio x).
      { destruct up'; cbn [andb] in Esw; [lia|].
        assert (Hey : prio e <= prio y).
        { unfold le_all in Hmax. rewrite Forall_forall in Hmax. apply Hmax.
          eapply Permutation_in; [symmetry; exact HP|]. now left. }
        assert (Hyx : prio y <= prio x)
          by (destruct b; [apply (le_all_root x r)|apply (le_all_root x l)]; auto).
        lia. }
      assert (Hcx : le_all x (y :: preorder cl ++ preorder cr)).
      { eapply le_all_perm; [symmetry; exact HP|]. apply le_all_cons. split; [exact Hex|].
        destruct b; assumption. }
      destruct b; inv H; cbn [preorder root hord]; (split; [perm|split; [|reflexivity]]);
        repeat split; auto.
Qed.

(* heap_remove: detach the last node, put it at the root, bubble down *)
Lemma take_last_spec p : forall t, complete p t ->
  exists y t', take_last p t = Some (y, t') /\
    Permutation (preorder t) (y :: preorder t') /\ (hord t -> hord t') /\
    (p <> [] -> exists l x r l' r', t = Node l x r /\ t' = Node l' x r').
Proof.
  induction p as [|b p IH]; intros [|l x r] H; cbn [complete] in H; try contradiction; cbn [take_last].
  - destruct H as [-> ->]. exists x, Leaf. repeat split; auto. intros Hne. now elim Hne.
  - assert (Hc : complete p (if b then r else l)) by (destruct b; tauto).
    destruct (IH _ Hc) as (y & c' & E & HP & Hh & _). rewrite E.
    exists y, (if b then Node l x c' else Node c' x r). split; [reflexivity|]. split; [|split].
    + destruct b; cbn [preorder]; perm.
    + intros (Hlx & Hrx & Hl & Hr). destruct b; cbn [hord]; repeat split; auto.
      * eapply le_all_perm in Hrx; [|exact HP]. apply le_all_cons in Hrx. tauto.
      * eapply le_all_perm in Hlx; [|exact HP]. apply le_all_cons in Hlx. tauto.
    + intros _. destruct b; eauto 10.
Qed.

Lemma take_last_cons b p l x r y t' : take_last (b :: p) (Node l x r) = Some (y, t') ->
  exists c, take_last p (if b then r else l) = Some (y, c) /\ t' = if b then Node l x c else Node c x r.
Proof.
  cbn [take_last]. destruct (take_last p (if b then r else l)) as [[y' c]|]; [|discriminate].
  intros H. inv H. eauto.
Qed.

Lemma take_last_zeros k : forall t y t', complete (repeat false k) t ->
  take_last (repeat false k) t = Some (y, t') -> perfect k t'.
Proof.
  induction k as [|k IH]; intros [|l x r] y t' Hc H; cbn [repeat complete] in Hc; try contradiction;
    cbn [repeat] in H.
  - inv H. cbn. auto.
  - destruct Hc as [Hl Hr]. rewrite repeat_length in Hr.
    apply take_last_cons in H. destruct H as (c & Et & ->).
    cbn [perfect]. split; [eapply IH; eauto|exact Hr].
Qed.

(* removing position n+1, whose digits are [succ_bits l], from a complete tree of n+1 nodes *)
Lemma take_last_complete l : forall t y t', complete (succ_bits l) t ->
  take_last (succ_bits l) t = Some (y, t') -> complete l t'.
Proof.
  induction l as [|b r IH]; intros t y t' Hc H.
  - apply (perfect_complete_ones 0). exact (take_last_zeros 1 t y t' Hc H).
  - destruct t as [|tl x tr]; [destruct Hc|]. unfold succ_bits in *. cbn [inc] in Hc, H.
    pose proof (inc_length r) as Hlen. pose proof (inc_carry r) as Hcar.
    destruct (inc r) as [r' [|]]; cbn [fst] in Hlen.
    + (* the digits below b are all 1, those of the last node all 0 *)
      destruct (Hcar _ eq_refl) as [Hr1 ->]. rewrite Hr1. destruct b.
      * apply (perfect_complete_ones (S (length r))).
        exact (take_last_zeros (S (S (length r))) _ _ _ Hc H).
      * apply take_last_cons in H. destruct H as (c & Et & ->).
        cbn [complete] in Hc |- *. destruct Hc as [Hl Hr]. rewrite repeat_length in *. split.
        -- now apply perfect_complete_ones.
        -- eapply take_last_zeros; eauto.
    + apply take_last_cons in H. destruct H as (c & Et & ->).
      destruct b; cbn [complete] in Hc |- *; destruct Hc as [Hl Hr]; rewrite Hlen in *.
      * split; [exact Hl|]. eapply IH; eauto.
      * split; [|exact Hr]. eapply IH; eauto.
Qed.

Lemma take_last_shape p t y t' : complete (path_pos (Pos.succ p)) t ->
  take_last (path_pos (Pos.succ p)) t = Some (y, t') -> complete (path_pos p) t'.
Proof. rewrite path_succ. apply take_last_complete. Qed.

(* sift, one level *)
Lemma sift_node x l z r : sift x (Node l z r) =
  match l, r with
  | Leaf, Leaf => Node l x r
  | Node _ lx _, Leaf => if prio x <? prio lx then Node (sift x l) lx r else Node l x r
  | Leaf, Node _ rx _ => if prio x <? prio rx then Node l rx (sift x r) else Node l x r
  | Node _ lx _, Node _ rx _ =>
      if (prio x <? prio lx) && (prio rx <=? prio lx) then Node (sift x l) lx r
      else if (prio x <? prio rx) && (prio lx <? prio rx) then Node l rx (sift x r)
      else Node l x r
  end.
Proof. reflexivity. Qed.

(* the root of [t], if any, is no better than [x] *)
Definition root_le (x : task) (t : tree) : Prop :=
  match t with Leaf => True | Node _ y _ => prio y <= prio x end.

Lemma root_le_all x t : hord t -> root_le x t -> le_all x (preorder t).
Proof.
  destruct t as [|l y r]; intros Ho Hr; [constructor|].
  apply (le_all_trans y); [exact Hr|now apply hord_root_max].
Qed.

(* the three outcomes of one level: [x] stays, being no worse than both children; or the better
   child goes up (the left one on a tie) and [x] sinks into its subtree *)
Lemma sift_cases x l z r :
  (sift x (Node l z r) = Node l x r /\ root_le x l /\ root_le x r) \/
  (exists ll lx lr, l = Node ll lx lr /\ sift x (Node l z r) = Node (sift x l) lx r /\
     prio x < prio lx /\ root_le lx r) \/
  (exists rl rx rr, r = Node rl rx rr /\ sift x (Node l z r) = Node l rx (sift x r) /\
     prio x < prio rx /\ root_le rx l).
Proof.
  rewrite sift_node. destruct l as [|ll lx lr], r as [|rl rx rr]; cbn [root_le].
  - left. auto.
  - destruct (prio x <? prio rx) eqn:E.
    + right; right. exists rl, rx, rr. split; [reflexivity|split; [reflexivity|lia]].
    + left. split; [reflexivity|lia].
  - destruct (prio x <? prio lx) eqn:E.
    + right; left. exists ll, lx, lr. split; [reflexivity|split; [reflexivity|lia]].
    + left. split; [reflexivity|lia].
  - destruct ((prio x <? prio lx) && (prio rx <=? prio lx)) eqn:E1;
      [|destruct ((prio x <? prio rx) && (prio lx <? prio rx)) eqn:E2].
    + right; left. exists ll, lx, lr. split; [reflexivity|split; [reflexivity|lia]].
    + right; right. exists rl, rx, rr. split; [reflexivity|split; [reflexivity|lia]].
    + left. split; [reflexivity|lia].
Qed.

Lemma sift_spec x t :
  match t with
  | Leaf => True
  | Node l _ r => hord l -> hord r ->
      Permutation (preorder (sift x t)) (x :: preorder l ++ preorder r) /\
      hord (sift x t) /\ sshape t (sift x t)
  end.
Proof.
  induction t as [|l IHl z r IHr]; [exact I|]. intros Hl Hr.
  destruct (sift_cases x l z r) as [(-> & Hxl & Hxr)|
    [(ll & lx & lr & -> & -> & Hlt & Hle)|(rl & rx & rr & -> & -> & Hlt & Hle)]].
  - split; [reflexivity|]. split; [|split; apply sshape_refl].
    cbn [hord]. auto using root_le_all.
  - destruct Hl as (H1 & H2 & H3 & H4). destruct (IHl H3 H4) as (HP & Ho & Hs).
    cbn [preorder hord sshape app]. split; [perm|]. split; [|split; [exact Hs|apply sshape_refl]].
    repeat split; auto using root_le_all.
    eapply le_all_perm; [symmetry; exact HP|]. apply le_all_cons. split; [lia|]. apply le_all_app. auto.
  - destruct Hr as (H1 & H2 & H3 & H4). destruct (IHr H3 H4) as (HP & Ho & Hs).
    cbn [preorder hord sshape app]. split; [perm|]. split; [|split; [apply sshape_refl|exact Hs]].
    repeat split; auto using root_le_all.
    eapply le_all_perm; [symmetry; exact HP|]. apply le_all_cons. split; [lia|]. apply le_all_app. auto.
Qed.

Definition helems (h : heap) : list task := preorder (htree h).
Definition oelems (oh : option heap) : list task := match oh with Some h => helems h | None => [] end.

(* complete shape for size, max-heap order, priority field = top's priority *)
Definition hinv (h : heap) : Prop :=
  shape (hsize h) (htree h) /\ hord (htree h) /\ hprio h = root_prio (htree h).
Definition oinv (oh : option heap) : Prop := match oh with Some h => hinv h | None => True end.

(* what a remove/steal must return: a maximum, or nothing from nothing *)
Definition best_of (l : list task) (r : option task) : Prop :=
  match r with
  | Some x => In x l /\ forall y, In y l -> prio y <= prio x
  | None => l = []
  end.

Lemma best_of_top l x r : hord (Node l x r) -> best_of (preorder (Node l x r)) (Some x).
Proof.
  intros Ho. split; [now left|]. apply hord_root_max in Ho. unfold le_all in Ho.
  now rewrite Forall_forall in Ho.
Qed.

Lemma hinv_create : hinv heap_create.
Proof. unfold hinv, heap_create. cbn. auto. Qed.

Lemma hinv_count h : hinv h -> N.of_nat (length (helems h)) = hsize h.
Proof. intros (Hs & _). now apply shape_count. Qed.

Lemma hinv_top_max h : hinv h -> forall y, In y (helems h) -> prio y <= hprio h.
Proof.
  intros (_ & Ho & Hp) y Hy. unfold helems in Hy. destruct (htree h) as [|l x r]; [destruct Hy|].
  rewrite Hp. exact (proj2 (best_of_top _ _ _ Ho) y Hy).
Qed.

Theorem heap_insert_spec h e : hinv h ->
  hinv (heap_insert h e) /\ Permutation (helems (heap_insert h e)) (e :: helems h) /\
  hsize (heap_insert h e) = N.succ (hsize h).
Proof.
  intros (Hs & Ho & Hp). unfold heap_insert, hinv, helems. cbn [hsize htree hprio].
  destruct (ins (path (N.succ (hsize h))) e (htree h)) as [t' up] eqn:E. cbn [fst].
  destruct (graft_shape e _ _ Hs) as [Hfit Hg].
  destruct (ins_spec _ _ _ _ _ E Hfit Ho) as (HP & Ho' & _).
  repeat split; auto.
  pose proof (ins_sshape (path (N.succ (hsize h))) e (htree h)) as Hsh. rewrite E in Hsh. cbn [fst] in Hsh.
  destruct (N.succ (hsize h)) as [|q] eqn:En; [lia|]. cbn [shape path] in *.
  eapply complete_sshape; [exact Hsh|exact Hg].
Qed.

Lemma hinv_insert h e : hinv h -> hinv (heap_insert h e).
Proof. intros H. now apply heap_insert_spec. Qed.

Lemma complete_cons b rest l x r : complete (b :: rest) (Node l x r) =
  if b then perfect (S (length rest)) l /\ complete rest r
  else complete rest l /\ perfect (length rest) r.
Proof. destruct b; reflexivity. Qed.

Lemma complete_left_leaf l x r : complete l (Node Leaf x r) -> l = [] /\ r = Leaf.
Proof.
  destruct l as [|[] rest]; cbn.
  - intros [_ ->]. auto.
  - intros [[] _].
  - intros [[] _].
Qed.

Lemma complete_right_leaf l ll lx lr x : complete l (Node (Node ll lx lr) x Leaf) ->
  l = [false] /\ ll = Leaf /\ lr = Leaf.
Proof.
  destruct l as [|[] rest]; cbn [complete].
  - intros [H _]. discriminate.
  - intros [_ []].
  - intros [Hc Hp]. destruct rest as [|b rest]; [|cbn in Hp; contradiction].
    cbn in Hc. destruct Hc as [-> ->]. auto.
Qed.

Lemma shape_pos_cases p : p = 1%positive \/ exists p0, p = Pos.succ p0.
Proof. destruct (Pos.succ_pred_or p) as [->|H]; [now left|right; eauto]. Qed.

(* [cbn] on heap_remove must leave [sift y _] and [hsize h - 1] as they are written *)
Local Opaque sift N.sub.

Theorem heap_remove_spec oh oh' r : oinv oh -> heap_remove oh = (oh', r) ->
  oinv oh' /\ Permutation (oelems oh) (opt r ++ oelems oh') /\ best_of (oelems oh) r /\
  (forall h h', oh = Some h -> oh' = Some h' -> r <> None -> N.succ (hsize h') = hsize h).
Proof.
  destruct oh as [[n p t]|]; cbn [oinv heap_remove htree hsize];
    [|intros _ H; inv H; cbn; repeat split; auto; discriminate].
  intros (Hs & Ho & Hp). unfold oelems at 1 2, helems. cbn [hsize htree hprio] in *.
  destruct t as [|l x r0].
  { intros H. inv H. cbn [oinv oelems opt app best_of]. unfold hinv, helems. cbn [hsize htree hprio].
    repeat split; auto. intros ? ? _ _ Hn. now elim Hn. }
  destruct n as [|q]; cbn [shape] in Hs; [discriminate|].
  pose proof (best_of_top _ _ _ Ho) as Hbest.
  destruct l as [|ll lx lr].
  - (* only the top *)
    intros H. inv H. apply complete_left_leaf in Hs. destruct Hs as [_ ->].
    cbn [oinv oelems opt app preorder]. split; [exact I|]. split; [reflexivity|]. split; [exact Hbest|].
    intros ? ? _ Hn. discriminate.
  - destruct r0 as [|rl rx rr].
    + (* top and its left child *)
      apply complete_right_leaf in Hs. destruct Hs as (Hpath & -> & ->).
      assert (q = 2%positive) as ->.
      { assert (N.pos q = 2%N) by (rewrite <- val_path, Hpath; reflexivity). congruence. }
      intros H. inv H.
      cbn [oinv oelems opt app]. unfold hinv, helems. cbn [hsize htree hprio preorder app].
      replace (2 - 1)%N with 1%N by lia. cbn [shape path_pos complete root_prio].
      split; [repeat split; auto; constructor|]. split; [reflexivity|]. split; [exact Hbest|].
      intros ? ? Ha Hb _. inv Ha. inv Hb. reflexivity.
    + (* at least three nodes *)
      destruct (shape_pos_cases q) as [->|[q0 ->]]; [cbn in Hs; destruct Hs; discriminate|].
      cbn [path].
      destruct (take_last_spec _ _ Hs) as (y & t' & E & HP & Hh & Hroot).
      rewrite E. intros H.
      destruct Hroot as (l0 & x0 & r1 & l' & r' & E1 & ->).
      { intros Hnil. rewrite Hnil in Hs. cbn in Hs. destruct Hs; discriminate. }
      inv E1. inv H.
      pose proof (take_last_shape _ _ _ _ Hs E) as Hs'.
      pose proof (Hh Ho) as Hh'. cbn [hord] in Hh'. destruct Hh' as (_ & _ & Hl' & Hr').
      pose proof (sift_spec y (Node l' y r')) as Hsift. cbn beta iota in Hsift.
      destruct (Hsift Hl' Hr') as (HPs & Hos & Hss).
      cbn [oinv oelems opt app]. unfold hinv, helems. cbn [hsize htree hprio].
      split; [|split; [|split]].
      * split; [|split; [exact Hos|reflexivity]].
        replace (N.pos (Pos.succ q0) - 1)%N with (N.pos q0) by lia. cbn [shape].
        eapply complete_sshape; [exact Hss|].
        eapply complete_sshape; [|exact Hs']. cbn. split; apply sshape_refl.
      * cbn [preorder] in HP |- *. perm.
      * exact Hbest.
      * intros ? ? Ha Hb _. inv Ha. inv Hb. cbn [hsize]. lia.
Qed.

(* unless the top has both children, split-and-steal is remove, and no new heap *)
Lemma heap_split_few oh :
  match oh with
  | Some (mkHeap _ _ (Node (Node _ _ _) _ (Node _ _ _))) => True
  | _ => heap_split oh = (fst (heap_remove oh), None, snd (heap_remove oh))
  end.
Proof. destruct oh as [[n p [|[|ll lx lr] x [|rl rx rr]]]|]; reflexivity || exact I. Qed.

Theorem heap_split_spec oh oh1 oh2 r : oinv oh ->
  (forall h, oh = Some h -> (hsize h < 2 ^ 32)%N) ->
  heap_split oh = ((oh1, oh2), r) ->
  oinv oh1 /\ oinv oh2 /\ Permutation (oelems oh) (opt r ++ oelems oh1 ++ oelems oh2) /\
  best_of (oelems oh) r.
Proof.
  intros Hinv Hlt H.
  assert (Hfew : heap_split oh = (fst (heap_remove oh), None, snd (heap_remove oh)) ->
    oinv oh1 /\ oinv oh2 /\ Permutation (oelems oh) (opt r ++ oelems oh1 ++ oelems oh2) /\
    best_of (oelems oh) r).
  { intros E. rewrite E in H. destruct (heap_remove oh) as [o r'] eqn:Er. inv H.
    destruct (heap_remove_spec _ _ _ Hinv Er) as (Hi & HP & Hb & _).
    cbn [oinv oelems]. rewrite app_nil_r. auto. }
  pose proof (heap_split_few oh) as F.
  destruct oh as [[n p [|[|ll lx lr] x [|rl rx rr]]]|]; try exact (Hfew F). clear Hfew F.
  destruct Hinv as (Hs & Ho & Hp). specialize (Hlt _ eq_refl). cbn [hsize htree hprio] in *.
  destruct n as [|q]; cbn [shape] in Hs; [discriminate|].
  pose proof (best_of_top _ _ _ Ho) as Hbest. destruct Ho as (Hlx & Hrx & Hol & Hor).
  destruct (path_pos q) as [|b rest] eqn:Epath; [cbn in Hs; destruct Hs; discriminate|].
  assert (Hval : N.pos q = val (b :: rest)) by (rewrite <- Epath; symmetry; apply val_path).
  revert H. cbn [heap_split htree hsize]. rewrite Hval in Hlt |- *.
  pose proof (split_sizes b rest Hlt) as Hsz. cbv zeta in Hsz |- *. rewrite Hsz.
  rewrite complete_cons in Hs.
  destruct b; intros H; inv H; destruct Hs as [Hsl Hsr];
    cbn [oinv oelems opt app]; unfold hinv, helems; cbn [hsize htree hprio root_prio].
  - (* last node on the right: the left subtree is perfect *)
    split; [|split; [|split]].
    + split; [apply shape_val; exact Hsr|split; [exact Hor|reflexivity]].
    + split; [apply (perfect_shape (S (length rest))); exact Hsl|split; [exact Hol|reflexivity]].
    + cbn [preorder]. perm.
    + exact Hbest.
  - (* last node on the left: the right subtree is perfect, one level shorter *)
    split; [|split; [|split]].
    + split; [apply perfect_shape; exact Hsr|split; [exact Hor|reflexivity]].
    + split; [apply shape_val; exact Hsl|split; [exact Hol|reflexivity]].
    + cbn [preorder]. perm.
    + exact Hbest.
Qed.

Definition all_elems (s : list (option heap)) : list task := flat_map oelems s.

Lemma all_elems_app a b : all_elems (a ++ b) = all_elems a ++ all_elems b.
Proof. unfold all_elems. apply flat_map_app. Qed.

Lemma set_nth_all_elems i oh oh' s : nth_error s i = Some oh ->
  Permutation (oelems oh ++ all_elems (set_nth i oh' s)) (oelems oh' ++ all_elems s).
Proof. apply set_nth_flat_map. Qed.

Lemma set_nth_Forall {A} (P : A -> Prop) i v l : P v -> Forall P l -> Forall P (set_nth i v l).
Proof.
  intros Hv. revert i; induction l as [|x l IH]; intros [|i] H; cbn [set_nth]; auto; inv H; constructor; auto.
Qed.

Lemma elems_le_all s i oh : nth_error s i = Some oh ->
  (length (oelems oh) <= length (all_elems s))%nat.
Proof.
  intros H. rewrite (split_nth _ _ _ H), all_elems_app. cbn [all_elems flat_map].
  rewrite !app_length. lia.
Qed.

Theorem hstep_spec s o s' r : Forall oinv s ->
  (N.of_nat (length (all_elems s)) < 2 ^ 32)%N ->
  hstep s o = (s', r) ->
  Forall oinv s' /\
  Permutation (all_elems s' ++ opt r) (all_elems s ++ hinserted s [o]) /\
  match o with
  | HRemove i | HSplit i => forall oh, nth_error s i = Some oh -> best_of (oelems oh) r
  | _ => r = None
  end.
Proof.
  intros Hinv Hbound H. destruct o as [|i e|i|i]; cbn [hstep hinserted] in *.
  - inv H. split; [|split; [|reflexivity]].
    + apply Forall_app. split; [exact Hinv|]. constructor; [apply hinv_create|constructor].
    + rewrite all_elems_app. cbn. rewrite !app_nil_r. reflexivity.
  - rewrite app_nil_r. destruct (nth_error s i) as [oh|] eqn:En.
    + (* a NULL entry is a fresh empty heap *)
      set (h := match oh with Some h => h | None => heap_create end).
      assert (Hh : hinv h /\ helems h = oelems oh).
      { pose proof (Forall_nth _ _ _ _ Hinv En). destruct oh; split; auto using hinv_create. }
      assert (E : (set_nth i (Some (heap_insert h e)) s, @None task) = (s', r)) by (destruct oh; exact H).
      inv E. destruct Hh as [Hh Eh]. destruct (heap_insert_spec h e Hh) as (Hi & HP & _).
      split; [now apply set_nth_Forall|]. split; [|reflexivity].
      pose proof (set_nth_all_elems i _ (Some (heap_insert h e)) s En) as HPs. cbn [oelems] in HPs.
      rewrite Eh in HP. cbn [opt]. perm.
    + inv H. split; [exact Hinv|]. split; [|reflexivity]. cbn. rewrite !app_nil_r. reflexivity.
  - rewrite app_nil_r. destruct (nth_error s i) as [oh|] eqn:En.
    + destruct (heap_remove oh) as [oh' r'] eqn:Er. inv H.
      pose proof (Forall_nth _ _ _ _ Hinv En) as Hh.
      destruct (heap_remove_spec _ _ _ Hh Er) as (Hi & HP & Hb & _).
      split; [now apply set_nth_Forall|]. split.
      * pose proof (set_nth_all_elems i _ oh' s En) as HPs. perm.
      * intros oh0 Hoh0. inv Hoh0. exact Hb.
    + inv H. split; [exact Hinv|]. split; [perm|]. intros oh Hoh. discriminate.
  - rewrite app_nil_r. destruct (nth_error s i) as [oh|] eqn:En.
    + destruct (heap_split oh) as [[oh' nh] r'] eqn:Er. inv H.
      pose proof (Forall_nth _ _ _ _ Hinv En) as Hh.
      assert (Hlt : forall h, oh = Some h -> (hsize h < 2 ^ 32)%N).
      { intros h ->. cbn [oinv] in Hh. rewrite <- (hinv_count h Hh).
        pose proof (elems_le_all s i _ En) as Hle. cbn [oelems] in Hle. lia. }
      destruct (heap_split_spec _ _ _ _ Hh Hlt Er) as (Hi1 & Hi2 & HP & Hb).
      split; [|split].
      * apply Forall_app. split; [now apply set_nth_Forall|]. constructor; [exact Hi2|constructor].
      * pose proof (set_nth_all_elems i _ oh' s En) as HPs. rewrite all_elems_app.
        cbn [all_elems flat_map]. rewrite app_nil_r. perm.
      * intros oh0 Hoh0. inv Hoh0. exact Hb.
    + inv H. split; [exact Hinv|]. split; [perm|]. intros oh Hoh. discriminate.
Qed.

Lemma hinserted_cons s o os : hinserted s (o :: os) = hinserted s [o] ++ hinserted (fst (hstep s o)) os.
Proof. cbn [hinserted]. now rewrite app_nil_r. Qed.

Lemma hinserted_length s ops : (length (hinserted s ops) <= length ops)%nat.
Proof.
  revert s; induction ops as [|o os IH]; intros s; cbn [hinserted length]; [lia|].
  rewrite app_length. specialize (IH (fst (hstep s o))).
  destruct o as [|i e|i|i]; cbn [length]; try lia. destruct (nth_error s i); cbn [length]; lia.
Qed.

(* every history: the invariants hold in every heap at the end and the tasks
   still in the heaps plus the returned ones are exactly the inserted ones *)
Theorem hrun_spec ops : forall s s' rets, Forall oinv s ->
  (N.of_nat (length (all_elems s)) + N.of_nat (length ops) < 2 ^ 32)%N ->
  hrun s ops = (s', rets) ->
  Forall oinv s' /\ Permutation (all_elems s' ++ rets) (all_elems s ++ hinserted s ops).
Proof.
  induction ops as [|o os IH]; intros s s' rets Hinv Hbound H; cbn [hrun] in H.
  - inv H. cbn [hinserted]. split; [exact Hinv|reflexivity].
  - destruct (hstep s o) as [s1 r] eqn:E1. destruct (hrun s1 os) as [s2 rs] eqn:E2. inv H.
    cbn [length] in Hbound.
    destruct (hstep_spec _ _ _ _ Hinv ltac:(lia) E1) as (Hinv1 & HP1 & _).
    assert (Hb1 : (N.of_nat (length (all_elems s1)) + N.of_nat (length os) < 2 ^ 32)%N).
    { pose proof (Permutation_length HP1) as HL. rewrite !app_length in HL.
      pose proof (hinserted_length s [o]) as HI. cbn [length] in HI.
      destruct r; cbn [opt length] in HL; lia. }
    destruct (IH _ _ _ Hinv1 Hb1 E2) as (Hinv2 & HP2).
    split; [exact Hinv2|]. rewrite hinserted_cons, E1. cbn [fst].
    change (match r with Some t => [t] | None => [] end) with (opt r). perm.
Qed.
