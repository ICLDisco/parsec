(* Proofs about the hbbuffer model: conservation of the multiset of tasks,
   capacity, pop_best returns a maximum, push_all_by_priority keeps the best. *)
From PV Require Import Base.Tac HeapBuf.HeapBufDefs HeapBuf.HeapBufPerm.
From Coq Require Import Sorted.
Local Open Scope Z_scope.

(* the tasks a buffer holds, in slot order *)
Definition held (b : slots) : list task := flat_map opt b.
Definition held_all (bufs : list slots) : list task := flat_map held bufs.
(* the tasks handed to the top-most parent store *)
Definition sent (q : list pcall) : list task := flat_map fst q.
Definition pushed (o : bop) : list task :=
  match o with BPushAll e _ => e | BPushPrio e _ => e | BPop _ => [] end.

Lemma held_cons s b : held (s :: b) = opt s ++ held b.
Proof. reflexivity. Qed.
Lemma held_app a b : held (a ++ b) = held a ++ held b.
Proof. unfold held. apply flat_map_app. Qed.
Lemma held_all_cons b bufs : held_all (b :: bufs) = held b ++ held_all bufs.
Proof. reflexivity. Qed.
Lemma sent_app a b : sent (a ++ b) = sent a ++ sent b.
Proof. unfold sent. apply flat_map_app. Qed.

Lemma set_nth_length {A} i (v : A) l : length (set_nth i v l) = length l.
Proof. revert i; induction l as [|x l IH]; intros [|i]; cbn [set_nth length]; auto. Qed.

Lemma set_nth_held i s s' b : nth_error b i = Some s ->
  Permutation (opt s ++ held (set_nth i s' b)) (opt s' ++ held b).
Proof. apply set_nth_flat_map. Qed.

Lemma set_nth_held_all j b b' bufs : nth_error bufs j = Some b ->
  Permutation (held b ++ held_all (set_nth j b' bufs)) (held b' ++ held_all bufs).
Proof. apply set_nth_flat_map. Qed.

Lemma set_nth_map_length j (b b' : slots) bufs : nth_error bufs j = Some b -> length b' = length b ->
  map (@length _) (set_nth j b' bufs) = map (@length _) bufs.
Proof.
  revert j; induction bufs as [|x bufs IH]; intros [|j] H Hl; cbn [nth_error] in H; try discriminate.
  - inv H. cbn [set_nth map]. now rewrite Hl.
  - cbn [set_nth map]. f_equal. now apply IH.
Qed.

Lemma fill_spec b : forall elts b' left, fill b elts = (b', left) ->
  Permutation (held b' ++ left) (held b ++ elts) /\ length b' = length b.
Proof.
  induction b as [|s b IH]; intros elts b' left H; cbn [fill] in H.
  - inv H. split; reflexivity.
  - destruct elts as [|e es].
    + inv H. split; reflexivity.
    + destruct s as [t|].
      * destruct (fill b (e :: es)) as [r l] eqn:E. inv H.
        destruct (IH _ _ _ E) as [HP HL]. split; [|cbn [length]; now rewrite HL].
        rewrite !held_cons. perm.
      * destruct (fill b es) as [r l] eqn:E. inv H.
        destruct (IH _ _ _ E) as [HP HL]. split; [|cbn [length]; now rewrite HL].
        rewrite !held_cons. perm.
Qed.

(* one level of the chain: buffer [b] keeps some of [elts], the levels above conserve the rest *)
Lemma level_conserves b b' up up' elts left q :
  Permutation (held b' ++ left) (held b ++ elts) -> length b' = length b ->
  Permutation (held_all up' ++ sent q) (held_all up ++ left) /\
    map (@length _) up' = map (@length _) up ->
  Permutation (held_all (b' :: up') ++ sent q) (held_all (b :: up) ++ elts) /\
  map (@length _) (b' :: up') = map (@length _) (b :: up).
Proof.
  intros HP HL [HP' HL']. split; [rewrite !held_all_cons; perm|cbn [map]; now rewrite HL, HL'].
Qed.

Lemma push_all_spec bufs : forall elts d bufs' q, push_all bufs elts d = (bufs', q) ->
  Permutation (held_all bufs' ++ sent q) (held_all bufs ++ elts) /\
  map (@length _) bufs' = map (@length _) bufs.
Proof.
  induction bufs as [|b up IH]; intros elts d bufs' q H; cbn [push_all] in H.
  - inv H. cbn. rewrite app_nil_r. split; reflexivity.
  - destruct (d =? 0).
    + destruct (fill b elts) as [b' left] eqn:Ef.
      destruct (fill_spec _ _ _ _ Ef) as [HP HL].
      destruct left as [|l0 left].
      * inv H. apply (level_conserves _ _ _ _ _ _ _ HP HL). split; reflexivity.
      * destruct (push_all up (l0 :: left) (d - 1)) as [up' q'] eqn:Eu. inv H.
        exact (level_conserves _ _ _ _ _ _ _ HP HL (IH _ _ _ _ Eu)).
    + destruct (push_all up elts (d - 1)) as [up' q'] eqn:Eu. inv H.
      now apply (level_conserves b b _ _ elts elts), IH with (d := d - 1).
Qed.

Definition full (b : slots) : Prop := forall s, In s b -> s <> None.

Lemma held_in b x : In x (held b) <-> In (Some x) b.
Proof.
  unfold held. rewrite in_flat_map. split.
  - intros ([t|] & Hi & Ho); cbn in Ho; [destruct Ho as [->|[]]; auto|destruct Ho].
  - intros H. exists (Some x). split; [auto|now left].
Qed.

(* both scans are followed with the slots already visited, [pre], in hand; one more slot: *)
Lemma nth_error_snoc_app {A} pre (s : A) b : nth_error ((pre ++ [s]) ++ b) (length pre) = Some s.
Proof. rewrite <- app_assoc, nth_error_app2, Nat.sub_diag by lia. reflexivity. Qed.

Lemma in_held_snoc pre s x : In x (held (pre ++ [s])) -> In x (held pre) \/ s = Some x.
Proof.
  rewrite held_app. intros H. apply in_app_or in H. destruct H as [H|H]; [now left|right].
  destruct s as [t|]; cbn in H; [destruct H as [<-|[]]; reflexivity|destruct H].
Qed.

Lemma full_snoc pre c : full pre -> full (pre ++ [Some c]).
Proof. intros Hf s Hs. apply in_app_or in Hs. destruct Hs as [Hs|[<-|[]]]; [now apply Hf|discriminate]. Qed.

(* what the scan for an element of priority [p0] answers: no place (the array is full of
   elements at least as good), or a slot and what it holds; if it holds an element, that
   one is worse than [p0] and no better than any other of the (full) array *)
Definition found (b : slots) (p0 : Z) (res : option (nat * option task)) : Prop :=
  match res with
  | None => full b /\ forall x, In x (held b) -> p0 <= prio x
  | Some (i, v) => nth_error b i = Some v /\
      match v with
      | None => True
      | Some c => prio c < p0 /\ full b /\ forall x, In x (held b) -> prio c <= prio x
      end
  end.

(* scan invariant: [p] is the lowest priority seen, [acc] where it was seen if below [p0] *)
Lemma find_slot_spec b : forall pre acc p p0,
  full pre ->
  (forall x, In x (held pre) -> p <= prio x) ->
  match acc with
  | None => p = p0
  | Some (k, c) => nth_error (pre ++ b) k = Some (Some c) /\ prio c = p /\ p < p0
  end ->
  found (pre ++ b) p0 (find_slot b (length pre) acc p).
Proof.
  induction b as [|s b IH]; intros pre acc p p0 Hfull Hmin Hacc; cbn [find_slot].
  - rewrite app_nil_r in *. destruct acc as [[k c]|].
    + destruct Hacc as (Hn & <- & Hlt). cbn [found]. auto.
    + subst p. split; assumption.
  - change (s :: b) with ([s] ++ b) in *. rewrite app_assoc in *. destruct s as [c|].
    + rewrite <- (last_length pre (Some c)). apply full_snoc with (c := c) in Hfull.
      destruct (prio c <? p) eqn:E; apply IH; try exact Hfull.
      * intros x Hx. apply in_held_snoc in Hx. destruct Hx as [Hx|Hx]; [specialize (Hmin x Hx)|inv Hx]; lia.
      * split; [apply nth_error_snoc_app|]. destruct acc as [[k c']|]; lia.
      * intros x Hx. apply in_held_snoc in Hx. destruct Hx as [Hx|Hx]; [now apply Hmin|inv Hx; lia].
      * exact Hacc.
    + split; [apply nth_error_snoc_app|exact I].
Qed.

Lemma find_slot_top b t : found b (prio t) (find_slot b 0 None (prio t)).
Proof.
  apply (find_slot_spec b [] None (prio t) (prio t)).
  - intros s [].
  - intros x [].
  - reflexivity.
Qed.

Lemma pbp_spec rest : forall b topush ejected b' ej, pbp b topush rest ejected = (b', ej) ->
  Permutation (held b' ++ ej) (held b ++ topush :: rest ++ ejected) /\ length b' = length b.
Proof.
  induction rest as [|t r IH]; intros b topush ejected b' ej H; cbn [pbp] in H;
    pose proof (find_slot_top b topush) as Hf;
    destruct (find_slot b 0 None (prio topush)) as [[i victim]|].
  - inv H. rewrite set_nth_length. split; [|reflexivity].
    pose proof (set_nth_held i _ (Some topush) b (proj1 Hf)) as HP. destruct victim; perm.
  - inv H. split; [|reflexivity]. perm.
  - destruct (IH _ _ _ _ _ H) as [HP HL]. rewrite set_nth_length in HL. split; [|exact HL].
    pose proof (set_nth_held i _ (Some topush) b (proj1 Hf)) as HP2. destruct victim; perm.
  - inv H. split; [|reflexivity]. perm.
Qed.

Lemma push_prio_spec bufs elts d bufs' q : push_prio bufs elts d = (bufs', q) ->
  Permutation (held_all bufs' ++ sent q) (held_all bufs ++ elts) /\
  map (@length _) bufs' = map (@length _) bufs.
Proof.
  intros H. unfold push_prio in H. destruct bufs as [|b up].
  - inv H. cbn. rewrite app_nil_r. split; reflexivity.
  - destruct elts as [|t rest].
    + inv H. cbn [sent flat_map]. split; reflexivity.
    + destruct (d =? 0).
      * destruct (pbp b t rest []) as [b' ej] eqn:Ep.
        destruct (pbp_spec _ _ _ _ _ _ Ep) as [HP HL]. rewrite app_nil_r in HP.
        destruct ej as [|e0 ej].
        -- inv H. apply (level_conserves _ _ _ _ _ _ _ HP HL). split; reflexivity.
        -- destruct (push_all up (e0 :: ej) (d - 1)) as [up' q'] eqn:Eu. inv H.
           exact (level_conserves _ _ _ _ _ _ _ HP HL (push_all_spec _ _ _ _ _ Eu)).
      * destruct (push_all up (t :: rest) (d - 1)) as [up' q'] eqn:Eu. inv H.
        now apply (level_conserves b b _ _ (t :: rest) (t :: rest)), push_all_spec with (d := d - 1).
Qed.

(* "prefer the best" at push time: when the ring is sorted by non-increasing
   priority (the callers' convention), nothing handed to the parent is better
   than anything kept *)
Definition below (ej : list task) (b : slots) : Prop :=
  forall e x, In e ej -> In x (held b) -> prio e <= prio x.

Lemma set_nth_in {A} i (v : A) l x : In x (set_nth i v l) -> x = v \/ In x l.
Proof.
  revert i; induction l as [|y l IH]; intros [|i] H; cbn [set_nth] in H; auto.
  - destruct H as [<-|H]; [now left|right; now right].
  - destruct H as [<-|H]; [right; now left|]. destruct (IH i H); [now left|right; now right].
Qed.

Lemma full_set_nth i t b : full b -> full (set_nth i (Some t) b).
Proof. intros Hf s Hs. apply set_nth_in in Hs. destruct Hs as [->|Hs]; [discriminate|now apply Hf]. Qed.

(* the loop invariant of the while(1) loop, through one placement: the ejected are below the
   kept, and once something was ejected the array is full *)
Lemma eject_keeps_best b t ejected i victim :
  found b (prio t) (Some (i, victim)) -> below ejected b -> (ejected <> [] -> full b) ->
  let ej' := match victim with Some v => v :: ejected | None => ejected end in
  below ej' (set_nth i (Some t) b) /\ (ej' <> [] -> full (set_nth i (Some t) b)).
Proof.
  intros [Hn Hv] Hbelow Hfull. destruct victim as [v|]; cbv zeta.
  - destruct Hv as (Hlt & Hfb & Hmin). split; [|intros _; now apply full_set_nth].
    assert (Hv : In v (held b)) by (apply held_in; eapply nth_error_In; eauto).
    intros e x He Hx.
    assert (Hev : prio e <= prio v) by (destruct He as [<-|He]; [lia|now apply Hbelow]).
    apply held_in, set_nth_in in Hx. destruct Hx as [Hx|Hx]; [inv Hx; lia|].
    apply held_in in Hx. specialize (Hmin x Hx). lia.
  - (* an empty slot was there to take: nothing has been ejected yet *)
    destruct ejected as [|e0 ejected]; [split; [intros e x []|intros Hne; now elim Hne]|].
    assert (Hfb : full b) by (apply Hfull; discriminate).
    exfalso. apply (Hfb None); [eapply nth_error_In; eauto|reflexivity].
Qed.

Lemma refused_keeps_best b t ejected rest :
  found b (prio t) None -> below ejected b -> (forall y, In y rest -> prio y <= prio t) ->
  below ((t :: ejected) ++ rest) b.
Proof.
  intros [_ Hmin] Hbelow Hle e x He Hx. cbn [app] in He. destruct He as [<-|He]; [now apply Hmin|].
  apply in_app_or in He. destruct He as [He|He]; [now apply Hbelow|].
  specialize (Hle e He). specialize (Hmin x Hx). lia.
Qed.

Lemma pbp_keeps_best rest : forall b topush ejected b' ej,
  pbp b topush rest ejected = (b', ej) ->
  (forall y, In y rest -> prio y <= prio topush) ->
  StronglySorted (fun a c => prio c <= prio a) rest ->
  below ejected b -> (ejected <> [] -> full b) ->
  below ej b'.
Proof.
  induction rest as [|t r IH]; intros b topush ejected b' ej H Hle Hsorted Hbelow Hfull; cbn [pbp] in H;
    pose proof (find_slot_top b topush) as Hf;
    destruct (find_slot b 0 None (prio topush)) as [[i victim]|].
  - inv H. now apply eject_keeps_best.
  - inv H. now apply refused_keeps_best.
  - inv Hsorted. rename H2 into Hs1, H3 into Hs2. rewrite Forall_forall in Hs2.
    destruct (eject_keeps_best _ _ _ _ _ Hf Hbelow Hfull) as [Hbelow' Hfull'].
    exact (IH _ _ _ _ _ H Hs2 Hs1 Hbelow' Hfull').
  - inv H. now apply refused_keeps_best.
Qed.

Theorem push_prio_keeps_best b up t rest bufs' q :
  StronglySorted (fun a c => prio c <= prio a) (t :: rest) ->
  push_prio (b :: up) (t :: rest) 0 = (bufs', q) ->
  exists b' up' ej, bufs' = b' :: up' /\ pbp b t rest [] = (b', ej) /\ below ej b'.
Proof.
  intros Hs H. cbn [push_prio] in H. change (0 =? 0) with true in H. cbn iota in H.
  destruct (pbp b t rest []) as [b' ej] eqn:Ep.
  assert (Hb : below ej b').
  { inv Hs. rewrite Forall_forall in H3. eapply pbp_keeps_best; eauto.
    - intros e x [].
    - intros Hne. now elim Hne. }
  destruct ej as [|e0 ej].
  - inv H. exists b', up, []. auto.
  - destruct (push_all up (e0 :: ej) (0 - 1)) as [up' q'] eqn:Eu. inv H. exists b', up', (e0 :: ej). auto.
Qed.

Lemma best_scan_spec b : forall pre acc,
  match acc with
  | None => held pre = []
  | Some (k, c) => nth_error (pre ++ b) k = Some (Some c) /\ forall x, In x (held pre) -> prio x <= prio c
  end ->
  match best_scan b (length pre) acc with
  | None => held (pre ++ b) = []
  | Some (j, t) => nth_error (pre ++ b) j = Some (Some t) /\ forall x, In x (held (pre ++ b)) -> prio x <= prio t
  end.
Proof.
  induction b as [|s b IH]; intros pre acc Hacc; cbn [best_scan].
  - rewrite app_nil_r in *. destruct acc as [[k c]|]; exact Hacc.
  - change (s :: b) with ([s] ++ b) in *. rewrite app_assoc in *. rewrite <- (last_length pre s).
    destruct s as [c|].
    + destruct acc as [[k best]|]; [destruct Hacc as [Hn Hmax]; destruct (prio best <? prio c) eqn:E|];
        apply IH.
      * split; [apply nth_error_snoc_app|]. intros x Hx. apply in_held_snoc in Hx.
        destruct Hx as [Hx|Hx]; [specialize (Hmax x Hx)|inv Hx]; lia.
      * split; [exact Hn|]. intros x Hx. apply in_held_snoc in Hx.
        destruct Hx as [Hx|Hx]; [now apply Hmax|inv Hx; lia].
      * split; [apply nth_error_snoc_app|]. intros x Hx. apply in_held_snoc in Hx.
        destruct Hx as [Hx|Hx]; [rewrite Hacc in Hx; destruct Hx|inv Hx; lia].
    + apply IH. destruct acc as [[k best]|].
      * destruct Hacc as [Hn Hmax]. split; [exact Hn|]. intros x Hx. apply in_held_snoc in Hx.
        destruct Hx as [Hx|Hx]; [now apply Hmax|discriminate].
      * rewrite held_app, Hacc. reflexivity.
Qed.

Theorem pop_best_spec b b' r : pop_best b = (b', r) ->
  length b' = length b /\
  match r with
  | None => held b = [] /\ b' = b
  | Some t => In t (held b) /\ (forall x, In x (held b) -> prio x <= prio t) /\
              Permutation (t :: held b') (held b)
  end.
Proof.
  unfold pop_best. pose proof (best_scan_spec b [] None eq_refl) as Hs. cbn [length app] in Hs.
  destruct (best_scan b 0 None) as [[j t]|]; intros H; inv H.
  - destruct Hs as [Hn Hmax]. rewrite set_nth_length. split; [reflexivity|]. repeat split; auto.
    + apply held_in. eapply nth_error_In; eauto.
    + exact (set_nth_held j _ None b Hn).
  - split; auto.
Qed.

Theorem bstep_conserves bufs o bufs' r q : bstep bufs o = (bufs', (r, q)) ->
  Permutation (held_all bufs' ++ opt r ++ sent q) (held_all bufs ++ pushed o) /\
  map (@length _) bufs' = map (@length _) bufs.
Proof.
  destruct o as [elts d|elts d|j]; cbn [bstep pushed]; intros H.
  - destruct (push_all bufs elts d) as [b1 q1] eqn:E. inv H. cbn [opt app]. now apply push_all_spec in E.
  - destruct (push_prio bufs elts d) as [b1 q1] eqn:E. inv H. cbn [opt app]. now apply push_prio_spec in E.
  - destruct (nth_error bufs j) as [b|] eqn:En.
    + destruct (pop_best b) as [b1 r1] eqn:E. inv H.
      destruct (pop_best_spec _ _ _ E) as [HL Hr]. split; [|now apply set_nth_map_length with (b := b)].
      cbn [sent flat_map].
      pose proof (set_nth_held_all j b b1 bufs En) as HP.
      destruct r as [t|].
      * destruct Hr as (_ & _ & Hp). perm.
      * destruct Hr as (_ & ->). perm.
    + inv H. cbn. rewrite !app_nil_r. split; reflexivity.
Qed.

Theorem brun_conserves ops : forall bufs bufs' rets q, brun bufs ops = (bufs', (rets, q)) ->
  Permutation (held_all bufs' ++ rets ++ sent q) (held_all bufs ++ flat_map pushed ops) /\
  map (@length _) bufs' = map (@length _) bufs.
Proof.
  induction ops as [|o os IH]; intros bufs bufs' rets q H; cbn [brun] in H.
  - inv H. cbn. split; reflexivity.
  - destruct (bstep bufs o) as [b1 [r1 q1]] eqn:E1.
    destruct (brun b1 os) as [b2 [rs qs]] eqn:E2. inv H.
    destruct (bstep_conserves _ _ _ _ _ E1) as [HP1 HL1].
    destruct (IH _ _ _ _ E2) as [HP2 HL2]. split; [|now rewrite HL2].
    cbn [flat_map]. rewrite sent_app.
    change (match r1 with Some t => [t] | None => [] end) with (opt r1).
    perm.
Qed.

(* a buffer of n slots never holds more than n tasks, and n never changes *)
Lemma held_le_size b : (length (held b) <= length b)%nat.
Proof. induction b as [|[t|] b IH]; [cbn; lia| |]; rewrite held_cons; cbn [opt app length]; lia. Qed.
