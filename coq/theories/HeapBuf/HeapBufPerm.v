(* Multiset reasoning on lists of tasks by counting occurrences: a goal
   [Permutation l l'] built from [++], [::] and hypotheses of the same form
   becomes linear arithmetic over occurrence counts ([perm]). *)
From PV Require Import Base.Tac HeapBuf.HeapBufDefs.
From Coq Require Export Permutation.

Lemma task_eq_dec (a b : task) : {a = b} + {a <> b}.
Proof. decide equality; apply Z.eq_dec. Qed.

Definition opt {A} (o : option A) : list A := match o with Some t => [t] | None => [] end.

Definition occ (z : task) (l : list task) : nat := count_occ task_eq_dec l z.

Lemma occ_nil z : occ z [] = 0%nat.
Proof. reflexivity. Qed.
Lemma occ_cons z a l : occ z (a :: l) = (occ z [a] + occ z l)%nat.
Proof. unfold occ. cbn [count_occ]. destruct (task_eq_dec a z); reflexivity. Qed.
Lemma occ_app z l1 l2 : occ z (l1 ++ l2) = (occ z l1 + occ z l2)%nat.
Proof. unfold occ. apply count_occ_app. Qed.
Lemma perm_occ l1 l2 : Permutation l1 l2 <-> forall z, occ z l1 = occ z l2.
Proof. unfold occ. apply Permutation_count_occ. Qed.

(* rewrite every [occ z (a :: l)] with non-empty tail, [occ z (l1 ++ l2)], [occ z []] *)
Ltac occ_norm :=
  repeat match goal with
  | |- context[occ ?z (?l1 ++ ?l2)] => rewrite (occ_app z l1 l2)
  | |- context[occ ?z (?a :: ?l)] => lazymatch l with [] => fail | _ => rewrite (occ_cons z a l) end
  | |- context[occ ?z []] => rewrite (occ_nil z)
  | H : context[occ ?z (?l1 ++ ?l2)] |- _ => rewrite (occ_app z l1 l2) in H
  | H : context[occ ?z (?a :: ?l)] |- _ => lazymatch l with [] => fail | _ => rewrite (occ_cons z a l) in H end
  | H : context[occ ?z []] |- _ => rewrite (occ_nil z) in H
  end.

Ltac perm :=
  repeat match goal with H : Permutation _ _ |- _ => rewrite perm_occ in H end;
  apply perm_occ; let z := fresh "z" in intro z;
  repeat match goal with H : forall y, occ y _ = occ y _ |- _ => specialize (H z) end;
  cbn [app opt] in *; occ_norm; lia.

(* replacing one entry of a table: what the old entry held goes, what the new one holds comes *)
Lemma set_nth_flat_map {A} (f : A -> list task) i a a' l : nth_error l i = Some a ->
  Permutation (f a ++ flat_map f (set_nth i a' l)) (f a' ++ flat_map f l).
Proof.
  revert i; induction l as [|x l IH]; intros [|i] H; cbn [nth_error] in H; try discriminate;
    cbn [set_nth flat_map].
  - inv H. perm.
  - specialize (IH i H). perm.
Qed.
