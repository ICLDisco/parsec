(* Bit-level facts behind the index arithmetic of maxheap.c: the walk along
   the binary digits of [size] (most significant first), its successor, the
   value of a digit list, hiBit, and the sub-heap sizes of the split. *)
From PV Require Import Base.Tac HeapBuf.HeapBufDefs.
From Coq Require Import NArith.
Local Open Scope N_scope.

(* ripple-carry increment seen from the head of the list; the flag is the
   carry out of the digits (all digits were 1) *)
Fixpoint inc (l : list bool) : list bool * bool :=
  match l with
  | [] => ([], true)
  | b :: r =>
      let (r', c) := inc r in
      if c then (if b then (false :: r', true) else (true :: r', false)) else (b :: r', false)
  end.
Definition succ_bits (l : list bool) : list bool :=
  let (l', c) := inc l in if c then false :: l' else l'.

Lemma inc_snoc_false l : inc (l ++ [false]) = (l ++ [true], false).
Proof. induction l as [|b l IH]; [reflexivity|]. cbn [app inc]. now rewrite IH. Qed.

Lemma inc_snoc_true l : inc (l ++ [true]) = (fst (inc l) ++ [false], snd (inc l)).
Proof.
  induction l as [|b l IH]; [reflexivity|]. cbn [app inc]. rewrite IH.
  destruct (inc l) as [l' c]. cbn [fst snd]. destruct c, b; reflexivity.
Qed.

Lemma path_succ p : path_pos (Pos.succ p) = succ_bits (path_pos p).
Proof.
  induction p as [p IH|p IH|]; cbn [Pos.succ path_pos].
  - rewrite IH. unfold succ_bits. rewrite inc_snoc_true.
    destruct (inc (path_pos p)) as [l' c]. cbn [fst snd]. now destruct c.
  - unfold succ_bits. now rewrite inc_snoc_false.
  - reflexivity.
Qed.

Lemma inc_length l : length (fst (inc l)) = length l.
Proof.
  induction l as [|b l IH]; [reflexivity|]. cbn [inc]. destruct (inc l) as [l' c].
  cbn [fst] in IH. destruct c, b; cbn [fst length]; now rewrite IH.
Qed.

Lemma inc_carry l l' : inc l = (l', true) ->
  l = repeat true (length l) /\ l' = repeat false (length l).
Proof.
  revert l'; induction l as [|b l IH]; intros l' H; cbn [inc] in H.
  - inv H. split; reflexivity.
  - destruct (inc l) as [r' c]. destruct c; [|discriminate]. destruct b; [|discriminate]. inv H.
    destruct (IH _ eq_refl) as [H1 H2]. cbn [length repeat]. split; f_equal; assumption.
Qed.

Fixpoint val0 (l : list bool) : N :=
  match l with
  | [] => 0
  | b :: r => (if b then 2 ^ N.of_nat (length r) else 0) + val0 r
  end.
Definition val (l : list bool) : N := 2 ^ N.of_nat (length l) + val0 l.

Lemma pow2_S (k : nat) : 2 ^ N.of_nat (S k) = 2 * 2 ^ N.of_nat k.
Proof. rewrite Nat2N.inj_succ. apply N.pow_succ_r'. Qed.
Lemma pow2_pos (k : N) : 0 < 2 ^ k.
Proof. apply N.neq_0_lt_0. apply N.pow_nonzero. discriminate. Qed.

Lemma val0_lt l : val0 l < 2 ^ N.of_nat (length l).
Proof.
  induction l as [|b l IH]; cbn [val0 length].
  - reflexivity.
  - rewrite pow2_S. destruct b; lia.
Qed.

Lemma val_cons b r : val (b :: r) =
  2 * 2 ^ N.of_nat (length r) + (if b then 2 ^ N.of_nat (length r) else 0) + val0 r.
Proof. unfold val. cbn [length val0]. rewrite pow2_S. lia. Qed.

Lemma val0_snoc l b : val0 (l ++ [b]) = 2 * val0 l + (if b then 1 else 0).
Proof.
  induction l as [|a l IH]; cbn [app val0 length].
  - destruct b; reflexivity.
  - rewrite IH, app_length. cbn [length]. rewrite Nat.add_1_r, pow2_S. destruct a; lia.
Qed.

Lemma val_snoc l b : val (l ++ [b]) = 2 * val l + (if b then 1 else 0).
Proof. unfold val. rewrite val0_snoc, app_length. cbn [length]. rewrite Nat.add_1_r, pow2_S. lia. Qed.

Lemma val_path p : val (path_pos p) = Npos p.
Proof.
  induction p as [p IH|p IH|]; cbn [path_pos].
  - rewrite val_snoc, IH. reflexivity.
  - rewrite val_snoc, IH. reflexivity.
  - reflexivity.
Qed.

Lemma path_val l : path (val l) = l.
Proof.
  induction l as [|b l IH] using rev_ind; [reflexivity|].
  rewrite val_snoc. destruct (val l) as [|q] eqn:E.
  - unfold val in E. pose proof (pow2_pos (N.of_nat (length l))). lia.
  - cbn [path] in IH. destruct b; cbn; now rewrite IH.
Qed.

Lemma val_ones k : val (repeat true k) + 1 = 2 * 2 ^ N.of_nat k.
Proof.
  unfold val. rewrite repeat_length. induction k as [|k IH]; [reflexivity|].
  cbn [repeat val0]. rewrite repeat_length, pow2_S. lia.
Qed.

Lemma log2_val l : N.log2 (val l) = N.of_nat (length l).
Proof.
  apply N.log2_unique; [lia|]. unfold val. pose proof (val0_lt l).
  rewrite N.pow_succ_r'. lia.
Qed.

Lemma testbit_split q c m : c < 2 ^ m -> N.testbit (q * 2 ^ m + c) m = N.odd q.
Proof.
  intros Hc. pose proof (N.testbit_spec' (q * 2 ^ m + c) m) as H.
  assert (Hd : (q * 2 ^ m + c) / 2 ^ m = q).
  { symmetry. apply (N.div_unique _ _ q c); [exact Hc|lia]. }
  rewrite Hd in H. rewrite <- N.bit0_mod in H. rewrite N.bit0_odd in H.
  destruct (N.testbit (q * 2 ^ m + c) m), (N.odd q); cbn in H; congruence.
Qed.

Lemma land_pow2 a m : N.land (2 ^ m) a = if N.testbit a m then 2 ^ m else 0.
Proof.
  apply N.bits_inj. intros i. rewrite N.land_spec, N.pow2_bits_eqb.
  destruct (N.eqb_spec m i) as [->|Hne].
  - destruct (N.testbit a i); [now rewrite N.pow2_bits_true|now rewrite N.bits_0].
  - destruct (N.testbit a m); [now rewrite N.pow2_bits_false|now rewrite N.bits_0].
Qed.

Lemma ldiff_pow2 a m : N.testbit a m = true -> N.ldiff a (2 ^ m) = a - 2 ^ m.
Proof.
  intros H. symmetry. apply N.sub_nocarry_ldiff.
  apply N.bits_inj. intros i. rewrite N.ldiff_spec, N.pow2_bits_eqb, N.bits_0.
  destruct (N.eqb_spec m i) as [->|Hne]; [now rewrite H|reflexivity].
Qed.

Definition smear (s x : N) : N := N.lor x (N.shiftr x s).

Lemma smear_bits s x i : N.testbit (smear s x) i = N.testbit x i || N.testbit x (i + s).
Proof. unfold smear. now rewrite N.lor_spec, N.shiftr_spec'. Qed.

Section HiBit.
  Variable K : N.
  Definition hi (x : N) : Prop := forall i, K < i -> N.testbit x i = false.
  Definition lo (d x : N) : Prop := forall i, i <= K -> K < i + d -> N.testbit x i = true.

  Lemma smear_hi s x : hi x -> hi (smear s x).
  Proof. intros H i Hi. rewrite smear_bits, (H i Hi), (H (i + s)) by lia. reflexivity. Qed.

  Lemma smear_lo s d x : lo d x -> s <= d -> lo (d + s) (smear s x).
  Proof.
    intros H Hs i Hi Hk. rewrite smear_bits. destruct (N.ltb_spec K (i + d)) as [Hlt|Hge].
    - now rewrite (H i Hi Hlt).
    - rewrite (H (i + s)) by lia. apply orb_true_r.
  Qed.
End HiBit.

Lemma hiBit_spec n : 0 < n -> n < 2 ^ 32 -> hiBit n = 2 ^ N.log2 n.
Proof.
  intros Hpos Hlt. set (K := N.log2 n).
  assert (HK : K < 32) by (apply N.log2_lt_pow2; assumption).
  unfold hiBit. fold (smear 1 n). fold (smear 2 (smear 1 n)).
  fold (smear 4 (smear 2 (smear 1 n))). fold (smear 8 (smear 4 (smear 2 (smear 1 n)))).
  fold (smear 16 (smear 8 (smear 4 (smear 2 (smear 1 n))))).
  set (x := smear 16 _).
  assert (Hhi : hi K x).
  { unfold x. do 5 apply smear_hi. intros i Hi. apply N.bits_above_log2. exact Hi. }
  assert (Hlo : lo K 32 x).
  { unfold x. change 32 with (1 + 1 + 2 + 4 + 8 + 16). do 5 (apply smear_lo; [|lia]).
    intros i Hi Hk. assert (i = K) as -> by lia. apply N.bit_log2. lia. }
  assert (Hx : x = N.ones (K + 1)).
  { apply N.bits_inj. intros i. destruct (N.ltb_spec i (K + 1)) as [Hi|Hi].
    - rewrite N.ones_spec_low by exact Hi. apply Hlo; lia.
    - rewrite N.ones_spec_high by exact Hi. apply Hhi. lia. }
  rewrite Hx, N.shiftr_div_pow2, N.ones_div_pow2 by lia. rewrite !N.ones_equiv, !N.pred_sub.
  replace (K + 1 - 1) with K by lia. replace (K + 1) with (N.succ K) by lia.
  rewrite N.pow_succ_r'. pose proof (pow2_pos K). lia.
Qed.

(* size = val (b :: rest): b tells on which side the last node is; that side keeps the digits
   [rest], the other one is perfect *)
Lemma split_sizes b rest : val (b :: rest) < 2 ^ 32 ->
  let size := val (b :: rest) in
  let highBit := hiBit size in
  let twoBit := N.shiftr highBit 1 in
  (if negb (N.land twoBit size =? 0)
   then let hs := N.ldiff size highBit in (hs, size - hs - 1)
   else let ns := N.ldiff size highBit + twoBit in (size - ns - 1, ns)) =
  (if b then (val rest, 2 ^ N.of_nat (S (length rest)) - 1)
   else (2 ^ N.of_nat (length rest) - 1, val rest)).
Proof.
  intros Hlt size highBit twoBit.
  set (k := N.of_nat (length rest)).
  assert (Hsz : size = 2 * 2 ^ k + (if b then 2 ^ k else 0) + val0 rest) by apply val_cons.
  pose proof (val0_lt rest) as Hv. fold k in Hv. pose proof (pow2_pos k) as Hp.
  assert (Hhb : highBit = 2 * 2 ^ k).
  { unfold highBit. rewrite hiBit_spec; [|lia|exact Hlt].
    unfold size. rewrite log2_val. cbn [length]. rewrite pow2_S. reflexivity. }
  assert (Htb : twoBit = 2 ^ k).
  { unfold twoBit. rewrite Hhb, N.shiftr_div_pow2. change (2 ^ 1) with 2.
    rewrite N.mul_comm. apply N.div_mul. discriminate. }
  assert (Hbitk : N.testbit size k = b).
  { replace size with ((if b then 3 else 2) * 2 ^ k + val0 rest) by (destruct b; lia).
    rewrite testbit_split by exact Hv. now destruct b. }
  assert (Hbitk1 : N.testbit size (N.succ k) = true).
  { replace size with (1 * 2 ^ N.succ k + ((if b then 2 ^ k else 0) + val0 rest))
      by (rewrite N.pow_succ_r'; lia).
    rewrite testbit_split; [reflexivity|]. rewrite N.pow_succ_r'. destruct b; lia. }
  assert (Hld : N.ldiff size highBit = (if b then 2 ^ k else 0) + val0 rest).
  { rewrite Hhb, <- N.pow_succ_r'. rewrite ldiff_pow2 by exact Hbitk1.
    rewrite N.pow_succ_r'. lia. }
  cbv zeta. rewrite Htb, land_pow2, Hbitk, Hld, pow2_S. unfold val. fold k. destruct b.
  - destruct (N.eqb_spec (2 ^ k) 0) as [|_]; [lia|]. cbn [negb]. f_equal; lia.
  - cbn [negb N.eqb]. f_equal; lia.
Qed.
