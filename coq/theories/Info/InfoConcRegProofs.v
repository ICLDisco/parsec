(* C41 (concurrent half, registry) — in every interleaving of register / unregister /
   lookup calls by any number of threads (InfoConcRegDefs, repaired insertion rule) the
   registry relates names and ids one to one, a name has at most one holder, what a thread
   holds is what lookup returns, and every look a thread takes at the registry shows each
   name once and each id once: the invariant [J], which holds in every reached
   configuration ([rrun_J]); Properties_C41.v reads its theorems off it. *)
From PV Require Import Base.Tac Info.InfoDefs Info.InfoRegProofs Info.InfoConcDefs Info.InfoConcProofs Info.InfoConcRegDefs.
From Coq Require Import NArith.
Local Open Scope nat_scope.

Definition hname (x : nat * nat * nat) : nat := fst (fst x).

Record JR (reg : list entry) (held : list (nat * nat * nat)) : Prop := {
  jr_incr : incr 0 reg;
  jr_names : NoDup (map e_name reg);
  jr_held : NoDup (map hname held);
  jr_entry : forall n i t, In (n, i, t) held -> exists e, In e reg /\ e_name e = n /\ e_iid e = i
}.

Definition snap_ok (x : rres) : Prop :=
  match x_snap x with Some l => NoDup (map fst l) /\ NoDup (map snd l) | None => True end.

Definition J (c : rcfg) : Prop :=
  JR (h_reg c) (h_held c) /\
  forall u th, nth_error (h_thr c) u = Some th -> Forall snap_ok (q_res th).

Lemma JR_register reg maxp held n t r reg' maxp' :
  JR reg held -> register true n 0%N 0%N false reg maxp = (r, reg', maxp') ->
  JR reg' (match r with Some i => (n, i, t) :: held | None => held end).
Proof.
  intros [Hi Hn Hh He] H. destruct (register_spec _ _ _ _ _ _ _ _ _ Hi Hn H) as (Hi' & Hn' & Hr).
  destruct r as [k|]; [|destruct Hr as (_ & -> & _); now constructor].
  destruct Hr as (F & _ & -> & _). constructor; try assumption.
  - cbn [map hname fst]. constructor; [|exact Hh]. intros Hin. apply in_map_iff in Hin.
    destruct Hin as ([[m j] u] & Hm & Hin). cbn in Hm. subst m.
    destruct (He _ _ _ Hin) as (e & He1 & <- & _). rewrite (find_name_self _ _ Hn He1) in F. discriminate.
  - intros m j u [Heq|Hin].
    + inversion Heq; subst. eexists. split; [apply insert_before_in; now left|split; reflexivity].
    + destruct (He _ _ _ Hin) as (e & He1 & He2 & He3). exists e. split; [apply insert_before_in; now right|auto].
Qed.

Lemma held_by_in t n h i : held_by t n h = Some i -> In (n, i, t) h.
Proof.
  unfold held_by. destruct (find _ h) as [[[m j] u]|] eqn:F; [|discriminate].
  apply find_some in F. destruct F as [Hin Hc]. cbn in Hc. apply Bool.andb_true_iff in Hc.
  destruct Hc as [H1 H2]. apply Nat.eqb_eq in H1, H2. subst. cbn. intros H; inversion H; now subst.
Qed.

Lemma JR_unregister reg held n t i found rest m b :
  JR reg held -> held_by t n held = Some i -> unreg_scan i b reg 0 = (found, rest, m) ->
  JR rest (unhold t n held).
Proof.
  intros [Hi Hn Hh He] Hb Hs. apply held_by_in in Hb.
  pose proof (unreg_scan_nodup i b reg 0 (incr_NoDup _ _ Hi)) as Hsc. rewrite Hs in Hsc.
  destruct Hsc as (_ & -> & _).
  constructor.
  - now apply incr_filter.
  - now apply NoDup_map_filter.
  - unfold unhold. now apply NoDup_map_filter.
  - intros m' j u Hin. unfold unhold in Hin. apply filter_In in Hin. destruct Hin as [Hin Hc].
    destruct (He _ _ _ Hin) as (e' & He1 & He2 & He3). exists e'. split; [|auto].
    unfold remove_iid. apply filter_In. split; [exact He1|]. apply Bool.negb_true_iff. unfold has_iid.
    apply Nat.eqb_neq. intros Heq.
    destruct (He _ _ _ Hb) as (e & Hf1 & Hf2 & Hf3).
    assert (e' = e) by (eapply incr_uniq; eauto; congruence). subst e'.
    assert (Hsame : (m', j, u) = (n, i, t)).
    { eapply (NoDup_map_uniq hname); eauto. cbn. congruence. }
    inversion Hsame; subst. cbn in Hc. rewrite !Nat.eqb_refl in Hc. discriminate.
Qed.

Lemma mkres_ok c b k n r held : JR (h_reg c) held -> snap_ok (mkres c b k n r).
Proof.
  intros [Hi Hn _ _]. unfold snap_ok, mkres. cbn [x_snap]. destruct b; [|exact I].
  unfold snap. rewrite !map_map. cbn [fst snd]. split; [eapply incr_NoDup; eauto|exact Hn].
Qed.

Lemma J_update c t th th' reg' maxp' lock' held' :
  J c -> nth_error (h_thr c) t = Some th -> JR reg' held' ->
  (Forall snap_ok (q_res th) -> Forall snap_ok (q_res th')) ->
  J {| h_reg := reg'; h_maxp := maxp'; h_lock := lock'; h_held := held'; h_thr := set_nth (h_thr c) t th' |}.
Proof.
  intros [HJ Hall] Ht HJ' Hres. split; [exact HJ'|]. cbn [h_thr]. intros u x.
  rewrite (nth_error_set_nth _ _ _ _ _ Ht). destruct (u =? t).
  - intros H; inversion H; subst x. apply Hres. now apply (Hall t).
  - apply Hall.
Qed.

Lemma rstep_J fx c t : fx_reg fx = true -> J c -> J (rstep fx c t).
Proof.
  intros Hfx HJ. pose proof HJ as [HR Hall]. unfold rstep.
  destruct (nth_error (h_thr c) t) as [th|] eqn:Ht; [|exact HJ].
  assert (Hkeep : forall p lock', J (r_lock c lock' t (q_at th p))).
  { intros p lock'. eapply J_update; eauto. }
  assert (Hspin : J (r_thr c t (q_spin th))).
  { eapply J_update; eauto. }
  assert (Hfin : forall b k n r lock', J (r_lock c lock' t (q_finish th (mkres c b k n r)))).
  { intros b k n r lock'. eapply J_update; eauto. cbn [q_finish q_res]. intros H. constructor; [|exact H].
    eapply mkres_ok; eauto. }
  destruct (q_pc th) eqn:Epc; destruct (q_ops th) as [|[n|n|n] rest] eqn:Hop;
    try apply Hkeep; try exact HJ; try apply Hfin.
  - (* QIdle, QUnreg *) destruct (held_by t n (h_held c)); [apply Hkeep|apply Hfin].
  - (* QR0, QReg *)
    destruct (h_lock c); [exact Hspin|]. rewrite Hfx.
    destruct (register true n 0%N 0%N false (h_reg c) (h_maxp c)) as [[r reg'] maxp'] eqn:R.
    eapply J_update; eauto. eapply JR_register; eauto.
  - (* QU0, QUnreg *)
    destruct (h_lock c); [exact Hspin|].
    destruct (held_by t n (h_held c)) as [i|] eqn:Hb; [|apply Hkeep].
    destruct (unreg_scan i (S i =? h_maxp c) (h_reg c) 0) as [[found rst] m] eqn:U.
    eapply J_update; eauto. eapply JR_unregister; eauto.
  - (* QL0, QLook *) destruct (h_lock c); [exact Hspin|apply Hkeep].
Qed.

Lemma pre_register_JR fx pre : fx_reg fx = true -> forall reg maxp held, JR reg held ->
  let '(reg', _, held') := pre_register fx pre reg maxp held in JR reg' held'.
Proof.
  intros Hfx. induction pre as [|[n t] pre IH]; intros reg maxp held HJ; cbn [pre_register]; [exact HJ|].
  rewrite Hfx. destruct (register true n 0%N 0%N false reg maxp) as [[x reg'] maxp'] eqn:R.
  apply IH. eapply JR_register; eauto.
Qed.

Lemma rinit_J fx pre progs : fx_reg fx = true -> J (rinit fx pre progs).
Proof.
  intros Hfx. unfold rinit.
  pose proof (pre_register_JR fx pre Hfx [] 0 []) as H.
  destruct (pre_register fx pre [] 0 []) as [[reg maxp] held].
  split; cbn [h_reg h_held h_thr].
  - apply H. constructor; cbn; try constructor. intros n i t [].
  - intros u th Hu. apply nth_error_In, in_map_iff in Hu. destruct Hu as (p & <- & _). constructor.
Qed.

Lemma rrun_J fx pre progs sched : fx_reg fx = true -> J (rrun fx (rinit fx pre progs) sched).
Proof.
  intros Hfx. unfold rrun. apply fold_left_inv; [intros c t; now apply rstep_J|now apply rinit_J].
Qed.
