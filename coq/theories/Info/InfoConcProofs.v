(* C41 (concurrent half) — invariants of the atomic-step model InfoConcDefs, for any
   number of threads, any thread programs and any schedule.

   "Publish-once" discipline on a slot i ([once_op]): the test_and_set calls on i expect
   NULL and bring a non-NULL value, nobody calls set on i; gets are free.  Then the slot,
   once non-NULL, never changes, and every non-NULL value returned by any call on i is the
   value the slot holds: all callers agree, at most one of them installed its own value.
   Independently of any discipline, an object built by a constructor during a get is
   either the value returned (and then not destructed) or destructed exactly once when
   the info has a destructor.
   The first is the invariant [Inv] ([crun_cinit_Inv], [Inv_agree]), the second [GInv]
   ([crun_cinit_GInv]); Properties_C41.v reads its theorems off them. *)
From PV Require Import Base.Tac Info.InfoConcDefs.
From Coq Require Import NArith.
Local Open Scope nat_scope.

Lemma set_nth_length {A} (l : list A) i x : length (set_nth l i x) = length l.
Proof. revert i; induction l as [|y l IH]; intros [|i]; cbn; auto. Qed.

Lemma nth_set_nth (l : list N) i j x : i < length l ->
  nth j (set_nth l i x) 0%N = if j =? i then x else nth j l 0%N.
Proof.
  revert i j; induction l as [|y l IH]; intros i j Hi; cbn in Hi; [lia|].
  destruct i as [|i], j as [|j]; cbn; try reflexivity. apply IH. lia.
Qed.

Lemma nth_set_nth_other (l : list N) i j x : j <> i -> nth j (set_nth l i x) 0%N = nth j l 0%N.
Proof.
  revert i j; induction l as [|y l IH]; intros i j Hne; [now destruct i|].
  destruct i as [|i], j as [|j]; cbn; try reflexivity; [lia|]. apply IH. lia.
Qed.

Lemma nth_error_set_nth {A} (l : list A) t u x y : nth_error l t = Some y ->
  nth_error (set_nth l t x) u = if u =? t then Some x else nth_error l u.
Proof.
  revert t u; induction l as [|z l IH]; intros t u H; [now destruct t|].
  destruct t as [|t], u as [|u]; cbn in *; try reflexivity. now apply IH.
Qed.

Lemma mkobj_nonzero c t k : mkobj c t k <> 0%N.
Proof. unfold mkobj. lia. Qed.

Definition res_slot (r : cres) : nat := match r with RT i _ _ | RS i _ _ | RG i _ _ _ => i end.
Definition res_val (r : cres) : N := match r with RT _ _ r | RS _ _ r | RG _ r _ _ => r end.
(* the operation's own value: what it tried to install *)
Definition res_own (r : cres) : N := match r with RT _ v _ | RS _ v _ => v | RG _ _ made _ => made end.

Definition once_op (i : nat) (o : cop) : Prop :=
  match o with
  | CT j v old => j = i -> old = 0%N /\ v <> 0%N
  | CS j _ => j <> i
  | CG _ => True
  end.

(* the value a thread has read from a slot and is about to return *)
Definition pend (th : cthr) : option (nat * N) :=
  match c_pc th, c_ops th with
  | PT2 r, CT j _ _ :: _ | PG1 r, CG j :: _ | PG6 _ r, CG j :: _ => Some (j, r)
  | _, _ => None
  end.

(* the value v seen at slot j does not contradict slot i holding w for good *)
Definition seen (i : nat) (w : N) (j : nat) (v : N) : Prop := j = i -> v <> 0%N -> v = w.

Definition ThrOK (i : nat) (w : N) (th : cthr) : Prop :=
  Forall (once_op i) (c_ops th) /\
  (forall j v, pend th = Some (j, v) -> seen i w j v) /\
  (forall r, In r (c_res th) -> seen i w (res_slot r) (res_val r)).

Definition Inv (i : nat) (c : ccfg) : Prop :=
  i < length (g_slots c) /\
  forall u th, nth_error (g_thr c) u = Some th -> ThrOK i (slot c i) th.

Lemma seen_read i c j : seen i (slot c i) j (slot c j).
Proof. intros -> _. reflexivity. Qed.

Lemma seen_written i l j v : i < length l -> seen i (nth i (set_nth l j v) 0%N) j v.
Proof. intros Hi -> _. now rewrite nth_set_nth, Nat.eqb_refl. Qed.

(* what was seen while the slot was NULL, or held w already, stays right once it holds w *)
Lemma ThrOK_weaken i w0 w th : ThrOK i w0 th -> w0 = w \/ w0 = 0%N -> ThrOK i w th.
Proof.
  intros Hok [<-| ->]; [exact Hok|]. destruct Hok as (H1 & H2 & H3). split; [exact H1|].
  split; [intros j v Hp Hj Hv|intros r Hr Hj Hv]; exfalso; apply Hv; [now apply (H2 j v)|now apply H3].
Qed.

(* the stepped thread is replaced, slot i keeps its value or goes from NULL to something *)
Lemma inv_update i c t th th' slots' lock' :
  Inv i c -> nth_error (g_thr c) t = Some th -> length slots' = length (g_slots c) ->
  (slot c i = nth i slots' 0%N \/ slot c i = 0%N) ->
  ThrOK i (nth i slots' 0%N) th' ->
  Inv i {| g_slots := slots'; g_lock := lock'; g_infos := g_infos c; g_thr := set_nth (g_thr c) t th' |}.
Proof.
  intros [Hlen Hall] Ht Hl Hw Hth'. split; cbn [g_slots g_thr]; [lia|].
  intros u x. rewrite (nth_error_set_nth _ _ _ _ _ Ht). unfold slot at 1. cbn [g_slots].
  destruct (u =? t).
  - intros H; inversion H; subst x. exact Hth'.
  - intros Hx. exact (ThrOK_weaken _ _ _ _ (Hall u x Hx) Hw).
Qed.

Lemma ThrOK_move i w th th' : ThrOK i w th -> c_ops th' = c_ops th -> c_res th' = c_res th ->
  (forall j v, pend th' = Some (j, v) -> seen i w j v) -> ThrOK i w th'.
Proof. intros (H1 & _ & H3) Ho Hr H2. unfold ThrOK. rewrite Ho, Hr. now split. Qed.

Lemma ThrOK_finish i w th r : ThrOK i w th -> seen i w (res_slot r) (res_val r) -> ThrOK i w (finish th r).
Proof.
  intros (H1 & _ & H3) Hr. split; [|split].
  - cbn [finish c_ops]. destruct (c_ops th) as [|o l]; cbn [tl]; [constructor|]. now inversion H1.
  - unfold pend, finish. cbn [c_pc c_ops]. destruct (tl (c_ops th)); discriminate.
  - cbn [finish c_res]. intros x [<-|Hx]; [exact Hr|now apply H3].
Qed.

Lemma cstep_Inv i c t : Inv i c -> Inv i (cstep c t).
Proof.
  intros HI. pose proof HI as [Hlen Hall]. unfold cstep.
  destruct (nth_error (g_thr c) t) as [th|] eqn:Ht; [|exact HI].
  pose proof (Hall t th Ht) as Hok. destruct th as [pc ops res nc st sp].
  pose proof Hok as (Hops & Hpend & _). cbn [c_pc c_ops] in *.
  (* the thread moves on, the slots are left alone *)
  assert (Hmove : forall lock' pc' nc' st' sp',
            (forall j v, pend {| c_pc := pc'; c_ops := ops; c_res := res; c_nctor := nc';
                                 c_steps := st'; c_spins := sp' |} = Some (j, v) -> seen i (slot c i) j v) ->
            Inv i (with_lock_thr c lock' t {| c_pc := pc'; c_ops := ops; c_res := res; c_nctor := nc';
                                              c_steps := st'; c_spins := sp' |})).
  { intros lock' pc' nc' st' sp' Hp. eapply inv_update; eauto. eapply ThrOK_move; eauto. }
  assert (Hfin : forall r lock', seen i (slot c i) (res_slot r) (res_val r) ->
            Inv i (with_lock_thr c lock' t (finish {| c_pc := pc; c_ops := ops; c_res := res; c_nctor := nc;
                                                      c_steps := st; c_spins := sp |} r))).
  { intros r lock' Hr. eapply inv_update; eauto. now apply ThrOK_finish. }
  (* slot j receives v, which the thread will return: j is another slot, or slot i was NULL *)
  assert (Hwrite : forall j v pc', (j = i -> slot c i = 0%N) ->
            (forall j' v', pend {| c_pc := pc'; c_ops := ops; c_res := res; c_nctor := nc;
                                   c_steps := S st; c_spins := sp |} = Some (j', v') -> j' = j /\ v' = v) ->
            Inv i (with_slot_thr c j v t {| c_pc := pc'; c_ops := ops; c_res := res; c_nctor := nc;
                                            c_steps := S st; c_spins := sp |})).
  { intros j v pc' Hj Hp.
    assert (Hw : slot c i = nth i (set_nth (g_slots c) j v) 0%N \/ slot c i = 0%N).
    { destruct (Nat.eq_dec j i) as [E|E]; [right; exact (Hj E)|left; symmetry; apply nth_set_nth_other; congruence]. }
    eapply inv_update; eauto; [apply set_nth_length|].
    eapply ThrOK_move; [exact (ThrOK_weaken _ _ _ _ Hok Hw)|reflexivity|reflexivity|].
    intros j' v' H. destruct (Hp j' v' H) as [-> ->]. now apply seen_written. }
  unfold at_pc. cbn [c_pc c_ops c_res c_nctor c_steps c_spins].
  destruct pc;
    try exact HI;                                                   (* PDone *)
    try (destruct (g_lock c); apply Hmove; intros ? ? [=]; fail);   (* PG2: the list lock *)
    (destruct ops as [|[j v old|j v|j] rest];
     try (apply Hmove; intros ? ? [=]; fail)).                      (* nothing read yet *)
  - (* PT1: the CAS *)
    inversion Hops as [|? ? Ho _]; subst. destruct (slot c j =? old)%N eqn:E.
    + apply N.eqb_eq in E. apply Hwrite; [|now intros ? ? [= <- <-]].
      intros Hj. destruct (Ho Hj) as [Hold _]. congruence.
    + apply Hmove. intros ? ? [= <- <-]. apply seen_read.
  - (* PT2: return *) apply Hfin. now apply Hpend.
  - (* PS0: never on slot i *)
    inversion Hops as [|? ? Ho _]; subst. apply Hwrite; [intros Hj; now elim Ho|intros ? ? [=]].
  - (* PS1 *) inversion Hops as [|? ? Ho _]; subst. apply Hfin. intros Hj. now elim Ho.
  - (* PG0: read *) apply Hmove. intros ? ? [= <- <-]. apply seen_read.
  - (* PG1 *)
    destruct (ret =? 0)%N; [apply Hmove; intros ? ? [=]|apply Hfin; now apply Hpend].
  - (* PG3: unlock, constructor *)
    destruct (_ || _); [apply Hfin; intros _ Hr; now elim Hr|apply Hmove; intros ? ? [=]].
  - (* PG5: the CAS against NULL *)
    destruct (slot c j =? 0)%N eqn:E.
    + apply N.eqb_eq in E. apply Hwrite; [now intros ->|now intros ? ? [= <- <-]].
    + apply Hmove. intros ? ? [= <- <-]. apply seen_read.
  - (* PG6: return *) apply Hfin. now apply Hpend.
Qed.

Lemma nth_error_map_thr0 progs u th : nth_error (map thr0 progs) u = Some th ->
  exists p, In p progs /\ th = thr0 p.
Proof. intros H. apply nth_error_In, in_map_iff in H. destruct H as (p & <- & Hp). now exists p. Qed.

Lemma cinit_Inv i infos progs : i < length infos -> (forall p, In p progs -> Forall (once_op i) p) ->
  Inv i (cinit infos progs).
Proof.
  intros Hi Hp. split; cbn [cinit g_slots g_thr]; [now rewrite repeat_length|].
  intros u th H. destruct (nth_error_map_thr0 _ _ _ H) as (p & Hin & ->).
  split; [exact (Hp p Hin)|]. split; [intros ? ? [=]|intros ? []].
Qed.

Lemma crun_cinit_Inv infos progs sched i :
  i < length infos -> (forall p, In p progs -> Forall (once_op i) p) -> Inv i (crun (cinit infos progs) sched).
Proof.
  intros Hi Hp. unfold crun. apply fold_left_inv; [intros c t; apply cstep_Inv|now apply cinit_Inv].
Qed.

(* all callers of a publish-once slot agree with the slot *)
Lemma Inv_agree i c u th r : Inv i c -> nth_error (g_thr c) u = Some th -> In r (c_res th) ->
  res_slot r = i -> res_val r <> 0%N -> res_val r = slot c i.
Proof. intros [_ Hall] Hth Hr. destruct (Hall u th Hth) as (_ & _ & H3). now apply H3. Qed.

Definition res_ok (infos : list (N * bool)) (x : cres) : Prop :=
  match x with
  | RG j r made dead =>
      (made = 0%N -> dead = []) /\
      (made <> 0%N -> r <> 0%N /\ (r = made -> dead = []) /\
                      (r <> made -> dead = if snd (nth j infos (0%N, false)) then [made] else []))
  | _ => True
  end.
Definition pc_ok (p : cpc) : Prop :=
  match p with
  | PG4 nio | PG5 nio => nio <> 0%N
  | PG6 nio r => nio <> 0%N /\ r <> 0%N
  | _ => True
  end.
Definition GOK infos (th : cthr) : Prop := pc_ok (c_pc th) /\ Forall (res_ok infos) (c_res th).
Definition GInv infos (c : ccfg) : Prop :=
  g_infos c = infos /\ forall u th, nth_error (g_thr c) u = Some th -> GOK infos th.

Lemma ginv_update infos c t th th' slots' lock' :
  GInv infos c -> nth_error (g_thr c) t = Some th -> GOK infos th' ->
  GInv infos {| g_slots := slots'; g_lock := lock'; g_infos := g_infos c; g_thr := set_nth (g_thr c) t th' |}.
Proof.
  intros [Hi Hall] Ht Hth'. split; [exact Hi|]. cbn [g_thr]. intros u x.
  rewrite (nth_error_set_nth _ _ _ _ _ Ht). destruct (u =? t); [intros H; inversion H; now subst|apply Hall].
Qed.

Lemma GOK_finish infos th r : GOK infos th -> res_ok infos r -> GOK infos (finish th r).
Proof.
  intros [_ H2] Hr. split.
  - cbn [finish c_pc]. destruct (tl (c_ops th)); exact I.
  - cbn [finish c_res]. now constructor.
Qed.

Lemma cstep_GInv infos c t : GInv infos c -> GInv infos (cstep c t).
Proof.
  intros HG. pose proof HG as [Hinf Hall]. unfold cstep.
  destruct (nth_error (g_thr c) t) as [th|] eqn:Ht; [|exact HG].
  pose proof (Hall t th Ht) as [Hpc Hres]. destruct th as [pc ops res nc st sp]. cbn [c_pc c_res] in *.
  assert (Hmove : forall slots' lock' pc' nc' st' sp', pc_ok pc' ->
            GInv infos {| g_slots := slots'; g_lock := lock'; g_infos := g_infos c;
                          g_thr := set_nth (g_thr c) t {| c_pc := pc'; c_ops := ops; c_res := res; c_nctor := nc';
                                                          c_steps := st'; c_spins := sp' |} |}).
  { intros slots' lock' pc' nc' st' sp' Hp. eapply ginv_update; eauto. now split. }
  assert (Hfin : forall r lock', res_ok infos r ->
            GInv infos (with_lock_thr c lock' t (finish {| c_pc := pc; c_ops := ops; c_res := res; c_nctor := nc;
                                                           c_steps := st; c_spins := sp |} r))).
  { intros r lock' Hr. eapply ginv_update; eauto. apply GOK_finish; [now split|exact Hr]. }
  unfold at_pc. cbn [c_pc c_ops c_res c_nctor c_steps c_spins].
  destruct pc;
    try exact HG;                                             (* PDone *)
    try (destruct (g_lock c); apply Hmove; exact I);          (* PG2 *)
    try (apply Hmove; exact Hpc);                             (* PG4 *)
    (destruct ops as [|[j v old|j v|j] rest];
     try (apply Hmove; exact I); try (apply Hfin; exact I)).  (* no constructed object in sight *)
  - (* PT1 *) destruct (slot c j =? old)%N; apply Hmove; exact I.
  - (* PG1 *) destruct (ret =? 0)%N; [apply Hmove; exact I|apply Hfin; now split].
  - (* PG3: the constructor runs *)
    destruct (_ || _); [apply Hfin; now split|apply Hmove; apply mkobj_nonzero].
  - (* PG5: the slot is NULL and receives the object, or its value is returned *)
    destruct (slot c j =? 0)%N eqn:E; apply Hmove; (split; [exact Hpc|]); [exact Hpc|now apply N.eqb_neq].
  - (* PG6 *)
    destruct Hpc as [Hn Hr]. apply Hfin. rewrite Hinf. split; [intros E; now elim Hn|]. intros _.
    split; [exact Hr|]. split; intros E; [apply N.eqb_eq in E|apply N.eqb_neq in E]; now rewrite E.
Qed.

Lemma cinit_GInv infos progs : GInv infos (cinit infos progs).
Proof.
  split; [reflexivity|]. cbn [cinit g_thr]. intros u th H.
  destruct (nth_error_map_thr0 _ _ _ H) as (p & _ & ->). split; [exact I|constructor].
Qed.

Lemma crun_cinit_GInv infos progs sched : GInv infos (crun (cinit infos progs) sched).
Proof. unfold crun. apply fold_left_inv; [intros c t; apply cstep_GInv|apply cinit_GInv]. Qed.

(* non-vacuity: three threads, two of them race to install their value, all agree *)
Lemma conc_example :
  let c := crun (cinit [(5%N, true)] [[CT 0 0xa1%N 0%N]; [CG 0]; [CG 0; CT 0 0xb2%N 0%N]])
                [2; 1; 2; 1; 2; 1; 2; 1; 2; 1; 2; 0; 1; 0; 2; 1; 0; 0; 1; 1; 1; 2; 2; 2; 2; 2; 2; 1; 1] in
  c_all_done c = true /\ slot c 0 = mkobj 5 2 1 /\
  map c_res (g_thr c) = [[RT 0 0xa1%N (mkobj 5 2 1)];
                         [RG 0 (mkobj 5 2 1) (mkobj 5 1 1) [mkobj 5 1 1]];
                         [RT 0 0xb2%N (mkobj 5 2 1); RG 0 (mkobj 5 2 1) (mkobj 5 2 1) []]].
Proof. vm_compute. repeat split. Qed.
