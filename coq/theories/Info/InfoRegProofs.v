(* C41 — the registry part of the info model: parsec_info_register /
   unregister / lookup with the repaired insertion rule keep the list sorted by
   id, hence ids pairwise distinct; the client's table agrees with lookup. *)
From PV Require Import Base.Tac Base.ListX Info.InfoDefs.
From Coq Require Import NArith.
Local Open Scope nat_scope.

Lemma insert_before_Add {A} (l : list A) k x : Add x l (insert_before l k x).
Proof. unfold insert_before. rewrite <- (firstn_skipn k l) at 1. apply Add_app. Qed.

Lemma insert_before_in {A} (l : list A) k x y : In y (insert_before l k x) <-> y = x \/ In y l.
Proof. rewrite (Add_in (insert_before_Add l k x)). cbn [In]. intuition. Qed.

Lemma insert_before_cons {A} (a : A) l k x : insert_before (a :: l) (S k) x = a :: insert_before l k x.
Proof. reflexivity. Qed.

Lemma insert_before_length {A} (l : list A) k x : length (insert_before l k x) = S (length l).
Proof. apply (Add_length (insert_before_Add l k x)). Qed.

Lemma insert_before_map {A B} (h : A -> B) l k x : map h (insert_before l k x) = insert_before (map h l) k (h x).
Proof. unfold insert_before. now rewrite map_app, firstn_map, skipn_map. Qed.

Lemma find_app {A} (f : A -> bool) l r :
  find f (l ++ r) = match find f l with Some y => Some y | None => find f r end.
Proof. induction l as [|a l IH]; cbn; [reflexivity|]. destruct (f a); [reflexivity|exact IH]. Qed.

Lemma find_in {A} (f : A -> bool) l x : find f l = Some x -> In x l /\ f x = true.
Proof. apply find_some. Qed.

Lemma find_filter_same {A} (f g : A -> bool) l :
  (forall x, In x l -> g x = false -> f x = false) -> find f (filter g l) = find f l.
Proof.
  induction l as [|a l IH]; intros H; cbn; [reflexivity|].
  destruct (g a) eqn:Eg.
  - cbn. destruct (f a); [reflexivity|]. apply IH. intros x Hx. apply H. now right.
  - rewrite (H a (or_introl eq_refl) Eg). apply IH. intros x Hx. apply H. now right.
Qed.

Lemma filter_all {A} (f : A -> bool) l : (forall x, In x l -> f x = true) -> filter f l = l.
Proof.
  induction l as [|a l IH]; intros H; cbn; [reflexivity|].
  rewrite (H a (or_introl eq_refl)). f_equal. apply IH. intros x Hx. apply H. now right.
Qed.

Lemma NoDup_map_filter {A B} (h : A -> B) g l : NoDup (map h l) -> NoDup (map h (filter g l)).
Proof.
  induction l as [|a l IH]; intros H; cbn; [constructor|].
  inversion H as [|? ? Hn Hd]; subst. destruct (g a).
  - cbn. constructor; [|apply IH; exact Hd].
    intros Hin. apply Hn. apply in_map_iff in Hin. destruct Hin as (y & Hy & Hin).
    apply filter_In in Hin. apply in_map_iff. exists y. tauto.
  - apply IH; exact Hd.
Qed.

Lemma NoDup_map_uniq {A B} (h : A -> B) l x y :
  NoDup (map h l) -> In x l -> In y l -> h x = h y -> x = y.
Proof.
  induction l as [|a l IH]; intros H Hx Hy Heq; [destruct Hx|].
  cbn in H. inversion H as [|? ? Hn Hd]; subst.
  destruct Hx as [->|Hx], Hy as [->|Hy].
  - reflexivity.
  - exfalso. apply Hn. rewrite Heq. now apply in_map.
  - exfalso. apply Hn. rewrite <- Heq. now apply in_map.
  - now apply IH.
Qed.

Lemma NoDup_map_insert {A B} (h : A -> B) l k x :
  NoDup (map h (insert_before l k x)) <-> NoDup (map h l) /\ ~ In (h x) (map h l).
Proof. rewrite insert_before_map. apply (NoDup_Add (insert_before_Add _ k _)). Qed.

(* the element carrying a key is found by that key when keys are pairwise distinct *)
Lemma find_key_self {A} (h : A -> nat) l x :
  NoDup (map h l) -> In x l -> find (fun y => h y =? h x) l = Some x.
Proof.
  intros Hd Hin. destruct (find _ l) as [y|] eqn:F.
  - apply find_some in F. destruct F as [Hy Hk]. apply Nat.eqb_eq in Hk. f_equal. eapply NoDup_map_uniq; eauto.
  - eapply find_none in F; [|exact Hin]. cbn in F. now rewrite Nat.eqb_refl in F.
Qed.

(* sorted by strictly increasing id, all ids >= lo *)
Fixpoint incr (lo : nat) (l : list entry) : Prop :=
  match l with
  | [] => True
  | e :: r => lo <= e_iid e /\ incr (S (e_iid e)) r
  end.

Lemma incr_weaken lo lo' l : lo' <= lo -> incr lo l -> incr lo' l.
Proof. destruct l as [|e r]; cbn; intros Hle H; [exact I|]. destruct H as [H1 H2]. split; [lia|exact H2]. Qed.

Lemma incr_ge lo l e : incr lo l -> In e l -> lo <= e_iid e.
Proof.
  revert lo; induction l as [|x r IH]; intros lo H Hin; [destruct Hin|].
  cbn in H. destruct H as [H1 H2]. destruct Hin as [->|Hin]; [exact H1|].
  specialize (IH _ H2 Hin). lia.
Qed.

Lemma incr_NoDup lo l : incr lo l -> NoDup (map e_iid l).
Proof.
  revert lo; induction l as [|x r IH]; intros lo H; cbn; [constructor|].
  cbn in H. destruct H as [H1 H2]. constructor; [|eapply IH; eauto].
  intros Hin. apply in_map_iff in Hin. destruct Hin as (e & He & Hin).
  pose proof (incr_ge _ _ _ H2 Hin). lia.
Qed.

Lemma incr_uniq lo l e e' : incr lo l -> In e l -> In e' l -> e_iid e = e_iid e' -> e = e'.
Proof. intros H. apply NoDup_map_uniq. exact (incr_NoDup lo l H). Qed.

Lemma incr_filter f lo l : incr lo l -> incr lo (filter f l).
Proof.
  revert lo; induction l as [|x r IH]; intros lo H; cbn; [exact I|].
  cbn in H. destruct H as [H1 H2]. destruct (f x).
  - cbn. split; [exact H1|apply IH; exact H2].
  - eapply incr_weaken; [|apply IH; exact H2]. lia.
Qed.

Lemma find_name_self reg e : NoDup (map e_name reg) -> In e reg -> find_name (e_name e) reg = Some e.
Proof. apply find_key_self. Qed.

Lemma find_iid_self lo reg e : incr lo reg -> In e reg -> find_iid (e_iid e) reg = Some e.
Proof. intros Hi. apply find_key_self. exact (incr_NoDup lo reg Hi). Qed.

(* once next_item is set the loop only looks for the name *)
Lemma reg_scan_found fx name len l i ret nxt : nxt <> len ->
  reg_scan fx name len l i ret nxt = match find_name name l with Some _ => None | None => Some (ret, nxt) end.
Proof.
  intros Hne. apply Nat.eqb_neq in Hne.
  revert i; induction l as [|e l IH]; intros i; cbn [reg_scan find_name find]; [reflexivity|].
  rewrite Hne. destruct (e_name e =? name); [reflexivity|apply IH].
Qed.

(* first index (counted from i) whose entry does not carry the id i, i+1, ... *)
Fixpoint mex (l : list entry) (i : nat) : nat :=
  match l with
  | [] => i
  | e :: r => if e_iid e =? i then mex r (S i) else i
  end.

Lemma mex_ge l i : i <= mex l i.
Proof. revert i; induction l as [|e r IH]; intros i; cbn; [lia|]. destruct (e_iid e =? i); [specialize (IH (S i)); lia|lia]. Qed.

Lemma mex_le l i : mex l i <= i + length l.
Proof. revert i; induction l as [|e r IH]; intros i; cbn; [lia|]. destruct (e_iid e =? i); [specialize (IH (S i)); lia|lia]. Qed.

(* the repaired loop: the new id and the insertion index are both the first hole *)
Lemma reg_scan_fixed name len l i : i + length l = len ->
  reg_scan true name len l i i len =
  match find_name name l with Some _ => None | None => Some (mex l i, mex l i) end.
Proof.
  revert i; induction l as [|e l IH]; intros i Hlen; cbn [reg_scan find_name find mex]; cbn [length] in Hlen.
  { replace len with i by lia. reflexivity. }
  rewrite Nat.eqb_refl. destruct (e_iid e =? i); (destruct (e_name e =? name); [reflexivity|]).
  - apply IH. lia.
  - apply reg_scan_found. lia.
Qed.

Lemma mex_insert_incr l i x : incr i l -> e_iid x = mex l i -> incr i (insert_before l (mex l i - i) x).
Proof.
  revert i; induction l as [|a r IH]; intros i H Hx.
  - cbn [mex] in *. unfold insert_before. rewrite firstn_nil, skipn_nil. cbn. split; [lia|exact I].
  - cbn in H. destruct H as [H1 H2]. cbn [mex] in *.
    destruct (e_iid a =? i) eqn:E.
    + apply Nat.eqb_eq in E. pose proof (mex_ge r (S i)).
      replace (mex r (S i) - i) with (S (mex r (S i) - S i)) by lia.
      rewrite insert_before_cons. cbn [incr]. split; [lia|].
      rewrite E. apply IH; [now rewrite <- E|exact Hx].
    + apply Nat.eqb_neq in E. rewrite Nat.sub_diag. unfold insert_before. cbn [firstn skipn app incr].
      split; [lia|]. split; [lia|exact H2].
Qed.

(* were e's id the first hole, a copy of e could go there and the list stay sorted, with that id twice *)
Lemma mex_fresh l i e : incr i l -> In e l -> e_iid e <> mex l i.
Proof.
  intros H Hin Heq. apply (mex_insert_incr l i e H), incr_NoDup, NoDup_map_insert in Heq.
  apply (proj2 Heq). now apply in_map.
Qed.

(* inserting an entry with a new name: that name finds it, the others find what they found *)
Lemma find_name_insert reg k x m : find_name (e_name x) reg = None ->
  find_name m (insert_before reg k x) = if m =? e_name x then Some x else find_name m reg.
Proof.
  unfold find_name, insert_before. generalize (firstn_skipn k reg). generalize (firstn k reg), (skipn k reg).
  intros l1 l2 <-. rewrite !find_app. cbn [find]. intros Hx.
  rewrite (Nat.eqb_sym (e_name x) m). destruct (m =? e_name x) eqn:E; [|reflexivity].
  apply Nat.eqb_eq in E. subst m. destruct (find _ l1); [discriminate|reflexivity].
Qed.

(* on a sorted registry with distinct names: a live name is refused, a new one gets the
   first free id and its entry goes where that id belongs *)
Lemma register_spec n cb ctor dtor reg maxp r reg' maxp' :
  incr 0 reg -> NoDup (map e_name reg) ->
  register true n cb ctor dtor reg maxp = (r, reg', maxp') ->
  incr 0 reg' /\ NoDup (map e_name reg') /\
  match r with
  | None => find_name n reg <> None /\ reg' = reg /\ maxp' = maxp
  | Some i => find_name n reg = None /\ (forall e, In e reg -> e_iid e <> i) /\
              reg' = insert_before reg i {| e_iid := i; e_name := n; e_cb := cb; e_ctor := ctor; e_dtor := dtor |} /\
              maxp' = Nat.max maxp (S i)
  end.
Proof.
  intros Hi Hn H. unfold register in H. rewrite reg_scan_fixed in H by lia.
  destruct (find_name n reg) as [e0|] eqn:F.
  - inversion H; subst. repeat split; try assumption. discriminate.
  - inversion H; subst; clear H.
    set (x := {| e_iid := mex reg 0; e_name := n; e_cb := cb; e_ctor := ctor; e_dtor := dtor |}).
    split; [|split].
    + pose proof (mex_insert_incr reg 0 x Hi eq_refl) as Hins. now rewrite Nat.sub_0_r in Hins.
    + apply NoDup_map_insert. split; [exact Hn|]. intros Hin. apply in_map_iff in Hin. destruct Hin as (y & Hy & Hin).
      apply (find_none _ _ F) in Hin. cbn in Hin, Hy. rewrite Hy, Nat.eqb_refl in Hin. discriminate.
    + repeat split. intros e He. now apply mex_fresh.
Qed.

Definition has_iid (i : nat) (e : entry) : bool := e_iid e =? i.
Definition remove_iid (i : nat) (l : list entry) : list entry := filter (fun e => negb (has_iid i e)) l.

(* on a list without duplicate ids both variants of the loop (break / go on)
   remove the matching entry, and the running maximum bounds what remains *)
Lemma unreg_scan_nodup iid b l mx : NoDup (map e_iid l) ->
  let '(f, r, m) := unreg_scan iid b l mx in
  f = filter (has_iid iid) l /\ r = remove_iid iid l /\
  (b = true -> mx <= m /\ forall e, In e r -> e_iid e < m).
Proof.
  revert mx; induction l as [|e l IH]; intros mx Hd; cbn [unreg_scan].
  - cbn. repeat split; try reflexivity; try lia.
  - cbn [map] in Hd. inversion Hd as [|? ? Hn Hdl]; subst.
    unfold remove_iid. cbn [filter]. change (has_iid iid e) with (e_iid e =? iid). destruct (e_iid e =? iid) eqn:E.
    + apply Nat.eqb_eq in E. cbn [negb].
      assert (Hno : forall x, In x l -> has_iid iid x = false).
      { intros x Hx. unfold has_iid. apply Nat.eqb_neq. intros Hc. apply Hn. rewrite E, <- Hc. now apply in_map. }
      destruct b.
      * specialize (IH mx Hdl). destruct (unreg_scan iid true l mx) as [[f r] m].
        destruct IH as (Hf & Hr & Hm). split; [now rewrite Hf|]. split; [exact Hr|exact Hm].
      * split; [now rewrite (filter_none _ _ Hno)|]. split; [|discriminate].
        symmetry. apply filter_all. intros x Hx. now rewrite (Hno x Hx).
    + cbn [negb]. specialize (IH (Nat.max mx (S (e_iid e))) Hdl).
      destruct (unreg_scan iid b l (Nat.max mx (S (e_iid e)))) as [[f r] m].
      destruct IH as (Hf & Hr & Hm). split; [exact Hf|]. split; [now rewrite Hr|].
      intros Hb. specialize (Hm Hb). destruct Hm as [Hm1 Hm2]. split; [lia|].
      intros x [<-|Hx]; [lia|now apply Hm2].
Qed.

Lemma unregister_nodup fx i s : NoDup (map e_iid (s_reg s)) ->
  exists mp',
    unregister fx i s =
      ({| s_reg := remove_iid i (s_reg s); s_maxp := mp';
          s_arrs := fst (unreg_found (fx_unreg fx) i (filter (has_iid i) (s_reg s)) (s_arrs s));
          s_cl := s_cl s |},
       match filter (has_iid i) (s_reg s) with [] => None | _ => Some i end,
       snd (unreg_found (fx_unreg fx) i (filter (has_iid i) (s_reg s)) (s_arrs s))) /\
    ((forall e, In e (s_reg s) -> e_iid e < s_maxp s) ->
     forall e, In e (remove_iid i (s_reg s)) -> e_iid e < mp').
Proof.
  intros Hd. unfold unregister.
  pose proof (unreg_scan_nodup i (S i =? s_maxp s) (s_reg s) 0 Hd) as Hsc.
  destruct (unreg_scan i (S i =? s_maxp s) (s_reg s) 0) as [[f r] m].
  destruct Hsc as (Hf & Hr & Hm). subst f r.
  destruct (unreg_found (fx_unreg fx) i (filter (has_iid i) (s_reg s)) (s_arrs s)) as [arrs' ev].
  exists (if S i =? s_maxp s then m else s_maxp s). split; [reflexivity|].
  intros Hmax e He. destruct (S i =? s_maxp s).
  - now apply Hm.
  - apply Hmax. unfold remove_iid in He. apply filter_In in He. tauto.
Qed.

Lemma filter_has_iid_one lo reg e : incr lo reg -> In e reg -> filter (has_iid (e_iid e)) reg = [e].
Proof.
  revert lo; induction reg as [|x r IH]; intros lo Hi Hin; [destruct Hin|].
  cbn in Hi. destruct Hi as [H1 H2]. cbn [filter]. unfold has_iid at 1.
  destruct Hin as [->|Hin].
  - rewrite Nat.eqb_refl. f_equal. apply filter_none. intros y Hy. unfold has_iid. apply Nat.eqb_neq.
    pose proof (incr_ge _ _ _ H2 Hy). lia.
  - pose proof (incr_ge _ _ _ H2 Hin). destruct (e_iid x =? e_iid e) eqn:E; [apply Nat.eqb_eq in E; lia|].
    eapply IH; eauto.
Qed.

Lemma unreg_found_one c i e arrs : unreg_found c i [e] arrs = unreg_arrs (e_dtor e) c i arrs.
Proof. cbn [unreg_found]. destruct (unreg_arrs (e_dtor e) c i arrs). now rewrite app_nil_r. Qed.

(* removing the entry e: its name finds nothing, the others find what they found *)
Lemma find_name_remove lo reg e m : incr lo reg -> NoDup (map e_name reg) -> In e reg ->
  find_name m (remove_iid (e_iid e) reg) = if m =? e_name e then None else find_name m reg.
Proof.
  intros Hi Hn He. unfold find_name, remove_iid. destruct (m =? e_name e) eqn:E.
  - apply Nat.eqb_eq in E. subst m. destruct (find _ (filter _ reg)) as [y|] eqn:F; [|reflexivity].
    apply find_some in F. destruct F as [Hy Hname]. apply filter_In in Hy. destruct Hy as [Hy Hid].
    apply Nat.eqb_eq in Hname. rewrite (NoDup_map_uniq e_name reg y e Hn Hy He Hname) in Hid.
    unfold has_iid in Hid. rewrite Nat.eqb_refl in Hid. discriminate.
  - apply find_filter_same. intros x Hx Hg. apply Bool.negb_false_iff, Nat.eqb_eq in Hg.
    rewrite (incr_uniq _ _ _ _ Hi Hx He Hg). now rewrite Nat.eqb_sym.
Qed.

Lemma cl_find_remove n m cl : cl_find m (cl_remove n cl) = if m =? n then None else cl_find m cl.
Proof.
  unfold cl_remove. induction cl as [|[k i] cl IH]; cbn; [now destruct (m =? n)|].
  destruct (k =? n) eqn:E1; cbn.
  - apply Nat.eqb_eq in E1. subst k. rewrite IH. destruct (m =? n) eqn:E2; [reflexivity|].
    rewrite Nat.eqb_sym, E2. reflexivity.
  - destruct (k =? m) eqn:E3.
    + apply Nat.eqb_eq in E3. subst k. now rewrite E1.
    + exact IH.
Qed.

Lemma cl_find_in n i cl : cl_find n cl = Some i -> In (n, i) cl.
Proof.
  induction cl as [|[k j] cl IH]; cbn; [discriminate|].
  destruct (k =? n) eqn:E; intros H.
  - apply Nat.eqb_eq in E. inversion H. subst. now left.
  - right. now apply IH.
Qed.

Lemma cl_holds_false i cl n j : cl_holds i cl = false -> cl_find n cl = Some j -> j <> i.
Proof.
  intros Hh Hf. apply cl_find_in in Hf. unfold cl_holds in Hh.
  intros ->. assert (existsb (fun p => snd p =? i) cl = true); [|congruence].
  apply existsb_exists. exists (n, i). split; [exact Hf|]. cbn. apply Nat.eqb_refl.
Qed.

(* invariant of the registry under the repaired insertion rule *)
Record RegInv (s : st) : Prop := {
  ri_incr : incr 0 (s_reg s);
  ri_names : NoDup (map e_name (s_reg s));
  ri_max : forall e, In e (s_reg s) -> e_iid e < s_maxp s;
  ri_cl : forall n, cl_find n (s_cl s) = option_map e_iid (find_name n (s_reg s))
}.

(* what the client holds is a live entry, and conversely *)
Lemma held_entry s n i : RegInv s -> cl_find n (s_cl s) = Some i ->
  exists e, In e (s_reg s) /\ e_name e = n /\ e_iid e = i /\ find_name n (s_reg s) = Some e.
Proof.
  intros [_ _ _ Hcl] H. rewrite Hcl in H.
  destruct (find_name n (s_reg s)) as [e|] eqn:F; [|discriminate].
  cbn in H. inversion H. exists e. unfold find_name in F. apply find_some in F as F'. destruct F' as [Hin Hn].
  apply Nat.eqb_eq in Hn. auto.
Qed.

Lemma entry_held s e : RegInv s -> In e (s_reg s) -> cl_find (e_name e) (s_cl s) = Some (e_iid e).
Proof. intros [_ Hn _ Hcl] Hin. rewrite Hcl, (find_name_self _ _ Hn Hin). reflexivity. Qed.

Lemma init_RegInv : RegInv init.
Proof. constructor; cbn; try constructor; intros; try contradiction; reflexivity. Qed.

Lemma register_RegInv s n cb ctor dtor r reg' maxp' :
  RegInv s -> register true n cb ctor dtor (s_reg s) (s_maxp s) = (r, reg', maxp') ->
  RegInv {| s_reg := reg'; s_maxp := maxp'; s_arrs := s_arrs s;
            s_cl := match r with Some i => (n, i) :: s_cl s | None => s_cl s end |}.
Proof.
  intros [Hi Hn Hm Hcl] H. destruct (register_spec _ _ _ _ _ _ _ _ _ Hi Hn H) as (Hi' & Hn' & Hr).
  destruct r as [i|].
  - destruct Hr as (F & _ & -> & ->). constructor; cbn [s_reg s_maxp s_cl]; try assumption.
    + intros e He. apply insert_before_in in He. destruct He as [->|He]; [cbn; lia|].
      specialize (Hm e He). lia.
    + intros m. rewrite find_name_insert by exact F. cbn [cl_find e_name]. rewrite Nat.eqb_sym.
      destruct (m =? n); [reflexivity|apply Hcl].
  - destruct Hr as (_ & -> & ->). constructor; assumption.
Qed.

Lemma register_result s n cb ctor dtor r reg' maxp' :
  RegInv s -> register true n cb ctor dtor (s_reg s) (s_maxp s) = (r, reg', maxp') ->
  match r with
  | None => find_name n (s_reg s) <> None /\ reg' = s_reg s /\ maxp' = s_maxp s
  | Some i => find_name n (s_reg s) = None /\ (forall e, In e (s_reg s) -> e_iid e <> i) /\
              (forall e, In e reg' <-> (e = {| e_iid := i; e_name := n; e_cb := cb; e_ctor := ctor; e_dtor := dtor |}
                                        \/ In e (s_reg s)))
  end.
Proof.
  intros [Hi Hn _ _] H. destruct (register_spec _ _ _ _ _ _ _ _ _ Hi Hn H) as (_ & _ & Hr).
  destruct r as [i|]; [|exact Hr]. destruct Hr as (F & Hfresh & -> & _).
  split; [exact F|]. split; [exact Hfresh|]. intros e. apply insert_before_in.
Qed.

Lemma remove_iid_RegInv s e arrs' mp' :
  RegInv s -> In e (s_reg s) ->
  (forall x, In x (remove_iid (e_iid e) (s_reg s)) -> e_iid x < mp') ->
  RegInv {| s_reg := remove_iid (e_iid e) (s_reg s); s_maxp := mp'; s_arrs := arrs';
            s_cl := cl_remove (e_name e) (s_cl s) |}.
Proof.
  intros [Hi Hn Hm Hcl] Hin Hmax. constructor; cbn [s_reg s_maxp s_cl].
  - now apply incr_filter.
  - now apply NoDup_map_filter.
  - exact Hmax.
  - intros m. rewrite cl_find_remove, Hcl, (find_name_remove _ _ _ _ Hi Hn Hin).
    now destruct (m =? e_name e).
Qed.

(* unregistering the id held for a name removes that name's entry, nothing else, and runs
   the destructor loop once *)
Lemma step_unreg_held fx s n i : RegInv s -> cl_find n (s_cl s) = Some i ->
  exists e mp', In e (s_reg s) /\ e_name e = n /\ e_iid e = i /\
    (forall x, In x (remove_iid i (s_reg s)) -> e_iid x < mp') /\
    step fx s (Unreg n) =
      ({| s_reg := remove_iid i (s_reg s); s_maxp := mp';
          s_arrs := fst (unreg_arrs (e_dtor e) (fx_unreg fx) i (s_arrs s)); s_cl := cl_remove n (s_cl s) |},
       RUnreg (Some i) (snd (unreg_arrs (e_dtor e) (fx_unreg fx) i (s_arrs s)))).
Proof.
  intros Hinv C. destruct (held_entry _ _ _ Hinv C) as (e & Hin & Hen & Hei & _).
  destruct (unregister_nodup fx i s (incr_NoDup _ _ (ri_incr _ Hinv))) as (mp' & Hu & Hmax).
  exists e, mp'. split; [exact Hin|]. split; [exact Hen|]. split; [exact Hei|].
  split; [exact (Hmax (ri_max _ Hinv))|].
  cbn [step]. rewrite C, Hu. subst i.
  now rewrite (filter_has_iid_one _ _ _ (ri_incr _ Hinv) Hin), unreg_found_one.
Qed.

(* unregistering an id nobody holds finds no entry: only max_id may change *)
Lemma step_unregid_absent fx s i : RegInv s -> cl_holds i (s_cl s) = false ->
  exists mp', (forall e, In e (s_reg s) -> e_iid e < mp') /\
    step fx s (UnregId i) =
      ({| s_reg := s_reg s; s_maxp := mp'; s_arrs := s_arrs s; s_cl := s_cl s |}, RUnreg None []).
Proof.
  intros Hinv C.
  destruct (unregister_nodup fx i s (incr_NoDup _ _ (ri_incr _ Hinv))) as (mp' & Hu & Hmax).
  assert (Hno : forall e, In e (s_reg s) -> has_iid i e = false).
  { intros e He. apply Nat.eqb_neq. eapply cl_holds_false; [exact C|]. now apply entry_held. }
  assert (Hrem : remove_iid i (s_reg s) = s_reg s).
  { apply filter_all. intros x Hx. now rewrite (Hno x Hx). }
  rewrite (filter_none _ _ Hno), Hrem in Hu. rewrite Hrem in Hmax.
  exists mp'. split; [exact (Hmax (ri_max _ Hinv))|]. cbn [step]. now rewrite C, Hu.
Qed.

(* operations that leave the registry alone *)
Lemma with_slot_reg s a n k :
  (forall x i, s_reg (fst (k x i)) = s_reg s /\ s_maxp (fst (k x i)) = s_maxp s /\ s_cl (fst (k x i)) = s_cl s) ->
  s_reg (fst (with_slot s a n k)) = s_reg s /\ s_maxp (fst (with_slot s a n k)) = s_maxp s /\
  s_cl (fst (with_slot s a n k)) = s_cl s.
Proof.
  intros Hk. unfold with_slot.
  destruct (nth_error (s_arrs s) a) as [x|]; [|auto].
  destruct (a_alive x); [|auto].
  destruct (cl_find n (s_cl s)) as [i|]; [|auto].
  destruct (s_maxp s <=? i); [auto|apply Hk].
Qed.

Lemma step_array_reg fx s o :
  match o with Reg _ _ _ _ | Unreg _ | UnregId _ => False | _ => True end ->
  s_reg (fst (step fx s o)) = s_reg s /\ s_maxp (fst (step fx s o)) = s_maxp s /\
  s_cl (fst (step fx s o)) = s_cl s.
Proof.
  destruct o; intros []; cbn [step]; try (apply with_slot_reg; intros x i); auto.
  - destruct (nth_error (s_arrs s) a) as [x|]; [destruct (a_alive x)|]; auto.
  - destruct (negb _); [auto|].
    destruct (find_iid i (s_reg s)) as [e|]; [|auto].
    destruct (e_ctor e =? 0)%N; [auto|].
    destruct (ctorval (e_ctor e) (S a) =? 0)%N; [auto|].
    destruct (do_tas _ _ _ _); auto.
  - destruct (do_tas _ _ _ _); auto.
Qed.

Lemma RegInv_ext s s' : s_reg s' = s_reg s /\ s_maxp s' = s_maxp s /\ s_cl s' = s_cl s -> RegInv s -> RegInv s'.
Proof. intros (H1 & H2 & H3) [Hi Hn Hm Hcl]. constructor; rewrite ?H1, ?H2, ?H3; assumption. Qed.

(* every operation preserves the registry invariant when the insertion rule is repaired *)
Lemma step_RegInv fx s o : fx_reg fx = true -> RegInv s -> RegInv (fst (step fx s o)).
Proof.
  intros Hfx Hinv. destruct o as [n cb ctor dtor|n|i|n| |a|a n v|a n|a n v old].
  4-9: apply (RegInv_ext s); [apply step_array_reg; exact I|exact Hinv].
  - cbn [step]. rewrite Hfx.
    destruct (register true n cb ctor dtor (s_reg s) (s_maxp s)) as [[r reg'] maxp'] eqn:R.
    cbn [fst]. eapply register_RegInv; eauto.
  - destruct (cl_find n (s_cl s)) as [i|] eqn:C; [|cbn [step]; rewrite C; exact Hinv].
    destruct (step_unreg_held fx s n i Hinv C) as (e & mp' & Hin & <- & <- & Hmax & ->).
    now apply remove_iid_RegInv.
  - destruct (cl_holds i (s_cl s)) eqn:C; [cbn [step]; rewrite C; exact Hinv|].
    destruct (step_unregid_absent fx s i Hinv C) as (mp' & Hmax & ->).
    destruct Hinv. constructor; assumption.
Qed.

Lemma run_RegInv fx ops : fx_reg fx = true -> forall s, RegInv s -> RegInv (fst (run fx s ops)).
Proof.
  intros Hfx. induction ops as [|o ops IH]; intros s Hinv; cbn [run]; [exact Hinv|].
  pose proof (step_RegInv fx s o Hfx Hinv) as H1.
  destruct (step fx s o) as [s1 x]. cbn [fst] in H1.
  specialize (IH s1 H1). destruct (run fx s1 ops) as [s2 xs]. cbn [fst] in IH.
  destruct x; cbn [fst]; assumption.
Qed.
