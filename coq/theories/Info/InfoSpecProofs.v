(* C41 — the repaired model refines the dictionary specification: for every
   operation sequence the results (identifiers erased) are those of
   [spec_run]; in particular get returns the last value set / test-and-set /
   constructed for that (array, name), whatever registrations, registry growth,
   array growth and operations on other names happened in between. *)
From PV Require Import Base.Tac Base.ListX Info.InfoDefs Info.InfoRegProofs Info.InfoConcDefs Info.InfoConcProofs.
From Coq Require Import NArith.
Local Open Scope nat_scope.

(* the update of a slot is the list update of the concurrent model, whose lemmas apply *)
Lemma upd_nth_set_nth l i v : upd_nth l i v = set_nth l i v.
Proof. revert i; induction l as [|x l IH]; intros [|i]; cbn; [reflexivity..|]. now rewrite IH. Qed.

Lemma nth_repeat0 m j : nth j (repeat 0%N m) 0%N = 0%N.
Proof. revert j; induction m as [|m IH]; intros [|j]; cbn; auto. Qed.

Lemma nth_app_zeros l m j : nth j (l ++ repeat 0%N m) 0%N = nth j l 0%N.
Proof.
  revert j; induction l as [|x l IH]; intros j; cbn [app].
  - rewrite nth_repeat0. now destruct j.
  - destruct j; cbn; auto.
Qed.

Lemma memset0_app l r nb : memset0 (l ++ r) (length l) nb = l ++ memset0 r 0 nb.
Proof. induction l as [|x l IH]; cbn [app length memset0]; [reflexivity|]. now rewrite IH. Qed.

Lemma clear_low_8 v : clear_low 8 v = 0%N.
Proof. reflexivity. Qed.

Lemma memset0_repeat v m : memset0 (repeat v m) 0 (8 * m) = repeat 0%N m.
Proof.
  induction m as [|m IH]; [reflexivity|].
  cbn [repeat memset0]. replace (Nat.min 8 (8 * S m)) with 8 by lia.
  rewrite clear_low_8. replace (8 * S m - 8) with (8 * m) by lia. now rewrite IH.
Qed.

(* the repaired resize is invisible through [nth _ _ 0] and makes room for iid *)
Lemma resize_fixed maxp x i : length (a_slots x) = a_known x -> i < maxp ->
  a_alive (resize true maxp x i) = a_alive x /\
  length (a_slots (resize true maxp x i)) = a_known (resize true maxp x i) /\
  i < a_known (resize true maxp x i) /\
  forall j, nth j (a_slots (resize true maxp x i)) 0%N = nth j (a_slots x) 0%N.
Proof.
  intros Hlen Hi. unfold resize. destruct (a_known x <=? i) eqn:E.
  - apply Nat.leb_le in E. cbn [a_alive a_known a_slots]. split; [reflexivity|].
    destruct (0 <? a_known x) eqn:E0.
    + unfold realloc. rewrite firstn_all2 by lia. rewrite Hlen.
      pose proof (memset0_app (a_slots x) (repeat POISON (maxp - a_known x)) (8 * (maxp - a_known x))) as Hm.
      rewrite Hlen, memset0_repeat in Hm. rewrite Hm.
      split; [rewrite app_length, repeat_length; lia|]. split; [exact Hi|].
      intros j. apply nth_app_zeros.
    + apply Nat.ltb_ge in E0. assert (Hnil : a_slots x = []) by (destruct (a_slots x); [reflexivity|cbn in Hlen; lia]).
      split; [apply repeat_length|]. split; [exact Hi|].
      intros j. rewrite Hnil, nth_repeat0. now destruct j.
  - apply Nat.leb_gt in E. repeat split; auto.
Qed.

Lemma resize_noop fx maxp x i : i < a_known x -> resize fx maxp x i = x.
Proof. intros H. unfold resize. apply Nat.leb_gt in H. now rewrite H. Qed.

Lemma nth_error_lt {A} (l : list A) a x : nth_error l a = Some x -> a < length l.
Proof. intros H. apply nth_error_Some. congruence. Qed.

Definition attrs (e : entry) : N * N * bool := (e_cb e, e_ctor e, e_dtor e).

(* array x against its row of the dictionary: at the id of each registered name it holds
   what the row holds for that name, and NULL at every free id *)
Record ARel (reg : list entry) (alive : bool) (row : nat -> N) (x : ioa) : Prop := {
  ar_alive : alive = a_alive x;
  ar_len : length (a_slots x) = a_known x;
  ar_val : forall e, a_alive x = true -> In e reg -> row (e_name e) = nth (e_iid e) (a_slots x) 0%N;
  ar_free : forall i, a_alive x = true -> (forall e, In e reg -> e_iid e <> i) -> nth i (a_slots x) 0%N = 0%N
}.

Record Rel (s : st) (p : spec) : Prop := {
  rl_info : forall n, p_info p n = option_map attrs (find_name n (s_reg s));
  rl_narr : p_narr p = length (s_arrs s);
  rl_arr : forall a x, nth_error (s_arrs s) a = Some x -> ARel (s_reg s) (p_alive p a) (p_val p a) x;
  rl_none : forall a n, p_info p n = None -> p_val p a n = 0%N
}.

Lemma init_Rel : Rel init spec_init.
Proof.
  constructor; cbn; try reflexivity; intros; try (destruct a; discriminate); reflexivity.
Qed.

(* array a is replaced; the dictionary changes only on that array *)
Lemma Rel_replace s p a x y f :
  Rel s p -> nth_error (s_arrs s) a = Some x -> ARel (s_reg s) (p_alive p a) (f a) y ->
  (forall b m, b <> a -> f b m = p_val p b m) ->
  (forall m, p_info p m = None -> f a m = 0%N) ->
  Rel (set_arr s a y) (with_val p f).
Proof.
  intros [Hinfo Hnarr Harr Hnone] Hx Hy Hother Hfn.
  constructor; cbn [set_arr with_val s_reg s_arrs p_info p_narr p_alive p_val].
  - exact Hinfo.
  - rewrite Hnarr. symmetry. exact (len_upd _ _ _ _ Hx).
  - intros b z Hz. destruct (nth_upd_inv _ _ _ _ _ _ Hx Hz) as [[-> ->]|[Hb Hz']]; [exact Hy|].
    destruct (Harr b z Hz') as [H1 H2 H3 H4]. constructor; try assumption.
    intros e. rewrite Hother by exact Hb. apply H3.
  - intros b m Hm. destruct (Nat.eq_dec b a) as [->|Hne]; [now apply Hfn|].
    rewrite Hother by exact Hne. now apply Hnone.
Qed.

(* the guards of with_slot / spec_slot agree *)
Lemma arr_guard s p a : Rel s p ->
  (a <? p_narr p) && p_alive p a = match nth_error (s_arrs s) a with Some x => a_alive x | None => false end.
Proof.
  intros Hrel. rewrite (rl_narr _ _ Hrel). destruct (nth_error (s_arrs s) a) as [x|] eqn:Hx.
  - rewrite (ar_alive _ _ _ _ (rl_arr _ _ Hrel _ _ Hx)), (proj2 (Nat.ltb_lt _ _) (nth_error_lt _ _ _ Hx)). reflexivity.
  - apply nth_error_None in Hx. rewrite (proj2 (Nat.ltb_ge _ _) Hx). reflexivity.
Qed.

(* names and ids of the entries are in one-to-one relation *)
Lemma name_iid_eqb s e e' : RegInv s -> In e (s_reg s) -> In e' (s_reg s) ->
  (e_name e' =? e_name e) = (e_iid e' =? e_iid e).
Proof.
  intros Hinv He He'. destruct (e_iid e' =? e_iid e) eqn:E.
  - apply Nat.eqb_eq in E. now rewrite (incr_uniq _ _ _ _ (ri_incr _ Hinv) He' He E), Nat.eqb_refl.
  - apply Nat.eqb_neq. intros Hn. apply (NoDup_map_uniq e_name _ _ _ (ri_names _ Hinv) He' He) in Hn.
    subst e'. now rewrite Nat.eqb_refl in E.
Qed.

(* writing v into the slot of e on a resized copy of array a *)
Lemma Rel_write s p a x e sl kn v :
  RegInv s -> Rel s p -> nth_error (s_arrs s) a = Some x -> a_alive x = true -> In e (s_reg s) ->
  kn = length sl -> e_iid e < length sl -> (forall j, nth j sl 0%N = nth j (a_slots x) 0%N) ->
  Rel (set_arr s a {| a_alive := true; a_known := kn; a_slots := upd_nth sl (e_iid e) v |})
      (with_val p (upd2 (p_val p) a (e_name e) v)).
Proof.
  intros Hinv Hrel Hx Hxa He Hkn Hlt Hsame.
  destruct (rl_arr _ _ Hrel _ _ Hx) as [Hal _ Hval Hfree].
  eapply Rel_replace; eauto.
  - constructor; cbn [a_alive a_known a_slots]; rewrite ?upd_nth_set_nth.
    + congruence.
    + rewrite set_nth_length. now symmetry.
    + intros e' _ He'. unfold upd2. rewrite Nat.eqb_refl. cbn [andb].
      rewrite nth_set_nth by exact Hlt. rewrite (name_iid_eqb s e e' Hinv He He').
      destruct (e_iid e' =? e_iid e); [reflexivity|]. rewrite Hsame. now apply Hval.
    + intros i _ Hi. rewrite nth_set_nth by exact Hlt. destruct (i =? e_iid e) eqn:E.
      * apply Nat.eqb_eq in E. exfalso. eapply Hi; eauto.
      * rewrite Hsame. now apply Hfree.
  - intros b m Hb. unfold upd2. apply Nat.eqb_neq in Hb. now rewrite Hb.
  - intros m Hm. unfold upd2. rewrite Nat.eqb_refl. cbn [andb].
    destruct (m =? e_name e) eqn:E; [|now apply (rl_none _ _ Hrel)].
    apply Nat.eqb_eq in E. subst m. rewrite (rl_info _ _ Hrel), (find_name_self _ _ (ri_names _ Hinv) He) in Hm.
    discriminate.
Qed.

(* array a replaced by a copy with the same content *)
Lemma Rel_same s p a x y :
  Rel s p -> nth_error (s_arrs s) a = Some x -> a_alive x = true -> a_alive y = true ->
  length (a_slots y) = a_known y -> (forall j, nth j (a_slots y) 0%N = nth j (a_slots x) 0%N) ->
  Rel (set_arr s a y) p.
Proof.
  intros Hrel Hx Hxa Hya Hyl Hsame.
  destruct (rl_arr _ _ Hrel _ _ Hx) as [Hal _ Hval Hfree].
  assert (Hp : p = with_val p (p_val p)) by (destruct p; reflexivity).
  rewrite Hp. eapply Rel_replace; eauto.
  - constructor; [congruence|exact Hyl| |].
    + intros e _ He. rewrite Hsame. now apply Hval.
    + intros i _ Hi. rewrite Hsame. now apply Hfree.
  - intros m Hm. now apply (rl_none _ _ Hrel).
Qed.

Lemma unreg_arrs_fst dtor c i arrs :
  fst (unreg_arrs dtor c i arrs) = map (fun x => fst (unreg_ioa dtor c i x)) arrs.
Proof.
  induction arrs as [|a r IH]; cbn [unreg_arrs map]; [reflexivity|].
  destruct (unreg_arrs dtor c i r) as [r' ev]. destruct (unreg_ioa dtor c i a) as [a' ev1].
  cbn [fst] in *. now rewrite IH.
Qed.

Lemma unreg_arrs_app dtor c i l r :
  snd (unreg_arrs dtor c i (l ++ r)) = snd (unreg_arrs dtor c i r) ++ snd (unreg_arrs dtor c i l).
Proof.
  induction l as [|a l IH]; cbn [app unreg_arrs].
  - destruct (unreg_arrs dtor c i r). cbn [snd]. now rewrite app_nil_r.
  - destruct (unreg_arrs dtor c i (l ++ r)), (unreg_arrs dtor c i l), (unreg_ioa dtor c i a).
    cbn [snd] in *. now rewrite IH, app_assoc.
Qed.

(* with the repair the slot of the freed id reads 0 afterwards, nothing else changes *)
Lemma unreg_ioa_fixed dtor i x : length (a_slots x) = a_known x ->
  let y := fst (unreg_ioa dtor true i x) in
  a_alive y = a_alive x /\ length (a_slots y) = a_known y /\
  forall j, nth j (a_slots y) 0%N = if (j =? i) && a_alive x then 0%N else nth j (a_slots x) 0%N.
Proof.
  intros Hlen. unfold unreg_ioa. rewrite Bool.orb_true_r, Bool.andb_true_r.
  destruct (a_alive x) eqn:Hal; cbn [andb].
  - destruct (i <? a_known x) eqn:E1; cbn [andb].
    + apply Nat.ltb_lt in E1. destruct (nth i (a_slots x) 0 =? 0)%N eqn:E2; cbn [negb fst].
      * apply N.eqb_eq in E2. repeat split; auto. intros j. rewrite Bool.andb_true_r.
        destruct (j =? i) eqn:E; [apply Nat.eqb_eq in E; now subst j|reflexivity].
      * cbn [a_alive a_known a_slots]. split; [reflexivity|]. rewrite upd_nth_set_nth. split; [now rewrite set_nth_length|].
        intros j. rewrite Bool.andb_true_r. apply nth_set_nth. lia.
    + cbn [fst]. apply Nat.ltb_ge in E1. repeat split; auto. intros j. rewrite Bool.andb_true_r.
      destruct (j =? i) eqn:E; [|reflexivity]. apply Nat.eqb_eq in E. subst j. apply nth_overflow. lia.
  - cbn [fst]. repeat split; auto. intros j. now rewrite Bool.andb_false_r.
Qed.

(* the destructor calls over the arrays are those of the dictionary, the most recent array first *)
Lemma unreg_arrs_events p reg e arrs : In e reg ->
  (forall a x, nth_error arrs a = Some x -> ARel reg (p_alive p a) (p_val p a) x) ->
  snd (unreg_arrs (e_dtor e) true (e_iid e) arrs) =
  if e_dtor e then spec_destroyed p (e_name e) (length arrs) else [].
Proof.
  intros He. induction arrs as [|y l IH] using rev_ind; intros H; [now destruct (e_dtor e)|].
  rewrite unreg_arrs_app, app_length, Nat.add_1_r, IH.
  2:{ intros a x Hx. apply H. rewrite nth_error_app1; [exact Hx|]. apply nth_error_Some. congruence. }
  destruct (H (length l) y) as [Hal Hlen Hv _].
  { now rewrite nth_error_app2, Nat.sub_diag by lia. }
  cbn [unreg_arrs spec_destroyed]. unfold unreg_ioa. rewrite Bool.orb_true_r, Bool.andb_true_r, Hal.
  destruct (a_alive y); cbn [andb]; [|now destruct (e_dtor e)].
  rewrite (Hv e eq_refl He). destruct (e_iid e <? a_known y) eqn:E1; cbn [andb].
  - destruct (negb _); now destruct (e_dtor e).
  - (* a slot the array does not have reads NULL *)
    apply Nat.ltb_ge in E1. rewrite nth_overflow by lia. now destruct (e_dtor e).
Qed.

Definition sim_step (s : st) (p : spec) (o : op) : Prop :=
  Rel (fst (step all_fixed s o)) (fst (spec_step p o)) /\
  erase o (snd (step all_fixed s o)) = snd (spec_step p o) /\
  snd (step all_fixed s o) <> RCrash.

Lemma sim_reg s p n cb ctor dtor : RegInv s -> Rel s p -> sim_step s p (Reg n cb ctor dtor).
Proof.
  intros Hinv Hrel. unfold sim_step. cbn [step spec_step all_fixed fx_reg].
  destruct (register true n cb ctor dtor (s_reg s) (s_maxp s)) as [[r reg'] maxp'] eqn:R.
  destruct (register_spec _ _ _ _ _ _ _ _ _ (ri_incr _ Hinv) (ri_names _ Hinv) R) as (_ & _ & Hr).
  assert (Hpn : p_info p n = option_map attrs (find_name n (s_reg s))) by apply (rl_info _ _ Hrel).
  rewrite Hpn. destruct r as [i|].
  - destruct Hr as (F & Hfresh & -> & _). rewrite F in *. cbn [option_map fst snd erase].
    split; [|split; [reflexivity|discriminate]].
    destruct Hrel as [Hinfo Hnarr Harr Hnn].
    constructor; cbn [s_reg s_arrs p_info p_narr p_alive p_val]; try assumption.
    + intros m. rewrite find_name_insert by exact F. cbn [e_name]. destruct (m =? n); [reflexivity|apply Hinfo].
    + (* the slot of the new id was free: it reads NULL, as the new name does in the dictionary *)
      intros a y Hy. destruct (Harr a y Hy) as [Hal Hlen Hval Hfree]. constructor; try assumption.
      * intros e Hya He. apply insert_before_in in He. destruct He as [->|He]; [|now apply Hval].
        cbn [e_name e_iid]. rewrite (Hnn a n Hpn). symmetry. now apply Hfree.
      * intros j Hya Hj. apply Hfree; [exact Hya|]. intros e He. apply Hj. apply insert_before_in. now right.
    + intros a m. destruct (m =? n); [discriminate|apply Hnn].
  - destruct Hr as (F & -> & ->). destruct (find_name n (s_reg s)); [|contradiction]. cbn [option_map fst snd erase].
    split; [|split; [reflexivity|discriminate]]. destruct Hrel; constructor; assumption.
Qed.

Lemma sim_lookup s p n : RegInv s -> Rel s p -> sim_step s p (Lookup n).
Proof.
  intros Hinv Hrel. unfold sim_step. cbn [step spec_step fst snd]. split; [exact Hrel|]. split; [|discriminate].
  unfold lookup. rewrite (rl_info _ _ Hrel n). destruct (find_name n (s_reg s)) as [e|]; reflexivity.
Qed.

Lemma nth_error_snoc_inv {A} (l : list A) y a x : nth_error (l ++ [y]) a = Some x ->
  (nth_error l a = Some x /\ (a =? length l) = false) \/ ((a =? length l) = true /\ x = y).
Proof.
  intros H. destruct (Nat.lt_ge_cases a (length l)) as [Hlt|Hge].
  - left. rewrite nth_error_app1 in H by exact Hlt. split; [exact H|apply Nat.eqb_neq; lia].
  - right. rewrite nth_error_app2 in H by exact Hge. destruct (a - length l) as [|k] eqn:E; cbn in H.
    + inversion H. split; [apply Nat.eqb_eq; lia|reflexivity].
    + now destruct k.
Qed.

Lemma sim_newarr s p : RegInv s -> Rel s p -> sim_step s p NewArr.
Proof.
  intros Hinv [Hinfo Hnarr Harr Hnn]. unfold sim_step. cbn [step spec_step fst snd erase].
  split; [|split; [now rewrite Hnarr|discriminate]].
  constructor; cbn [s_reg s_arrs p_info p_narr p_alive p_val]; rewrite ?Hnarr.
  - exact Hinfo.
  - rewrite app_length. cbn. lia.
  - intros a x H. destruct (nth_error_snoc_inv _ _ _ _ H) as [[H1 ->]|[-> ->]]; [now apply Harr|].
    constructor; cbn [new_ioa a_alive a_known a_slots]; intros; rewrite ?nth_repeat0; auto using repeat_length.
  - intros a m Hm. destruct (a =? length (s_arrs s)); [reflexivity|]. now apply Hnn.
Qed.

Lemma sim_delarr s p a : RegInv s -> Rel s p -> sim_step s p (DelArr a).
Proof.
  intros Hinv Hrel. unfold sim_step. cbn [step spec_step]. rewrite (arr_guard s p a Hrel).
  destruct (nth_error (s_arrs s) a) as [x|] eqn:Hx; [|split; [exact Hrel|split; [reflexivity|discriminate]]].
  destruct (a_alive x) eqn:Hal; cbn [fst snd erase]; [|split; [exact Hrel|split; [reflexivity|discriminate]]].
  split; [|split; [reflexivity|discriminate]].
  destruct Hrel as [Hinfo Hnarr Harr Hnn].
  constructor; cbn [set_arr s_reg s_arrs p_info p_narr p_alive p_val].
  - exact Hinfo.
  - rewrite Hnarr. symmetry. exact (len_upd _ _ _ _ Hx).
  - intros b z Hz. destruct (nth_upd_inv _ _ _ _ _ _ Hx Hz) as [[-> ->]|[Hb Hz']].
    + rewrite Nat.eqb_refl. constructor; [reflexivity|reflexivity|discriminate|discriminate].
    + apply Nat.eqb_neq in Hb. rewrite Hb. now apply Harr.
  - exact Hnn.
Qed.

(* an operation on (array a, name n): both sides skip, or it runs on a live array x and on
   the entry e that the client holds for n *)
Lemma sim_slot s p o a n k k' : RegInv s -> Rel s p ->
  step all_fixed s o = with_slot s a n k -> spec_step p o = spec_slot p a n k' -> erase o RSkip = ESkip ->
  (forall x e, nth_error (s_arrs s) a = Some x -> a_alive x = true -> In e (s_reg s) -> e_name e = n ->
     e_iid e < s_maxp s ->
     Rel (fst (k x (e_iid e))) (fst (k' (attrs e))) /\ erase o (snd (k x (e_iid e))) = snd (k' (attrs e)) /\
     snd (k x (e_iid e)) <> RCrash) ->
  sim_step s p o.
Proof.
  intros Hinv Hrel Hstep Hspec Hskip Hk. unfold sim_step. rewrite Hstep, Hspec.
  assert (Hsk : Rel s p /\ erase o RSkip = ESkip /\ RSkip <> RCrash).
  { split; [exact Hrel|]. split; [exact Hskip|discriminate]. }
  unfold with_slot, spec_slot. rewrite (arr_guard s p a Hrel).
  destruct (nth_error (s_arrs s) a) as [x|] eqn:Hx; [|exact Hsk].
  destruct (a_alive x) eqn:Hal; [|exact Hsk].
  rewrite (rl_info _ _ Hrel n). destruct (cl_find n (s_cl s)) as [i|] eqn:C.
  - destruct (held_entry _ _ _ Hinv C) as (e & Hin & Hen & <- & ->).
    pose proof (ri_max _ Hinv e Hin) as Hlt. rewrite (proj2 (Nat.leb_gt _ _) Hlt). now apply Hk.
  - rewrite (ri_cl _ Hinv n) in C. destruct (find_name n (s_reg s)); [discriminate|exact Hsk].
Qed.

Lemma sim_set s p a n v : RegInv s -> Rel s p -> sim_step s p (SetV a n v).
Proof.
  intros Hinv Hrel. apply (sim_slot s p (SetV a n v) a n _ _ Hinv Hrel eq_refl eq_refl eq_refl).
  intros x e Hx Hxa He <- Hlt. cbn [all_fixed fx_ioa fst snd erase].
  destruct (rl_arr _ _ Hrel _ _ Hx) as [_ Hlen Hval _].
  destruct (resize_fixed (s_maxp s) x (e_iid e) Hlen Hlt) as (_ & Hl & Hi & Hsame).
  split; [|split; [|discriminate]].
  - eapply Rel_write; eauto. lia.
  - rewrite Hsame, (Hval e Hxa He). reflexivity.
Qed.

Lemma sim_tas s p a n v old : RegInv s -> Rel s p -> sim_step s p (Tas a n v old).
Proof.
  intros Hinv Hrel. apply (sim_slot s p (Tas a n v old) a n _ _ Hinv Hrel eq_refl eq_refl eq_refl).
  intros x e Hx Hxa He <- Hlt. cbn [all_fixed fx_ioa].
  destruct (rl_arr _ _ Hrel _ _ Hx) as [_ Hlen Hval _].
  destruct (resize_fixed (s_maxp s) x (e_iid e) Hlen Hlt) as (Hal & Hl & Hi & Hsame).
  unfold do_tas. rewrite Hsame, <- (Hval e Hxa He).
  destruct (p_val p a (e_name e) =? old)%N; cbn [fst snd erase].
  - split; [|split; [reflexivity|discriminate]]. eapply Rel_write; eauto. lia.
  - split; [|split; [reflexivity|discriminate]]. eapply Rel_same; eauto.
Qed.

Lemma sim_get s p a n : RegInv s -> Rel s p -> sim_step s p (GetV a n).
Proof.
  intros Hinv Hrel. apply (sim_slot s p (GetV a n) a n _ _ Hinv Hrel eq_refl eq_refl eq_refl).
  intros x e Hx Hxa He <- Hlt. cbn [all_fixed fx_ioa]. unfold attrs.
  destruct (rl_arr _ _ Hrel _ _ Hx) as [_ Hlen Hval _].
  destruct (resize_fixed (s_maxp s) x (e_iid e) Hlen Hlt) as (Hal & Hl & Hi & Hsame).
  rewrite Hsame, <- (Hval e Hxa He).
  assert (Hkeep : Rel (set_arr s a (resize true (s_maxp s) x (e_iid e))) p).
  { eapply Rel_same; eauto; congruence. }
  destruct (negb (p_val p a (e_name e) =? 0)%N) eqn:Ez; cbn [fst snd erase].
  { split; [exact Hkeep|split; [reflexivity|discriminate]]. }
  apply Bool.negb_false_iff, N.eqb_eq in Ez. rewrite Ez, (find_iid_self _ _ _ (ri_incr _ Hinv) He).
  destruct (e_ctor e =? 0)%N; cbn [fst snd erase].
  { split; [exact Hkeep|split; [reflexivity|discriminate]]. }
  destruct (ctorval (e_ctor e) (S a) =? 0)%N eqn:Ec; cbn [fst snd erase].
  { split; [exact Hkeep|split; [reflexivity|discriminate]]. }
  (* the slot is NULL: the test-and-set installs the constructed object *)
  rewrite (resize_noop _ _ _ _ Hi). unfold do_tas.
  rewrite Hsame, <- (Hval e Hxa He), Ez. cbn [N.eqb fst snd erase].
  rewrite N.eqb_refl. cbn [negb andb].
  split; [|split; [reflexivity|discriminate]].
  eapply Rel_write; eauto. lia.
Qed.

Lemma sim_unregid s p i : RegInv s -> Rel s p -> sim_step s p (UnregId i).
Proof.
  intros Hinv Hrel. unfold sim_step. destruct (cl_holds i (s_cl s)) eqn:C.
  { cbn [step]. rewrite C. split; [exact Hrel|split; [reflexivity|discriminate]]. }
  destruct (step_unregid_absent all_fixed s i Hinv C) as (mp' & _ & ->).
  split; [|split; [reflexivity|discriminate]]. destruct Hrel; constructor; assumption.
Qed.

Lemma sim_unreg s p n : RegInv s -> Rel s p -> sim_step s p (Unreg n).
Proof.
  intros Hinv Hrel. unfold sim_step. cbn [spec_step]. rewrite (rl_info _ _ Hrel n).
  destruct (cl_find n (s_cl s)) as [i|] eqn:C.
  2:{ cbn [step]. rewrite C. rewrite (ri_cl _ Hinv n) in C. destruct (find_name n (s_reg s)); [discriminate|].
      split; [exact Hrel|split; [reflexivity|discriminate]]. }
  destruct (step_unreg_held all_fixed s n i Hinv C) as (e & mp' & Hin & <- & <- & _ & ->).
  rewrite (find_name_self _ _ (ri_names _ Hinv) Hin). cbn [option_map attrs fst snd erase all_fixed fx_unreg].
  split; [|split; [f_equal|discriminate]].
  2:{ rewrite (rl_narr _ _ Hrel). exact (unreg_arrs_events p _ e _ Hin (rl_arr _ _ Hrel)). }
  destruct Hrel as [Hinfo Hnarr Harr Hnn].
  constructor; cbn [s_reg s_arrs p_info p_narr p_alive p_val].
  - intros m. rewrite (find_name_remove _ _ _ _ (ri_incr _ Hinv) (ri_names _ Hinv) Hin), Hinfo.
    now destruct (m =? e_name e).
  - rewrite unreg_arrs_fst, map_length. exact Hnarr.
  - (* every live array loses the slot of e and keeps the others *)
    intros a y Hy. rewrite unreg_arrs_fst, nth_error_map in Hy.
    destruct (nth_error (s_arrs s) a) as [x|] eqn:Hx; [|discriminate]. inversion Hy; subst y.
    destruct (Harr a x Hx) as [Hal Hlen Hval Hfree].
    destruct (unreg_ioa_fixed (e_dtor e) (e_iid e) x Hlen) as (Hal' & Hlen' & H3).
    constructor; [congruence|exact Hlen'| |]; rewrite Hal'; intros ? Hxa; rewrite H3, Hxa, Bool.andb_true_r.
    + intros He'. apply filter_In in He'. destruct He' as [He' Hne].
      apply Bool.negb_true_iff in Hne. unfold has_iid in Hne.
      rewrite (name_iid_eqb s e e0 Hinv Hin He'), Hne. now apply Hval.
    + intros Hi. destruct (i =? e_iid e) eqn:E; [reflexivity|]. apply Nat.eqb_neq in E.
      apply Hfree; [exact Hxa|]. intros e' He' Heq. apply (Hi e'); [|exact Heq]. apply filter_In. split; [exact He'|].
      apply Bool.negb_true_iff, Nat.eqb_neq. congruence.
  - intros a m. destruct (m =? e_name e); [reflexivity|]. apply Hnn.
Qed.

Lemma step_sim s p o : RegInv s -> Rel s p -> sim_step s p o.
Proof.
  intros Hinv Hrel. destruct o.
  - now apply sim_reg.
  - now apply sim_unreg.
  - now apply sim_unregid.
  - now apply sim_lookup.
  - now apply sim_newarr.
  - now apply sim_delarr.
  - now apply sim_set.
  - now apply sim_get.
  - now apply sim_tas.
Qed.

(* the specification state after a sequence *)
Fixpoint spec_exec (p : spec) (ops : list op) : spec :=
  match ops with [] => p | o :: r => spec_exec (fst (spec_step p o)) r end.

(* along a sequence the invariant and the relation are kept, and the results are those of the dictionary *)
Lemma run_refines ops : forall s p, RegInv s -> Rel s p ->
  (RegInv (fst (run all_fixed s ops)) /\ Rel (fst (run all_fixed s ops)) (spec_exec p ops)) /\
  erase_all ops (snd (run all_fixed s ops)) = spec_run p ops /\
  length (snd (run all_fixed s ops)) = length ops.
Proof.
  induction ops as [|o ops IH]; intros s p Hinv Hrel; cbn [run spec_run spec_exec erase_all];
    [split; [split; assumption|split; reflexivity]|].
  pose proof (step_sim s p o Hinv Hrel) as (H1 & H2 & H3).
  pose proof (step_RegInv all_fixed s o eq_refl Hinv) as H4.
  destruct (step all_fixed s o) as [s1 x]. destruct (spec_step p o) as [p1 ex]. cbn [fst snd] in *.
  specialize (IH s1 p1 H4 H1). destruct (run all_fixed s1 ops) as [s2 xs]. cbn [fst snd] in IH.
  destruct IH as (IH0 & IH1 & IH2).
  destruct x; try congruence; cbn [fst snd erase_all length]; rewrite IH1, IH2, H2;
    (split; [exact IH0|split; reflexivity]).
Qed.
