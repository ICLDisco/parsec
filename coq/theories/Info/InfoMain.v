(* C41 — what Properties_C41.v is assembled from: the registry invariant (InfoRegProofs)
   and the refinement (InfoSpecProofs) at every reached state, the longer consequences
   (P_*; the short ones are proved in Properties_C41.v itself), and the operation
   sequences on which each of the three rules of the unchanged code breaks a property. *)
From PV Require Import Base.Tac Info.InfoDefs Info.InfoRegProofs Info.InfoSpecProofs.
From Coq Require Import NArith.
Local Open Scope nat_scope.

Definition reached (fx : fixes) (ops : list op) : st := fst (run fx init ops).

Lemma reached_RegInv fx ops : fx_reg fx = true -> RegInv (reached fx ops).
Proof. intros H. apply run_RegInv; [exact H|apply init_RegInv]. Qed.

(* register: a fresh id for a new name, UNDEFINED for a live name *)
Lemma P_register fx s n cb ctor dtor : fx_reg fx = true -> RegInv s ->
  let s' := fst (step fx s (Reg n cb ctor dtor)) in
  match snd (step fx s (Reg n cb ctor dtor)) with
  | RReg (Some i) =>
      lookup n (s_reg s) = None /\ (forall e, In e (s_reg s) -> e_iid e <> i) /\
      lookup n (s_reg s') = Some (i, cb) /\ cl_find n (s_cl s') = Some i /\
      (forall m, m <> n -> lookup m (s_reg s') = lookup m (s_reg s))
  | RReg None => lookup n (s_reg s) <> None /\ s' = s
  | _ => False
  end.
Proof.
  intros Hfx Hinv s'. subst s'.
  cbn [step]. rewrite Hfx.
  destruct (register true n cb ctor dtor (s_reg s) (s_maxp s)) as [[r reg'] maxp'] eqn:R.
  destruct (register_spec _ _ _ _ _ _ _ _ _ (ri_incr _ Hinv) (ri_names _ Hinv) R) as (_ & _ & Hr).
  cbn [fst snd s_reg s_cl]. unfold lookup. destruct r as [i|].
  - destruct Hr as (F & Hfresh & -> & _). rewrite F. split; [reflexivity|]. split; [exact Hfresh|].
    rewrite find_name_insert by exact F. cbn [cl_find e_name e_iid e_cb]. rewrite Nat.eqb_refl.
    split; [reflexivity|]. split; [reflexivity|].
    intros m Hm. rewrite find_name_insert by exact F. apply Nat.eqb_neq in Hm. cbn [e_name]. now rewrite Hm.
  - destruct Hr as (F & -> & ->). split; [now destruct (find_name n (s_reg s))|]. now destruct s.
Qed.

(* unregister frees the identifier and only that one *)
Lemma P_unregister fx s n i : RegInv s ->
  cl_find n (s_cl s) = Some i ->
  let s' := fst (step fx s (Unreg n)) in
  (exists ev, snd (step fx s (Unreg n)) = RUnreg (Some i) ev) /\
  lookup n (s_reg s') = None /\ cl_find n (s_cl s') = None /\
  (forall e, In e (s_reg s') -> e_iid e <> i) /\
  (forall m, m <> n -> lookup m (s_reg s') = lookup m (s_reg s)).
Proof.
  intros Hinv C s'. subst s'.
  destruct (step_unreg_held fx s n i Hinv C) as (e & mp' & Hin & <- & <- & _ & ->).
  cbn [fst snd s_reg s_cl]. unfold lookup.
  split; [eexists; reflexivity|]. split; [|split; [|split]].
  - now rewrite (find_name_remove _ _ _ _ (ri_incr _ Hinv) (ri_names _ Hinv) Hin), Nat.eqb_refl.
  - now rewrite cl_find_remove, Nat.eqb_refl.
  - intros y Hy. apply filter_In in Hy. destruct Hy as [_ Hne].
    now apply Bool.negb_true_iff, Nat.eqb_neq in Hne.
  - intros m Hm. rewrite (find_name_remove _ _ _ _ (ri_incr _ Hinv) (ri_names _ Hinv) Hin).
    apply Nat.eqb_neq in Hm. now rewrite Hm.
Qed.

(* no NULL dereference, no identifier above max_id: the operations always return *)
Lemma P_no_crash fx s o : RegInv s ->
  snd (step fx s o) <> RCrash /\ snd (step fx s o) <> ROob.
Proof.
  intros Hinv.
  assert (Hws : forall a n k, (forall x i, In i (map e_iid (s_reg s)) -> snd (k x i) <> RCrash /\ snd (k x i) <> ROob) ->
                snd (with_slot s a n k) <> RCrash /\ snd (with_slot s a n k) <> ROob).
  { intros a n k Hk. unfold with_slot. destruct (nth_error (s_arrs s) a) as [x|]; [|split; discriminate].
    destruct (a_alive x); [|split; discriminate].
    destruct (cl_find n (s_cl s)) as [i|] eqn:C; [|split; discriminate].
    destruct (held_entry _ _ _ Hinv C) as (e & Hin & _ & Hei & _).
    pose proof (ri_max _ Hinv e Hin) as Hlt. rewrite Hei in Hlt. apply Nat.leb_gt in Hlt. rewrite Hlt.
    apply Hk. rewrite <- Hei. now apply in_map. }
  destruct o; cbn [step].
  - destruct (register _ _ _ _ _ _ _) as [[r reg'] maxp']. split; discriminate.
  - destruct (cl_find n (s_cl s)); [|split; discriminate].
    destruct (unregister fx n0 s) as [[s' r] ev]. split; discriminate.
  - destruct (cl_holds i (s_cl s)); [split; discriminate|].
    destruct (unregister fx i s) as [[s' r] ev]. split; discriminate.
  - split; discriminate.
  - split; discriminate.
  - destruct (nth_error (s_arrs s) a) as [x|]; [|split; discriminate]. destruct (a_alive x); split; discriminate.
  - apply Hws. intros x i _. split; discriminate.
  - apply Hws. intros x i Hi.
    destruct (negb (nth i (a_slots (resize (fx_ioa fx) (s_maxp s) x i)) 0 =? 0)%N); [split; discriminate|].
    apply in_map_iff in Hi. destruct Hi as (e & Hei & Hin). subst i.
    rewrite (find_iid_self _ _ _ (ri_incr _ Hinv) Hin).
    destruct (e_ctor e =? 0)%N; [split; discriminate|].
    destruct (ctorval (e_ctor e) (S a) =? 0)%N; [split; discriminate|].
    destruct (do_tas _ _ _ _) as [sl rr]. split; discriminate.
  - apply Hws. intros x i _. destruct (do_tas _ _ _ _) as [sl rr]. split; discriminate.
Qed.

Lemma reached_Rel ops : Rel (reached all_fixed ops) (spec_exec spec_init ops).
Proof. apply run_refines; [apply init_RegInv|apply init_Rel]. Qed.

(* operations that may change what (array a, name n) holds *)
Definition touches (a n : nat) (o : op) : bool :=
  match o with
  | SetV a' n' _ | Tas a' n' _ _ => (a' =? a) && (n' =? n)
  | Unreg n' => n' =? n
  | DelArr a' => a' =? a
  | _ => false
  end.

(* in the dictionary a non-NULL value stays until one of those operations *)
Definition holds (p : spec) (a n : nat) (v : N) : Prop :=
  (a <? p_narr p) && p_alive p a = true /\ p_info p n <> None /\ p_val p a n = v.

Lemma holds_intro q a n v : (a <? p_narr q) = true -> p_alive q a = true -> p_info q n <> None ->
  p_val q a n = v -> holds q a n v.
Proof. intros H1 H2 H3 H4. unfold holds. rewrite H1, H2. auto. Qed.

Lemma spec_step_keeps p a n v o : v <> 0%N -> holds p a n v -> touches a n o = false ->
  holds (fst (spec_step p o)) a n v.
Proof.
  intros Hv (Hg & Hi & Hval) Ht.
  apply Bool.andb_true_iff in Hg. destruct Hg as [Hlt Hal].
  assert (Hsame : holds p a n v) by (now apply holds_intro).
  destruct o as [m cb ctor dtor|m|i|m| |b|b m w|b m|b m w old]; cbn [spec_step touches] in *.
  - destruct (p_info p m) eqn:E; cbn [fst]; [exact Hsame|].
    apply holds_intro; cbn [p_info p_narr p_alive p_val]; auto.
    destruct (n =? m); [discriminate|exact Hi].
  - destruct (p_info p m) as [[[cb ct] dt]|] eqn:E; cbn [fst]; [|exact Hsame].
    apply holds_intro; cbn [p_info p_narr p_alive p_val]; auto; rewrite Nat.eqb_sym, Ht; auto.
  - exact Hsame.
  - exact Hsame.
  - cbn [fst]. apply Nat.ltb_lt in Hlt.
    apply holds_intro; cbn [p_info p_narr p_alive p_val]; auto.
    + apply Nat.ltb_lt. lia.
    + destruct (a =? p_narr p) eqn:E; [reflexivity|exact Hal].
    + destruct (a =? p_narr p) eqn:E; [apply Nat.eqb_eq in E; lia|exact Hval].
  - destruct ((b <? p_narr p) && p_alive p b); cbn [fst]; [|exact Hsame].
    apply holds_intro; cbn [p_info p_narr p_alive p_val]; auto. now rewrite Nat.eqb_sym, Ht.
  - unfold spec_slot. destruct ((b <? p_narr p) && p_alive p b); [|exact Hsame].
    destruct (p_info p m); cbn [fst]; [|exact Hsame].
    apply holds_intro; cbn [with_val p_info p_narr p_alive p_val]; auto.
    unfold upd2. now rewrite (Nat.eqb_sym a b), (Nat.eqb_sym n m), Ht.
  - unfold spec_slot. destruct ((b <? p_narr p) && p_alive p b) eqn:G; [|exact Hsame].
    destruct (p_info p m) as [[[cb ct] dt]|]; [|exact Hsame].
    destruct (negb (p_val p b m =? 0)%N) eqn:Ez; [exact Hsame|].
    destruct (ct =? 0)%N; [exact Hsame|].
    destruct (ctorval ct (S b) =? 0)%N; [exact Hsame|]. cbn [fst].
    apply holds_intro; cbn [with_val p_info p_narr p_alive p_val]; auto. unfold upd2.
    destruct ((a =? b) && (n =? m)) eqn:E; [|exact Hval].
    apply Bool.andb_true_iff in E. destruct E as [E1 E2]. apply Nat.eqb_eq in E1, E2. subst b m.
    apply Bool.negb_false_iff, N.eqb_eq in Ez. congruence.
  - unfold spec_slot. destruct ((b <? p_narr p) && p_alive p b); [|exact Hsame].
    destruct (p_info p m); [|exact Hsame].
    destruct (p_val p b m =? old)%N; cbn [fst]; [|exact Hsame].
    apply holds_intro; cbn [with_val p_info p_narr p_alive p_val]; auto.
    unfold upd2. now rewrite (Nat.eqb_sym a b), (Nat.eqb_sym n m), Ht.
Qed.

Lemma spec_exec_keeps ops : forall p a n v, v <> 0%N -> holds p a n v ->
  Forall (fun o => touches a n o = false) ops -> holds (spec_exec p ops) a n v.
Proof.
  induction ops as [|o ops IH]; intros p a n v Hv Hh Hf; cbn [spec_exec]; [exact Hh|].
  inversion Hf as [|? ? Ho Hr]; subst. apply IH; [exact Hv| |exact Hr]. now apply spec_step_keeps.
Qed.

Lemma spec_get_holds p a n v : v <> 0%N -> holds p a n v -> snd (spec_step p (GetV a n)) = EVal v false [].
Proof.
  intros Hv (Hg & Hi & Hval). cbn [spec_step]. unfold spec_slot. rewrite Hg.
  destruct (p_info p n) as [[[cb ct] dt]|]; [|congruence].
  rewrite Hval. apply N.eqb_neq in Hv. rewrite Hv. reflexivity.
Qed.

Lemma erase_get_val a n r v c ev : erase (GetV a n) r = EVal v c ev -> r = RVal v c ev.
Proof.
  destruct r as [[i|]|[i|] d|[[i cb]|]| | |v' c' ev'| | |]; cbn; try discriminate.
  intros H; inversion H; reflexivity.
Qed.

(* once a step from a reached state leaves v at (a, n) in the dictionary, any untouched
   continuation reads it back *)
Lemma get_after_step ops1 o s1 r a n v ops2 :
  step all_fixed (reached all_fixed ops1) o = (s1, r) ->
  (erase o r = snd (spec_step (spec_exec spec_init ops1) o) ->
   holds (fst (spec_step (spec_exec spec_init ops1) o)) a n v) ->
  v <> 0%N -> Forall (fun o => touches a n o = false) ops2 ->
  snd (step all_fixed (fst (run all_fixed s1 ops2)) (GetV a n)) = RVal v false [].
Proof.
  intros Hstep Hh Hv Hf.
  pose proof (reached_RegInv all_fixed ops1 eq_refl) as Hinv. pose proof (reached_Rel ops1) as Hrel.
  pose proof (step_sim _ _ o Hinv Hrel) as (H1 & H2 & _).
  pose proof (step_RegInv all_fixed _ o eq_refl Hinv) as H4.
  rewrite Hstep in *. cbn [fst snd] in *.
  destruct (run_refines ops2 s1 _ H4 H1) as [[Hinv2 Hrel2] _].
  pose proof (step_sim _ _ (GetV a n) Hinv2 Hrel2) as (_ & He & _).
  rewrite (spec_get_holds _ _ _ _ Hv (spec_exec_keeps ops2 _ a n v Hv (Hh H2) Hf)) in He.
  now apply erase_get_val in He.
Qed.

Lemma holds_after_write p a n v k :
  spec_slot p a n k <> (p, ESkip) -> (forall inf, k inf = (with_val p (upd2 (p_val p) a n v), snd (k inf))) ->
  holds (fst (spec_slot p a n k)) a n v.
Proof.
  unfold spec_slot. intros Hns Hk. destruct ((a <? p_narr p) && p_alive p a) eqn:G; [|congruence].
  destruct (p_info p n) as [inf|] eqn:E; [|congruence].
  rewrite Hk. cbn [fst]. apply Bool.andb_true_iff in G. destruct G as [G1 G2].
  apply holds_intro; cbn [with_val p_narr p_alive p_info p_val]; auto; [congruence|].
  unfold upd2. now rewrite !Nat.eqb_refl.
Qed.

(* test-and-set returns the value stored afterwards (its argument if the slot matched
   [old], the current value otherwise), and that is what later gets return *)
Lemma P_tas_then_get ops1 ops2 a n v old s1 r :
  step all_fixed (reached all_fixed ops1) (Tas a n v old) = (s1, RVal r false []) ->
  r <> 0%N -> Forall (fun o => touches a n o = false) ops2 ->
  snd (step all_fixed (fst (run all_fixed s1 ops2)) (GetV a n)) = RVal r false [].
Proof.
  intros Hstep Hv Hf. eapply get_after_step; eauto. intros H2.
  cbn [spec_step erase] in *. unfold spec_slot in *.
  set (p := spec_exec spec_init ops1) in *.
  destruct ((a <? p_narr p) && p_alive p a) eqn:G; [|discriminate].
  destruct (p_info p n) as [inf|] eqn:E; [|discriminate].
  apply Bool.andb_true_iff in G. destruct G as [G1 G2].
  destruct (p_val p a n =? old)%N eqn:Eo; cbn [fst snd with_val] in *; inversion H2; subst r;
    apply holds_intro; cbn [with_val p_narr p_alive p_info p_val]; auto; try congruence.
  unfold upd2. now rewrite !Nat.eqb_refl.
Qed.

(* test-and-set decides on the value a get would have returned: it stores only on a match *)
Lemma P_tas_decides ops a n v old cur :
  cur <> 0%N ->
  snd (step all_fixed (reached all_fixed ops) (GetV a n)) = RVal cur false [] ->
  snd (step all_fixed (reached all_fixed ops) (Tas a n v old)) = RVal (if (cur =? old)%N then v else cur) false [].
Proof.
  intros Hc Hget.
  pose proof (reached_RegInv all_fixed ops eq_refl) as Hinv. pose proof (reached_Rel ops) as Hrel.
  pose proof (step_sim _ _ (GetV a n) Hinv Hrel) as (_ & Hg & _).
  pose proof (step_sim _ _ (Tas a n v old) Hinv Hrel) as (_ & Ht & _).
  rewrite Hget in Hg. cbn [erase spec_step] in Hg, Ht. unfold spec_slot in *.
  set (p := spec_exec spec_init ops) in *.
  destruct ((a <? p_narr p) && p_alive p a); [|discriminate].
  destruct (p_info p n) as [[[cb ct] dt]|]; [|discriminate].
  assert (Hcur : p_val p a n = cur).
  { destruct (negb (p_val p a n =? 0)%N) eqn:Ez; [cbn in Hg; congruence|].
    destruct (ct =? 0)%N; [cbn in Hg; inversion Hg; congruence|].
    destruct (ctorval ct (S a) =? 0)%N; cbn in Hg; inversion Hg; congruence. }
  rewrite Hcur in Ht.
  destruct (step all_fixed (reached all_fixed ops) (Tas a n v old)) as [s' r]. cbn [snd] in *.
  destruct r as [o|o d|o| | |v' c' ev'| | |]; cbn in Ht; try (destruct (cur =? old)%N; discriminate).
  destruct (cur =? old)%N; cbn in Ht; inversion Ht; reflexivity.
Qed.

Lemma nodupb_complete l : NoDup l -> nodupb l = true.
Proof.
  induction l as [|x r IH]; intros H; cbn; [reflexivity|]. inversion H as [|? ? Hn Hd]; subst.
  rewrite (IH Hd), Bool.andb_true_r. apply Bool.negb_true_iff.
  destruct (existsb (Nat.eqb x) r) eqn:E; [|reflexivity].
  apply existsb_exists in E. destruct E as (y & Hy & Hxy). apply Nat.eqb_eq in Hxy. subst y. contradiction.
Qed.

Definition only_reg_unfixed : fixes := {| fx_reg := false; fx_ioa := true; fx_unreg := true |}.
Definition only_ioa_unfixed : fixes := {| fx_reg := true; fx_ioa := false; fx_unreg := true |}.
Definition only_unreg_unfixed : fixes := {| fx_reg := true; fx_ioa := true; fx_unreg := false |}.

Definition R (n : nat) : op := Reg n 7%N 0%N false.
Definition V1 : N := 0x1122334455667788%N.

(* F1: register a, b; unregister a; register c, d: c and d both get id 0 *)
Definition w_id_reuse : list op := [R 0; R 1; Unreg 0; R 2; R 3].

(* ... after which unregistering c removes d's entry (the first one carrying id 0): the
   client still holds an id for d that lookup no longer knows, and lookup still knows c *)
Definition w_wrong_entry : list op := w_id_reuse ++ [Unreg 2].

(* ... and a get through an identifier whose entry is gone dereferences NULL *)
Definition w_crash : list op :=
  [R 0; R 1; R 2; Unreg 1; R 3; R 4; Unreg 2; Unreg 3; R 5; R 2; Unreg 5; NewArr; GetV 0 4].

(* F2: one info, an array, a value; a second info; using it on the array grows the array
   and zeroes the low byte of the stored pointer; the new slot is not NULL *)
Definition w_resize : list op := [R 0; NewArr; SetV 0 0 V1; R 1; GetV 0 1; GetV 0 0].

(* F3: an info without destructor is unregistered; the next info registered gets the same
   id and reads the value left in the array *)
Definition w_stale : list op := [R 0; NewArr; SetV 0 0 V1; Unreg 0; R 1; GetV 0 1].

