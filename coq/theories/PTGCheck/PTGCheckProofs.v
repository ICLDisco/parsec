(* The limit decision of PTGCheckDefs.v is sound: an accepted function fits the fixed-size arrays of
   the runtime ([func_ok_within]) and the slot count of jdf_assign_ldef_index is the one the generated
   code indexes ([ldef_counted_is_needed]).  The file ends with the two countings of parsec-ptgpp
   that the refutations of C24 are about ([tern6] for [accept false], [ldef_counted_old]). *)
From PV Require Import Base.Tac PTGCheck.PTGCheckDefs.

Lemma sum_deps_le (w1 w2 : dep -> nat) dir ds : (forall d, w1 d <= w2 d) ->
  sum_deps w1 dir ds <= sum_deps w2 dir ds.
Proof. intros H. induction ds as [|d ds IH]; cbn [sum_deps fold_right]; [lia|].
  fold (sum_deps w1 dir ds) (sum_deps w2 dir ds). pose proof (H d). destruct (Bool.eqb (dp_in d) dir); lia. Qed.

Lemma flow_ok_within f : flow_ok true f = true -> flow_within f.
Proof. unfold flow_ok, flow_within. change (counted true) with emitted. lia. Qed.

Lemma fold_max_deps base ds m :
  fold_left (fun m d => Nat.max m (dep_high base d)) ds m = Nat.max m (list_max (map (dep_high base) ds)).
Proof. revert m. induction ds as [|d ds IH]; intros m; cbn [fold_left map list_max fold_right]; [lia|].
  rewrite IH. fold (list_max (map (dep_high base) ds)). lia. Qed.

Lemma fold_max_flows base fls m :
  fold_left (fun m fl => fold_left (fun m d => Nat.max m (dep_high base d)) (fl_deps fl) m) fls m
  = Nat.max m (list_max (map (dep_high base) (flat_map fl_deps fls))).
Proof. revert m. induction fls as [|fl fls IH]; intros m; cbn [fold_left flat_map]; [cbn; lia|].
  rewrite IH, fold_max_deps, map_app, list_max_app. lia. Qed.

(* the high-water mark of jdf_assign_ldef_index is the number of slots the generated code needs *)
Theorem ldef_counted_is_needed f : ldef_counted f = ldef_needed f.
Proof. unfold ldef_counted, ldef_needed, all_deps. rewrite fold_max_flows. cbn [list_max fold_right]. reflexivity. Qed.

Lemma func_ok_within f : func_ok true f = true -> func_within f.
Proof.
  unfold func_ok, func_within. intros H.
  assert (Hfl : forallb (flow_ok true) (fn_flows f) = true) by lia.
  rewrite forallb_forall in Hfl. rewrite <- ldef_counted_is_needed.
  split; [|lia]. intros x Hin. apply flow_ok_within. auto.
Qed.

Lemma flow_withinb_spec f : flow_withinb f = true <-> flow_within f.
Proof. unfold flow_withinb, flow_within. lia. Qed.

Lemma within_limitsb_spec p : within_limitsb p = true <-> within_limits p.
Proof.
  unfold within_limitsb, within_limits, func_within. rewrite forallb_forall.
  split; intros H f Hin; specialize (H f Hin).
  - assert (Hfl : forallb flow_withinb (fn_flows f) = true) by lia.
    rewrite forallb_forall in Hfl. split; [|lia]. intros x Hx. apply flow_withinb_spec. auto.
  - destruct H as [Hfl H].
    assert (forallb flow_withinb (fn_flows f) = true).
    { apply forallb_forall. intros x Hx. apply flow_withinb_spec. auto. }
    lia.
Qed.

(* the decision does not look at anything but the program (determinism of the modelled decision) *)
Theorem accept_deterministic fixed p q : p = q -> accept fixed p = accept fixed q.
Proof. intros ->. reflexivity. Qed.

(* the counting of the unrepaired compiler (one per dependency whatever its guard) accepts a
   program that overflows dep_in: one flow with six ternary input dependencies emits 12 entries *)
Definition tern6 : program :=
  {| pg_mal := WellFormed;
     pg_funcs := [ {| fn_locals := 1; fn_pdefs := 0;
                      fn_flows := [ {| fl_access := AccRead;
                                       fl_deps := repeat {| dp_in := true; dp_guard := GTernary; dp_ldefs := 0; dp_ct := 0; dp_cf := 0 |} 6 |} ] |} ] |}.

(* the two countings agree on programs without ternary guards *)
Lemma counted_no_ternary d : dp_guard d <> GTernary -> counted false d = counted true d.
Proof. unfold counted, emitted. destruct (dp_guard d); congruence. Qed.

(* the counting of jdf_assign_ldef_index before its repair: for a ternary guard the count taken after
   the true branch was overwritten by the false branch's, so a dependency whose TRUE branch introduces
   more local definitions than its false branch was under-counted *)
Definition dep_high_old (base : nat) (d : dep) : nat :=
  base + dp_ldefs d + (match dp_guard d with GTernary => dp_cf d | _ => dp_ct d end).
Definition ldef_counted_old (f : func) : nat :=
  fold_left (fun m fl => fold_left (fun m d => Nat.max m (dep_high_old (fn_pdefs f) d)) (fl_deps fl) m)
            (fn_flows f) (fn_pdefs f).
