(* Proofs about the three binding syntaxes of parse_binding_parameter
   (model in VpMapDefs.v): thread counts, and cores inside [0,R) for the
   range and list syntaxes. *)
From Coq Require Import Ascii.
From PV Require Import Base.Tac VpMap.VpMapDefs VpMap.VpMapProofs.
Local Open Scope Z_scope.

(* a thread description that can only lead to available cores: a finite
   (possibly empty) set of indexes below R, or no set at all (not bound) *)
Definition okt (R : Z) (t : thread) : Prop :=
  t_set t <> Full /\ Forall (fun x => 0 <= x < R) (elems (t_set t)).

Lemma okt_zero : forall R, okt R zero_thread.
Proof. intros R. split; [discriminate|constructor]. Qed.
Lemma okt_bound : forall R c, 0 <= c < R -> okt R (bound c).
Proof. intros R c H. split; [discriminate|]. cbn. constructor; auto. Qed.

Lemma in_range_true : forall R a, in_range R a = true -> 0 <= a < R.
Proof. intros R a H. unfold in_range in H. lia. Qed.

Lemma mask_loop_length : forall n bits R prev, length (mask_loop n bits R prev) = n.
Proof. induction n; intros; cbn; auto. Qed.

Lemma combine_map_Forall : forall (P : thread -> Prop) (f : Z * thread -> thread) (l1 : list Z) (l2 : list thread),
  (forall i th, In th l2 -> P (f (i, th))) -> Forall P (map f (combine l1 l2)).
Proof.
  intros P f l1 l2 H. apply Forall_forall. intros x Hx. apply in_map_iff in Hx.
  destruct Hx as ([i th] & <- & Hin). apply H. eapply in_combine_r; eauto.
Qed.

Lemma range_loop_ok : forall fuel t nbth R start stop step where_ skip acc,
  0 <= start -> stop < R -> start <= where_ <= stop -> 0 <= step -> 0 <= skip ->
  Forall (okt R) acc -> Forall (okt R) (range_loop fuel t nbth R start stop step where_ skip acc).
Proof.
  induction fuel as [|f IH]; intros t nbth R start stop step where_ skip acc H0 H1 Hw Hs Hk Hacc; cbn [range_loop]; auto.
  destruct (nbth <=? t); auto.
  assert (Hacc1 : Forall (okt R) (set_nth (Z.to_nat t) (bound where_) acc)).
  { apply set_nth_Forall; auto. apply okt_bound. lia. }
  destruct (stop <? where_ + step) eqn:E1.
  - destruct (stop <? start + skip) eqn:E2; auto.
    destruct ((step <? skip + 1) && (t <? R - 1)).
    + apply combine_map_Forall. intros i th Hin. rewrite Forall_forall in Hacc1. specialize (Hacc1 _ Hin).
      destruct (t <? i); auto. destruct Hacc1 as [Ha Hb].
      destruct (i =? t + 1); split; cbn [t_set elems]; auto; try discriminate.
    + apply IH; auto; lia.
  - apply IH; auto; lia.
Qed.

Lemma range_loop_length : forall fuel t nbth R start stop step where_ skip acc,
  length (range_loop fuel t nbth R start stop step where_ skip acc) = length acc.
Proof.
  induction fuel as [|f IH]; intros; cbn [range_loop]; auto.
  destruct (nbth <=? t); auto.
  destruct (stop <? where_ + step).
  - destruct (stop <? start + skip); [apply set_nth_length|].
    destruct ((step <? skip + 1) && (t <? R - 1)).
    + rewrite map_length, combine_length, zseq_length, set_nth_length. lia.
    + rewrite IH. apply set_nth_length.
  - rewrite IH. apply set_nth_length.
Qed.

Lemma range_start_ok : forall R o, 1 <= R -> 0 <= range_start R o < R.
Proof.
  intros R o HR. unfold range_start.
  assert (H : forall s, 0 <= (let a := fst (strtol10 s) in if in_range R a then a else 0) < R).
  { intros s. cbn zeta. destruct (in_range R (fst (strtol10 s))) eqn:E; [apply in_range_true; auto|lia]. }
  destruct (match o with c :: _ => Ascii.eqb c ";" | [] => false end); [lia|apply H].
Qed.
Lemma range_stop_ok : forall R p, 1 <= R -> 0 <= fst (range_stop R p) < R.
Proof.
  intros R p HR. unfold range_stop. destruct p as [|c t]; [cbn; lia|].
  destruct (Ascii.eqb c ";"); [cbn; lia|].
  destruct (strtol10 (c :: t)) as [a p']. cbn [fst].
  destruct (in_range R a) eqn:E; [apply in_range_true; auto|lia].
Qed.
Lemma range_step_ok : forall R p2, 0 <= range_step R p2.
Proof.
  intros R p2. unfold range_step. destruct p2 as [[|x [|c t]]|]; try lia.
  cbn zeta. destruct (in_range R (fst (strtol10 (c :: t)))) eqn:E; [apply in_range_true in E|]; lia.
Qed.

Theorem range_in_range : forall R nbth b ths, 1 <= R -> bind_range R nbth b = BOk ths ->
  length ths = nbth /\ Forall (okt R) ths.
Proof.
  intros R nbth b ths HR H. unfold bind_range in H.
  pose proof (range_start_ok R b HR) as Hst.
  set (p := match after_char ";" b with Some p => p | None => [] end) in *.
  pose proof (range_stop_ok R p HR) as Hsp.
  destruct (range_stop R p) as [stop p2]. cbn [fst] in Hsp.
  pose proof (range_step_ok R p2) as Hse.
  remember (range_loop (S nbth) 0 _ _ _ _ _ _ _ _) as rl eqn:Erl in H. injection H as H. subst ths. rewrite Erl. split.
  - rewrite range_loop_length. apply repeat_length.
  - apply range_loop_ok; try lia.
    + destruct (stop <? range_start R b); lia.
    + destruct (stop <? range_start R b) eqn:E; lia.
    + apply Forall_forall. intros x Hx. apply repeat_spec in Hx. subst. apply okt_zero.
Qed.

Definition tab_ok (R : Z) (tab : list Z) : Prop := Forall (fun c => c = -1 \/ 0 <= c < R) tab.

Lemma list_range_ok : forall n t R nbth cmp tab cmp' tab',
  0 <= t -> (n <> O -> t + Z.of_nat n <= R) -> tab_ok R tab ->
  list_range n t nbth cmp tab = Some (cmp', tab') -> tab_ok R tab' /\ length tab' = length tab.
Proof.
  induction n as [|k IH]; intros t R nbth cmp tab cmp' tab' Ht Hn Htab H; cbn [list_range] in H.
  - inv H. auto.
  - destruct (nbth <=? cmp)%nat; [discriminate|].
    assert (Hok : tab_ok R (set_nth cmp t tab)).
    { apply set_nth_Forall; auto. right. specialize (Hn ltac:(discriminate)). lia. }
    destruct (S cmp =? nbth)%nat.
    + inv H. split; auto. apply set_nth_length.
    + destruct (IH (t + 1) R nbth (S cmp) _ _ _ ltac:(lia) ltac:(intros; specialize (Hn ltac:(discriminate)); lia) Hok H) as [H1 H2].
      split; auto. rewrite H2. apply set_nth_length.
Qed.

Lemma list_loop_ok : forall fuel R nbth o cmp tab tab', tab_ok R tab ->
  list_loop fuel R nbth o cmp tab = Some tab' -> tab_ok R tab' /\ length tab' = length tab.
Proof.
  induction fuel as [|f IH]; intros R nbth o cmp tab tab' Htab H; cbn [list_loop] in H.
  - inv H. auto.
  - destruct o as [|c0 o0]; [inv H; auto|].
    destruct (nbth <=? cmp)%nat; [inv H; auto|].
    destruct (strtol10 (c0 :: o0)) as [arg o1].
    set (st := if in_range R arg then (S cmp, set_nth cmp arg tab) else (cmp, tab)) in *.
    assert (Hst : tab_ok R (snd st) /\ length (snd st) = length tab).
    { unfold st. destruct (in_range R arg) eqn:E; cbn [snd]; auto.
      split; [|apply set_nth_length]. apply set_nth_Forall; auto. right. apply in_range_true; auto. }
    destruct st as [cmp1 tab1]. cbn [snd] in Hst. destruct Hst as [Hok1 Hl1].
    destruct (list_item_range R nbth arg o1 cmp1 tab1) as [[cmp2 tab2]|] eqn:Er; [|discriminate].
    assert (Hr : tab_ok R tab2 /\ length tab2 = length tab).
    { unfold list_item_range in Er.
      destruct (match strpbrk_cd o1 with Some c => Ascii.eqb c "-" | None => false end).
      - apply list_range_ok with (R := R) in Er; auto; try lia.
        destruct Er as [Hx1 Hx2]. split; auto. lia.
      - inv Er. auto. }
    destruct Hr as [Hok2 Hl2].
    destruct (after_char "," o1) as [o2|].
    + destruct (IH R nbth o2 cmp2 tab2 tab' Hok2 H) as [H1 H2]. split; auto. lia.
    + inv H. auto.
Qed.

Theorem list_in_range : forall R nbth b ths, bind_list R nbth b = BOk ths ->
  length ths = nbth /\
  Forall (fun t => t_nbcores t = 1 /\ exists c, t_set t = Fin [c] /\ (0 <= c < R \/ c = unbound_index)) ths.
Proof.
  intros R nbth b ths H. unfold bind_list in H.
  destruct (list_loop (S (length b)) R nbth b 0 (repeat (-1) nbth)) as [tab|] eqn:E; [|discriminate].
  inv H. apply list_loop_ok in E.
  - destruct E as [Hok Hl]. split; [rewrite map_length, Hl; apply repeat_length|].
    apply Forall_forall. intros t Ht. apply in_map_iff in Ht. destruct Ht as (c & <- & Hc).
    unfold tab_ok in Hok. rewrite Forall_forall in Hok. specialize (Hok c Hc).
    cbn [bound t_nbcores t_set]. split; auto.
    destruct (c =? -1) eqn:Ec; eexists; (split; [reflexivity|]); [right; reflexivity|left; lia].
  - apply Forall_forall. intros x Hx. apply repeat_spec in Hx. left; auto.
Qed.

Theorem binding_counts : forall R nbth b ths, parse_binding R nbth b = BOk ths -> length ths = nbth.
Proof.
  intros R nbth b ths H. unfold parse_binding in H.
  destruct (after_char "x" b) as [p|].
  - unfold bind_mask in H. destruct (strtoul16 p <? 1); [discriminate|].
    remember (mask_loop _ _ _ _) as ml eqn:Eml in H. injection H as H. subst ths. rewrite Eml. apply mask_loop_length.
  - destruct (has_char ";" b).
    + unfold bind_range in H. destruct (range_stop R _) as [stop p2].
      remember (range_loop (S nbth) 0 _ _ _ _ _ _ _ _) as rl eqn:Erl in H. injection H as H. subst ths. rewrite Erl.
      rewrite range_loop_length. apply repeat_length.
    + apply list_in_range in H. apply H.
Qed.
