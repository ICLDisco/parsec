(* Proofs about the virtual-process map model (VpMapDefs.v): the blocks of the
   flat map ([flat_map]); which strings count as a documented syntax
   ([documented], used by Properties_C40.v, where the dispatcher and rr
   statements are derived); map files ([file_never_a_map]); from the flat map
   to cores of the allowed cpuset ([flat_bindings_inside_cpuset],
   [flat_bindings_never_escape]). *)
From Coq Require Import Ascii.
From PV Require Import Base.Tac VpMap.VpMapDefs.
Local Open Scope Z_scope.

Lemma zseq_length : forall n lo, length (zseq lo n) = n.
Proof. induction n; intros; cbn; auto. Qed.
Lemma zseq_In : forall n lo x, In x (zseq lo n) <-> lo <= x < lo + Z.of_nat n.
Proof.
  induction n as [|n IH]; intros lo x; cbn [zseq In].
  - lia.
  - rewrite IH. lia.
Qed.
Lemma nth_error_zseq : forall n lo i, (i < n)%nat -> nth_error (zseq lo n) i = Some (lo + Z.of_nat i).
Proof.
  induction n as [|n IH]; intros lo [|i] H; cbn; try lia.
  - f_equal. lia.
  - rewrite IH by lia. f_equal. lia.
Qed.
Lemma set_nth_length : forall {A} (l : list A) i x, length (set_nth i x l) = length l.
Proof. induction l as [|y l IH]; intros [|i] x; cbn; auto. Qed.
Lemma set_nth_Forall : forall {A} (P : A -> Prop) (l : list A) i x, Forall P l -> P x -> Forall P (set_nth i x l).
Proof.
  induction l as [|y l IH]; intros [|i] x Hl Hx; cbn; auto; inv Hl; constructor; auto.
Qed.
Lemma fold_min_le : forall l x, fold_left Z.min l x <= x /\ (In (fold_left Z.min l x) (x :: l)).
Proof.
  induction l as [|y l IH]; intros x; cbn [fold_left].
  - split; [lia|left; auto].
  - destruct (IH (Z.min x y)) as [H1 H2]. split; [lia|].
    destruct H2 as [H2|H2].
    + destruct (Z.min_spec x y) as [[_ E]|[_ E]]; [left|right; left]; congruence.
    + right; right; auto.
Qed.

Definition elems (c : cpuset) : list Z := match c with Fin l => l | _ => [] end.
Definition is_fin (c : cpuset) : Prop := match c with Fin _ => True | _ => False end.

(* thread number i of a flat map over R cores with nbt threads: its cores are a
   non-empty part of block i of width step *)
Definition flat_step (R sing nbt : Z) : Z := if sing =? -1 then 1 else R / nbt.

Lemma flat_thread_block : forall R sing nbt i, 1 <= nbt <= R -> 0 <= i < nbt ->
  let step := flat_step R sing nbt in
  let t := consolidate sing (mkt step 0 (set_range (i * step) ((i + 1) * step - 1))) in
  1 <= step /\ nbt * step <= R /\ t_ht t = 0 /\ is_fin (t_set t) /\ elems (t_set t) <> [] /\
  Forall (fun x => i * step <= x < (i + 1) * step) (elems (t_set t)).
Proof.
  intros R sing nbt i Hn Hi step t.
  assert (Hs : 1 <= step /\ nbt * step <= R).
  { unfold step, flat_step. destruct (sing =? -1); [lia|].
    split.
    - apply Z.div_le_lower_bound; lia.
    - apply Z.mul_div_le. lia. }
  destruct Hs as [Hs1 Hs2]. split; auto. split; auto.
  unfold t, consolidate, set_range. cbn [t_set t_ht t_nbcores].
  replace ((i + 1) * step - 1 =? -1) with false by nia.
  replace ((i + 1) * step - 1 - i * step + 1) with step by ring.
  assert (Hz : forall x, In x (zseq (i * step) (Z.to_nat step)) -> i * step <= x < (i + 1) * step).
  { intros x Hx. apply zseq_In in Hx. lia. }
  destruct (Z.to_nat step) as [|k] eqn:Ek; [lia|].
  cbn [zseq] in *. split; auto.
  destruct (0 <? sing).
  - cbn [singlify t_set elems is_fin]. split; auto. split; [discriminate|].
    constructor; auto. apply Hz.
    destruct (fold_min_le (zseq (i * step + 1) k) (i * step)) as [_ H]. exact H.
  - cbn [t_set elems is_fin]. split; auto. split; [discriminate|].
    apply Forall_forall. exact Hz.
Qed.

Theorem flat_map : forall R sing nb, 1 <= nb <= R ->
  exists ths, flat R sing nb = Map 1 nb [ths] /\ length ths = Z.to_nat nb /\
    let step := flat_step R sing nb in
    1 <= step /\ nb * step <= R /\
    forall i, 0 <= i < nb -> exists t, nth_error ths (Z.to_nat i) = Some t /\
      t_ht t = 0 /\ is_fin (t_set t) /\ elems (t_set t) <> [] /\
      Forall (fun x => i * step <= x < (i + 1) * step) (elems (t_set t)).
Proof.
  intros R sing nb Hn. unfold flat.
  replace (nb =? -1) with false by lia. replace (nb =? 0) with false by lia.
  eexists. split; [reflexivity|]. split.
  - unfold flat_threads. rewrite !map_length, zseq_length. auto.
  - cbn zeta. destruct (flat_thread_block R sing nb 0 Hn) as (H1 & H2 & _); [lia|].
    split; auto. split; auto. intros i Hi.
    unfold flat_threads. rewrite map_map.
    rewrite nth_error_map, nth_error_zseq by lia. cbn [option_map].
    eexists. split; [reflexivity|].
    replace (0 + Z.of_nat (Z.to_nat i)) with i by lia.
    fold (flat_step R sing nb).
    destruct (flat_thread_block R sing nb i Hn Hi) as (_ & _ & H3 & H4 & H5 & H6). auto.
Qed.

(* the same, for the thread found at position k of the map *)
Lemma flat_map_nth : forall R sing nb ths k t, 1 <= nb <= R -> flat R sing nb = Map 1 nb [ths] ->
  nth_error ths k = Some t ->
  let step := flat_step R sing nb in
  Z.of_nat k < nb /\ 1 <= step /\ nb * step <= R /\ is_fin (t_set t) /\ elems (t_set t) <> [] /\
  Forall (fun x => Z.of_nat k * step <= x < (Z.of_nat k + 1) * step) (elems (t_set t)).
Proof.
  intros R sing nb ths k t Hn Hf Hk.
  destruct (flat_map R sing nb Hn) as (ths' & E & Hl & H1 & H2 & Hall). rewrite Hf in E. inv E.
  assert (Hk' : (k < Z.to_nat nb)%nat) by (rewrite <- Hl; apply nth_error_Some; congruence).
  destruct (Hall (Z.of_nat k)) as (t' & Ht' & _ & Hfin & Hne & HF); [lia|].
  rewrite Nat2Z.id, Hk in Ht'. inv Ht'. repeat split; auto; lia.
Qed.

(* the documented syntaxes, after the optional display: prefix *)
Definition documented (s : list ascii) : bool :=
  let t := strip_display s in
  prefix s_flat t || prefix s_hwloc t || prefix s_file t ||
  (prefix s_rr t && match scan_rr t with Some _ => true | None => false end).

Definition no_nl (s : list ascii) : Prop := ~ In nl s.
(* a line as getline returns it *)
Definition line_shape (l : list ascii) : Prop := exists body, (l = body ++ [nl] \/ l = body) /\ no_nl body.

Lemma eqb_nl_false : forall c, Ascii.eqb c nl = false -> c <> nl.
Proof. intros c H E. subst. rewrite Ascii.eqb_refl in H. discriminate. Qed.

Lemma getlines_aux_shape : forall s cur, no_nl cur -> Forall line_shape (getlines_aux s cur).
Proof.
  induction s as [|c s IH]; intros cur Hc; cbn [getlines_aux].
  - destruct cur as [|x cur']; constructor; auto.
    exists (rev (x :: cur')). split; auto. intros H. apply in_rev in H. auto.
  - destruct (Ascii.eqb c nl) eqn:E.
    + apply Ascii.eqb_eq in E. subst. constructor.
      * exists (rev cur). cbn [rev]. split; auto. intros H. apply in_rev in H. auto.
      * apply IH. intros [].
    + apply IH. intros [H|H]; [apply (eqb_nl_false _ E); auto|auto].
Qed.
Lemma getlines_shape : forall s, Forall line_shape (getlines s).
Proof. intros. apply getlines_aux_shape. intros []. Qed.

Lemma skipn_shape : forall l k, line_shape l -> line_shape (skipn k l).
Proof.
  intros l k (body & Hl & Hb).
  destruct (Nat.le_gt_cases k (length body)) as [Hk|Hk].
  - exists (skipn k body). split.
    + destruct Hl as [-> | ->]; [left|right]; auto. rewrite skipn_app.
      replace (k - length body)%nat with O by lia. auto.
    + intros H. apply Hb. rewrite <- (firstn_skipn k body). apply in_or_app. auto.
  - exists []. split; [|intros []]. right. apply skipn_all2.
    destruct Hl as [-> | ->]; [rewrite app_length; cbn|]; lia.
Qed.

Lemma split_nl_aux_app : forall b t cur, no_nl b -> split_nl_aux (b ++ t) cur = split_nl_aux t (rev b ++ cur).
Proof.
  induction b as [|c b IH]; intros t cur Hb; cbn [split_nl_aux app rev]; auto.
  destruct (Ascii.eqb c nl) eqn:E.
  - apply Ascii.eqb_eq in E. subst. exfalso. apply Hb. left; auto.
  - rewrite IH by (intros H; apply Hb; right; auto). rewrite <- app_assoc. auto.
Qed.
Lemma split_nl_shape : forall l, line_shape l -> exists b, split_nl l = [b] \/ split_nl l = [b; []].
Proof.
  intros l (body & [-> | ->] & Hb); exists body; unfold split_nl.
  - right. rewrite split_nl_aux_app by auto. cbn. rewrite app_nil_r, rev_involutive. auto.
  - left. rewrite <- (app_nil_r body) at 1. rewrite split_nl_aux_app by auto. cbn. rewrite app_nil_r, rev_involutive. auto.
Qed.

(* what the second loop leaves for a piece without ':' *)
Lemma phase2_shape : forall R n ps v vps, phase2 R n ps v = P2Ok vps ->
  Forall2 (fun pc o => after_char colon pc = None -> o = None) ps vps.
Proof.
  induction ps as [|pc ps IH]; intros v vps H; cbn [phase2] in H.
  - inv H. constructor.
  - destruct (after_char colon pc) as [th_arg|] eqn:Ea.
    + destruct (n <=? v)%nat; [discriminate|].
      destruct (after_char colon th_arg) as [b|].
      * destruct (parse_binding R _ b); try discriminate.
        destruct (phase2 R n ps (S v)) eqn:E; try discriminate. inv H.
        constructor; [intros; congruence|eauto].
      * destruct (phase2 R n ps (S v)) eqn:E; try discriminate. inv H.
        constructor; [intros; congruence|eauto].
    + destruct (phase2 R n ps (S v)) eqn:E; try discriminate. inv H.
      constructor; [auto|eauto].
Qed.

(* the local_vpmap string after the first loop *)
Definition local_inv (lines : list (list ascii)) (nbvp : Z) (local_ : option (list ascii)) : Prop :=
  (nbvp = 0 /\ local_ = None) \/
  (nbvp = 1 /\ exists rest, local_ = Some (s_null ++ nl :: rest)) \/
  (2 <= nbvp /\ exists l k, In l lines /\ local_ = Some (skipn k l)).

Lemma phase1_inv : forall all lines nbvp local_ rol n' loc',
  (forall l, In l lines -> In l all) -> local_inv all nbvp local_ ->
  phase1 lines nbvp local_ rol = Some (n', loc') -> local_inv all n' loc'.
Proof.
  intros all. induction lines as [|l t IH]; intros nbvp local_ rol n' loc' Hsub Hinv H; cbn [phase1] in H.
  - inv H. auto.
  - assert (Hsub' : forall x, In x t -> In x all) by (intros; apply Hsub; right; auto).
    assert (Hl : In l all) by (apply Hsub; left; auto).
    assert (Hacc : forall k, local_inv all (nbvp + 1)
               (Some match local_ with None => s_null ++ nl :: skipn k l | Some _ => skipn k l end)).
    { intros k. destruct Hinv as [(-> & ->)|[(-> & rest & ->)|(Hn & l0 & k0 & Hin & ->)]].
      - right; left. split; auto. eauto.
      - right; right. split; [lia|]. eauto.
      - right; right. split; [lia|]. eauto. }
    destruct (has_char colon l && negb match l with [] => false | c :: _ => Ascii.eqb c colon end).
    + destruct (strtol0 l) as [tgt rest]. destruct (tgt =? 0).
      * eapply IH; [exact Hsub'| |exact H]. apply Hacc; auto.
      * eapply IH; eauto.
    + destruct (match l with [] => false | c :: _ => Ascii.eqb c colon end).
      * destruct rol as [k|]; [|discriminate]. eapply IH; [exact Hsub'| |exact H]. apply Hacc; auto.
      * eapply IH; eauto.
Qed.

(* a readable map file never produces a map with a virtual process: the
   process dies (at least one line applied to it) or the map is empty *)
Theorem file_never_a_map : forall R sing content,
  from_file R sing content = Crash \/ from_file R sing content = Fatal \/ from_file R sing content = Map 0 0 [].
Proof.
  intros R sing content. unfold from_file.
  destruct (phase1 (getlines content) 0 None None) as [[nbvp local_]|] eqn:E1; [|auto].
  assert (Hinv : local_inv (getlines content) nbvp local_).
  { eapply phase1_inv; [| |exact E1]; auto. left; auto. }
  destruct Hinv as [(-> & ->)|[(-> & rest & ->)|(Hn & l & k & Hin & ->)]].
  - cbn. auto.
  - replace (1 =? 0) with false by lia.
    (* the first piece is "(null)": parsec_vpmap[0] is never written *)
    assert (Hs : split_nl (s_null ++ nl :: rest) = s_null :: split_nl rest) by reflexivity.
    rewrite Hs. cbn [phase2].
    replace (after_char colon s_null) with (@None (list ascii)) by reflexivity.
    destruct (phase2 R (Z.to_nat 1) (split_nl rest) 1) as [| |vps]; auto.
  - (* the string is the tail of ONE line (the descriptions are not accumulated), so it
       splits into one piece, or one piece and an empty one: at most one entry of
       parsec_vpmap is written, while the consolidation loop reads nbvp >= 2 *)
    replace (nbvp =? 0) with false by lia.
    assert (Hsh : line_shape (skipn k l)).
    { apply skipn_shape. pose proof (getlines_shape content) as HF. rewrite Forall_forall in HF. auto. }
    destruct (split_nl_shape _ Hsh) as [b [Hs|Hs]]; rewrite Hs.
    + (* one piece: one entry, fewer than nbvp *)
      destruct (phase2 R (Z.to_nat nbvp) [b] 0) as [| |vps] eqn:E2; auto.
      apply phase2_shape in E2. inv E2. inv H3.
      replace (Z.to_nat nbvp <=? length [y])%nat with false; auto.
      symmetry. apply Nat.leb_gt. cbn. lia.
    + (* two pieces: the second has no ':' and leaves its entry unwritten ([phase2_shape]);
         with nbvp = 2 the [is_some] test fails on it, with nbvp >= 3 the length test *)
      destruct (phase2 R (Z.to_nat nbvp) [b; []] 0) as [| |vps] eqn:E2; auto.
      apply phase2_shape in E2. inv E2. inv H3. inv H5.
      specialize (H2 eq_refl). subst.
      destruct (Z.to_nat nbvp) as [|[|[|m]]] eqn:En; try lia.
      * cbn. destruct (is_some y); auto.
      * cbn. auto.
Qed.

Theorem file_no_line_empty_map : forall R sing content,
  phase1 (getlines content) 0 None None = Some (0, None) -> from_file R sing content = Map 0 0 [].
Proof. intros R sing content H. unfold from_file. rewrite H. reflexivity. Qed.

(* from the map to cores: every thread of a flat map is bound to a core of the
   cpuset the process is allowed to use, whatever the shape of that cpuset *)
Lemma find_core_in : forall allowed w, Forall (fun c => 0 <= c) allowed -> 0 <= w < Z.of_nat (length allowed) ->
  In (find_core_by_idx allowed w) allowed /\ 0 <= find_core_by_idx allowed w.
Proof.
  intros allowed w Hpos Hw. unfold find_core_by_idx. replace (w <? 0) with false by lia.
  assert (Hin : In (nth (Z.to_nat w) allowed (-1)) allowed) by (apply nth_In; lia).
  split; auto. rewrite Forall_forall in Hpos. auto.
Qed.

Lemma select_core_in : forall allowed used cands first, Forall (fun c => 0 <= c) allowed ->
  Forall (fun w => 0 <= w < Z.of_nat (length allowed)) cands ->
  (first = -1 \/ In first allowed) -> (cands <> [] \/ In first allowed) ->
  In (select_core allowed used cands first) allowed.
Proof.
  intros allowed used cands. induction cands as [|w t IH]; intros first Hpos Hc Hf Hne; cbn [select_core].
  - destruct Hne as [Hne|Hne]; [congruence|auto].
  - inv Hc. destruct (find_core_in allowed w Hpos H1) as [Hin Hge].
    replace (find_core_by_idx allowed w <? 0) with false by lia.
    destruct (negb (zmem (find_core_by_idx allowed w) used)); auto.
    apply IH; auto.
    + destruct (first <? 0) eqn:E; auto.
    + right. destruct (first <? 0) eqn:E; auto. destruct Hf as [->|Hf]; [discriminate|auto].
Qed.

Lemma apply_locations_in : forall allowed R ths used, Forall (fun c => 0 <= c) allowed -> R = Z.of_nat (length allowed) ->
  Forall (fun t => is_fin (t_set t) /\ elems (t_set t) <> [] /\ Forall (fun x => 0 <= x < R) (elems (t_set t))) ths ->
  length (apply_locations allowed used R ths) = length ths /\
  Forall (fun c => In c allowed) (apply_locations allowed used R ths).
Proof.
  intros allowed R ths. induction ths as [|t r IH]; intros used Hpos HR Hths; cbn [apply_locations].
  - split; auto.
  - inv Hths. destruct H1 as (Hfin & Hne & Hrange).
    destruct (IH (if select_core allowed used (thread_cands (Z.of_nat (length allowed)) t) (-1) <? 0 then used
                  else select_core allowed used (thread_cands (Z.of_nat (length allowed)) t) (-1) :: used) Hpos eq_refl H2) as [IH1 IH2].
    split; [cbn; rewrite IH1; auto|]. constructor; auto.
    unfold thread_cands. destruct (t_set t) as [|l|]; cbn in Hfin; try contradiction.
    apply select_core_in; auto.
Qed.

Theorem flat_bindings_inside_cpuset : forall allowed sing nb, allowed <> [] -> Forall (fun c => 0 <= c) allowed ->
  exists cores, user_flat_bindings allowed sing nb = Some cores /\
    length cores = Z.to_nat (init_nb (Z.of_nat (length allowed)) nb) /\
    Forall (fun c => In c allowed) cores.
Proof.
  intros allowed sing nb Hne Hpos. unfold user_flat_bindings.
  set (R := Z.of_nat (length allowed)).
  assert (HR : 1 <= R) by (unfold R; destruct allowed; [congruence|cbn [length]; lia]).
  assert (Hnb : 1 <= init_nb R nb <= R) by (unfold init_nb; destruct (nb <=? 0) eqn:E; lia).
  destruct (flat_map R sing (init_nb R nb) Hnb) as (ths & Hf & Hl & H1 & H2 & Hall). rewrite Hf.
  eexists. split; [reflexivity|].
  assert (Hths : Forall (fun t => is_fin (t_set t) /\ elems (t_set t) <> [] /\ Forall (fun x => 0 <= x < R) (elems (t_set t))) ths).
  { apply Forall_forall. intros t Ht. destruct (In_nth_error _ _ Ht) as [k Hk].
    destruct (flat_map_nth R sing _ ths k t Hnb Hf Hk) as (Hlt & _ & _ & Hfin & Hne' & HF). split; auto. split; auto.
    eapply Forall_impl; [|exact HF]. cbn. intros x Hx. nia. }
  destruct (apply_locations_in allowed R ths [] Hpos eq_refl Hths) as [A1 A2]. split; auto. lia.
Qed.

(* the oversubscription fallback of parsec_select_vpmap_thread_core: whatever the candidates (indexes >= 0
   relative to the allowed cpuset), the cores already used and the fallback remembered so far, the result
   is an allowed core or "not bound" -- never an index that was not translated *)
Lemma find_core_allowed_or_none : forall allowed w, 0 <= w ->
  find_core_by_idx allowed w = -1 \/ In (find_core_by_idx allowed w) allowed.
Proof.
  intros allowed w Hw. unfold find_core_by_idx. replace (w <? 0) with false by lia.
  destruct (nth_in_or_default (Z.to_nat w) allowed (-1)); auto.
Qed.
Theorem select_core_allowed_or_unbound : forall allowed used cands first,
  Forall (fun w => 0 <= w) cands -> (first = -1 \/ In first allowed) ->
  select_core allowed used cands first = -1 \/ In (select_core allowed used cands first) allowed.
Proof.
  intros allowed used cands. induction cands as [|w t IH]; intros first Hc Hf; cbn [select_core]; auto.
  inv Hc. destruct (find_core_by_idx allowed w <? 0) eqn:E; [apply IH; auto|].
  destruct (find_core_allowed_or_none allowed w H1) as [Hn|Hin]; [lia|].
  destruct (negb (zmem (find_core_by_idx allowed w) used)); auto.
  apply IH; auto. destruct (first <? 0); auto.
Qed.

Lemma apply_locations_allowed : forall allowed R ths used,
  Forall (fun t => Forall (fun w => 0 <= w) (thread_cands R t)) ths ->
  Forall (fun c => c = -1 \/ In c allowed) (apply_locations allowed used R ths).
Proof.
  intros allowed R ths. induction ths as [|t r IH]; intros used H; cbn [apply_locations]; constructor.
  - inv H. apply select_core_allowed_or_unbound; auto.
  - inv H. apply IH; auto.
Qed.

Lemma zseq_nonneg : forall n lo, 0 <= lo -> Forall (fun w => 0 <= w) (zseq lo n).
Proof. intros n lo H. apply Forall_forall. intros x Hx. apply zseq_In in Hx. lia. Qed.

(* consolidation keeps the candidates, or keeps the smallest, or makes 0 the only one *)
Lemma consolidate_cands_nonneg : forall R sing t,
  Forall (fun w => 0 <= w) (thread_cands R t) -> Forall (fun w => 0 <= w) (thread_cands R (consolidate sing t)).
Proof.
  intros R sing t H. unfold thread_cands, consolidate in *. cbn [t_set].
  destruct (0 <? sing); [|destruct (t_set t); auto].
  destruct (t_set t) as [|[|x l]|]; cbn [singlify]; auto.
  - constructor; [|constructor]. rewrite Forall_forall in H. apply H, fold_min_le.
  - constructor; [lia|constructor].
Qed.

(* every flat map, oversubscribed or not, on every cpuset: each thread ends on an allowed core or unbound *)
Theorem flat_bindings_never_escape : forall allowed sing nb numcores cores, 1 <= Z.of_nat (length allowed) ->
  user_flat_bindings_nc allowed sing nb numcores = Some cores ->
  Forall (fun c => c = -1 \/ In c allowed) cores.
Proof.
  intros allowed sing nb numcores cores HR H. unfold user_flat_bindings_nc, flat in H.
  set (R := Z.of_nat (length allowed)) in *.
  assert (Hn : 1 <= over_nb R nb numcores).
  { unfold over_nb. destruct (numcores <=? 0) eqn:E1; destruct (nb <=? 0) eqn:E2; lia. }
  set (n := over_nb R nb numcores) in *.
  replace (n =? -1) with false in H by lia. replace (n =? 0) with false in H by lia. inv H.
  apply apply_locations_allowed. apply Forall_forall. intros t Ht.
  apply in_map_iff in Ht. destruct Ht as (t0 & <- & Ht0).
  unfold flat_threads in Ht0. apply in_map_iff in Ht0. destruct Ht0 as (id & <- & Hid).
  apply zseq_In in Hid.
  set (step := if sing =? -1 then 1 else R / n).
  assert (Hstep : 0 <= step).
  { unfold step. destruct (sing =? -1); [lia|]. apply Z.div_pos; lia. }
  apply consolidate_cands_nonneg. unfold thread_cands, set_range. cbn [t_set].
  destruct ((id + 1) * step - 1 =? -1); apply zseq_nonneg; nia.
Qed.
