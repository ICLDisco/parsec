(* C32 — properties of parsec_hash_table_universal_rehash (HashT/HashTDefs.v, [rehash]). *)
From Coq Require Import ZArith NArith List Bool Lia.
From PV Require Import HashT.HashTDefs.
Local Open Scope N_scope.

(* the value is always a valid bucket index of a table of nb_bits bits *)
Lemma rehash_range : forall k b, rehash k b < 2 ^ b.
Proof.
  intros k b. unfold rehash. cbv zeta.
  set (s := (_ + HB) mod two64).
  apply N.div_lt_upper_bound; [apply N.pow_nonzero; lia|].
  rewrite <- N.pow_add_r. apply N.mod_lt. apply N.pow_nonzero; lia.
Qed.

(* the index in a smaller table is the low part of the index in a larger one: two keys
   that share a bucket of a table share a bucket in every smaller (older) table *)
Lemma rehash_low_bits : forall k b c, c <= b -> rehash k b mod 2 ^ c = rehash k c.
Proof.
  intros k b c Hcb. unfold rehash. cbv zeta.
  set (s := (_ + HB) mod two64).
  apply N.bits_inj. intros n.
  destruct (N.lt_ge_cases n c) as [Hn|Hn].
  - rewrite N.mod_pow2_bits_low by assumption.
    rewrite <- !N.shiftr_div_pow2, !N.shiftr_spec'.
    rewrite !N.mod_pow2_bits_low by lia. reflexivity.
  - rewrite N.mod_pow2_bits_high by assumption.
    rewrite <- N.shiftr_div_pow2, N.shiftr_spec'.
    rewrite N.mod_pow2_bits_high by lia. reflexivity.
Qed.

Lemma rehash_same_bucket_older : forall k1 k2 b c, c <= b ->
  rehash k1 b = rehash k2 b -> rehash k1 c = rehash k2 c.
Proof. intros k1 k2 b c H E. rewrite <- (rehash_low_bits k1 b c H), <- (rehash_low_bits k2 b c H), E. reflexivity. Qed.

(* only the low 64 bits of the key matter (parsec_key_t is a uintptr_t) *)
Lemma rehash_key_mod : forall k b, rehash (k mod two64) b = rehash k b.
Proof. intros. unfold rehash. cbv zeta. rewrite N.mod_mod by (unfold two64; apply N.pow_nonzero; lia). reflexivity. Qed.

Lemma pow2_of_nat : forall n, N.of_nat (2 ^ n) = 2 ^ N.of_nat n.
Proof.
  induction n as [|n IH]; [reflexivity|].
  replace (N.of_nat (S n)) with (N.succ (N.of_nat n)) by (symmetry; apply Nat2N.inj_succ).
  rewrite Nat.pow_succ_r', Nat2N.inj_mul, IH, N.pow_succ_r by apply N.le_0_l. reflexivity.
Qed.

Lemma idx_range : forall k t, (idx k t < 2 ^ t_bits t)%nat.
Proof.
  intros k t. unfold idx.
  pose proof (rehash_range k (N.of_nat (t_bits t))) as H.
  pose proof (pow2_of_nat (t_bits t)) as E.
  rewrite <- E in H. lia.
Qed.
