(* C32, layer (3) of Properties_C32.v — every interleaving of the critical sections of
   HashT/HashTLinDefs.v is linearizable: the log written at the linearization points replays on
   the finite-map specification with the same results, and the table always represents the map
   reached by the log. *)
From Coq Require Import ZArith NArith List Bool Lia Permutation.
From PV Require Import Base.Tac Base.ListX HashT.HashTDefs HashT.HashTHashProofs HashT.HashTSeqProofs
  HashT.HashTConcDefs HashT.HashTLinDefs.
Import ListNotations.

(* every table of l' is a table of l (same size) that gained at most items of key kt *)
Definition Gain (kt : N) (l l' : list table) : Prop :=
  forall t', In t' l' -> exists t, In t l /\ t_bits t' = t_bits t /\
     forall k v, In (k, v) (t_items t') -> k = kt \/ In (k, v) (t_items t).
Lemma Gain_refl : forall kt l, Gain kt l l.
Proof. intros kt l t' H. exists t'. auto. Qed.
Lemma Gain_cons : forall kt a a' l l', t_bits a' = t_bits a ->
  (forall k v, In (k, v) (t_items a') -> k = kt \/ In (k, v) (t_items a)) ->
  Gain kt l l' -> Gain kt (a :: l) (a' :: l').
Proof.
  intros kt a a' l l' Hb Hi Hg t' [<-|H].
  - exists a. split; [now left|]. auto.
  - destruct (Hg t' H) as (t & A & B & C). exists t. split; [now right|]. auto.
Qed.
Lemma Gain_drop : forall kt a l l', Gain kt l l' -> Gain kt (a :: l) l'.
Proof. intros kt a l l' Hg t' H. destruct (Hg t' H) as (t & A & B). exists t. split; [now right|exact B]. Qed.

Fixpoint desc (l : list table) : Prop :=
  match l with
  | [] => True
  | t :: r => Forall (fun x => (t_bits x < t_bits t)%nat) r /\ desc r
  end.
Lemma Gain_below : forall kt b l l', Gain kt l l' -> Forall (fun x => (t_bits x < b)%nat) l ->
  Forall (fun x => (t_bits x < b)%nat) l'.
Proof.
  intros kt b l l' Hg Hf. apply Forall_forall. intros t' H.
  destruct (Hg t' H) as (t & A & B & _). rewrite Forall_forall in Hf. rewrite B. now apply Hf.
Qed.

(* one step of the walk, by outcome.  WEnd: no table is left below the cursor.  WCont: the tables between the
   two cursors do not hold k.  WFound: the item is unlinked (and its table from the chain if that emptied it) *)
Lemma old_step_spec : forall c k olds, OldsOk olds -> desc olds ->
  match old_step c k olds with
  | WEnd => forall t, In t olds -> (c <= t_bits t)%nat
  | WCont c' => (c' < c)%nat /\
      forall t, In t olds -> (c' <= t_bits t)%nat -> (t_bits t < c)%nat -> ~ In k (keys_of (t_items t))
  | WFound v olds' => OldsOk olds' /\ desc olds' /\ Permutation (items_of olds) ((k, v) :: items_of olds') /\
      Gain k olds olds'
  end.
Proof.
  induction olds as [|t r IH]; intros Hok Hd; cbn [old_step]; [intros t []|].
  inv Hok. destruct H1 as [Ht Ho]. destruct Hd as [Hb Hd]. specialize (IH H2 Hd).
  unfold items_of. cbn [flat_map].
  destruct (Nat.ltb (t_bits t) c) eqn:El.
  - apply Nat.ltb_lt in El. pose proof (old_sec_spec k t Ht Ho) as Hs.
    destruct (old_sec k t) as [[v [t'|]]|].
    + destruct Hs as (A & B & Eb & C).
      split; [constructor; auto|]. split; [cbn [desc]; rewrite Eb; auto|].
      split; [cbn [flat_map]; rewrite C; reflexivity|].
      apply Gain_cons; [assumption| |apply Gain_refl].
      intros k' v' Hin. right. eapply Permutation_in; [symmetry; exact C|]. now right.
    + split; [assumption|]. split; [assumption|]. split; [rewrite Hs; reflexivity|].
      apply Gain_drop, Gain_refl.
    + split; [assumption|]. intros t2 [<-|Hin] Hge Hlt; [exact Hs|].
      rewrite Forall_forall in Hb. specialize (Hb t2 Hin). lia.
  - apply Nat.ltb_ge in El. destruct (old_step c k r) as [|c1|v1 r'].
    + intros t2 [<-|Hin]; [assumption|now apply IH].
    + destruct IH as [A B]. split; [assumption|]. intros t2 [<-|Hin] Hge Hlt; [lia|]. now apply B.
    + destruct IH as (A & B & C & D).
      split; [constructor; auto|]. split; [cbn [desc]; split; [eapply Gain_below; eauto|assumption]|].
      split; [|apply Gain_cons; auto].
      cbn [flat_map]. fold (items_of r) (items_of r'). rewrite C. symmetry. apply Permutation_middle.
Qed.

Lemma Rep_parts : forall h m, Rep h m -> exists t olds, h_tabs h = t :: olds /\ Tok t /\ OldsOk olds /\
  NoDup (keys_of (all_items h)).
Proof. intros h m [Hinv _]. exact Hinv. Qed.

(* an item found in an old table: what a find (the item moves to the newest table) and a remove leave *)
Lemma Rep_found_old : forall h m t olds olds' k v, Rep h m -> h_tabs h = t :: olds -> OldsOk olds' ->
  Permutation (items_of olds) ((k, v) :: items_of olds') ->
  m k = Some v /\ Rep (set_tabs h (t_push k v t :: olds')) m /\ Rep (set_tabs h (t :: olds')) (fupd m k None).
Proof.
  intros h m t olds olds' k v HR E Ho' P.
  destruct (Inv_move _ _ _ _ _ _ (proj1 HR) E Ho' P) as (A & B & _).
  destruct (Inv_take _ _ _ _ _ _ (proj1 HR) E Ho' P) as [C D].
  destruct (Rep_less _ _ _ _ _ HR C D) as [F G].
  split; [exact G|]. split; [exact (Rep_same _ _ _ HR A B)|exact F].
Qed.

Lemma nolock_find_top : forall h top olds k v, h_tabs h = top :: olds ->
  bfind k (b_items (get_bkt top (idx k top))) = Some v -> nolock_find k h = (Some v, h).
Proof. intros h top olds k v E Ef. unfold nolock_find. rewrite E, Ef. reflexivity. Qed.
Lemma nolock_remove_top : forall h top olds k v, h_tabs h = top :: olds ->
  bfind k (b_items (get_bkt top (idx k top))) = Some v ->
  nolock_remove k h = (Some v, set_tabs h (set_bkt top (idx k top) (b_del k (get_bkt top (idx k top))) :: olds)).
Proof. intros h top olds k v E Ef. unfold nolock_remove. rewrite E. cbv zeta. rewrite Ef. reflexivity. Qed.

Inductive Lin : list (nat * cop * option N) -> fmap -> Prop :=
| Lin_nil : Lin [] fempty
| Lin_cons : forall l m t o r, Lin l m -> spec_pre m (op_of o) -> spec_res m (op_of o) (res_of o r) ->
    Lin ((t, o, r) :: l) (spec_next m (op_of o)).

Lemma spec_run_app : forall ops rs m o r, spec_run m ops rs -> spec_res (spec_final m ops) o r ->
  spec_run m (ops ++ [o]) (rs ++ [r]).
Proof.
  induction ops as [|a ops IH]; intros rs m o r H Hr; destruct rs as [|x rs]; cbn [spec_run app] in *; try contradiction.
  - auto.
  - destruct H as [A B]. split; [assumption|]. apply IH; assumption.
Qed.
Lemma spec_pre_run_app : forall ops m o, spec_pre_run m ops -> spec_pre (spec_final m ops) o -> spec_pre_run m (ops ++ [o]).
Proof.
  induction ops as [|a ops IH]; intros m o H Hp; cbn [spec_pre_run app] in *; [auto|].
  destruct H as [A B]. split; [assumption|]. apply IH; assumption.
Qed.
Lemma Lin_spec : forall l m, Lin l m ->
  spec_pre_run fempty (log_ops l) /\ spec_run fempty (log_ops l) (log_res l) /\ m = spec_final fempty (log_ops l).
Proof.
  induction 1 as [|l m t o r HL IH Hp Hr]; [cbn; auto|].
  destruct IH as (A & B & C). unfold log_ops, log_res. cbn [map rev fst snd].
  fold (log_ops l) (log_res l). split; [|split].
  - apply spec_pre_run_app; [assumption|]. now rewrite <- C.
  - apply spec_run_app; [assumption|]. now rewrite <- C.
  - unfold spec_final. rewrite fold_left_app. cbn [fold_left]. fold (spec_final fempty (log_ops l)). now rewrite <- C.
Qed.

(* two threads inside critical sections hold different buckets of the newest table *)
Definition Excl (c : lcfg) : Prop := forall t u a b, t <> u ->
  nth_error (l_thr c) t = Some a -> nth_error (l_thr c) u = Some b ->
  in_cs a = true -> in_cs b = true ->
  bidx (top_bits (l_h c)) (lt_key a) <> bidx (top_bits (l_h c)) (lt_key b).
(* a thread that walks the old tables: its key is in no table of at least c bits *)
Definition WalkOk (h : ht) (th : lthread) : Prop :=
  match lt_pc th with
  | LWalk c => (c <= top_bits h)%nat /\
               match lt_ops th with CFind _ :: _ | CRem _ :: _ => True | _ => False end /\
               forall t, In t (h_tabs h) -> (c <= t_bits t)%nat -> ~ In (lt_key th) (keys_of (t_items t))
  | _ => True
  end.
Record Good (c : lcfg) : Prop := {
  g_rep : exists m, Lin (l_log c) m /\ Rep (l_h c) m;
  g_desc : desc (h_tabs (l_h c));
  g_excl : Excl c;
  g_walk : forall t th, nth_error (l_thr c) t = Some th -> WalkOk (l_h c) th }.

Lemma WalkOk_gain : forall h h' th kt, WalkOk h th -> Gain kt (h_tabs h) (h_tabs h') ->
  top_bits h' = top_bits h -> (in_cs th = true -> lt_key th <> kt) -> WalkOk h' th.
Proof.
  intros h h' th kt HW HG Etb Hk. unfold WalkOk in *. destruct (lt_pc th) eqn:Ep; auto.
  destruct HW as (A & B & C). split; [now rewrite Etb|]. split; [assumption|].
  intros t' Hin Hge Hk'. destruct (HG t' Hin) as (t & Ht & Eb & Hsub).
  apply in_map_iff in Hk'. destruct Hk' as ([k' v] & Ek & Hin'). cbn in Ek. subst k'.
  destruct (Hsub _ _ Hin') as [E|Hin2].
  - apply Hk; [unfold in_cs; now rewrite Ep|assumption].
  - apply (C t Ht); [now rewrite <- Eb|]. eapply in_keys; eauto.
Qed.

(* a thread that starts its walk: the key is not in the newest table, and no table is larger *)
Lemma WalkOk_start : forall h top olds o rest, h_tabs h = top :: olds -> Tok top -> desc (top :: olds) ->
  match o with CIns _ _ => False | _ => True end ->
  bfind (cop_key o) (b_items (get_bkt top (idx (cop_key o) top))) = None ->
  WalkOk h {| lt_pc := LWalk (t_bits top); lt_ops := o :: rest |}.
Proof.
  intros h top olds o rest Eh Htop [Hbelow _] Hop Ef. unfold WalkOk, top_bits, lt_key. cbn [lt_pc lt_ops]. rewrite Eh.
  split; [apply le_n|]. split; [destruct o; [destruct Hop|exact I|exact I]|].
  intros t0 [<-|Hin] Hge; [now apply t_notin_bucket_notin|].
  rewrite Forall_forall in Hbelow. specialize (Hbelow t0 Hin). lia.
Qed.

(* h' comes from h by a critical section on key k: the newest table keeps its size, the sizes still
   descend, and the tables gained at most items of key k *)
Definition After (k : N) (h h' : ht) : Prop :=
  desc (h_tabs h') /\ top_bits h' = top_bits h /\ Gain k (h_tabs h) (h_tabs h').
Lemma After_refl : forall k h, desc (h_tabs h) -> After k h h.
Proof. intros k h Hd. split; [exact Hd|]. split; [reflexivity|apply Gain_refl]. Qed.
Lemma After_tabs : forall k h top olds top' olds', h_tabs h = top :: olds -> desc (top :: olds) ->
  t_bits top' = t_bits top ->
  (forall k' v', In (k', v') (t_items top') -> k' = k \/ In (k', v') (t_items top)) ->
  desc olds' -> Gain k olds olds' -> After k h (set_tabs h (top' :: olds')).
Proof.
  intros k h top olds top' olds' Eh [Hbelow _] Eb Hi Hd' Hg. unfold After, top_bits. rewrite Eh.
  cbn [set_tabs h_tabs desc]. rewrite Eb.
  split; [split; [eapply Gain_below; eauto|exact Hd']|]. split; [reflexivity|now apply Gain_cons].
Qed.

Lemma gain_push : forall k v t, Tok t -> forall k' v', In (k', v') (t_items (t_push k v t)) -> k' = k \/ In (k', v') (t_items t).
Proof.
  intros k v t Ht k' v' Hin. pose proof (t_push_items k v t Ht) as P.
  pose proof (Permutation_in (k', v') P Hin) as H. cbn [In] in H.
  destruct H as [E|H]; [injection E as E1 E2; left; congruence|right; exact H].
Qed.

Lemma existsb_false_nth : forall {A} (f : A -> bool) l i x, existsb f l = false -> nth_error l i = Some x -> f x = false.
Proof.
  intros A f l i x H Hx. destruct (f x) eqn:E; [|reflexivity].
  assert (existsb f l = true) by (apply existsb_exists; exists x; split; [eapply nth_error_In; eauto|assumption]). congruence.
Qed.

Lemma top_bits_set : forall h t l, top_bits (set_tabs h (t :: l)) = t_bits t.
Proof. reflexivity. Qed.

Lemma lstep_bad_mono : forall c t, l_bad c = true -> l_bad (lstep c t) = true.
Proof.
  intros c t H. unfold lstep. cbv zeta.
  repeat match goal with
         | |- context[match ?x with _ => _ end] => destruct x
         end; cbn [l_bad mk mk_log]; rewrite ?H; reflexivity.
Qed.

(* no thread other than t holds the bucket of the newest table that th' works on *)
Definition Free (c : lcfg) (t : nat) (th' : lthread) : Prop :=
  forall u b, u <> t -> nth_error (l_thr c) u = Some b -> in_cs b = true ->
    bidx (top_bits (l_h c)) (lt_key b) <> bidx (top_bits (l_h c)) (lt_key th').

Section Step.
Variables (c : lcfg) (t : nat) (th : lthread).
Hypothesis HG : Good c.
Hypothesis Et : nth_error (l_thr c) t = Some th.

(* thread t moves from th to th' *)
Lemma Good_upd : forall th' h' log' bad',
  (exists m, Lin log' m /\ Rep h' m) -> desc (h_tabs h') -> top_bits h' = top_bits (l_h c) ->
  (in_cs th' = true -> Free c t th') -> WalkOk h' th' ->
  (forall u thu, u <> t -> nth_error (l_thr c) u = Some thu -> WalkOk h' thu) ->
  Good {| l_h := h'; l_thr := upd (l_thr c) t th'; l_log := log'; l_bad := bad' |}.
Proof.
  intros th' h' log' bad' Hrep Hd Etb Hfree HW Hoth.
  constructor; cbn [l_h l_thr l_log]; auto.
  - intros x y a b Hne Ha Hb Ia Ib. cbn [l_h l_thr] in *. rewrite Etb.
    destruct (nth_upd_inv _ _ _ _ _ _ Et Ha) as [[-> ->]|[Hx Ha']];
      destruct (nth_upd_inv _ _ _ _ _ _ Et Hb) as [[-> ->]|[Hy Hb']].
    + congruence.
    + intros E. apply (Hfree Ia y b Hy Hb' Ib). now symmetry.
    + exact (Hfree Ib x a Hx Ha' Ia).
    + exact (g_excl c HG x y a b Hne Ha' Hb' Ia Ib).
  - intros u thu Hu. destruct (nth_upd_inv _ _ _ _ _ _ Et Hu) as [[-> ->]|[Hne Hu']]; [assumption|eapply Hoth; eauto].
Qed.

(* the table and the log stay as they are *)
Lemma Good_pc : forall th', (in_cs th' = true -> Free c t th') -> WalkOk (l_h c) th' -> Good (mk c (l_h c) t th').
Proof.
  intros th' Hfree HW. apply Good_upd; [exact (g_rep c HG)|exact (g_desc c HG)|reflexivity|exact Hfree|exact HW|].
  intros u thu _ Hu. exact (g_walk c HG u thu Hu).
Qed.

(* inside its critical section the thread keeps its bucket while it keeps its operation *)
Lemma Free_same : forall th', in_cs th = true -> lt_ops th' = lt_ops th -> Free c t th'.
Proof.
  intros th' Hcs Eo u b Hne Hu Hb. unfold lt_key at 2. rewrite Eo.
  exact (g_excl c HG u t b th Hne Hu Et Hb Hcs).
Qed.

(* a linearization point inside the critical section of thread t: the operation is logged with a result
   that the map allows, and the table, changed on the thread's key only, represents the next map;
   the walks of the other threads are on other keys *)
Lemma Good_lin : forall o rest m h' r rz bad, lt_ops th = o :: rest -> in_cs th = true ->
  Lin (l_log c) m -> spec_pre m (op_of o) -> spec_res m (op_of o) (res_of o r) ->
  Rep h' (spec_next m (op_of o)) -> After (cop_key o) (l_h c) h' ->
  Good (mk_log c h' t {| lt_pc := LEnd rz; lt_ops := o :: rest |} o r bad).
Proof.
  intros o rest m h' r rz bad Eo Hcs HL Hpre Hres HR' (Hd & Etb & Hg).
  apply Good_upd; [|exact Hd|exact Etb| |exact I|].
  - exists (spec_next m (op_of o)). split; [now constructor|exact HR'].
  - intros _. apply Free_same; [exact Hcs|now symmetry].
  - intros u thu Hne Hu. eapply WalkOk_gain; [exact (g_walk c HG u thu Hu)|exact Hg|exact Etb|].
    intros Hcu E. apply (g_excl c HG u t thu th Hne Hu Et Hcu Hcs).
    rewrite E. unfold lt_key. now rewrite Eo.
Qed.

Lemma lstep_top : forall o rest, lt_ops th = o :: rest -> lt_pc th = LTop ->
  l_bad (lstep c t) = false -> Good (lstep c t).
Proof.
  intros o rest Eo Ep Hb. unfold lstep in Hb |- *. rewrite Et, Eo, Ep in Hb |- *. cbv beta iota zeta in Hb |- *.
  assert (Hcs : in_cs th = true) by (unfold in_cs; now rewrite Ep).
  destruct (g_rep c HG) as (m & HL & HR). destruct (Rep_parts _ _ HR) as (top & olds & Eh & Htop & _ & _).
  pose proof (g_desc c HG) as Hd. rewrite Eh in Hb, Hd |- *.
  destruct o as [k v|k|k]; cbn [cop_key] in *.
  - (* insert *)
    cbn [l_bad mk_log] in Hb. apply orb_false_iff in Hb. destruct Hb as [_ Hb].
    assert (Hmk : m k = None).
    { rewrite <- (proj2 HR). unfold lookup. destruct (bfind k (all_items (l_h c))); [discriminate|reflexivity]. }
    eapply Good_lin; [exact Eo|exact Hcs|exact HL|exact Hmk|reflexivity|now apply Rep_insert|].
    unfold nolock_insert. rewrite Eh.
    apply (After_tabs _ _ _ _ _ _ Eh Hd); [reflexivity|now apply gain_push|apply Hd|apply Gain_refl].
  - (* find *)
    destruct (bfind k (b_items (get_bkt top (idx k top)))) as [v|] eqn:Ef.
    + destruct (Rep_find k _ _ HR) as [A _]. rewrite (nolock_find_top _ _ _ _ _ Eh Ef) in A.
      eapply Good_lin; [exact Eo|exact Hcs|exact HL|exact I| |exact HR|apply After_refl, (g_desc c HG)].
      cbn [op_of res_of spec_res]. now rewrite <- A.
    + apply Good_pc; [intros _; now apply Free_same|]. now apply (WalkOk_start _ _ olds).
  - (* remove *)
    destruct (bfind k (b_items (get_bkt top (idx k top)))) as [v|] eqn:Ef.
    + destruct (Rep_remove k _ _ HR) as [A B].
      rewrite (nolock_remove_top _ _ _ _ _ Eh Ef) in A, B |- *. cbn [fst snd] in A, B |- *.
      eapply Good_lin; [exact Eo|exact Hcs|exact HL|exact I| |exact B|].
      * cbn [op_of res_of spec_res]. now rewrite <- A.
      * apply (After_tabs _ _ _ _ _ _ Eh Hd); [reflexivity| |apply Hd|apply Gain_refl].
        intros k' v' Hin. right. destruct (t_del_ok k v top Htop Ef) as [_ P].
        eapply Permutation_in; [symmetry; exact P|]. right. exact Hin.
    + apply Good_pc; [intros _; now apply Free_same|]. now apply (WalkOk_start _ _ olds).
Qed.

Lemma lstep_walk : forall o rest cur, lt_ops th = o :: rest -> lt_pc th = LWalk cur -> Good (lstep c t).
Proof.
  intros o rest cur Eo Ep. unfold lstep. rewrite Et, Eo, Ep. cbv beta iota zeta.
  assert (Hcs : in_cs th = true) by (unfold in_cs; now rewrite Ep).
  destruct (g_rep c HG) as (m & HL & HR). destruct (Rep_parts _ _ HR) as (top & olds & Eh & Htop & Holds & _).
  pose proof (g_desc c HG) as Hd. pose proof (g_walk c HG t th Et) as HW.
  unfold WalkOk, lt_key, top_bits in HW. rewrite Ep, Eo, Eh in HW. rewrite Eh in Hd |- *.
  destruct HW as (Hc & Hop & Hw). destruct Hd as [Hbelow Hdo].
  pose proof (old_step_spec cur (cop_key o) olds Holds Hdo) as Hs.
  destruct (old_step cur (cop_key o) olds) as [|c'|v olds'].
  - (* nothing left below the cursor: the key is nowhere *)
    assert (Hmk : m (cop_key o) = None).
    { rewrite <- (proj2 HR). apply lookup_absent. rewrite Eh. intros t0 Hin. apply (Hw t0 Hin).
      destruct Hin as [<-|Hin]; [assumption|now apply Hs]. }
    destruct o as [k v|k|k]; [destruct Hop| |]; cbn [cop_key] in Hmk;
      (eapply (Good_lin _ _ m); [exact Eo|exact Hcs|exact HL|exact I| | |apply After_refl, (g_desc c HG)]);
      cbn [op_of res_of spec_res spec_next].
    + now rewrite Hmk.
    + exact HR.
    + now rewrite Hmk.
    + now apply Rep_fupd_none.
  - (* not in this table: move the cursor *)
    destruct Hs as [Hlt Hbetween].
    apply Good_pc; [intros _; now apply Free_same|].
    unfold WalkOk, lt_key, top_bits. cbn [lt_pc lt_ops]. rewrite Eh.
    split; [lia|]. split; [exact Hop|]. intros t0 Hin Hge.
    destruct (le_lt_dec cur (t_bits t0)) as [Hhi|Hlo]; [apply Hw; assumption|].
    destruct Hin as [<-|Hin]; [lia|]. apply Hbetween; assumption.
  - (* found: unlinked from the old table (and that table from the chain if it became empty) *)
    destruct Hs as (Ho' & Hd' & P & Gn).
    destruct (Rep_found_old _ _ _ _ _ _ _ HR Eh Ho' P) as (Hmk & HRf & HRr).
    destruct o as [k v0|k|k]; [destruct Hop| |]; cbn [cop_key] in *.
    + eapply Good_lin; [exact Eo|exact Hcs|exact HL|exact I| |exact HRf|].
      * cbn [op_of res_of spec_res]. now rewrite Hmk.
      * apply (After_tabs _ _ _ _ _ _ Eh (conj Hbelow Hdo)); [reflexivity|now apply gain_push|exact Hd'|exact Gn].
    + eapply Good_lin; [exact Eo|exact Hcs|exact HL|exact I| |exact HRr|].
      * cbn [op_of res_of spec_res]. now rewrite Hmk.
      * apply (After_tabs _ _ _ _ _ _ Eh (conj Hbelow Hdo)); [reflexivity|intros; now right|exact Hd'|exact Gn].
Qed.

(* the write section: nobody reads, so nobody is inside a critical section or a walk *)
Lemma Good_quiet : forall h' rest, existsb is_reader (l_thr c) = false ->
  (exists m, Lin (l_log c) m /\ Rep h' m) -> desc (h_tabs h') ->
  Good (mk c h' t {| lt_pc := LIdle; lt_ops := rest |}).
Proof.
  intros h' rest Hex Hrep Hd. unfold mk.
  assert (Hq : forall u b, nth_error (upd (l_thr c) t {| lt_pc := LIdle; lt_ops := rest |}) u = Some b -> is_reader b = false).
  { intros u b Hu. destruct (nth_upd_inv _ _ _ _ _ _ Et Hu) as [[_ ->]|[_ Hu']]; [reflexivity|].
    eapply existsb_false_nth; eauto. }
  constructor; cbn [l_h l_thr l_log]; auto.
  - intros x y a b _ Ha _ Ia _. apply Hq in Ha. unfold is_reader in Ha. unfold in_cs in Ia.
    destruct (lt_pc a); discriminate.
  - intros u thu Hu. apply Hq in Hu. unfold is_reader in Hu. unfold WalkOk. destruct (lt_pc thu); try exact I; discriminate.
Qed.
End Step.

Lemma lstep_good : forall c t, Good c -> l_bad (lstep c t) = false -> Good (lstep c t).
Proof.
  intros c t HG Hb.
  destruct (nth_error (l_thr c) t) as [th|] eqn:Et; [|unfold lstep; now rewrite Et].
  destruct (lt_ops th) as [|o rest] eqn:Eo; [unfold lstep; now rewrite Et, Eo|].
  destruct (lt_pc th) as [| | |cur|rz|rz|tb] eqn:Ep;
    [| |now apply (lstep_top c t th HG Et o rest)|now apply (lstep_walk c t th HG Et o rest cur)| | |];
    unfold lstep in Hb |- *; rewrite Et, Eo, Ep in Hb |- *; cbv beta iota zeta in Hb |- *.
  - (* LIdle: rdlock *)
    now apply (Good_pc c t th).
  - (* LRd: the bucket lock of the newest table, if it is free *)
    destruct (existsb (holds (top_bits (l_h c)) (bidx (top_bits (l_h c)) (cop_key o))) (l_thr c)) eqn:Ex; [assumption|].
    apply (Good_pc c t th HG Et); [|exact I].
    intros _ u b _ Hu Hcs E. pose proof (existsb_false_nth _ _ _ _ Ex Hu) as Hh. unfold holds in Hh.
    rewrite Hcs, E, Nat.eqb_refl in Hh. discriminate.
  - (* LEnd: unlock the newest bucket *)
    now apply (Good_pc c t th).
  - (* LRel: rdunlock *)
    destruct rz; now apply (Good_pc c t th).
  - (* LResize: the write section *)
    destruct (existsb is_reader (l_thr c)) eqn:Er; [assumption|].
    destruct (g_rep c HG) as (m & HL & HR). pose proof (g_desc c HG) as Hd.
    apply (Good_quiet c t th Et); [exact Er| |]; destruct (Nat.eqb tb (top_bits (l_h c))).
    + exists m. split; [assumption|now apply Rep_resize].
    + exists m. split; assumption.
    + destruct (Rep_parts _ _ HR) as (top & olds & Eh & _). unfold resize. rewrite Eh in Hd |- *.
      cbn [set_tabs h_tabs desc new_table set_used t_bits]. split; [|exact Hd].
      constructor; [unfold set_used; cbn [t_bits]; lia|]. eapply Forall_impl; [|apply Hd]. cbn beta. intros; lia.
    + exact Hd.
Qed.

Lemma Good_init : forall bits hint maxbits progs, Good (linit bits hint maxbits progs).
Proof.
  intros. assert (Hidle : forall u b, nth_error (l_thr (linit bits hint maxbits progs)) u = Some b -> lt_pc b = LIdle).
  { intros u b H. cbn [linit l_thr] in H. apply nth_error_In in H. apply in_map_iff in H.
    destruct H as (p & <- & _). reflexivity. }
  constructor.
  - exists fempty. split; [constructor|apply Rep_init].
  - cbn. split; [constructor|exact I].
  - intros x y a b _ Ha _ Ia _. apply Hidle in Ha. unfold in_cs in Ia. rewrite Ha in Ia. discriminate.
  - intros u thu Hu. apply Hidle in Hu. unfold WalkOk. rewrite Hu. exact I.
Qed.

Lemma lrun_good : forall sched c, Good c -> l_bad (lrun c sched) = false -> Good (lrun c sched).
Proof.
  induction sched as [|t s IH] using rev_ind; intros c HG Hb; [assumption|].
  unfold lrun in *. rewrite fold_left_app in *. cbn [fold_left] in *.
  apply lstep_good; [|assumption]. apply IH; [assumption|].
  destruct (l_bad (fold_left lstep s c)) eqn:E; [|reflexivity].
  rewrite (lstep_bad_mono _ t E) in Hb. discriminate.
Qed.

(* every interleaving of the critical sections, any number of threads and operations: if no insert
   found its key present (the clients respected the precondition), the operations, taken in the order of
   their linearization points with the results they returned, form a legal run of the finite map, and
   the table represents the map reached *)
Theorem linearizable : forall bits hint maxbits progs sched,
  let c := lrun (linit bits hint maxbits progs) sched in
  l_bad c = false ->
  spec_pre_run fempty (log_ops (l_log c)) /\
  spec_run fempty (log_ops (l_log c)) (log_res (l_log c)) /\
  Rep (l_h c) (spec_final fempty (log_ops (l_log c))).
Proof.
  intros bits hint maxbits progs sched c Hb. subst c.
  pose proof (lrun_good sched _ (Good_init bits hint maxbits progs) Hb) as HG.
  destruct (g_rep _ HG) as (m & HL & HR). destruct (Lin_spec _ _ HL) as (A & B & C).
  split; [assumption|]. split; [assumption|]. rewrite <- C. exact HR.
Qed.

(* a step of thread u writes at most one log entry, for u's current operation *)
Lemma lstep_log : forall c u th, nth_error (l_thr c) u = Some th ->
  l_log (lstep c u) = l_log c \/
  exists o rest r, lt_ops th = o :: rest /\ l_log (lstep c u) = (u, o, r) :: l_log c.
Proof.
  intros c u th Hu. unfold lstep. cbv zeta. rewrite Hu.
  destruct (lt_ops th) as [|o rest]; [left; reflexivity|].
  repeat match goal with
         | |- context[match ?x with _ => _ end] => destruct x
         end; cbn [l_log mk mk_log]; try (left; reflexivity); right; eexists _, _, _; split; reflexivity.
Qed.

(* a step of thread u leaves every key other than the one of u's current operation as it is:
   together with [g_excl], nobody but the holder of the newest bucket lock of k changes
   the binding of k, in whatever table it is stored *)
Theorem step_keeps_other_keys : forall c u th, Good c -> l_bad (lstep c u) = false ->
  nth_error (l_thr c) u = Some th ->
  forall k, k <> lt_key th -> lookup (l_h (lstep c u)) k = lookup (l_h c) k.
Proof.
  intros c u th HG Hb Hu k Hk.
  pose proof (lstep_good c u HG Hb) as HG'.
  destruct (g_rep _ HG) as (m & HL & [_ Hl]). destruct (g_rep _ HG') as (m' & HL' & [_ Hl']).
  rewrite Hl, Hl'. destruct (Lin_spec _ _ HL) as (_ & _ & ->). destruct (Lin_spec _ _ HL') as (_ & _ & ->).
  destruct (lstep_log c u th Hu) as [E|(o & rest & r & Eo & E)]; rewrite E; [reflexivity|].
  unfold log_ops. cbn [map rev fst snd]. unfold spec_final. rewrite fold_left_app. cbn [fold_left].
  assert (Ek : lt_key th = cop_key o) by (unfold lt_key; rewrite Eo; reflexivity). rewrite Ek in Hk.
  destruct o as [k0 v|k0|k0]; cbn [op_of spec_next cop_key] in *; try reflexivity;
    unfold fupd; destruct (N.eqb k k0) eqn:En; try reflexivity; apply N.eqb_eq in En; congruence.
Qed.
