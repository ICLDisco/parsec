(* C32 — sequential refinement of the hash-table model (HashT/HashTDefs.v) to a finite map.
   Every operation permutes / extends / shrinks the list of stored items ([all_items], the
   order in which parsec_hash_table_for_all visits them) in the way the map operation
   prescribes, and keeps the structural invariant [Inv]; [Rep h m] adds that lookups in h give m.
   [run_refines] started at [Rep_init] is the refinement theorem of Properties_C32.v. *)
From Coq Require Import ZArith NArith List Bool Lia Permutation.
From PV Require Import Base.Tac Base.ListX HashT.HashTDefs HashT.HashTHashProofs.
Import ListNotations.
Local Open Scope Z_scope.

Lemma bfind_some_in : forall k l v, bfind k l = Some v -> In (k, v) l.
Proof.
  induction l as [|[k' v'] l IH]; intros v H; cbn [bfind] in H; [discriminate|].
  destruct (N.eqb k' k) eqn:E.
  - apply N.eqb_eq in E. inv H. now left.
  - right. auto.
Qed.
Lemma bfind_none_notin : forall k l, bfind k l = None -> ~ In k (map fst l).
Proof.
  induction l as [|[k' v'] l IH]; intros H; cbn [bfind] in H; [intros []|].
  destruct (N.eqb k' k) eqn:E; [discriminate|].
  apply N.eqb_neq in E. cbn. intros [A|A]; [congruence|]. now apply IH.
Qed.
Lemma in_keys : forall (k v : N) (l : list item), In (k, v) l -> In k (map fst l).
Proof. intros k v l H. change k with (fst (k, v)). now apply in_map. Qed.
Lemma bfind_in_nodup : forall k v l, NoDup (map fst l) -> In (k, v) l -> bfind k l = Some v.
Proof.
  induction l as [|[k' v'] l IH]; intros Hnd Hin; [destruct Hin|].
  cbn [map fst] in Hnd. inv Hnd. cbn [bfind]. destruct Hin as [A|A].
  - inv A. now rewrite N.eqb_refl.
  - destruct (N.eqb k' k) eqn:E; [|auto].
    apply N.eqb_eq in E. subst k'. exfalso. apply H1. eapply in_keys; eauto.
Qed.
Lemma bfind_notin_none : forall k l, ~ In k (map fst l) -> bfind k l = None.
Proof.
  intros k l H. destruct (bfind k l) as [v|] eqn:E; [|reflexivity].
  exfalso. apply H. eapply in_keys. eapply bfind_some_in; eauto.
Qed.
Lemma bfind_perm : forall l l', NoDup (map fst l) -> Permutation l l' -> forall k, bfind k l = bfind k l'.
Proof.
  intros l l' Hl P k. symmetry. destruct (bfind k l) as [v|] eqn:E.
  - apply bfind_in_nodup; [eapply Permutation_NoDup; [apply Permutation_map; exact P|exact Hl]|].
    eapply Permutation_in; [exact P|]. now apply bfind_some_in.
  - apply bfind_notin_none. intros Hin. apply (bfind_none_notin _ _ E).
    eapply Permutation_in; [symmetry; apply Permutation_map; exact P|exact Hin].
Qed.
Lemma bdel_perm : forall k l v, bfind k l = Some v -> Permutation l ((k, v) :: bdel k l).
Proof.
  induction l as [|[k' v'] l IH]; intros v H; cbn [bfind] in H; [discriminate|].
  cbn [bdel]. destruct (N.eqb k' k) eqn:E.
  - apply N.eqb_eq in E. inv H. reflexivity.
  - etransitivity; [apply perm_skip, IH, H|]. apply perm_swap.
Qed.
Lemma bdel_length : forall k l v, bfind k l = Some v -> length l = S (length (bdel k l)).
Proof. intros k l v H. apply bdel_perm in H. apply Permutation_length in H. exact H. Qed.

Section FlatUpd.
Context {A B : Type} (f : A -> list B).
Definition others (l : list A) (i : nat) : list A := firstn i l ++ skipn (S i) l.
Lemma flat_map_mid : forall (l1 l2 : list A) a,
  Permutation (flat_map f (l1 ++ a :: l2)) (f a ++ flat_map f (l1 ++ l2)).
Proof.
  intros l1 l2 a. rewrite !flat_map_app. cbn [flat_map]. rewrite !app_assoc.
  apply Permutation_app_tail, Permutation_app_comm.
Qed.
End FlatUpd.

Lemma nth_error_get : forall t i b, nth_error (t_bkts t) i = Some b -> get_bkt t i = b.
Proof. intros t i b H. unfold get_bkt. now apply nth_error_nth. Qed.

(* a bucket at index i of a table of [bits] bits: the counter is the length of the list and
   every item hashes to i *)
Definition Bok (bits i : nat) (b : bucket) : Prop :=
  b_len b = Z.of_nat (length (b_items b)) /\
  forall k v, In (k, v) (b_items b) -> N.to_nat (rehash k (N.of_nat bits)) = i.
Definition Tok (t : table) : Prop :=
  length (t_bkts t) = (2 ^ t_bits t)%nat /\
  forall i b, nth_error (t_bkts t) i = Some b -> Bok (t_bits t) i b.
(* an old table: used_buckets is the number of non-empty buckets *)
Definition Oldok (t : table) : Prop := t_used t = cnt nonempty (t_bkts t).
Definition keys_of (l : list item) : list N := map fst l.
Definition Inv (h : ht) : Prop :=
  exists t olds, h_tabs h = t :: olds /\ Tok t /\ Forall (fun o => Tok o /\ Oldok o) olds /\
                 NoDup (keys_of (all_items h)).

Lemma idx_bkt : forall k t, Tok t -> nth_error (t_bkts t) (idx k t) = Some (get_bkt t (idx k t)).
Proof.
  intros k t [Hl _]. destruct (nth_error (t_bkts t) (idx k t)) as [b|] eqn:E.
  - now rewrite (nth_error_get _ _ _ E).
  - apply nth_error_None in E. pose proof (idx_range k t). lia.
Qed.

Lemma Bok_get : forall k t, Tok t -> Bok (t_bits t) (idx k t) (get_bkt t (idx k t)).
Proof. intros k t Ht. apply (proj2 Ht). now apply idx_bkt. Qed.

(* an item of a table is in the bucket its key hashes to *)
Lemma t_items_in_bucket : forall t k v, Tok t -> In (k, v) (t_items t) ->
  In (k, v) (b_items (get_bkt t (idx k t))).
Proof.
  intros t k v Ht Hin. unfold t_items in Hin. apply in_flat_map in Hin.
  destruct Hin as (b & Hb & Hin). apply In_nth_error in Hb. destruct Hb as (i & Hi).
  destruct Ht as [_ Hb]. destruct (Hb i b Hi) as [_ Hp]. specialize (Hp k v Hin).
  unfold idx. rewrite Hp. now rewrite (nth_error_get _ _ _ Hi).
Qed.
Lemma bucket_in_t_items : forall t i b x, nth_error (t_bkts t) i = Some b -> In x (b_items b) -> In x (t_items t).
Proof.
  intros t i b x Hi Hin. unfold t_items. apply in_flat_map. exists b. split; [|assumption].
  eapply nth_error_In, Hi.
Qed.
Lemma t_notin_bucket_notin : forall t k, Tok t -> bfind k (b_items (get_bkt t (idx k t))) = None ->
  ~ In k (keys_of (t_items t)).
Proof.
  intros t k Ht Hf Hin. unfold keys_of in Hin. apply in_map_iff in Hin.
  destruct Hin as ([k' v] & Hk & Hin). cbn in Hk. subst k'.
  apply (bfind_none_notin _ _ Hf). eapply in_keys. eapply t_items_in_bucket; eauto.
Qed.

Lemma Tok_set_bkt : forall t i a b, Tok t -> nth_error (t_bkts t) i = Some a -> Bok (t_bits t) i b ->
  Tok (set_bkt t i b).
Proof.
  intros t i a b [Hl Hb] Ea Hbok. split; cbn [set_bkt t_bkts t_bits].
  - rewrite (len_upd _ _ _ _ Ea). exact Hl.
  - intros j c Hj. destruct (nth_upd_inv _ _ _ _ _ _ Ea Hj) as [[-> ->]|[_ Hj']]; [exact Hbok|now apply Hb].
Qed.
(* the items of a table, with those of bucket i in front *)
Lemma t_items_set_bkt : forall t i b,
  Permutation (t_items (set_bkt t i b)) (b_items b ++ flat_map b_items (others (t_bkts t) i)).
Proof. intros t i b. apply flat_map_mid. Qed.
Lemma t_items_split : forall t i a, nth_error (t_bkts t) i = Some a ->
  Permutation (t_items t) (b_items a ++ flat_map b_items (others (t_bkts t) i)).
Proof. intros t i a Ea. unfold t_items. rewrite (split_nth _ _ _ Ea) at 1. apply flat_map_mid. Qed.

Lemma Tok_t_push : forall k v t, Tok t -> Tok (t_push k v t).
Proof.
  intros k v t Ht. unfold t_push. apply (Tok_set_bkt _ _ _ _ Ht (idx_bkt k t Ht)).
  destruct (Bok_get k t Ht) as [Hlen Hp]. split; cbn [b_push b_len b_items].
  - cbn [length]. lia.
  - intros k' v' [A|A]; [inv A; reflexivity|eauto].
Qed.
Lemma t_push_items : forall k v t, Tok t -> Permutation (t_items (t_push k v t)) ((k, v) :: t_items t).
Proof.
  intros k v t Ht. unfold t_push. rewrite t_items_set_bkt. cbn [b_push b_items app].
  apply perm_skip. symmetry. apply t_items_split, idx_bkt, Ht.
Qed.

Definition t_del (k : N) (t : table) : table :=
  set_bkt t (idx k t) (b_del k (get_bkt t (idx k t))).

Lemma Bok_b_del : forall bits i k b v, Bok bits i b -> bfind k (b_items b) = Some v -> Bok bits i (b_del k b).
Proof.
  intros bits i k b v [Hl Hp] Hf. split; cbn [b_del b_len b_items].
  - rewrite Hl, (bdel_length _ _ _ Hf). lia.
  - intros k' v' Hin. apply (Hp k' v').
    eapply Permutation_in; [symmetry; apply (bdel_perm _ _ _ Hf)|]. now right.
Qed.
Lemma t_del_ok : forall k v t, Tok t -> bfind k (b_items (get_bkt t (idx k t))) = Some v ->
  Tok (t_del k t) /\ Permutation (t_items t) ((k, v) :: t_items (t_del k t)).
Proof.
  intros k v t Ht Ef. pose proof (idx_bkt k t Ht) as Hi. split.
  - apply (Tok_set_bkt _ _ _ _ Ht Hi). eapply Bok_b_del; [now apply Bok_get|exact Ef].
  - unfold t_del. rewrite (t_items_split t _ _ Hi), t_items_set_bkt. cbn [b_del b_items].
    rewrite (bdel_perm _ _ _ Ef) at 1. reflexivity.
Qed.

Lemma cnt_nonempty_zero : forall l, cnt nonempty l = 0 -> flat_map b_items l = [].
Proof.
  induction l as [|b l IH]; intros H; [reflexivity|].
  rewrite cnt_cons in H. pose proof (cnt_nonneg nonempty l).
  unfold nonempty in H at 1. cbn [flat_map]. destruct (b_items b) eqn:E; [|lia]. cbn. apply IH. lia.
Qed.
Lemma Bok_len_zero : forall bits i b, Bok bits i b -> (b_len b =? 0) = negb (nonempty b).
Proof. intros bits i b [Hl _]. rewrite Hl. unfold nonempty. now destruct (b_items b). Qed.

(* one old table, by outcome.  The item is unlinked from its bucket; the decrement of used_buckets that
   reaches 0 means that the table held nothing but the item *)
Lemma old_sec_spec : forall k t, Tok t -> Oldok t ->
  match old_sec k t with
  | Some (v, Some t') => Tok t' /\ Oldok t' /\ t_bits t' = t_bits t /\ Permutation (t_items t) ((k, v) :: t_items t')
  | Some (v, None) => Permutation (t_items t) [(k, v)]
  | None => ~ In k (keys_of (t_items t))
  end.
Proof.
  intros k t Ht Ho. unfold old_sec. cbv zeta. fold (t_del k t).
  destruct (bfind k (b_items (get_bkt t (idx k t)))) as [v|] eqn:Ef; [|now apply t_notin_bucket_notin].
  destruct (t_del_ok k v t Ht Ef) as [Ht' P].
  assert (Hne : nonempty (get_bkt t (idx k t)) = true).
  { unfold nonempty. destruct (b_items (get_bkt t (idx k t))); [discriminate Ef|reflexivity]. }
  (* the count of non-empty buckets went down by one exactly if the bucket became empty *)
  assert (Hcnt : cnt nonempty (t_bkts (t_del k t)) =
                 t_used t - (if b_len (b_del k (get_bkt t (idx k t))) =? 0 then 1 else 0)).
  { rewrite (Bok_len_zero _ _ _ (Bok_b_del _ _ _ _ _ (Bok_get k t Ht) Ef)).
    cbn [t_del set_bkt t_bkts]. rewrite (cnt_upd _ _ _ _ _ (idx_bkt k t Ht)), Hne, <- Ho.
    destruct (nonempty (b_del k (get_bkt t (idx k t)))); cbn [negb]; lia. }
  destruct (b_len (b_del k (get_bkt t (idx k t))) =? 0).
  - destruct (t_used t =? 1) eqn:Eu.
    + apply Z.eqb_eq in Eu. unfold t_items at 2 in P. rewrite cnt_nonempty_zero in P by lia. exact P.
    + split; [exact Ht'|]. split; [unfold Oldok; cbn [set_used t_used t_bkts]; lia|]. split; [reflexivity|exact P].
  - split; [exact Ht'|]. split; [unfold Oldok; rewrite Hcnt; cbn [t_del set_bkt t_used]; lia|].
    split; [reflexivity|exact P].
Qed.

Definition OldsOk (olds : list table) : Prop := Forall (fun o => Tok o /\ Oldok o) olds.
Definition items_of (l : list table) : list item := flat_map t_items l.

(* the walk over the old tables, by outcome *)
Lemma old_take_spec : forall k olds, OldsOk olds ->
  match old_take k olds with
  | Some (v, olds') => OldsOk olds' /\ Permutation (items_of olds) ((k, v) :: items_of olds')
  | None => forall t, In t olds -> ~ In k (keys_of (t_items t))
  end.
Proof.
  induction olds as [|t r IH]; intros Hf; cbn [old_take]; [intros t []|].
  inv Hf. destruct H1 as [Ht Ho]. specialize (IH H2). pose proof (old_sec_spec k t Ht Ho) as Hs.
  unfold items_of. cbn [flat_map].
  destruct (old_sec k t) as [[v [t'|]]|].
  - destruct Hs as (A & B & _ & C). split; [constructor; auto|]. cbn [flat_map]. rewrite C. reflexivity.
  - split; [assumption|]. rewrite Hs. reflexivity.
  - destruct (old_take k r) as [[v r']|].
    + destruct IH as [A B]. split; [constructor; auto|].
      cbn [flat_map]. fold (items_of r) (items_of r'). rewrite B. symmetry. apply Permutation_middle.
    + intros t0 [<-|Hin]; [exact Hs|now apply IH].
Qed.

Definition lookup (h : ht) (k : N) : option N := bfind k (all_items h).

Lemma nodup_keys_perm : forall l l' : list item, Permutation l l' -> NoDup (keys_of l) -> NoDup (keys_of l').
Proof. intros l l' P H. eapply Permutation_NoDup; [|exact H]. unfold keys_of. now apply Permutation_map. Qed.

Lemma nodup_keys_cons : forall (l l' : list item) k v, Permutation l ((k, v) :: l') -> NoDup (keys_of l) ->
  ~ In k (keys_of l') /\ NoDup (keys_of l').
Proof.
  intros l l' k v P H. pose proof (nodup_keys_perm _ _ P H) as Hn.
  unfold keys_of in Hn. cbn [map fst] in Hn. inv Hn. split; assumption.
Qed.

Lemma all_items_cons : forall h t olds, h_tabs h = t :: olds -> all_items h = t_items t ++ items_of olds.
Proof. intros h t olds E. unfold all_items. rewrite E. reflexivity. Qed.

Lemma Inv_intro : forall h t olds, h_tabs h = t :: olds -> Tok t -> OldsOk olds ->
  NoDup (keys_of (all_items h)) -> Inv h.
Proof. intros. exists t, olds. auto. Qed.
Lemma Inv_nodup : forall h, Inv h -> NoDup (keys_of (all_items h)).
Proof. intros h (t & olds & _ & _ & _ & H). exact H. Qed.

(* the table lists what [lookup] finds, and a key in no table is not found *)
Lemma lookup_in : forall h k v, Inv h -> In (k, v) (all_items h) <-> lookup h k = Some v.
Proof.
  intros h k v Hinv. split; [apply bfind_in_nodup; now apply Inv_nodup|apply bfind_some_in].
Qed.
Lemma lookup_absent : forall h k, (forall t, In t (h_tabs h) -> ~ In k (keys_of (t_items t))) -> lookup h k = None.
Proof.
  intros h k H. apply bfind_notin_none. intros Hin. apply in_map_iff in Hin.
  destruct Hin as ([k' v] & Ek & Hin). cbn in Ek. subst k'.
  apply in_flat_map in Hin. destruct Hin as (t & Ht & Hin). apply (H t Ht). eapply in_keys; eauto.
Qed.

Lemma new_table_items : forall bits, t_items (new_table bits) = [].
Proof.
  intros bits. unfold t_items, new_table. cbn [t_bkts].
  induction (2 ^ bits)%nat as [|n IH]; [reflexivity|]. cbn [repeat flat_map]. exact IH.
Qed.
Lemma Tok_new_table : forall bits, Tok (new_table bits).
Proof.
  intros bits. split; cbn [new_table t_bkts t_bits].
  - apply repeat_length.
  - intros i b H. apply nth_error_In in H. apply repeat_spec in H. subst b.
    split; cbn; [reflexivity|intros k v []].
Qed.

Lemma Inv_init : forall bits hint maxbits, Inv (ht_init bits hint maxbits) /\ all_items (ht_init bits hint maxbits) = [].
Proof.
  intros. assert (E : all_items (ht_init bits hint maxbits) = []).
  { unfold all_items, ht_init. cbn [h_tabs flat_map]. rewrite new_table_items. reflexivity. }
  split; [|exact E]. eapply Inv_intro; [reflexivity|apply Tok_new_table|constructor|]. rewrite E. constructor.
Qed.

(* an item of an old table leaves the table (remove) *)
Lemma Inv_take : forall h t olds olds' k v, Inv h -> h_tabs h = t :: olds -> OldsOk olds' ->
  Permutation (items_of olds) ((k, v) :: items_of olds') ->
  Inv (set_tabs h (t :: olds')) /\ Permutation (all_items h) ((k, v) :: all_items (set_tabs h (t :: olds'))).
Proof.
  intros h t olds olds' k v (t0 & olds0 & E0 & Ht & _ & Hnd) E Ho' P. rewrite E in E0. inv E0.
  assert (P2 : Permutation (all_items h) ((k, v) :: all_items (set_tabs h (t0 :: olds')))).
  { rewrite (all_items_cons h t0 olds0 E). erewrite all_items_cons by reflexivity.
    rewrite P. symmetry. apply Permutation_middle. }
  split; [|exact P2].
  eapply Inv_intro; [reflexivity|assumption|exact Ho'|apply (nodup_keys_cons _ _ _ _ P2 Hnd)].
Qed.

Lemma nolock_insert_ok : forall k v h, Inv h -> ~ In k (keys_of (all_items h)) ->
  Inv (nolock_insert k v h) /\ Permutation (all_items (nolock_insert k v h)) ((k, v) :: all_items h).
Proof.
  intros k v h (t & olds & E & Ht & Ho & Hnd) Hk. unfold nolock_insert. rewrite E.
  assert (P : Permutation (all_items (set_tabs h (t_push k v t :: olds))) ((k, v) :: all_items h)).
  { rewrite (all_items_cons h t olds E). erewrite all_items_cons by reflexivity.
    rewrite (t_push_items k v t Ht). reflexivity. }
  split; [|exact P].
  eapply Inv_intro; [reflexivity|now apply Tok_t_push|exact Ho|].
  eapply nodup_keys_perm; [symmetry; exact P|]. unfold keys_of. cbn [map fst]. constructor; assumption.
Qed.

(* an item of an old table moves to the head of the newest table (find): it leaves, and is inserted *)
Lemma Inv_move : forall h t olds olds' k v, Inv h -> h_tabs h = t :: olds -> OldsOk olds' ->
  Permutation (items_of olds) ((k, v) :: items_of olds') ->
  Inv (set_tabs h (t_push k v t :: olds')) /\
  Permutation (all_items (set_tabs h (t_push k v t :: olds'))) (all_items h) /\ In (k, v) (all_items h).
Proof.
  intros h t olds olds' k v Hinv E Ho' P. destruct (Inv_take _ _ _ _ _ _ Hinv E Ho' P) as [A B].
  destruct (nolock_insert_ok k v _ A (proj1 (nodup_keys_cons _ _ _ _ B (Inv_nodup _ Hinv)))) as [C D].
  split; [exact C|]. split; [rewrite B; exact D|]. eapply Permutation_in; [symmetry; exact B|]. now left.
Qed.

(* neither the newest bucket nor the walk over the old tables has the key *)
Lemma not_found : forall h t olds k, h_tabs h = t :: olds -> Tok t ->
  bfind k (b_items (get_bkt t (idx k t))) = None ->
  (forall o, In o olds -> ~ In k (keys_of (t_items o))) -> lookup h k = None.
Proof.
  intros h t olds k E Ht Ef Eo. apply lookup_absent. rewrite E.
  intros t0 [<-|Hin]; [now apply t_notin_bucket_notin|now apply Eo].
Qed.

Lemma nolock_find_ok : forall k h, Inv h ->
  Inv (snd (nolock_find k h)) /\ Permutation (all_items (snd (nolock_find k h))) (all_items h) /\
  fst (nolock_find k h) = lookup h k.
Proof.
  intros k h Hinv. pose proof Hinv as (t & olds & E & Ht & Ho & Hnd).
  unfold nolock_find. rewrite E.
  destruct (bfind k (b_items (get_bkt t (idx k t)))) as [v|] eqn:Ef.
  - cbn [fst snd]. split; [assumption|split; [reflexivity|]]. symmetry. apply lookup_in; [assumption|].
    rewrite (all_items_cons h t olds E). apply in_or_app. left.
    apply (bucket_in_t_items t _ _ _ (idx_bkt k t Ht)). now apply bfind_some_in.
  - pose proof (old_take_spec k olds Ho) as Hs.
    destruct (old_take k olds) as [[v olds']|]; cbn [fst snd].
    + destruct Hs as [Ho' P].
      destruct (Inv_move _ _ _ _ _ _ Hinv E Ho' P) as (A & B & C).
      split; [exact A|split; [exact B|]]. symmetry. now apply lookup_in.
    + split; [assumption|split; [reflexivity|]]. symmetry. eapply not_found; eauto.
Qed.

Lemma nolock_remove_ok : forall k h, Inv h ->
  Inv (snd (nolock_remove k h)) /\ fst (nolock_remove k h) = lookup h k /\
  match fst (nolock_remove k h) with
  | Some v => Permutation (all_items h) ((k, v) :: all_items (snd (nolock_remove k h)))
  | None => snd (nolock_remove k h) = h
  end.
Proof.
  intros k h Hinv. pose proof Hinv as (t & olds & E & Ht & Ho & Hnd).
  (* in both cases where the key is found, the items are those left plus (k, v) *)
  assert (Hout : forall v h', Permutation (all_items h) ((k, v) :: all_items h') -> Some v = lookup h k).
  { intros v h' P. symmetry. apply lookup_in; [assumption|]. eapply Permutation_in; [symmetry; exact P|]. now left. }
  unfold nolock_remove. rewrite E. cbv zeta. fold (t_del k t).
  destruct (bfind k (b_items (get_bkt t (idx k t)))) as [v|] eqn:Ef; cbn [fst snd].
  - destruct (t_del_ok k v t Ht Ef) as [Ht' Pt].
    assert (P : Permutation (all_items h) ((k, v) :: all_items (set_tabs h (t_del k t :: olds)))).
    { rewrite (all_items_cons h t olds E). erewrite all_items_cons by reflexivity. rewrite Pt. reflexivity. }
    split; [|split; [exact (Hout _ _ P)|exact P]].
    eapply Inv_intro; [reflexivity|exact Ht'|exact Ho|apply (nodup_keys_cons _ _ _ _ P Hnd)].
  - pose proof (old_take_spec k olds Ho) as Hs.
    destruct (old_take k olds) as [[v olds']|]; cbn [fst snd].
    + destruct Hs as [Ho' P].
      destruct (Inv_take _ _ _ _ _ _ Hinv E Ho' P) as [A B].
      split; [exact A|split; [exact (Hout _ _ B)|exact B]].
    + split; [assumption|split; [|reflexivity]]. symmetry. eapply not_found; eauto.
Qed.

(* a resize moves nothing: the old table keeps its items and only gets its used_buckets count *)
Lemma resize_ok : forall h, Inv h -> Inv (resize h) /\ all_items (resize h) = all_items h.
Proof.
  intros h (t & olds & E & Ht & Ho & Hnd). unfold resize. rewrite E.
  assert (Ea : all_items (set_tabs h (new_table (S (t_bits t)) :: set_used t (cnt nonempty (t_bkts t)) :: olds)) = all_items h).
  { unfold all_items. rewrite E. cbn [set_tabs h_tabs flat_map]. rewrite new_table_items. reflexivity. }
  split; [|exact Ea].
  eapply Inv_intro; [reflexivity|apply Tok_new_table| |rewrite Ea; assumption].
  constructor; [|assumption]. split; [exact Ht|reflexivity].
Qed.

Definition fmap := N -> option N.
Definition fempty : fmap := fun _ => None.
Definition fupd (m : fmap) (k : N) (o : option N) : fmap := fun k' => if N.eqb k' k then o else m k'.
(* the table represents the map m: structural invariant, and for_all order looked up by key gives m *)
Definition Rep (h : ht) (m : fmap) : Prop := Inv h /\ forall k, lookup h k = m k.

(* what the map specification says of one operation *)
Definition spec_next (m : fmap) (o : op) : fmap :=
  match o with
  | OIns k v | ONIns k v => fupd m k (Some v)
  | ORem k | ONRem k => fupd m k None
  | _ => m
  end.
Definition spec_res (m : fmap) (o : op) (r : res) : Prop :=
  match o with
  | OIns _ _ | ONIns _ _ | OLock _ | OUnlock _ => r = RUnit
  | OFind k | ONFind k | ORem k | ONRem k => r = RVal (m k)
  | OAll => exists l, r = RItems l /\ NoDup (keys_of l) /\ forall k v, In (k, v) l <-> m k = Some v
  end.
(* the API's precondition: an inserted key is not in the table *)
Definition spec_pre (m : fmap) (o : op) : Prop :=
  match o with OIns k _ | ONIns k _ => m k = None | _ => True end.

(* how the map changes with the stored items: the same items, one more, one less *)
Lemma Rep_same : forall h h' m, Rep h m -> Inv h' -> Permutation (all_items h') (all_items h) -> Rep h' m.
Proof.
  intros h h' m [_ Hl] Hinv' P. split; [assumption|].
  intros k. rewrite <- Hl. apply bfind_perm; [now apply Inv_nodup|assumption].
Qed.
Lemma lookup_cons : forall h h' k v, Inv h' -> Permutation (all_items h') ((k, v) :: all_items h) ->
  forall k', lookup h' k' = fupd (lookup h) k (Some v) k'.
Proof.
  intros h h' k v Hinv' P k'. unfold lookup, fupd.
  rewrite (bfind_perm _ _ (Inv_nodup _ Hinv') P). cbn [bfind]. now rewrite N.eqb_sym.
Qed.
Lemma Rep_less : forall h h' m k v, Rep h m -> Inv h' -> Permutation (all_items h) ((k, v) :: all_items h') ->
  Rep h' (fupd m k None) /\ m k = Some v.
Proof.
  intros h h' m k v [Hinv Hl] Hinv' P. pose proof (lookup_cons _ _ _ _ Hinv P) as Hc. split; [split; [assumption|]|].
  - intros k'. unfold fupd. destruct (N.eqb k' k) eqn:E.
    + apply N.eqb_eq in E. subst k'. apply bfind_notin_none. apply (nodup_keys_cons _ _ _ _ P (Inv_nodup _ Hinv)).
    + rewrite <- Hl, Hc. unfold fupd. now rewrite E.
  - rewrite <- Hl, Hc. unfold fupd. now rewrite N.eqb_refl.
Qed.
Lemma Rep_fupd_none : forall h m k, Rep h m -> m k = None -> Rep h (fupd m k None).
Proof.
  intros h m k [Hi Hl] Hk. split; [assumption|]. intros k'. unfold fupd.
  destruct (N.eqb k' k) eqn:E; [|apply Hl]. apply N.eqb_eq in E. subst k'. rewrite Hl. exact Hk.
Qed.

Lemma Rep_insert : forall k v h m, Rep h m -> m k = None -> Rep (nolock_insert k v h) (fupd m k (Some v)).
Proof.
  intros k v h m [Hinv Hl] Hk.
  assert (Hnk : ~ In k (keys_of (all_items h))).
  { apply bfind_none_notin. rewrite <- Hk. apply Hl. }
  destruct (nolock_insert_ok k v h Hinv Hnk) as [Hinv' P]. split; [assumption|].
  intros k'. rewrite (lookup_cons _ _ _ _ Hinv' P). unfold fupd. now rewrite Hl.
Qed.
Lemma Rep_find : forall k h m, Rep h m -> fst (nolock_find k h) = m k /\ Rep (snd (nolock_find k h)) m.
Proof.
  intros k h m HR. pose proof HR as [Hinv Hl]. destruct (nolock_find_ok k h Hinv) as (Hinv' & P & Hr).
  split; [rewrite Hr; apply Hl|exact (Rep_same _ _ _ HR Hinv' P)].
Qed.
Lemma Rep_remove : forall k h m, Rep h m ->
  fst (nolock_remove k h) = m k /\ Rep (snd (nolock_remove k h)) (fupd m k None).
Proof.
  intros k h m HR. pose proof HR as [Hinv Hl]. destruct (nolock_remove_ok k h Hinv) as (Hinv' & Hr & Hc).
  rewrite Hl in Hr. split; [exact Hr|]. destruct (fst (nolock_remove k h)) as [v|].
  - apply (Rep_less _ _ _ _ _ HR Hinv' Hc).
  - rewrite Hc. now apply Rep_fupd_none.
Qed.
Lemma Rep_resize : forall h m, Rep h m -> Rep (resize h) m.
Proof.
  intros h m HR. destruct (resize_ok h (proj1 HR)) as [Hinv' E].
  apply (Rep_same _ _ _ HR Hinv'). now rewrite E.
Qed.
Lemma Rep_maybe_resize : forall k h m, Rep h m -> Rep (maybe_resize k h) m.
Proof. intros k h m HR. unfold maybe_resize. destruct (want_resize k h); [now apply Rep_resize|exact HR]. Qed.

(* the stored items are the bindings of the map, each once *)
Lemma Rep_items : forall h m, Rep h m ->
  NoDup (keys_of (all_items h)) /\ forall k v, In (k, v) (all_items h) <-> m k = Some v.
Proof.
  intros h m [Hinv Hl]. split; [now apply Inv_nodup|]. intros k v. rewrite <- Hl. now apply lookup_in.
Qed.

(* result and table of a step that returns a value *)
Lemma step_val : forall (p : option N * ht) x m, fst p = x /\ Rep (snd p) m ->
  fst (let (r, h') := p in (RVal r, h')) = RVal x /\ Rep (snd (let (r, h') := p in (RVal r, h'))) m.
Proof. intros [r h'] x m [<- H]. split; [reflexivity|exact H]. Qed.

Lemma step_refines : forall h m o, Rep h m -> spec_pre m o ->
  spec_res m o (fst (step_op h o)) /\ Rep (snd (step_op h o)) (spec_next m o).
Proof.
  intros h m o HR Hpre.
  destruct o as [k v|k|k|k|k|k v|k|k|]; cbn [step_op spec_res spec_next spec_pre fst snd] in *;
    unfold ht_insert, ht_find, ht_remove, ht_unlock.
  - split; [reflexivity|]. apply Rep_maybe_resize. now apply Rep_insert.
  - now apply step_val, Rep_find.
  - now apply step_val, Rep_remove.
  - auto.
  - split; [reflexivity|]. now apply Rep_maybe_resize.
  - split; [reflexivity|]. now apply Rep_insert.
  - now apply step_val, Rep_find.
  - now apply step_val, Rep_remove.
  - split; [|assumption]. exists (all_items h). split; [reflexivity|]. now apply Rep_items.
Qed.

Fixpoint spec_run (m : fmap) (ops : list op) (rs : list res) : Prop :=
  match ops, rs with
  | [], [] => True
  | o :: ops', r :: rs' => spec_res m o r /\ spec_run (spec_next m o) ops' rs'
  | _, _ => False
  end.
Fixpoint spec_pre_run (m : fmap) (ops : list op) : Prop :=
  match ops with
  | [] => True
  | o :: ops' => spec_pre m o /\ spec_pre_run (spec_next m o) ops'
  end.
Definition spec_final (m : fmap) (ops : list op) : fmap := fold_left spec_next ops m.

Lemma run_refines : forall ops h m, Rep h m -> spec_pre_run m ops ->
  spec_run m ops (fst (run_ops h ops)) /\ Rep (snd (run_ops h ops)) (spec_final m ops).
Proof.
  induction ops as [|o ops IH]; intros h m HR Hpre; cbn [run_ops spec_run spec_final fold_left fst snd].
  - auto.
  - destruct Hpre as [Hp Hps]. destruct (step_refines h m o HR Hp) as [A B].
    destruct (step_op h o) as [x h1]. cbn [fst snd] in *.
    destruct (IH h1 _ B Hps) as [C D]. destruct (run_ops h1 ops) as [xs h2]. cbn [fst snd] in *.
    split; [split; assumption|exact D].
Qed.

Lemma Rep_init : forall bits hint maxbits, Rep (ht_init bits hint maxbits) fempty.
Proof.
  intros. destruct (Inv_init bits hint maxbits) as [A B]. split; [assumption|].
  intros k. unfold lookup. rewrite B. reflexivity.
Qed.
