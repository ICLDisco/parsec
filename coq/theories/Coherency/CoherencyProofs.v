(* Proofs for C26 (data copy ownership transfers, parsec/data.c) over the model of
   CoherencyDefs.v and the vocabulary of CoherencySpec.v.  Every operation of the model maps
   the slots of device_copies[] pointwise, so each is described once by the copy it leaves in
   slot i ([getc_upd_at], [start_spec], [access_view]) and the invariants are checked slot by slot. *)
From PV Require Import Base.Tac Coherency.CoherencyDefs Coherency.CoherencySpec.
Local Open Scope Z_scope.

Lemma nth_error_mapi_from {A B} (f : nat -> A -> B) l : forall k i,
  nth_error (mapi_from f k l) i = option_map (f (k + i)%nat) (nth_error l i).
Proof.
  induction l as [|x l IH]; intros k i; destruct i; cbn [mapi_from nth_error option_map]; try reflexivity.
  - now rewrite Nat.add_0_r.
  - rewrite IH. now rewrite Nat.add_succ_r.
Qed.
Lemma length_mapi_from {A B} (f : nat -> A -> B) l : forall k, length (mapi_from f k l) = length l.
Proof. induction l; intros; cbn [mapi_from length]; auto. Qed.

Lemma getc_upd_each f cs i : getc (upd_each f cs) i = option_map (f i) (getc cs i).
Proof.
  unfold getc, upd_each. rewrite nth_error_mapi_from. cbn [Nat.add].
  destruct (nth_error cs i) as [[c|]|]; reflexivity.
Qed.
Lemma getc_upd_at d f cs i :
  getc (upd_at d f cs) i = option_map (fun c => if Nat.eqb i d then f c else c) (getc cs i).
Proof. unfold upd_at. now rewrite getc_upd_each. Qed.
Lemma getc_upd_at_same d f cs : getc (upd_at d f cs) d = option_map f (getc cs d).
Proof. now rewrite getc_upd_at, Nat.eqb_refl. Qed.
Lemma getc_upd_at_other d f cs i : i <> d -> getc (upd_at d f cs) i = getc cs i.
Proof. intros H. apply Nat.eqb_neq in H. rewrite getc_upd_at, H. now destruct (getc cs i). Qed.
Lemma length_upd_each f cs : length (upd_each f cs) = length cs.
Proof. apply length_mapi_from. Qed.
Lemma getc_lt cs i c : getc cs i = Some c -> (i < length cs)%nat.
Proof. unfold getc. intros H. apply nth_error_Some. destruct (nth_error cs i); congruence. Qed.

(* a slot of a pointwise image that holds a copy held one before *)
Lemma getc_some_map {f : copy -> copy} {cs cs' i c'} :
  getc cs' i = option_map f (getc cs i) -> getc cs' i = Some c' ->
  exists x, getc cs i = Some x /\ c' = f x.
Proof. intros H H'. rewrite H' in H. destruct (getc cs i) as [x|]; [|discriminate]. exists x. cbn in H. split; congruence. Qed.

Lemma sint8_small z : 0 <= z < 128 -> sint8 z = z.
Proof. intros H. unfold sint8. rewrite Z.mod_small by lia. destruct (z <? 128) eqn:E; lia. Qed.

Lemma scan_valid_spec l : forall k acc,
  (scan_valid k l acc = acc /\ forall i c, getc l i = Some c -> cst c = INVALID) \/
  (exists i c, scan_valid k l acc = Z.of_nat (k + i) /\ getc l i = Some c /\ cst c <> INVALID).
Proof.
  induction l as [|o l IH]; intros k acc; cbn [scan_valid].
  - left. split; [reflexivity|]. intros [|i] c H; discriminate.
  - destruct (IH (S k) (match o with Some c => if is_invalid (cst c) then acc else Z.of_nat k | None => acc end))
      as [[He Hall]|(i & c & He & Hg & Hv)].
    + destruct o as [c0|]; [destruct (is_invalid (cst c0)) eqn:E0|].
      * left. split; [exact He|]. intros [|i] c H; [|now apply (Hall i)].
        unfold getc in H; cbn in H. inversion H; subst. destruct (cst c); cbn in E0; congruence.
      * right. exists 0%nat, c0. rewrite Nat.add_0_r. repeat split; auto.
        destruct (cst c0); cbn in E0; congruence.
      * left. split; [exact He|]. intros [|i] c H; [discriminate|now apply (Hall i)].
    + right. exists (S i), c. rewrite Nat.add_succ_r. repeat split; auto.
Qed.

Lemma newer_owned_true cs v : newer_owned cs v = true <->
  exists i c, getc cs i = Some c /\ cst c = OWNED /\ v < ver c.
Proof.
  unfold newer_owned. rewrite existsb_exists. split.
  - intros (o & Hin & Ho). destruct o as [c|]; [|discriminate].
    apply andb_prop in Ho as [Ho Hv]. apply In_nth_error in Hin as [i Hi].
    exists i, c. unfold getc; rewrite Hi. repeat split; [|lia]. destruct (cst c); cbn in Ho; congruence.
  - intros (i & c & Hg & Ho & Hv). exists (Some c). split.
    + unfold getc in Hg. destruct (nth_error cs i) as [[c'|]|] eqn:E; try discriminate.
      inversion Hg; subst. eapply nth_error_In; eauto.
    + rewrite Ho. cbn. lia.
Qed.

Lemma max_valid_spec cs : forall dflt,
  dflt <= max_valid cs dflt /\
  (forall i c, getc cs i = Some c -> cst c <> INVALID -> ver c <= max_valid cs dflt) /\
  (max_valid cs dflt = dflt \/ exists i c, getc cs i = Some c /\ cst c <> INVALID /\ ver c = max_valid cs dflt).
Proof.
  unfold max_valid. induction cs as [|o cs IH]; intros dflt; cbn [fold_left].
  - split; [lia|]. split; [|now left]. intros [|i] c H; discriminate.
  - set (a := match o with Some x => if is_invalid (cst x) then dflt else Z.max dflt (ver x) | None => dflt end).
    destruct (IH a) as (H1 & H2 & H3).
    assert (Ha : dflt <= a) by (subst a; destruct o as [x|]; [destruct (is_invalid (cst x))|]; lia).
    split; [lia|]. split.
    + intros [|i] c Hg Hv; [|now apply (H2 i)].
      unfold getc in Hg; cbn in Hg. destruct o as [x|]; [|discriminate]. inversion Hg; subst x.
      subst a. destruct (cst c) eqn:E; cbn in *; try congruence; lia.
    + destruct H3 as [H3|(i & c & Hg & Hv & He)].
      * rewrite H3. subst a. destruct o as [x|]; [destruct (is_invalid (cst x)) eqn:E|]; auto.
        destruct (Z.max_spec dflt (ver x)) as [[? Hm]|[? Hm]]; rewrite Hm; auto.
        right. exists 0%nat, x. repeat split; auto. destruct (cst x); cbn in E; congruence.
      * right. exists (S i), c. auto.
Qed.

(* the copy in slot i after start, as a function of the copy before; [tro] = the target is OWNED
   and the access does not write, [tv] = the target's version *)
Definition post_start_gen (tro : bool) (tv : Z) (own_is_d : bool) (m : mode) (req : bool) (d i : nat) (x : copy) : copy :=
  if own_is_d then (if Nat.eqb i d && mr m then set_rdr x (rdr x + 1) else x)
  else
    let x1 := if mr m && negb (Nat.eqb i d) then rd_body tro tv x else x in
    let x2 := if mw m then (if is_invalid (cst x1) then x1 else set_st x1 SHARED) else x1 in
    if Nat.eqb i d
    then (let x3 := if mr m then set_rdr x2 (rdr x2 + 1) else x2 in if req then set_st x3 INVALID else x3)
    else x2.
Definition start_req (dt : data) (d : nat) (m : mode) (c : copy) : bool :=
  if owner dt =? Z.of_nat d then false else mr m && fst (classify (copies dt) c (owner dt)).
Definition start_src (dt : data) (c : copy) : Z := snd (classify (copies dt) c (owner dt)).
Definition start_own (dt : data) (d : nat) (m : mode) (c : copy) : Z :=
  if mw m then sint8 (Z.of_nat d)
  else if owner dt =? Z.of_nat d then owner dt
  else if mr m && (is_owned (cst c) && negb (mw m)) && other_valid d 0 (copies dt) then -1 else owner dt.

Lemma start_spec_gen dt d m c : getc (copies dt) d = Some c ->
  exists cs', start dt d m = (mkdata (start_own dt d m c) cs', if start_req dt d m c then start_src dt c else -1)
    /\ length cs' = length (copies dt)
    /\ forall i, getc cs' i = option_map (post_start_gen (is_owned (cst c) && negb (mw m)) (ver c)
                                            (owner dt =? Z.of_nat d) m (start_req dt d m c) d i) (getc (copies dt) i).
Proof.
  intros Hd. unfold start, start_req, start_src, start_own. rewrite Hd.
  destruct (owner dt =? Z.of_nat d) eqn:Eo.
  - unfold bookkeeping. eexists. split; [reflexivity|]. split.
    + destruct (mr m); [apply length_upd_each|reflexivity].
    + intros i. unfold post_start_gen. destruct (mr m); rewrite ?getc_upd_at;
        destruct (getc (copies dt) i); cbn [option_map]; rewrite ?andb_true_r, ?andb_false_r; reflexivity.
  - destruct (classify (copies dt) c (owner dt)) as [req valid] eqn:Ec. cbn [fst snd].
    unfold after_read, bookkeeping, write_loop, read_loop, upd_at.
    destruct (mr m) eqn:Er, (mw m) eqn:Ew, req; cbn [andb negb]; rewrite ?andb_false_r; cbn [andb];
      (eexists; split; [reflexivity|]; split;
       [ rewrite ?length_upd_each; reflexivity
       | intros i; rewrite ?getc_upd_each; destruct (getc (copies dt) i) as [x|]; [|reflexivity];
         cbn [option_map]; f_equal; unfold post_start_gen; rewrite ?Er, ?Ew;
         destruct (Nat.eqb i d); reflexivity ]).
Qed.

(* under the one-owner invariant the target of a start by a device other than the owner is not
   OWNED, so [tro] is false, and [rd_body false] does not read [tv] *)
Definition post_start := post_start_gen false 0.

Lemma start_spec dt d m c : getc (copies dt) d = Some c ->
  (owner dt <> Z.of_nat d -> is_owned (cst c) && negb (mw m) = false) ->
  exists cs', start dt d m = (mkdata (if mw m then sint8 (Z.of_nat d) else owner dt) cs',
                              if start_req dt d m c then start_src dt c else -1)
    /\ length cs' = length (copies dt)
    /\ forall i, getc cs' i = option_map (post_start (owner dt =? Z.of_nat d) m (start_req dt d m c) d i) (getc (copies dt) i).
Proof.
  intros Hd Hno. destruct (start_spec_gen dt d m c Hd) as (cs' & Hs & Hl & Hg).
  exists cs'. rewrite Hs. unfold start_own in *.
  destruct (owner dt =? Z.of_nat d) eqn:Eo.
  - split; [destruct (mw m); reflexivity|]. split; [exact Hl|exact Hg].
  - rewrite Hno in * by lia. rewrite andb_false_r. split; [reflexivity|]. split; [exact Hl|exact Hg].
Qed.

(* [keeps k x y]: [y] has the version and the transfer status of [x], and [k] readers more *)
Definition keeps (k : Z) (x y : copy) : Prop := y = mkcopy (cst y) (ver x) (rdr x + k) (xfer x).
Lemma keeps_refl x : keeps 0 x x.
Proof. destruct x. unfold keeps. cbn. now rewrite Z.add_0_r. Qed.
Lemma keeps_st k x y s : keeps k x y -> keeps k x (set_st y s).
Proof. unfold keeps. intros ->. reflexivity. Qed.
Lemma keeps_rdr x y : keeps 0 x y -> keeps 1 x (set_rdr y (rdr y + 1)).
Proof. unfold keeps. intros ->. cbn. now rewrite Z.add_0_r. Qed.
Lemma keeps_if (c : bool) k x y z : keeps k x y -> keeps k x z -> keeps k x (if c then y else z).
Proof. destruct c; auto. Qed.
Local Hint Resolve keeps_refl keeps_st keeps_rdr keeps_if : keeps.
Lemma keeps_rd_body tro tv x : keeps 0 x (rd_body tro tv x).
Proof. unfold rd_body. cbv zeta. auto 8 with keeps. Qed.

(* the fields of the copy left in slot i: version and transfer status are kept and the target of
   a read has one reader more, since start changes a copy by [set_st] and, there, one [set_rdr] *)
Lemma post_start_gen_fields tro tv b m req d i x :
  post_start_gen tro tv b m req d i x =
    mkcopy (cst (post_start_gen tro tv b m req d i x)) (ver x)
           (rdr x + (if Nat.eqb i d && mr m then 1 else 0)) (xfer x).
Proof.
  change (keeps (if Nat.eqb i d && mr m then 1 else 0) x (post_start_gen tro tv b m req d i x)).
  pose proof (keeps_rd_body tro tv x). unfold post_start_gen.
  destruct (Nat.eqb i d), (mr m); cbn [andb negb]; cbv zeta; auto 8 with keeps.
Qed.

Lemma post_start_fields b m req d i x :
  post_start b m req d i x =
    mkcopy (cst (post_start b m req d i x)) (ver x) (rdr x + (if Nat.eqb i d && mr m then 1 else 0)) (xfer x).
Proof. apply post_start_gen_fields. Qed.
Lemma post_start_ver b m req d i x : ver (post_start b m req d i x) = ver x.
Proof. now rewrite post_start_fields. Qed.
Lemma post_start_xfer b m req d i x : xfer (post_start b m req d i x) = xfer x.
Proof. now rewrite post_start_fields. Qed.

Lemma post_start_cst b m req d i x : cst (post_start b m req d i x) =
  if b then cst x
  else if Nat.eqb i d
  then (if req then INVALID else if mw m then (if is_invalid (cst x) then INVALID else SHARED) else cst x)
  else if mw m then (if is_invalid (cst x) then INVALID else SHARED)
  else if mr m then (if is_exclusive (cst x) then SHARED else cst x) else cst x.
Proof.
  unfold post_start, post_start_gen, rd_body. destruct x as [s v r t]; cbn.
  destruct b, (Nat.eqb i d), (mr m), (mw m), req, s; reflexivity.
Qed.
Lemma post_start_cst_other b m req d i x : i <> d ->
  cst (post_start b m req d i x) =
    if b then cst x
    else if mw m then (if is_invalid (cst x) then INVALID else SHARED)
    else if mr m then (if is_exclusive (cst x) then SHARED else cst x) else cst x.
Proof. intros Hne. apply Nat.eqb_neq in Hne. now rewrite post_start_cst, Hne. Qed.
(* a start without the WRITE bit neither invalidates nor revives a copy beside the target *)
Lemma post_start_read_valid b m req d i x : i <> d -> mw m = false ->
  cst (post_start b m req d i x) = INVALID <-> cst x = INVALID.
Proof.
  intros Hne Hw. rewrite post_start_cst_other, Hw by exact Hne.
  destruct b; [reflexivity|]. destruct (mr m); [|reflexivity]. destruct (cst x); cbn; split; congruence.
Qed.

(* Inv12 constrains each slot by itself, given the owner: an OWNED copy sits on the owner,
   and beside an owner a copy is INVALID or SHARED *)
Definition slot_ok (o : Z) (i : nat) (s : cstate) : Prop :=
  (s = OWNED -> o = Z.of_nat i) /\ (0 <= o -> Z.of_nat i <> o -> s = INVALID \/ s = SHARED).

Lemma Inv12_slots dt : Inv12 dt <-> forall i c, getc (copies dt) i = Some c -> slot_ok (owner dt) i (cst c).
Proof.
  unfold Inv12, one_owner, others_shared, slot_ok. split.
  - intros [H1 H2] i c Hc. split; [apply (H1 i c Hc)|intros Hge; apply (H2 Hge i c Hc)].
  - intros H. split; [intros i c Hc|intros Hge i c Hc]; apply (H i c Hc); exact Hge.
Qed.
Lemma slot_ok_owner i s : slot_ok (Z.of_nat i) i s.
Proof. split; [reflexivity|congruence]. Qed.
Lemma slot_ok_unowned o i s : s = INVALID \/ s = SHARED -> slot_ok o i s.
Proof. intros H. split; [intros ->; destruct H; discriminate|auto]. Qed.

(* so an operation that maps the slots pointwise keeps Inv12 when it keeps every slot in order *)
Lemma Inv12_map dt o' cs' (F : nat -> copy -> copy) : Inv12 dt ->
  (forall i, getc cs' i = option_map (F i) (getc (copies dt) i)) ->
  (forall i x, getc (copies dt) i = Some x -> slot_ok (owner dt) i (cst x) -> slot_ok o' i (cst (F i x))) ->
  Inv12 (mkdata o' cs').
Proof.
  rewrite !Inv12_slots. intros H Hg HF i c' Hc'. cbn [owner copies] in *.
  destruct (getc_some_map (Hg i) Hc') as (x & Hx & ->). apply HF; auto.
Qed.

Lemma one_owner_no_tro dt d m c : one_owner dt -> getc (copies dt) d = Some c ->
  owner dt <> Z.of_nat d -> is_owned (cst c) && negb (mw m) = false.
Proof. intros H1 Hd Hne. destruct (cst c) eqn:E; auto. exfalso. apply Hne. eapply H1; eauto. Qed.

Lemma start_Inv12 dt d m : Inv12 dt -> (d < 128)%nat -> Inv12 (fst (start dt d m)).
Proof.
  intros HI Hd8. destruct (getc (copies dt) d) as [c|] eqn:Hd.
  2:{ unfold start. rewrite Hd. exact HI. }
  destruct (start_spec dt d m c Hd (one_owner_no_tro dt d m c (proj1 HI) Hd)) as (cs' & Hs & _ & Hg).
  rewrite Hs. cbn [fst]. rewrite sint8_small by lia.
  apply (Inv12_map dt _ cs' _ HI Hg). intros i x _ Hok. rewrite post_start_cst.
  destruct (Z.eqb_spec (owner dt) (Z.of_nat d)) as [Eo|_].
  - replace (if mw m then Z.of_nat d else owner dt) with (owner dt) by (destruct (mw m); congruence).
    exact Hok.
  - destruct (mw m).
    + (* the target becomes the owner, every other valid copy SHARED *)
      destruct (Nat.eqb_spec i d) as [->|_]; [apply slot_ok_owner|].
      apply slot_ok_unowned. destruct (is_invalid (cst x)); auto.
    + (* same owner: a copy keeps its state, or goes INVALID (target) or from EXCLUSIVE to SHARED *)
      destruct (Nat.eqb i d); [destruct (start_req dt d m c)|destruct (mr m); [destruct (is_exclusive (cst x))|]];
        try exact Hok; apply slot_ok_unowned; auto.
Qed.

(* an update of slot d that leaves the owner alone *)
Lemma upd_at_Inv12_gen dt d f : Inv12 dt ->
  (forall x, getc (copies dt) d = Some x -> slot_ok (owner dt) d (cst x) -> slot_ok (owner dt) d (cst (f x))) ->
  Inv12 (mkdata (owner dt) (upd_at d f (copies dt))).
Proof.
  intros HI Hf. apply (Inv12_map dt _ _ _ HI (getc_upd_at d f (copies dt))). intros i x Hx Hok.
  destruct (Nat.eqb_spec i d) as [->|_]; auto.
Qed.
Lemma upd_at_Inv12 dt d f : (forall c, cst (f c) = cst c) -> Inv12 dt ->
  Inv12 (mkdata (owner dt) (upd_at d f (copies dt))).
Proof. intros Hf HI. apply upd_at_Inv12_gen; [exact HI|]. intros x _. now rewrite Hf. Qed.

Lemma endt_Inv12 dt d m : Inv12 dt -> (mw m = true -> getc (copies dt) d <> None -> owner dt = Z.of_nat d) ->
  Inv12 (endt dt d m).
Proof.
  intros HI Hw. apply upd_at_Inv12_gen; [exact HI|]. intros x Hx Hok. destruct (mw m).
  - rewrite Hw by congruence. apply slot_ok_owner.
  - destruct (mr m); [apply slot_ok_unowned; auto|exact Hok].
Qed.

Lemma start_owner_w dt d m c : (d < 128)%nat -> mw m = true -> getc (copies dt) d = Some c ->
  owner (fst (start dt d m)) = Z.of_nat d.
Proof.
  intros Hd8 Hw Hd. destruct (start_spec_gen dt d m c Hd) as (cs' & -> & _).
  cbn. unfold start_own. rewrite Hw. apply sint8_small; lia.
Qed.

Lemma step_Inv12 rs o : Inv12 (dat rs) -> pre_owner (dat rs) o -> Inv12 (dat (fst (step rs o))).
Proof.
  intros HI Hp. destruct o as [d m|d m|d m|d v|d|d|d|d|d k]; cbn [step pre_owner] in *.
  - pose proof (start_Inv12 (dat rs) d m HI Hp) as H. destruct (start (dat rs) d m); exact H.
  - cbn. apply endt_Inv12; auto.
  - unfold transfer. destruct (getc (copies (dat rs)) d) as [c|] eqn:Hd.
    + pose proof (start_Inv12 (dat rs) d m HI Hp) as H.
      pose proof (fun Hw => start_owner_w (dat rs) d m c Hp Hw Hd) as Ho.
      destruct (start (dat rs) d m) as [dt1 r]. cbn [fst dat] in *. apply endt_Inv12; auto.
    + (* no copy on d: start returns at once and end finds nothing to update *)
      unfold start. rewrite Hd. cbn [fst dat]. apply endt_Inv12; [exact HI|congruence].
  - cbn. apply upd_at_Inv12; auto.
  - cbn. apply upd_at_Inv12; auto.
  - cbn. destruct (0 <=? lookup d (lasts rs)); [|exact HI]. unfold pull.
    destruct (getc (copies (dat rs)) (Z.to_nat (lookup d (lasts rs)))); [|exact HI]. apply upd_at_Inv12; auto.
  - cbn. unfold bump. destruct (getc (copies (dat rs)) d); [|exact HI]. apply upd_at_Inv12; auto.
  - cbn. apply upd_at_Inv12; auto.
  - cbn. apply upd_at_Inv12; auto.
Qed.

Lemma start_rdr dt d m d0 c0 : getc (copies dt) d0 = Some c0 ->
  exists c', getc (copies (fst (start dt d m))) d0 = Some c' /\
             rdr c' = rdr c0 + (if Nat.eqb d d0 && mr m then 1 else 0).
Proof.
  intros H0. destruct (getc (copies dt) d) as [c|] eqn:Hd.
  - destruct (start_spec_gen dt d m c Hd) as (cs' & Hs & _ & Hg). rewrite Hs. cbn [fst copies].
    rewrite Hg, H0. cbn [option_map]. eexists. split; [reflexivity|].
    rewrite post_start_gen_fields, (Nat.eqb_sym d0 d). reflexivity.
  - unfold start. rewrite Hd. cbn [fst]. exists c0. split; [exact H0|].
    destruct (Nat.eqb d d0) eqn:E; [apply Nat.eqb_eq in E; subst; congruence|]. cbn. lia.
Qed.

Lemma getc_upd_at_some d f cs i c0 : getc cs i = Some c0 ->
  getc (upd_at d f cs) i = Some (if Nat.eqb i d then f c0 else c0).
Proof. intros H0. now rewrite getc_upd_at, H0. Qed.

Lemma endt_rdr dt d m d0 c0 : getc (copies dt) d0 = Some c0 ->
  exists c', getc (copies (endt dt d m)) d0 = Some c' /\ rdr c' = rdr c0.
Proof.
  intros H0. unfold endt. cbn [copies]. rewrite (getc_upd_at_some _ _ _ _ _ H0).
  eexists. split; [reflexivity|]. destruct (Nat.eqb d0 d), (mr m), (mw m); reflexivity.
Qed.

(* slot d0 after an update of one slot by a function that is explicit about readers *)
Ltac upd_rdr H0 := rewrite (getc_upd_at_some _ _ _ _ _ H0); eexists; split; [reflexivity|];
  match goal with |- context[Nat.eqb ?a ?b] => destruct (Nat.eqb a b) end; cbn; lia.

Lemma step_rdr rs o d0 c0 : getc (copies (dat rs)) d0 = Some c0 ->
  exists c', getc (copies (dat (fst (step rs o)))) d0 = Some c' /\
             rdr c' = rdr c0 + reads_on d0 o - rels_on d0 o.
Proof.
  intros H0. destruct o as [d m|d m|d m|d v|d|d|d|d|d k]; cbn [step reads_on rels_on].
  - destruct (start_rdr (dat rs) d m d0 c0 H0) as (c' & Hg & Hr).
    destruct (start (dat rs) d m) as [dt1 r]. cbn [fst dat] in *. exists c'. split; [exact Hg|]. lia.
  - cbn [fst dat]. destruct (endt_rdr (dat rs) d m d0 c0 H0) as (c' & Hg & Hr). exists c'. split; [exact Hg|]. lia.
  - unfold transfer. destruct (start_rdr (dat rs) d m d0 c0 H0) as (c1 & Hg1 & Hr1).
    destruct (start (dat rs) d m) as [dt1 r]. cbn [fst dat] in *.
    destruct (endt_rdr dt1 d m d0 c1 Hg1) as (c' & Hg & Hr). exists c'. split; [exact Hg|]. lia.
  - cbn [fst dat]. unfold setv. cbn [copies]. upd_rdr H0.
  - cbn [fst dat]. unfold incv. cbn [copies]. upd_rdr H0.
  - cbn [fst dat]. destruct (0 <=? lookup d (lasts rs)); [|exists c0; split; [exact H0|lia]].
    unfold pull. destruct (getc (copies (dat rs)) (Z.to_nat (lookup d (lasts rs)))) as [sc|]; [|exists c0; split; [exact H0|lia]].
    cbn [copies]. upd_rdr H0.
  - cbn [fst dat]. unfold bump. destruct (getc (copies (dat rs)) d) as [c|]; [|exists c0; split; [exact H0|lia]].
    unfold setv. cbn [copies]. upd_rdr H0.
  - cbn [fst dat]. unfold release. cbn [copies]. rewrite (Nat.eqb_sym d d0). upd_rdr H0.
  - cbn [fst dat]. unfold setx. cbn [copies]. upd_rdr H0.
Qed.

Definition net_reads (d : nat) (ops : list op) : Z :=
  fold_right (fun o a => reads_on d o - rels_on d o + a) 0 ops.

Lemma rels_on_range d o : rels_on d o = 0 \/ rels_on d o = 1.
Proof. destruct o; cbn; auto. destruct (Nat.eqb d0 d); auto. Qed.
Lemma reads_on_range d o : 0 <= reads_on d o.
Proof. destruct o; cbn; try lia; destruct (Nat.eqb d0 d && mr m); lia. Qed.

Lemma start_others dt d m c : getc (copies dt) d = Some c ->
  (owner dt <> Z.of_nat d -> is_owned (cst c) && negb (mw m) = false) ->
  owner (fst (start dt d m)) = (if mw m then sint8 (Z.of_nat d) else owner dt) /\
  forall i x, i <> d -> getc (copies dt) i = Some x ->
    exists x', getc (copies (fst (start dt d m))) i = Some x' /\
      ver x' = ver x /\ rdr x' = rdr x /\ xfer x' = xfer x /\
      cst x' = if owner dt =? Z.of_nat d then cst x
               else if mw m then (if is_invalid (cst x) then INVALID else SHARED)
               else if mr m then (if is_exclusive (cst x) then SHARED else cst x) else cst x.
Proof.
  intros Hd Hno. destruct (start_spec dt d m c Hd Hno) as (cs' & -> & _ & Hg). cbn [fst copies owner].
  split; [reflexivity|]. intros i x Hne Hx. rewrite Hg, Hx. cbn [option_map]. eexists. split; [reflexivity|].
  rewrite post_start_ver, post_start_xfer, post_start_cst_other by exact Hne.
  apply Nat.eqb_neq in Hne. rewrite (post_start_fields _ m), Hne. cbn [andb rdr]. repeat split. lia.
Qed.

Lemma set_ver_same c : set_ver c (ver c) = c.
Proof. destruct c; reflexivity. Qed.

Lemma J_dev_small dt b d c : J dt b -> getc (copies dt) d = Some c -> (d < 128)%nat.
Proof. intros (_ & Hl & _) Hd. apply getc_lt in Hd. lia. Qed.

Definition acc_ret (dt : data) (d : nat) (m : mode) (c : copy) : Z :=
  if start_req dt d m c then start_src dt c else -1.
(* the version the target holds once the requested transfer (if any) completed *)
Definition acc_vp (dt : data) (d : nat) (m : mode) (c : copy) : Z :=
  if 0 <=? acc_ret dt d m c
  then match getc (copies dt) (Z.to_nat (acc_ret dt d m c)) with Some sc => ver sc | None => ver c end
  else ver c.

Lemma acc_vp_range dt b d m c : vers_in dt b -> getc (copies dt) d = Some c -> 0 <= acc_vp dt d m c <= b.
Proof.
  intros Hv Hd. unfold acc_vp. destruct (0 <=? acc_ret dt d m c); [|apply (Hv d c Hd)].
  destruct (getc (copies dt) (Z.to_nat (acc_ret dt d m c))) as [sc|] eqn:Hsc; [apply (Hv _ sc Hsc)|apply (Hv d c Hd)].
Qed.

(* a writer's version: above the target's and above every valid copy's, and one more than one of them *)
Lemma bump_spec dt b d c : vers_in dt b -> b + 1 < two32 -> getc (copies dt) d = Some c ->
  exists vd, bump dt d = mkdata (owner dt) (upd_at d (fun c0 => set_ver c0 vd) (copies dt)) /\
    ver c < vd <= b + 1 /\ forall i x, getc (copies dt) i = Some x -> cst x <> INVALID -> ver x < vd.
Proof.
  intros Hv Hb Hd. unfold bump, setv. rewrite Hd.
  destruct (max_valid_spec (copies dt) (ver c)) as (H1 & H2 & H3).
  set (M := max_valid (copies dt) (ver c)) in *.
  assert (HM : 0 <= M <= b).
  { destruct H3 as [E|(i & x & Hx & _ & E)]; [rewrite E|rewrite <- E]; eapply Hv; eassumption. }
  exists (M + 1). rewrite (Z.mod_small (M + 1)) by lia. split; [reflexivity|]. split; [lia|].
  intros i x Hx Hvx. specialize (H2 i x Hx Hvx). lia.
Qed.

(* the state after one access from a state satisfying J: the other copies are as start left
   them; the target holds the pulled version, or, after a write, a version [vd] above it and
   above every other valid copy *)
Lemma access_view dt b d m c : J dt b -> b + 1 < two32 -> getc (copies dt) d = Some c ->
  exists cs' vd,
    access dt d m = (mkdata (if mw m then Z.of_nat d else owner dt) cs', acc_ret dt d m c) /\
    length cs' = length (copies dt) /\
    (forall i, i <> d -> getc cs' i =
       option_map (post_start (owner dt =? Z.of_nat d) m (start_req dt d m c) d i) (getc (copies dt) i)) /\
    getc cs' d = Some (mkcopy (if mw m then OWNED else if mr m then SHARED else cst c) vd
                              (rdr c + (if mr m then 1 else 0)) (xfer c)) /\
    if mw m
    then acc_vp dt d m c < vd <= b + 1 /\
         forall i x', i <> d -> getc cs' i = Some x' -> cst x' <> INVALID -> ver x' < vd
    else vd = acc_vp dt d m c.
Proof.
  intros HJ Hb Hd. pose proof (J_dev_small dt b d c HJ Hd) as Hd8.
  destruct (start_spec dt d m c Hd (one_owner_no_tro dt d m c ltac:(apply HJ) Hd)) as (cs1 & Hs & Hl1 & Hg1).
  unfold access. rewrite Hs. fold (acc_ret dt d m c). rewrite sint8_small by lia.
  set (own' := if mw m then Z.of_nat d else owner dt).
  set (b0 := owner dt =? Z.of_nat d) in *. set (req := start_req dt d m c) in *.
  set (r := acc_ret dt d m c). set (vp := acc_vp dt d m c).
  set (c1 := post_start b0 m req d d c).
  assert (Hc1 : getc cs1 d = Some c1) by (rewrite Hg1, Hd; reflexivity).
  (* the pull sets the version of the target to [vp]; without one the target keeps its version *)
  assert (Hpull : exists cs2,
            (if 0 <=? r then pull (mkdata own' cs1) d (Z.to_nat r) else mkdata own' cs1) = mkdata own' cs2
            /\ length cs2 = length cs1
            /\ (forall i, i <> d -> getc cs2 i = getc cs1 i) /\ getc cs2 d = Some (set_ver c1 vp)).
  { assert (Hnop : exists cs2, mkdata own' cs1 = mkdata own' cs2 /\ length cs2 = length cs1
              /\ (forall i, i <> d -> getc cs2 i = getc cs1 i) /\ getc cs2 d = Some (set_ver c1 (ver c))).
    { exists cs1. rewrite <- (post_start_ver b0 m req d d c), set_ver_same. auto. }
    unfold vp, acc_vp. fold r. destruct (0 <=? r); [|exact Hnop].
    unfold pull. cbn [copies owner]. rewrite Hg1.
    destruct (getc (copies dt) (Z.to_nat r)) as [sc|]; cbn [option_map]; [|exact Hnop].
    rewrite post_start_ver. eexists. split; [reflexivity|]. split; [apply length_upd_each|]. split.
    - intros i Hne. now apply getc_upd_at_other.
    - now rewrite getc_upd_at_same, Hc1. }
  destruct Hpull as (cs2 & -> & Hl2 & Hg2 & Hd2).
  (* end sets the state of the target *)
  set (st' := if mw m then OWNED else if mr m then SHARED else cst c).
  unfold endt. cbn [owner copies]. set (cs3 := upd_at d _ cs2).
  assert (Hd3 : getc cs3 d = Some (mkcopy st' vp (rdr c + (if mr m then 1 else 0)) (xfer c))).
  { unfold cs3. rewrite getc_upd_at_same, Hd2. cbn [option_map]. f_equal.
    unfold c1. rewrite (post_start_fields b0 m req d d c), post_start_cst, Nat.eqb_refl.
    assert (Hreq : mr m = false -> req = false) by (unfold req, start_req, b0; intros ->; now destruct (owner dt =? Z.of_nat d)).
    unfold st', set_st, set_ver. cbn.
    destruct (mr m); [|rewrite Hreq by reflexivity]; destruct b0, (mw m); reflexivity. }
  assert (Hoth : forall i, i <> d -> getc cs3 i = option_map (post_start b0 m req d i) (getc (copies dt) i)).
  { intros i Hne. unfold cs3. rewrite getc_upd_at_other, Hg2, Hg1 by exact Hne. reflexivity. }
  assert (Hl3 : length cs3 = length (copies dt)) by (unfold cs3, upd_at; rewrite length_upd_each; lia).
  destruct (mw m) eqn:Ew.
  - (* the writer then takes a version above every valid copy, the target included *)
    destruct HJ as (_ & _ & _ & _ & _ & Hv).
    assert (Hv3 : vers_in (mkdata own' cs3) b).
    { intros i x Hx. cbn [copies] in Hx. destruct (Nat.eq_dec i d) as [->|Hne].
      - rewrite Hd3 in Hx. injection Hx as <-. exact (acc_vp_range dt b d m c Hv Hd).
      - destruct (getc_some_map (Hoth i Hne) Hx) as (x0 & Hx0 & ->). rewrite post_start_ver. exact (Hv i x0 Hx0). }
    destruct (bump_spec _ b d _ Hv3 Hb Hd3) as (vd & -> & Hvd & Hmax). cbn [owner copies ver] in *.
    exists (upd_at d (fun c0 => set_ver c0 vd) cs3), vd.
    split; [reflexivity|]. split; [unfold upd_at; rewrite length_upd_each; exact Hl3|]. split; [|split; [|split]].
    + intros i Hne. rewrite getc_upd_at_other by exact Hne. apply Hoth, Hne.
    + now rewrite getc_upd_at_same, Hd3.
    + exact Hvd.
    + intros i x' Hne Hx'. rewrite getc_upd_at_other in Hx' by exact Hne. exact (Hmax i x' Hx').
  - exists cs3, vp. split; [reflexivity|]. split; [exact Hl3|]. split; [exact Hoth|]. split; [exact Hd3|reflexivity].
Qed.

Lemma asserts_attached dt d m : start_asserts dt d m = true -> exists c, getc (copies dt) d = Some c.
Proof. unfold start_asserts. destruct (getc (copies dt) d) as [c|]; [eauto|discriminate]. Qed.

Lemma asserts_src dt d m c : start_asserts dt d m = true -> getc (copies dt) d = Some c ->
  start_req dt d m c = true -> start_src dt c <> -1.
Proof.
  unfold start_asserts, start_req, start_src. intros Ha Hd. rewrite Hd in Ha.
  destruct (owner dt =? Z.of_nat d); [discriminate|].
  destruct (classify (copies dt) c (owner dt)) as [req valid]. destruct (after_read dt d m c) as [own1 cs1].
  cbn [fst snd]. intros Hr.
  (* of the conjuncts only the last is used: -1 != valid_copy when a transfer is required *)
  apply andb_prop in Ha as [_ Ha].
  destruct (mr m); [|discriminate]. cbn in Hr. subst req. lia.
Qed.

Lemma classify_cases dt c :
  (cst c = INVALID /\ fst (classify (copies dt) c (owner dt)) = true /\
     start_src dt c = (if owner dt =? -1 then scan_valid 0 (copies dt) (owner dt) else owner dt)) \/
  (cst c = SHARED /\ fst (classify (copies dt) c (owner dt)) = newer_owned (copies dt) (ver c) /\ start_src dt c = owner dt) \/
  ((cst c = EXCLUSIVE \/ cst c = OWNED) /\ fst (classify (copies dt) c (owner dt)) = false).
Proof. unfold start_src, classify. destruct (cst c); cbn; auto. Qed.

(* the source is owner_device or what the scan found, hence a device unless it is -1 *)
Lemma src_nonneg dt c : -1 <= owner dt -> start_src dt c <> -1 -> 0 <= start_src dt c.
Proof.
  unfold start_src, classify. intros Ho. destruct (cst c); cbn [snd]; try lia.
  destruct (owner dt =? -1); [|lia].
  destruct (scan_valid_spec (copies dt) 0 (owner dt)) as [[-> _]|(i & x & -> & _)]; lia.
Qed.

Lemma ret_nonneg_inv dt d m c : 0 <= acc_ret dt d m c ->
  owner dt <> Z.of_nat d /\ mr m = true /\ fst (classify (copies dt) c (owner dt)) = true /\
  acc_ret dt d m c = start_src dt c.
Proof.
  unfold acc_ret, start_req. destruct (owner dt =? Z.of_nat d) eqn:E; [lia|].
  destruct (mr m); cbn [andb]; [|lia]. destruct (fst (classify (copies dt) c (owner dt))); [|lia].
  intros _. repeat split; auto. lia.
Qed.

Lemma transfer_sound dt d m c : getc (copies dt) d = Some c -> 0 <= acc_ret dt d m c ->
  mr m = true /\ ~ uptodate dt d.
Proof.
  intros Hd Hr. destruct (ret_nonneg_inv dt d m c Hr) as (Hne & Hm & Hreq & _). split; [exact Hm|].
  intros (c' & Hc' & Hv & Hmax). rewrite Hd in Hc'. inversion Hc'; subst c'.
  destruct (classify_cases dt c) as [(Hs & _)|[(Hs & He & _)|(Hs & He)]].
  - contradiction.
  - rewrite He in Hreq. apply newer_owned_true in Hreq as (i & x & Hx & Hox & Hlt).
    assert (ver x <= ver c) by (apply (Hmax i x Hx); congruence). lia.
  - congruence.
Qed.

Lemma transfer_source dt b d m c : J dt b -> getc (copies dt) d = Some c -> 0 <= acc_ret dt d m c ->
  newest_at dt (Z.to_nat (acc_ret dt d m c)).
Proof.
  intros (Ho & Hl & [H1 H2] & H3 & H4 & Hv) Hd Hr.
  destruct (ret_nonneg_inv dt d m c Hr) as (Hne & Hm & Hreq & He). rewrite He in *.
  destruct (classify_cases dt c) as [(Hs & _ & Hsrc)|[(Hs & Hq & Hsrc)|(Hs & Hq)]].
  - rewrite Hsrc in *. destruct (owner dt =? -1) eqn:Eo.
    + assert (Hm1 : owner dt = -1) by lia.
      destruct (scan_valid_spec (copies dt) 0 (owner dt)) as [[Hsv _]|(i & x & Hsv & Hx & Hvx)]; [lia|].
      rewrite Hsv. cbn [Nat.add]. rewrite Nat2Z.id. exists x. repeat split; auto.
      intros j y Hy Hvy. rewrite (H4 Hm1 j i y x Hy Hvy Hx Hvx). lia.
    + apply H3. lia.
  - rewrite Hsrc in *. apply H3. exact Hr.
  - congruence.
Qed.

Lemma newest_dec_lt dt s cs_ c i : newest_at dt s -> getc (copies dt) s = Some cs_ ->
  getc (copies dt) i = Some c -> cst c <> INVALID -> ver c <= ver cs_.
Proof. intros (x & Hx & _ & Hmax) Hs Hi Hv. rewrite Hs in Hx; inversion Hx; subst x. eauto. Qed.

Lemma transfer_complete dt b d m c : J dt b -> owner_owned dt -> getc (copies dt) d = Some c ->
  (start_req dt d m c = true -> start_src dt c <> -1) ->
  mr m = true -> ~ uptodate dt d -> 0 <= acc_ret dt d m c.
Proof.
  intros (Ho & Hl & [H1 H2] & H3 & H4 & Hv) Hoo Hd Ha7 Hm Hnu.
  unfold acc_ret. unfold start_req in *. destruct (owner dt =? Z.of_nat d) eqn:Eo.
  { exfalso. apply Hnu. assert (E : owner dt = Z.of_nat d) by lia.
    unfold uptodate. replace d with (Z.to_nat (owner dt)) by lia. apply H3. lia. }
  rewrite Hm in *. cbn [andb] in *.
  destruct (fst (classify (copies dt) c (owner dt))) eqn:Hq; [apply src_nonneg; auto|]. exfalso.
  (* no transfer is asked: the target is SHARED with no newer OWNED copy, or EXCLUSIVE *)
  assert (Hst : cst c = SHARED /\ newer_owned (copies dt) (ver c) = false \/ cst c = EXCLUSIVE).
  { destruct (classify_cases dt c) as [(Hs & Hq' & _)|[(Hs & Hq' & _)|([Hs|Hs] & _)]];
      [congruence|left; split; congruence|right; exact Hs|].
    assert (owner dt = Z.of_nat d) by (eapply H1; eauto). lia. }
  assert (Hvc : cst c <> INVALID) by (destruct Hst as [[-> _]| ->]; discriminate).
  apply Hnu. exists c. split; [exact Hd|]. split; [exact Hvc|]. intros i x Hx Hvx.
  destruct (Z_le_gt_dec 0 (owner dt)) as [Hge|Hlt].
  - (* beside an owner the target is SHARED; the owner's copy is OWNED, newest, and not newer than the target's *)
    destruct (H2 Hge d c Hd ltac:(lia)) as [E|E]; [congruence|].
    destruct Hst as [[_ Hno]|E']; [|congruence].
    destruct (Hoo Hge) as (co & Hco & Hcoo). destruct (H3 Hge) as (co' & Hco' & _ & Hmax).
    rewrite Hco in Hco'; inversion Hco'; subst co'.
    destruct (Z_le_gt_dec (ver co) (ver c)) as [Hle|Hgt]; [specialize (Hmax i x Hx Hvx); lia|].
    assert (newer_owned (copies dt) (ver c) = true); [|congruence].
    apply newer_owned_true. exists (Z.to_nat (owner dt)), co. repeat split; auto; lia.
  - (* without an owner all valid copies carry the same version *)
    rewrite (H4 ltac:(lia) i d x c Hx Hvx Hd Hvc). lia.
Qed.

Lemma two32_pos : 0 < two32. Proof. unfold two32; lia. Qed.

(* Inv12 through one access, by composition of the primitive steps *)
Lemma access_Inv12 dt d m c : Inv12 dt -> getc (copies dt) d = Some c -> (d < 128)%nat ->
  Inv12 (fst (access dt d m)).
Proof.
  intros HI Hd Hd8. unfold access.
  pose proof (start_Inv12 dt d m HI Hd8) as H1.
  pose proof (fun Hw => start_owner_w dt d m c Hd8 Hw Hd) as Ho.
  destruct (start dt d m) as [dt1 r]. cbn [fst] in *.
  set (dt2 := if 0 <=? r then pull dt1 d (Z.to_nat r) else dt1).
  assert (H2 : Inv12 dt2 /\ owner dt2 = owner dt1).
  { unfold dt2. destruct (0 <=? r); [|auto]. unfold pull. destruct (getc (copies dt1) (Z.to_nat r)); [|auto].
    split; [apply upd_at_Inv12; auto|reflexivity]. }
  destruct H2 as [H2 Ho2].
  assert (H3 : Inv12 (endt dt2 d m)).
  { apply endt_Inv12; auto. intros Hw _. rewrite Ho2. auto. }
  destruct (mw m); [|exact H3]. unfold bump. destruct (getc (copies (endt dt2 d m)) d); [|exact H3].
  unfold setv. apply upd_at_Inv12; auto.
Qed.

(* every valid copy after a non-writing access carries the version of a copy that was valid before *)
Lemma post_valid_origin dt b d m c :
  J dt b -> b + 1 < two32 -> getc (copies dt) d = Some c -> mw m = false ->
  (start_req dt d m c = true -> start_src dt c <> -1) ->
  forall i x', getc (copies (fst (access dt d m))) i = Some x' -> cst x' <> INVALID ->
  exists j xj, getc (copies dt) j = Some xj /\ cst xj <> INVALID /\ ver xj = ver x'.
Proof.
  intros HJ Hb Hd Hw Ha7 i x'.
  destruct (access_view dt b d m c HJ Hb Hd) as (cs' & vd & -> & _ & Hoth & Hcd & Hvd).
  rewrite Hw in *. cbn [fst copies]. intros Hx' Hv.
  destruct (Nat.eq_dec i d) as [->|Hne].
  - rewrite Hcd in Hx'. inversion Hx'; subst x'; clear Hx'. cbn [cst ver] in *.
    rewrite Hvd. unfold acc_vp. destruct (0 <=? acc_ret dt d m c) eqn:Er.
    + destruct (transfer_source dt b d m c HJ Hd ltac:(lia)) as (sc & Hsc & Hvs & _).
      rewrite Hsc. exists (Z.to_nat (acc_ret dt d m c)), sc. auto.
    + exists d, c. split; [exact Hd|]. split; [|reflexivity].
      intros Hc. destruct (mr m) eqn:Em; [|congruence].
      (* an INVALID target read by a device that is not the owner always gets a source *)
      destruct HJ as (Ho & Hl & [H1 H2] & H3 & H4 & Hvi).
      assert (Hreq : start_req dt d m c = true).
      { unfold start_req. destruct (owner dt =? Z.of_nat d) eqn:Eo.
        - exfalso. assert (E : owner dt = Z.of_nat d) by lia.
          destruct (H3 ltac:(lia)) as (co & Hco & Hvo & _). rewrite E, Nat2Z.id, Hd in Hco. congruence.
        - rewrite Em. destruct (classify_cases dt c) as [(_ & -> & _)|[(E & _)|([E|E] & _)]]; [reflexivity|congruence..]. }
      unfold acc_ret in Er. rewrite Hreq in Er. pose proof (src_nonneg dt c Ho (Ha7 Hreq)). lia.
  - destruct (getc_some_map (Hoth i Hne) Hx') as (x & Hx & ->).
    exists i, x. split; [exact Hx|]. rewrite post_start_ver. split; [|reflexivity].
    rewrite post_start_read_valid in Hv by auto. exact Hv.
Qed.

Lemma access_J dt b d m c : J dt b -> getc (copies dt) d = Some c -> b + 1 < two32 ->
  (start_req dt d m c = true -> start_src dt c <> -1) ->
  J (fst (access dt d m)) (b + 1).
Proof.
  intros HJ Hd Hb Ha7.
  pose proof (access_Inv12 dt d m c ltac:(apply HJ) Hd (J_dev_small dt b d c HJ Hd)) as HI'.
  destruct (access_view dt b d m c HJ Hb Hd) as (cs' & vd & Hacc & Hl' & Hoth & Hcd & Hvd).
  rewrite Hacc in *. cbn [fst] in *.
  pose proof HJ as (Ho & Hl & [H1 H2] & H3 & H4 & Hv).
  pose proof (acc_vp_range dt b d m c Hv Hd) as Hvp.
  assert (Hv' : vers_in (mkdata (if mw m then Z.of_nat d else owner dt) cs') (b + 1)).
  { (* the copies other than the target keep their versions *)
    intros i x' Hx'. cbn [copies] in Hx'. destruct (Nat.eq_dec i d) as [->|Hne].
    - rewrite Hcd in Hx'. inversion Hx'; subst x'. cbn [ver]. destruct (mw m); lia.
    - destruct (getc_some_map (Hoth i Hne) Hx') as (x & Hx & ->). rewrite post_start_ver.
      pose proof (Hv i x Hx). lia. }
  split; [destruct (mw m); cbn; lia|]. split; [cbn [copies]; lia|]. split; [exact HI'|].
  destruct (mw m) eqn:Ew.
  - (* the access writes: the target becomes the owner with a version above every valid one *)
    destruct Hvd as (Hvd & Hmax). split; [|split; [|exact Hv']].
    + intros _. unfold newest_at. cbn [owner copies]. rewrite Nat2Z.id. eexists. split; [exact Hcd|]. split; [cbn; discriminate|].
      intros i x' Hx' Hvx'. cbn [ver]. destruct (Nat.eq_dec i d) as [->|Hne].
      * rewrite Hcd in Hx'. inversion Hx'; subst x'. cbn. lia.
      * specialize (Hmax i x' Hne Hx' Hvx'). lia.
    + intros Hm1. cbn [owner] in Hm1. lia.
  - pose proof (post_valid_origin dt b d m c HJ Hb Hd Ew Ha7) as Horig.
    rewrite Hacc in Horig. cbn [fst owner copies] in *. split; [|split; [|exact Hv']].
    + (* the owner is unchanged and still holds the newest version *)
      unfold owner_newest, newest_at. cbn [owner copies]. intros Hge. destruct (H3 Hge) as (co & Hco & Hvo & Hmax).
      assert (Hpost_o : exists co', getc cs' (Z.to_nat (owner dt)) = Some co' /\ cst co' <> INVALID /\ ver co' = ver co).
      { destruct (Nat.eq_dec (Z.to_nat (owner dt)) d) as [E|Hne].
        - assert (Eo' : (owner dt =? Z.of_nat d) = true) by lia.
          rewrite E in *. rewrite Hd in Hco. inversion Hco; subst co. eexists. split; [exact Hcd|]. cbn [cst ver].
          split; [destruct (mr m); [discriminate|exact Hvo]|].
          rewrite Hvd. unfold acc_vp, acc_ret, start_req. rewrite Eo'. reflexivity.
        - rewrite (Hoth _ Hne), Hco. cbn [option_map]. eexists. split; [reflexivity|].
          rewrite post_start_ver. split; [|reflexivity].
          rewrite post_start_read_valid by auto. exact Hvo. }
      destruct Hpost_o as (co' & Hco' & Hvo' & Hveq). exists co'. split; [exact Hco'|]. split; [exact Hvo'|].
      intros i x' Hx' Hvx'. destruct (Horig i x' Hx' Hvx') as (j & xj & Hxj & Hvj & <-).
      rewrite Hveq. eapply Hmax; eauto.
    + unfold equal_when_unowned. cbn [owner copies]. intros Hm1 i j xi xj Hxi Hvi Hxj Hvj.
      destruct (Horig i xi Hxi Hvi) as (i0 & yi & Hyi & Hvyi & <-).
      destruct (Horig j xj Hxj Hvj) as (j0 & yj & Hyj & Hvyj & <-).
      eapply H4; eauto.
Qed.

Lemma access_write_owns dt b d m c : J dt b -> getc (copies dt) d = Some c -> b + 1 < two32 ->
  write_owns dt (Acc d m) (fst (access dt d m)) (snd (access dt d m)).
Proof.
  intros HJ Hd Hb Hw. cbn [write_owns].
  destruct (access_view dt b d m c HJ Hb Hd) as (cs' & vd & Hacc & _ & Hoth & Hcd & Hvd).
  rewrite Hacc. cbn [fst snd owner copies]. rewrite Hw in *. destruct Hvd as (_ & Hmax).
  split; [reflexivity|]. eexists. split; [exact Hcd|]. split; [reflexivity|].
  intros i x' Hne Hx'. split; [|exact (Hmax i x' Hne Hx')].
  destruct (getc_some_map (Hoth i Hne) Hx') as (x & Hx & ->).
  rewrite post_start_cst_other by exact Hne. rewrite Hw.
  destruct (owner dt =? Z.of_nat d) eqn:Eo.
  - destruct HJ as (_ & _ & [_ H2] & _). apply (H2 ltac:(lia) i x Hx). lia.
  - destruct (is_invalid (cst x)); auto.
Qed.

(* one more bump by the owner *)
Lemma bump_J dt b d c : J dt b -> getc (copies dt) d = Some c -> owner dt = Z.of_nat d -> b + 1 < two32 ->
  J (bump dt d) (b + 1).
Proof.
  intros (Ho & Hl & HI & H3 & H4 & Hv) Hd Hod Hb.
  destruct (bump_spec dt b d c Hv Hb Hd) as (vd & -> & Hvd & Hmax). pose proof (Hv d c Hd) as Hc.
  split; [exact Ho|]. split; [cbn [copies]; unfold upd_at; rewrite length_upd_each; exact Hl|].
  split; [apply upd_at_Inv12; auto|]. cbn [owner copies]. split; [|split].
  - unfold owner_newest, newest_at. cbn [owner copies]. intros Hge. rewrite Hod, Nat2Z.id, getc_upd_at_same, Hd. cbn [option_map].
    destruct (H3 Hge) as (co & Hco & Hvo & _). rewrite Hod, Nat2Z.id, Hd in Hco. inversion Hco; subst co.
    eexists. split; [reflexivity|]. split; [exact Hvo|]. cbn [ver set_ver].
    intros i x' Hx' Hvx'. destruct (getc_some_map (getc_upd_at _ _ _ i) Hx') as (x & Hx & ->).
    destruct (Nat.eqb i d); [cbn; lia|]. specialize (Hmax i x Hx Hvx'). lia.
  - unfold equal_when_unowned. cbn [owner copies]. intros Hm. lia.
  - unfold vers_in. cbn [owner copies]. intros i x' Hx'.
    destruct (getc_some_map (getc_upd_at _ _ _ i) Hx') as (x & Hx & ->).
    pose proof (Hv i x Hx). destruct (Nat.eqb i d); cbn; lia.
Qed.

Lemma J_mono dt b b' : J dt b -> b <= b' -> J dt b'.
Proof.
  intros (Ho & Hl & HI & H3 & H4 & Hv) Hle. split; [exact Ho|]. split; [exact Hl|]. split; [exact HI|].
  split; [exact H3|]. split; [exact H4|]. intros i c Hc. specialize (Hv i c Hc). lia.
Qed.

Lemma tx_step_J dt b t : J dt b -> b + 1 < two32 -> tx_asserts dt t -> J (fst (tx_step dt t)) (b + 1).
Proof.
  intros HJ Hb Ha. destruct t as [d m|]; cbn [tx_step fst].
  - destruct Ha as [Ha _]. destruct (asserts_attached dt d m Ha) as (c & Hd).
    apply (access_J dt b d m c HJ Hd Hb). apply asserts_src; auto.
  - destruct (0 <=? owner dt) eqn:Eo; [|eapply J_mono; eauto; lia].
    destruct (getc (copies dt) (Z.to_nat (owner dt))) as [c|] eqn:Hc; [|eapply J_mono; eauto; lia].
    destruct (is_owned (cst c)); [|eapply J_mono; eauto; lia].
    apply (bump_J dt b _ c HJ Hc); lia.
Qed.

(* the owner's copy stays OWNED unless the owner itself makes a read-only access *)
Lemma access_owner_owned dt b d m c : J dt b -> b + 1 < two32 -> owner_owned dt -> getc (copies dt) d = Some c ->
  no_owner_readonly dt (Acc d m) -> owner_owned (fst (access dt d m)).
Proof.
  intros HJ Hb Hoo Hd Hnr.
  destruct (access_view dt b d m c HJ Hb Hd) as (cs' & vd & Hacc & _ & Hoth & Hcd & _).
  rewrite Hacc. cbn [fst]. unfold owner_owned. cbn [owner copies].
  destruct (mw m) eqn:Ew.
  - intros _. rewrite Nat2Z.id. eexists. split; [exact Hcd|reflexivity].
  - intros Hge. destruct (Hoo Hge) as (co & Hco & Hcoo).
    destruct (Nat.eq_dec (Z.to_nat (owner dt)) d) as [E|Hne].
    + rewrite E in *. rewrite Hd in Hco. inversion Hco; subst co.
      eexists. split; [exact Hcd|]. cbn [cst]. destruct (mr m) eqn:Em; [|exact Hcoo].
      exfalso. apply Hnr. repeat split; auto. lia.
    + rewrite (Hoth _ Hne), Hco. cbn [option_map]. eexists. split; [reflexivity|].
      rewrite post_start_cst_other by auto. rewrite Ew, Hcoo.
      destruct (owner dt =? Z.of_nat d), (mr m); reflexivity.
Qed.

Lemma bump_owner_owned dt d : owner_owned dt -> owner_owned (bump dt d).
Proof.
  intros Hoo. unfold bump. destruct (getc (copies dt) d); [|exact Hoo]. unfold setv, owner_owned. cbn [owner copies].
  intros Hge. destruct (Hoo Hge) as (co & Hco & Hcoo). rewrite getc_upd_at, Hco. cbn [option_map].
  eexists. split; [reflexivity|]. destruct (Nat.eqb (Z.to_nat (owner dt)) d); exact Hcoo.
Qed.

Lemma tx_step_owner_owned dt b t : J dt b -> b + 1 < two32 -> owner_owned dt -> tx_asserts dt t ->
  no_owner_readonly dt t -> owner_owned (fst (tx_step dt t)).
Proof.
  intros HJ Hb Hoo Ha Hnr. destruct t as [d m|]; cbn [tx_step fst].
  - destruct Ha as [Ha _]. destruct (asserts_attached dt d m Ha) as (c & Hd). eapply access_owner_owned; eauto.
  - destruct (0 <=? owner dt); [|exact Hoo]. destruct (getc (copies dt) (Z.to_nat (owner dt))) as [c|]; [|exact Hoo].
    destruct (is_owned (cst c)); [|exact Hoo]. apply bump_owner_owned; auto.
Qed.

Lemma access_ret dt b d m c : J dt b -> b + 1 < two32 -> getc (copies dt) d = Some c ->
  snd (access dt d m) = acc_ret dt d m c.
Proof. intros HJ Hb Hd. destruct (access_view dt b d m c HJ Hb Hd) as (cs' & vd & Hacc & _). now rewrite Hacc. Qed.

Definition step_clauses (dt : data) (t : tx) (dt' : data) (r : Z) : Prop :=
  transfer_only_if_stale dt t dt' r /\ source_newest dt t dt' r /\ write_owns dt t dt' r /\ Inv12 dt'.

Lemma tx_step_clauses dt b t : J dt b -> b + 1 < two32 -> tx_asserts dt t ->
  step_clauses dt t (fst (tx_step dt t)) (snd (tx_step dt t)).
Proof.
  intros HJ Hb Ha. pose proof (tx_step_J dt b t HJ Hb Ha) as HJ'.
  destruct t as [d m|].
  - destruct Ha as [Ha _]. destruct (asserts_attached dt d m Ha) as (c & Hd).
    cbn [tx_step] in *. pose proof (access_ret dt b d m c HJ Hb Hd) as Hr.
    split; [|split; [|split]].
    + cbn. rewrite Hr. apply transfer_sound; auto.
    + cbn. rewrite Hr. eapply transfer_source; eauto.
    + eapply access_write_owns; eauto.
    + apply HJ'.
  - split; [exact I|]. split; [exact I|]. split; [exact I|]. apply HJ'.
Qed.

Lemma getc_repeat x n i c : getc (repeat (Some x) n) i = Some c -> c = x.
Proof.
  unfold getc. destruct (nth_error (repeat (Some x) n) i) as [o|] eqn:E; [|discriminate].
  apply nth_error_In, repeat_spec in E. subst o. congruence.
Qed.

Lemma J_data_new n : (n <= 128)%nat -> J (data_new n) 0.
Proof.
  intros Hn. unfold data_new.
  split; [cbn; lia|]. split; [cbn; rewrite repeat_length; exact Hn|]. split; [split|split; [|split]].
  - intros i c Hc Ho. cbn [copies] in Hc. rewrite (getc_repeat _ _ i c Hc) in Ho. discriminate.
  - intros Hge. cbn in Hge. lia.
  - intros Hge. cbn in Hge. lia.
  - intros _ i j ci cj Hi Hvi. cbn [copies] in Hi. rewrite (getc_repeat _ _ i ci Hi) in Hvi. cbn in Hvi. congruence.
  - intros i c Hc. cbn [copies] in Hc. rewrite (getc_repeat _ _ i c Hc). cbn. lia.
Qed.

Lemma getc_data_create n i c : getc (copies (data_create n)) i = Some c ->
  (i = 0%nat /\ c = mkcopy OWNED 0 0 0) \/ (i <> 0%nat /\ c = fresh_copy).
Proof.
  unfold data_create. cbn [copies]. destruct i as [|i].
  - unfold getc. cbn. intros H; inversion H. auto.
  - intros H. right. split; [discriminate|]. unfold getc in H. cbn [nth_error] in H.
    eapply getc_repeat. unfold getc. exact H.
Qed.

Lemma J_data_create n : (1 <= n <= 128)%nat -> J (data_create n) 0 /\ owner_owned (data_create n).
Proof.
  intros Hn. split.
  - split; [cbn; lia|]. split; [unfold data_create; cbn [copies length]; rewrite repeat_length; lia|].
    split; [split|split; [|split]].
    + intros i c Hc Ho. destruct (getc_data_create n i c Hc) as [[-> _]|[_ ->]]; [reflexivity|discriminate].
    + intros _ i c Hc Hne. destruct (getc_data_create n i c Hc) as [[-> _]|[_ ->]]; [cbn in Hne; lia|left; reflexivity].
    + intros _. exists (mkcopy OWNED 0 0 0). split; [reflexivity|]. split; [discriminate|].
      intros i c Hc Hv. destruct (getc_data_create n i c Hc) as [[_ ->]|[_ ->]]; cbn; lia.
    + intros Hm. cbn in Hm. lia.
    + intros i c Hc. destruct (getc_data_create n i c Hc) as [[_ ->]|[_ ->]]; cbn; lia.
  - intros _. exists (mkcopy OWNED 0 0 0). split; reflexivity.
Qed.

Definition Rd := mkmode true false.
Definition Wr := mkmode false true.
Definition RW := mkmode true true.
(* the history of C26_transfer_iff_stale_refuted *)
Definition witness : list tx := [Acc 1 Wr; Acc 1 Rd; Acc 0 Rd].

Lemma witness_asserts : tx_along tx_asserts (data_create 2) witness.
Proof. vm_compute. repeat split. Qed.

(* the split protocol is not protected by assertions: two properly bracketed write transfers
   that overlap leave two OWNED copies although every assertion of start and end holds *)
Definition overlap : list op := [OStart 0 Wr; OStart 1 Wr; OEnd 0 Wr; OEnd 1 Wr].

Lemma mapi_from_compose {A B C} (f : nat -> B -> C) (g : nat -> A -> B) h l :
  (forall i x, f i (g i x) = h i x) -> forall k, mapi_from f k (mapi_from g k l) = mapi_from h k l.
Proof. intros H. induction l as [|x l IH]; intros k; cbn [mapi_from]; [reflexivity|]. now rewrite H, IH. Qed.
(* two updates of slot d make one, by any [h] that agrees with their composition *)
Lemma upd_at_compose d f g h cs : (forall c, f (g c) = h c) -> upd_at d f (upd_at d g cs) = upd_at d h cs.
Proof.
  intros H. unfold upd_at, upd_each. apply mapi_from_compose.
  intros i [x|]; cbn; [|reflexivity]. destruct (Nat.eqb i d); [now rewrite H|reflexivity].
Qed.

(* completing the transfer before or after end_transfer gives the same state *)
Lemma pull_endt_comm dt d m s : endt (pull dt d s) d m = pull (endt dt d m) d s.
Proof.
  unfold pull at 2. unfold endt at 2. cbn [copies owner]. rewrite getc_upd_at.
  unfold pull. destruct (getc (copies dt) s) as [sc|] eqn:Hs; cbn [option_map].
  - unfold endt. cbn [owner copies]. f_equal.
    etransitivity; [apply upd_at_compose; reflexivity|]. symmetry. apply upd_at_compose.
    intros c. destruct (Nat.eqb s d), (mr m), (mw m); reflexivity.
  - reflexivity.
Qed.
