(* From wf_program to the hypotheses of the abstract engine, and the C01 theorems
   for every well-formed program and every schedule. *)
From Coq Require Import ZArith List Bool Arith Lia Permutation.
From PV Require Import Base.Tac PTG.PTGDefs PTG.Engine PTG.EngineProofs.
Import ListNotations.

Definition tid_eq_dec : forall a b : tid, {a = b} + {a <> b}.
Proof. intros a b. decide equality; [apply (list_eq_dec Z.eq_dec)|apply Nat.eq_dec]. Defined.

Lemma zlist_eqb_spec a : forall b, zlist_eqb a b = true <-> a = b.
Proof.
  induction a as [|x a IH]; intros [|y b]; cbn [zlist_eqb]; split; intros H; try discriminate; try reflexivity.
  - apply andb_true_iff in H. destruct H as [H1 H2]. apply Z.eqb_eq in H1. apply IH in H2. congruence.
  - inversion H; subst. apply andb_true_iff. split; [apply Z.eqb_refl|apply IH; reflexivity].
Qed.

Lemma tid_eqb_spec (a b : tid) : tid_eqb a b = true <-> a = b.
Proof.
  destruct a as [ca pa], b as [cb pb]. unfold tid_eqb; cbn [fst snd]. rewrite andb_true_iff, Nat.eqb_eq, zlist_eqb_spec.
  split; [intros [-> ->]; reflexivity|intros H; inversion H; auto].
Qed.

Lemma mem_In t l : mem t l = true <-> In t l.
Proof.
  unfold mem. rewrite existsb_exists. split.
  - intros (x & Hx & He). apply tid_eqb_spec in He. subst; assumption.
  - intros H. exists t. split; [assumption|apply tid_eqb_spec; reflexivity].
Qed.

Lemma count_count_occ t l : count t l = count_occ tid_eq_dec l t.
Proof.
  unfold count. induction l as [|x l IH]; [reflexivity|].
  cbn [filter count_occ]. destruct (tid_eq_dec x t) as [->|Hne].
  - replace (tid_eqb t t) with true by (symmetry; apply tid_eqb_spec; reflexivity). cbn [length]. congruence.
  - destruct (tid_eqb t x) eqn:E; [apply tid_eqb_spec in E; congruence|exact IH].
Qed.

Lemma nodupb_NoDup l : nodupb l = true -> NoDup l.
Proof.
  induction l as [|x l IH]; cbn [nodupb]; intros H; [constructor|].
  apply andb_true_iff in H. destruct H as [H1 H2]. constructor; [|apply IH; assumption].
  intros Hin. apply mem_In in Hin. rewrite Hin in H1. discriminate.
Qed.

Lemma check_order_prefix P : forall order seen, check_order P seen order = true ->
  forall l1 t l2, order = l1 ++ t :: l2 -> forall p, In p (preds P t) -> In p l1 \/ In p seen.
Proof.
  induction order as [|x order IH]; intros seen H l1 t l2 Hs p Hp; [destruct l1; discriminate|].
  cbn [check_order] in H. apply andb_true_iff in H. destruct H as [H1 H2].
  destruct l1 as [|y l1]; cbn [app] in Hs; inversion Hs; subst.
  - right. rewrite forallb_forall in H1. apply mem_In. apply H1. assumption.
  - destruct (IH (y :: seen) H2 l1 t l2 eq_refl p Hp) as [Hin|[Hin|Hin]].
    + left; right; assumption.
    + left; left; assumption.
    + right; assumption.
Qed.

Fixpoint findex (t : tid) (l : list tid) : nat :=
  match l with
  | [] => O
  | x :: r => if tid_eq_dec t x then O else S (findex t r)
  end.

Lemma findex_first t l1 l2 : ~ In t l1 -> findex t (l1 ++ t :: l2) = length l1.
Proof.
  induction l1 as [|x l1 IH]; intros Hn; cbn [app findex length].
  - destruct (tid_eq_dec t t); congruence.
  - destruct (tid_eq_dec t x) as [->|Hne]; [exfalso; apply Hn; left; reflexivity|].
    f_equal. apply IH. intros H; apply Hn; right; assumption.
Qed.

Lemma findex_lt p l1 l2 : In p l1 -> findex p (l1 ++ l2) < length l1.
Proof.
  induction l1 as [|x l1 IH]; intros Hin; [destruct Hin|].
  cbn [app findex length]. destruct (tid_eq_dec p x) as [->|Hne]; [lia|].
  destruct Hin as [Hin|Hin]; [congruence|]. specialize (IH Hin). lia.
Qed.

Lemma in_split_first (t : tid) l : In t l -> exists l1 l2, l = l1 ++ t :: l2 /\ ~ In t l1.
Proof.
  induction l as [|x l IH]; intros Hin; [destruct Hin|].
  destruct (tid_eq_dec x t) as [->|Hne].
  - exists [], l. split; [reflexivity|intros []].
  - destruct Hin as [Hin|Hin]; [congruence|].
    destruct (IH Hin) as (l1 & l2 & -> & Hn). exists (x :: l1), l2. split; [reflexivity|].
    intros [H|H]; [congruence|contradiction].
Qed.

Definition ptg_rank (P : program) (t : tid) : nat := findex t (topo_order P).

(* wf_program, wf_first_match (and wf_program_fm of C02) differ only in what they ask of the input
   dependencies of a data flow: each of them is wf_with of its test, by computation.  What the engine
   needs comes from the rest of the check. *)
Definition task_ok_with (di : list Z -> list Z -> flow -> bool) (P : program) (ids : list tid) (t : tid) : bool :=
  match env_of P t with
  | None => false
  | Some (c, env) =>
      forallb (di (p_globals P) env) (c_flows c)
      && forallb (fun e => let '(ft, p, fp) := e in
                           mem p ids && Nat.eqb (ecount (fp, t, ft) (succ_edges P p)) (ecount e (pred_edges P t)))
                 (pred_edges P t)
      && forallb (fun e => let '(ft, s, fs) := e in
                           mem s ids && Nat.eqb (ecount (fs, t, ft) (pred_edges P s)) (ecount e (succ_edges P t)))
                 (succ_edges P t)
      && forallb (fun p => mem p ids && Nat.eqb (count t (succs P p)) (count p (preds P t))) (preds P t)
      && forallb (fun s => mem s ids && Nat.eqb (count t (preds P s)) (count s (succs P t))) (succs P t)
  end.
Definition wf_with (di : list Z -> list Z -> flow -> bool) (P : program) : bool :=
  let ids := instances P in
  forallb class_limits (p_classes P)
  && nodupb ids
  && forallb (task_ok_with di P ids) ids
  && (let o := topo_order P in
      Nat.eqb (length o) (length ids) && forallb (fun t => mem t o) ids && check_order P [] o).

Lemma wf_program_with P : wf_program P = wf_with data_inputs_ok P.
Proof. reflexivity. Qed.
Lemma wf_first_match_with P : wf_first_match P = wf_with data_inputs_first P.
Proof. reflexivity. Qed.

Lemma forallb_impl {A} (f g : A -> bool) l :
  (forall x, f x = true -> g x = true) -> forallb f l = true -> forallb g l = true.
Proof. rewrite !forallb_forall. auto. Qed.

Lemma wf_with_mono di dj P : (forall G L f, di G L f = true -> dj G L f = true) ->
  wf_with di P = true -> wf_with dj P = true.
Proof.
  intros Hd. unfold wf_with. intros [[Hcn Htask]%andb_prop Hord]%andb_prop.
  apply andb_true_intro. split; [|exact Hord]. apply andb_true_intro. split; [exact Hcn|].
  revert Htask. apply forallb_impl. intros t.
  unfold task_ok_with. destruct (env_of P t) as [[c env]|]; [|auto].
  intros [[[[Hin H1]%andb_prop H2]%andb_prop H3]%andb_prop H4]%andb_prop.
  rewrite H1, H2, H3, H4, !andb_true_r. revert Hin. apply forallb_impl, Hd.
Qed.

Lemma mem_count_ok x ids a b : mem x ids && Nat.eqb a b = true -> In x ids /\ a = b.
Proof. intros [Hm He]%andb_prop. split; [apply mem_In, Hm|apply Nat.eqb_eq, He]. Qed.

Lemma task_ok_with_edges di P ids t : task_ok_with di P ids t = true ->
  (forall p, In p (preds P t) -> In p ids /\ count t (succs P p) = count p (preds P t))
  /\ (forall s, In s (succs P t) -> In s ids /\ count t (preds P s) = count s (succs P t)).
Proof.
  unfold task_ok_with. destruct (env_of P t) as [[c env]|]; [|discriminate].
  intros [[_ Hpr]%andb_prop Hsu]%andb_prop. rewrite forallb_forall in Hpr, Hsu.
  split; intros x Hx; apply mem_count_ok; [apply Hpr|apply Hsu]; exact Hx.
Qed.

Lemma wf_with_order di P : wf_with di P = true ->
  length (topo_order P) = length (instances P)
  /\ (forall t, In t (instances P) -> In t (topo_order P))
  /\ (forall l1 t l2, topo_order P = l1 ++ t :: l2 -> forall p, In p (preds P t) -> In p l1).
Proof.
  unfold wf_with. intros [_ [[Hlen Hmem]%andb_prop Hord]%andb_prop]%andb_prop.
  rewrite forallb_forall in Hmem. split; [apply Nat.eqb_eq, Hlen|]. split.
  - intros t Ht. apply mem_In, Hmem, Ht.
  - intros l1 t l2 Heq p Hp.
    destruct (check_order_prefix P _ [] Hord l1 t l2 Heq p Hp) as [Hin|[]]. assumption.
Qed.

Lemma wf_with_unpack di P : wf_with di P = true ->
  NoDup (instances P)
  /\ (forall t, In t (instances P) -> forall p, In p (preds P t) ->
        In p (instances P) /\ count t (succs P p) = count p (preds P t))
  /\ (forall t, In t (instances P) -> forall s, In s (succs P t) ->
        In s (instances P) /\ count t (preds P s) = count s (succs P t))
  /\ (forall t p, In t (instances P) -> In p (preds P t) -> ptg_rank P p < ptg_rank P t).
Proof.
  intros H. destruct (wf_with_order di P H) as (_ & Hall & Htopo).
  revert H. unfold wf_with. intros [[[_ Hnd]%andb_prop Htask]%andb_prop _]%andb_prop.
  rewrite forallb_forall in Htask.
  split; [apply nodupb_NoDup; assumption|].
  split; [|split].
  - intros t Ht. apply (task_ok_with_edges di P _ t (Htask t Ht)).
  - intros t Ht. apply (task_ok_with_edges di P _ t (Htask t Ht)).
  - (* p stands before the first occurrence of t in the topological order *)
    intros t p Ht Hp. unfold ptg_rank.
    destruct (in_split_first t _ (Hall t Ht)) as (l1 & l2 & Heq & Hn).
    rewrite Heq, (findex_first t l1 l2 Hn). apply findex_lt. apply (Htopo l1 t l2 Heq p Hp).
Qed.

Lemma count_zero_notin (t : tid) l : ~ In t l -> count t l = 0.
Proof. intros H. rewrite count_count_occ. apply count_occ_not_In. assumption. Qed.
Lemma count_pos_in (t : tid) l : In t l -> 0 < count t l.
Proof. intros H. rewrite count_count_occ. apply count_occ_In. assumption. Qed.

(* the hypotheses of EngineProofs *)
Lemma wf_with_engine di P : wf_with di P = true ->
  NoDup (instances P)
  /\ (forall p t, In p (instances P) -> In t (instances P) ->
        count_occ tid_eq_dec (succs P p) t = count_occ tid_eq_dec (preds P t) p)
  /\ (forall p s, In p (instances P) -> In s (succs P p) -> In s (instances P))
  /\ (forall t p, In t (instances P) -> In p (preds P t) -> In p (instances P))
  /\ (forall t p, In t (instances P) -> In p (preds P t) -> ptg_rank P p < ptg_rank P t).
Proof.
  intros H. destruct (wf_with_unpack di P H) as (Hnd & Hpr & Hsu & Hrk).
  split; [assumption|]. split; [|split; [|split]].
  - (* the two counts agree when p is a predecessor of t; otherwise both are 0 *)
    intros p t Hp Ht. rewrite <- !count_count_occ.
    destruct (in_dec tid_eq_dec p (preds P t)) as [Hin|Hnin].
    + apply (Hpr t Ht p Hin).
    + rewrite (count_zero_notin p _ Hnin).
      destruct (in_dec tid_eq_dec t (succs P p)) as [Hin2|Hnin2]; [|apply count_zero_notin; assumption].
      destruct (Hsu p Hp t Hin2) as [_ Hc]. rewrite (count_zero_notin p _ Hnin) in Hc.
      pose proof (count_pos_in t _ Hin2). lia.
  - intros p s Hp Hs. apply (Hsu p Hp s Hs).
  - intros t p Ht Hp. apply (Hpr t Ht p Hp).
  - assumption.
Qed.

Lemma wf_unpack P : wf_program P = true ->
  NoDup (instances P)
  /\ (forall t, In t (instances P) -> forall p, In p (preds P t) ->
        In p (instances P) /\ count t (succs P p) = count p (preds P t))
  /\ (forall t, In t (instances P) -> forall s, In s (succs P t) ->
        In s (instances P) /\ count t (preds P s) = count s (succs P t))
  /\ (forall t p, In t (instances P) -> In p (preds P t) -> ptg_rank P p < ptg_rank P t).
Proof. rewrite wf_program_with. apply wf_with_unpack. Qed.

Definition ptg_run (P : program) (evs : list (event tid)) : state tid :=
  run tid tid_eq_dec (instances P) (preds P) (succs P) evs.
Definition executed (P : program) (evs : list (event tid)) : list tid :=
  begins tid (log tid (ptg_run P evs)).
Definition ptg_quiescent (P : program) (evs : list (event tid)) : Prop :=
  quiescent tid (instances P) (ptg_run P evs).

Theorem wf_no_task_begins_twice di P : wf_with di P = true ->
  forall evs, NoDup (executed P evs).
Proof.
  intros H evs. destruct (wf_with_engine di P H) as (Hnd & Hc & Hs & Hp & Hr).
  apply (no_task_begins_twice tid tid_eq_dec (instances P) (preds P) (succs P) Hc Hs).
Qed.

Theorem wf_only_instances_run di P : wf_with di P = true ->
  forall evs t, In t (executed P evs) -> In t (instances P).
Proof.
  intros H evs t. destruct (wf_with_engine di P H) as (Hnd & Hc & Hs & Hp & Hr).
  apply (only_tasks_begin tid tid_eq_dec (instances P) (preds P) (succs P) Hc Hs).
Qed.

Theorem wf_begin_after_preds_ended di P : wf_with di P = true ->
  forall evs l1 l2 t, log tid (ptg_run P evs) = l2 ++ LBegin t :: l1 ->
  forall p, In p (preds P t) -> In (LEnd p) l1.
Proof.
  intros H evs. destruct (wf_with_engine di P H) as (Hnd & Hc & Hs & Hp & Hr).
  apply (begin_after_preds_ended tid tid_eq_dec (instances P) (preds P) (succs P) Hc Hs).
Qed.

Theorem wf_quiescent_all_done di P : wf_with di P = true ->
  forall evs, ptg_quiescent P evs -> forall t, In t (instances P) -> st tid (ptg_run P evs) t = Done.
Proof.
  intros H evs. destruct (wf_with_engine di P H) as (Hnd & Hc & Hs & Hp & Hr).
  apply (quiescent_all_done tid tid_eq_dec (instances P) (preds P) (succs P) Hc Hs Hp (ptg_rank P) Hr).
Qed.

Theorem wf_complete_run_once di P : wf_with di P = true ->
  forall evs, ptg_quiescent P evs -> Permutation (executed P evs) (instances P).
Proof.
  intros H evs. destruct (wf_with_engine di P H) as (Hnd & Hc & Hs & Hp & Hr).
  intros Q. apply (quiescent_executed_once tid tid_eq_dec (instances P) (preds P) (succs P) Hc Hs Hp (ptg_rank P) Hr evs Hnd Q).
Qed.

Theorem wf_progress di P : wf_with di P = true ->
  forall evs t, In t (instances P) -> st tid (ptg_run P evs) t <> Done ->
  exists u, In u (instances P) /\
    (st tid (ptg_run P evs) u = Ready \/ st tid (ptg_run P evs) u = Running \/ st tid (ptg_run P evs) u = Waiting 0).
Proof.
  intros H evs. destruct (wf_with_engine di P H) as (Hnd & Hc & Hs & Hp & Hr).
  apply (not_all_done_enabled tid tid_eq_dec (instances P) (preds P) (succs P) Hc Hs Hp (ptg_rank P) Hr).
Qed.

Theorem ptg_no_task_begins_twice P : wf_program P = true ->
  forall evs, NoDup (executed P evs).
Proof. rewrite wf_program_with. apply wf_no_task_begins_twice. Qed.

Theorem ptg_only_instances_run P : wf_program P = true ->
  forall evs t, In t (executed P evs) -> In t (instances P).
Proof. rewrite wf_program_with. apply wf_only_instances_run. Qed.

Theorem ptg_begin_after_preds_ended P : wf_program P = true ->
  forall evs l1 l2 t, log tid (ptg_run P evs) = l2 ++ LBegin t :: l1 ->
  forall p, In p (preds P t) -> In (LEnd p) l1.
Proof. rewrite wf_program_with. apply wf_begin_after_preds_ended. Qed.

Theorem ptg_quiescent_all_done P : wf_program P = true ->
  forall evs, ptg_quiescent P evs -> forall t, In t (instances P) -> st tid (ptg_run P evs) t = Done.
Proof. rewrite wf_program_with. apply wf_quiescent_all_done. Qed.

Theorem ptg_complete_run_once P : wf_program P = true ->
  forall evs, ptg_quiescent P evs -> Permutation (executed P evs) (instances P).
Proof. rewrite wf_program_with. apply wf_complete_run_once. Qed.

Theorem ptg_progress P : wf_program P = true ->
  forall evs t, In t (instances P) -> st tid (ptg_run P evs) t <> Done ->
  exists u, In u (instances P) /\
    (st tid (ptg_run P evs) u = Ready \/ st tid (ptg_run P evs) u = Running \/ st tid (ptg_run P evs) u = Waiting 0).
Proof. rewrite wf_program_with. apply wf_progress. Qed.

Lemma data_inputs_ok_first G L f : data_inputs_ok G L f = true -> data_inputs_first G L f = true.
Proof.
  unfold data_inputs_first, data_inputs_ok. destruct (is_ctl f); [auto|].
  destruct (has_inputs f); [|auto]. intros H. apply Nat.eqb_eq in H. rewrite H. reflexivity.
Qed.
