(* C23: the generated make_key is injective on the instances of a class and
   key_print inverts it (mixed radix over the min/range values of internal_init). *)
From Coq Require Import ZArith List Bool Arith Lia.
From PV Require Import Base.Tac PTG.PTGDefs.
Import ListNotations.
Local Open Scope Z_scope.

(* ------------------------------------------------------ execution space, as a predicate *)
(* suf continues the environment pre through the locals ls *)
Fixpoint sufok (G : list Z) (ls : list local) (pre suf : list Z) : Prop :=
  match ls, suf with
  | [], [] => True
  | Lrange lo hi st :: r, v :: s =>
      In v (zrange (eval G pre lo) (eval G pre hi) (eval G pre st)) /\ sufok G r (pre ++ [v]) s
  | Ldef e :: r, v :: s => v = eval G pre e /\ sufok G r (pre ++ [v]) s
  | _, _ => False
  end.

Lemma enum_spec G ls : forall pre env,
  In env (enum G ls pre) <-> exists suf, env = pre ++ suf /\ sufok G ls pre suf.
Proof.
  induction ls as [|l r IH]; intros pre env; cbn [enum].
  - split.
    + intros [<-|[]]. exists []. split; [rewrite app_nil_r; reflexivity|exact I].
    + intros (suf & -> & H). destruct suf; [|destruct H]. left. rewrite app_nil_r; reflexivity.
  - destruct l as [lo hi st|e].
    + rewrite in_flat_map. split.
      * intros (v & Hv & Hin). apply IH in Hin. destruct Hin as (s & -> & Hs).
        exists (v :: s). split; [rewrite <- app_assoc; reflexivity|]. cbn [sufok]. auto.
      * intros (suf & -> & H). destruct suf as [|v s]; [destruct H|]. cbn [sufok] in H. destruct H as [Hv Hs].
        exists v. split; [assumption|]. apply IH. exists s. split; [rewrite <- app_assoc; reflexivity|assumption].
    + rewrite IH. split.
      * intros (s & -> & Hs). exists (eval G pre e :: s). split; [rewrite <- app_assoc; reflexivity|].
        cbn [sufok]. auto.
      * intros (suf & -> & H). destruct suf as [|v s]; [destruct H|]. cbn [sufok] in H. destruct H as [-> Hs].
        exists s. split; [rewrite <- app_assoc; reflexivity|assumption].
Qed.

Lemma sufok_length G ls : forall pre suf, sufok G ls pre suf -> length suf = length ls.
Proof.
  induction ls as [|l r IH]; intros pre suf H; destruct suf as [|v s]; cbn [sufok] in H; try reflexivity;
    try (destruct l; contradiction); try contradiction.
  destruct l; destruct H as [_ H]; cbn [length]; f_equal; eapply IH; eassumption.
Qed.

Lemma sufok_app G l1 : forall l2 pre s1 s2,
  sufok G l1 pre s1 -> sufok G l2 (pre ++ s1) s2 -> sufok G (l1 ++ l2) pre (s1 ++ s2).
Proof.
  induction l1 as [|l r IH]; intros l2 pre s1 s2 H1 H2.
  - destruct s1; [|destruct H1]. rewrite app_nil_r in H2. exact H2.
  - destruct s1 as [|v s]; [destruct l; destruct H1|].
    cbn [app sufok]. destruct l; cbn [sufok] in H1; destruct H1 as [Ha Hb]; (split; [assumption|]);
      apply IH; [assumption| rewrite <- app_assoc; exact H2| assumption | rewrite <- app_assoc; exact H2].
Qed.

(* a valid prefix of length |l1| extended by one more valid value is a valid prefix *)
Lemma prefix_extend G l1 l pre v :
  In pre (enum G l1 []) -> sufok G [l] pre [v] -> In (pre ++ [v]) (enum G (l1 ++ [l]) []).
Proof.
  intros Hp Hv. apply enum_spec in Hp. destruct Hp as (s & Hs & Hok). cbn [app] in Hs. subst s.
  apply enum_spec. exists (pre ++ [v]). split; [reflexivity|].
  apply sufok_app; [assumption|exact Hv].
Qed.

Lemma prefix_length G l1 pre : In pre (enum G l1 []) -> length pre = length l1.
Proof.
  intros Hp. apply enum_spec in Hp. destruct Hp as (s & Hs & Hok). cbn [app] in Hs. subst s.
  eapply sufok_length; eassumption.
Qed.

(* ------------------------------------------------------------------ ranges *)
Lemma zrange_bounds lo hi st v : In v (zrange lo hi st) -> lo <= v <= hi.
Proof.
  unfold zrange. destruct ((st <=? 0) || (hi <? lo)) eqn:E; [intros []|].
  apply orb_false_iff in E. destruct E as [E1 E2].
  apply Z.leb_gt in E1. apply Z.ltb_ge in E2.
  intros H. apply in_map_iff in H. destruct H as (i & <- & Hi). apply in_seq in Hi.
  assert (Hq : 0 <= (hi - lo) / st) by (apply Z.div_pos; lia).
  assert (Hi' : Z.of_nat i <= (hi - lo) / st) by lia.
  assert (Hm : st * ((hi - lo) / st) <= hi - lo) by (apply Z.mul_div_le; lia).
  nia.
Qed.

Lemma fold_min_le {A} (f : A -> Z) l : forall a,
  fold_left (fun m x => zmin m (f x)) l a <= a
  /\ forall x, In x l -> fold_left (fun m x => zmin m (f x)) l a <= f x.
Proof.
  induction l as [|y l IH]; intros a; cbn [fold_left]; [split; [lia|intros x []]|].
  destruct (IH (zmin a (f y))) as [H1 H2].
  assert (Hz : zmin a (f y) <= a /\ zmin a (f y) <= f y) by (unfold zmin; destruct (a <=? f y) eqn:E; lia).
  split; [lia|]. intros x [<-|Hx]; [lia|apply H2; assumption].
Qed.

Lemma fold_max_ge {A} (f : A -> Z) l : forall a,
  a <= fold_left (fun m x => zmax m (f x)) l a
  /\ forall x, In x l -> f x <= fold_left (fun m x => zmax m (f x)) l a.
Proof.
  induction l as [|y l IH]; intros a; cbn [fold_left]; [split; [lia|intros x []]|].
  destruct (IH (zmax a (f y))) as [H1 H2].
  assert (Hz : a <= zmax a (f y) /\ f y <= zmax a (f y)) by (unfold zmax; destruct (a >=? f y) eqn:E; lia).
  split; [lia|]. intros x [<-|Hx]; [lia|apply H2; assumption].
Qed.

Lemma firstn_app_exact {A} (l1 l2 : list A) : firstn (length l1) (l1 ++ l2) = l1.
Proof. induction l1 as [|x l1 IH]; cbn; [destruct l2; reflexivity|f_equal; exact IH]. Qed.
Lemma nth_error_app_exact {A} (l1 : list A) x l2 : nth_error (l1 ++ x :: l2) (length l1) = Some x.
Proof. induction l1 as [|y l1 IH]; cbn; [reflexivity|exact IH]. Qed.
Lemma nth_app_exact (l1 : list Z) x l2 : nth (length l1) (l1 ++ x :: l2) 0 = x.
Proof. induction l1 as [|y l1 IH]; cbn; [reflexivity|exact IH]. Qed.

(* the min/range collected by internal_init enclose every value the parameter takes *)
Lemma minmax_range G l1 lo hi st l2 pre v :
  In pre (enum G l1 []) ->
  In v (zrange (eval G pre lo) (eval G pre hi) (eval G pre st)) ->
  let '(mn, rg) := minmax_at G (l1 ++ Lrange lo hi st :: l2) (length l1) in
  0 <= v - mn < rg.
Proof.
  intros Hp Hv. unfold minmax_at. rewrite nth_error_app_exact, firstn_app_exact.
  apply zrange_bounds in Hv.
  set (fmin := fun env => zmin (eval G env lo) (eval G env hi)).
  set (fmax := fun env => zmax (eval G env lo) (eval G env hi)).
  destruct (fold_min_le fmin (enum G l1 []) INT_MAX) as [_ Hmin].
  destruct (fold_max_ge fmax (enum G l1 []) 0) as [_ Hmax].
  specialize (Hmin pre Hp). specialize (Hmax pre Hp).
  change (fold_left (fun m env => zmin m (zmin (eval G env lo) (eval G env hi))) (enum G l1 []) INT_MAX)
    with (fold_left (fun m x => zmin m (fmin x)) (enum G l1 []) INT_MAX).
  change (fold_left (fun m env => zmax m (zmax (eval G env lo) (eval G env hi))) (enum G l1 []) 0)
    with (fold_left (fun m x => zmax m (fmax x)) (enum G l1 []) 0).
  assert (H1 : fmin pre <= eval G pre lo) by (unfold fmin, zmin; destruct (eval G pre lo <=? eval G pre hi) eqn:E; lia).
  assert (H2 : eval G pre hi <= fmax pre) by (unfold fmax, zmax; destruct (eval G pre lo >=? eval G pre hi) eqn:E; lia).
  lia.
Qed.

Lemma minmax_def G l1 e l2 : minmax_at G (l1 ++ Ldef e :: l2) (length l1) = (0, 1).
Proof. unfold minmax_at. rewrite nth_error_app_exact. reflexivity. Qed.

(* ------------------------------------------------------------ class conditions *)
(* every range is a parameter (part of wf_program's class_limits) *)
Definition ranges_are_params (c : tclass) : Prop :=
  forall pos lo hi st, nth_error (c_locals c) pos = Some (Lrange lo hi st) -> is_param c pos = true.
(* every parameter is a range (no parameter defined by `p = e`) *)
Definition params_are_ranges (c : tclass) : Prop :=
  forall pos e, nth_error (c_locals c) pos = Some (Ldef e) -> is_param c pos = false.

Lemma in_combine_seq {A} (ls : list A) : forall s pos x, nth_error ls pos = Some x ->
  In ((s + pos)%nat, x) (combine (seq s (length ls)) ls).
Proof.
  induction ls as [|l r IH]; intros s pos x Hn; [destruct pos; discriminate|].
  cbn [length seq combine]. destruct pos as [|pos]; cbn [nth_error] in Hn.
  - inversion Hn; subst. left. f_equal. lia.
  - right. replace (s + S pos)%nat with (S s + pos)%nat by lia. apply IH. assumption.
Qed.

Lemma class_limits_ranges c : class_limits c = true -> ranges_are_params c.
Proof.
  unfold class_limits. intros H. apply andb_true_iff in H. destruct H as [_ H].
  intros pos lo hi st Hn. rewrite forallb_forall in H.
  specialize (H (pos, Lrange lo hi st)). cbn [fst snd] in H.
  unfold is_param. apply H.
  apply (in_combine_seq (c_locals c) 0 pos _ Hn).
Qed.

(* ------------------------------------------------------------- injectivity *)
Lemma radix_unique rg d1 k1 d2 k2 :
  0 <= d1 < rg -> 0 <= d2 < rg -> d1 + rg * k1 = d2 + rg * k2 -> d1 = d2 /\ k1 = k2.
Proof.
  intros H1 H2 He.
  assert (k1 = k2) by nia. subst. split; lia.
Qed.

(* one local further: what a valid prefix of l1 and a valid suffix v :: s of the remaining locals
   l :: l2 give about the split after l, about position |l1|, and about v *)
Lemma split_step G c l1 l l2 pre v s :
  c_locals c = l1 ++ l :: l2 -> In pre (enum G l1 []) -> sufok G (l :: l2) pre (v :: s) ->
  (c_locals c = (l1 ++ [l]) ++ l2 /\ In (pre ++ [v]) (enum G (l1 ++ [l]) []) /\ sufok G l2 (pre ++ [v]) s) /\
  (length (l1 ++ [l]) = S (length l1) /\ (pre ++ [v]) ++ s = pre ++ v :: s) /\
  (nth_error (c_locals c) (length l1) = Some l /\ nth (length l1) (pre ++ v :: s) 0 = v) /\
  match l with
  | Lrange _ _ _ => let '(mn, rg) := minmax_at G (c_locals c) (length l1) in 0 <= v - mn < rg
  | Ldef e => v = eval G pre e /\ minmax_at G (c_locals c) (length l1) = (0, 1)
  end.
Proof.
  intros Hc Hp Hs.
  assert (Hv : sufok G [l] pre [v] /\ sufok G l2 (pre ++ [v]) s) by (destruct l; cbn [sufok] in *; tauto).
  destruct Hv as [Hv Hs']. repeat split; try assumption.
  - rewrite <- app_assoc. exact Hc.
  - apply prefix_extend; assumption.
  - rewrite app_length. cbn. lia.
  - rewrite <- app_assoc. reflexivity.
  - rewrite Hc. apply nth_error_app_exact.
  - rewrite <- (prefix_length G l1 pre Hp). apply nth_app_exact.
  - rewrite Hc. destruct l as [lo hi st|e]; cbn [sufok] in Hv; destruct Hv as [Hv _].
    + apply (minmax_range G l1 lo hi st l2 pre v Hp Hv).
    + split; [assumption|apply minmax_def].
Qed.

Lemma key_inj_from G c : ranges_are_params c ->
  forall l2 l1 pre s1 s2, c_locals c = l1 ++ l2 -> In pre (enum G l1 []) ->
    sufok G l2 pre s1 -> sufok G l2 pre s2 ->
    key_from G c (pre ++ s1) (length l1) (length l2) = key_from G c (pre ++ s2) (length l1) (length l2) ->
    s1 = s2.
Proof.
  intros Hrp. induction l2 as [|l l2 IH]; intros l1 pre s1 s2 Hc Hp H1 H2 Hk.
  - destruct s1; [|destruct H1]. destruct s2; [|destruct H2]. reflexivity.
  - destruct s1 as [|v1 s1]; [destruct l; destruct H1|].
    destruct s2 as [|v2 s2]; [destruct l; destruct H2|].
    destruct (split_step G c l1 l l2 pre v1 s1 Hc Hp H1) as ((Hc' & Hp' & Hs1) & (Hl & Ha1) & (Hnth & Hn1) & Hv1).
    destruct (split_step G c l1 l l2 pre v2 s2 Hc Hp H2) as ((_ & _ & Hs2) & (_ & Ha2) & (_ & Hn2) & Hv2).
    cbn [length key_from] in Hk. rewrite Hn1, Hn2, <- Ha1, <- Ha2, <- Hl in Hk.
    (* the same value at this position, and the same key from the next position on *)
    assert (Hvk : v1 = v2 /\ key_from G c ((pre ++ [v1]) ++ s1) (length (l1 ++ [l])) (length l2)
                             = key_from G c ((pre ++ [v2]) ++ s2) (length (l1 ++ [l])) (length l2)).
    { destruct l as [lo hi st|e].
      - (* a range: it is a parameter; its digit lies in [0, range) *)
        rewrite (Hrp _ _ _ _ Hnth) in Hk. destruct (minmax_at G (c_locals c) (length l1)) as [mn rg].
        destruct (radix_unique rg _ _ _ _ Hv1 Hv2 Hk) as [Hd Hr]. split; [lia|exact Hr].
      - destruct Hv1 as [-> Hm], Hv2 as [-> _]. split; [reflexivity|].
        rewrite Hm in Hk. destruct (is_param c (length l1)); lia. }
    destruct Hvk as [<- Hk']. f_equal. apply (IH _ _ s1 s2 Hc' Hp' Hs1 Hs2 Hk').
Qed.

(* two instances of a class with the same (unbounded) key are the same instance *)
Theorem keyZ_injective G c : ranges_are_params c ->
  forall e1 e2, In e1 (instances_of G c) -> In e2 (instances_of G c) ->
    make_keyZ G c e1 = make_keyZ G c e2 -> e1 = e2.
Proof.
  intros Hrp e1 e2 H1 H2 Hk. unfold instances_of in H1, H2.
  apply enum_spec in H1. apply enum_spec in H2.
  destruct H1 as (s1 & -> & Hs1). destruct H2 as (s2 & -> & Hs2). cbn [app].
  apply (key_inj_from G c Hrp (c_locals c) [] [] s1 s2 eq_refl); [left; reflexivity|assumption|assumption|].
  exact Hk.
Qed.

(* ------------------------------------------------- bounds: the no-overflow hypothesis *)
Fixpoint range_prod_from (G : list Z) (c : tclass) (pos n : nat) : Z :=
  match n with
  | O => 1
  | S k => if is_param c pos
           then snd (minmax_at G (c_locals c) pos) * range_prod_from G c (S pos) k
           else range_prod_from G c (S pos) k
  end.
(* Π range_i over the parameters *)
Definition range_product (G : list Z) (c : tclass) : Z := range_prod_from G c O (length (c_locals c)).

(* the key of a valid suffix is below the product of the remaining ranges, and decodes to the suffix *)
Lemma key_from_spec G c : ranges_are_params c -> params_are_ranges c ->
  forall l2 l1 pre s, c_locals c = l1 ++ l2 -> In pre (enum G l1 []) -> sufok G l2 pre s ->
    0 <= key_from G c (pre ++ s) (length l1) (length l2) < range_prod_from G c (length l1) (length l2) /\
    decode_from G c l2 (length l1) (key_from G c (pre ++ s) (length l1) (length l2)) pre = pre ++ s.
Proof.
  intros Hrp Hpr. induction l2 as [|l l2 IH]; intros l1 pre s Hc Hp Hs.
  - destruct s; [|destruct Hs]. cbn. rewrite app_nil_r. split; [lia|reflexivity].
  - destruct s as [|v s]; [destruct l; destruct Hs|].
    destruct (split_step G c l1 l l2 pre v s Hc Hp Hs) as ((Hc' & Hp' & Hs') & (Hl & Ha) & (Hnth & Hn) & Hv).
    specialize (IH _ _ s Hc' Hp' Hs'). rewrite Hl, Ha in IH. destruct IH as [IHb IHd].
    cbn [length key_from range_prod_from decode_from]. rewrite Hn.
    destruct l as [lo hi st|e].
    + rewrite (Hrp _ _ _ _ Hnth). destruct (minmax_at G (c_locals c) (length l1)) as [mn rg]. cbn [snd].
      set (K := key_from G c (pre ++ v :: s) (S (length l1)) (length l2)) in *.
      split; [nia|].
      (* the digit of this parameter is the remainder, the key of the rest the quotient *)
      assert (Hm : (v - mn + rg * K) mod rg = v - mn).
      { rewrite Z.mul_comm, Z.mod_add by lia. apply Z.mod_small. lia. }
      assert (Hd : (v - mn + rg * K) / rg = K).
      { rewrite Z.mul_comm, Z.div_add by lia. rewrite Z.div_small by lia. lia. }
      rewrite Hm, Hd. replace (v - mn + mn) with v by lia. exact IHd.
    + rewrite (Hpr _ _ Hnth). destruct Hv as [<- _]. split; assumption.
Qed.

Theorem keyZ_bound G c : ranges_are_params c -> params_are_ranges c ->
  forall e, In e (instances_of G c) -> 0 <= make_keyZ G c e < range_product G c.
Proof.
  intros Hrp Hpr e He. unfold instances_of in He. apply enum_spec in He. destruct He as (s & -> & Hs).
  cbn [app]. apply (key_from_spec G c Hrp Hpr (c_locals c) [] [] s eq_refl (or_introl eq_refl) Hs).
Qed.

(* the uint64 key, under the no-overflow hypothesis *)
Theorem make_key_injective G c : ranges_are_params c -> params_are_ranges c ->
  range_product G c <= two64 ->
  forall e1 e2, In e1 (instances_of G c) -> In e2 (instances_of G c) ->
    make_key G c e1 = make_key G c e2 -> e1 = e2.
Proof.
  intros Hrp Hpr Hov e1 e2 H1 H2 Hk.
  pose proof (keyZ_bound G c Hrp Hpr e1 H1) as B1. pose proof (keyZ_bound G c Hrp Hpr e2 H2) as B2.
  unfold make_key in Hk. rewrite !Z.mod_small in Hk by lia.
  apply (keyZ_injective G c Hrp e1 e2 H1 H2 Hk).
Qed.

(* ------------------------------------------------------------------ decoding *)
(* key_print's inversion rebuilds the whole environment of the instance *)
Theorem decode_make_key G c : ranges_are_params c -> params_are_ranges c ->
  range_product G c <= two64 ->
  forall e, In e (instances_of G c) -> decode G c (make_key G c e) = e.
Proof.
  intros Hrp Hpr Hov e He.
  pose proof (keyZ_bound G c Hrp Hpr e He) as B.
  unfold make_key. rewrite Z.mod_small by lia.
  unfold instances_of in He. apply enum_spec in He. destruct He as (s & -> & Hs). cbn [app].
  apply (key_from_spec G c Hrp Hpr (c_locals c) [] [] s eq_refl (or_introl eq_refl) Hs).
Qed.

Theorem key_print_names_instance G c : ranges_are_params c -> params_are_ranges c ->
  range_product G c <= two64 ->
  forall e, In e (instances_of G c) ->
    key_print G c (make_key G c e) = params_in_local_order c e.
Proof.
  intros Hrp Hpr Hov e He. unfold key_print. rewrite (decode_make_key G c Hrp Hpr Hov e He). reflexivity.
Qed.

(* ------------------------------------------------ the classes of a well-formed program *)
Lemma wf_class_limits P ci c : wf_program P = true -> nth_class P ci = Some c -> class_limits c = true.
Proof.
  unfold wf_program. intros H Hc.
  repeat (apply andb_true_iff in H; destruct H as [H ?]).
  rewrite forallb_forall in H. apply H. unfold nth_class in Hc. eapply nth_error_In; eassumption.
Qed.

Lemma wf_class_ranges P ci c : wf_program P = true -> nth_class P ci = Some c -> ranges_are_params c.
Proof. intros H Hc. apply class_limits_ranges, (wf_class_limits P ci c H Hc). Qed.

(* ------------------------------------------------ header order as a permutation *)
Lemma index_of_nth x l : In x l -> exists j, index_of x l = Some j /\ nth j l O = x /\ (j < length l)%nat.
Proof.
  induction l as [|y l IH]; intros Hin; [destruct Hin|].
  cbn [index_of]. destruct (Nat.eqb x y) eqn:E.
  - apply Nat.eqb_eq in E. subst. exists O. cbn. repeat split; lia.
  - destruct Hin as [->|Hin]; [rewrite Nat.eqb_refl in E; discriminate|].
    destruct (IH Hin) as (j & -> & Hn & Hl). exists (S j). cbn. repeat split; [assumption|lia].
Qed.

Lemma class_limits_params_lt c : class_limits c = true -> forall i, In i (c_params c) -> (i < length (c_locals c))%nat.
Proof.
  unfold class_limits. intros H. apply andb_true_iff in H. destruct H as [H _].
  apply andb_true_iff in H. destruct H as [_ H]. rewrite forallb_forall in H.
  intros i Hi. apply Nat.ltb_lt. apply H. assumption.
Qed.

(* whatever permutation of the definition order the header is: rearranging the definition-order values
   gives the header-order parameters of the instance *)
Theorem to_header_order_params c : class_limits c = true ->
  forall e, to_header_order c (params_in_local_order c e) = params_of c e.
Proof.
  intros Hl e. unfold to_header_order, params_of, params_in_local_order. apply map_ext_in. intros i Hi.
  assert (Hin : In i (param_positions c)).
  { unfold param_positions. apply filter_In. split.
    - apply in_seq. pose proof (class_limits_params_lt c Hl i Hi). lia.
    - unfold is_param. apply existsb_exists. exists i. split; [assumption|apply Nat.eqb_refl]. }
  destruct (index_of_nth i _ Hin) as (j & -> & Hn & Hj).
  fold (param_positions c).
  rewrite (nth_indep _ 0 (nth O e 0)) by (rewrite map_length; assumption).
  rewrite (map_nth (fun i => nth i e 0) (param_positions c) O j). rewrite Hn. reflexivity.
Qed.

Theorem key_print_header_view G c : class_limits c = true -> params_are_ranges c ->
  range_product G c <= two64 ->
  forall e, In e (instances_of G c) ->
    to_header_order c (key_print G c (make_key G c e)) = params_of c e.
Proof.
  intros Hl Hpr Hov e He.
  rewrite (key_print_names_instance G c (class_limits_ranges c Hl) Hpr Hov e He).
  apply to_header_order_params. assumption.
Qed.
