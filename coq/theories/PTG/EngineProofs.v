(* Invariant proofs for the abstract dataflow engine (Engine.v), for EVERY schedule. *)
From Coq Require Import List Arith Lia Permutation.
From PV Require Import Base.Tac PTG.Engine.
Import ListNotations.

Section EngineProofs.
  Variable task : Type.
  Variable teq : forall a b : task, {a = b} + {a <> b}.
  Variable tasks : list task.
  Variable preds succs : task -> list task.

  (* the finite DAG *)
  Hypothesis H_conv : forall p t, In p tasks -> In t tasks ->
                                  count_occ teq (succs p) t = count_occ teq (preds t) p.
  Hypothesis H_succ_in : forall p s, In p tasks -> In s (succs p) -> In s tasks.
  Hypothesis H_pred_in : forall t p, In t tasks -> In p (preds t) -> In p tasks.
  Variable rank : task -> nat.
  Hypothesis H_rank : forall t p, In t tasks -> In p (preds t) -> rank p < rank t.

  Local Notation State := (state task).
  Local Notation stepE := (step task teq tasks succs).
  Local Notation initE := (init task teq tasks preds).
  Local Notation runE := (run task teq tasks preds succs).
  Local Notation updE := (upd task teq).
  Local Notation releaseE := (release task teq).
  Local Notation start_oneE := (start_one task teq).
  Local Notation beginsE := (begins task).
  Local Notation endsE := (ends task).

  Definition isdone (s : status) : bool := match s with Done => true | _ => false end.
  Definition pending (f : task -> status) (t : task) : nat :=
    length (filter (fun p => negb (isdone (f p))) (preds t)).

  Record Inv (s : State) : Prop := {
    inv_absent : forall t, ~ In t tasks -> st task s t = Absent;
    inv_present : forall t, In t tasks -> st task s t <> Absent;
    inv_count : forall t, In t tasks ->
                          match st task s t with
                          | Waiting n => n = pending (st task s) t
                          | _ => pending (st task s) t = 0
                          end;
    inv_begins : forall t, count_occ teq (beginsE (log task s)) t
                           = match st task s t with Running | Done => 1 | _ => 0 end;
    inv_ends : forall t, count_occ teq (endsE (log task s)) t
                         = match st task s t with Done => 1 | _ => 0 end;
    inv_order : forall l1 l2 t, log task s = l2 ++ LBegin t :: l1 ->
                                forall p, In p (preds t) -> In (LEnd p) l1
  }.

  Lemma upd_same f t v : updE f t v t = v.
  Proof. unfold upd. destruct (teq t t); congruence. Qed.
  Lemma upd_other f t v x : x <> t -> updE f t v x = f x.
  Proof. unfold upd. destruct (teq x t); congruence. Qed.

  Lemma iter_S {A} (f : A -> A) n x : Nat.iter (S n) f x = f (Nat.iter n f x).
  Proof. reflexivity. Qed.
  Lemma iter_0 {A} (f : A -> A) x : Nat.iter 0 f x = x.
  Proof. reflexivity. Qed.

  Lemma isdone_rel1 s : isdone (rel1 s) = isdone s.
  Proof. destruct s as [|[|[|n]]| | |]; reflexivity. Qed.
  Lemma isdone_start1 s : isdone (start1 s) = isdone s.
  Proof. destruct s as [|[|n]| | |]; reflexivity. Qed.
  Lemma isdone_iter k s : isdone (Nat.iter k rel1 s) = isdone s.
  Proof. induction k as [|k IH]; [reflexivity|]. rewrite iter_S, isdone_rel1. exact IH. Qed.

  Lemma iter_succ_r {A} (f : A -> A) n : forall x, Nat.iter (S n) f x = Nat.iter n f (f x).
  Proof.
    induction n as [|n IH]; intros x; [reflexivity|].
    rewrite (iter_S f (S n)), IH. reflexivity.
  Qed.

  Lemma fold_release l : forall f x,
      fold_left releaseE l f x = Nat.iter (count_occ teq l x) rel1 (f x).
  Proof.
    induction l as [|a l IH]; intros f x; cbn [fold_left count_occ]; [reflexivity|].
    rewrite IH. unfold release.
    destruct (teq a x) as [->|Hne].
    - rewrite upd_same. rewrite iter_succ_r. reflexivity.
    - rewrite upd_other by congruence. reflexivity.
  Qed.

  Lemma iter_rel1_fixed k s :
    (forall n, s <> Waiting n) -> Nat.iter k rel1 s = s.
  Proof.
    intros Hs. induction k as [|k IH]; [reflexivity|].
    rewrite iter_S, IH. destruct s as [|n| | |]; try reflexivity. exfalso; eapply Hs; reflexivity.
  Qed.

  (* releases keep a waiting task waiting or make it ready, whatever their number *)
  Lemma iter_rel1_unstarted k n :
    Nat.iter k rel1 (Waiting n) = Ready \/ exists m, Nat.iter k rel1 (Waiting n) = Waiting m.
  Proof.
    induction k as [|k IH]; [right; exists n; reflexivity|].
    rewrite iter_S. destruct IH as [->|[m ->]]; [left; reflexivity|].
    destruct m as [|[|m]]; cbn [rel1]; eauto.
  Qed.

  Lemma iter_rel1_waiting k : forall n, 0 < k -> k <= n ->
      Nat.iter k rel1 (Waiting n) = if Nat.eqb n k then Ready else Waiting (n - k).
  Proof.
    induction k as [|k IH]; intros n Hk Hn; [lia|].
    rewrite iter_S.
    destruct k as [|k].
    - rewrite iter_0. destruct n as [|[|n]]; [lia| reflexivity|].
      cbn [rel1 Nat.eqb]. f_equal; lia.
    - rewrite IH by lia.
      destruct (Nat.eqb n (S k)) eqn:E1; [apply Nat.eqb_eq in E1; lia|].
      apply Nat.eqb_neq in E1.
      destruct (Nat.eqb n (S (S k))) eqn:E2.
      + apply Nat.eqb_eq in E2. replace (n - S k) with 1 by lia. reflexivity.
      + apply Nat.eqb_neq in E2.
        destruct (n - S k) as [|[|m]] eqn:E3; [lia|lia|].
        cbn [rel1]. f_equal; lia.
  Qed.

  Lemma fold_start l : forall f x,
      fold_left start_oneE l f x = if in_dec teq x l then start1 (f x) else f x.
  Proof.
    induction l as [|a l IH]; intros f x; cbn [fold_left]; [reflexivity|].
    rewrite IH. unfold start_one.
    destruct (teq x a) as [->|Hne].
    - rewrite upd_same.
      destruct (in_dec teq a (a :: l)) as [_|Hn]; [|exfalso; apply Hn; left; reflexivity].
      destruct (in_dec teq a l); [|reflexivity].
      destruct (f a) as [|[|n]| | |]; reflexivity.
    - rewrite upd_other by assumption.
      destruct (in_dec teq x l) as [Hi|Hi]; destruct (in_dec teq x (a :: l)) as [Hj|Hj]; try reflexivity.
      + exfalso; apply Hj; right; assumption.
      + exfalso. destruct Hj as [Hj|Hj]; [congruence|contradiction].
  Qed.

  Lemma pending_ext f g t : (forall p, isdone (f p) = isdone (g p)) -> pending f t = pending g t.
  Proof.
    intros H. unfold pending. f_equal. apply filter_ext. intros p. rewrite H. reflexivity.
  Qed.

  (* when t (not done so far) becomes Done, the pending count of x drops by the
     number of occurrences of t among the predecessors of x *)
  Lemma filter_done_drop f t l : isdone (f t) = false ->
      length (filter (fun p => negb (isdone (updE f t Done p))) l) + count_occ teq l t
      = length (filter (fun p => negb (isdone (f p))) l).
  Proof.
    intros Ht. induction l as [|a l IH]; cbn [filter count_occ length]; [reflexivity|].
    destruct (teq a t) as [->|Hne].
    - rewrite upd_same, Ht. cbn [isdone negb length]. lia.
    - rewrite upd_other by assumption.
      destruct (negb (isdone (f a))); cbn [length]; lia.
  Qed.

  Lemma count_le_pending f t x : isdone (f t) = false -> count_occ teq (preds x) t <= pending f x.
  Proof. intros Ht. unfold pending. pose proof (filter_done_drop f t (preds x) Ht). lia. Qed.

  Lemma count_begins_cons_b t l x :
    count_occ teq (beginsE (LBegin t :: l)) x = (if teq t x then 1 else 0) + count_occ teq (beginsE l) x.
  Proof. cbn [begins flat_map app count_occ]. destruct (teq t x); reflexivity. Qed.
  Lemma count_begins_cons_e t l x :
    count_occ teq (beginsE (LEnd t :: l)) x = count_occ teq (beginsE l) x.
  Proof. reflexivity. Qed.
  Lemma count_ends_cons_e t l x :
    count_occ teq (endsE (LEnd t :: l)) x = (if teq t x then 1 else 0) + count_occ teq (endsE l) x.
  Proof. cbn [ends flat_map app count_occ]. destruct (teq t x); reflexivity. Qed.
  Lemma count_ends_cons_b t l x :
    count_occ teq (endsE (LBegin t :: l)) x = count_occ teq (endsE l) x.
  Proof. reflexivity. Qed.

  Lemma in_ends l p : In p (endsE l) <-> In (LEnd p) l.
  Proof.
    unfold ends. rewrite in_flat_map. split.
    - intros ([t|t] & Hin & Hp); [contradiction|]. destruct Hp as [<-|[]]. assumption.
    - intros H. exists (LEnd p). split; [assumption|left; reflexivity].
  Qed.

  Lemma Inv_init : Inv initE.
  Proof.
    split; cbn [init st log]; intros.
    - destruct (in_dec teq t tasks); [contradiction|reflexivity].
    - destruct (in_dec teq t tasks); [discriminate|contradiction].
    - destruct (in_dec teq t tasks); [|contradiction].
      unfold pending. f_equal. symmetry.
      rewrite <- (filter_ext (fun _ => true)) at 1.
      + clear. induction (preds t) as [|a l IH]; cbn; congruence.
      + intros p. destruct (in_dec teq p tasks); reflexivity.
    - cbn. destruct (in_dec teq t tasks); reflexivity.
    - cbn. destruct (in_dec teq t tasks); reflexivity.
    - destruct l2; discriminate.
  Qed.

  (* a step that changes the status of tasks without touching Done-ness and keeps the log *)
  Lemma Inv_startish (s : State) (g : task -> status) :
    Inv s ->
    (forall x, g x = st task s x \/ (st task s x = Waiting 0 /\ g x = Ready)) ->
    Inv {| st := g; log := log task s |}.
  Proof.
    intros I Hg.
    assert (Hd : forall p, isdone (g p) = isdone (st task s p)).
    { intros p. destruct (Hg p) as [->|[H1 H2]]; [reflexivity|]. rewrite H1, H2. reflexivity. }
    split; cbn [st log].
    - intros t Ht. destruct (Hg t) as [->|[H1 _]]; [apply (inv_absent s I t Ht)|].
      rewrite (inv_absent s I t Ht) in H1. discriminate.
    - intros t Ht. destruct (Hg t) as [->|[_ H2]]; [apply (inv_present s I t Ht)|]. rewrite H2; discriminate.
    - intros t Ht. rewrite (pending_ext g (st task s) t Hd).
      pose proof (inv_count s I t Ht) as Hc.
      destruct (Hg t) as [->|[H1 H2]]; [exact Hc|].
      rewrite H1 in Hc. rewrite H2. symmetry; exact Hc.
    - intros t. rewrite (inv_begins s I t).
      destruct (Hg t) as [->|[H1 H2]]; [reflexivity|]. rewrite H1, H2. reflexivity.
    - intros t. rewrite (inv_ends s I t).
      destruct (Hg t) as [->|[H1 H2]]; [reflexivity|]. rewrite H1, H2. reflexivity.
    - apply (inv_order s I).
  Qed.

  Lemma done_in_ends (s : State) p : Inv s -> st task s p = Done -> In (LEnd p) (log task s).
  Proof.
    intros I Hp. apply in_ends. pose proof (inv_ends s I p) as H. rewrite Hp in H.
    apply (count_occ_In teq). lia.
  Qed.

  Lemma in_tasks_of_status (s : State) t : Inv s -> st task s t <> Absent -> In t tasks.
  Proof.
    intros I H. destruct (in_dec teq t tasks) as [Hi|Hi]; [assumption|].
    destruct (H (inv_absent s I t Hi)).
  Qed.

  Lemma pending_zero_all_done f t : pending f t = 0 -> forall p, In p (preds t) -> f p = Done.
  Proof.
    unfold pending. intros H p Hp.
    destruct (isdone (f p)) eqn:E; [destruct (f p); try discriminate; reflexivity|].
    exfalso.
    assert (Hin : In p (filter (fun p => negb (isdone (f p))) (preds t))).
    { apply filter_In. split; [assumption|]. rewrite E. reflexivity. }
    destruct (filter (fun p => negb (isdone (f p))) (preds t)); [contradiction|discriminate].
  Qed.

  (* H_succ_in plays no part in the invariant; it is kept among the hypotheses so that every
     theorem of this file is about the same DAGs *)
  Lemma Inv_step (s : State) (e : event task) : Inv s -> Inv (stepE s e).
  Proof using H_conv H_succ_in.
    intros I. destruct e as [|t|t|t]; cbn [step].
    - (* Startup *)
      apply Inv_startish; [assumption|]. intros x. rewrite fold_start.
      destruct (in_dec teq x tasks); [|left; reflexivity].
      destruct (st task s x) as [|[|n]| | |]; cbn [start1]; auto.
    - (* StartupOne *)
      apply Inv_startish; [assumption|]. intros x. unfold start_one.
      destruct (teq x t) as [->|Hne]; [rewrite upd_same|rewrite upd_other by assumption; left; reflexivity].
      destruct (st task s t) as [|[|n]| | |]; cbn [start1]; auto.
    - (* Begin t *)
      destruct (st task s t) eqn:Et; try assumption.
      assert (Hd : forall p, isdone (updE (st task s) t Running p) = isdone (st task s p)).
      { intros p. destruct (teq p t) as [->|Hne]; [rewrite upd_same, Et; reflexivity|rewrite upd_other by assumption; reflexivity]. }
      assert (Htin : In t tasks) by (apply (in_tasks_of_status s t I); rewrite Et; discriminate).
      split; cbn [st log].
      + intros x Hx. rewrite upd_other; [apply (inv_absent s I x Hx)|]. intros ->. contradiction.
      + intros x Hx. destruct (teq x t) as [->|Hne]; [rewrite upd_same; discriminate|].
        rewrite upd_other by assumption. apply (inv_present s I x Hx).
      + intros x Hx. rewrite (pending_ext _ (st task s) x Hd).
        pose proof (inv_count s I x Hx) as Hc.
        destruct (teq x t) as [->|Hne]; [rewrite upd_same; rewrite Et in Hc; exact Hc|].
        rewrite upd_other by assumption. exact Hc.
      + intros x. rewrite count_begins_cons_b, (inv_begins s I x).
        destruct (teq t x) as [<-|Hne]; [rewrite upd_same, Et; reflexivity|].
        rewrite upd_other by congruence. reflexivity.
      + intros x. rewrite count_ends_cons_b, (inv_ends s I x).
        destruct (teq x t) as [->|Hne]; [rewrite upd_same, Et; reflexivity|].
        rewrite upd_other by assumption. reflexivity.
      + intros l1 l2 x Hl p Hp. destruct l2 as [|e l2]; cbn [app] in Hl.
        * inversion Hl; subst x l1.
          pose proof (inv_count s I t Htin) as Hc. rewrite Et in Hc.
          apply (done_in_ends s p I). apply (pending_zero_all_done _ t Hc p Hp).
        * inversion Hl. eapply (inv_order s I); eassumption.
    - (* End t *)
      destruct (st task s t) eqn:Et; try assumption.
      assert (Htin : In t tasks) by (apply (in_tasks_of_status s t I); rewrite Et; discriminate).
      assert (Htnd : isdone (st task s t) = false) by (rewrite Et; reflexivity).
      set (f := st task s) in *.
      set (g := fold_left releaseE (succs t) (updE f t Done)).
      assert (Hg : forall x, g x = Nat.iter (count_occ teq (succs t) x) rel1 (updE f t Done x))
        by (intros x; unfold g; apply fold_release).
      assert (Hd : forall p, isdone (g p) = isdone (updE f t Done p))
        by (intros p; rewrite Hg; apply isdone_iter).
      assert (Hgt : g t = Done).
      { rewrite Hg, upd_same. apply iter_rel1_fixed. intros n; discriminate. }
      assert (Hpend : forall x, pending g x + count_occ teq (preds x) t = pending f x).
      { intros x. rewrite (pending_ext g (updE f t Done) x Hd). unfold pending. apply filter_done_drop. exact Htnd. }
      split; cbn [st log]; fold g.
      + intros x Hx. rewrite Hg. rewrite upd_other by (intros ->; contradiction).
        pose proof (inv_absent s I x Hx) as Ha. fold f in Ha. rewrite Ha.
        apply iter_rel1_fixed. intros n; discriminate.
      + intros x Hx. destruct (teq x t) as [->|Hne]; [rewrite Hgt; discriminate|].
        rewrite Hg, upd_other by assumption.
        pose proof (inv_present s I x Hx) as Hp. fold f in Hp.
        destruct (f x) as [|n| | |] eqn:Ex; try (rewrite iter_rel1_fixed; [discriminate|intros m; discriminate]).
        * contradiction.
        * destruct (iter_rel1_unstarted (count_occ teq (succs t) x) n) as [->|[m ->]]; discriminate.
      + intros x Hx. pose proof (Hpend x) as Hpx.
        destruct (teq x t) as [->|Hne].
        * rewrite Hgt. pose proof (inv_count s I t Htin) as Hc. fold f in Hc. rewrite Et in Hc. lia.
        * rewrite Hg, upd_other by assumption.
          pose proof (inv_count s I x Hx) as Hc. fold f in Hc.
          pose proof (count_le_pending f t x Htnd) as Hle.
          rewrite (H_conv t x Htin Hx).
          destruct (f x) as [|n| | |] eqn:Ex; try (rewrite iter_rel1_fixed by (intros m; discriminate); lia).
          destruct (count_occ teq (preds x) t) as [|k] eqn:Ek; [rewrite iter_0; lia|].
          rewrite iter_rel1_waiting by lia.
          destruct (Nat.eqb n (S k)) eqn:En; [apply Nat.eqb_eq in En|apply Nat.eqb_neq in En]; lia.
      + intros x. rewrite count_begins_cons_e, (inv_begins s I x). fold f.
        destruct (teq x t) as [->|Hne]; [rewrite Hgt, Et; reflexivity|].
        rewrite Hg, upd_other by assumption.
        destruct (f x) as [|n| | |] eqn:Ex; try (rewrite iter_rel1_fixed by (intros m; discriminate); reflexivity).
        destruct (iter_rel1_unstarted (count_occ teq (succs t) x) n) as [->|[m ->]]; reflexivity.
      + intros x. rewrite count_ends_cons_e, (inv_ends s I x). fold f.
        destruct (teq t x) as [<-|Hne]; [rewrite Hgt, Et; reflexivity|].
        rewrite Hg, upd_other by congruence.
        destruct (f x) as [|n| | |] eqn:Ex; try (rewrite iter_rel1_fixed by (intros m; discriminate); reflexivity).
        destruct (iter_rel1_unstarted (count_occ teq (succs t) x) n) as [->|[m ->]]; reflexivity.
      + intros l1 l2 x Hl p Hp. destruct l2 as [|e l2]; cbn [app] in Hl; [discriminate|].
        inversion Hl. eapply (inv_order s I); eassumption.
  Qed.

  Theorem Inv_run (evs : list (event task)) : Inv (runE evs).
  Proof. unfold run. apply fold_left_inv; [intros a b; apply Inv_step|apply Inv_init]. Qed.

  Theorem no_task_begins_twice evs : NoDup (beginsE (log task (runE evs))).
  Proof.
    apply (NoDup_count_occ teq). intros t. rewrite (inv_begins _ (Inv_run evs) t).
    destruct (st task (runE evs) t); lia.
  Qed.

  Theorem no_task_ends_twice evs : NoDup (endsE (log task (runE evs))).
  Proof.
    apply (NoDup_count_occ teq). intros t. rewrite (inv_ends _ (Inv_run evs) t).
    destruct (st task (runE evs) t); lia.
  Qed.

  Theorem only_tasks_begin evs t : In t (beginsE (log task (runE evs))) -> In t tasks.
  Proof.
    intros H. apply (count_occ_In teq) in H. rewrite (inv_begins _ (Inv_run evs) t) in H.
    destruct (in_dec teq t tasks) as [Hi|Hi]; [assumption|].
    rewrite (inv_absent _ (Inv_run evs) t Hi) in H. lia.
  Qed.

  Theorem begin_after_preds_ended evs l1 l2 t :
    log task (runE evs) = l2 ++ LBegin t :: l1 -> forall p, In p (preds t) -> In (LEnd p) l1.
  Proof. apply (inv_order _ (Inv_run evs)). Qed.

  (* a task that has begun has all its predecessors done; a done task began exactly once *)
  Theorem begun_iff evs t :
    In t (beginsE (log task (runE evs))) <-> (st task (runE evs) t = Running \/ st task (runE evs) t = Done).
  Proof.
    rewrite (count_occ_In teq), (inv_begins _ (Inv_run evs) t).
    destruct (st task (runE evs) t); split; intros H; try lia; auto; destruct H; discriminate.
  Qed.

  Lemma quiescent_done_by_rank (s : State) : Inv s -> quiescent task tasks s ->
    forall n t, In t tasks -> rank t < n -> st task s t = Done.
  Proof.
    intros I Q n. induction n as [|n IH]; intros t Ht Hr; [lia|].
    assert (Hp : pending (st task s) t = 0).
    { unfold pending.
      rewrite (filter_ext_in _ (fun _ => false)); [clear; induction (preds t); auto|].
      intros p Hp. rewrite (IH p); [reflexivity|apply (H_pred_in t p Ht Hp)|].
      pose proof (H_rank t p Ht Hp). lia. }
    pose proof (inv_count s I t Ht) as Hc. pose proof (inv_present s I t Ht) as Hpr.
    destruct (Q t Ht) as (Q1 & Q2 & Q3).
    destruct (st task s t) as [|k| | |]; try contradiction; try reflexivity.
    exfalso. apply Q3. f_equal. lia.
  Qed.

  Theorem quiescent_all_done evs : quiescent task tasks (runE evs) ->
    forall t, In t tasks -> st task (runE evs) t = Done.
  Proof.
    intros Q t Ht. apply (quiescent_done_by_rank _ (Inv_run evs) Q (S (rank t)) t Ht). lia.
  Qed.

  (* in a quiescent state the multiset of executed tasks is exactly the task set *)
  Theorem quiescent_executed_once evs : NoDup tasks -> quiescent task tasks (runE evs) ->
    Permutation (beginsE (log task (runE evs))) tasks.
  Proof.
    intros Hnd Q. apply NoDup_Permutation; [apply no_task_begins_twice|assumption|].
    intros t. split; [apply only_tasks_begin|].
    intros Ht. apply begun_iff. right. apply quiescent_all_done; assumption.
  Qed.

  (* progress: as long as some task is not done, some event is enabled *)
  Theorem not_all_done_enabled evs t : In t tasks -> st task (runE evs) t <> Done ->
    exists u, In u tasks /\ (st task (runE evs) u = Ready \/ st task (runE evs) u = Running \/ st task (runE evs) u = Waiting 0).
  Proof.
    intros Ht Hnd.
    (* test the tasks one by one: if none can move the state is quiescent, so t is done *)
    set (en := fun s => match s with Ready | Running | Waiting 0 => true | _ => false end).
    destruct (existsb (fun u => en (st task (runE evs) u)) tasks) eqn:E.
    - apply existsb_exists in E. destruct E as (u & Hu & E). exists u. split; [assumption|].
      destruct (st task (runE evs) u) as [|[|k]| | |]; try discriminate; auto.
    - exfalso. apply Hnd. apply quiescent_all_done; [|assumption]. intros u Hu.
      assert (Eu : en (st task (runE evs) u) = false).
      { destruct (en (st task (runE evs) u)) eqn:Eu; [|reflexivity].
        rewrite <- E. symmetry. apply existsb_exists. exists u. split; assumption. }
      destruct (st task (runE evs) u) as [|[|k]| | |]; try discriminate; repeat split; discriminate.
  Qed.
End EngineProofs.
