(* The clauses of C37 read off the refinement (TpIdsProofs.v): registered pools
   resolve, unregistered and never-registered identifiers resolve to nothing,
   reserved identifiers are distinct, the synchronisation makes the next
   identifier common. *)
From Coq Require Import Sorted.
From PV Require Import Base.Tac TpIds.TpIdsDefs TpIds.TpIdsProofs.
Local Open Scope Z_scope.

Lemma sys_run_app : forall h1 h2 ss,
  fst (sys_run ss (h1 ++ h2)) = fst (sys_run (fst (sys_run ss h1)) h2).
Proof.
  induction h1 as [|e h1 IH]; intros h2 ss; cbn [app sys_run]; auto.
  destruct (sys_step ss e) as [ss1 x]. specialize (IH h2 ss1).
  destruct (sys_run ss1 (h1 ++ h2)) as [ss2 xs]. destruct (sys_run ss1 h1) as [ss3 ys].
  cbn [fst snd] in *. auto.
Qed.
Lemma spec_sys_run_app : forall h1 h2 aa,
  fst (spec_sys_run aa (h1 ++ h2)) = fst (spec_sys_run (fst (spec_sys_run aa h1)) h2).
Proof.
  induction h1 as [|e h1 IH]; intros h2 aa; cbn [app spec_sys_run]; auto.
  destruct (spec_sys_step aa e) as [aa1 x]. specialize (IH h2 aa1).
  destruct (spec_sys_run aa1 (h1 ++ h2)) as [aa2 xs]. destruct (spec_sys_run aa1 h1) as [aa3 ys].
  cbn [fst snd] in *. auto.
Qed.
Lemma wf_run_app : forall h1 h2 aa,
  wf_run aa (h1 ++ h2) = wf_run aa h1 && wf_run (fst (spec_sys_run aa h1)) h2.
Proof.
  induction h1 as [|e h1 IH]; intros h2 aa; cbn [app wf_run spec_sys_run]; auto.
  rewrite IH. destruct (spec_sys_step aa e) as [aa1 x]. cbn [fst].
  destruct (spec_sys_run aa1 h1) as [aa3 ys]. cbn [fst]. rewrite andb_assoc. auto.
Qed.

Lemma spec_sys_run_length : forall h aa, length (fst (spec_sys_run aa h)) = length aa.
Proof.
  induction h as [|e h IH]; intros aa; cbn [spec_sys_run]; auto.
  destruct (spec_sys_step aa e) as [aa1 x] eqn:E. specialize (IH aa1).
  destruct (spec_sys_run aa1 h) as [aa2 xs]. cbn [fst] in *. rewrite IH.
  destruct e as [r' o|]; cbn [spec_sys_step] in E.
  - destruct (nth_error aa r'); [destruct (spec_step s o); inv E; apply upd_length|inv E; auto].
  - inv E. apply map_length.
Qed.
Lemma reserved_ids_none : forall r h ss, nth_error ss r = None -> reserved_ids r h (snd (sys_run ss h)) = [].
Proof.
  intros r. induction h as [|e h IH]; intros ss Hn; cbn [sys_run]; auto.
  destruct (sys_step ss e) as [ss1 x] eqn:E.
  assert (Hn1 : nth_error ss1 r = None).
  { destruct e as [r' o|]; cbn [sys_step] in E.
    - destruct (nth_error ss r') as [b|] eqn:Eb; [destruct (step b o); inv E|inv E; auto].
      apply nth_error_None. rewrite upd_length. apply nth_error_None; auto.
    - inv E. apply nth_error_None. rewrite map_length. apply nth_error_None; auto. }
  specialize (IH ss1 Hn1). destruct (sys_run ss1 h) as [ss2 xs]. cbn [snd] in *.
  destruct e as [r' o|]; cbn [reserved_ids]; auto.
  destruct o; auto. destruct x; auto.
  destruct (r' =? r)%nat eqn:Er; auto. apply Nat.eqb_eq in Er. subst r'.
  cbn [sys_step] in E. rewrite Hn in E. inv E.
Qed.

(* what one event does to the map of process r *)
Lemma spec_sys_step_nth : forall aa e r a, nth_error aa r = Some a -> ok_event aa e = true ->
  exists a', nth_error (fst (spec_sys_step aa e)) r = Some a' /\
    ((exists o, e = At r o /\ ok_op a o = true /\ a' = fst (spec_step a o)) \/
     (exists r' o, e = At r' o /\ r' <> r /\ a' = a) \/
     (e = SyncAll /\ s_next a <= spec_max aa /\ a' = fst (spec_step a (Sync (spec_max aa))))).
Proof.
  intros aa e r a Hn Hok. destruct e as [r' o|]; cbn [spec_sys_step ok_event] in *.
  - destruct (nth_error aa r') as [b|] eqn:Eb; [|discriminate].
    destruct (spec_step b o) as [b' x] eqn:Es. cbn [fst].
    destruct (Nat.eq_dec r' r) as [->|Hne].
    + rewrite Hn in Eb. inv Eb. exists b'. split; [eapply nth_error_upd_same; eauto|].
      left. exists o. rewrite Es. auto.
    + exists a. rewrite nth_error_upd_other by auto. split; auto. right; left. eauto.
  - cbn [fst]. exists (fst (spec_step a (Sync (spec_max aa)))). split.
    + rewrite nth_error_map, Hn. reflexivity.
    + right; right. split; auto. split; auto. eapply spec_max_ge; eauto.
Qed.

(* [wr true p] registers pool p, [wr false p] unregisters it; [Has a p b]: the
   slot of p's identifier holds what the last such write left there *)
Definition wr (b : bool) (p : Z) : op := if b then Register p else Unregister p.
Definition entry (b : bool) (p : Z) : option Z := if b then Some p else None.
Definition Has (a : spec) (p : Z) (b : bool) : Prop := s_map a (s_idof a p) = entry b p.

Lemma spec_step_wr : forall a b p,
  ok_op a (wr b p) = (1 <=? s_idof a p) /\
  fst (spec_step a (wr b p)) = mks (s_next a) (s_idof a) (fupd (s_map a) (s_idof a p) (entry b p)).
Proof. intros a [|] p; auto. Qed.

(* only the opposite write to the same pool changes the slot: identifiers are
   injective on the pools that have one, and a reservation gives p no new one *)
Lemma has_local : forall a o p b, J a -> may a o ->
  1 <= s_idof a p -> Has a p b -> o <> wr (negb b) p ->
  Has (fst (spec_step a o)) p b /\ s_idof (fst (spec_step a o)) p = s_idof a p.
Proof.
  intros a o p b (Hr & Hm & Hi) Hok H1 HR Hne. unfold Has in *.
  destruct o as [q|q|q|i|m]; cbn [spec_step fst s_map s_idof]; auto.
  - cbn in Hok. unfold fupd.
    destruct (p =? q) eqn:E; [exfalso; assert (p = q) by lia; subst; lia|]. auto.
  - unfold fupd. split; auto. destruct (s_idof a p =? s_idof a q) eqn:E; auto.
    assert (p = q) by (apply Hi; lia). subst q. destruct b; [auto|contradiction].
  - unfold fupd. split; auto. destruct (s_idof a p =? s_idof a q) eqn:E; auto.
    assert (p = q) by (apply Hi; lia). subst q. destruct b; [contradiction|auto].
Qed.

Section Stable.
  Variable r : nat.
  Variable p : Z.

  Lemma has_stable_sys : forall b h aa a, wf_run aa h = true -> nth_error aa r = Some a -> J a ->
    1 <= s_idof a p -> Has a p b -> ~ In (At r (wr (negb b) p)) h ->
    exists a', nth_error (fst (spec_sys_run aa h)) r = Some a' /\ Has a' p b /\ s_idof a' p = s_idof a p.
  Proof.
    intros b. induction h as [|e h IH]; intros aa a Hwf Hn HJ H1 HR Hno; cbn [spec_sys_run wf_run] in *.
    - exists a. auto.
    - apply andb_true_iff in Hwf. destruct Hwf as [Hok Hwf].
      destruct (spec_sys_step_nth aa e r a Hn Hok) as (a1 & Hn1 & Hcase).
      destruct (spec_sys_step aa e) as [aa1 x]. cbn [fst] in *.
      assert (Hstep : J a1 /\ Has a1 p b /\ s_idof a1 p = s_idof a p).
      { destruct Hcase as [(o & -> & Hoo & ->)|[(r' & o & -> & Hne & ->)|(-> & Hle & ->)]].
        - assert (Hne : o <> wr (negb b) p) by (intros ->; apply Hno; left; auto).
          apply ok_may in Hoo. destruct (has_local a o p b HJ Hoo H1 HR Hne). split; auto. apply J_step; auto.
        - auto.
        - destruct (has_local a (Sync (spec_max aa)) p b HJ Hle H1 HR) as [H2 H3]; [destruct b; discriminate|].
          split; auto. apply J_step; auto. }
      destruct Hstep as (HJ1 & HR1 & Hid1).
      destruct (IH aa1 a1 Hwf Hn1 HJ1) as (a' & Hn' & HR' & Hid'); auto; try lia.
      { intros Hin. apply Hno. right. auto. }
      destruct (spec_sys_run aa1 h) as [aa2 xs]. cbn [fst] in *. exists a'. split; auto. split; auto. lia.
  Qed.

  (* every entry of the map of process r comes from a Register event of r *)
  Lemma map_origin_sys : forall h aa a, wf_run aa h = true -> nth_error aa r = Some a ->
    exists a', nth_error (fst (spec_sys_run aa h)) r = Some a' /\
      forall i q, s_map a' i = Some q -> s_map a i = Some q \/ In (At r (Register q)) h.
  Proof.
    induction h as [|e h IH]; intros aa a Hwf Hn; cbn [spec_sys_run wf_run] in *.
    - exists a. auto.
    - apply andb_true_iff in Hwf. destruct Hwf as [Hok Hwf].
      destruct (spec_sys_step_nth aa e r a Hn Hok) as (a1 & Hn1 & Hcase).
      destruct (spec_sys_step aa e) as [aa1 x]. cbn [fst] in *.
      destruct (IH aa1 a1 Hwf Hn1) as (a' & Hn' & Ho).
      destruct (spec_sys_run aa1 h) as [aa2 xs]. cbn [fst] in *. exists a'. split; auto.
      intros i q Hq. destruct (Ho i q Hq) as [H1|H1]; [|right; right; auto].
      destruct Hcase as [(o & -> & Hoo & ->)|[(r' & o & -> & Hne & ->)|(-> & Hle & ->)]]; auto.
      destruct o as [q'|q'|q'|i'|m]; cbn [spec_step fst s_map] in H1; auto.
      + unfold fupd in H1. destruct (i =? s_idof a q'); auto. inv H1. right; left; auto.
      + unfold fupd in H1. destruct (i =? s_idof a q'); auto. discriminate.
  Qed.
End Stable.

(* from a registration (b = true) or unregistration (b = false) of p until the
   opposite one, looking up p's identifier returns p, respectively nothing *)
Theorem written_entry_resolves : forall b n h1 h2 r p,
  wf n (h1 ++ At r (wr b p) :: h2) = true -> ~ In (At r (wr (negb b) p)) h2 ->
  exists s i, nth_error (fst (sys_run (sys_init n) (h1 ++ At r (wr b p) :: h2))) r = Some s /\
    1 <= i /\ assoc p (tpid s) = i /\ lookup s i = RPool (entry b p).
Proof.
  intros b n h1 h2 r p Hwf Hno. pose proof (final_R n _ Hwf) as HF.
  unfold wf in Hwf. rewrite wf_run_app in Hwf. apply andb_true_iff in Hwf. destruct Hwf as [Hwf1 Hwf2].
  pose proof (final_R n h1 Hwf1) as HF1.
  rewrite spec_sys_run_app in HF.
  set (aa1 := fst (spec_sys_run (spec_sys_init n) h1)) in *.
  cbn [wf_run] in Hwf2. apply andb_true_iff in Hwf2. destruct Hwf2 as [Hok Hwf2].
  cbn [ok_event] in Hok. destruct (nth_error aa1 r) as [a1|] eqn:Ea1; [|discriminate].
  destruct (Forall2_nth _ _ _ _ _ HF1 Ea1) as (s1 & _ & HR1).
  assert (HJ1 : J a1) by apply HR1.
  assert (HJ2 : J (fst (spec_step a1 (wr b p)))) by (apply (J_step a1 _ HJ1), ok_may; auto).
  cbn [spec_sys_run] in HF. cbn [spec_sys_step] in HF, Hwf2. rewrite Ea1 in HF, Hwf2.
  destruct (spec_step_wr a1 b p) as [Eok Ea2]. rewrite Eok in Hok.
  destruct (spec_step a1 (wr b p)) as [a2 x]. cbn [fst] in *. subst a2.
  set (a2 := mks (s_next a1) (s_idof a1) (fupd (s_map a1) (s_idof a1 p) (entry b p))) in *.
  assert (HR2 : Has a2 p b) by (unfold Has, a2, fupd; cbn; rewrite Z.eqb_refl; auto).
  destruct (has_stable_sys r p b h2 (upd r a2 aa1) a2 Hwf2) as (a' & Hn' & HR' & Hid'); auto.
  { eapply nth_error_upd_same; eauto. }
  { cbn. lia. }
  destruct (spec_sys_run (upd r a2 aa1) h2) as [aa2 xs]. cbn [fst] in *.
  destruct (Forall2_nth _ _ _ _ _ HF Hn') as (s & Hs & HR).
  exists s, (s_idof a' p). split; auto.
  assert (H1 : 1 <= s_idof a' p) by (rewrite Hid'; cbn; lia).
  split; auto. split; [apply HR|].
  unfold lookup. rewrite (lookup_R _ _ _ HR H1). cbn. rewrite HR'. auto.
Qed.

(* an identifier under which no pool was ever registered resolves to nothing
   (reserved but not registered, or beyond every identifier handed out) *)
Theorem never_registered_is_null : forall n h r s i, wf n h = true ->
  nth_error (fst (sys_run (sys_init n) h)) r = Some s -> 1 <= i ->
  (forall p, In (At r (Register p)) h -> assoc p (tpid s) <> i) ->
  lookup s i = RPool None.
Proof.
  intros n h r s i Hwf Hs Hi Hno. pose proof (final_R n _ Hwf) as HF.
  destruct (Forall2_nth_l _ _ _ _ _ HF Hs) as (a & Ha & HR).
  unfold lookup. rewrite (lookup_R _ _ _ HR Hi). cbn.
  destruct (s_map a i) as [q|] eqn:Eq; auto. exfalso.
  destruct (map_origin_sys r h (spec_sys_init n) spec_init Hwf) as (a' & Ha' & Ho).
  { apply nth_error_repeat. rewrite <- (repeat_length spec_init n). fold (spec_sys_init n).
    rewrite <- (spec_sys_run_length h). apply nth_error_Some. congruence. }
  rewrite Ha in Ha'. inv Ha'. destruct (Ho _ _ Eq) as [H1|H1]; [discriminate|].
  apply (Hno q H1). destruct HR as ((_ & Hm & _) & _ & _ & Ht & _). rewrite Ht. apply (Hm _ _ Eq).
Qed.

(* identifiers handed out to one process are strictly increasing, whatever the
   callers do (no discipline needed beyond: the synchronisation is the collective) *)
Definition collective (h : list event) : Prop := forall r m, ~ In (At r (Sync m)) h.

Lemma step_dead : forall s o, dead s = true -> step s o = (s, RSkip).
Proof. intros s o H. unfold step. rewrite H. auto. Qed.

Lemma step_pos_mono : forall s o, (forall m, o <> Sync m) -> pos s <= pos (fst (step s o)).
Proof.
  intros [a sz ps tp d] o Hns. unfold step, need_grow, grow, crash. cbn [dead arr size pos tpid].
  destruct d; [cbn; lia|].
  destruct o as [p|p|p|i|m].
  - destruct a; [destruct (sz <=? ps + 1)|]; cbn; lia.
  - destruct a; [destruct (sz <=? assoc p tp)|]; cbn [arr size pos fst];
    try (destruct (assoc p tp <? _)); cbn [fst pos]; lia.
  - destruct a; [destruct (assoc p tp <? sz)|]; cbn; lia.
  - destruct (i <=? ps); [destruct a|]; cbn; lia.
  - exfalso. apply (Hns m). auto.
Qed.

Lemma step_reserve_res : forall s p, dead s = false ->
  snd (step s (Reserve p)) = RId (pos s + 1) /\ pos (fst (step s (Reserve p))) = pos s + 1.
Proof.
  intros s p Hd. unfold step. rewrite Hd. cbn [fst snd pos]. split; auto.
  destruct (need_grow _ _); cbn; auto.
Qed.

Lemma sys_step_nth : forall ss e r s, nth_error ss r = Some s ->
  exists s', nth_error (fst (sys_step ss e)) r = Some s' /\
    ((exists o, e = At r o /\ s' = fst (step s o) /\ snd (sys_step ss e) = snd (step s o)) \/
     (exists r' o, e = At r' o /\ r' <> r /\ s' = s) \/
     (e = SyncAll /\ s' = fst (step s (Sync (max_pos ss))))).
Proof.
  intros ss e r s Hn. destruct e as [r' o|]; cbn [sys_step].
  - destruct (Nat.eq_dec r' r) as [->|Hne].
    + rewrite Hn. destruct (step s o) as [s' x] eqn:Es. cbn [fst snd]. exists s'.
      split; [eapply nth_error_upd_same; eauto|]. left. exists o. rewrite Es. auto.
    + exists s. destruct (nth_error ss r') as [b|]; [destruct (step b o) as [b' x]|]; cbn [fst].
      * rewrite nth_error_upd_other by auto. split; auto. right; left; eauto.
      * split; auto. right; left; eauto.
  - cbn [fst]. exists (fst (step s (Sync (max_pos ss)))). split; [rewrite nth_error_map, Hn; auto|].
    right; right; auto.
Qed.

Lemma sync_pos : forall s m, dead s = false -> pos (fst (step s (Sync m))) = m /\ dead (fst (step s (Sync m))) = false.
Proof. intros s m Hd. unfold step. rewrite Hd. cbn. auto. Qed.

(* along a history the counter of process r only grows, and what r reserves
   lies, in increasing order, between its counter before and after *)
Lemma reserved_ids_bounds : forall h ss r s, collective h -> nth_error ss r = Some s ->
  exists s', nth_error (fst (sys_run ss h)) r = Some s' /\ pos s <= pos s' /\
    StronglySorted Z.lt (reserved_ids r h (snd (sys_run ss h))) /\
    Forall (fun i => pos s < i <= pos s') (reserved_ids r h (snd (sys_run ss h))).
Proof.
  induction h as [|e h IH]; intros ss r s Hc Hn; cbn [sys_run].
  - exists s. cbn. repeat split; auto; try lia; constructor.
  - destruct (sys_step_nth ss e r s Hn) as (s1 & Hn1 & Hcase).
    destruct (sys_step ss e) as [ss1 x] eqn:Es. cbn [fst snd] in *.
    assert (Hc' : collective h) by (intros r0 m Hin; apply (Hc r0 m); right; auto).
    destruct (IH ss1 r s1 Hc' Hn1) as (s' & Hn' & Hle & Hsort & Hall).
    destruct (sys_run ss1 h) as [ss2 xs]. cbn [fst snd] in *.
    assert (Hmono : pos s <= pos s1).
    { destruct Hcase as [(o & -> & -> & _)|[(r' & o & -> & _ & ->)|(-> & ->)]]; try lia.
      - apply step_pos_mono. intros m ->. apply (Hc r m). left; auto.
      - destruct (dead s) eqn:Hd; [rewrite step_dead by auto; cbn; lia|].
        destruct (sync_pos s (max_pos ss) Hd) as [-> _]. eapply max_pos_ge; eauto. }
    assert (Htail : Forall (fun i => pos s < i <= pos s') (reserved_ids r h xs)).
    { eapply Forall_impl; [|exact Hall]. cbn. intros; lia. }
    exists s'. split; [auto|]. split; [lia|].
    destruct e as [r' o|]; cbn [reserved_ids]; [|auto].
    destruct o as [p|p|p|i|m]; auto.
    destruct x as [i| | | | |]; auto.
    destruct (r' =? r)%nat eqn:Er; auto. apply Nat.eqb_eq in Er. subst r'.
    destruct Hcase as [(o & Ho & -> & Hx)|[(r' & o & Ho & Hne & _)|(Ho & _)]]; try discriminate.
    + (* the reservation hands out pos s + 1, the new counter *)
      inv Ho. destruct (dead s) eqn:Hd; [rewrite step_dead in Hx by auto; discriminate|].
      destruct (step_reserve_res s p Hd) as [H1 H2]. rewrite H1 in Hx. inv Hx. rewrite H2 in Hall, Hle.
      split; constructor; auto; try lia. eapply Forall_impl; [|exact Hall]. cbn. intros; lia.
    + inv Ho. congruence.
Qed.

Theorem reserved_ids_distinct : forall n h r, collective h ->
  StronglySorted Z.lt (reserved_ids r h (snd (sys_run (sys_init n) h))) /\
  NoDup (reserved_ids r h (snd (sys_run (sys_init n) h))) /\
  Forall (fun i => 1 <= i) (reserved_ids r h (snd (sys_run (sys_init n) h))).
Proof.
  intros n h r Hc.
  destruct (nth_error (sys_init n) r) as [s|] eqn:Es.
  - destruct (reserved_ids_bounds h _ r s Hc Es) as (s' & _ & _ & H1 & H2).
    assert (s = init) by (apply nth_error_In, repeat_spec in Es; auto). subst s.
    split; auto. split.
    + clear H2. induction H1 as [|x l Hs IH Hf]; constructor; auto.
      intros Hin. rewrite Forall_forall in Hf. specialize (Hf _ Hin). lia.
    + eapply Forall_impl; [|exact H2]. cbn. intros; lia.
  - (* r is not a process: nothing is reserved there *)
    rewrite reserved_ids_none by auto. repeat split; constructor.
Qed.

(* after the synchronisation every process hands out the same next identifier,
   larger than every identifier handed out before anywhere *)
Theorem sync_common_next : forall n h r1 r2 s1 s2 p1 p2, wf n h = true -> collective h ->
  let ss := fst (sys_run (sys_init n) (h ++ [SyncAll])) in
  nth_error ss r1 = Some s1 -> nth_error ss r2 = Some s2 ->
  exists i, snd (step s1 (Reserve p1)) = RId i /\ snd (step s2 (Reserve p2)) = RId i /\
    forall r, Forall (fun j => j < i) (reserved_ids r h (snd (sys_run (sys_init n) h))).
Proof.
  intros n h r1 r2 s1 s2 p1 p2 Hwf Hc ss Hn1 Hn2.
  pose proof (final_R n h Hwf) as HF.
  unfold ss in *. rewrite sys_run_app in Hn1, Hn2.
  set (ss0 := fst (sys_run (sys_init n) h)) in *. cbn [sys_run sys_step fst] in Hn1, Hn2.
  set (m := max_pos ss0) in *.
  assert (Hall : forall r s, nth_error (map (fun s0 => fst (step s0 (Sync m))) ss0) r = Some s ->
                             pos s = m /\ dead s = false).
  { intros r s Hn. rewrite nth_error_map in Hn. destruct (nth_error ss0 r) as [s0|] eqn:E0; [|discriminate].
    inv Hn. destruct (Forall2_nth_l _ _ _ _ _ HF E0) as (a & _ & HR). apply sync_pos. apply HR. }
  destruct (Hall _ _ Hn1) as [P1 D1]. destruct (Hall _ _ Hn2) as [P2 D2].
  exists (m + 1). destruct (step_reserve_res s1 p1 D1) as [-> _]. destruct (step_reserve_res s2 p2 D2) as [-> _].
  rewrite P1, P2. split; auto. split; auto.
  intros r. destruct (nth_error (sys_init n) r) as [s|] eqn:Es.
  - destruct (reserved_ids_bounds h _ r s Hc Es) as (s' & Es' & _ & _ & H1).
    eapply Forall_impl; [|exact H1]. cbn. intros j Hj.
    destruct (Forall2_nth_l _ _ _ _ _ HF Es') as (a & _ & HR).
    assert (pos s' <= m) by (eapply max_pos_ge; eauto; apply HR). lia.
  - rewrite reserved_ids_none by auto. constructor.
Qed.
