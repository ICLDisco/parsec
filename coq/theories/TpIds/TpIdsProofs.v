(* Proofs about the taskpool identifier table (model in TpIdsDefs.v). *)
From PV Require Import Base.Tac TpIds.TpIdsDefs.
Local Open Scope Z_scope.

Lemma set_nth_length : forall l i c, length (set_nth i c l) = length l.
Proof. induction l as [|x l IH]; intros [|i] c; cbn; auto. Qed.

Lemma nth_set_nth : forall l i j c d,
  nth j (set_nth i c l) d = if (i =? j)%nat && (i <? length l)%nat then c else nth j l d.
Proof.
  induction l as [|x l IH]; intros i j c d.
  - destruct i, j; cbn; try rewrite andb_false_r; auto.
  - destruct i as [|i], j as [|j]; cbn [set_nth nth length]; auto.
    exact (IH i j c d).
Qed.

Lemma fill_length : forall k lo l, length (fill k lo l) = length l.
Proof. induction k as [|k IH]; intros lo l; cbn [fill]; auto. rewrite IH. apply set_nth_length. Qed.

Lemma nth_fill : forall k lo l j d,
  nth j (fill k lo l) d =
  if (lo <=? j)%nat && (j <? lo + k)%nat && (j <? length l)%nat then Empty else nth j l d.
Proof.
  induction k as [|k IH]; intros lo l j d; cbn [fill].
  - replace (j <? lo + 0)%nat with (negb (lo <=? j)%nat) by lia. rewrite andb_negb_r. reflexivity.
  - (* slot lo is written first, the slots from S lo on by the recursive call *)
    rewrite IH, set_nth_length, nth_set_nth. destruct (Nat.eqb_spec lo j) as [->|Hne].
    + replace (S j <=? j)%nat with false by lia. replace (j <=? j)%nat with true by lia.
      replace (j <? j + S k)%nat with true by lia. reflexivity.
    + replace (S lo <=? j)%nat with (lo <=? j)%nat by lia. replace (S lo + k)%nat with (lo + S k)%nat by lia.
      reflexivity.
Qed.

Lemma nth_app_repeat_junk : forall (l : list cell) k j, nth j (l ++ repeat Junk k) Junk = nth j l Junk.
Proof.
  intros l k j. destruct (Nat.lt_ge_cases j (length l)) as [H|H].
  - apply app_nth1; auto.
  - rewrite app_nth2, nth_repeat by auto. symmetry. apply nth_overflow; auto.
Qed.

Definition old_of (a : option (list cell)) : list cell := match a with Some l => l | None => [] end.

Lemma extend_length : forall a old n, 0 <= n -> length (extend a old n) = Z.to_nat n.
Proof.
  intros a old n Hn. unfold extend, realloc. rewrite fill_length, app_length, firstn_length, repeat_length. lia.
Qed.

Lemma nth_extend : forall a old n j,
  (length (old_of a) <= Z.to_nat old)%nat -> 0 <= old < n -> (j < Z.to_nat n)%nat ->
  nth j (extend a old n) Junk = if (j <? Z.to_nat old)%nat then nth j (old_of a) Junk else Empty.
Proof.
  intros a old n j Hl Hn Hj. unfold extend. rewrite nth_fill.
  assert (Hlen : length (realloc a n) = Z.to_nat n).
  { unfold realloc. rewrite app_length, firstn_length, repeat_length. lia. }
  rewrite Hlen.
  assert (Hre : nth j (realloc a n) Junk = nth j (old_of a) Junk).
  { unfold realloc. fold (old_of a). rewrite firstn_all2 by lia. apply nth_app_repeat_junk. }
  rewrite Hre.
  destruct (Z.to_nat old <=? j)%nat eqn:E1; destruct (j <? Z.to_nat old + Z.to_nat (n - old))%nat eqn:E2;
  destruct (j <? Z.to_nat n)%nat eqn:E3; destruct (j <? Z.to_nat old)%nat eqn:E4; cbn; auto; exfalso; lia.
Qed.

Lemma grow_to_gt : forall fuel idx msz, 1 <= msz -> idx < msz + Z.of_nat fuel -> idx < grow_to fuel idx msz.
Proof.
  induction fuel as [|f IH]; intros idx msz H1 H2; cbn [grow_to].
  - lia.
  - destruct (msz <=? idx) eqn:E; [apply IH|]; lia.
Qed.
Lemma grow_to_ge : forall fuel idx msz, 1 <= msz -> msz <= grow_to fuel idx msz.
Proof.
  induction fuel as [|f IH]; intros idx msz H1; cbn [grow_to]; [lia|].
  destruct (msz <=? idx) eqn:E; [|lia]. specialize (IH idx (2 * msz)). lia.
Qed.

Lemma nth_error_upd_same : forall {A} (l : list A) r x y, nth_error l r = Some y -> nth_error (upd r x l) r = Some x.
Proof. induction l as [|z l IH]; intros [|r] x y H; cbn in *; try discriminate; eauto. Qed.
Lemma nth_error_upd_other : forall {A} (l : list A) r r' x, r <> r' -> nth_error (upd r x l) r' = nth_error l r'.
Proof. induction l as [|z l IH]; intros [|r] [|r'] x H; cbn; auto; try congruence. Qed.
Lemma upd_length : forall {A} (l : list A) r x, length (upd r x l) = length l.
Proof. induction l as [|z l IH]; intros [|r] x; cbn; auto. Qed.

(* refinement relation between a process and its finite map *)
Definition cellat0 (a : option (list cell)) (sz i : Z) : cell :=
  match a with
  | None => Empty
  | Some l => if i <? sz then nth (Z.to_nat i) l Junk else Empty
  end.
Definition cellat (s : st) (i : Z) : cell := cellat0 (arr s) (size s) i.
Definition enc (x : option Z) : cell := match x with None => Empty | Some p => Pool p end.

Definition ArrOK (a : option (list cell)) (sz : Z) : Prop :=
  match a with None => sz = 1 | Some l => Z.of_nat (length l) = sz /\ 1 <= sz end.

Definition Shape (s : st) : Prop :=
  dead s = false /\ ArrOK (arr s) (size s) /\ 0 <= pos s < size s /\ (arr s = None -> pos s = 0).

Lemma Shape_intro : forall s, dead s = false -> ArrOK (arr s) (size s) -> 0 <= pos s < size s ->
  (arr s = None -> pos s = 0) -> Shape s.
Proof. intros s H1 H2 H3 H4. exact (conj H1 (conj H2 (conj H3 H4))). Qed.

Definition J (a : spec) : Prop :=
  (forall p, 0 <= s_idof a p <= s_next a) /\
  (forall i p, s_map a i = Some p -> s_idof a p = i /\ 1 <= i) /\
  (forall p q, s_idof a p = s_idof a q -> s_idof a p <> 0 -> p = q).

Definition R (s : st) (a : spec) : Prop :=
  J a /\ Shape s /\ pos s = s_next a /\ (forall p, assoc p (tpid s) = s_idof a p) /\
  (forall i, 1 <= i -> cellat s i = enc (s_map a i)).

Lemma R_init : R init spec_init.
Proof.
  unfold R, J, Shape, ArrOK, init, spec_init, cellat, cellat0; cbn.
  repeat split; intros; try lia; try discriminate; auto.
Qed.

(* what the refinement asks of an operation: the callers' discipline, except for the
   write-back of the synchronisation (never an event of the callers), which must not lie
   below the counter *)
Definition may (a : spec) (o : op) : Prop :=
  match o with Sync m => s_next a <= m | _ => ok_op a o = true end.
Lemma ok_may : forall a o, ok_op a o = true -> may a o.
Proof. intros a [| | | |]; auto; discriminate. Qed.

Lemma J_step : forall a o, J a -> may a o -> J (fst (spec_step a o)).
Proof.
  intros a o (Hr & Hm & Hi) Hok. destruct o as [p|p|p|i|m]; cbn [spec_step fst]; cbn in Hok; unfold J, fupd; cbn.
  - (* Reserve: p has no identifier yet *)
    assert (H0 : s_idof a p = 0) by lia. split; [|split].
    + intros q. destruct (q =? p); specialize (Hr q); lia.
    + intros i q H. destruct (Hm _ _ H). destruct (q =? p) eqn:E; [|auto]. assert (q = p) by lia. subst. lia.
    + intros p1 q. destruct (p1 =? p) eqn:E1; destruct (q =? p) eqn:E2; intros H1 H2.
      * lia.
      * specialize (Hr q). lia.
      * specialize (Hr p1). lia.
      * auto.
  - (* Register *) split; [exact Hr|split; [|exact Hi]].
    intros i q H. destruct (i =? s_idof a p) eqn:E; [|apply (Hm _ _ H)]. inv H. lia.
  - (* Unregister *) split; [exact Hr|split; [|exact Hi]].
    intros i q H. destruct (i =? s_idof a p) eqn:E; [discriminate|apply (Hm _ _ H)].
  - (* Lookup *) exact (conj Hr (conj Hm Hi)).
  - (* Sync *) split; [|split; auto]. intros p. specialize (Hr p). lia.
Qed.

(* growing keeps the shape and every slot from 1 on *)
Lemma extend_ok : forall a sz n, ArrOK a sz -> sz < n ->
  ArrOK (Some (extend a sz n)) n /\ forall i, 1 <= i -> cellat0 (Some (extend a sz n)) n i = cellat0 a sz i.
Proof.
  intros a sz n Hs Hn.
  assert (Hold : (length (old_of a) <= Z.to_nat sz)%nat /\ 1 <= sz).
  { unfold ArrOK in Hs. destruct a; cbn; lia. }
  destruct Hold as (Hold & H1). split.
  - unfold ArrOK. rewrite extend_length by lia. lia.
  - intros i Hi. unfold cellat0. destruct (i <? n) eqn:E.
    + rewrite nth_extend by lia. destruct (Z.to_nat i <? Z.to_nat sz)%nat eqn:E2.
      * destruct a as [l|]; cbn [old_of].
        -- replace (i <? sz) with true by lia. auto.
        -- exfalso. unfold ArrOK in Hs. lia.
      * destruct a; auto. replace (i <? sz) with false by lia. auto.
    + destruct a; auto. replace (i <? sz) with false by lia. auto.
Qed.

Lemma cellat0_set : forall l sz i c j, Z.of_nat (length l) = sz -> 0 <= i < sz -> 0 <= j ->
  cellat0 (Some (set_nth (Z.to_nat i) c l)) sz j = if j =? i then c else cellat0 (Some l) sz j.
Proof.
  intros l sz i c j Hl Hi Hj. unfold cellat0.
  destruct (j <? sz) eqn:E.
  - rewrite nth_set_nth. destruct (j =? i) eqn:E2.
    + replace (Z.to_nat i =? Z.to_nat j)%nat with true by lia.
      replace (Z.to_nat i <? length l)%nat with true by lia. auto.
    + replace (Z.to_nat i =? Z.to_nat j)%nat with false by lia. auto.
  - replace (j =? i) with false by lia. auto.
Qed.

Lemma lookup_R : forall s a i, R s a -> 1 <= i -> step s (Lookup i) = (s, RPool (s_map a i)).
Proof.
  intros s a i (HJ & (Hd & Ha & Hps & Hn) & Hp & Ht & Hc) Hi. unfold step. rewrite Hd.
  destruct HJ as (Hr & Hm & _).
  destruct (i <=? pos s) eqn:E.
  - destruct (arr s) as [l|] eqn:Ea; [|exfalso; specialize (Hn eq_refl); lia].
    specialize (Hc i Hi). unfold cellat, cellat0 in Hc. rewrite Ea in Hc.
    replace (i <? size s) with true in Hc by lia. rewrite Hc. destruct (s_map a i); auto.
  - destruct (s_map a i) as [p|] eqn:Em; auto. destruct (Hm _ _ Em) as [H1 _]. specialize (Hr p). lia.
Qed.

(* the growth block of reserve_id / register: afterwards slot idx exists, and
   nothing but the array and its size has changed *)
Lemma maybe_grow_ok : forall s idx, ArrOK (arr s) (size s) -> 0 <= idx <= size s -> (arr s = None -> idx <= 1) ->
  let s2 := if need_grow s idx then grow s else s in
  ArrOK (arr s2) (size s2) /\ idx < size s2 /\ arr s2 <> None /\
  pos s2 = pos s /\ tpid s2 = tpid s /\ forall i, 1 <= i -> cellat s2 i = cellat s i.
Proof.
  intros s idx Ha Hi Hn.
  assert (H1 : 1 <= size s) by (unfold ArrOK in Ha; destruct (arr s); lia).
  destruct (need_grow s idx) eqn:E; cbn zeta.
  - destruct (extend_ok (arr s) (size s) (2 * size s) Ha) as [H2 H3]; [lia|].
    unfold grow, cellat. cbn [arr size pos tpid]. split; [exact H2|]. split; [lia|]. split; [discriminate|]. auto.
  - unfold need_grow in E. destruct (arr s) as [l|]; [|discriminate].
    split; [exact Ha|]. split; [lia|]. split; [discriminate|]. auto.
Qed.

(* register and unregister store into the slot of an identifier handed out before *)
Lemma store_R : forall s a l p v, R s a -> arr s = Some l -> 1 <= s_idof a p ->
  let a' := mks (s_next a) (s_idof a) (fupd (s_map a) (s_idof a p) v) in
  J a' -> R (mk (Some (set_nth (Z.to_nat (s_idof a p)) (enc v) l)) (size s) (pos s) (tpid s) false) a'.
Proof.
  intros s a l p v (HJ & (Hd & Ha & Hps & Hn) & Hp & Ht & Hc) Ea H1 a' HJ'.
  assert (Hlt : s_idof a p <= pos s) by (destruct HJ as (Hr & _); specialize (Hr p); lia).
  rewrite Ea in Ha. destruct Ha as (Hl & _).
  split; [exact HJ'|]. split; [|split; [auto|split; [auto|]]].
  - apply Shape_intro; cbn [arr size pos dead]; auto; [unfold ArrOK; rewrite set_nth_length; lia|discriminate].
  - intros i Hi. unfold cellat. cbn [arr size]. rewrite cellat0_set by lia.
    specialize (Hc i Hi). unfold cellat in Hc. rewrite Ea in Hc. rewrite Hc. cbn [a' s_map]. unfold fupd.
    destruct (i =? s_idof a p); auto.
Qed.

Lemma step_R : forall s a o, R s a -> may a o ->
  R (fst (step s o)) (fst (spec_step a o)) /\ snd (step s o) = snd (spec_step a o).
Proof.
  intros s a o HR Hok. pose proof (J_step a o (proj1 HR) Hok) as HJ'.
  pose proof HR as (HJ & HS & Hp & Ht & Hc). pose proof HS as (Hd & Ha & Hps & Hn).
  pose proof HJ as (Hr & _ & _).
  destruct o as [p|p|p|i|m']; cbn in Hok.
  - (* Reserve *)
    unfold step. rewrite Hd. cbn [spec_step fst snd]. rewrite Hp. split; [|auto].
    set (s1 := mk (arr s) (size s) (s_next a + 1) (tpid s) false).
    destruct (maybe_grow_ok s1 (s_next a + 1) Ha) as (G1 & G2 & G3 & G4 & G5 & G6);
      [cbn; lia|intros Hnone; specialize (Hn Hnone); lia|].
    cbn zeta in *. set (s2 := if need_grow s1 (s_next a + 1) then grow s1 else s1) in *.
    split; [exact HJ'|]. cbn [fst s_next s_idof s_map]. split; [|split; [exact G4|split]].
    + apply Shape_intro; cbn [arr size pos dead]; auto; [rewrite G4; cbn; lia|contradiction].
    + intros q. cbn [tpid assoc]. unfold fupd. rewrite G5. cbn [s1 tpid]. rewrite Ht, Z.eqb_sym. destruct (q =? p); auto.
    + intros i Hi. rewrite <- Hc by auto. exact (G6 i Hi).
  - (* Register *)
    unfold step. rewrite Hd. cbn [spec_step fst snd]. rewrite Ht.
    assert (Hlt : 1 <= s_idof a p <= pos s) by (specialize (Hr p); lia).
    unfold need_grow. destruct (arr s) as [l|] eqn:Ea; [|exfalso; specialize (Hn eq_refl); lia].
    replace (size s <=? s_idof a p) with false by lia.
    rewrite Ea. replace (s_idof a p <? size s) with true by lia. cbn [fst snd]. split; [|auto].
    apply (store_R s a l p (Some p)); auto. lia.
  - (* Unregister *)
    unfold step. rewrite Hd. cbn [spec_step fst snd]. rewrite Ht.
    assert (Hlt : 1 <= s_idof a p <= pos s) by (specialize (Hr p); lia).
    destruct (arr s) as [l|] eqn:Ea; [|exfalso; specialize (Hn eq_refl); lia].
    replace (s_idof a p <? size s) with true by lia. cbn [fst snd]. split; [|auto].
    apply (store_R s a l p None); auto. lia.
  - (* Lookup *)
    rewrite (lookup_R s a i HR) by lia. cbn. auto.
  - (* Sync *)
    unfold step. rewrite Hd. cbn [spec_step fst snd]. split; [|auto].
    assert (H1 : 1 <= size s) by (unfold ArrOK in Ha; destruct (arr s); lia).
    set (msz := grow_to (S (Z.to_nat m')) m' (size s)).
    assert (Hgt : m' < msz) by (apply grow_to_gt; lia).
    assert (Hge : size s <= msz) by (apply grow_to_ge; lia).
    unfold R. cbn [s_next s_idof s_map pos tpid]. split; [exact HJ'|].
    (* the array is extended or kept: either way it has msz slots and the old entries *)
    set (a' := if size s <? msz then Some (extend (arr s) (size s) msz) else arr s).
    assert (G : ArrOK a' msz /\ forall i, 1 <= i -> cellat0 a' msz i = cellat0 (arr s) (size s) i).
    { unfold a'. destruct (size s <? msz) eqn:E; [apply extend_ok; [exact Ha|lia]|].
      replace msz with (size s) by lia. auto. }
    destruct G as [G1 G2]. split; [|split; [auto|split; [auto|]]].
    + apply Shape_intro; cbn [arr size pos dead]; auto; [lia|].
      intros E0. rewrite E0 in G1. cbn [ArrOK] in G1. lia.
    + intros i Hi. rewrite <- Hc by auto. exact (G2 i Hi).
Qed.

Lemma spec_max_ge : forall aa r a, nth_error aa r = Some a -> s_next a <= spec_max aa.
Proof.
  induction aa as [|b aa IH]; intros [|r] a H; cbn in *; try discriminate.
  - inv H. lia.
  - specialize (IH _ _ H). fold (spec_max aa). lia.
Qed.
Lemma max_pos_ge : forall ss r s, nth_error ss r = Some s -> dead s = false -> pos s <= max_pos ss.
Proof.
  induction ss as [|b ss IH]; intros [|r] s H Hd; cbn in *; try discriminate.
  - inv H. rewrite Hd. lia.
  - specialize (IH _ _ H Hd). fold (max_pos ss). destruct (dead b); lia.
Qed.
Lemma max_pos_spec : forall ss aa, Forall2 R ss aa -> max_pos ss = spec_max aa.
Proof.
  induction 1 as [|s a ss aa HR _ IH]; cbn; auto.
  destruct HR as (_ & (Hd & _) & Hp & _). fold (max_pos ss). fold (spec_max aa). rewrite Hd, Hp, IH. auto.
Qed.

Lemma Forall2_upd : forall {A B} (P : A -> B -> Prop) l l' r x y,
  Forall2 P l l' -> P x y -> Forall2 P (upd r x l) (upd r y l').
Proof.
  intros A B P l l' r x y H. revert r. induction H; intros [|r] Hxy; cbn; constructor; auto.
Qed.
Lemma Forall2_nth : forall {A B} (P : A -> B -> Prop) l l' r x,
  Forall2 P l l' -> nth_error l' r = Some x -> exists y, nth_error l r = Some y /\ P y x.
Proof.
  intros A B P l l' r x H. revert r. induction H; intros [|r] Hn; cbn in *; try discriminate; eauto.
  inv Hn. eauto.
Qed.
Lemma Forall2_nth_l : forall {A B} (P : A -> B -> Prop) l l' r y,
  Forall2 P l l' -> nth_error l r = Some y -> exists x, nth_error l' r = Some x /\ P y x.
Proof.
  intros A B P l l' r x H. revert r. induction H; intros [|r] Hn; cbn in *; try discriminate; eauto.
  inv Hn. eauto.
Qed.

Lemma sys_step_R : forall ss aa e, Forall2 R ss aa -> ok_event aa e = true ->
  Forall2 R (fst (sys_step ss e)) (fst (spec_sys_step aa e)) /\ snd (sys_step ss e) = snd (spec_sys_step aa e).
Proof.
  intros ss aa e HF Hok. destruct e as [r o|]; cbn [sys_step spec_sys_step ok_event] in *.
  - destruct (nth_error aa r) as [a|] eqn:Ea; [|discriminate].
    destruct (Forall2_nth _ _ _ _ _ HF Ea) as (s & Es & HR). rewrite Es.
    destruct (step_R s a o HR (ok_may a o Hok)) as [H1 H2].
    destruct (step s o) as [s' x]; destruct (spec_step a o) as [a' y]. cbn in *. split; auto.
    apply Forall2_upd; auto.
  - cbn [fst snd]. split; auto. rewrite (max_pos_spec _ _ HF).
    assert (Hall : forall aa0 ss0, Forall2 R ss0 aa0 -> forall m, (forall r a, nth_error aa0 r = Some a -> s_next a <= m) ->
              Forall2 R (map (fun s => fst (step s (Sync m))) ss0) (map (fun a => fst (spec_step a (Sync m))) aa0)).
    { induction 1 as [|s a ss0 aa0 HR _ IH]; intros m Hm; cbn [map]; constructor.
      - apply step_R; auto. apply (Hm 0%nat). reflexivity.
      - apply IH. intros r a0 Hn. apply (Hm (S r)). exact Hn. }
    apply Hall; auto. intros r a Hn. eapply spec_max_ge; eauto.
Qed.

Lemma sys_run_R : forall h ss aa, Forall2 R ss aa -> wf_run aa h = true ->
  Forall2 R (fst (sys_run ss h)) (fst (spec_sys_run aa h)) /\ snd (sys_run ss h) = snd (spec_sys_run aa h).
Proof.
  induction h as [|e h IH]; intros ss aa HF Hwf; cbn [sys_run spec_sys_run wf_run] in *.
  - auto.
  - apply andb_true_iff in Hwf. destruct Hwf as [Hok Hwf].
    destruct (sys_step_R ss aa e HF Hok) as [H1 H2].
    destruct (sys_step ss e) as [ss1 x]; destruct (spec_sys_step aa e) as [aa1 y]. cbn [fst snd] in *.
    destruct (IH ss1 aa1 H1 Hwf) as [H3 H4].
    destruct (sys_run ss1 h) as [ss2 xs]; destruct (spec_sys_run aa1 h) as [aa2 ys]. cbn [fst snd] in *.
    split; auto. congruence.
Qed.

Lemma sys_init_R : forall n, Forall2 R (sys_init n) (spec_sys_init n).
Proof. induction n; cbn; constructor; auto. apply R_init. Qed.

Lemma final_R : forall n h, wf n h = true ->
  Forall2 R (fst (sys_run (sys_init n) h)) (fst (spec_sys_run (spec_sys_init n) h)).
Proof. intros n h Hwf. apply sys_run_R; auto. apply sys_init_R. Qed.

(* growth preserves the entries: a reservation (the only operation of the
   discipline that can grow the array) changes no lookup *)
Theorem reserve_preserves_lookups : forall s a p i, R s a -> ok_op a (Reserve p) = true -> 1 <= i ->
  lookup (fst (step s (Reserve p))) i = lookup s i.
Proof.
  intros s a p i HR Hok Hi. destruct (step_R s a (Reserve p) HR Hok) as [H1 _].
  unfold lookup. rewrite (lookup_R _ _ _ H1 Hi), (lookup_R _ _ _ HR Hi). reflexivity.
Qed.
Theorem sync_preserves_lookups : forall s a m i, R s a -> s_next a <= m -> 1 <= i ->
  lookup (fst (step s (Sync m))) i = lookup s i.
Proof.
  intros s a m i HR Hm Hi.
  destruct (step_R s a (Sync m) HR Hm) as [H1 _].
  unfold lookup. rewrite (lookup_R _ _ _ H1 Hi), (lookup_R _ _ _ HR Hi). reflexivity.
Qed.
