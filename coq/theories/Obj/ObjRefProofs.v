(* The reference count: for ANY number of threads, ANY retain/release lists that obey
   the reference discipline and ANY schedule, an invariant of the atomic-step
   model gives: the count equals the number of references held and never goes
   negative; at most one release observes 0; that release is the last atomic
   update ever performed on the object; the destructor chain and free run exactly
   once, right after it; nothing touches the object afterwards. *)
From PV Require Import Base.Tac Base.ListX Obj.ObjDefs Obj.ObjClassProofs.
Local Open Scope Z_scope.

Lemma wrap32_id z : -2147483648 <= z < 2147483648 -> wrap32 z = z.
Proof. intros H. unfold wrap32. rewrite Z.mod_small; lia. Qed.

Lemma sumf_app f a b : sumf f (a ++ b) = sumf f a + sumf f b.
Proof. unfold sumf. induction a as [|x a IH]; cbn [app fold_right]; lia. Qed.
Lemma sumf_cons f x l : sumf f (x :: l) = f x + sumf f l.
Proof. reflexivity. Qed.

Lemma sumf_upd f l t p q : nth_error l t = Some p ->
  sumf f (upd l t q) = sumf f l - f p + f q.
Proof.
  intros H. unfold upd. rewrite (split_nth l t p H) at 3.
  rewrite !sumf_app, !sumf_cons. lia.
Qed.

Lemma sumf_upd_same f l t p q : nth_error l t = Some p -> f q = f p -> sumf f (upd l t q) = sumf f l.
Proof. intros H E. rewrite (sumf_upd _ _ _ _ _ H). lia. Qed.

Lemma sumf_le f g l : (forall x, f x <= g x) -> sumf f l <= sumf g l.
Proof. intros H. induction l as [|x l IH]; [cbn; lia|]. rewrite !sumf_cons. specialize (H x). lia. Qed.

Lemma sumf_ext_Forall f g l : Forall (fun x => f x = g x) l -> sumf f l = sumf g l.
Proof. induction 1 as [|x l Hx _ IH]; [reflexivity|]. rewrite !sumf_cons. lia. Qed.

Lemma sumf_nonneg f l : Forall (fun x => 0 <= f x) l -> 0 <= sumf f l.
Proof. induction 1 as [|x l Hx _ IH]; [cbn; lia|]. rewrite sumf_cons. lia. Qed.

(* a sum of non-negative terms bounds each of them *)
Lemma sumf_nth_le f l t p : Forall (fun x => 0 <= f x) l -> nth_error l t = Some p -> f p <= sumf f l.
Proof.
  intros HF. revert t. induction HF as [|x l Hx Hl IH]; intros [|t] Hn; try discriminate; rewrite sumf_cons.
  - inversion Hn; subst. pose proof (sumf_nonneg f l Hl). lia.
  - specialize (IH t Hn). lia.
Qed.

(* per thread: the operations left obey the discipline; [pot], the references held plus the
   retains to come, bounds what it will ever hold; [fin] is what it holds once its list is done *)
Definition tok (th : thr) : Prop := disc (t_held th) (t_ops th) = true.
Definition pot (th : thr) : Z := t_held th + retains (t_ops th).
Definition fin (th : thr) : Z := t_held th + sumz (map op_inc (t_ops th)).

Lemma disc_held h ops : disc h ops = true -> 0 <= h.
Proof. destruct ops as [|o r]; cbn [disc]; intros H; [lia|]. apply andb_prop in H. lia. Qed.
Lemma disc_cons h o r : disc h (o :: r) = true -> 1 <= h /\ disc (h + op_inc o) r = true.
Proof. cbn [disc]. intros H. apply andb_prop in H. destruct H. split; [lia|assumption]. Qed.
Lemma disc_zero ops : disc 0 ops = true -> ops = [].
Proof. destruct ops as [|o r]; [reflexivity|]. intros H. apply disc_cons in H. lia. Qed.

Lemma retains_nonneg ops : 0 <= retains ops. Proof. unfold retains. lia. Qed.
Lemma retains_cons o r : retains (o :: r) = (match o with Retain => 1 | Release => 0 end) + retains r.
Proof. unfold retains. destruct o; cbn [filter length]; lia. Qed.

Lemma zeros_app a b : zeros (a ++ b) = zeros a + zeros b.
Proof. unfold zeros. rewrite filter_app, app_length. lia. Qed.
Lemma dlog_app a b : dlog (a ++ b) = dlog a ++ dlog b.
Proof. unfold dlog. apply flat_map_app. Qed.
Lemma pos_zeros l : Forall is_pos_upd l -> zeros l = 0.
Proof.
  induction 1 as [|e l He _ IH]; [reflexivity|].
  change (e :: l) with ([e] ++ l). rewrite zeros_app, IH.
  destruct e as [t [|v|v]| |]; cbn [is_pos_upd] in He; try contradiction; try lia. reflexivity.
Qed.
Lemma pos_dlog l : Forall is_pos_upd l -> dlog l = [].
Proof.
  induction 1 as [|e l He _ IH]; [reflexivity|].
  destruct e as [t v| |]; cbn in He; try contradiction. exact IH.
Qed.
Lemma dlog_dtors dt : dlog (map EDtor dt) = dt.
Proof. induction dt as [|f dt IH]; [reflexivity|]. cbn [map]. unfold dlog in *. cbn. now rewrite IH. Qed.
Lemma zeros_dtors dt : zeros (map EDtor dt) = 0.
Proof. induction dt as [|f dt IH]; [reflexivity|exact IH]. Qed.

(* the shape of the trace of a destroyed object *)
Definition final_trace (dt : list fid) (tr : list ev) : Prop :=
  exists pre t, tr = pre ++ EUpd t 0 :: map EDtor dt ++ [EFree] /\ Forall is_pos_upd pre.

Lemma final_zeros dt tr : final_trace dt tr -> zeros tr = 1.
Proof.
  intros (pre & t & -> & Hp). rewrite zeros_app, (pos_zeros _ Hp).
  change (EUpd t 0 :: map EDtor dt ++ [EFree]) with ([EUpd t 0] ++ map EDtor dt ++ [EFree]).
  rewrite !zeros_app, zeros_dtors. reflexivity.
Qed.
Lemma final_dlog dt tr : final_trace dt tr -> dlog tr = dt.
Proof.
  intros (pre & t & -> & Hp). rewrite dlog_app, (pos_dlog _ Hp).
  change (EUpd t 0 :: map EDtor dt ++ [EFree]) with ([EUpd t 0] ++ map EDtor dt ++ [EFree]).
  rewrite !dlog_app, dlog_dtors. cbn. apply app_nil_r.
Qed.

Definition live (c : ocfg) : Prop :=
  o_destroys c = 0 /\ o_rc c = sumf t_held (o_thr c) /\ 1 <= o_rc c /\ Forall is_pos_upd (o_trace c).
Definition dead (dt : list fid) (c : ocfg) : Prop :=
  o_destroys c = 1 /\ o_rc c = 0 /\ sumf t_held (o_thr c) = 0 /\ final_trace dt (o_trace c).
Definition Inv (dt : list fid) (B : Z) (c : ocfg) : Prop :=
  Forall tok (o_thr c) /\ sumf pot (o_thr c) <= B /\ o_late c = 0 /\ (live c \/ dead dt c).

Lemma tok_held l : Forall tok l -> Forall (fun x => 0 <= t_held x) l.
Proof. apply Forall_impl. intros x. apply disc_held. Qed.

Lemma held_zero_when_dead l t th : Forall tok l -> sumf t_held l = 0 -> nth_error l t = Some th ->
  t_held th = 0 /\ t_ops th = [].
Proof.
  intros Htok Hs Hn. pose proof (Forall_nth _ _ _ _ Htok Hn) as Ht. unfold tok in Ht.
  assert (Hz : t_held th = 0).
  { pose proof (sumf_nth_le _ _ _ _ (tok_held _ Htok) Hn). pose proof (disc_held _ _ Ht). lia. }
  split; [exact Hz|]. rewrite Hz in Ht. now apply disc_zero.
Qed.

Lemma inv_step dt B c t : B < 2147483648 -> Inv dt B c -> Inv dt B (step dt c t).
Proof.
  intros HB (Htok & Hpot & Hlate & Hld). unfold step.
  destruct (nth_error (o_thr c) t) as [th|] eqn:E; [|repeat split; assumption].
  pose proof (Forall_nth _ _ _ _ Htok E) as Hth. unfold tok in Hth.
  destruct (t_started th) eqn:Est; cbn [negb].
  2:{ (* first scheduling point: nothing shared changes *)
    unfold Inv, live, dead; cbn [o_rc o_destroys o_late o_trace o_thr].
    rewrite (sumf_upd_same t_held _ _ _ _ E), (sumf_upd_same pot _ _ _ _ E) by reflexivity.
    split; [|now repeat split]. now apply Forall_upd. }
  destruct (t_ops th) as [|o rest] eqn:Eops; [repeat split; assumption|].
  apply disc_cons in Hth. destruct Hth as (Hheld & Hrest).
  destruct Hld as [(Hd & Hrc & Hrc1 & Htr)|(Hd & Hrc & Hs & Htr)].
  2:{ (* a destroyed object: nobody holds a reference, so nobody has an operation left *)
    destruct (held_zero_when_dead _ _ _ Htok Hs E) as (Hz & Ho). congruence. }
  set (th' := {| t_started := true; t_held := t_held th + op_inc o; t_ops := rest |}).
  assert (Hh : sumf t_held (upd (o_thr c) t th') = sumf t_held (o_thr c) + op_inc o)
    by (rewrite (sumf_upd _ _ _ _ _ E); cbn; lia).
  assert (Hp : sumf pot (upd (o_thr c) t th') <= sumf pot (o_thr c)).
  { rewrite (sumf_upd _ _ _ _ _ E). unfold pot, th'. cbn [t_held t_ops]. rewrite Eops, retains_cons.
    destruct o; cbn [op_inc]; lia. }
  assert (Hle : sumf t_held (upd (o_thr c) t th') <= sumf pot (upd (o_thr c) t th')).
  { apply sumf_le. intros x. unfold pot. pose proof (retains_nonneg (t_ops x)). lia. }
  assert (Htok' : Forall tok (upd (o_thr c) t th')) by now apply Forall_upd.
  pose proof (sumf_nth_le _ _ _ _ (tok_held _ Htok) E) as Hheld_le.
  (* no wrap: the count is at least 1 and, after a retain, at most the potential B *)
  assert (Hw : wrap32 (o_rc c + op_inc o) = o_rc c + op_inc o).
  { apply wrap32_id. destruct o; cbn [op_inc] in *; lia. }
  rewrite Hw, Hd. change (0 <? 0) with false. cbv iota.
  unfold Inv, live, dead; cbn [o_rc o_destroys o_late o_trace o_thr].
  split; [exact Htok'|]. split; [lia|]. split; [exact Hlate|].
  assert (Htr' : forall v, 1 <= v -> Forall is_pos_upd (o_trace c ++ [EUpd t v])).
  { intros v Hv. apply Forall_app. split; [exact Htr|]. now constructor. }
  destruct o; cbn [op_inc] in *.
  - (* retain *)
    left. repeat split; try lia. apply Htr'. lia.
  - (* release *)
    destruct (o_rc c + -1 =? 0) eqn:Ez.
    + right. repeat split; try lia.
      exists (o_trace c), t. split; [|exact Htr].
      replace (o_rc c + -1) with 0 by lia. reflexivity.
    + left. repeat split; try lia. apply Htr'. lia.
Qed.

Lemma inv_init dt ths : disciplined ths -> 1 <= sumf t_held (map mk_thr ths) ->
  Inv dt (bound ths) (init ths).
Proof.
  intros Hd H1. unfold Inv, init; cbn [o_rc o_destroys o_late o_trace o_thr].
  split; [|split; [|split; [reflexivity|]]].
  - apply Forall_map. exact Hd.
  - unfold bound, pot. lia.
  - left. unfold live; cbn. repeat split; try lia. constructor.
Qed.

Lemma inv_run dt ths sched : disciplined ths -> 1 <= sumf t_held (map mk_thr ths) ->
  bound ths < 2147483648 -> Inv dt (bound ths) (run dt (init ths) sched).
Proof.
  intros Hd H1 HB. unfold run. apply fold_left_inv.
  - intros a b Ha. apply inv_step; assumption.
  - apply inv_init; assumption.
Qed.

(* what the lists still promise (sum of [fin]: references held plus the net effect of the
   operations left) is the same after every step *)
Lemma fin_step dt c t : sumf fin (o_thr (step dt c t)) = sumf fin (o_thr c).
Proof.
  unfold step. destruct (nth_error (o_thr c) t) as [th|] eqn:E; [|reflexivity].
  destruct (t_started th); cbn [negb].
  2:{ now apply (sumf_upd_same _ _ _ _ _ E). }
  destruct (t_ops th) as [|o rest] eqn:Eo; [reflexivity|].
  cbn [o_thr]. rewrite (sumf_upd _ _ _ _ _ E). unfold fin; cbn [t_held t_ops]. rewrite Eo.
  cbn [map sumz fold_right]. fold (sumz (map op_inc rest)). lia.
Qed.
Lemma fin_run dt c sched : sumf fin (o_thr (run dt c sched)) = sumf fin (o_thr c).
Proof.
  revert c. induction sched as [|t s IH]; intros c; [reflexivity|].
  cbn [run fold_left]. fold (run dt (step dt c t) s). rewrite IH. apply fin_step.
Qed.

Definition all_ops_done (c : ocfg) : Prop := Forall (fun th => t_ops th = []) (o_thr c).
(* every reference handed out or retained is released by somebody's list *)
Definition balanced (ths : list (Z * list op)) : Prop := sumf fin (map mk_thr ths) = 0.

Lemma fin_done c : all_ops_done c -> sumf fin (o_thr c) = sumf t_held (o_thr c).
Proof.
  intros Hdone. apply sumf_ext_Forall. eapply Forall_impl; [|exact Hdone].
  intros th Ho. unfold fin. rewrite Ho. cbn. lia.
Qed.

(* what the invariant says of a state, however it was reached *)
Section Consequences.
Variables (dt : list fid) (B : Z) (c : ocfg).
Hypothesis HI : Inv dt B c.

Theorem destroyed_at_most_once :
  0 <= o_destroys c <= 1 /\ zeros (o_trace c) = o_destroys c /\
  dlog (o_trace c) = (if o_destroys c =? 1 then dt else []).
Proof.
  destruct HI as (_ & _ & _ & [(Hd & _ & _ & Htr)|(Hd & _ & _ & Htr)]); rewrite Hd.
  - rewrite (pos_zeros _ Htr), (pos_dlog _ Htr). cbn. repeat split; lia.
  - rewrite (final_zeros _ _ Htr), (final_dlog _ _ Htr). cbn. repeat split; lia.
Qed.

Theorem zero_is_last : o_destroys c = 1 ->
  final_trace dt (o_trace c) /\ o_rc c = 0 /\
  Forall (fun th => t_held th = 0 /\ t_ops th = []) (o_thr c).
Proof.
  intros H1. destruct HI as (Htok & _ & _ & [(Hd & _)|(Hd & Hrc & Hs & Htr)]); [lia|].
  repeat split; try assumption.
  apply Forall_forall. intros th Hin. apply In_nth_error in Hin. destruct Hin as (t & Hn).
  eapply held_zero_when_dead; eauto.
Qed.

Theorem no_touch_after_destroy : o_late c = 0.
Proof. destruct HI as (_ & _ & ? & _). assumption. Qed.

Theorem destroyed_iff_no_reference_left : o_destroys c = 1 <-> sumf t_held (o_thr c) = 0.
Proof. destruct HI as (_ & _ & _ & [(? & ? & ? & ?)|(? & ? & ? & ?)]); split; lia. Qed.
End Consequences.

Section Reach.
Variables (dt : list fid) (ths : list (Z * list op)) (sched : list nat).
Hypothesis Hdisc : disciplined ths.
Hypothesis Hone : 1 <= sumf t_held (map mk_thr ths).
Hypothesis Hbound : bound ths < 2147483648.
Let c := run dt (init ths) sched.

Lemma reach_inv : Inv dt (bound ths) c.
Proof. apply inv_run; assumption. Qed.

(* completion: once every list is exhausted, the references still held are what the lists
   promised at the start, so the object is destroyed iff that was nothing *)
Lemma done_held : all_ops_done c -> sumf t_held (o_thr c) = sumf fin (map mk_thr ths).
Proof. intros Hdone. rewrite <- (fin_done _ Hdone). apply (fin_run dt (init ths)). Qed.

Theorem all_released_destroyed_once : balanced ths -> all_ops_done c ->
  o_destroys c = 1 /\ zeros (o_trace c) = 1 /\ dlog (o_trace c) = dt /\ final_trace dt (o_trace c).
Proof.
  intros Hbal Hdone.
  assert (Hs : o_destroys c = 1).
  { apply (destroyed_iff_no_reference_left _ _ _ reach_inv). now rewrite (done_held Hdone). }
  destruct (destroyed_at_most_once _ _ _ reach_inv) as (_ & Hz & Hl). rewrite Hs in Hz, Hl.
  destruct (zero_is_last _ _ _ reach_inv Hs) as (Hf & _). auto.
Qed.

(* a reference that nobody releases keeps the object alive for ever *)
Theorem leaked_never_destroyed : sumf fin (map mk_thr ths) <> 0 ->
  o_destroys c = 0 /\ dlog (o_trace c) = [].
Proof.
  intros Hnb. destruct (destroyed_at_most_once _ _ _ reach_inv) as (Hr & _ & Hl).
  assert (Hn1 : o_destroys c <> 1).
  { intros H. destruct (zero_is_last _ _ _ reach_inv H) as (_ & _ & Hall). apply Hnb.
    rewrite <- done_held; [now apply (destroyed_iff_no_reference_left _ _ _ reach_inv)|].
    eapply Forall_impl; [|exact Hall]. now intros th (_ & Ho). }
  assert (H0 : o_destroys c = 0) by lia.
  rewrite H0 in Hl. auto.
Qed.
End Reach.

(* after the destroying release nothing ever changes again, whatever is scheduled *)
Lemma dead_step dt B c t : Inv dt B c -> o_destroys c = 1 ->
  o_trace (step dt c t) = o_trace c /\ o_rc (step dt c t) = o_rc c /\ o_destroys (step dt c t) = 1.
Proof.
  intros (Htok & _ & _ & [(Hd & _)|(Hd & Hrc & Hs & Htr)]) H1; [lia|]. unfold step.
  destruct (nth_error (o_thr c) t) as [th|] eqn:E; [|auto].
  destruct (held_zero_when_dead _ _ _ Htok Hs E) as (_ & Ho). rewrite Ho.
  destruct (t_started th); cbn [negb o_trace o_rc o_destroys]; auto.
Qed.

Lemma dead_run dt B s : B < 2147483648 -> forall c, Inv dt B c -> o_destroys c = 1 ->
  o_trace (run dt c s) = o_trace c /\ o_rc (run dt c s) = o_rc c /\ o_destroys (run dt c s) = 1.
Proof.
  intros HB. induction s as [|t s IH]; intros c HI Hd; [auto|].
  destruct (dead_step dt B c t HI Hd) as (Ht & Hr & Hdd).
  cbn [run fold_left]. fold (run dt (step dt c t) s). rewrite <- Ht, <- Hr.
  apply IH; [now apply inv_step|exact Hdd].
Qed.

(* without the discipline: a retain that races with the last release *)
Definition race_ths : list (Z * list op) := [(1, [Release]); (0, [Retain; Release])].
Lemma race_good_order : let c := run [7%nat] (init race_ths) [0;1;1;0;1]%nat in
  o_destroys c = 1 /\ o_late c = 0 /\ dlog (o_trace c) = [7%nat].
Proof. vm_compute. auto. Qed.
Lemma race_bad_order : let c := run [7%nat] (init race_ths) [0;1;0;1;1]%nat in
  o_destroys c = 2 /\ o_late c = 2 /\ dlog (o_trace c) = [7%nat; 7%nat].
Proof. vm_compute. auto. Qed.
