(* parsec_class_initialize builds, for EVERY class chain (any depth, any pattern of
   NULL constructors / destructors, any content of the fresh allocation), the
   constructor array "base first" and the destructor array "derived first",
   each holding exactly the non-NULL functions of the chain once and a NULL
   sentinel; run_constructors / run_destructors therefore invoke exactly those. *)
From PV Require Import Base.Tac Base.ListX Obj.ObjDefs.

(* [len]: lengths of concatenations, maps and reversals are pushed to the leaves, then [lia].
   [nrm]: concatenations are re-associated to the right, so that lists built in different orders
   become syntactically equal. *)
Ltac len := repeat (progress (rewrite ?app_length, ?map_length, ?rev_length; cbn [length])); lia.
Ltac nrm := repeat (progress (rewrite <- ?app_assoc; cbn [app])).
Lemma split_len {A} (l : list A) a b : length l = (a + b)%nat ->
  exists l1 l2, l = l1 ++ l2 /\ length l1 = a /\ length l2 = b.
Proof.
  intros H. exists (firstn a l), (skipn a l). split; [symmetry; apply firstn_skipn|].
  split; [apply firstn_length_le; lia | rewrite skipn_length; lia].
Qed.

Lemma split_last {A} (l : list A) n : length l = S n ->
  exists l1 x, l = l1 ++ [x] /\ length l1 = n.
Proof.
  intros H. destruct (split_len l n 1) as (l1 & l2 & E & H1 & H2); [lia|].
  destruct l2 as [|x [|y l2]]; cbn in H2; try lia. exists l1, x. auto.
Qed.

(* l, however its concatenations are bracketed, has x at position n = length a *)
Lemma upd_at {A} (l a b : list A) x y n : l = a ++ x :: b -> n = length a -> upd l n y = a ++ y :: b.
Proof.
  intros -> ->. unfold upd. induction a as [|a0 a IH]; [reflexivity|].
  cbn [length app firstn skipn]. f_equal. exact IH.
Qed.

Lemma scan_some_none l r : scan (map Some l ++ None :: r) = l.
Proof. induction l as [|f l IH]; cbn [map app scan]; [reflexivity|]. now rewrite IH. Qed.

Lemma count_loop_spec k : forall nc nd d,
  count_loop k nc nd d =
  ((nc + length (ctors_of k))%nat, (nd + length (dtors_of k))%nat, (d + depth_of k)%nat).
Proof.
  induction k as [oc od|oc od p IH]; intros nc nd d;
    cbn [count_loop c_ctor c_dtor ctors_of dtors_of depth_of]; rewrite ?IH;
    destruct oc, od; cbn [opt_list app length]; (apply f_equal2; [apply f_equal2|]); lia.
Qed.

Lemma fill_iter k i J1 M U R a b :
  length J1 = (length (opt_list (c_ctor k)) + a)%nat ->
  length U = (length (opt_list (c_dtor k)) + b)%nat ->
  exists J1' U', length J1' = a /\ length U' = b /\
    let M' := map Some (opt_list (c_ctor k)) ++ M ++ map Some (opt_list (c_dtor k)) in
    fill (S i) (Some k) (J1 ++ M ++ U ++ R) (length J1) (length J1 + length M) =
    fill i (c_parent k) (J1' ++ M' ++ U' ++ R) (length J1') (length J1' + length M').
Proof.
  intros HJ HU. cbn [fill].
  destruct (c_ctor k) as [f|]; destruct (c_dtor k) as [g|]; cbn [opt_list length Nat.add map app] in *.
  - destruct (split_last J1 a HJ) as (J1' & j & -> & HJ').
    destruct U as [|u U']; [discriminate|]. cbn [length] in HU.
    exists J1', U'. repeat split; [assumption|lia|].
    rewrite (upd_at _ J1' (M ++ u :: U' ++ R) j (Some f)); [|nrm; reflexivity|len].
    rewrite (upd_at _ (J1' ++ Some f :: M) (U' ++ R) u (Some g)); [|nrm; reflexivity|len].
    f_equal; [nrm; reflexivity|len|len].
  - destruct (split_last J1 a HJ) as (J1' & j & -> & HJ').
    exists J1', U. repeat split; [assumption|lia|].
    rewrite (upd_at _ J1' (M ++ U ++ R) j (Some f)); [|nrm; reflexivity|len].
    f_equal; [nrm; reflexivity|len|len].
  - destruct U as [|u U']; [discriminate|]. cbn [length] in HU.
    exists J1, U'. repeat split; [lia|lia|].
    rewrite (upd_at _ (J1 ++ M) (U' ++ R) u (Some g)); [|nrm; reflexivity|len].
    f_equal; [nrm; reflexivity|len].
  - exists J1, U. repeat split; [lia|lia|]. rewrite app_nil_r. reflexivity.
Qed.

Lemma fill_spec k : forall J1 M U R,
  length J1 = length (ctors_of k) -> length U = length (dtors_of k) ->
  fill (depth_of k) (Some k) (J1 ++ M ++ U ++ R) (length J1) (length J1 + length M) =
  (map Some (rev (ctors_of k)) ++ M ++ map Some (dtors_of k) ++ R,
   (length J1 + length M + length (dtors_of k))%nat).
Proof.
  induction k as [oc od|oc od p IH]; intros J1 M U R HJ HU;
    cbn [depth_of ctors_of dtors_of c_ctor c_dtor] in *.
  - rewrite app_nil_r in HJ, HU.
    destruct (fill_iter (Base oc od) 0 J1 M U R 0 0) as (J1' & U' & HJ' & HU' & E);
      cbn [c_ctor c_dtor]; [lia|lia|].
    cbn zeta in E. rewrite E. cbn [fill c_ctor c_dtor].
    destruct J1'; [|discriminate]. destruct U'; [|discriminate].
    rewrite !app_nil_r. cbn [app length].
    f_equal.
    + destruct oc, od; cbn [opt_list map rev app]; rewrite <- ?app_assoc; reflexivity.
    + rewrite !app_length, !map_length. destruct oc, od; cbn [opt_list length] in *; lia.
  - rewrite app_length in HJ, HU.
    destruct (fill_iter (Derived oc od p) (depth_of p) J1 M U R (length (ctors_of p)) (length (dtors_of p)))
      as (J1' & U' & HJ' & HU' & E); cbn [c_ctor c_dtor]; [lia|lia|].
    cbn zeta in E. rewrite E. cbn [c_parent c_ctor c_dtor].
    rewrite (IH J1' _ U' R HJ' HU').
    f_equal.
    + rewrite rev_app_distr, !map_app. rewrite <- !app_assoc.
      destruct oc, od; cbn [opt_list map rev app]; rewrite <- ?app_assoc; reflexivity.
    + rewrite !app_length, !map_length. destruct oc, od; cbn [opt_list length] in *; lia.
Qed.

Lemma class_initialize_spec junk k :
  class_initialize junk k =
  {| i_depth := depth_of k;
     i_arr := map Some (rev (ctors_of k)) ++ None :: map Some (dtors_of k) ++ [None];
     i_coff := 0; i_doff := S (length (ctors_of k)) |}.
Proof.
  unfold class_initialize.
  rewrite count_loop_spec. cbn [Nat.add].
  set (nc := length (ctors_of k)). set (nd := length (dtors_of k)).
  set (arr0 := map junk (seq 0 (nc + nd + 2))).
  assert (Hlen : length arr0 = (nc + (1 + (nd + 1)))%nat).
  { unfold arr0. rewrite map_length, seq_length. lia. }
  destruct (split_len _ _ _ Hlen) as (J1 & T1 & E1 & HJ1 & HT1).
  destruct (split_len _ _ _ HT1) as (X & T2 & E2 & HX & HT2).
  destruct (split_len _ _ _ HT2) as (U & Y & E3 & HU & HY).
  destruct X as [|x [|? ?]]; cbn in HX; try lia.
  destruct Y as [|y [|? ?]]; cbn in HY; try lia.
  subst T2 T1. rewrite E1. cbn [app].
  rewrite <- HJ1. rewrite (upd_at _ J1 (U ++ [y]) x None) by reflexivity.
  pose proof (fill_spec k J1 [None] U [y] HJ1 HU) as F. cbn [app length] in F.
  rewrite F.
  rewrite (upd_at _ (map Some (rev (ctors_of k)) ++ None :: map Some (dtors_of k)) [] y None);
    [|nrm; reflexivity|unfold nc in HJ1; len].
  rewrite <- app_assoc. cbn [app].
  f_equal. unfold nc in HJ1. lia.
Qed.

Theorem ctor_order junk k : run_constructors (class_initialize junk k) = rev (ctors_of k).
Proof.
  rewrite class_initialize_spec.
  unfold run_constructors; cbn [i_coff i_arr skipn]. apply scan_some_none.
Qed.

Theorem dtor_order junk k : run_destructors (class_initialize junk k) = dtors_of k.
Proof.
  rewrite class_initialize_spec.
  unfold run_destructors; cbn [i_doff i_arr].
  replace (map Some (rev (ctors_of k)) ++ None :: map Some (dtors_of k) ++ [None])
    with ((map Some (rev (ctors_of k)) ++ [None]) ++ map Some (dtors_of k) ++ [None])
    by (rewrite <- app_assoc; reflexivity).
  rewrite skipn_app_len by (rewrite app_length, map_length, rev_length; cbn [length]; lia).
  apply scan_some_none.
Qed.

(* the block has exactly the allocated size and both arrays are NULL terminated inside it *)
Theorem arrays_in_block junk k :
  length (i_arr (class_initialize junk k)) = (length (ctors_of k) + length (dtors_of k) + 2)%nat /\
  nth_error (i_arr (class_initialize junk k)) (length (ctors_of k)) = Some None /\
  nth_error (i_arr (class_initialize junk k)) (length (ctors_of k) + length (dtors_of k) + 1) = Some None.
Proof.
  rewrite class_initialize_spec. cbn [i_arr].
  repeat split.
  - rewrite app_length. cbn [length]. rewrite app_length, !map_length, rev_length. cbn [length]. lia.
  - rewrite nth_error_app2 by (rewrite map_length, rev_length; lia).
    rewrite map_length, rev_length, Nat.sub_diag. reflexivity.
  - rewrite nth_error_app2 by (rewrite map_length, rev_length; lia).
    rewrite map_length, rev_length.
    replace (length (ctors_of k) + length (dtors_of k) + 1 - length (ctors_of k))%nat
      with (S (length (dtors_of k))) by lia.
    cbn [nth_error]. rewrite nth_error_app2 by (rewrite map_length; lia).
    rewrite map_length, Nat.sub_diag. reflexivity.
Qed.

(* "each exactly once" when the functions of the chain are pairwise distinct *)
Lemma count_once (l l' : list fid) f : NoDup l -> (In f l <-> In f l') ->
  count_occ Nat.eq_dec l f = if in_dec Nat.eq_dec f l' then 1%nat else 0%nat.
Proof.
  intros Hnd Hiff. destruct (in_dec Nat.eq_dec f l') as [Hin|Hnin].
  - apply (proj1 (NoDup_count_occ' Nat.eq_dec _) Hnd). now apply Hiff.
  - apply count_occ_not_In. now rewrite Hiff.
Qed.

