(* First use of a class by several threads: for ANY number of threads, ANY per-thread
   operation lists and ANY schedule the constructor / destructor arrays are built exactly
   once (and are those of one sequential parsec_class_initialize), the class lock is held by
   at most one thread, and every thread's object lives a complete life: constructors base ->
   derived, updates, the release that reads 0, destructors derived -> base, free. *)
From PV Require Import Base.Tac Base.ListX Obj.ObjDefs Obj.ObjClassProofs Obj.ObjRefProofs.
Local Open Scope Z_scope.

Definition good (th : fthr) : Prop :=
  disc (f_rc th) (f_ops th) = true /\ f_rc th + retains (f_ops th) < 2147483648 /\
  f_rc th + sumz (map op_inc (f_ops th)) = 0.

Definition tinv (k : cls) (initd : bool) (th : fthr) : Prop :=
  match f_pc th with
  | FStart | FLock => f_ev th = [] /\ f_rc th = 1 /\ good th
  | FUnlock => f_ev th = [] /\ f_rc th = 1 /\ good th /\ initd = true
  | FOps => initd = true /\
            ((good th /\ 1 <= f_rc th /\ life_running k (f_ev th)) \/
             (f_rc th = 0 /\ f_ops th = [] /\ life_complete k (f_ev th)))
  end.

Definition kinv junk k (ks : kstate) : Prop :=
  (k_init ks = false -> k_tab ks = None /\ k_inits ks = 0) /\
  (k_init ks = true -> k_tab ks = Some (class_initialize junk k) /\ k_inits ks = 1).

Definition FInv junk k (c : fcfg) : Prop :=
  kinv junk k (fc_k c) /\
  cnt is_unlock (fc_thr c) = (if k_lock (fc_k c) then 1 else 0) /\
  Forall (tinv k (k_init (fc_k c))) (fc_thr c).

(* [initd] only ever goes from false to true, and nothing is promised to a thread while it is false *)
Lemma tinv_mono k th b b' : (b = true -> b' = true) -> tinv k b th -> tinv k b' th.
Proof. unfold tinv. destruct (f_pc th); intuition. Qed.

Lemma kinv_tabs junk k ks : kinv junk k ks -> k_init ks = true ->
  tab_ctors ks = rev (ctors_of k) /\ tab_dtors ks = dtors_of k.
Proof.
  intros (_ & H) Hi. destruct (H Hi) as (Ht & _). unfold tab_ctors, tab_dtors. rewrite Ht.
  split; [apply ctor_order|apply dtor_order].
Qed.

Lemma life_start k : life_running k (map FCtor (rev (ctors_of k))).
Proof. exists []. split; [symmetry; apply app_nil_r|constructor]. Qed.

(* a step of thread [t]: the class state stays consistent and stays initialised once it is, the lock
   is taken or released exactly as [t] enters or leaves FUnlock, and [t] gets what its new pc needs *)
Lemma FInv_upd junk k c t th ks' th' :
  FInv junk k c -> nth_error (fc_thr c) t = Some th ->
  kinv junk k ks' ->
  (k_init (fc_k c) = true -> k_init ks' = true) ->
  (if k_lock ks' then 1 else 0) =
    (if k_lock (fc_k c) then 1 else 0) - (if is_unlock th then 1 else 0) + (if is_unlock th' then 1 else 0) ->
  tinv k (k_init ks') th' ->
  FInv junk k {| fc_k := ks'; fc_thr := upd (fc_thr c) t th' |}.
Proof.
  intros (HK & HM & HT) E HK' Hmono Hlock Hth'. unfold FInv; cbn [fc_k fc_thr].
  split; [exact HK'|]. split.
  - rewrite (cnt_upd _ _ _ _ _ E). lia.
  - apply Forall_upd; [|exact Hth'].
    eapply Forall_impl; [|exact HT]. intros x. now apply tinv_mono.
Qed.

Lemma finv_step junk k c t : FInv junk k c -> FInv junk k (fstep true junk k c t).
Proof.
  intros HI. pose proof HI as (HK & HM & HT). unfold fstep.
  destruct (nth_error (fc_thr c) t) as [[pc rc ops ev]|] eqn:E; [|exact HI].
  pose proof (Forall_nth _ _ _ _ HT E) as Hth. unfold tinv, good in Hth.
  cbn [f_pc f_rc f_ops f_ev] in *.
  destruct pc.
  - (* FStart *)
    destruct Hth as (Hev & Hrc & Hg). subst rc.
    destruct (k_init (fc_k c)) eqn:Ei.
    + apply (FInv_upd _ _ _ _ _ _ _ HI E); [exact HK|auto|cbn; lia|].
      unfold tinv, good; cbn [f_pc f_rc f_ops f_ev]. split; [exact Ei|]. left.
      split; [exact Hg|]. split; [lia|].
      destruct (kinv_tabs _ _ _ HK Ei) as (-> & _). apply life_start.
    + apply (FInv_upd _ _ _ _ _ _ _ HI E); [exact HK|auto|cbn; lia|].
      unfold tinv, good; cbn [f_pc f_rc f_ops f_ev]. auto.
  - (* FLock *)
    destruct Hth as (Hev & Hrc & Hg).
    destruct (k_lock (fc_k c)) eqn:El; [exact HI|].
    destruct (k_init (fc_k c)) eqn:Ei; cbn [andb];
      apply (FInv_upd _ _ _ _ _ _ _ HI E); cbn [k_init k_lock is_unlock f_pc].
    + (* initialised meanwhile: the re-test under the lock sees it *)
      unfold kinv in *; cbn [k_init k_tab k_inits]. now rewrite Ei in HK.
    + auto.
    + rewrite El. lia.
    + unfold tinv, good; cbn [f_pc f_rc f_ops f_ev]. auto.
    + (* still uninitialised: this thread builds the arrays *)
      destruct HK as (HK0 & _). destruct (HK0 Ei) as (_ & Hz).
      split; cbn [k_init k_tab k_inits]; [discriminate|]. intros _. split; [reflexivity|lia].
    + auto.
    + rewrite El. lia.
    + unfold tinv, good; cbn [f_pc f_rc f_ops f_ev]. auto.
  - (* FUnlock *)
    destruct Hth as (Hev & Hrc & Hg & Hi). subst rc.
    pose proof (cnt_pos_of_nth is_unlock _ _ _ E eq_refl) as Hp.
    apply (FInv_upd _ _ _ _ _ _ _ HI E); cbn [k_init k_lock is_unlock f_pc].
    + exact HK.
    + auto.
    + destruct (k_lock (fc_k c)); lia.
    + unfold tinv, good; cbn [f_pc f_rc f_ops f_ev]. split; [exact Hi|]. left.
      split; [exact Hg|]. split; [lia|].
      destruct (kinv_tabs _ _ _ HK Hi) as (Hc & _). unfold tab_ctors in *. cbn [k_tab]. rewrite Hc.
      apply life_start.
  - (* FOps *)
    destruct Hth as (Hi & Hlife).
    destruct ops as [|o rest]; [exact HI|].
    destruct Hlife as [((Hd & Hb & Hbal) & H1 & (us & Hev & Hus))|(_ & Hn & _)]; [|discriminate].
    apply disc_cons in Hd. destruct Hd as (_ & Hd).
    destruct (kinv_tabs _ _ _ HK Hi) as (_ & Hdt).
    pose proof (retains_nonneg rest) as Hrn. rewrite retains_cons in Hb.
    assert (Hw : wrap32 (rc + op_inc o) = rc + op_inc o).
    { apply wrap32_id. destruct o; cbn [op_inc]; lia. }
    rewrite Hw.
    apply (FInv_upd _ _ _ _ _ _ _ HI E); [exact HK|auto|cbn; lia|].
    unfold tinv; cbn [f_pc f_rc f_ops f_ev]. split; [exact Hi|].
    cbn [map sumz fold_right] in Hbal. fold (sumz (map op_inc rest)) in Hbal.
    assert (Hrun : forall v, 1 <= v -> life_running k (ev ++ [FUpd v])).
    { intros v Hv. exists (us ++ [v]). rewrite Hev, map_app, <- app_assoc.
      split; [reflexivity|]. apply Forall_app. split; [exact Hus|]. now constructor. }
    destruct o; cbn [op_inc] in *.
    + (* retain *)
      left. unfold good; cbn [f_rc f_ops]. split; [repeat split; [exact Hd|lia|lia]|]. split; [lia|].
      apply Hrun. lia.
    + (* release *)
      destruct (rc + -1 =? 0) eqn:Ez.
      * right. assert (Hr0 : rc + -1 = 0) by lia. rewrite Hr0 in *.
        apply disc_zero in Hd. subst rest. split; [reflexivity|]. split; [reflexivity|].
        exists us. rewrite Hev, Hdt, <- app_assoc. split; [reflexivity|exact Hus].
      * left. unfold good; cbn [f_rc f_ops]. split; [repeat split; [exact Hd|lia|lia]|]. split; [lia|].
        apply Hrun. lia.
Qed.

Lemma finv_init junk k opss : first_use_ok opss -> FInv junk k (finit opss).
Proof.
  intros Hok. unfold FInv, finit; cbn [fc_k fc_thr k_init k_lock]. split; [|split].
  - unfold kinv; cbn. split; [auto|discriminate].
  - apply cnt_map_false. reflexivity.
  - apply Forall_map. eapply Forall_impl; [|exact Hok]. intros ops (Hd & Hb & Hs).
    unfold tinv, good; cbn [f_pc f_rc f_ops f_ev]. auto.
Qed.

Lemma finv_run junk k opss sched : first_use_ok opss -> FInv junk k (frun true junk k (finit opss) sched).
Proof.
  intros Hok. unfold frun. apply fold_left_inv.
  - intros a b Ha. apply finv_step; exact Ha.
  - apply finv_init; exact Hok.
Qed.
