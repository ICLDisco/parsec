(* Lemmas about the list / dequeue / ring model (ListMDefs.v): where the sorted insertions
   put an item (both scan directions agree on a sorted list), chain_sorted as repeated
   insertion, merge and the bottom-up merge sort through its runs, rings, and what one
   operation of a sequence conserves and keeps sorted. *)
From PV Require Import Base.Tac Base.ListX ListM.ListMDefs.
From Coq Require Import Permutation.
Local Open Scope Z_scope.

Local Ltac cmp := unfold higher, lower in *.

Lemma desc_app a b : desc (a ++ b) <->
  desc a /\ desc b /\ Forall (fun x => Forall (fun y => prio y <= prio x) b) a.
Proof.
  induction a as [|x a IH]; cbn [app desc].
  - split; [intros H; repeat split; auto | tauto].
  - rewrite IH, Forall_app. split.
    + intros [[Ha Hb] [Hda [Hdb Hab]]]. repeat split; auto.
    + intros [[Ha Hda] [Hdb Hab]]. inv Hab. repeat split; auto.
Qed.

Lemma asc_app a b : asc (a ++ b) <->
  asc a /\ asc b /\ Forall (fun x => Forall (fun y => prio x <= prio y) b) a.
Proof.
  induction a as [|x a IH]; cbn [app asc].
  - split; [intros H; repeat split; auto | tauto].
  - rewrite IH, Forall_app. split.
    + intros [[Ha Hb] [Hda [Hdb Hab]]]. repeat split; auto.
    + intros [[Ha Hda] [Hdb Hab]]. inv Hab. repeat split; auto.
Qed.

Lemma desc_rev l : desc (rev l) <-> asc l.
Proof.
  induction l as [|x l IH]; cbn [rev desc asc]; [tauto|].
  rewrite desc_app, IH. cbn [desc]. split.
  - intros [Hl [_ Hf]]. split; auto.
    rewrite Forall_forall in *. intros y Hy. specialize (Hf y (proj1 (in_rev l y) Hy)). inv Hf. auto.
  - intros [Hf Hl]. repeat split; auto.
    rewrite Forall_forall in *. intros y Hy. constructor; auto. apply Hf, in_rev, Hy.
Qed.

Lemma asc_rev l : asc (rev l) <-> desc l.
Proof. rewrite <- (rev_involutive l) at 2. symmetry. apply desc_rev. Qed.

(* inserting x between a part >= x and a part <= x *)
Lemma desc_insert l1 l2 x : desc (l1 ++ l2) ->
  Forall (fun e => prio x <= prio e) l1 -> Forall (fun e => prio e <= prio x) l2 ->
  desc (l1 ++ x :: l2).
Proof.
  rewrite !desc_app. intros [H1 [H2 H12]] Hge Hle. cbn [desc]. repeat split; auto.
  rewrite Forall_forall in *. intros y Hy. constructor; auto.
Qed.

Lemma pop_front_push_front l x : pop_front (push_front l x) = (Some x, l).
Proof. reflexivity. Qed.

Lemma pop_back_push_back l x : pop_back (push_back l x) = (Some x, l).
Proof.
  unfold pop_back, push_back. destruct (l ++ [x]) eqn:E.
  - destruct l; discriminate.
  - rewrite <- E, last_last, removelast_last. reflexivity.
Qed.

Lemma pop_front_push_back l x : l <> [] ->
  pop_front (push_back l x) = (fst (pop_front l), push_back (snd (pop_front l)) x).
Proof. destruct l; [congruence | reflexivity]. Qed.

Lemma pop_back_push_front l x : l <> [] ->
  pop_back (push_front l x) = (fst (pop_back l), push_front (snd (pop_back l)) x).
Proof.
  intros H. destruct (exists_last H) as [l' [y ->]]. fold (push_back l' y).
  rewrite (pop_back_push_back l' y). apply (pop_back_push_back (x :: l') y).
Qed.

Lemma pop_back_spec l : l <> [] ->
  exists x l', pop_back l = (Some x, l') /\ l = l' ++ [x].
Proof.
  intros H. destruct (exists_last H) as [l' [x ->]]. exists x, l'.
  split; [apply pop_back_push_back | reflexivity].
Qed.

(* draining from the front returns the items in list order *)
Fixpoint drain_front (n : nat) (l : list item) : list item :=
  match n with
  | O => []
  | S m => match pop_front l with (Some x, l') => x :: drain_front m l' | (None, _) => [] end
  end.
Lemma drain_front_all l : drain_front (length l) l = l.
Proof. induction l as [|x l IH]; cbn; congruence. Qed.

Lemma chain_back_is_pushes l xs : chain_back l xs = fold_left push_back xs l.
Proof.
  revert l. induction xs as [|x xs IH]; intros l; cbn [fold_left]; unfold chain_back in *.
  - apply app_nil_r.
  - rewrite <- IH. unfold push_back. now rewrite <- app_assoc.
Qed.

Lemma chain_front_is_pushes l xs : chain_front l xs = fold_right (fun x l => push_front l x) l xs.
Proof. induction xs as [|x xs IH]; cbn; unfold chain_front, push_front in *; congruence. Qed.

Lemma ins_fwd_skip l x : ins_fwd l x = fst (skip_ge x l) ++ x :: snd (skip_ge x l).
Proof.
  induction l as [|e l IH]; cbn [ins_fwd skip_ge]; auto.
  destruct (higher x e); auto. destruct (skip_ge x l). cbn [fst snd app] in *. now rewrite IH.
Qed.

Lemma skip_ge_app x l : l = fst (skip_ge x l) ++ snd (skip_ge x l).
Proof.
  induction l as [|e l IH]; cbn [skip_ge]; auto.
  destruct (higher x e); auto. destruct (skip_ge x l). cbn [fst snd app] in *. now rewrite <- IH.
Qed.

Lemma skip_ge_fst x l : Forall (fun e => prio x <= prio e) (fst (skip_ge x l)).
Proof.
  induction l as [|e l IH]; cbn [skip_ge]; [cbn; auto|].
  destruct (higher x e) eqn:E; [cbn; auto|]. destruct (skip_ge x l). cbn [fst] in *.
  constructor; auto. cmp. lia.
Qed.

Lemma skip_ge_snd x l : match snd (skip_ge x l) with [] => True | e :: _ => prio e < prio x end.
Proof.
  induction l as [|e l IH]; cbn [skip_ge]; [cbn; auto|].
  destruct (higher x e) eqn:E; cbn [snd]; [cmp; lia|]. now destruct (skip_ge x l).
Qed.

Lemma desc_head_lt l e x : desc (e :: l) -> prio e < prio x -> Forall (fun y => prio y < prio x) (e :: l).
Proof.
  cbn [desc]. intros [Hf _] Hlt. constructor; auto.
  rewrite Forall_forall in *. intros y Hy. specialize (Hf y Hy). cbn beta in Hf. lia.
Qed.

(* the forward scan splits the list in two and puts x in between; on a sorted
   list the first part is >= x and the second < x *)
Lemma ins_fwd_spec l x : exists l1 l2, l = l1 ++ l2 /\ ins_fwd l x = l1 ++ x :: l2 /\
  Forall (fun e => prio x <= prio e) l1 /\ (desc l -> Forall (fun e => prio e < prio x) l2).
Proof.
  exists (fst (skip_ge x l)), (snd (skip_ge x l)).
  split; [apply skip_ge_app|]. split; [apply ins_fwd_skip|]. split; [apply skip_ge_fst|].
  intros Hd. rewrite (skip_ge_app x l), desc_app in Hd. destruct Hd as [_ [Hd _]].
  pose proof (skip_ge_snd x l) as Hs. destruct (snd (skip_ge x l)); auto.
  now apply desc_head_lt.
Qed.

Lemma ins_fwd_app_ge l1 l2 x : Forall (fun e => prio x <= prio e) l1 ->
  ins_fwd (l1 ++ l2) x = l1 ++ ins_fwd l2 x.
Proof.
  induction l1 as [|e l1 IH]; intros H; cbn [app ins_fwd]; auto. inv H.
  destruct (higher x e) eqn:E; [cmp; lia|]. now rewrite IH.
Qed.

Lemma ins_fwd_all_lt l x : Forall (fun e => prio e < prio x) l -> ins_fwd l x = x :: l.
Proof. destruct l as [|e l]; intros H; cbn [ins_fwd]; auto. inv H. destruct (higher x e) eqn:E; auto. cmp. lia. Qed.

Lemma ins_fwd_place l1 l2 x : Forall (fun e => prio x <= prio e) l1 -> Forall (fun e => prio e < prio x) l2 ->
  ins_fwd (l1 ++ l2) x = l1 ++ x :: l2.
Proof. intros H1 H2. now rewrite ins_fwd_app_ge, ins_fwd_all_lt. Qed.

Lemma ins_rev_spec r x : exists r1 r2, r = r1 ++ r2 /\ ins_rev r x = r1 ++ x :: r2 /\
  Forall (fun e => prio e < prio x) r1 /\ match r2 with [] => True | e :: _ => prio x <= prio e end.
Proof.
  induction r as [|e r IH]; cbn [ins_rev].
  - exists [], []. repeat split; auto.
  - destruct (higher x e) eqn:E.
    + destruct IH as [r1 [r2 [-> [-> [H1 H2]]]]]. exists (e :: r1), r2. repeat split; auto.
      constructor; auto. cmp. lia.
    + exists [], (e :: r). repeat split; auto. cmp. lia.
Qed.

(* the backward scan also splits the list and puts x in between *)
Lemma ins_bwd_spec l x : exists l1 l2, l = l1 ++ l2 /\ ins_bwd l x = l1 ++ x :: l2 /\
  Forall (fun e => prio e < prio x) l2 /\ (desc l -> Forall (fun e => prio x <= prio e) l1).
Proof.
  unfold ins_bwd. destruct (ins_rev_spec (rev l) x) as [r1 [r2 [Hr [-> [H1 H2]]]]].
  exists (rev r2), (rev r1).
  assert (Hl : l = rev r2 ++ rev r1) by (rewrite <- rev_app_distr, <- Hr; symmetry; apply rev_involutive).
  split; auto. split.
  { rewrite rev_app_distr. cbn [rev]. now rewrite <- app_assoc. }
  split. { rewrite Forall_forall in *. intros y Hy. apply H1, in_rev, Hy. }
  intros Hd. rewrite Hl, desc_app in Hd. destruct Hd as [Hd _].
  destruct r2 as [|e r2]; cbn [rev]; auto.
  cbn [rev] in Hd. rewrite desc_app in Hd. destruct Hd as [_ [_ Hf]].
  rewrite Forall_app. split; [|constructor; auto].
  rewrite Forall_forall in *. intros y Hy. specialize (Hf y Hy). inv Hf. lia.
Qed.

(* on a sorted list both scan directions insert at the same place *)
Lemma ins_bwd_fwd l x : desc l -> ins_bwd l x = ins_fwd l x.
Proof.
  intros Hd. destruct (ins_bwd_spec l x) as [l1 [l2 [Hl [-> [H2 H1]]]]].
  subst l. symmetry. apply ins_fwd_place; auto.
Qed.

Lemma push_sorted_any l x : exists l1 l2, l = l1 ++ l2 /\ push_sorted l x = l1 ++ x :: l2.
Proof.
  unfold push_sorted. destruct l as [|h t]; [exists [], []; auto|].
  destruct (_ <? _).
  - destruct (ins_fwd_spec (h :: t) x) as [l1 [l2 [H [H' _]]]]. eauto.
  - destruct (ins_bwd_spec (h :: t) x) as [l1 [l2 [H [H' _]]]]. eauto.
Qed.

Lemma push_sorted_desc_eq l x : desc l -> push_sorted l x = ins_fwd l x.
Proof.
  intros Hd. unfold push_sorted. destruct l as [|h t]; auto.
  destruct (_ <? _); auto. now apply ins_bwd_fwd.
Qed.

Lemma push_sorted_placement l x : desc l -> exists l1 l2, l = l1 ++ l2 /\ push_sorted l x = l1 ++ x :: l2 /\
  Forall (fun e => prio x <= prio e) l1 /\ Forall (fun e => prio e < prio x) l2.
Proof.
  intros Hd. rewrite push_sorted_desc_eq by auto.
  destruct (ins_fwd_spec l x) as [l1 [l2 [H [H' [H1 H2]]]]]. exists l1, l2. auto.
Qed.

Lemma ins_fwd_desc l x : desc l -> desc (ins_fwd l x).
Proof.
  intros Hd. destruct (ins_fwd_spec l x) as [l1 [l2 [H [-> [H1 H2]]]]]. subst l.
  apply desc_insert; auto. eapply Forall_impl; [|exact (H2 Hd)]. intros; cbn beta in *; lia.
Qed.

Lemma push_sorted_desc l x : desc l -> desc (push_sorted l x).
Proof. intros Hd. rewrite push_sorted_desc_eq by auto. now apply ins_fwd_desc. Qed.

Lemma push_sorted_perm l x : Permutation (push_sorted l x) (x :: l).
Proof.
  destruct (push_sorted_any l x) as [l1 [l2 [-> ->]]]. symmetry. apply Permutation_middle.
Qed.

Lemma withp_app v a b : withp v (a ++ b) = withp v a ++ withp v b.
Proof. apply filter_app. Qed.

Lemma withp_none v l : Forall (fun e => prio e <> v) l -> withp v l = [].
Proof.
  induction l as [|e l IH]; intros H; cbn; auto. inv H.
  destruct (prio e =? v) eqn:E; [lia|]. now apply IH.
Qed.

(* items of the priority of x: the old ones, then x *)
Lemma ins_fwd_withp l x v : desc l ->
  withp v (ins_fwd l x) = withp v l ++ (if prio x =? v then [x] else []).
Proof.
  intros Hd. destruct (ins_fwd_spec l x) as [l1 [l2 [H [-> [H1 H2]]]]]. subst l.
  specialize (H2 Hd). rewrite !withp_app. cbn [withp filter]. fold (withp v l2).
  destruct (prio x =? v) eqn:E; [|now rewrite app_nil_r].
  (* what follows x is below it and holds no item of priority v *)
  rewrite (withp_none v l2), app_nil_r; [reflexivity|].
  eapply Forall_impl; [|exact H2]. intros e He; cbn beta in *; lia.
Qed.

Lemma chain_step_perm x pre1 suf1 tl :
  Permutation ((pre1 ++ fst (skip_ge x suf1)) ++ x :: snd (skip_ge x suf1) ++ tl) ((pre1 ++ suf1) ++ x :: tl).
Proof.
  rewrite (skip_ge_app x suf1) at 3. rewrite <- !app_assoc.
  do 2 apply Permutation_app_head. apply Permutation_middle.
Qed.

Lemma chain_go_perm items : forall pre p post,
  Permutation (chain_go pre p post items) (pre ++ p :: post ++ items).
Proof.
  induction items as [|x items IH]; intros pre p post; cbn [chain_go].
  - now rewrite app_nil_r.
  - destruct (higher x p).
    + pose proof (chain_step_perm x [] (pre ++ p :: post) items) as H.
      destruct (skip_ge x (pre ++ p :: post)) as [sk rest]. cbn [fst snd] in H.
      rewrite IH, H. cbn [app]. now rewrite <- app_assoc.
    + pose proof (chain_step_perm x pre (p :: post) items) as H.
      destruct (skip_ge x (p :: post)) as [sk rest]. cbn [fst snd] in H.
      rewrite IH, H. now rewrite <- app_assoc.
Qed.

Lemma chain_sorted_perm l items : Permutation (chain_sorted l items) (l ++ items).
Proof.
  unfold chain_sorted. destruct items as [|x items]; [now rewrite app_nil_r|].
  destruct l as [|h t].
  - rewrite chain_go_perm. reflexivity.
  - rewrite chain_go_perm. cbn [app].
    replace (removelast (h :: t) ++ last (h :: t) h :: x :: items)
      with ((removelast (h :: t) ++ [last (h :: t) h]) ++ x :: items) by (now rewrite <- app_assoc).
    now rewrite <- app_removelast_last by discriminate.
Qed.

Lemma chain_go_fold items : forall pre p post, desc (pre ++ p :: post) ->
  chain_go pre p post items = fold_left ins_fwd items (pre ++ p :: post).
Proof.
  induction items as [|x items IH]; intros pre p post Hd; cbn [chain_go fold_left]; auto.
  pose proof (ins_fwd_desc _ x Hd) as Hd'.
  destruct (higher x p) eqn:E.
  - rewrite ins_fwd_skip in Hd' |- *.
    destruct (skip_ge x (pre ++ p :: post)) as [sk rest]. cbn [fst snd app] in *. now apply IH.
  - (* x is not above p, hence not above what precedes p: the scan from p finds the same place *)
    assert (Hpre : Forall (fun e => prio x <= prio e) pre).
    { rewrite desc_app in Hd. destruct Hd as [_ [_ Hf]]. rewrite Forall_forall in *.
      intros y Hy. specialize (Hf y Hy). inv Hf. cmp. lia. }
    rewrite (ins_fwd_app_ge pre (p :: post) x Hpre), (ins_fwd_skip (p :: post) x) in Hd' |- *.
    destruct (skip_ge x (p :: post)) as [sk rest]. cbn [fst snd] in *.
    rewrite app_assoc in *. now apply IH.
Qed.

(* into a sorted list, chain_sorted is the succession of stable sorted insertions *)
Lemma chain_sorted_fold l items : desc l -> chain_sorted l items = fold_left ins_fwd items l.
Proof.
  intros Hd. unfold chain_sorted. destruct items as [|x items]; auto.
  destruct l as [|h t].
  - rewrite chain_go_fold by (cbn; auto). reflexivity.
  - rewrite chain_go_fold; rewrite <- (app_removelast_last h (l := h :: t)) by discriminate; auto.
Qed.

Lemma fold_push_sorted items : forall l, desc l -> fold_left push_sorted items l = fold_left ins_fwd items l.
Proof.
  induction items as [|x items IH]; intros l Hd; cbn [fold_left]; auto.
  rewrite push_sorted_desc_eq by auto. apply IH, ins_fwd_desc, Hd.
Qed.

Lemma fold_ins_desc items : forall l, desc l -> desc (fold_left ins_fwd items l).
Proof. induction items as [|x items IH]; intros l Hd; cbn [fold_left]; auto. apply IH, ins_fwd_desc, Hd. Qed.

Lemma fold_ins_withp v items : forall l, desc l ->
  withp v (fold_left ins_fwd items l) = withp v l ++ withp v items.
Proof.
  induction items as [|x items IH]; intros l Hd; cbn [fold_left].
  - cbn. now rewrite app_nil_r.
  - rewrite IH by (now apply ins_fwd_desc). rewrite ins_fwd_withp by auto.
    rewrite <- app_assoc. f_equal. cbn [withp filter]. now destruct (prio x =? v).
Qed.

Lemma chain_sorted_desc l items : desc l -> desc (chain_sorted l items).
Proof. intros Hd. rewrite chain_sorted_fold by auto. now apply fold_ins_desc. Qed.

Lemma chain_sorted_stable l items v : desc l ->
  withp v (chain_sorted l items) = withp v l ++ withp v items.
Proof. intros Hd. rewrite chain_sorted_fold by auto. now apply fold_ins_withp. Qed.

Lemma merge_nil_r p : merge p [] = p.
Proof. destruct p; reflexivity. Qed.
Lemma merge_cons a p b q :
  merge (a :: p) (b :: q) = if lower a b then a :: merge p (b :: q) else b :: merge (a :: p) q.
Proof. reflexivity. Qed.

Lemma merge_ind (P : list item -> list item -> list item -> Prop) :
  (forall q, P [] q q) -> (forall p, P p [] p) ->
  (forall a p b q, lower a b = true -> P p (b :: q) (merge p (b :: q)) -> P (a :: p) (b :: q) (a :: merge p (b :: q))) ->
  (forall a p b q, lower a b = false -> P (a :: p) q (merge (a :: p) q) -> P (a :: p) (b :: q) (b :: merge (a :: p) q)) ->
  forall p q, P p q (merge p q).
Proof.
  intros Hn1 Hn2 Hl Hr. induction p as [|a p IHp]; [apply Hn1|].
  induction q as [|b q IHq]; [apply Hn2|].
  rewrite merge_cons. destruct (lower a b) eqn:E; auto.
Qed.

Lemma merge_perm p q : Permutation (merge p q) (p ++ q).
Proof.
  apply (merge_ind (fun p q m => Permutation m (p ++ q))); intros.
  - reflexivity.
  - now rewrite app_nil_r.
  - cbn. now constructor.
  - rewrite H0. apply Permutation_middle.
Qed.

Lemma merge_length p q : length (merge p q) = (length p + length q)%nat.
Proof. rewrite (Permutation_length (merge_perm p q)). apply app_length. Qed.

Lemma merge_Forall (P : item -> Prop) p q : Forall P p -> Forall P q -> Forall P (merge p q).
Proof. intros Hp Hq. eapply Permutation_Forall; [symmetry; apply merge_perm|]. apply Forall_app; auto. Qed.

Lemma asc_lower (a b : item) q : prio a <= prio b -> asc (b :: q) -> Forall (fun e => prio a <= prio e) (b :: q).
Proof.
  intros Hab [Hq _]. constructor; [exact Hab|]. eapply Forall_impl; [|exact Hq]. intros e He; cbn beta in *; lia.
Qed.

Lemma merge_asc p q : asc p -> asc q -> asc (merge p q).
Proof.
  apply (merge_ind (fun p q m => asc p -> asc q -> asc m)); auto.
  - intros a p' b q' E IH Hp Hq. split; [|apply IH; [apply Hp|exact Hq]].
    apply merge_Forall; [apply Hp|apply asc_lower; [cmp; lia|exact Hq]].
  - intros a p' b q' E IH Hp Hq. split; [|apply IH; [exact Hp|apply Hq]].
    apply merge_Forall; [apply asc_lower; [cmp; lia|exact Hp]|apply Hq].
Qed.

(* on ties the item of q goes first: all the items of priority v of q come out before those of p *)
Lemma merge_withp v p q : asc p -> asc q -> withp v (merge p q) = withp v q ++ withp v p.
Proof.
  apply (merge_ind (fun p q m => asc p -> asc q -> withp v m = withp v q ++ withp v p)).
  - intros. now rewrite app_nil_r.
  - reflexivity.
  - intros a p' b q' E IH Hp Hq. cbn [withp filter]. fold (withp v (merge p' (b :: q'))).
    rewrite IH by (auto; apply Hp). fold (withp v p') (withp v q').
    destruct (prio a =? v) eqn:Ea; auto.
    (* a is below b, hence below all of q: q holds no item of priority v *)
    assert (Hn : withp v (b :: q') = []).
    { apply withp_none. eapply Forall_impl; [|exact (asc_lower b b q' (Z.le_refl _) Hq)].
      intros e He; cbn beta in *; cmp; lia. }
    change ((if prio b =? v then b :: withp v q' else withp v q')) with (withp v (b :: q')).
    now rewrite Hn.
  - intros a p' b q' E IH Hp Hq. cbn [withp filter]. fold (withp v (merge (a :: p') q')).
    rewrite IH by (auto; apply Hq). fold (withp v q').
    now destruct (prio b =? v).
Qed.

Fixpoint merge_pairs (rs : list (list item)) : list (list item) :=
  match rs with
  | a :: b :: rest => merge a b :: merge_pairs rest
  | _ => rs
  end.

Lemma pairs_ind (P : list (list item) -> Prop) :
  P [] -> (forall a, P [a]) -> (forall a b rest, P rest -> P (a :: b :: rest)) -> forall rs, P rs.
Proof.
  intros H0 H1 H2. fix IH 1.
  intros [|a [|b rest]]; [exact H0 | exact (H1 a) | exact (H2 a b rest (IH rest))].
Qed.

(* all runs have k items except the last, which has between 1 and k *)
Inductive regular (k : nat) : list (list item) -> Prop :=
| reg_nil : regular k []
| reg_last r : r <> [] -> (length r <= k)%nat -> regular k [r]
| reg_cons r rs : length r = k -> rs <> [] -> regular k rs -> regular k (r :: rs).

Lemma merge_pairs_nil rs : merge_pairs rs = [] -> rs = [].
Proof. destruct rs as [|a [|b rest]]; cbn; congruence. Qed.

Lemma merge_nonnil a b : a <> [] -> merge a b <> [].
Proof. intros Ha H. apply (f_equal (@length _)) in H. rewrite merge_length in H. destruct a; cbn in *; [congruence|lia]. Qed.

Lemma regular_merge_pairs k rs : (1 <= k)%nat -> regular k rs -> regular (k + k) (merge_pairs rs).
Proof.
  intros Hk. induction rs as [| a | a b rest IH] using pairs_ind; intros Hr; cbn [merge_pairs].
  - constructor.
  - inv Hr; [constructor; auto; lia | congruence].
  - inv Hr. inv H3.
    + constructor; [|rewrite merge_length; lia]. apply merge_nonnil. destruct a; cbn in *; [lia|discriminate].
    + apply reg_cons; [rewrite merge_length; lia | | auto].
      intros E. apply merge_pairs_nil in E. congruence.
Qed.

Lemma merge_pairs_length rs : (2 * length (merge_pairs rs) <= length rs + 1)%nat.
Proof. induction rs as [| a | a b rest IH] using pairs_ind; cbn [merge_pairs length]; lia. Qed.

Lemma pass_nil fuel k : pass fuel k [] = ([], O).
Proof. destruct fuel; reflexivity. Qed.

(* the first k items of the concatenation of regular runs are the first run *)
Lemma regular_split k r rs : (1 <= k)%nat -> regular k (r :: rs) ->
  r <> [] /\ firstn k (r ++ concat rs) = r /\ skipn k (r ++ concat rs) = concat rs /\ regular k rs.
Proof.
  intros Hk Hr. inversion Hr as [|r' Hne Hlen|r' rs' Hlen Hne Hreg]; subst.
  - cbn [concat]. rewrite app_nil_r.
    repeat split; [exact Hne|apply firstn_all2; lia|apply skipn_all2; lia|constructor].
  - repeat split; [destruct r; cbn in *; [lia|discriminate]| | |exact Hreg].
    + rewrite firstn_app, Nat.sub_diag, firstn_O, app_nil_r. apply firstn_all.
    + rewrite skipn_app, Nat.sub_diag, skipn_all. reflexivity.
Qed.

Lemma pass_runs k : (1 <= k)%nat -> forall rs fuel, regular k rs -> (length (concat rs) <= fuel)%nat ->
  pass fuel k (concat rs) = (concat (merge_pairs rs), length (merge_pairs rs)).
Proof.
  intros Hk. induction rs as [| a | a b rest IH] using pairs_ind; intros fuel Hr Hf.
  - apply pass_nil.
  - destruct (regular_split k a [] Hk Hr) as (Hne & E1 & E2 & _). cbn [concat merge_pairs length] in *.
    destruct a as [|x a]; [congruence|]. destruct fuel as [|f]; [cbn in Hf; lia|]. cbn [pass app] in *.
    now rewrite E1, E2, skipn_nil, pass_nil, firstn_nil, merge_nil_r.
  - destruct (regular_split k a (b :: rest) Hk Hr) as (Hne & E1 & E2 & Hr').
    destruct (regular_split k b rest Hk Hr') as (_ & E3 & E4 & Hr''). cbn [concat merge_pairs length] in *.
    destruct a as [|x a]; [congruence|]. destruct fuel as [|f]; [cbn in Hf; lia|]. cbn [pass app] in *.
    rewrite E1, E2, E3, E4, IH; auto.
    cbn [length] in Hf. rewrite !app_length in Hf. lia.
Qed.

(* an invariant of the runs preserved by pairwise merging holds of the final single run *)
Lemma msort_loop_inv (P : list (list item) -> Prop) :
  (forall rs, P rs -> P (merge_pairs rs)) ->
  forall fuel k rs, (1 <= k)%nat -> regular k rs -> rs <> [] -> (length rs <= fuel)%nat -> P rs ->
  P [msort_loop fuel k (concat rs)].
Proof.
  intros HP. induction fuel as [|f IH]; intros k rs Hk Hr Hne Hf HPr.
  - destruct rs; cbn in *; [congruence|lia].
  - cbn [msort_loop]. rewrite (pass_runs k Hk rs _ Hr) by lia.
    pose proof (merge_pairs_length rs) as Hl.
    destruct (length (merge_pairs rs) <=? 1)%nat eqn:E.
    + pose proof (HP _ HPr) as HP'. destruct (merge_pairs rs) as [|r [|r' t]] eqn:Em.
      * apply merge_pairs_nil in Em. congruence.
      * cbn [concat]. now rewrite app_nil_r.
      * cbn [length] in E. apply Nat.leb_le in E. lia.
    + apply Nat.leb_gt in E. apply IH; auto; try lia.
      * now apply regular_merge_pairs.
      * intros Em. rewrite Em in E. cbn in E. lia.
Qed.

Definition singles (l : list item) : list (list item) := map (fun x => [x]) l.
Lemma concat_singles l : concat (singles l) = l.
Proof. unfold singles. induction l as [|x l IH]; cbn [map concat app]; congruence. Qed.
Lemma regular_singles l : regular 1 (singles l).
Proof.
  induction l as [|x [|y l] IH]; cbn [singles map] in *; [constructor | constructor; [discriminate | auto] |].
  apply reg_cons; auto. discriminate.
Qed.

Lemma sort_inv (P : list (list item) -> Prop) l :
  (forall rs, P rs -> P (merge_pairs rs)) -> l <> [] -> P (singles l) -> P [sort l].
Proof.
  intros HP Hne HP0. unfold sort. destruct l as [|x l]; [congruence|].
  rewrite <- (concat_singles (x :: l)) at 2.
  apply msort_loop_inv; auto.
  - apply regular_singles.
  - discriminate.
  - unfold singles. now rewrite map_length.
Qed.

(* the invariant: runs are non-decreasing, hold the items of the input, and the
   items of each priority appear, run after run, in the reverse of the input order *)
Definition runs_ok (l : list item) (rs : list (list item)) : Prop :=
  Forall asc rs /\ Permutation (concat rs) l /\
  forall v, flat_map (fun r => rev (withp v r)) rs = withp v l.

Lemma merge_pairs_asc rs : Forall asc rs -> Forall asc (merge_pairs rs).
Proof.
  induction rs as [| a | a b rest IH] using pairs_ind; cbn [merge_pairs]; auto.
  intros H. inv H. inv H3. constructor; auto. now apply merge_asc.
Qed.

Lemma merge_pairs_perm rs : Permutation (concat (merge_pairs rs)) (concat rs).
Proof.
  induction rs as [| a | a b rest IH] using pairs_ind; cbn [merge_pairs concat]; auto.
  rewrite IH, merge_perm. now rewrite app_assoc.
Qed.

Lemma merge_pairs_withp v rs : Forall asc rs ->
  flat_map (fun r => rev (withp v r)) (merge_pairs rs) = flat_map (fun r => rev (withp v r)) rs.
Proof.
  induction rs as [| a | a b rest IH] using pairs_ind; cbn [merge_pairs flat_map]; auto.
  intros H. inv H. inv H3. rewrite IH by auto. rewrite merge_withp by auto.
  now rewrite rev_app_distr, app_assoc.
Qed.

Lemma runs_ok_merge_pairs l rs : runs_ok l rs -> runs_ok l (merge_pairs rs).
Proof.
  intros [Hs [Hp Hw]]. split; [now apply merge_pairs_asc|]. split.
  - now rewrite merge_pairs_perm.
  - intros v. rewrite merge_pairs_withp by auto. apply Hw.
Qed.

Lemma runs_ok_singles l : runs_ok l (singles l).
Proof.
  split; [|split].
  - unfold singles. apply Forall_map, Forall_forall. intros x _. cbn. auto.
  - now rewrite concat_singles.
  - intros v. unfold singles. induction l as [|x l IH]; [reflexivity|].
    cbn [map flat_map]. rewrite IH. cbn [withp filter]. now destruct (prio x =? v).
Qed.

Lemma sort_ok l : asc (sort l) /\ Permutation (sort l) l /\ forall v, withp v (sort l) = rev (withp v l).
Proof.
  destruct l as [|x l]; [cbn; auto|].
  destruct (sort_inv (runs_ok (x :: l)) (x :: l)) as [Hs [Hp Hw]].
  - apply runs_ok_merge_pairs.
  - discriminate.
  - apply runs_ok_singles.
  - inv Hs. cbn [concat flat_map] in *. rewrite app_nil_r in *. repeat split; auto.
    intros v. specialize (Hw v). rewrite app_nil_r in Hw. rewrite <- Hw. now rewrite rev_involutive.
Qed.

Lemma withp_in v l x : In x (withp v l) <-> In x l /\ prio x = v.
Proof. unfold withp. rewrite filter_In. split; intros [H1 H2]; split; auto; lia. Qed.

(* a non-decreasing list is determined by its items of each priority *)
Lemma asc_determined r1 : forall r2, asc r1 -> asc r2 -> (forall v, withp v r1 = withp v r2) -> r1 = r2.
Proof.
  (* the head of the one list occurs in the other, hence is not below its head *)
  assert (Hhd : forall a s1 b s2, asc (b :: s2) -> (forall v, withp v (a :: s1) = withp v (b :: s2)) ->
                prio b <= prio a).
  { intros a s1 b r2 [Hf _] Hw.
    destruct (proj1 (withp_in (prio a) (b :: r2) a)) as [[<-|Hin] _]; [|lia|].
    - rewrite <- Hw. apply withp_in. cbn; auto.
    - rewrite Forall_forall in Hf. apply Hf, Hin. }
  induction r1 as [|a r1 IH]; intros r2 H1 H2 Hw.
  - destruct r2 as [|b r2]; auto. specialize (Hw (prio b)). cbn in Hw. rewrite Z.eqb_refl in Hw. discriminate.
  - destruct r2 as [|b r2].
    { specialize (Hw (prio a)). cbn in Hw. rewrite Z.eqb_refl in Hw. discriminate. }
    assert (Hab : prio a = prio b).
    { pose proof (Hhd a r1 b r2 H2 Hw). pose proof (Hhd b r2 a r1 H1 (fun v => eq_sym (Hw v))). lia. }
    pose proof (Hw (prio a)) as Hwa. cbn [withp filter] in Hwa.
    rewrite Z.eqb_refl in Hwa. rewrite <- Hab, Z.eqb_refl in Hwa. inv Hwa.
    f_equal. apply IH; [apply H1|apply H2|]. intros v. specialize (Hw v). cbn [withp filter] in Hw.
    fold (withp v r1) (withp v r2) in Hw. destruct (prio b =? v); congruence.
Qed.

Lemma withp_rev v l : withp v (rev l) = rev (withp v l).
Proof.
  induction l as [|x l IH]; cbn [rev]; auto. rewrite withp_app, IH. cbn [withp filter].
  destruct (prio x =? v); cbn [rev]; auto. now rewrite app_nil_r.
Qed.

Lemma rins_spec l x : exists l1 l2, l = l1 ++ l2 /\ rins l x = l1 ++ x :: l2 /\
  Forall (fun e => prio x < prio e) l1 /\ (desc l -> Forall (fun e => prio e <= prio x) l2).
Proof.
  induction l as [|e l IH]; cbn [rins].
  - exists [], []. repeat split; auto.
  - destruct (lower x e) eqn:E.
    + destruct IH as [l1 [l2 [-> [-> [H1 H2]]]]]. exists (e :: l1), l2. repeat split; auto.
      * constructor; auto. cmp. lia.
      * intros Hd. apply H2. cbn [desc] in Hd. tauto.
    + exists [], (e :: l). repeat split; auto. intros [Hf _]. constructor; [cmp; lia|].
      eapply Forall_impl; [|apply Hf]. intros; cbn beta in *. cmp. lia.
Qed.

Lemma rins_desc l x : desc l -> desc (rins l x).
Proof.
  intros Hd. destruct (rins_spec l x) as [l1 [l2 [H [-> [H1 H2]]]]]. subst l.
  apply desc_insert; auto. eapply Forall_impl; [|apply H1]. intros; cbn beta in *; lia.
Qed.

Lemma rins_perm l x : Permutation (rins l x) (x :: l).
Proof. destruct (rins_spec l x) as [l1 [l2 [-> [-> _]]]]. symmetry. apply Permutation_middle. Qed.

Lemma remove_at_perm k l : match fst (remove_at k l) with
  | None => snd (remove_at k l) = l
  | Some (x, _) => Permutation l (x :: snd (remove_at k l)) end.
Proof.
  unfold remove_at. destruct (nth_error l k) eqn:E; cbn [fst snd]; auto.
  rewrite (split_nth l k i E) at 1. symmetry. apply Permutation_middle.
Qed.

Lemma desc_sub a b c : desc (a ++ b ++ c) -> desc (a ++ c).
Proof.
  rewrite !desc_app. intros [Ha [[Hb [Hc _]] Hf]]. repeat split; auto.
  eapply Forall_impl; [|apply Hf]. intros x Hx. cbn beta in Hx. rewrite Forall_app in Hx. tauto.
Qed.

Lemma remove_at_desc k l : desc l -> desc (snd (remove_at k l)).
Proof.
  unfold remove_at. destruct (nth_error l k) eqn:E; cbn [snd]; auto.
  intros Hd. rewrite (split_nth l k i E) in Hd.
  change (i :: skipn (S k) l) with ([i] ++ skipn (S k) l) in Hd. now apply desc_sub in Hd.
Qed.

Lemma add_before_perm k l x : Permutation (add_before k l x) (x :: l).
Proof.
  unfold add_before. rewrite <- (firstn_skipn k l) at 3. symmetry. apply Permutation_middle.
Qed.
Lemma add_after_perm k l x : Permutation (add_after k l x) (x :: l).
Proof.
  unfold add_after. destruct (k <? length l)%nat; auto.
  rewrite <- (firstn_skipn (S k) l) at 3. symmetry. apply Permutation_middle.
Qed.

Lemma pop_front_desc l : desc l -> desc (snd (pop_front l)).
Proof. destruct l; cbn; tauto. Qed.
Lemma pop_back_desc l : desc l -> desc (snd (pop_back l)).
Proof.
  destruct l as [|y l]; [cbn; auto|]. intros Hd.
  destruct (pop_back_spec (y :: l)) as [x [l' [E Hl]]]; [discriminate|]. rewrite E. cbn [snd].
  rewrite Hl, desc_app in Hd. tauto.
Qed.

Lemma list_op_conserves s L v ins outs : Permutation (ins ++ getl s L) (outs ++ v) ->
  Permutation (contents s ++ ins) (contents (setl s L v) ++ outs).
Proof.
  intros H. rewrite (Permutation_app_comm ins), (Permutation_app_comm outs) in H.
  unfold contents, setl, getl in *. destruct L; cbn [l0 l1 ring].
  - rewrite <- !app_assoc. apply Permutation_app_head.
    rewrite (Permutation_app_comm (ring s)), (Permutation_app_comm (ring s) outs), !app_assoc.
    now apply Permutation_app_tail.
  - rewrite (Permutation_app_comm _ ins), (Permutation_app_comm _ outs), !app_assoc.
    do 2 apply Permutation_app_tail. now rewrite (Permutation_app_comm ins), (Permutation_app_comm outs).
Qed.

Lemma ring_op_conserves s v ins outs : Permutation (ins ++ ring s) (outs ++ v) ->
  Permutation (contents s ++ ins) (contents (setr s v) ++ outs).
Proof.
  intros H. rewrite (Permutation_app_comm ins), (Permutation_app_comm outs) in H.
  unfold contents, setr. cbn [l0 l1 ring]. rewrite <- !app_assoc.
  now do 2 apply Permutation_app_head.
Qed.

Lemma both_op_conserves s L v r' : Permutation (getl s L ++ ring s) (v ++ r') ->
  Permutation (contents s ++ []) (contents (setr (setl s L v) r') ++ []).
Proof.
  intros H. rewrite !app_nil_r. unfold contents, setr, setl, getl in *. destruct L; cbn [l0 l1 ring].
  - now apply Permutation_app_head.
  - rewrite Permutation_app_swap_app, H. apply Permutation_app_swap_app.
Qed.

(* one operation: what was there plus what came in = what is there plus what went out *)
Lemma step_conserves s o : Permutation (contents s ++ op_in o) (contents (fst (step s o)) ++ ret_out (snd (step s o))).
Proof.
  destruct o; cbn [step op_in fst snd ret_out].
  - (* PushFront *) apply list_op_conserves. reflexivity.
  - (* PushBack *) apply list_op_conserves, Permutation_cons_append.
  - (* PopFront *) destruct (getl s L) as [|x t] eqn:E; cbn [pop_front fst snd of_opt ret_out];
      apply list_op_conserves; rewrite E; reflexivity.
  - (* PopBack *) destruct (getl s L) as [|y t] eqn:E.
    + cbn [pop_back fst snd of_opt ret_out]. apply list_op_conserves. now rewrite E.
    + destruct (pop_back_spec (y :: t)) as [x [l' [Ep Hl]]]; [discriminate|]. rewrite Ep.
      cbn [fst snd of_opt ret_out]. apply list_op_conserves. rewrite E, Hl. symmetry. apply Permutation_cons_append.
  - (* ChainFront *) apply list_op_conserves. reflexivity.
  - (* ChainBack *) apply list_op_conserves. exact (Permutation_app_comm _ _).
  - (* PushSorted *) apply list_op_conserves. symmetry. apply push_sorted_perm.
  - (* ChainSorted *) apply list_op_conserves. rewrite chain_sorted_perm. exact (Permutation_app_comm _ _).
  - (* Sort *) apply list_op_conserves. symmetry. apply sort_ok.
  - (* Remove *) pose proof (remove_at_perm k (getl s L)) as H.
    destruct (remove_at k (getl s L)) as [[[x p]|] l']; cbn [fst snd ret_out] in *; apply list_op_conserves.
    + exact H.
    + now subst l'.
  - (* AddBefore *) apply list_op_conserves. symmetry. apply add_before_perm.
  - (* AddAfter *) apply list_op_conserves. symmetry. apply add_after_perm.
  - (* IsEmpty *) reflexivity.
  - (* Contains *) reflexivity.
  - (* Unchain *) cbn [unchain fst snd ret_out]. apply both_op_conserves. unfold ring_merge. cbn [app]. apply Permutation_app_comm.
  - (* RingPush *) apply ring_op_conserves, Permutation_cons_append.
  - (* RingPushSorted *) apply ring_op_conserves. symmetry. apply rins_perm.
  - (* RingChop *) destruct (ring s) as [|x t] eqn:E; cbn [ring_chop fst snd of_opt ret_out];
      apply ring_op_conserves; rewrite E; reflexivity.
  - (* RingMerge *) apply ring_op_conserves. exact (Permutation_app_comm _ _).
  - (* ChainRingFront *) cbn [fst snd ret_out]. apply both_op_conserves. unfold chain_front. rewrite app_nil_r. apply Permutation_app_comm.
  - (* ChainRingBack *) cbn [fst snd ret_out]. apply both_op_conserves. unfold chain_back. now rewrite app_nil_r.
  - (* ChainRingSorted *) cbn [fst snd ret_out]. apply both_op_conserves. now rewrite app_nil_r, chain_sorted_perm.
Qed.

Lemma run_conserves ops : forall s,
  Permutation (contents s ++ flat_map op_in ops)
              (contents (fst (run s ops)) ++ flat_map ret_out (snd (run s ops))).
Proof.
  induction ops as [|o ops IH]; intros s; cbn [run flat_map fst snd]; auto.
  pose proof (step_conserves s o) as Hs. destruct (step s o) as [s1 r]. cbn [fst snd] in Hs.
  specialize (IH s1). destruct (run s1 ops) as [s2 rs]. cbn [fst snd flat_map] in *.
  rewrite app_assoc, Hs, <- app_assoc.
  rewrite (Permutation_app_comm (ret_out r)), app_assoc, IH, <- app_assoc.
  apply Permutation_app_head, Permutation_app_comm.
Qed.

(* sequences of order-preserving operations keep both lists and the ring non-increasing *)
Definition all_sorted (s : state) : Prop := desc (l0 s) /\ desc (l1 s) /\ desc (ring s).

Lemma all_sorted_setl s L v : all_sorted s -> desc v -> all_sorted (setl s L v).
Proof. unfold all_sorted, setl. destruct L; cbn [l0 l1 ring]; tauto. Qed.
Lemma all_sorted_setr s v : all_sorted s -> desc v -> all_sorted (setr s v).
Proof. unfold all_sorted, setr. cbn [l0 l1 ring]; tauto. Qed.
Lemma all_sorted_getl s L : all_sorted s -> desc (getl s L).
Proof. unfold all_sorted, getl. destruct L; tauto. Qed.

Lemma step_sorted s o : keeps_sorted o = true -> keeps_ring_sorted o = true ->
  all_sorted s -> all_sorted (fst (step s o)).
Proof.
  intros K1 K2 Hs. pose proof Hs as [H0 [H1 Hr]].
  destruct o; try discriminate; cbn [step fst]; auto.
  - (* PopFront *) pose proof (pop_front_desc _ (all_sorted_getl s L Hs)).
    destruct (pop_front (getl s L)). cbn [fst snd] in *. now apply all_sorted_setl.
  - (* PopBack *) pose proof (pop_back_desc _ (all_sorted_getl s L Hs)).
    destruct (pop_back (getl s L)). cbn [fst snd] in *. now apply all_sorted_setl.
  - apply all_sorted_setl; auto. apply push_sorted_desc, all_sorted_getl, Hs.
  - apply all_sorted_setl; auto. apply chain_sorted_desc, all_sorted_getl, Hs.
  - (* Remove *) pose proof (remove_at_desc k _ (all_sorted_getl s L Hs)).
    destruct (remove_at k (getl s L)). cbn [fst snd] in *. now apply all_sorted_setl.
  - apply all_sorted_setr; auto. now apply rins_desc.
  - (* RingChop *) destruct (ring s) as [|x t] eqn:E; cbn [ring_chop fst]; apply all_sorted_setr; auto.
    cbn [desc] in Hr. tauto.
  - (* ChainRingSorted *) apply all_sorted_setr; [|cbn; auto].
    apply all_sorted_setl; auto. apply chain_sorted_desc, all_sorted_getl, Hs.
Qed.
