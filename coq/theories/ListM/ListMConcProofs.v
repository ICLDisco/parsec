(* Proofs about the concurrent model of the locked list operations (ListMConcDefs.v):
   for every schedule the log of linearisation points is a legal sequential history. *)
From PV Require Import Base.Tac Base.ListX ListM.ListMDefs ListM.ListMProofs ListM.ListMConcDefs.
From Coq Require Import Permutation.

Definition held (th : thr) : Prop := exists r, ph th = Held r.
Definition ins_of (es : list (nat * cop * cres)) : list item := flat_map (fun e => cop_in (snd (fst e))) es.
Definition outs_of (es : list (nat * cop * cres)) : list item := flat_map (fun e => cres_out (snd e)) es.

Record Inv (l0 : list item) (progs : list (list cop)) (c : cfg) : Prop := mkInv {
  inv_replay : replay l0 (log c) = (lst c, map snd (log c));
  inv_cons : Permutation (l0 ++ ins_of (log c)) (lst c ++ outs_of (log c));
  inv_thr : forall t th, nth_error (thrs c) t = Some th ->
      by_thread t (log c) = contributed th /\
      nth_error progs t = Some (program_left th) /\
      (held th <-> lock c = Some t)
}.

Lemma replay_snoc l es e :
  replay l (es ++ [e]) =
  (fst (apply_entry (fst (replay l es)) e), snd (replay l es) ++ [snd (apply_entry (fst (replay l es)) e)]).
Proof. unfold replay. rewrite fold_left_app. reflexivity. Qed.

Lemma by_thread_app t a b : by_thread t (a ++ b) = by_thread t a ++ by_thread t b.
Proof. unfold by_thread. now rewrite filter_app, map_app. Qed.

Lemma seq_apply_not_busy l o : snd (seq_apply l o) <> CBusy.
Proof.
  destruct o; cbn; try discriminate.
  - destruct (fst (pop_front l)); discriminate.
  - destruct (fst (pop_back l)); discriminate.
Qed.

Lemma apply_entry_seq l t o : apply_entry l (t, o, snd (seq_apply l o)) = seq_apply l o.
Proof.
  unfold apply_entry. cbn [fst snd]. pose proof (seq_apply_not_busy l o) as H.
  destruct (snd (seq_apply l o)) eqn:E; try reflexivity. congruence.
Qed.

Lemma seq_apply_conserves l o :
  Permutation (l ++ cop_in o) (fst (seq_apply l o) ++ cres_out (snd (seq_apply l o))).
Proof.
  destruct o; cbn [seq_apply cop_in fst snd cres_out].
  - unfold push_front. rewrite app_nil_r. symmetry. apply Permutation_cons_append.
  - unfold push_back. now rewrite app_nil_r.
  - destruct l as [|x l]; cbn; [reflexivity|]. rewrite app_nil_r. apply Permutation_cons_append.
  - destruct l as [|y l]; [cbn; reflexivity|].
    destruct (pop_back_spec (y :: l)) as [x [l' [E Hl]]]; [discriminate|]. rewrite E. cbn [fst snd res_of_opt cres_out].
    now rewrite Hl, app_nil_r.
  - unfold chain_front. rewrite app_nil_r. apply Permutation_app_comm.
  - unfold chain_back. now rewrite app_nil_r.
  - rewrite app_nil_r, push_sorted_perm. symmetry. apply Permutation_cons_append.
  - now rewrite app_nil_r, chain_sorted_perm.
  - rewrite !app_nil_r. symmetry. apply sort_ok.
  - reflexivity.
  - cbn. now rewrite app_nil_r.
Qed.

(* every effective step rewrites one thread and appends at most one entry to the log *)
Lemma inv_preserved l0 progs c t th l' lk' th' ent now :
  Inv l0 progs c -> nth_error (thrs c) t = Some th ->
  (ent = [] /\ l' = lst c \/
   exists o r, ent = [(t, o, r)] /\ apply_entry (lst c) (t, o, r) = (l', r) /\
               Permutation (lst c ++ cop_in o) (l' ++ cres_out r)) ->
  contributed th' = contributed th ++ map (fun e => (snd (fst e), snd e)) ent ->
  program_left th' = program_left th ->
  (held th' <-> lk' = Some t) ->
  (forall u, u <> t -> (lk' = Some u <-> lock c = Some u)) ->
  Inv l0 progs (mkcfg l' lk' (upd (thrs c) t th') (log c ++ ent) now).
Proof.
  intros [Hrep Hcons Hthr] Hn Hent Hcontr Hprog Hheld Hoth.
  assert (Hby : by_thread t ent = map (fun e => (snd (fst e), snd e)) ent /\
                forall u, u <> t -> by_thread u ent = []).
  { destruct Hent as [[-> _] | [o [r [-> _]]]]; [split; reflexivity|].
    unfold by_thread. cbn [filter map fst snd]. rewrite Nat.eqb_refl. split; [reflexivity|].
    intros u Hu. destruct (Nat.eqb t u) eqn:E; [apply Nat.eqb_eq in E; congruence | reflexivity]. }
  destruct Hby as [Hbyt Hbyu].
  constructor; cbn [lst lock thrs log].
  - destruct Hent as [[-> ->] | [o [r [-> [Ha _]]]]]; [now rewrite app_nil_r|].
    rewrite replay_snoc, Hrep. cbn [fst snd]. rewrite Ha. cbn [fst snd]. now rewrite map_app.
  - destruct Hent as [[-> ->] | [o [r [-> [_ Hp]]]]]; [now rewrite app_nil_r|].
    unfold ins_of, outs_of in *. rewrite !flat_map_app. cbn [flat_map fst snd]. rewrite !app_nil_r.
    rewrite app_assoc, Hcons, <- app_assoc.
    rewrite (Permutation_app_comm (flat_map _ (log c)) (cop_in o)), app_assoc, Hp, <- app_assoc.
    apply Permutation_app_head, Permutation_app_comm.
  - intros u thu Hu. destruct (Nat.eq_dec u t) as [-> | Hne].
    + rewrite (nth_upd_same _ _ _ th' Hn) in Hu. inv Hu.
      destruct (Hthr t th Hn) as [Hb [Hp _]].
      rewrite by_thread_app, Hb, Hbyt, Hcontr, Hprog. auto.
    + rewrite (nth_upd_other _ _ _ _ th' Hn Hne) in Hu.
      destruct (Hthr u thu Hu) as [Hb [Hp Hl]].
      rewrite by_thread_app, (Hbyu u Hne), app_nil_r. repeat split; auto.
      * intros H. apply Hoth; auto. now apply Hl.
      * intros H. apply Hl. now apply Hoth.
Qed.

Lemma inv_quiet l0 progs c t th lk' th' now :
  Inv l0 progs c -> nth_error (thrs c) t = Some th ->
  contributed th' = contributed th -> program_left th' = program_left th ->
  (held th' <-> lk' = Some t) ->
  (forall u, u <> t -> (lk' = Some u <-> lock c = Some u)) ->
  Inv l0 progs (mkcfg (lst c) lk' (upd (thrs c) t th') (log c) now).
Proof.
  intros HI Hn Hc Hp Hh Ho.
  pose proof (inv_preserved l0 progs c t th (lst c) lk' th' [] now HI Hn) as H.
  cbn [map] in H. rewrite !app_nil_r in H. apply H; auto.
Qed.

Lemma contributed_finish th o rest r i now :
  contributed (finish th o rest r i now) =
  map (fun h => (fst (fst (fst h)), snd (fst (fst h)))) (hist th) ++ [(o, r)].
Proof. unfold contributed, finish. cbn [hist ph todo]. now rewrite map_app, app_nil_r. Qed.

Lemma contributed_not_held th : ~ held th ->
  contributed th = map (fun h => (fst (fst (fst h)), snd (fst (fst h)))) (hist th).
Proof.
  intros H. unfold contributed. destruct (ph th) eqn:E; try now rewrite app_nil_r.
  exfalso. apply H. eexists; eauto.
Qed.
Lemma contributed_held th r o rest : ph th = Held r -> todo th = o :: rest ->
  contributed th = map (fun h => (fst (fst (fst h)), snd (fst (fst h)))) (hist th) ++ [(o, r)].
Proof. intros H1 H2. unfold contributed. now rewrite H1, H2. Qed.

Lemma program_finish th o rest r i now : todo th = o :: rest ->
  program_left (finish th o rest r i now) = program_left th.
Proof. intros H. unfold program_left, finish. cbn [hist todo]. rewrite H, map_app, <- app_assoc. reflexivity. Qed.

Lemma not_held_finish th o rest r i now : ~ held (finish th o rest r i now).
Proof. intros [x H]. discriminate. Qed.

Lemma cstep_inv l0 progs c t : Inv l0 progs c -> Inv l0 progs (cstep c t).
Proof.
  intros HI. unfold cstep.
  destruct (nth_error (thrs c) t) as [th|] eqn:Hn; auto.
  destruct (todo th) as [|o rest] eqn:Ht; auto.
  destruct (inv_thr _ _ _ HI t th Hn) as [_ [_ Hl]].
  destruct (ph th) as [| | r] eqn:Hp.
  - (* Idle *)
    assert (Hnh : ~ held th) by (intros [x Hx]; congruence).
    assert (Hnl : lock c <> Some t) by (intros E; apply Hnh, Hl, E).
    destruct (early_check o && is_empty (lst c)) eqn:E.
    + apply andb_prop in E. destruct E as [Ee Em].
      assert (Hnil : lst c = []) by (destruct (lst c); [reflexivity | discriminate]).
      apply (inv_preserved l0 progs c t th); auto; try (unfold program_left; cbn [todo hist]; now rewrite Ht).
      * right. exists o, CNone. split; [reflexivity|]. rewrite Hnil.
        destruct o; try discriminate; cbn; auto.
      * rewrite contributed_finish, (contributed_not_held th Hnh). reflexivity.
      * now apply program_finish.
      * split; [intros H; now apply not_held_finish in H | intros H; congruence].
      * tauto.
    + apply (inv_quiet l0 progs c t th); auto; try (unfold program_left; cbn [todo hist]; now rewrite Ht).
      * rewrite !contributed_not_held; [reflexivity | exact Hnh | intros [x Hx]; discriminate].
      * split; [intros [x H]; discriminate | intros H; congruence].
      * tauto.
  - (* Acq *)
    assert (Hnh : ~ held th) by (intros [x Hx]; congruence).
    assert (Hnl : lock c <> Some t) by (intros E; apply Hnh, Hl, E).
    destruct (lock c) as [h|] eqn:Hlk.
    + destruct (is_try o) eqn:Etry.
      * apply (inv_preserved l0 progs c t th); auto; try (unfold program_left; cbn [todo hist]; now rewrite Ht).
        -- right. exists o, CBusy. repeat split.
           destruct o; try discriminate; cbn; now rewrite app_nil_r.
        -- rewrite contributed_finish, (contributed_not_held th Hnh). reflexivity.
        -- now apply program_finish.
        -- split; [intros H; now apply not_held_finish in H | intros H; congruence].
        -- rewrite Hlk. tauto.
      * apply (inv_quiet l0 progs c t th); auto; try (unfold program_left; cbn [todo hist]; now rewrite Ht).
        -- rewrite !contributed_not_held; [reflexivity | exact Hnh | intros [x Hx]; discriminate].
        -- split; [intros [x H]; discriminate | intros H; congruence].
        -- rewrite Hlk. tauto.
    + apply (inv_preserved l0 progs c t th); auto; try (unfold program_left; cbn [todo hist]; now rewrite Ht).
      * right. exists o, (snd (seq_apply (lst c) o)). split; [reflexivity|]. split.
        -- rewrite apply_entry_seq. apply surjective_pairing.
        -- apply seq_apply_conserves.
      * rewrite (contributed_held _ (snd (seq_apply (lst c) o)) o rest) by reflexivity.
        rewrite (contributed_not_held th Hnh). reflexivity.
      * split; [reflexivity | intros _; eexists; reflexivity].
      * intros u Hu. rewrite Hlk. split; intros H; [inv H; congruence | discriminate].
  - (* Held *)
    assert (Hlk : lock c = Some t) by (apply Hl; eexists; eauto).
    apply (inv_quiet l0 progs c t th); auto; try (unfold program_left; cbn [todo hist]; now rewrite Ht).
    + now rewrite contributed_finish, (contributed_held th r o rest) by auto.
    + now apply program_finish.
    + split; [intros H; now apply not_held_finish in H | discriminate].
    + intros u Hu. rewrite Hlk. split; intros H; [discriminate | inv H; congruence].
Qed.

Lemma cinit_inv l0 progs : Inv l0 progs (cinit l0 progs).
Proof.
  constructor; cbn [cinit lst lock thrs log]; auto.
  intros t th H. apply nth_error_map_inv in H. destruct H as [p [Hp <-]].
  unfold by_thread, contributed, program_left, held. cbn. repeat split; auto.
  - intros [r H]. discriminate.
  - discriminate.
Qed.

Lemma crun_inv l0 progs sched : Inv l0 progs (crun (cinit l0 progs) sched).
Proof. unfold crun. apply fold_left_inv; [intros; now apply cstep_inv | apply cinit_inv]. Qed.
