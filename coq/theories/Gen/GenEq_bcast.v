(* The broadcast child predicates of the Bcast model are the C functions of
   parsec/remote_dep.c, as translated from the current C text by tools/c2gallina.py
   (Gen_bcast.v is regenerated on every run of the C13 check). *)
From PV Require Import Base.Tac Bcast.BcastDefs Gen.Gen_bcast.
Local Open Scope Z_scope.

Lemma star_eq me him :
  remote_dep_bcast_star_child me him = if star_child me him then 1 else 0.
Proof. reflexivity. Qed.

Lemma chain_eq me him :
  remote_dep_bcast_chainpipeline_child me him = if chain_child me him then 1 else 0.
Proof.
  unfold remote_dep_bcast_chainpipeline_child, chain_child.
  change (- (1)) with (-1). destruct (me =? -1); [reflexivity|]. destruct (him =? me + 1); reflexivity.
Qed.

Lemma land_pow2_testbit x j : 0 <= j ->
  (Z.land x (2 ^ j) =? 0) = negb (Z.testbit x j).
Proof.
  intros Hj. destruct (Z.testbit x j) eqn:E; cbn [negb].
  - apply Z.eqb_neq. intros H.
    assert (Hb : Z.testbit (Z.land x (2 ^ j)) j = true).
    { rewrite Z.land_spec, E, Z.pow2_bits_true by lia. reflexivity. }
    rewrite H, Z.bits_0 in Hb. discriminate.
  - apply Z.eqb_eq. apply Z.bits_inj'. intros i Hi.
    rewrite Z.land_spec, Z.bits_0, Z.pow2_bits_eqb by lia.
    destruct (Z.eqb_spec j i) as [->|]; [rewrite E|]; cbn; auto using andb_false_r.
Qed.

Lemma loop_eq me : forall kk fuel him mask, (kk < fuel)%nat ->
  exists k' m', remote_dep_bcast_binomial_child_loop1 fuel me him (Z.of_nat kk - 1) mask
                = CNext [me; clear_top kk him; k'; m'].
Proof.
  induction kk as [|j IH]; intros fuel him mask Hf.
  - destruct fuel as [|f]; [lia|]. cbn [remote_dep_bcast_binomial_child_loop1].
    change (Z.of_nat 0 - 1) with (-1). cbn. eauto.
  - destruct fuel as [|f]; [lia|]. cbn [remote_dep_bcast_binomial_child_loop1 clear_top].
    replace (Z.of_nat (S j) - 1) with (Z.of_nat j) by lia.
    assert (Hge : (Z.of_nat j >=? 0) = true) by lia. rewrite Hge.
    rewrite Z.shiftl_1_l, land_pow2_testbit by lia.
    destruct (Z.testbit him (Z.of_nat j)); cbn [negb].
    + eauto.
    + apply IH. lia.
Qed.

Theorem binomial_eq me him :
  remote_dep_bcast_binomial_child me him = if binomial_child me him then 1 else 0.
Proof.
  unfold remote_dep_bcast_binomial_child, binomial_child.
  change (- (1)) with (-1).
  destruct (him =? 0); [reflexivity|]. destruct (me =? -1); [reflexivity|].
  (* the start value of k, sizeof(int)*8 - 1 in unsigned long arithmetic, is 31, written in the form [loop_eq] takes *)
  match goal with |- context[scast 32 ?e] => replace (scast 32 e) with (Z.of_nat 32 - 1) by (vm_compute; reflexivity) end.
  destruct (loop_eq me 32 40%nat him 0) as (k' & m' & ->); [lia|]. reflexivity.
Qed.
