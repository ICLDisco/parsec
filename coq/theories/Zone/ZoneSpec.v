(* C28, part 5: what a client of the allocator observes, for every sequence of
   operations: statements in terms of the allocations it holds. *)
From PV Require Import Base.Tac Base.ListX Zone.ZoneDefs Zone.ZoneBase Zone.ZoneChain Zone.ZoneMalloc Zone.ZoneFree.
Local Open Scope Z_scope.

Record CInv (n unit : Z) (c : client) (hs : list Z) : Prop := mkCInv {
  ci_n : z_n (cl_zone c) = n;
  ci_unit : z_unit (cl_zone c) = unit;
  ci_inv : Inv (cl_zone c) hs;
  ci_live : forall off size, In (off, size) (cl_live c) -> 0 < size /\
            exists t, off = t * unit /\ In t hs /\ st (z_cells (cl_zone c)) t = FULL /\
                      nbu (z_cells (cl_zone c)) t = units_of size unit;
  ci_full : forall t, In t hs -> st (z_cells (cl_zone c)) t = FULL ->
            In (t * unit) (map fst (cl_live c));
  ci_nodup : NoDup (map fst (cl_live c));
  ci_dead : forall off, In off (cl_dead c) ->
            exists t, off = t * unit /\ 0 <= t < n /\
              (st (z_cells (cl_zone c)) t = EMPTY \/ st (z_cells (cl_zone c)) t = FULL);
  ci_sum : sum_units FULL (z_cells (cl_zone c)) hs = units_sum unit (cl_live c)
}.

Lemma units_sum_app unit l1 l2 : units_sum unit (l1 ++ l2) = units_sum unit l1 + units_sum unit l2.
Proof.
  induction l1 as [|a l1 IH]; [reflexivity|].
  change (units_sum unit ((a :: l1) ++ l2)) with (units_of (snd a) unit + units_sum unit (l1 ++ l2)).
  change (units_sum unit (a :: l1)) with (units_of (snd a) unit + units_sum unit l1). lia.
Qed.

Lemma in_map_fst (l : list (Z * Z)) off : In off (map fst l) <-> exists size, In (off, size) l.
Proof.
  rewrite in_map_iff. split.
  - intros ([o s] & E & H). cbn in E. subst. eauto.
  - intros (s & H). exists (off, s). auto.
Qed.

Lemma is_live_iff c off : is_live c off = true <-> In off (map fst (cl_live c)).
Proof.
  unfold is_live. rewrite existsb_exists, in_map_iff. split.
  - intros (a & H & E). exists a. split; auto. lia.
  - intros (a & E & H). exists a. split; auto. lia.
Qed.

Lemma filter_other off (l : list (Z * Z)) :
  ~ In off (map fst l) -> filter (fun a => negb (fst a =? off)) l = l.
Proof.
  induction l as [|[o s] l IH]; cbn [map fst filter In]; intros H; [reflexivity|].
  destruct (Z.eqb_spec o off); [tauto|]. cbn [negb]. f_equal. apply IH. tauto.
Qed.

(* what zone_free's client keeps of its live list: everything but the one entry at off *)
Lemma filter_live (live : list (Z * Z)) off size : NoDup (map fst live) -> In (off, size) live ->
  exists l1 l2, live = l1 ++ (off, size) :: l2 /\ NoDup (map fst (l1 ++ l2)) /\
    filter (fun a => negb (fst a =? off)) live = l1 ++ l2.
Proof.
  intros Hnd Hin. apply in_split in Hin. destruct Hin as (l1 & l2 & ->). exists l1, l2.
  rewrite map_app in Hnd. cbn [map fst] in Hnd.
  pose proof (NoDup_remove_2 _ _ _ Hnd) as Hno. rewrite in_app_iff in Hno.
  split; [reflexivity|]. split; [rewrite map_app; exact (NoDup_remove_1 _ _ _ Hnd)|].
  rewrite filter_app. cbn [filter fst]. rewrite Z.eqb_refl. cbn [negb].
  rewrite !filter_other by tauto. reflexivity.
Qed.

Lemma cinv_init n unit : 1 <= n -> 1 <= unit -> CInv n unit (cl_init n unit) [0].
Proof.
  intros Hn Hu. pose proof (init_inv n unit Hn Hu) as I.
  assert (Hst : st (z_cells (zone_init n unit)) 0 = EMPTY).
  { unfold zone_init. cbn [z_cells]. rewrite cget_cset by (rewrite ?repeat_length; lia). reflexivity. }
  constructor; cbn [cl_init cl_zone cl_live cl_dead]; auto.
  - intros off size [].
  - intros t [<-|[]] Hf. rewrite Hst in Hf. unfold FULL, EMPTY in Hf. lia.
  - constructor.
  - intros off [].
  - rewrite sum_units_cons, Hst. reflexivity.
Qed.

Lemma mul_unit_inj unit t t' : 1 <= unit -> t * unit = t' * unit -> t = t'.
Proof. intros. nia. Qed.

(* zone_free of an offset the client freed before, or of an address past the zone *)
Lemma cinv_free_ignored n unit c hs off : 1 <= unit -> CInv n unit c hs ->
  ~ In off (map fst (cl_live c)) -> In off (cl_dead c) \/ n * unit <= off ->
  zfree (cl_zone c) off = cl_zone c.
Proof.
  intros Hu [En Eu I _ Hfull _ Hdead _] Hnl Hoff. apply zfree_ignored. destruct Hoff as [Hi|Hi].
  - destruct (Hdead _ Hi) as (t & Et & Hr & Hd).
    assert (Hdiv : off / z_unit (cl_zone c) = t) by (rewrite Eu, Et; apply Z.div_mul; lia).
    rewrite Hdiv. right. destruct Hd as [Hd|Hd]; auto. exfalso. apply Hnl.
    rewrite Et. apply Hfull; auto. apply (inv_full_head _ _ I); auto. lia.
  - left. apply in_range_false. rewrite En, Eu in *.
    pose proof (Z.div_le_mono (n * unit) off unit ltac:(lia) Hi) as Hd.
    rewrite Z.div_mul in Hd by lia. lia.
Qed.

Lemma cinv_step n unit c hs o : 1 <= n -> 1 <= unit ->
  CInv n unit c hs -> op_ok c o -> exists hs', CInv n unit (fst (step c o)) hs'.
Proof.
  intros Hn Hu CI Hok. destruct CI as [En Eu I Hlive Hfull Hnd Hdead Hsum].
  destruct o as [size|off]; cbn [op_ok] in Hok; cbn [step].
  - (* malloc *)
    pose proof (zmalloc_spec (cl_zone c) hs size I Hok) as Hm. cbv zeta in Hm.
    destruct (zmalloc (cl_zone c) size) as [z' [off|]].
    + destruct Hm as (Hpos & cur & hs' & Eoff & M). destruct M. cbn [fst]. exists hs'.
      rewrite Eu in *.
      constructor; cbn [cl_zone cl_live cl_dead]; auto; try congruence.
      * intros off' size' Hin. apply in_app_iff in Hin. destruct Hin as [Hin|[E|[]]].
        -- destruct (Hlive _ _ Hin) as (Hp & t & Et & Ht & Hst & Hnb). split; auto.
           destruct (mo_kept t Ht Hst) as (A & B & C). exists t. repeat split; auto. congruence.
        -- inv E. split; auto. exists cur. repeat split; auto.
      * intros t Ht Hst. rewrite map_app, in_app_iff. cbn [map fst In].
        destruct (Z.eq_dec t cur) as [->|Hne]; [right; left; congruence|].
        left. destruct (mo_only t Ht Hst Hne) as (A & B). apply Hfull; auto.
      * rewrite map_app. cbn [map fst]. apply NoDup_app_intro; [exact Hnd|apply NoDup_cons; [intros []|constructor]|].
        intros x Hi [<-|[]]. apply in_map_fst in Hi. destruct Hi as (s' & Hi).
        destruct (Hlive _ _ Hi) as (_ & t & Et & Ht & Hst & _).
        assert (t = cur) by (apply (mul_unit_inj unit); auto; congruence). subst t.
        unfold FULL, EMPTY in *. lia.
      * intros off' Hin. destruct (Hdead _ Hin) as (t & Et & Hr & Hd). exists t. repeat split; auto; try lia.
        apply mo_defined; auto. lia.
      * rewrite mo_sum, Hsum, units_sum_app. cbn [units_sum fold_right snd]. lia.
    + destruct Hm as (-> & _). cbn [fst]. exists hs. constructor; auto.
  - (* free *)
    destruct (is_live c off) eqn:Elive.
    + (* a live allocation *)
      apply is_live_iff in Elive. pose proof Elive as Hl. apply in_map_fst in Hl. destruct Hl as (size & Hin).
      destruct (Hlive _ _ Hin) as (Hp & t & Et & Ht & Hst & Hnb).
      destruct (filter_live _ off size Hnd Hin) as (l1 & l2 & El & Hnd' & Ef). rewrite <- Ef in Hnd'.
      assert (Hdiv : off / z_unit (cl_zone c) = t) by (rewrite Eu, Et; apply Z.div_mul; lia).
      destruct (zfree_live (cl_zone c) hs t I Ht Hst off Hdiv) as (hs' & F). destruct F.
      destruct (inv_head_range _ _ _ I Ht) as (Ht0 & Htn & Ht1).
      cbn [fst]. exists hs'. constructor; cbn [cl_zone cl_live cl_dead]; auto; try congruence.
      * intros off' size' Hin'. apply filter_In in Hin'. destruct Hin' as [Hin' Hne]. cbn [fst] in Hne.
        destruct (Hlive _ _ Hin') as (Hp' & t' & Et' & Ht' & Hst' & Hnb'). split; auto.
        assert (t' <> t) by (intro; subst; lia).
        destruct (fo_kept t' Ht' Hst' H) as (A & B & C). exists t'. repeat split; auto. congruence.
      * intros t' Ht' Hst'. destruct (fo_only t' Ht' Hst') as (A & B & C).
        pose proof (Hfull t' A B) as Hi. apply in_map_iff in Hi. destruct Hi as (a & Ea & Ha).
        apply in_map_iff. exists a. split; auto. apply filter_In. split; auto.
        rewrite Ea. assert (t' * unit <> off) by (rewrite Et; intro E; apply C; apply (mul_unit_inj unit); auto).
        lia.
      * intros off' [<-|Hin'].
        -- exists t. repeat split; auto; try lia. apply fo_defined; [lia|auto].
        -- destruct (Hdead _ Hin') as (t' & Et' & Hr & Hd). exists t'. repeat split; auto; try lia.
           apply fo_defined; auto. lia.
      * rewrite fo_sum, Hsum, Ef, El, !units_sum_app. cbn [units_sum fold_right snd]. fold (units_sum unit l2). lia.
    + (* a stale offset or an address beyond the zone: ignored *)
      assert (Hnl : ~ In off (map fst (cl_live c))).
      { intro Hi. apply is_live_iff in Hi. congruence. }
      assert (Hig : zfree (cl_zone c) off = cl_zone c).
      { apply (cinv_free_ignored n unit c hs); auto; [constructor; auto|].
        destruct Hok as [Hi|[Hi|Hi]]; [contradiction|auto|right; rewrite <- En, <- Eu; auto]. }
      cbn [fst]. rewrite Hig. exists hs. constructor; auto.
Qed.

Lemma cinv_run n unit ops : 1 <= n -> 1 <= unit -> forall c hs,
  CInv n unit c hs -> ops_ok c ops -> exists hs', CInv n unit (run c ops) hs'.
Proof.
  intros Hn Hu. induction ops as [|o r IH]; intros c hs CI Hok; cbn [run]; [eauto|].
  destruct Hok as [Ho Hr]. destruct (cinv_step n unit c hs o Hn Hu CI Ho) as (hs1 & CI1).
  apply (IH _ hs1); auto.
Qed.

Lemma reachable_cinv n unit c : 1 <= n -> 1 <= unit -> reachable n unit c -> exists hs, CInv n unit c hs.
Proof.
  intros Hn Hu (ops & Hok & ->). apply (cinv_run n unit ops Hn Hu _ [0]); auto. apply cinv_init; auto.
Qed.

Section View.
Variables (n unit : Z) (c : client) (hs : list Z).
Hypothesis Hn : 1 <= n.
Hypothesis Hu : 1 <= unit.
Hypothesis CI : CInv n unit c hs.
Let cs := z_cells (cl_zone c).

Lemma view_chain : exists q g, Chain cs 0 1 false hs n q g.
Proof. destruct CI. rewrite <- ci_n0. apply (inv_chain _ _ ci_inv0). Qed.

Lemma busy_iff u : busy c u <-> exists t, In t hs /\ st cs t = FULL /\ t <= u < t + nbu cs t.
Proof.
  destruct CI as [En Eu I Hlive Hfull Hnd Hdead Hsum]. unfold busy. rewrite Eu. split.
  - intros ([off size] & Hin & Hr). cbn [fst snd] in Hr.
    destruct (Hlive _ _ Hin) as (_ & t & -> & Ht & Hst & Hnb).
    rewrite Z.div_mul in Hr by lia. exists t. fold cs in Hst, Hnb. rewrite Hnb. auto.
  - intros (t & Ht & Hst & Hr). pose proof (Hfull t Ht Hst) as Hi. apply in_map_fst in Hi.
    destruct Hi as (size & Hin). exists (t * unit, size). split; auto. cbn [fst snd].
    destruct (Hlive _ _ Hin) as (_ & t' & Et & Ht' & Hst' & Hnb).
    assert (t' = t) by (symmetry; apply (mul_unit_inj unit); auto). subst t'.
    rewrite Z.div_mul by lia. fold cs in Hnb. rewrite <- Hnb. auto.
Qed.

Lemma cover u : 0 <= u < n -> exists t, In t hs /\ t <= u < t + nbu cs t.
Proof. intros Hr. destruct view_chain as (q & g & H). apply (chain_cover _ _ _ _ _ _ _ _ u H Hr). Qed.

Lemma cover_unique u t t' : In t hs -> In t' hs ->
  t <= u < t + nbu cs t -> t' <= u < t' + nbu cs t' -> t = t'.
Proof.
  intros Ht Ht' Hr Hr'. destruct view_chain as (q & g & H).
  destruct (Z.lt_total t t') as [Hlt|[E|Hlt]]; auto.
  - pose proof (chain_sep _ _ _ _ _ _ _ _ t t' H Ht Ht' Hlt). lia.
  - pose proof (chain_sep _ _ _ _ _ _ _ _ t' t H Ht' Ht Hlt). lia.
Qed.

Lemma head_status t : In t hs -> st cs t = EMPTY \/ st cs t = FULL.
Proof. intros Ht. destruct CI. apply (inv_head_status _ _ _ ci_inv0 Ht). Qed.

Lemma head_range t : In t hs -> 0 <= t /\ t + nbu cs t <= n /\ 1 <= nbu cs t.
Proof. intros Ht. destruct CI. rewrite <- ci_n0. apply (inv_head_range _ _ _ ci_inv0 Ht). Qed.

Lemma free_head_not_busy t u : In t hs -> st cs t = EMPTY -> t <= u < t + nbu cs t -> ~ busy c u.
Proof.
  intros Ht Hst Hr Hb. apply busy_iff in Hb. destruct Hb as (t' & Ht' & Hst' & Hr').
  assert (t = t') by (apply (cover_unique u); auto). subst t'. unfold FULL, EMPTY in *. lia.
Qed.

(* a window of free units lies inside one free segment *)
Lemma window_in_free_head a k : 1 <= k -> free_window c a k ->
  exists h, In h hs /\ st cs h = EMPTY /\ h <= a /\ a + k <= h + nbu cs h.
Proof.
  intros Hk (Ha0 & Han & Hfree).
  assert (En : z_n (cl_zone c) = n) by (destruct CI; auto). rewrite En in Han.
  destruct view_chain as (q & g & H).
  destruct (cover a ltac:(lia)) as (h & Hh & Hr).
  assert (Hhst : st cs h = EMPTY).
  { destruct (head_status h Hh) as [|Hf]; auto. exfalso. apply (Hfree a ltac:(lia)).
    apply busy_iff. exists h. auto. }
  exists h. split; auto. split; auto. split; [lia|].
  destruct (Z_le_gt_dec (a + k) (h + nbu cs h)); auto. exfalso.
  destruct (chain_next _ _ _ _ _ _ _ _ h H Hh) as [E|(Hnx & _ & Hfl)]; [lia|].
  apply (Hfree (h + nbu cs h) ltac:(lia)). apply busy_iff. exists (h + nbu cs h).
  destruct (head_range _ Hnx) as (_ & _ & ?). repeat split; auto; lia.
Qed.

(* the maximal free runs are exactly the free segments *)
Lemma run_iff a k : max_free_run c a k <-> In a hs /\ st cs a = EMPTY /\ nbu cs a = k.
Proof.
  destruct view_chain as (q & g & H).
  assert (En : z_n (cl_zone c) = n) by (destruct CI; auto).
  unfold max_free_run. split.
  - intros (Hk & Hw & Hleft & Hright).
    destruct (window_in_free_head a k Hk Hw) as (h & Hh & Hhst & Hha & Hhk).
    destruct Hw as (Ha0 & Han & _). rewrite En in *.
    destruct (head_range h Hh) as (Hh0 & Hhn & _).
    (* a free segment that began before a, or ended after a + k, would make a - 1, or a + k, free *)
    assert (h = a).
    { destruct (Z.eq_dec h a); auto. exfalso. destruct Hleft as [?|Hb]; [lia|].
      apply (free_head_not_busy h (a - 1) Hh Hhst); auto. lia. }
    subst h. split; auto. split; auto.
    destruct (Z.eq_dec (nbu cs a) k); auto. exfalso.
    destruct Hright as [?|Hb]; [lia|]. apply (free_head_not_busy a (a + k) Hh Hhst); auto. lia.
  - intros (Ha & Hst & <-). destruct (head_range a Ha) as (Ha0 & Han & Ha1).
    unfold free_window. rewrite En.
    split; auto. split; [split; auto; split; auto|split].
    + intros u Hr. apply (free_head_not_busy a u); auto.
    + destruct (chain_prev _ _ _ _ _ _ _ a H Ha) as [[E _]|(u & Hpu & Epu & _ & Hfl)]; auto.
      right. apply busy_iff. exists u. destruct (head_range u Hpu) as (_ & _ & ?).
      destruct (head_status u Hpu) as [He|Hf].
      * specialize (Hfl He). unfold FULL, EMPTY in *. lia.
      * repeat split; auto; lia.
    + destruct (chain_next _ _ _ _ _ _ _ _ a H Ha) as [E|(Hnx & _ & Hfl)]; auto.
      right. apply busy_iff. exists (a + nbu cs a).
      destruct (head_range _ Hnx) as (_ & _ & ?). repeat split; auto; lia.
Qed.

Lemma view_segments : z_segments (cl_zone c) = map (fun t => (t, cget cs t)) hs.
Proof. destruct CI. unfold z_segments. rewrite (inv_heads _ _ ci_inv0). reflexivity. Qed.

Lemma chain_segs_ok : forall l a p f q g, Chain cs a p f l n q g ->
  segs_ok n a p f (map (fun t => (t, cget cs t)) l) /\
  no_adjacent_free f (map (fun t => (t, cget cs t)) l).
Proof.
  induction l as [|x l IH]; intros a p f q g H; cbn [map segs_ok no_adjacent_free].
  - apply chain_nil_inv in H. destruct H as (E & _). auto.
  - apply chain_cons_inv in H. destruct H as (-> & J1 & J2 & J3 & J4 & J5).
    destruct (IH _ _ _ _ _ J5) as [A B]. split.
    + repeat split; auto.
    + split; auto. intros [Hf He]. specialize (J4 Hf). unfold FULL, EMPTY in *. lia.
Qed.
Lemma view_segs_ok :
  segs_ok n 0 1 false (z_segments (cl_zone c)) /\ no_adjacent_free false (z_segments (cl_zone c)).
Proof. rewrite view_segments. destruct view_chain as (q & g & H). apply (chain_segs_ok _ _ _ _ _ _ H). Qed.
End View.
