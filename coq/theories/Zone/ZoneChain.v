(* C28, part 2: the chain of segments laid over the segment array, the
   representation invariant of a zone, what the walk of zone_in_use sees, and the
   replacement of a run of heads by another ([inv_replace]), which zone_malloc and
   zone_free share. *)
From PV Require Import Base.Tac Zone.ZoneDefs Zone.ZoneBase.
Local Open Scope Z_scope.

(* [Chain cs a p f l b q g]: the heads in l are consecutive segments covering
   [a,b); the segment before a has p units and is free iff f; the last segment
   before b has q units and is free iff g.  Every head has a valid status, at
   least one unit, a back link equal to the size of its predecessor, and a free
   segment is never followed by a free segment. *)
Inductive Chain (cs : list cell) : Z -> Z -> bool -> list Z -> Z -> Z -> bool -> Prop :=
| Ch_nil a p f : Chain cs a p f [] a p f
| Ch_cons a p f l b q g :
    1 <= nbu cs a -> nbp cs a = p ->
    (st cs a = EMPTY \/ st cs a = FULL) ->
    (f = true -> st cs a = FULL) ->
    Chain cs (a + nbu cs a) (nbu cs a) (st cs a =? EMPTY) l b q g ->
    Chain cs a p f (a :: l) b q g.

Lemma chain_app cs a p f l1 m q g l2 b q' g' :
  Chain cs a p f l1 m q g -> Chain cs m q g l2 b q' g' -> Chain cs a p f (l1 ++ l2) b q' g'.
Proof. induction 1; cbn [app]; auto. intros. constructor; auto. Qed.

Lemma chain_cons_inv cs a p f x l b q g : Chain cs a p f (x :: l) b q g ->
  x = a /\ 1 <= nbu cs a /\ nbp cs a = p /\ (st cs a = EMPTY \/ st cs a = FULL) /\
  (f = true -> st cs a = FULL) /\
  Chain cs (a + nbu cs a) (nbu cs a) (st cs a =? EMPTY) l b q g.
Proof. intros H; inv H. repeat split; auto. Qed.

Lemma chain_app_inv cs l1 : forall a p f l2 b q' g',
  Chain cs a p f (l1 ++ l2) b q' g' ->
  exists m q g, Chain cs a p f l1 m q g /\ Chain cs m q g l2 b q' g'.
Proof.
  induction l1 as [|x l1 IH]; cbn [app]; intros a p f l2 b q' g' H.
  - exists a, p, f. split; [constructor|auto].
  - apply chain_cons_inv in H. destruct H as (-> & J1 & J2 & J3 & J4 & J5).
    destruct (IH _ _ _ _ _ _ _ J5) as (m & q & g & H1 & H2).
    exists m, q, g. split; auto. constructor; auto.
Qed.

(* a chain cut at one of its heads *)
Lemma chain_split cs a p f l b q g t : Chain cs a p f l b q g -> In t l ->
  exists l1 l2 f1, l = l1 ++ t :: l2 /\ Chain cs a p f l1 t (nbp cs t) f1 /\
    1 <= nbu cs t /\ (st cs t = EMPTY \/ st cs t = FULL) /\ (f1 = true -> st cs t = FULL) /\
    Chain cs (t + nbu cs t) (nbu cs t) (st cs t =? EMPTY) l2 b q g.
Proof.
  intros H Ht. apply in_split in Ht. destruct Ht as (l1 & l2 & ->).
  apply chain_app_inv in H. destruct H as (m & p1 & f1 & H1 & H2).
  apply chain_cons_inv in H2. destruct H2 as (-> & J1 & <- & J3 & J4 & J5).
  exists l1, l2, f1. auto 10.
Qed.

(* the first head of a chain that is not empty *)
Lemma chain_first cs a p f l b q g : Chain cs a p f l b q g -> a < b ->
  In a l /\ 1 <= nbu cs a /\ nbp cs a = p /\ (f = true -> st cs a = FULL).
Proof. intros H Hlt. inversion H; subst; [lia|]. cbn [In]. auto. Qed.

Lemma chain_bounds cs a p f l b q g : Chain cs a p f l b q g ->
  a <= b /\ forall t, In t l -> a <= t /\ t + nbu cs t <= b /\ 1 <= nbu cs t.
Proof.
  induction 1 as [|a p f l b q g H1 H2 H3 H4 H5 [IH1 IH2]]; [split; [lia|intros t []]|].
  split; [lia|]. intros t [E|Hi]; [subst; lia|]. specialize (IH2 t Hi). lia.
Qed.

Lemma chain_nil_inv cs a p f b q g : Chain cs a p f [] b q g -> b = a /\ q = p /\ g = f.
Proof. intros H; inv H; auto. Qed.

(* only the cells at the heads matter *)
Lemma chain_ext cs cs' a p f l b q g : Chain cs a p f l b q g ->
  (forall t, In t l -> cget cs' t = cget cs t) -> Chain cs' a p f l b q g.
Proof.
  induction 1 as [|a p f l b q g H1 H2 H3 H4 H5 IH]; intros He; [constructor|].
  assert (E : cget cs' a = cget cs a) by (apply He; left; auto).
  constructor; rewrite ?E; auto. apply IH. intros t Ht; apply He; right; auto.
Qed.

(* the heads between m and e replaced: the other heads keep status, size and,
   but for the one at e, back link *)
Lemma chain_splice cs cs' a p f l1 m p1 f1 mid e qe ge l2 b q g qe' ge' :
  Chain cs a p f l1 m p1 f1 -> Chain cs e qe ge l2 b q g -> Chain cs' m p1 f1 mid e qe' ge' ->
  (forall t, In t l1 \/ In t l2 -> st cs' t = st cs t /\ nbu cs' t = nbu cs t /\
                                   (t <> e -> nbp cs' t = nbp cs t)) ->
  (e < b -> nbp cs' e = qe' /\ (ge' = true -> st cs e = FULL)) ->
  exists q' g', Chain cs' a p f (l1 ++ mid ++ l2) b q' g'.
Proof.
  intros H1 H2 Hm Hk Eh. pose proof (chain_bounds _ _ _ _ _ _ _ _ H1) as [_ B1].
  pose proof (chain_bounds _ _ _ _ _ _ _ _ Hm) as [Hme _].
  assert (H2' : exists q' g', Chain cs' e qe' ge' l2 b q' g').
  { inversion H2 as [|a0 p0 f0 l0 b0 q0 g0 J1 J2 J3 J4 J5]; subst; [do 2 eexists; constructor|].
    destruct (Hk e) as (E1 & E2 & _); [cbn [In]; auto|].
    destruct Eh as (E3 & E4); [apply chain_bounds in J5; lia|].
    exists q, g. constructor; rewrite ?E1, ?E2; auto.
    apply chain_ext with cs; auto. intros t Ht. pose proof (chain_bounds _ _ _ _ _ _ _ _ J5) as [_ B5].
    specialize (B5 t Ht). destruct (Hk t) as (F1 & F2 & F3); [cbn [In]; auto|].
    apply cell_eq; auto. apply F3. lia. }
  destruct H2' as (q' & g' & H2'). exists q', g'.
  apply chain_app with m p1 f1; [apply chain_ext with cs; auto|apply chain_app with e qe' ge'; auto].
  intros t Ht. destruct (Hk t (or_introl Ht)) as (E1 & E2 & E3). specialize (B1 t Ht).
  apply cell_eq; auto. apply E3. lia.
Qed.

Lemma chain_length cs a p f l b q g : Chain cs a p f l b q g -> Z.of_nat (length l) <= b - a.
Proof. induction 1; cbn [length]; lia. Qed.

(* two heads do not overlap *)
Lemma chain_sep cs a p f l b q g t u : Chain cs a p f l b q g ->
  In t l -> In u l -> t < u -> t + nbu cs t <= u.
Proof.
  intros H Ht Hu Hlt. destruct (chain_split _ _ _ _ _ _ _ _ t H Ht) as (l1 & l2 & f1 & -> & H1 & _ & _ & _ & J5).
  apply in_app_iff in Hu. destruct Hu as [Hu|[Hu|Hu]].
  - apply chain_bounds in H1. destruct H1 as [_ H1]. specialize (H1 u Hu). lia.
  - lia.
  - apply chain_bounds in J5. destruct J5 as [_ H3]. specialize (H3 u Hu). lia.
Qed.

Lemma chain_nodup cs a p f l b q g : Chain cs a p f l b q g -> NoDup l.
Proof.
  induction 1 as [|a p f l b q g H1 H2 H3 H4 H5 IH]; constructor; auto.
  intro Hi. apply chain_bounds in H5. destruct H5 as [_ H5]. specialize (H5 a Hi). lia.
Qed.

(* every unit of [a,b) lies in exactly one segment *)
Lemma chain_cover cs a p f l b q g u : Chain cs a p f l b q g -> a <= u < b ->
  exists t, In t l /\ t <= u < t + nbu cs t.
Proof.
  induction 1 as [|a p f l b q g H1 H2 H3 H4 H5 IH]; intros Hu; [lia|].
  destruct (Z_lt_le_dec u (a + nbu cs a)).
  - exists a. split; [left; auto|lia].
  - destruct IH as (t & Ht & Hr); [lia|]. exists t. split; [right; auto|auto].
Qed.

(* what follows a head: the end of the zone or the next head; free is followed by full *)
Lemma chain_next cs a p f l b q g t : Chain cs a p f l b q g -> In t l ->
  t + nbu cs t = b \/ (In (t + nbu cs t) l /\ nbp cs (t + nbu cs t) = nbu cs t /\
                       (st cs t = EMPTY -> st cs (t + nbu cs t) = FULL)).
Proof.
  intros H Ht. destruct (chain_split _ _ _ _ _ _ _ _ t H Ht) as (l1 & l2 & f1 & -> & _ & _ & _ & _ & J5).
  destruct l2 as [|y l2]; [apply chain_nil_inv in J5; left; lia|right].
  apply chain_cons_inv in J5. destruct J5 as (-> & K1 & K2 & K3 & K4 & K5).
  split; [apply in_app_iff; right; right; left; auto|]. split; auto.
  intros E. apply K4. rewrite E. reflexivity.
Qed.


(* the last head of a chain, seen from the end *)
Lemma chain_snoc_inv cs a p f l u b q g : Chain cs a p f (l ++ [u]) b q g ->
  exists p' f', Chain cs a p f l u p' f' /\
    1 <= nbu cs u /\ nbp cs u = p' /\ (st cs u = EMPTY \/ st cs u = FULL) /\
    (f' = true -> st cs u = FULL) /\
    b = u + nbu cs u /\ q = nbu cs u /\ g = (st cs u =? EMPTY).
Proof.
  intros H. apply chain_app_inv in H. destruct H as (m & p' & f' & H1 & H2).
  apply chain_cons_inv in H2. destruct H2 as (-> & J1 & J2 & J3 & J4 & J5).
  apply chain_nil_inv in J5. destruct J5 as (-> & -> & ->). exists p', f'. auto 10.
Qed.

Lemma chain_prev cs p f l b q g t : Chain cs 0 p f l b q g -> In t l ->
  (t = 0 /\ nbp cs t = p) \/
  (exists u, In u l /\ u + nbu cs u = t /\ nbp cs t = nbu cs u /\ (st cs u = EMPTY -> st cs t = FULL)).
Proof.
  intros H Ht. destruct (chain_split _ _ _ _ _ _ _ _ t H Ht) as (l1 & l2 & f1 & -> & H1 & _ & _ & J4 & _).
  destruct l1 as [|x l1'] using rev_ind.
  - left. apply chain_nil_inv in H1. destruct H1 as (-> & -> & ->). auto.
  - right. clear IHl1'. apply chain_snoc_inv in H1.
    destruct H1 as (p' & f' & _ & _ & _ & _ & _ & E1 & E2 & E3). subst.
    exists x. split; [apply in_app_iff; left; apply in_app_iff; right; left; auto|].
    repeat split; auto. intros E. apply J4. rewrite E. reflexivity.
Qed.

Lemma walk_chain cs n : forall l a p f q g fuel, Chain cs a p f l n q g -> 0 <= a ->
  (length l < fuel)%nat -> walk fuel n cs a = l.
Proof.
  induction l as [|x l IH]; intros a p f q g fuel H Ha Hf.
  - apply chain_nil_inv in H. destruct H as (-> & _). destruct fuel; [cbn [length] in Hf; lia|].
    cbn [walk]. assert (E : in_range a a = false) by (apply in_range_false; lia). rewrite E. auto.
  - apply chain_cons_inv in H. destruct H as (-> & J1 & J2 & J3 & J4 & J5).
    destruct fuel; [cbn [length] in Hf; lia|]. cbn [walk length] in *.
    pose proof (chain_bounds _ _ _ _ _ _ _ _ J5) as [Hb _].
    assert (E : in_range n a = true) by (apply in_range_iff; lia). rewrite E.
    f_equal. apply (IH _ _ _ _ _ _ J5); lia.
Qed.

Lemma sum_units_cons s cs x l :
  sum_units s cs (x :: l) = (if st cs x =? s then nbu cs x else 0) + sum_units s cs l.
Proof. reflexivity. Qed.

Lemma sum_units_app s cs l1 l2 : sum_units s cs (l1 ++ l2) = sum_units s cs l1 + sum_units s cs l2.
Proof.
  induction l1 as [|x l1 IH]; [reflexivity|].
  change ((x :: l1) ++ l2) with (x :: (l1 ++ l2)). rewrite !sum_units_cons, IH. lia.
Qed.

Lemma sum_units_ext2 s cs cs' l :
  (forall t, In t l -> st cs' t = st cs t /\ nbu cs' t = nbu cs t) ->
  sum_units s cs' l = sum_units s cs l.
Proof.
  induction l as [|x l IH]; intros He; auto. rewrite !sum_units_cons.
  destruct (He x (or_introl eq_refl)) as [E1 E2]. rewrite E1, E2, IH; auto.
  intros t Ht; apply He; right; auto.
Qed.

Lemma sum_units_ext s cs cs' l : (forall t, In t l -> cget cs' t = cget cs t) ->
  sum_units s cs' l = sum_units s cs l.
Proof. intros He. apply sum_units_ext2. intros t Ht. rewrite He; auto. Qed.

Lemma sum_units_none s cs l : (forall t, In t l -> st cs t <> s) -> sum_units s cs l = 0.
Proof.
  induction l as [|x l IH]; intros Hn; auto. rewrite sum_units_cons, IH by (intros t Ht; apply Hn; right; auto).
  destruct (Z.eqb_spec (st cs x) s) as [E|]; [|reflexivity]. destruct (Hn x (or_introl eq_refl) E).
Qed.

Lemma sum_units_total cs a p f l b q g : Chain cs a p f l b q g ->
  sum_units FULL cs l + sum_units EMPTY cs l = b - a.
Proof.
  induction 1 as [|a p f l b q g H1 H2 H3 H4 H5 IH]; [cbn; lia|].
  rewrite !sum_units_cons. unfold EMPTY, FULL in *.
  destruct H3 as [E|E]; rewrite E; cbn [Z.eqb Pos.eqb]; lia.
Qed.

Definition FreeSeg (cs : list cell) (hs : list Z) (k t : Z) : Prop :=
  In t hs /\ st cs t = EMPTY /\ nbu cs t = k.

Record Inv (z : zone) (hs : list Z) : Prop := mkInv {
  inv_n : 1 <= z_n z;
  inv_unit : 1 <= z_unit z;
  inv_len : Z.of_nat (length (z_cells z)) = z_n z;
  inv_chain : exists q g, Chain (z_cells z) 0 1 false hs (z_n z) q g;
  (* cells inside a segment keep a stale status, never FULL *)
  inv_full_head : forall t, 0 <= t < z_n z -> st (z_cells z) t = FULL -> In t hs;
  inv_sorted : keys_gt 0 (z_idx z);
  inv_rep : Rep (ix_find (z_idx z)) (FreeSeg (z_cells z) hs)
}.

Lemma inv_heads z hs : Inv z hs -> z_heads z = hs.
Proof.
  intros I. destruct (inv_chain _ _ I) as (q & g & H). unfold z_heads.
  apply (walk_chain _ _ _ _ _ _ _ _ _ H); [lia|].
  pose proof (chain_length _ _ _ _ _ _ _ _ H). lia.
Qed.

Lemma inv_head_range z hs t : Inv z hs -> In t hs ->
  0 <= t /\ t + nbu (z_cells z) t <= z_n z /\ 1 <= nbu (z_cells z) t.
Proof.
  intros I Ht. destruct (inv_chain _ _ I) as (q & g & H).
  apply chain_bounds in H. destruct H as [_ H]. apply H; auto.
Qed.

Lemma inv_head_status z hs t : Inv z hs -> In t hs ->
  st (z_cells z) t = EMPTY \/ st (z_cells z) t = FULL.
Proof.
  intros I Ht. destruct (inv_chain _ _ I) as (q & g & H).
  destruct (chain_split _ _ _ _ _ _ _ _ t H Ht) as (_ & _ & _ & _ & _ & _ & J3 & _). exact J3.
Qed.

(* The heads of [old], which lie in [a,e), give way to those of [new]: what
   zone_malloc and zone_free both do.  The cells outside [a,e) keep status and
   size and, but for the one at e, back link; the index lists the free segments
   that stay and those among the new. *)
Lemma inv_replace z hs cs' ix' lA old new lB a e pa fa qe ge q g qe' ge' :
  let cs := z_cells z in
  let hs' := lA ++ new ++ lB in
  Inv z hs -> hs = lA ++ old ++ lB ->
  Chain cs 0 1 false lA a pa fa -> Chain cs e qe ge lB (z_n z) q g ->
  (forall t, In t old -> a <= t < e) ->
  Z.of_nat (length cs') = z_n z ->
  Chain cs' a pa fa new e qe' ge' ->
  (e < z_n z -> nbp cs' e = qe' /\ (ge' = true -> st cs e = FULL)) ->
  (forall u, 0 <= u -> u < a \/ e <= u ->
     st cs' u = st cs u /\ nbu cs' u = nbu cs u /\ (u <> e -> nbp cs' u = nbp cs u)) ->
  (forall u, 0 <= u < z_n z -> st cs' u = FULL -> In u new \/ st cs u = FULL /\ ~ In u old) ->
  keys_gt 0 ix' ->
  Rep (ix_find ix') (fun k x => FreeSeg cs hs k x /\ ~ In x old \/
                                In x new /\ st cs' x = EMPTY /\ nbu cs' x = k) ->
  Inv (mkZone (z_n z) (z_unit z) cs' ix') hs' /\
  (forall t, In t hs -> ~ In t old -> In t hs' /\ st cs' t = st cs t /\ nbu cs' t = nbu cs t) /\
  (forall t, In t hs' -> ~ In t new -> In t hs /\ ~ In t old /\ st cs' t = st cs t) /\
  sum_units FULL cs' hs' + sum_units FULL cs old = sum_units FULL cs hs + sum_units FULL cs' new.
Proof.
  intros cs hs' I -> HA HB Hold Hlen Hnew Hlink Hout Hfull Hs' Hrep. subst hs'.
  pose proof (chain_bounds _ _ _ _ _ _ _ _ HA) as [Ha0 BA].
  pose proof (chain_bounds _ _ _ _ _ _ _ _ HB) as [_ BB].
  pose proof (chain_bounds _ _ _ _ _ _ _ _ Hnew) as [Hae _].
  (* the heads that stay lie outside [a,e) *)
  assert (Hkeep : forall t, In t lA \/ In t lB -> ~ In t old /\
            st cs' t = st cs t /\ nbu cs' t = nbu cs t /\ (t <> e -> nbp cs' t = nbp cs t)).
  { intros t Ht. assert (0 <= t /\ (t < a \/ e <= t)) as [H0 Hr].
    { destruct Ht as [Ht|Ht]; [specialize (BA t Ht)|specialize (BB t Ht)]; lia. }
    split; [intros Hi; specialize (Hold t Hi); lia|auto]. }
  assert (Hin : forall t mid, In t (lA ++ mid ++ lB) <-> In t mid \/ In t lA \/ In t lB).
  { intros t mid. rewrite !in_app_iff. clear. tauto. }
  split; [constructor; cbn [z_n z_unit z_cells z_idx]; try apply I; auto|split; [|split]].
  - apply (chain_splice cs cs' 0 1 false lA a pa fa new e qe ge lB _ q g qe' ge'); auto.
    intros t Ht. apply Hkeep, Ht.
  - intros t Ht Hf. apply Hin. destruct (Hfull t Ht Hf) as [|[Hf0 Hno]]; auto.
    apply (inv_full_head _ _ I), Hin in Hf0; [|exact Ht]. destruct Hf0; [contradiction|auto].
  - eapply rep_ext; [exact Hrep|reflexivity|]. intros k x. unfold FreeSeg. rewrite !Hin. split.
    + intros [[([Hx|Hx] & Hs & Hn) Hno]|(Hx & Hs & Hn)]; [contradiction| |auto].
      destruct (Hkeep x Hx) as (_ & E1 & E2 & _). rewrite E1, E2. auto.
    + intros ([Hx|Hx] & Hs & Hn); [auto|left].
      destruct (Hkeep x Hx) as (Hno & E1 & E2 & _). rewrite E1 in Hs. rewrite E2 in Hn. auto.
  - intros t Ht Hno. apply Hin in Ht. destruct Ht as [Ht|Ht]; [contradiction|]. rewrite Hin.
    destruct (Hkeep t Ht) as (_ & E1 & E2 & _). auto.
  - intros t Ht Hno. apply Hin in Ht. destruct Ht as [Ht|Ht]; [contradiction|]. rewrite Hin.
    destruct (Hkeep t Ht) as (Hno' & E1 & _). auto.
  - rewrite !sum_units_app, (sum_units_ext2 FULL cs cs' lA), (sum_units_ext2 FULL cs cs' lB); [lia| |];
      intros t Ht; destruct (Hkeep t) as (_ & E1 & E2 & _); auto.
Qed.
