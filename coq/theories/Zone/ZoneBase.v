(* C28, part 1: the segment array as a list with get/set, and the free index
   seen as a function key -> option list (the view every proof uses). *)
From PV Require Import Base.Tac Zone.ZoneDefs.
Local Open Scope Z_scope.

Lemma lset_length {A} (l : list A) i x : length (lset l i x) = length l.
Proof. revert i; induction l as [|y r IH]; intros [|i]; cbn [lset length]; auto. Qed.

Lemma nth_lset {A} (l : list A) i j x d :
  (i < length l)%nat -> nth j (lset l i x) d = if Nat.eqb j i then x else nth j l d.
Proof.
  revert i j; induction l as [|y r IH]; intros i j Hi; cbn [length] in Hi; [lia|].
  destruct i as [|i], j as [|j]; cbn [lset nth Nat.eqb]; auto.
  apply IH; lia.
Qed.

Lemma cset_length cs t c : length (cset cs t c) = length cs.
Proof. apply lset_length. Qed.

Lemma cget_cset cs t c u :
  0 <= t < Z.of_nat (length cs) -> 0 <= u ->
  cget (cset cs t c) u = if u =? t then c else cget cs u.
Proof.
  intros Ht Hu. unfold cget, cset. rewrite nth_lset by lia.
  destruct (Nat.eqb_spec (Z.to_nat u) (Z.to_nat t)) as [E|E], (Z.eqb_spec u t) as [E'|E']; auto; lia.
Qed.

Lemma in_range_iff n t : in_range n t = true <-> 0 <= t < n.
Proof. unfold in_range. lia. Qed.
Lemma in_range_false n t : in_range n t = false <-> ~ (0 <= t < n).
Proof. unfold in_range. lia. Qed.

Notation st cs t := (c_st (cget cs t)).
Notation nbu cs t := (c_nbu (cget cs t)).
Notation nbp cs t := (c_nbp (cget cs t)).

Lemma cell_eq (c1 c2 : cell) :
  c_st c1 = c_st c2 -> c_nbu c1 = c_nbu c2 -> c_nbp c1 = c_nbp c2 -> c1 = c2.
Proof. destruct c1, c2; cbn; intros; subst; auto. Qed.

(* "if (next != NULL) next->nb_prev = v", as zone_malloc and zone_free do it *)
Lemma length_set_opt n cs t c : length (if in_range n t then cset cs t c else cs) = length cs.
Proof. destruct (in_range n t); [apply cset_length|reflexivity]. Qed.

Lemma cget_set_opt n cs t c u : Z.of_nat (length cs) = n -> 0 <= t -> 0 <= u ->
  cget (if in_range n t then cset cs t c else cs) u = if (u =? t) && (t <? n) then c else cget cs u.
Proof.
  intros Hl Ht Hu. destruct (in_range n t) eqn:E.
  - apply in_range_iff in E. rewrite cget_cset by lia. replace (t <? n) with true by lia.
    rewrite andb_true_r. reflexivity.
  - apply in_range_false in E. replace (t <? n) with false by lia. rewrite andb_false_r. reflexivity.
Qed.

Lemma cget_repeat k t : cget (repeat dcell k) t = dcell.
Proof.
  unfold cget. generalize (Z.to_nat t) as i. induction k as [|k IH]; intros [|i]; cbn [repeat nth]; auto.
Qed.

Lemma keys_gt_weaken b b' ix : b' <= b -> keys_gt b ix -> keys_gt b' ix.
Proof. destruct ix as [|[k l] r]; cbn [keys_gt]; intuition lia. Qed.

Lemma find_none_below b ix k : keys_gt b ix -> k <= b -> ix_find ix k = None.
Proof.
  revert b; induction ix as [|[k' l] r IH]; intros b Hs Hk; cbn [ix_find keys_gt] in *; auto.
  destruct Hs as [H1 H2]. destruct (Z.eqb_spec k' k); [lia|]. apply (IH k'); auto; lia.
Qed.

Lemma find_some_above b ix k l : keys_gt b ix -> ix_find ix k = Some l -> b < k.
Proof.
  intros Hs Hf. destruct (Z_lt_le_dec b k); auto.
  rewrite (find_none_below b ix k) in Hf; auto; discriminate.
Qed.

Lemma ix_find_set ix k l k' :
  ix_find (ix_set ix k l) k' =
  if k' =? k then match ix_find ix k with Some _ => Some l | None => None end else ix_find ix k'.
Proof.
  induction ix as [|[k0 l0] r IH]; cbn [ix_set ix_find].
  - destruct (k' =? k); auto.
  - destruct (Z.eqb_spec k0 k) as [E|E]; cbn [ix_find]; rewrite ?IH;
      destruct (Z.eqb_spec k0 k'), (Z.eqb_spec k' k); try lia; auto.
Qed.

Lemma ix_find_set_some ix k l0 l : ix_find ix k = Some l0 ->
  forall k', ix_find (ix_set ix k l) k' = if k' =? k then Some l else ix_find ix k'.
Proof. intros H k'. rewrite ix_find_set, H. reflexivity. Qed.

Lemma keys_gt_set b ix k l : keys_gt b ix -> keys_gt b (ix_set ix k l).
Proof.
  revert b; induction ix as [|[k0 l0] r IH]; intros b Hs; cbn [ix_set keys_gt] in *; auto.
  destruct Hs as [H1 H2]. destruct (k0 =? k); cbn [keys_gt]; auto.
Qed.

Lemma ix_find_remove b ix k k' : keys_gt b ix ->
  ix_find (ix_remove ix k) k' = if k' =? k then None else ix_find ix k'.
Proof.
  revert b; induction ix as [|[k0 l0] r IH]; intros b Hs; cbn [ix_remove ix_find keys_gt] in *.
  - destruct (k' =? k); auto.
  - destruct Hs as [H1 H2]. destruct (Z.eqb_spec k0 k) as [E|E].
    + subst k0. destruct (Z.eqb_spec k' k) as [E'|E'].
      * subst k'. apply (find_none_below k r k); auto; lia.
      * destruct (Z.eqb_spec k k'); try lia; auto.
    + cbn [ix_find]. rewrite (IH k0 H2).
      destruct (Z.eqb_spec k0 k'), (Z.eqb_spec k' k); try lia; auto.
Qed.

Lemma keys_gt_remove b ix k : keys_gt b ix -> keys_gt b (ix_remove ix k).
Proof.
  revert b; induction ix as [|[k0 l0] r IH]; intros b Hs; cbn [ix_remove keys_gt] in *; auto.
  destruct Hs as [H1 H2]. destruct (k0 =? k); cbn [keys_gt]; auto.
  apply keys_gt_weaken with k0; auto; lia.
Qed.

Lemma ix_find_insert ix k l k' : ix_find ix k = None ->
  ix_find (ix_insert ix k l) k' = if k' =? k then Some l else ix_find ix k'.
Proof.
  induction ix as [|[k0 l0] r IH]; intros Hn; cbn [ix_insert ix_find] in *.
  - destruct (Z.eqb_spec k k'), (Z.eqb_spec k' k); try lia; auto.
  - destruct (Z.eqb_spec k0 k) as [E|E]; [discriminate|].
    destruct (k <? k0); cbn [ix_find].
    + destruct (Z.eqb_spec k k'), (Z.eqb_spec k' k); try lia; auto.
    + destruct (Z.eqb_spec k0 k'), (Z.eqb_spec k' k); try lia; auto.
Qed.

Lemma keys_gt_insert b ix k l : keys_gt b ix -> b < k -> ix_find ix k = None ->
  keys_gt b (ix_insert ix k l).
Proof.
  revert b; induction ix as [|[k0 l0] r IH]; intros b Hs Hb Hn; cbn [ix_insert keys_gt ix_find] in *; auto.
  destruct Hs as [H1 H2]. destruct (Z.eqb_spec k0 k) as [E|E]; [discriminate|].
  destruct (Z.ltb_spec k k0); cbn [keys_gt]; auto.
  split; auto. apply IH; auto. lia.
Qed.

(* parsec_rbtree_find_or_larger returns the smallest key that is large enough *)
Lemma ix_find_ge_some b ix k k' l : keys_gt b ix -> ix_find_ge ix k = Some (k', l) ->
  ix_find ix k' = Some l /\ k <= k' /\ forall k'', k <= k'' -> k'' < k' -> ix_find ix k'' = None.
Proof.
  revert b; induction ix as [|[k0 l0] r IH]; intros b Hs Hf; cbn [ix_find_ge ix_find keys_gt] in *; [discriminate|].
  destruct Hs as [H1 H2]. destruct (Z.leb_spec k k0).
  - inv Hf. rewrite Z.eqb_refl. repeat split; auto; try lia.
    intros k'' Ha Hb. destruct (Z.eqb_spec k' k''); [lia|]. apply (find_none_below k' r); auto; lia.
  - destruct (IH k0 H2 Hf) as (Ha & Hb & Hc).
    pose proof (find_some_above _ _ _ _ H2 Ha).
    destruct (Z.eqb_spec k0 k'); [lia|]. repeat split; auto.
    intros k'' Hd He. destruct (Z.eqb_spec k0 k''); [lia|]. auto.
Qed.

Lemma ix_find_ge_none ix k : ix_find_ge ix k = None -> forall k', k <= k' -> ix_find ix k' = None.
Proof.
  induction ix as [|[k0 l0] r IH]; intros Hf k' Hk; cbn [ix_find_ge ix_find] in *; auto.
  destruct (Z.leb_spec k k0); [discriminate|].
  destruct (Z.eqb_spec k0 k'); [lia|]. auto.
Qed.

Definition fview := Z -> option (list Z).
Definition olist (l : list Z) : option (list Z) := if is_nil l then None else Some l.
Definition fget (f : fview) (k : Z) : list Z := match f k with Some l => l | None => [] end.
(* unlink t from the list of key K; the key disappears with its last element *)
Definition sp_del (f : fview) (K t : Z) : fview :=
  fun k => if k =? K then match f K with Some l => olist (remove_first t l) | None => None end else f k.
(* push t in front of the list of key K, creating the key if needed *)
Definition sp_add (f : fview) (K t : Z) : fview :=
  fun k => if k =? K then Some (t :: fget f K) else f k.
(* a node with key M and an empty list sits in the tree (kept for reuse) *)
Definition with_empty (f : fview) (M : Z) : fview := fun k => if k =? M then Some [] else f k.

(* f lists exactly the pairs (key, segment) of F, without empty lists or duplicates *)
Definition Rep (f : fview) (F : Z -> Z -> Prop) : Prop :=
  (forall k l, f k = Some l -> l <> [] /\ NoDup l) /\
  (forall k t, In t (fget f k) <-> F k t).

Lemma remove_first_in t l x : In x (remove_first t l) -> In x l.
Proof.
  induction l as [|y r IH]; cbn [remove_first]; auto.
  destruct (y =? t); cbn [In]; intuition.
Qed.
Lemma remove_first_nodup t l : NoDup l -> NoDup (remove_first t l).
Proof.
  induction l as [|y r IH]; cbn [remove_first]; intros H; auto. inv H.
  destruct (y =? t); auto. constructor; auto. intro Hi; apply remove_first_in in Hi; auto.
Qed.
Lemma remove_first_spec t l x : NoDup l -> (In x (remove_first t l) <-> In x l /\ x <> t).
Proof.
  induction l as [|y r IH]; cbn [remove_first In]; intros H; [tauto|]. inv H.
  destruct (Z.eqb_spec y t) as [E|E].
  - subst y. split; [intros Hi; split; auto; intro; subst; auto | intros [[?|?] ?]; auto; congruence].
  - cbn [In]. rewrite IH by auto. split; [intros [?|[? ?]]; subst; auto | intros [[?|?] ?]; auto].
Qed.

Lemma olist_some l l' : olist l = Some l' -> l' = l /\ l <> [].
Proof. unfold olist. destruct l; cbn [is_nil]; intros H; inv H. split; auto; discriminate. Qed.
Lemma fget_olist_in l x : In x (match olist l with Some l' => l' | None => [] end) <-> In x l.
Proof. unfold olist. destruct l; cbn [is_nil]; tauto. Qed.

Lemma rep_del f F K t : Rep f F -> F K t ->
  Rep (sp_del f K t) (fun k x => F k x /\ ~ (k = K /\ x = t)).
Proof.
  intros [H1 H2] HF. split.
  - intros k l. unfold sp_del. destruct (Z.eqb_spec k K) as [E|E]; [|apply H1].
    destruct (f K) as [l0|] eqn:E0; [|discriminate]. intros Ho. apply olist_some in Ho. destruct Ho; subst l.
    split; auto. apply remove_first_nodup. apply (H1 K); auto.
  - intros k x. unfold fget, sp_del. destruct (Z.eqb_spec k K) as [E|E].
    + subst k. specialize (H2 K x). unfold fget in H2. destruct (f K) as [l0|] eqn:E0.
      * rewrite fget_olist_in. rewrite remove_first_spec by (apply (H1 K); auto).
        rewrite H2. intuition.
      * cbn [In]. split; [tauto|]. intros [Hx _]. apply H2 in Hx. destruct Hx.
    + specialize (H2 k x). unfold fget in H2. rewrite H2. intuition.
Qed.

Lemma rep_add f F K t : Rep f F -> ~ F K t ->
  Rep (sp_add f K t) (fun k x => F k x \/ (k = K /\ x = t)).
Proof.
  intros [H1 H2] HF. split.
  - intros k l. unfold sp_add. destruct (Z.eqb_spec k K) as [E|E]; [|apply H1].
    intros Hs; inv Hs. split; [discriminate|]. constructor.
    + intro Hi. apply H2 in Hi. auto.
    + unfold fget. destruct (f K) eqn:E0; [apply (H1 K); auto | constructor].
  - intros k x. unfold sp_add. unfold fget at 1. destruct (Z.eqb_spec k K) as [E|E].
    + subst k. cbn [In]. rewrite H2. intuition.
    + specialize (H2 k x). unfold fget in H2. rewrite H2. intuition.
Qed.

Lemma rep_ext f f' F F' : Rep f F -> (forall k, f' k = f k) -> (forall k x, F k x <-> F' k x) -> Rep f' F'.
Proof.
  intros [H1 H2] Hf HF. split.
  - intros k l. rewrite Hf. apply H1.
  - intros k x. unfold fget. rewrite Hf. rewrite <- HF. apply H2.
Qed.

Lemma ix_push_spec ix k t l k' : ix_find ix k = Some l ->
  ix_find (ix_push ix k t) k' = if k' =? k then Some (t :: l) else ix_find ix k'.
Proof. intros H. unfold ix_push, ix_get. rewrite H. apply (ix_find_set_some _ _ l), H. Qed.

(* the final push of zone_malloc (split) and zone_free when no node is kept for reuse:
   find the node of size M or insert a fresh one, then push_front *)
Lemma ix_find_or_insert_push b ix M t :
  keys_gt b ix -> b < M ->
  let ix' := match ix_find ix M with
             | Some _ => ix_push ix M t
             | None => ix_push (ix_insert ix M []) M t
             end in
  keys_gt b ix' /\ forall k, ix_find ix' k = sp_add (ix_find ix) M t k.
Proof.
  intros Hs Hb. destruct (ix_find ix M) as [l|] eqn:E; cbn zeta.
  - split; [apply keys_gt_set; auto|]. intros k. rewrite (ix_push_spec _ _ _ l) by auto.
    unfold sp_add, fget. rewrite E. reflexivity.
  - split; [apply keys_gt_set, keys_gt_insert; auto|]. intros k.
    rewrite (ix_push_spec _ _ _ []) by (rewrite ix_find_insert by auto; rewrite Z.eqb_refl; auto).
    rewrite ix_find_insert by auto. unfold sp_add, fget. rewrite E.
    destruct (k =? M); auto.
Qed.

(* parsec_rbtree_update_node on a node whose list is empty *)
Lemma ix_update_key_spec b ix K M : keys_gt b ix -> b < M -> K <> M -> ix_find ix K = Some [] ->
  match ix_update_key ix K M with
  | Some ix' => ix_find ix M = None /\ keys_gt b ix' /\
                forall k, ix_find ix' k = if k =? M then Some [] else if k =? K then None else ix_find ix k
  | None => ix_find ix M <> None
  end.
Proof.
  intros Hs Hb Hne HK. unfold ix_update_key. destruct (Z.eqb_spec M K); [lia|].
  destruct (ix_find ix M) eqn:EM; [discriminate|].
  split; auto. split.
  - apply keys_gt_insert; auto using keys_gt_remove.
    rewrite (ix_find_remove b) by auto. destruct (M =? K); auto.
  - intros k. rewrite ix_find_insert.
    + unfold ix_get. rewrite HK. rewrite (ix_find_remove b) by auto. reflexivity.
    + rewrite (ix_find_remove b) by auto. destruct (M =? K); auto.
Qed.

(* the index through the blocks of zone_free: [g] is the content seen without the
   node kept for reuse, which, when it exists, carries key M and an empty list *)
Definition VI (M : Z) (ix : index) (r : bool) (g : fview) : Prop :=
  keys_gt 0 ix /\
  (forall k, ix_find ix k = if r then with_empty g M k else g k) /\
  (r = true -> g M = None).

(* one merge step of zone_free on the index *)
Lemma vi_unlink M ix r g K t l : VI M ix r g -> 0 < M -> K <> M -> g K = Some l ->
  VI M (fst (ix_unlink ix K t M r)) (snd (ix_unlink ix K t M r)) (sp_del g K t).
Proof.
  intros (Hs & Hv & Hr) Hb Hne HK.
  assert (HfK : ix_find ix K = Some l).
  { rewrite Hv. destruct r; auto. unfold with_empty. destruct (Z.eqb_spec K M); [lia|auto]. }
  assert (HgM : sp_del g K t M = g M).
  { unfold sp_del. destruct (Z.eqb_spec M K); [lia|auto]. }
  unfold ix_unlink. rewrite HfK.
  set (l' := remove_first t l).
  pose proof (ix_find_set_some ix K l l' HfK) as Hset.
  pose proof (keys_gt_set 0 ix K l' Hs) as Hs1.
  assert (Hdel : forall k, sp_del g K t k = if k =? K then olist l' else g k).
  { intros k. unfold sp_del. rewrite HK. reflexivity. }
  unfold olist in Hdel. destruct l' as [|x l''] eqn:El'; cbn [is_nil] in Hdel |- *.
  - (* the chunk list became empty *)
    destruct r.
    + split; [apply keys_gt_remove; auto|]. split.
      * intros k. cbn [fst snd]. rewrite (ix_find_remove 0) by auto. rewrite Hset, Hv.
        unfold with_empty. rewrite Hdel. destruct (Z.eqb_spec k K), (Z.eqb_spec k M); try lia; auto.
      * intros _. rewrite HgM. auto.
    + pose proof (ix_update_key_spec 0 (ix_set ix K []) K M Hs1 Hb Hne) as Hu.
      rewrite Hset, Z.eqb_refl in Hu. specialize (Hu eq_refl).
      destruct (ix_update_key (ix_set ix K []) K M) as [ix2|]; cbn [fst snd].
      * destruct Hu as (HM & Hs2 & Hf2). split; auto. split.
        -- intros k. rewrite Hf2, Hset, Hv. unfold with_empty. rewrite Hdel.
           destruct (Z.eqb_spec k M), (Z.eqb_spec k K); try lia; auto.
        -- intros _. rewrite HgM. rewrite Hset, Hv in HM.
           destruct (Z.eqb_spec M K); [lia|auto].
      * split; [apply keys_gt_remove; auto|]. split; [|discriminate].
        intros k. rewrite (ix_find_remove 0) by auto. rewrite Hset, Hv, Hdel.
        destruct (Z.eqb_spec k K); auto.
  - (* other segments of that size remain *)
    split; auto. split; cbn [fst snd].
    + intros k. rewrite Hset, Hv. destruct r.
      * unfold with_empty. rewrite Hdel. destruct (Z.eqb_spec k K), (Z.eqb_spec k M); try lia; auto.
      * rewrite Hdel. reflexivity.
    + intros E. rewrite HgM. auto.
Qed.
