(* C28, part 4: zone_free of a live allocation preserves the invariant and
   coalesces with both neighbours; a zone_free that the code rejects changes nothing. *)
From PV Require Import Base.Tac Zone.ZoneDefs Zone.ZoneBase Zone.ZoneChain Zone.ZoneMalloc.
Local Open Scope Z_scope.

(* the cells after the blocks of zone_free.  [Cells cs0 cs n c a e]: cs is cs0 where the
   status of c became EMPTY and [a,e) is one segment (its size at a, its back link at e);
   nothing else changed outside [a,e). *)
Definition Cells (cs0 cs : list cell) (n c a e : Z) : Prop :=
  length cs = length cs0 /\ nbu cs a = e - a /\ nbp cs a = nbp cs0 a /\
  (forall u, 0 <= u -> st cs u = if u =? c then EMPTY else st cs0 u) /\
  (forall u, 0 <= u -> u < a \/ e <= u ->
             nbu cs u = nbu cs0 u /\ (u <> e -> nbp cs u = nbp cs0 u)) /\
  (e < n -> nbp cs e = e - a).

Lemma cells_noprev cs0 n c K :
  Z.of_nat (length cs0) = n -> 0 <= c < n -> nbu cs0 c = K -> 1 <= K ->
  (c + K < n -> nbp cs0 (c + K) = K) ->
  Cells cs0 (cset cs0 c (with_st (cget cs0 c) EMPTY)) n c c (c + K).
Proof.
  intros Hl Hc HK HK1 Hlink. unfold Cells. rewrite cset_length.
  split; auto. split; [rewrite cget_cset by lia; eqb_lia; cbn; lia|]. split; [rewrite cget_cset by lia; eqb_lia; cbn; auto|].
  split; [|split].
  - intros u Hu. rewrite cget_cset by lia. destruct (Z.eqb_spec u c); subst; cbn; auto.
  - intros u Hu Hr. rewrite cget_cset by lia. eqb_lia. auto.
  - intros He. rewrite cget_cset by lia. eqb_lia. rewrite Hlink; lia.
Qed.

Lemma free_prev_skip n ix cs1 tid ptid ntid M :
  in_range n ptid && (st cs1 ptid =? EMPTY) = false ->
  free_prev n ix cs1 tid ptid ntid M = mkF cs1 ix false tid.
Proof. intros E. unfold free_prev. rewrite E. reflexivity. Qed.

Lemma free_prev_cur n ix cs1 tid ptid ntid M :
  in_range n ptid && (st cs1 ptid =? EMPTY) = true ->
  f_cur (free_prev n ix cs1 tid ptid ntid M) = ptid.
Proof. intros E. unfold free_prev. rewrite E. destruct (ix_unlink _ _ _ _ _). reflexivity. Qed.

(* [Resized n cs cs' a e]: cs' is cs with the size e - a written at a and, when
   e lies in the zone, the back link e - a written at e: what each merge block of
   zone_free does, in one order or the other *)
Definition Resized (n : Z) (cs cs' : list cell) (a e : Z) : Prop :=
  length cs' = length cs /\
  forall u, 0 <= u ->
    st cs' u = st cs u /\
    nbu cs' u = (if u =? a then e - a else nbu cs u) /\
    nbp cs' u = (if (u =? e) && (e <? n) then e - a else nbp cs u).

Lemma cells_resized cs0 cs cs' n c a e a' e' :
  Cells cs0 cs n c a e -> Resized n cs cs' a' e' -> 0 <= a' <= a -> a < e <= e' ->
  Cells cs0 cs' n c a' e'.
Proof.
  intros (L & Ma & Pa & S & O & D) [L' R] Ha He. unfold Cells.
  split; [congruence|].
  split; [destruct (R a') as (_ & E & _); [lia|]; rewrite E, Z.eqb_refl; reflexivity|].
  split.
  { destruct (R a') as (_ & _ & E); [lia|]. rewrite E. replace (a' =? e') with false by lia.
    destruct (Z.eq_dec a' a) as [->|]; [exact Pa|]. apply O; lia. }
  split; [|split].
  - intros u Hu. destruct (R u Hu) as (E & _). rewrite E. auto.
  - intros u Hu Hr. destruct (R u Hu) as (_ & E1 & E2). destruct (O u Hu ltac:(lia)) as [O1 O2]. split.
    + rewrite E1. replace (u =? a') with false by lia. exact O1.
    + intros Hne. rewrite E2. replace (u =? e') with false by lia. apply O2. lia.
  - intros Hlt. destruct (R e') as (_ & _ & E); [lia|]. rewrite E, Z.eqb_refl.
    replace (e' <? n) with true by lia. reflexivity.
Qed.

Lemma free_prev_resized n ix cs1 c pt e M :
  in_range n pt && (st cs1 pt =? EMPTY) = true ->
  Z.of_nat (length cs1) = n -> 0 <= pt < c -> c < e <= n ->
  nbu cs1 pt + nbu cs1 c = e - pt -> (e < n -> nbp cs1 e + nbu cs1 pt = e - pt) ->
  Resized n cs1 (f_cs (free_prev n ix cs1 c pt e M)) pt e.
Proof.
  intros E Hl Hpt He Hsz Hlk. unfold free_prev. rewrite E. destruct (ix_unlink _ _ _ _ _) as [ixa r]. cbn [f_cs].
  split; [rewrite cset_length; apply length_set_opt|].
  intros u Hu. rewrite cget_cset by (rewrite ?length_set_opt; lia). rewrite !cget_set_opt by lia.
  replace (pt =? e) with false by lia. replace (c =? e) with false by lia. cbn [andb]. rewrite Hsz.
  destruct (Z.eqb_spec u pt) as [->|]; [replace (pt =? e) with false by lia; auto|].
  destruct (Z.eqb_spec u e) as [->|]; cbn [andb]; auto.
  destruct (Z.ltb_spec e n); cbn [with_nbp c_st c_nbu c_nbp]; auto.
Qed.

Lemma free_next_skip n s e M :
  in_range n e && (st (f_cs s) e =? EMPTY) = false -> free_next n s e M = s.
Proof. intros E. unfold free_next. rewrite E. reflexivity. Qed.

Lemma free_next_cur n s e M : f_cur (free_next n s e M) = f_cur s.
Proof.
  unfold free_next. destruct (in_range n e && _); auto. destruct (ix_unlink _ _ _ _ _). reflexivity.
Qed.

Lemma free_next_resized n s e X M :
  in_range n e && (st (f_cs s) e =? EMPTY) = true ->
  Z.of_nat (length (f_cs s)) = n -> 0 <= f_cur s < e -> 1 <= X -> e + X <= n ->
  nbu (f_cs s) e = X -> nbu (f_cs s) (f_cur s) = e - f_cur s ->
  Resized n (f_cs s) (f_cs (free_next n s e M)) (f_cur s) (e + X).
Proof.
  destruct s as [cs2 ix r a]. cbn [f_cs f_cur]. intros E Hl Ha HX He EX Hsz.
  unfold free_next. cbn [f_cs f_cur f_ix f_reuse]. rewrite E, !EX.
  destruct (ix_unlink _ _ _ _ _) as [ixb r']. cbn [f_cs].
  split; [rewrite length_set_opt; apply cset_length|].
  intros u Hu. rewrite cget_set_opt by (rewrite ?cset_length; lia). rewrite !cget_cset by lia.
  rewrite Z.eqb_refl. replace (e + X =? a) with false by lia. cbn [with_nbu c_nbu]. rewrite Hsz.
  replace (e - a + X) with (e + X - a) by lia.
  destruct (Z.eqb_spec u (e + X)) as [->|]; cbn [andb].
  - replace (e + X =? a) with false by lia.
    destruct (Z.ltb_spec (e + X) n); cbn [with_nbp c_st c_nbu c_nbp]; auto.
  - destruct (Z.eqb_spec u a) as [->|]; auto.
Qed.

Lemma free_prev_index n ix cs1 tid ptid ntid M g l :
  in_range n ptid && (st cs1 ptid =? EMPTY) = true ->
  VI M ix false g -> 0 < M -> nbu cs1 ptid <> M -> g (nbu cs1 ptid) = Some l ->
  let s := free_prev n ix cs1 tid ptid ntid M in
  VI M (f_ix s) (f_reuse s) (sp_del g (nbu cs1 ptid) ptid).
Proof.
  intros E V HM HK Hg. pose proof (vi_unlink M ix false g _ ptid l V HM HK Hg) as V'.
  unfold free_prev. rewrite E. destruct (ix_unlink _ _ _ _ _). exact V'.
Qed.

Lemma free_next_index n s e M g l :
  in_range n e && (st (f_cs s) e =? EMPTY) = true ->
  VI M (f_ix s) (f_reuse s) g -> 0 < M -> nbu (f_cs s) e <> M -> g (nbu (f_cs s) e) = Some l ->
  let s' := free_next n s e M in
  VI M (f_ix s') (f_reuse s') (sp_del g (nbu (f_cs s) e) e).
Proof.
  intros E V HM HK Hg. pose proof (vi_unlink M _ _ g _ e l V HM HK Hg) as V'.
  unfold free_next. rewrite E. destruct (ix_unlink _ _ _ _ _). exact V'.
Qed.

Lemma vi_push M s g : VI M (f_ix s) (f_reuse s) g -> 0 < M -> nbu (f_cs s) (f_cur s) = M ->
  keys_gt 0 (free_push s M) /\ forall k, ix_find (free_push s M) k = sp_add g M (f_cur s) k.
Proof.
  intros (H1 & H2 & H3) HM Ha. unfold free_push. rewrite Ha.
  destruct (f_reuse s).
  - split; [apply keys_gt_set; auto|]. intros k.
    rewrite (ix_push_spec _ _ _ []) by (rewrite H2; unfold with_empty; rewrite Z.eqb_refl; auto).
    rewrite H2. unfold sp_add, with_empty, fget. rewrite (H3 eq_refl). destruct (k =? M); reflexivity.
  - destruct (ix_find_or_insert_push 0 (f_ix s) M (f_cur s) H1 HM) as [A B]. split; auto.
    intros k. rewrite B. unfold sp_add, fget. rewrite !H2. reflexivity.
Qed.

Lemma rep_find_some f F k t : Rep f F -> F k t -> exists l, f k = Some l.
Proof.
  intros [_ H] HF. apply H in HF. unfold fget in HF. destruct (f k); [eauto|destruct HF].
Qed.

Record FreeOk (z : zone) (hs : list Z) (c : Z) (z' : zone) (hs' : list Z) : Prop := mkFreeOk {
  fo_n : z_n z' = z_n z;
  fo_unit : z_unit z' = z_unit z;
  fo_inv : Inv z' hs';
  fo_kept : forall t, In t hs -> st (z_cells z) t = FULL -> t <> c ->
            In t hs' /\ st (z_cells z') t = FULL /\ nbu (z_cells z') t = nbu (z_cells z) t;
  fo_only : forall t, In t hs' -> st (z_cells z') t = FULL ->
            In t hs /\ st (z_cells z) t = FULL /\ t <> c;
  fo_defined : forall t, 0 <= t < z_n z ->
            st (z_cells z) t = EMPTY \/ st (z_cells z) t = FULL ->
            st (z_cells z') t = EMPTY \/ st (z_cells z') t = FULL;
  fo_sum : sum_units FULL (z_cells z') hs' = sum_units FULL (z_cells z) hs - nbu (z_cells z) c
}.

(* frees that zone_free rejects: out of range, or a segment already marked free *)
Lemma zfree_ignored z off :
  in_range (z_n z) (off / z_unit z) = false \/ st (z_cells z) (off / z_unit z) = EMPTY ->
  zfree z off = z.
Proof.
  intros [H|H]; unfold zfree.
  - rewrite H. reflexivity.
  - destruct (in_range (z_n z) (off / z_unit z)); cbn [negb]; auto. rewrite H. reflexivity.
Qed.

Section Free.
Variables (z : zone) (hs : list Z) (c : Z).
Hypothesis I : Inv z hs.
Hypothesis Hc : In c hs.
Hypothesis Hfull : st (z_cells z) c = FULL.
Local Notation cs0 := (z_cells z).
Local Notation n := (z_n z).
Local Notation K := (nbu (z_cells z) c).
Local Notation cs1 := (cset (z_cells z) c (with_st (cget (z_cells z) c) EMPTY)).

(* [hs] is lA, then the heads of [mid], then lB; those of [mid] cover [a,e) and are free
   except c, so that the units in use among them are the K of c; the segment before a is
   not free *)
Record Region (lA mid lB : list Z) (a e : Z) : Prop := mkRegion {
  rg_hs : hs = lA ++ mid ++ lB;
  rg_mid : forall t, In t mid -> a <= t < e /\ (t = c \/ st cs0 t = EMPTY);
  rg_a : In a mid;
  rg_c : In c mid;
  rg_A : exists fa, Chain cs0 0 1 false lA a (nbp cs0 a) fa /\ fa <> true;
  rg_B : exists qe ge q g, Chain cs0 e qe ge lB n q g;
  rg_sum : sum_units FULL cs0 mid = K
}.

(* the local state of zone_free once the segments of [mid] are merged into
   [a,e) and unlinked from the index; M is the size announced for the result *)
Record Stage (M : Z) (lA mid lB : list Z) (a e : Z) (s : fstate) : Prop := mkStage {
  sg_region : Region lA mid lB a e;
  sg_cells : Cells cs0 (f_cs s) n c a e;
  sg_cur : f_cur s = a;
  sg_index : exists g, VI M (f_ix s) (f_reuse s) g /\
                       Rep g (fun k t => FreeSeg cs0 hs k t /\ ~ In t mid)
}.

Lemma cs1_other u : 0 <= u -> u <> c -> cget cs1 u = cget cs0 u.
Proof.
  intros Hu Hne. destruct (inv_head_range _ _ _ I Hc). pose proof (inv_len _ _ I).
  rewrite cget_cset by lia. eqb_lia. reflexivity.
Qed.

Lemma cs1_self : cget cs1 c = with_st (cget cs0 c) EMPTY.
Proof.
  destruct (inv_head_range _ _ _ I Hc). pose proof (inv_len _ _ I). rewrite cget_cset by lia. rewrite Z.eqb_refl. reflexivity.
Qed.

Lemma vi_start M : VI M (z_idx z) false (ix_find (z_idx z)).
Proof. split; [apply (inv_sorted _ _ I)|]. split; auto. discriminate. Qed.

(* the block for the previous segment is skipped *)
Lemma stage_noprev M l1 l2 f1 q g pt :
  hs = l1 ++ c :: l2 -> Chain cs0 0 1 false l1 c (nbp cs0 c) f1 -> Chain cs0 (c + K) K false l2 n q g ->
  f1 <> true -> in_range n pt && (st cs1 pt =? EMPTY) = false ->
  Stage M l1 [c] l2 c (c + K) (free_prev n (z_idx z) cs1 c pt (c + K) M).
Proof.
  intros Ehs HA HB Hf1 E. rewrite free_prev_skip by exact E.
  destruct (inv_head_range _ _ _ I Hc) as (Hc0 & Hcn & HK1).
  constructor; cbn [f_cs f_cur f_ix f_reuse]; auto.
  - constructor; auto.
    + intros t [<-|[]]. split; [lia|auto].
    + left; auto.
    + left; auto.
    + eauto.
    + eauto.
    + rewrite sum_units_cons, Hfull. cbn. lia.
  - apply cells_noprev; auto; [apply (inv_len _ _ I)|lia|].
    intros Hlt. apply (chain_first _ _ _ _ _ _ _ _ HB Hlt).
  - exists (ix_find (z_idx z)). split; [apply vi_start|].
    eapply rep_ext; [exact (inv_rep _ _ I)|reflexivity|]. intros k t. unfold FreeSeg. split.
    + intros (A & B & C). split; auto. intros [<-|[]]. unfold FULL, EMPTY in *; lia.
    + tauto.
Qed.

(* the previous segment pt is free: it is unlinked and absorbs c *)
Lemma stage_prev_free M lA pt l2 fp q g :
  hs = (lA ++ [pt]) ++ c :: l2 -> Chain cs0 0 1 false lA pt (nbp cs0 pt) fp -> fp <> true ->
  st cs0 pt = EMPTY -> 1 <= nbu cs0 pt -> c = pt + nbu cs0 pt ->
  Chain cs0 (c + K) K false l2 n q g -> nbu cs0 pt + K <= M ->
  Stage M lA [pt; c] l2 pt (c + K) (free_prev n (z_idx z) cs1 c pt (c + K) M).
Proof.
  intros Ehs HA Hfp Hst HP Ec HB HM.
  destruct (inv_head_range _ _ _ I Hc) as (Hc0 & Hcn & HK1). pose proof (inv_len _ _ I) as Hlen.
  pose proof (chain_bounds _ _ _ _ _ _ _ _ HA) as [Hpt0 _].
  assert (Hlink : c + K < n -> nbp cs0 (c + K) = K) by (intros Hlt; apply (chain_first _ _ _ _ _ _ _ _ HB Hlt)).
  assert (Eo : cget cs1 pt = cget cs0 pt) by (apply cs1_other; lia).
  assert (E : in_range n pt && (st cs1 pt =? EMPTY) = true).
  { rewrite Eo, Hst. apply andb_true_iff. split; [apply in_range_iff; lia|reflexivity]. }
  constructor.
  - constructor; auto.
    + rewrite Ehs, <- app_assoc. reflexivity.
    + intros t [<-|[<-|[]]]; (split; [lia|auto]).
    + left; auto.
    + right; left; auto.
    + eauto.
    + eauto.
    + rewrite !sum_units_cons, Hfull, Hst. cbn. lia.
  - apply (cells_resized cs0 cs1 _ n c c (c + K)); try lia.
    + apply cells_noprev; auto; lia.
    + apply (free_prev_resized n _ cs1 c pt (c + K) M E);
        rewrite ?cs1_self, ?cs1_other by lia; cbn [with_st c_nbu]; try lia.
      rewrite cset_length. exact Hlen.
  - apply free_prev_cur, E.
  - assert (HF : FreeSeg cs0 hs (nbu cs0 pt) pt) by (split; [rewrite Ehs, !in_app_iff; cbn [In]; auto|auto]).
    destruct (rep_find_some _ _ _ _ (inv_rep _ _ I) HF) as (lp & Hlp).
    exists (sp_del (ix_find (z_idx z)) (nbu cs0 pt) pt). split.
    + pose proof (free_prev_index n (z_idx z) cs1 c pt (c + K) M _ lp E (vi_start M)) as V.
      cbv zeta in V. rewrite Eo in V. apply V; auto; lia.
    + eapply rep_ext; [apply rep_del; [exact (inv_rep _ _ I)|exact HF]|reflexivity|].
      intros k t. unfold FreeSeg. split.
      * intros ((A & B & C) & D). split; auto. intros [<-|[<-|[]]].
        -- apply D. split; auto.
        -- unfold FULL, EMPTY in *; lia.
      * intros (A & B). split; auto. intros [_ ->]. apply B. left; auto.
Qed.

Lemma stage_prev M l1 l2 f1 q g :
  hs = l1 ++ c :: l2 -> Chain cs0 0 1 false l1 c (nbp cs0 c) f1 -> Chain cs0 (c + K) K false l2 n q g ->
  let pt := c - nbp cs0 c in
  let P := if in_range n pt && (st cs1 pt =? EMPTY) then nbu cs1 pt else 0 in
  K + P <= M ->
  exists lA mid, Stage M lA mid l2 (c - P) (c + K) (free_prev n (z_idx z) cs1 c pt (c + K) M).
Proof.
  intros Ehs HA HB pt P HM. destruct l1 as [|u lA _] using rev_ind.
  - (* c is the first segment *)
    destruct (chain_nil_inv _ _ _ _ _ _ _ HA) as (Ec & Ep & Ef).
    assert (E : in_range n pt && (st cs1 pt =? EMPTY) = false).
    { replace (in_range n pt) with false; auto. symmetry. apply in_range_false. unfold pt. lia. }
    exists [], [c]. unfold P. rewrite E, Z.sub_0_r. apply (stage_noprev M [] l2 f1 q g); auto. congruence.
  - pose proof HA as HA'. apply chain_snoc_inv in HA'.
    destruct HA' as (pp & fp & HA0 & L1 & L2 & L3 & L4 & Ec & Ep & Ef).
    pose proof (chain_bounds _ _ _ _ _ _ _ _ HA0) as [Hu0 _].
    assert (Ept : pt = u) by (unfold pt; lia).
    assert (Eo : cget cs1 u = cget cs0 u) by (apply cs1_other; lia).
    assert (E : in_range n u && (st cs1 u =? EMPTY) = (st cs0 u =? EMPTY)).
    { rewrite Eo. replace (in_range n u) with true; auto.
      symmetry. apply in_range_iff. destruct (inv_head_range _ _ _ I Hc). lia. }
    unfold P in HM |- *. rewrite Ept, E, Eo in HM |- *.
    destruct L3 as [L3|L3]; rewrite L3 in HM |- *; cbn [EMPTY FULL Z.eqb Pos.eqb] in HM |- *.
    + (* the previous segment is free *)
      exists lA, [u; c]. replace (c - nbu cs0 u) with u by lia.
      apply (stage_prev_free M lA u l2 fp q g); auto; try lia.
      * rewrite L2. exact HA0.
      * intros ->. rewrite L4 in L3 by auto. discriminate.
    + (* the previous segment is in use *)
      rewrite Z.sub_0_r. exists (lA ++ [u]), [c].
      apply (stage_noprev M _ l2 f1 q g); auto; [rewrite Ef, L3; discriminate|rewrite E, L3; reflexivity].
Qed.

Lemma stage_next M lA mid lB a e s :
  Stage M lA mid lB a e s ->
  let X := if in_range n e && (st (f_cs s) e =? EMPTY) then nbu (f_cs s) e else 0 in
  e - a + X <= M ->
  exists mid' lB', Stage M lA mid' lB' a (e + X) (free_next n s e M) /\ (e + X < n -> st cs0 (e + X) = FULL).
Proof.
  intros S X HM. pose proof S as [R C Ecur (g2 & V & HRep)].
  destruct (rg_mid _ _ _ _ _ R c (rg_c _ _ _ _ _ R)) as [Hce _].
  destruct (rg_A _ _ _ _ _ R) as (fa & HA & _).
  pose proof (chain_bounds _ _ _ _ _ _ _ _ HA) as [Ha0 _].
  pose proof C as (_ & _ & _ & S2 & O2 & _).
  assert (Est : st (f_cs s) e = st cs0 e) by (rewrite S2 by lia; eqb_lia; auto).
  assert (Enb : nbu (f_cs s) e = nbu cs0 e) by (apply O2; lia).
  destruct (rg_B _ _ _ _ _ R) as (qe & ge & q & g & HB).
  unfold X in *. clear X. destruct (in_range n e && (st (f_cs s) e =? EMPTY)) eqn:E.
  - (* the next segment exists and is free *)
    pose proof E as Ee. rewrite Est in Ee. apply andb_true_iff in Ee. destruct Ee as [Er N3].
    apply in_range_iff in Er. apply Z.eqb_eq in N3.
    destruct lB as [|x lB']; [apply chain_nil_inv in HB; lia|].
    pose proof HB as HB'. apply chain_cons_inv in HB'. destruct HB' as (-> & N1 & N2 & _ & N4 & N5).
    pose proof (chain_bounds _ _ _ _ _ _ _ _ N5) as [Hen _].
    rewrite N3 in N5. cbn [Z.eqb Pos.eqb EMPTY] in N5. rewrite Enb in HM |- *.
    exists (mid ++ [e]), lB'. split.
    + assert (HF : FreeSeg cs0 hs (nbu cs0 e) e /\ ~ In e mid).
      { split; [split; auto; rewrite (rg_hs _ _ _ _ _ R), !in_app_iff; cbn [In]; auto|].
        intros Hi. apply (rg_mid _ _ _ _ _ R) in Hi. lia. }
      constructor.
      * destruct R as [Rhs Rmid Ra Rc RA RB Rsum]. constructor; auto.
        -- rewrite Rhs, <- app_assoc. reflexivity.
        -- intros t Ht. apply in_app_iff in Ht. destruct Ht as [Ht|[<-|[]]].
           ++ destruct (Rmid t Ht). split; [lia|auto].
           ++ split; [lia|auto].
        -- apply in_app_iff; auto.
        -- apply in_app_iff; auto.
        -- eauto.
        -- rewrite sum_units_app, Rsum, sum_units_cons, N3. cbn. lia.
      * apply (cells_resized cs0 (f_cs s) _ n c a e a (e + nbu cs0 e)); auto; try lia.
        rewrite <- Ecur. destruct C as (L2 & Ma & _).
        apply free_next_resized; rewrite ?Ecur; auto; try lia.
        rewrite L2. apply (inv_len _ _ I).
      * rewrite free_next_cur. auto.
      * destruct (rep_find_some _ _ _ _ HRep HF) as (lx & Hlx).
        exists (sp_del g2 (nbu cs0 e) e). split.
        -- pose proof (free_next_index n s e M _ lx E V) as V'.
           cbv zeta in V'. rewrite Enb in V'. apply V'; auto; lia.
        -- eapply rep_ext; [apply rep_del; [exact HRep|exact HF]|reflexivity|].
           intros k t. rewrite in_app_iff. cbn [In]. split.
           ++ intros ((A & B) & D). split; auto. intros [Hi|[<-|[]]]; auto.
              apply D. destruct A as (_ & _ & A). auto.
           ++ intros (A & B). split; [split; auto|]. intros [_ ->]. auto.
    + intros Hlt. apply (chain_first _ _ _ _ _ _ _ _ N5 Hlt). reflexivity.
  - (* the block is skipped: at the end of the zone, or before a segment in use *)
    rewrite Z.add_0_r, free_next_skip by exact E. exists mid, lB. split; [exact S|].
    intros Hlt. destruct lB as [|x lB']; [apply chain_nil_inv in HB; lia|].
    apply chain_cons_inv in HB. destruct HB as (-> & N1 & _ & [N3|N3] & _ & N5); auto.
    rewrite Est, N3, andb_true_r in E. apply in_range_false in E. lia.
Qed.

(* the merged segment [a,e) replaces the heads of [mid] *)
Lemma free_assemble lA mid lB a e s :
  Stage (e - a) lA mid lB a e s -> (e < n -> st cs0 e = FULL) ->
  FreeOk z hs c (mkZone n (z_unit z) (f_cs s) (free_push s (e - a))) (lA ++ a :: lB).
Proof.
  intros [[Ehs Hmid Hamid Hcmid (fa & HA & HfA) (qe & ge & q & g & HB) Hsum] C Ecur (g2 & V & Hrep)] HhB.
  destruct (Hmid c Hcmid) as [Hcr _].
  destruct (vi_push _ s g2 V) as [HsF Hview]; [lia|rewrite Ecur; apply C|]. rewrite Ecur in Hview.
  set (csF := f_cs s) in *. set (ixF := free_push s (e - a)) in *.
  destruct C as (LF & Ma & Pa & SF & OF & DF).
  pose proof (chain_bounds _ _ _ _ _ _ _ _ HA) as [Ha0 _].
  assert (Hst_a : st csF a = EMPTY).
  { rewrite SF by lia. destruct (Z.eqb_spec a c); auto.
    destruct (Hmid a Hamid) as [_ [?|?]]; [lia|auto]. }
  assert (Hmc : forall t, In t mid -> st cs0 t = FULL -> t = c).
  { intros t Ht Hf. destruct (Hmid t Ht) as [_ [?|Hs]]; auto. rewrite Hs in Hf. discriminate. }
  destruct (inv_replace z hs csF ixF lA mid [a] lB a e (nbp cs0 a) fa qe ge q g (e - a) true I Ehs HA HB)
    as (I' & Hkept & Honly & Hsum'); auto.
  - intros t Ht. apply Hmid, Ht.
  - rewrite LF. apply (inv_len _ _ I).
  - constructor; rewrite ?Ma, ?Pa, ?Hst_a; auto; try lia; try (intros Hf; destruct (HfA Hf)).
    replace (a + (e - a)) with e by lia. constructor.
  - intros u Hu Hr. destruct (OF u Hu Hr) as [E1 E2]. rewrite SF by lia. eqb_lia. auto.
  - intros u Hu Hf. right. rewrite SF in Hf by lia. destruct (Z.eqb_spec u c); [discriminate|].
    split; auto.
  - eapply rep_ext; [apply rep_add; [exact Hrep|]|exact Hview|].
    + intros [_ Hn]. auto.
    + intros k t. cbn [In]. split.
      * intros [?|[-> ->]]; auto.
      * intros [?|([<-|[]] & _ & <-)]; auto.
  - cbn [app] in *. constructor; cbn [z_n z_unit z_cells z_idx]; auto.
    + intros t Ht Hf Hne. destruct (Hkept t Ht) as (A & B & D); auto. rewrite B. auto.
    + intros t Ht Hf. destruct (Honly t Ht) as (A & B & D).
      * intros [<-|[]]. rewrite Hst_a in Hf. discriminate.
      * split; auto. split; [congruence|]. intros ->. auto.
    + intros t Ht Hd. fold csF. rewrite SF by lia. destruct (t =? c); auto.
    + rewrite sum_units_cons, Hst_a in Hsum'. cbn in Hsum'. lia.
Qed.

Lemma zfree_live off : off / z_unit z = c -> exists hs', FreeOk z hs c (zfree z off) hs'.
Proof.
  intros Hoff. destruct (inv_head_range _ _ _ I Hc) as (Hc0 & Hcn & HK1).
  (* the chain around c *)
  destruct (inv_chain _ _ I) as (q & g & Hch).
  destruct (chain_split _ _ _ _ _ _ _ _ c Hch Hc) as (l1 & l2 & f1 & Ehs & HA & _ & _ & _ & HB).
  replace (st cs0 c =? EMPTY) with false in HB by (rewrite Hfull; reflexivity).
  (* the code up to the first block *)
  unfold zfree. rewrite Hoff. cbv zeta.
  replace (in_range n c) with true by (symmetry; apply in_range_iff; lia).
  rewrite Hfull. cbn [negb Z.eqb Pos.eqb FULL EMPTY]. fold EMPTY.
  rewrite cs1_self. cbn [with_st c_nbu c_nbp].
  set (P := if in_range n (c - nbp cs0 c) && _ then _ else 0).
  set (X := if in_range n (c + K) && _ then _ else 0).
  (* the next segment, if any, has a size *)
  assert (HX : 0 <= X).
  { unfold X. destruct (in_range n (c + K)) eqn:Er; cbn [andb]; [|lia]. apply in_range_iff in Er.
    destruct (st cs1 (c + K) =? EMPTY); [|lia]. rewrite cs1_other by lia.
    destruct (chain_first _ _ _ _ _ _ _ _ HB) as (_ & ? & _); lia. }
  destruct (stage_prev (K + P + X) l1 l2 f1 q g Ehs HA HB) as (lA & mid & S2); [fold P; lia|].
  fold P in S2.
  set (s2 := free_prev _ _ _ _ _ _ _) in *.
  assert (Ecs : st (f_cs s2) (c + K) = st cs1 (c + K) /\ nbu (f_cs s2) (c + K) = nbu cs1 (c + K)).
  { destruct (sg_cells _ _ _ _ _ _ _ S2) as (_ & _ & _ & SF & OF & _).
    rewrite cs1_other, SF by lia. destruct (OF (c + K)) as [E _]; [lia|lia|]. rewrite E.
    eqb_lia. auto. }
  destruct Ecs as [Ecs1 Ecs2].
  destruct (stage_next _ _ _ _ _ _ _ S2) as (mid' & lB & S3 & HlB).
  { cbv zeta. rewrite Ecs1, Ecs2. fold X. lia. }
  cbv zeta in S3, HlB. rewrite Ecs1, Ecs2 in S3, HlB. fold X in S3, HlB.
  exists (lA ++ (c - P) :: lB). replace (K + P + X) with (c + K + X - (c - P)) in * by lia.
  exact (free_assemble _ _ _ _ _ _ S3 HlB).
Qed.
End Free.
