(* C28, part 3: zone_malloc_init establishes the invariant; zone_malloc preserves
   it, fails exactly when no free segment fits, and takes a smallest fitting one. *)
From PV Require Import Base.Tac Zone.ZoneDefs Zone.ZoneBase Zone.ZoneChain.
Local Open Scope Z_scope.

(* decide [a =? b] by arithmetic wherever it occurs in the goal *)
Ltac eqb_lia :=
  repeat match goal with
  | |- context[?a =? ?b] =>
      first [ replace (a =? b) with true by (symmetry; apply Z.eqb_eq; lia)
            | replace (a =? b) with false by (symmetry; apply Z.eqb_neq; lia) ]
  end.

Lemma units_of_nonneg size unit : 0 <= size -> 1 <= unit -> 0 <= units_of size unit.
Proof. intros. unfold units_of. apply Z.div_pos; lia. Qed.
Lemma units_of_cover size unit : 1 <= unit -> size <= units_of size unit * unit.
Proof.
  intros. unfold units_of.
  pose proof (Z.mul_div_le (size + unit - 1) unit ltac:(lia)).
  pose proof (Z.mod_pos_bound (size + unit - 1) unit ltac:(lia)).
  pose proof (Z.div_mod (size + unit - 1) unit ltac:(lia)). nia.
Qed.
Lemma units_of_pos size unit : 0 < size -> 1 <= unit -> 1 <= units_of size unit.
Proof.
  intros. unfold units_of.
  assert (1 * unit <= size + unit - 1) by lia.
  pose proof (Z.div_le_mono (1 * unit) (size + unit - 1) unit ltac:(lia) ltac:(lia)).
  rewrite Z.div_mul in *; lia.
Qed.
Lemma units_of_zero size unit : 0 <= size -> 1 <= unit -> units_of size unit = 0 -> size = 0.
Proof.
  intros H1 H2 H3. destruct (Z.eq_dec size 0); auto.
  pose proof (units_of_pos size unit ltac:(lia) H2). lia.
Qed.

Lemma init_inv n unit : 1 <= n -> 1 <= unit -> Inv (zone_init n unit) [0].
Proof.
  intros Hn Hu. unfold zone_init.
  assert (Hlen : Z.of_nat (length (repeat dcell (Z.to_nat n))) = n) by (rewrite repeat_length; lia).
  assert (Hc : forall u, 0 <= u ->
             cget (cset (repeat dcell (Z.to_nat n)) 0 (mkCell EMPTY n 1)) u =
             if u =? 0 then mkCell EMPTY n 1 else dcell).
  { intros u Hu0. rewrite cget_cset by lia. rewrite cget_repeat. reflexivity. }
  constructor; cbn [z_n z_unit z_cells z_idx]; auto.
  - rewrite cset_length. auto.
  - exists n, true. constructor; rewrite ?Hc by lia; cbn; auto; try lia; try (intros; discriminate).
    constructor.
  - intros t Ht. rewrite Hc by lia. destruct (t =? 0); cbn; unfold FULL, EMPTY, UNDEF; lia.
  - cbn. lia.
  - split.
    + intros k l. cbn [ix_find]. destruct (n =? k); intros H; inv H.
      split; [discriminate|]. constructor; [intros []|constructor].
    + intros k t. unfold fget, FreeSeg. cbn [ix_find]. destruct (Z.eqb_spec n k) as [E|E]; cbn [In].
      * split.
        -- intros [<-|[]]. rewrite Hc by lia. cbn. auto.
        -- intros ([<-|[]] & _). auto.
      * split; [tauto|]. intros ([<-|[]] & _ & H). rewrite Hc in H by lia. cbn in H. lia.
Qed.

Lemma remove_first_head t l : remove_first t (t :: l) = l.
Proof. cbn [remove_first]. rewrite Z.eqb_refl. reflexivity. Qed.

Lemma malloc_index_nosplit b ix k cur rest : keys_gt b ix -> ix_find ix k = Some (cur :: rest) ->
  let ix1 := ix_set ix k rest in
  let ix2 := if is_nil rest then ix_remove ix1 k else ix1 in
  keys_gt b ix2 /\ forall x, ix_find ix2 x = sp_del (ix_find ix) k cur x.
Proof.
  intros Hs Hf ix1 ix2. pose proof (keys_gt_set b ix k rest Hs) as Hs1.
  pose proof (ix_find_set_some ix k _ rest Hf) as H1. fold ix1 in H1.
  unfold ix2, sp_del. rewrite Hf, remove_first_head. destruct rest as [|y r]; cbn [is_nil olist].
  - split; [apply keys_gt_remove; auto|]. intros x. rewrite (ix_find_remove b) by auto. rewrite H1.
    destruct (x =? k); auto.
  - split; auto.
Qed.

Lemma malloc_index_split b ix k cur rest rem new :
  keys_gt b ix -> b < rem -> rem <> k -> ix_find ix k = Some (cur :: rest) ->
  let ix1 := ix_set ix k rest in
  let ix2 := if is_nil rest then
               match ix_update_key ix1 k rem with
               | Some ix' => ix_push ix' rem new
               | None => ix_push (ix_remove ix1 k) rem new
               end
             else
               match ix_find ix1 rem with
               | Some _ => ix_push ix1 rem new
               | None => ix_push (ix_insert ix1 rem []) rem new
               end in
  keys_gt b ix2 /\ forall x, ix_find ix2 x = sp_add (sp_del (ix_find ix) k cur) rem new x.
Proof.
  intros Hs Hb Hne Hf ix1 ix2. pose proof (keys_gt_set b ix k rest Hs) as Hs1.
  pose proof (ix_find_set_some ix k _ rest Hf) as H1. fold ix1 in H1.
  assert (Hd : forall x, sp_del (ix_find ix) k cur x = if x =? k then olist rest else ix_find ix x).
  { intros x. unfold sp_del. rewrite Hf, remove_first_head. reflexivity. }
  assert (Hg : fget (sp_del (ix_find ix) k cur) rem = fget (ix_find ix) rem).
  { unfold fget. rewrite Hd. destruct (Z.eqb_spec rem k); [lia|auto]. }
  unfold ix2. destruct rest as [|y r]; cbn [is_nil].
  - pose proof (ix_update_key_spec b ix1 k rem Hs1 Hb ltac:(lia)) as Hu.
    rewrite H1, Z.eqb_refl in Hu. specialize (Hu eq_refl).
    destruct (ix_update_key ix1 k rem) as [ix'|].
    + destruct Hu as (HM & Hs2 & Hf2). split; [apply keys_gt_set; auto|].
      intros x. rewrite (ix_push_spec _ _ _ []) by (rewrite Hf2, Z.eqb_refl; auto).
      unfold sp_add. rewrite Hg, Hd, Hf2, H1. unfold fget.
      rewrite H1 in HM. destruct (Z.eqb_spec rem k); [lia|]. rewrite HM.
      destruct (Z.eqb_spec x rem), (Z.eqb_spec x k); try lia; auto.
    + split; [apply keys_gt_set, keys_gt_remove; auto|].
      rewrite H1 in Hu. destruct (Z.eqb_spec rem k); [lia|].
      destruct (ix_find ix rem) as [l'|] eqn:El'; [|congruence].
      intros x. rewrite (ix_push_spec _ _ _ l').
      * unfold sp_add. rewrite Hg, Hd. unfold fget. rewrite El'.
        rewrite (ix_find_remove b) by auto. rewrite H1.
        destruct (Z.eqb_spec x rem), (Z.eqb_spec x k); try lia; auto.
      * rewrite (ix_find_remove b) by auto. rewrite H1.
        destruct (Z.eqb_spec rem k); [lia|auto].
  - destruct (ix_find_or_insert_push b ix1 rem new Hs1 Hb) as [Ha Hb']. split; auto.
    intros x. rewrite Hb'. unfold sp_add, fget. rewrite !H1, !Hd. cbn [olist is_nil]. reflexivity.
Qed.

Record MallocOk (z : zone) (hs : list Z) (req : Z) (z' : zone) (hs' : list Z) (cur : Z) : Prop := mkMallocOk {
  mo_n : z_n z' = z_n z;
  mo_unit : z_unit z' = z_unit z;
  mo_inv : Inv z' hs';
  (* the chosen segment was free, large enough, and a smallest such *)
  mo_head : In cur hs;
  mo_free : st (z_cells z) cur = EMPTY;
  mo_fits : req <= nbu (z_cells z) cur;
  mo_best : forall t, In t hs -> st (z_cells z) t = EMPTY -> req <= nbu (z_cells z) t ->
            nbu (z_cells z) cur <= nbu (z_cells z) t;
  (* it is now a full segment of exactly req units; the other full segments are untouched *)
  mo_head' : In cur hs';
  mo_full' : st (z_cells z') cur = FULL;
  mo_size' : nbu (z_cells z') cur = req;
  mo_kept : forall t, In t hs -> st (z_cells z) t = FULL ->
            In t hs' /\ st (z_cells z') t = FULL /\ nbu (z_cells z') t = nbu (z_cells z) t;
  mo_only : forall t, In t hs' -> st (z_cells z') t = FULL -> t <> cur ->
            In t hs /\ st (z_cells z) t = FULL;
  mo_defined : forall t, 0 <= t < z_n z ->
            st (z_cells z) t = EMPTY \/ st (z_cells z) t = FULL ->
            st (z_cells z') t = EMPTY \/ st (z_cells z') t = FULL;
  mo_sum : sum_units FULL (z_cells z') hs' = sum_units FULL (z_cells z) hs + req
}.

(* the cells once the split branch of zone_malloc has taken req units of the free segment [m, m+k) *)
Definition split_cell (n : Z) (cs0 : list cell) (m k req u : Z) : cell :=
  if u =? m then mkCell FULL req (nbp cs0 m)
  else if u =? m + req then mkCell EMPTY (k - req) req
  else if (u =? m + k) && (m + k <? n) then with_nbp (cget cs0 u) (nbp cs0 u - req)
  else cget cs0 u.

(* the four writes of that branch *)
Lemma split_cells n cs0 m k req :
  Z.of_nat (length cs0) = n -> 0 <= m -> m + k <= n -> 0 < req < k -> nbu cs0 m = k ->
  let cs1 := cset cs0 m (with_st (cget cs0 m) FULL) in
  let cs2 := if in_range n (m + k)
             then cset cs1 (m + k) (with_nbp (cget cs1 (m + k)) (nbp cs1 (m + k) - req)) else cs1 in
  let cs3 := cset cs2 (m + req) (mkCell EMPTY (k - req) req) in
  let cs4 := cset cs3 m (with_nbu (cget cs3 m) req) in
  nbu cs2 m = k /\ length cs4 = length cs0 /\
  forall u, 0 <= u -> cget cs4 u = split_cell n cs0 m k req u.
Proof.
  intros Hl Hm Hk Hreq Ek cs1 cs2 cs3 cs4.
  assert (L1 : Z.of_nat (length cs1) = n) by (unfold cs1; rewrite cset_length; auto).
  assert (L2 : length cs2 = length cs1) by apply length_set_opt.
  assert (R1 : forall u, 0 <= u -> cget cs1 u = if u =? m then with_st (cget cs0 m) FULL else cget cs0 u).
  { intros u Hu. apply cget_cset; lia. }
  assert (R2 : forall u, 0 <= u -> cget cs2 u =
            if (u =? m + k) && (m + k <? n)
            then with_nbp (cget cs1 (m + k)) (nbp cs1 (m + k) - req) else cget cs1 u).
  { intros u Hu. apply cget_set_opt; auto; lia. }
  assert (E2 : nbu cs2 m = k).
  { rewrite R2 by lia. replace (m =? m + k) with false by lia. cbn [andb].
    rewrite R1, Z.eqb_refl by lia. exact Ek. }
  assert (R3 : forall u, 0 <= u -> cget cs3 u = if u =? m + req then mkCell EMPTY (k - req) req else cget cs2 u).
  { intros u Hu. apply cget_cset; lia. }
  assert (L3 : length cs3 = length cs2) by apply cset_length.
  split; auto. split; [unfold cs4; rewrite cset_length; lia|].
  intros u Hu. unfold cs4, split_cell. rewrite cget_cset by lia.
  rewrite !R3, !R2, !R1 by lia.
  replace (m =? m + req) with false by lia. replace (m =? m + k) with false by lia.
  replace (m + k =? m) with false by lia. rewrite Z.eqb_refl. cbn [andb].
  destruct (Z.eqb_spec u m) as [->|]; [reflexivity|].
  destruct (Z.eqb_spec u (m + req)); auto. destruct (Z.eqb_spec u (m + k)) as [->|]; auto.
Qed.

Section Take.
Variables (z : zone) (hs : list Z) (m k req : Z) (rest : list Z).
Hypothesis I : Inv z hs.
Hypothesis Hfind : ix_find (z_idx z) k = Some (m :: rest).
Hypothesis Hreq : 1 <= req <= k.
Hypothesis Hbest : forall t, In t hs -> st (z_cells z) t = EMPTY -> req <= nbu (z_cells z) t ->
                             k <= nbu (z_cells z) t.
Local Notation cs0 := (z_cells z).
Local Notation n := (z_n z).

Lemma take_free : FreeSeg cs0 hs k m.
Proof. apply (inv_rep _ _ I). unfold fget. rewrite Hfind. left; auto. Qed.

(* In the cells cs' the segment [m, m+k) has become the chain m :: ex, m in use
   with req units and the heads of ex free; the cells outside it are unchanged
   but for the back link of the segment that follows; ix' lists the free
   segments accordingly. *)
Lemma malloc_assemble cs' ix' ex qe ge :
  Z.of_nat (length cs') = n ->
  st cs' m = FULL -> nbu cs' m = req -> nbp cs' m = nbp cs0 m ->
  Chain cs' (m + req) req false ex (m + k) qe ge ->
  (forall t, In t ex -> st cs' t = EMPTY) ->
  (forall u, 0 <= u -> u <> m -> ~ In u ex ->
     st cs' u = st cs0 u /\ nbu cs' u = nbu cs0 u /\ (u <> m + k -> nbp cs' u = nbp cs0 u)) ->
  (m + k < n -> nbp cs' (m + k) = qe) ->
  keys_gt 0 ix' ->
  Rep (ix_find ix') (fun k' x => FreeSeg cs0 hs k' x /\ ~ (k' = k /\ x = m) \/ In x ex /\ nbu cs' x = k') ->
  exists hs', MallocOk z hs req (mkZone n (z_unit z) cs' ix') hs' m.
Proof.
  intros Hlen Hstm Hnbm Hnpm Hmid Hex Hread Hlink Hs' Hrep.
  destruct take_free as (Hm & Hst & Hk).
  destruct (inv_chain _ _ I) as (q & g & Hch).
  destruct (chain_split _ _ _ _ _ _ _ _ m Hch Hm) as (l1 & l2 & f1 & Ehs & HA & _ & _ & _ & HB).
  rewrite Hst, Hk in HB. change (EMPTY =? EMPTY) with true in HB.
  pose proof (chain_bounds _ _ _ _ _ _ _ _ Hmid) as [_ BM].
  assert (Hfm : st cs0 m <> FULL) by (rewrite Hst; discriminate).
  destruct (inv_replace z hs cs' ix' l1 [m] (m :: ex) l2 m (m + k) (nbp cs0 m) f1 k true q g qe ge I Ehs HA HB)
    as (I' & Hkept & Honly & Hsum); auto.
  - intros t [<-|[]]. lia.
  - constructor; rewrite ?Hstm, ?Hnbm; auto; lia.
  - intros Hlt. split; auto. intros _. apply (chain_first _ _ _ _ _ _ _ _ HB Hlt). reflexivity.
  - intros u Hu Hr. apply Hread; try lia. intros Hx. specialize (BM u Hx). lia.
  - intros u Hu Hf. destruct (Z.eq_dec u m) as [->|Hne]; [left; left; auto|].
    destruct (in_dec Z.eq_dec u ex) as [|Hnx]; [left; right; auto|right].
    destruct (Hread u) as (E & _); auto; try lia. split; [congruence|]. intros [|[]]; auto.
  - eapply rep_ext; [exact Hrep|reflexivity|]. intros k' x. cbn [In]. split.
    + intros [[F Hne]|[Hx Hn]]; [left|auto]. split; auto. intros [<-|[]]. apply Hne. destruct F as (_ & _ & F). split; congruence.
    + intros [[F Hne]|([<-|Hx] & Hs & Hn)]; [left|rewrite Hstm in Hs; discriminate|auto].
      split; auto. intros [_ ->]. auto.
  - cbn [app] in *. exists (l1 ++ m :: ex ++ l2). constructor; cbn [z_n z_unit z_cells z_idx]; auto; try lia.
    + intros t Ht Hs Hge. rewrite Hk. auto.
    + apply in_app_iff. cbn [In]. auto.
    + intros t Ht Hf. destruct (Hkept t Ht) as (A & B & C); [intros [<-|[]]; auto|]. rewrite B. auto.
    + intros t Ht Hf Hne. destruct (Honly t Ht) as (A & _ & B).
      * intros [|Hx]; [auto|]. rewrite (Hex t Hx) in Hf. discriminate.
      * split; congruence.
    + intros t Ht Hd. destruct (Z.eq_dec t m) as [->|Hne]; [rewrite Hstm; auto|].
      destruct (in_dec Z.eq_dec t ex) as [Hx|Hnx]; [rewrite (Hex t Hx); auto|].
      destruct (Hread t) as (E & _); auto; lia.
    + rewrite !sum_units_cons, Hstm, Hnbm, Hst, (sum_units_none FULL cs' ex) in Hsum.
      * cbn in Hsum. lia.
      * intros t Ht. rewrite (Hex t Ht). discriminate.
Qed.

(* exact fit: the segment changes status and nothing else *)
Lemma malloc_exact ix2 : k = req ->
  keys_gt 0 ix2 -> (forall x, ix_find ix2 x = sp_del (ix_find (z_idx z)) k m x) ->
  let cs1 := cset cs0 m (with_st (cget cs0 m) FULL) in
  exists hs', MallocOk z hs req (mkZone n (z_unit z) cs1 ix2) hs' m.
Proof.
  intros Ek Hs2 Hview cs1. destruct take_free as (Hm & Hst & Hk).
  destruct (inv_head_range _ _ _ I Hm) as (Hm0 & Hmn & _). pose proof (inv_len _ _ I) as Hlen.
  destruct (inv_chain _ _ I) as (q & g & Hch).
  assert (L1 : length cs1 = length cs0) by apply cset_length.
  assert (Cm : cget cs1 m = with_st (cget cs0 m) FULL) by (unfold cs1; rewrite cget_cset, Z.eqb_refl by lia; auto).
  assert (Co : forall u, 0 <= u -> u <> m -> cget cs1 u = cget cs0 u).
  { intros u Hu Hne. unfold cs1. rewrite cget_cset by lia. destruct (Z.eqb_spec u m); [lia|auto]. }
  apply (malloc_assemble cs1 ix2 [] k false); rewrite ?Cm; cbn [with_st c_st c_nbu c_nbp]; auto; try lia.
  - rewrite <- Ek. constructor.
  - intros t [].
  - intros u Hu Hne _. rewrite Co by lia. auto.
  - intros Hlt. rewrite Co by lia.
    destruct (chain_split _ _ _ _ _ _ _ _ m Hch Hm) as (_ & l2 & _ & _ & _ & _ & _ & _ & HB).
    rewrite Hk in HB. apply (chain_first _ _ _ _ _ _ _ _ HB Hlt).
  - eapply rep_ext; [apply rep_del; [exact (inv_rep _ _ I)|exact take_free]|exact Hview|].
    intros k' x. split; [auto|]. intros [?|[[] _]]; auto.
Qed.

(* split: the first req units stay with m, the rest becomes a new free segment *)
Lemma malloc_split cs4 ix2 : req < k ->
  length cs4 = length cs0 ->
  (forall u, 0 <= u -> cget cs4 u = split_cell n cs0 m k req u) ->
  keys_gt 0 ix2 ->
  (forall x, ix_find ix2 x = sp_add (sp_del (ix_find (z_idx z)) k m) (k - req) (m + req) x) ->
  exists hs', MallocOk z hs req (mkZone n (z_unit z) cs4 ix2) hs' m.
Proof.
  intros Hlt L4 R4 Hs2 Hview. unfold split_cell in R4. destruct take_free as (Hm & Hst & Hk).
  destruct (inv_head_range _ _ _ I Hm) as (Hm0 & Hmn & _). pose proof (inv_len _ _ I) as Hlen.
  destruct (inv_chain _ _ I) as (q & g & Hch). rewrite Hk in Hmn.
  assert (Cm : cget cs4 m = mkCell FULL req (nbp cs0 m)) by (rewrite R4, Z.eqb_refl by lia; auto).
  assert (Cnew : cget cs4 (m + req) = mkCell EMPTY (k - req) req).
  { rewrite R4 by lia. eqb_lia. reflexivity. }
  apply (malloc_assemble cs4 ix2 [m + req] (k - req) true); rewrite ?Cm; cbn [c_st c_nbu c_nbp]; auto; try lia.
  - constructor; rewrite ?Cnew; cbn [c_st c_nbu c_nbp]; auto; try lia; try discriminate.
    replace (m + req + (k - req)) with (m + k) by lia. constructor.
  - intros t [<-|[]]. rewrite Cnew. reflexivity.
  - intros u Hu Hne Hnx. assert (u <> m + req) by (intros ->; apply Hnx; left; auto).
    rewrite R4 by lia. eqb_lia. destruct (Z.eqb_spec u (m + k)) as [->|]; cbn [andb]; auto.
    destruct (m + k <? n); auto. repeat split; auto. lia.
  - intros Hltn. rewrite R4 by lia. eqb_lia. replace (m + k <? n) with true by lia.
    cbn [andb with_nbp c_nbp].
    destruct (chain_split _ _ _ _ _ _ _ _ m Hch Hm) as (_ & l2 & _ & _ & _ & _ & _ & _ & HB).
    rewrite Hk in HB. destruct (chain_first _ _ _ _ _ _ _ _ HB Hltn) as (_ & _ & E & _). lia.
  - eapply rep_ext; [apply rep_add; [apply rep_del; [exact (inv_rep _ _ I)|exact take_free]|]|exact Hview|].
    + intros [[Hi _] _]. pose proof (chain_sep _ _ _ _ _ _ _ _ m (m + req) Hch Hm Hi ltac:(lia)). lia.
    + intros k' x. cbn [In]. split.
      * intros [?|[-> ->]]; auto. rewrite Cnew. auto.
      * intros [?|[[<-|[]] <-]]; auto. rewrite Cnew. auto.
Qed.
End Take.

Lemma zmalloc_spec z hs size : Inv z hs -> 0 <= size ->
  let req := units_of size (z_unit z) in
  match zmalloc z size with
  | (z', None) => z' = z /\ (size = 0 \/ forall t, In t hs -> st (z_cells z) t = EMPTY -> nbu (z_cells z) t < req)
  | (z', Some off) => 0 < size /\ exists cur hs', off = cur * z_unit z /\ MallocOk z hs req z' hs' cur
  end.
Proof.
  intros I Hsize req. pose proof (inv_unit _ _ I) as Hunit. pose proof (inv_sorted _ _ I) as Hsorted.
  destruct (inv_rep _ _ I) as [Rne Rin].
  pose proof (units_of_nonneg size (z_unit z) Hsize Hunit) as Hreq0. fold req in Hreq0.
  (* every free segment sits in the chunk list of its size *)
  assert (Hlisted : forall t, In t hs -> st (z_cells z) t = EMPTY ->
                    ix_find (z_idx z) (nbu (z_cells z) t) <> None).
  { intros t Ht Hst Hnone. assert (Hin : In t (fget (ix_find (z_idx z)) (nbu (z_cells z) t))) by (apply Rin; split; auto).
    unfold fget in Hin. rewrite Hnone in Hin. destruct Hin. }
  unfold zmalloc. fold req.
  destruct (Z.eqb_spec req 0) as [E0|E0].
  { split; auto. left. apply (units_of_zero size (z_unit z)); auto. }
  assert (Hpos : 0 < size).
  { destruct (Z.eq_dec size 0) as [->|]; [|lia]. exfalso. apply E0. unfold req, units_of.
    apply Z.div_small. lia. }
  destruct (ix_find_ge (z_idx z) req) as [[k l]|] eqn:Ege.
  2:{ (* no chunk list with a large enough key *)
    split; auto. right. intros t Ht Hst.
    destruct (Z_lt_le_dec (nbu (z_cells z) t) req) as [|Hge]; auto.
    destruct (Hlisted t Ht Hst). apply (ix_find_ge_none _ _ Ege _ Hge). }
  destruct (ix_find_ge_some 0 _ _ _ _ Hsorted Ege) as (Hfk & Hle & Hmin).
  destruct l as [|m rest]; [destruct (Rne _ _ Hfk); congruence|].
  assert (Hbest : forall t, In t hs -> st (z_cells z) t = EMPTY -> req <= nbu (z_cells z) t ->
                  k <= nbu (z_cells z) t).
  { intros t Ht Hst Hge. destruct (Z_lt_le_dec (nbu (z_cells z) t) k); auto.
    destruct (Hlisted t Ht Hst). auto. }
  destruct (take_free z hs m k rest I Hfk) as (Hm & Hst & Hk).
  destruct (inv_head_range _ _ _ I Hm) as (Hm0 & Hmn & _). pose proof (inv_len _ _ I) as Hlen.
  assert (Hreq : 1 <= req <= k) by lia.
  rewrite (cget_cset (z_cells z) m _ m), Z.eqb_refl by lia. cbn [with_st c_nbu]. rewrite Hk.
  destruct (Z.ltb_spec req k) as [Hsplit|Hexact]; cbv beta iota; (split; [exact Hpos|]); exists m.
  - destruct (split_cells (z_n z) (z_cells z) m k req) as (E2 & L4 & R4); auto; try lia.
    rewrite E2.
    destruct (malloc_index_split 0 (z_idx z) k m rest (k - req) (m + req) Hsorted) as [Hs2 Hview]; auto; try lia.
    destruct (malloc_split z hs m k req rest I Hfk Hreq Hbest _ _ Hsplit L4 R4 Hs2 Hview) as (hs' & M). eauto.
  - destruct (malloc_index_nosplit 0 (z_idx z) k m rest Hsorted Hfk) as [Hs2 Hview].
    destruct (malloc_exact z hs m k req rest I Hfk Hreq Hbest _ ltac:(lia) Hs2 Hview) as (hs' & M).
    eauto.
Qed.
