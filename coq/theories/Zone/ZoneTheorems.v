(* C28, part 6: three statements of Properties_C28.v, for every client state that satisfies the
   client-level invariant of ZoneSpec.v: live allocations are disjoint, zone_malloc
   fails exactly when no free window fits, and it is best fit. *)
From PV Require Import Base.Tac Zone.ZoneDefs Zone.ZoneBase Zone.ZoneChain Zone.ZoneMalloc Zone.ZoneFree Zone.ZoneSpec.
Local Open Scope Z_scope.

Section Client.
Variables (n unit : Z) (c : client) (hs : list Z).
Hypothesis Hu : 1 <= unit.
Hypothesis CI : CInv n unit c hs.

Lemma live_disjoint i j o1 s1 o2 s2 : i <> j ->
  nth_error (cl_live c) i = Some (o1, s1) -> nth_error (cl_live c) j = Some (o2, s2) ->
  o1 + units_of s1 unit * unit <= o2 \/ o2 + units_of s2 unit * unit <= o1.
Proof.
  intros Hij H1 H2.
  assert (Hne : o1 <> o2).
  { intro E. subst o2. pose proof (ci_nodup _ _ _ _ CI) as Hnd.
    rewrite NoDup_nth_error in Hnd. apply Hij. apply Hnd.
    - rewrite map_length. apply nth_error_Some. congruence.
    - rewrite !nth_error_map, H1, H2. reflexivity. }
  destruct (ci_live _ _ _ _ CI _ _ (nth_error_In _ _ H1)) as (_ & t1 & -> & Ht1 & _ & Hn1).
  destruct (ci_live _ _ _ _ CI _ _ (nth_error_In _ _ H2)) as (_ & t2 & -> & Ht2 & _ & Hn2).
  destruct (view_chain n unit c hs CI) as (q & g & H).
  rewrite <- Hn1, <- Hn2.
  destruct (Z.lt_total t1 t2) as [Hlt|[E|Hlt]]; [|subst; congruence|].
  - left. pose proof (chain_sep _ _ _ _ _ _ _ _ t1 t2 H Ht1 Ht2 Hlt). nia.
  - right. pose proof (chain_sep _ _ _ _ _ _ _ _ t2 t1 H Ht2 Ht1 Hlt). nia.
Qed.

Lemma malloc_fails_iff size : 0 < size ->
  (snd (step c (Malloc size)) = None <-> ~ exists a, free_window c a (units_of size unit)).
Proof.
  intros Hp.
  pose proof (zmalloc_spec (cl_zone c) hs size (ci_inv _ _ _ _ CI) ltac:(lia)) as Hm. cbv zeta in Hm.
  rewrite (ci_unit _ _ _ _ CI) in Hm.
  pose proof (units_of_pos size unit Hp Hu) as Hreq.
  cbn [step]. destruct (zmalloc (cl_zone c) size) as [z' [off|]]; cbn [snd].
  - destruct Hm as (_ & cur & hs' & _ & M). split; [discriminate|]. intros Hno. exfalso. apply Hno.
    destruct M. destruct (head_range n unit c hs CI cur mo_head) as (H0 & H1 & H2).
    exists cur. split; auto. rewrite (ci_n _ _ _ _ CI). split; [lia|].
    intros u Hr. apply (free_head_not_busy n unit c hs Hu CI cur u); auto. lia.
  - destruct Hm as (_ & [E|Hsmall]); [lia|]. split; auto. intros _ (a & Hw).
    destruct (window_in_free_head n unit c hs Hu CI a _ Hreq Hw) as (h & Hh & Hst & Hha & Hk).
    specialize (Hsmall h Hh Hst). lia.
Qed.

Lemma malloc_best_fit size off : 0 <= size -> snd (step c (Malloc size)) = Some off ->
  off mod unit = 0 /\
  exists k, max_free_run c (off / unit) k /\ units_of size unit <= k /\
    forall a' k', max_free_run c a' k' -> units_of size unit <= k' -> k <= k'.
Proof.
  intros Hp.
  pose proof (zmalloc_spec (cl_zone c) hs size (ci_inv _ _ _ _ CI) Hp) as Hm. cbv zeta in Hm.
  rewrite (ci_unit _ _ _ _ CI) in Hm.
  cbn [step]. destruct (zmalloc (cl_zone c) size) as [z' [o|]]; cbn [snd]; intros E; inv E.
  destruct Hm as (_ & cur & hs' & -> & M). destruct M.
  split; [apply Z.mod_mul; lia|]. rewrite Z.div_mul by lia.
  exists (nbu (z_cells (cl_zone c)) cur). split; [|split; auto].
  - apply (run_iff n unit c hs Hu CI). auto.
  - intros a' k' Hrun Hk. apply (run_iff n unit c hs Hu CI) in Hrun. destruct Hrun as (Ha & Hst & <-).
    apply mo_best; auto.
Qed.

End Client.
