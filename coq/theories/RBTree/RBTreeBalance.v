(* C36, part 2: the red-black invariants (black root, no red node with a red
   child, equal black heights) are kept by insert and remove, fix-ups included.
   The invariants of a tree with a hole (a zipper context) are stated relative
   to the black height and the root colour of what fills the hole. *)
From PV Require Import Base.Tac RBTree.RBTreeDefs RBTree.RBTreeOrder.

Definition fcol (f : frame) : color := match f with FL c _ _ | FR c _ _ => c end.
Definition fsib (f : frame) : tree := match f with FL _ _ r => r | FR _ l _ => l end.

(* the context is balanced when the hole receives a balanced tree of black height h *)
Fixpoint cbal (ctx : list frame) (h : nat) : Prop :=
  match ctx with
  | [] => True
  | f :: up => bal (fsib f) /\ bh (fsib f) = h /\ cbal up (h + bk (fcol f))
  end.
(* the context has no red-red pair when the hole receives a tree whose root has colour hc *)
Fixpoint cnrr (ctx : list frame) (hc : color) : Prop :=
  match ctx with
  | [] => True
  | f :: up => nrr (fsib f) /\ (fcol f = Red -> hc = Black /\ col (fsib f) = Black) /\ cnrr up (fcol f)
  end.
(* colour of the root of the plugged tree *)
Fixpoint croot (ctx : list frame) (hc : color) : color :=
  match ctx with [] => hc | f :: up => croot up (fcol f) end.

Lemma col_T c l n r : col (T c l n r) = c.
Proof. destruct c; reflexivity. Qed.
Lemma col_fill f t : col (fill f t) = fcol f.
Proof. destruct f; apply col_T. Qed.

Lemma plug_bal : forall ctx t, bal (plug ctx t) <-> bal t /\ cbal ctx (bh t).
Proof.
  induction ctx as [|f up IH]; intros t; cbn [plug cbal]; [tauto|].
  rewrite IH. destruct f as [c n r|c l n]; cbn [fill bal bh fsib fcol].
  - split.
    + intros ((Ht & Hr & He) & Hc). auto.
    + intros (Ht & Hr & He & Hc). auto.
  - split.
    + intros ((Hl & Ht & He) & Hc). rewrite He in Hc. auto.
    + intros (Ht & Hl & He & Hc). rewrite He. auto.
Qed.

Lemma plug_nrr : forall ctx t, nrr (plug ctx t) <-> nrr t /\ cnrr ctx (col t).
Proof.
  induction ctx as [|f up IH]; intros t; cbn [plug cnrr]; [tauto|].
  rewrite IH, col_fill. destruct f as [c n r|c l n]; cbn [fill nrr fsib fcol]; tauto.
Qed.

Lemma col_plug : forall ctx t, col (plug ctx t) = croot ctx (col t).
Proof.
  induction ctx as [|f up IH]; intros t; cbn [plug croot]; auto. rewrite IH, col_fill. reflexivity.
Qed.

Lemma plug_is_rb ctx t :
  is_rb (plug ctx t) <-> croot ctx (col t) = Black /\ (nrr t /\ cnrr ctx (col t)) /\ (bal t /\ cbal ctx (bh t)).
Proof. unfold is_rb. rewrite col_plug, plug_nrr, plug_bal. tauto. Qed.

Lemma cbal_eq ctx h h' : cbal ctx h -> h = h' -> cbal ctx h'.
Proof. intros H <-; exact H. Qed.

(* a black hole is always acceptable *)
Lemma cnrr_black ctx hc : cnrr ctx hc -> cnrr ctx Black.
Proof. destruct ctx as [|f up]; cbn [cnrr]; tauto. Qed.
Lemma cnrr_any ctx hc hc' : cnrr ctx hc -> match ctx with [] => True | f :: _ => fcol f = Black end -> cnrr ctx hc'.
Proof. destruct ctx as [|f up]; cbn [cnrr]; auto. intros (H1 & H2 & H3) Hf. rewrite Hf in *. repeat split; auto; discriminate. Qed.

Lemma croot_indep ctx hc hc' : ctx <> [] -> croot ctx hc = croot ctx hc'.
Proof. destruct ctx; [congruence|reflexivity]. Qed.

Lemma col_make_black t : col (make_black t) = Black.
Proof. destruct t; reflexivity. Qed.
Lemma bal_make_black t : bal (make_black t) <-> bal t.
Proof. destruct t; cbn; tauto. Qed.
Lemma nrr_make_black t : nrr t -> nrr (make_black t).
Proof. destruct t; cbn; auto. intros (H1 & H2 & _). repeat split; auto; discriminate. Qed.
Lemma make_black_id t : col t = Black -> make_black t = t.
Proof. destruct t as [|[|] l n r]; cbn; auto; discriminate. Qed.
Lemma bh_make_black t : col t = Black -> bh (make_black t) = bh t.
Proof. intros H; rewrite make_black_id; auto. Qed.

Lemma is_rb_make_black t : nrr t -> bal t -> is_rb (make_black t).
Proof.
  intros H1 H2. split; [apply col_make_black|]. split; [apply nrr_make_black|apply bal_make_black]; auto.
Qed.

(* [rbcbn] computes the invariants on constructor forms; [rbhyp] splits the conjunctions this
   gives and discharges the colour premises [c = c -> _].  [rbfin] then closes the conditions of
   a rotated or recoloured shape: each conjunct is a hypothesis, an equation between black
   heights ([lia]), the balance of the context at an equal height ([cbal_eq]), or its freedom
   from red-red pairs under a black hole ([cnrr_black]). *)
Ltac rbcbn := cbn [nrr bal bh bk col fcol fsib cnrr cbal croot fill plug make_black Nat.add] in *.
Ltac rbhyp := repeat match goal with
  | H : _ /\ _ |- _ => destruct H
  | H : ?c = ?c -> _ |- _ => specialize (H eq_refl)
  | H : Black = Red -> _ |- _ => clear H
  | H : Red = Black -> _ |- _ => clear H
  | H : Red = Black |- _ => discriminate H
  | H : Black = Red |- _ => discriminate H
  end.
Ltac rbfin := rbcbn; rbhyp; repeat split; intros; rbcbn; auto; try discriminate; try lia;
  try (eapply cbal_eq; [eassumption|cbn; lia]);
  try (eapply cnrr_black; eassumption).

Lemma ins_fix_black f up zl zn zr :
  fcol f = Black -> ins_fix zl zn zr (f :: up) = plug (f :: up) (T Red zl zn zr).
Proof. destruct f as [[|] pn pr|[|] pl pn]; [discriminate|reflexivity|discriminate|reflexivity]. Qed.

(* where the loop ends, the tree is sound but for the colour of its root *)
Lemma ins_done ctx z :
  nrr z -> bal z -> cnrr ctx (col z) -> cbal ctx (bh z) -> nrr (make_black (plug ctx z)) /\ bal (plug ctx z).
Proof. intros. split; [apply nrr_make_black|]; rewrite ?plug_nrr, ?plug_bal; auto. Qed.

Lemma ins_fix_rb : forall ctx zl zn zr h,
  nrr zl -> nrr zr -> col zl = Black -> col zr = Black -> bal zl -> bal zr -> bh zl = h -> bh zr = h ->
  cnrr ctx Black -> cbal ctx h ->
  nrr (make_black (ins_fix zl zn zr ctx)) /\ bal (ins_fix zl zn zr ctx).
Proof.
  induction ctx as [|f|f g up IH] using ctx_ind2; intros zl zn zr h Hl Hr Hcl Hcr Hbl Hbr Hhl Hhr Hn Hb.
  - cbn. repeat split; auto; try discriminate; lia.
  - destruct f as [[|] pn pr|[|] pl pn]; rbfin.
  - destruct (fcol f) eqn:Hf.
    + (* red parent, hence black grand-parent: a red uncle is recoloured and the loop goes on
         from the grand-parent; otherwise the rotations end it *)
      destruct f as [fc pn pr|fc pl pn]; cbn [fcol] in Hf; subst fc;
        destruct g as [[|] gn u|[|] u gn]; rbcbn; rbhyp;
        (destruct u as [|[|] ul un ur]; cbn [ins_fix];
         [apply ins_done|apply (IH _ _ _ (S h))|apply ins_done]; rbfin).
    + rewrite ins_fix_black by exact Hf.
      apply ins_done; [rbfin|rbfin|apply (cnrr_any _ Black); assumption|eapply cbal_eq; [eassumption|cbn; lia]].
Qed.

Lemma insert_rb n t : is_rb t -> is_rb (insert n t).
Proof.
  intros Ht. unfold insert.
  pose proof (descend_plug (nkey n) t []) as Hp. cbn [plug] in Hp. rewrite <- Hp in Ht.
  apply plug_is_rb in Ht as (_ & (_ & Hn) & (_ & Hb)). cbn [col bh] in Hn, Hb.
  destruct (ins_fix_rb (descend (nkey n) t []) E n E 0%nat) as [H1 H2]; cbn; auto.
  split; [apply col_make_black|]. split; [auto|apply bal_make_black; auto].
Qed.

(* what one iteration of the delete fix-up hands on: t stands where the parent (of colour pc, over
   sub-trees of black height h and S h) stood; after [Up] it is still one black node short *)
Definition dstep_ok (h : nat) (pc : color) (d : dstep) : Prop :=
  match d with
  | Up t => nrr (make_black t) /\ bal t /\ bh t = (h + bk pc)%nat /\ col t = pc
  | Done t => nrr t /\ bal t /\ bh t = (S h + bk pc)%nat /\ col t = pc
  end.

Lemma del_left_rb x pc pn w h :
  nrr x -> bal x -> bh x = h -> nrr w -> bal w -> bh w = S h -> col w = Black ->
  dstep_ok h pc (del_left x pc pn w).
Proof.
  intros Hx Hbx Hhx Hw Hbw Hhw Hcw. unfold dstep_ok.
  destruct w as [|[|] wl wn wr]; [discriminate|discriminate|].
  destruct wl as [|[|] a ln b]; destruct wr as [|[|] c rn d]; cbn [del_left]; rewrite ?col_T; rbfin.
Qed.
Lemma del_right_rb x pc pn w h :
  nrr x -> bal x -> bh x = h -> nrr w -> bal w -> bh w = S h -> col w = Black ->
  dstep_ok h pc (del_right x pc pn w).
Proof.
  intros Hx Hbx Hhx Hw Hbw Hhw Hcw. unfold dstep_ok.
  destruct w as [|[|] wl wn wr]; [discriminate|discriminate|].
  destruct wl as [|[|] a ln b]; destruct wr as [|[|] c rn d]; cbn [del_right]; rewrite ?col_T; rbfin.
Qed.

Lemma bh_make_black_red x : col x = Red -> bh (make_black x) = S (bh x).
Proof. destruct x as [|[|] l n r]; cbn; try discriminate. intros _. lia. Qed.
Lemma croot_black ctx c : croot ctx c = Black -> croot ctx Black = Black.
Proof. destruct ctx; cbn; auto. Qed.

(* x is a sub-tree one black node short of what its place requires *)
Lemma del_fix_rb : forall ctx x,
  nrr (make_black x) -> bal x -> cnrr ctx Black -> cbal ctx (S (bh x)) -> croot ctx Black = Black ->
  is_rb (del_fix x ctx).
Proof.
  induction ctx as [|f up IH]; intros x Hx Hbx Hn Hb Hr; cbn [del_fix].
  - split; [apply col_make_black|]. split; [auto|apply bal_make_black; auto].
  - destruct (col x) eqn:Hcx.
    { apply plug_is_rb. rewrite col_make_black, bal_make_black, (bh_make_black_red x Hcx). auto. }
    rewrite (make_black_id x Hcx) in Hx.
    cbn [cnrr cbal croot] in Hn, Hb, Hr. destruct Hn as (Hw & Hpc & Hn); destruct Hb as (Hbw & Hhw & Hb).
    (* an iteration on a black sibling: [Up] goes on from the parent, [Done] ends the loop *)
    assert (Hblack : forall d, dstep_ok (bh x) (fcol f) d ->
              is_rb (match d with Up t => del_fix t up | Done t => make_black (plug up t) end)).
    { intros [t|t] (Ht & Hbt & Hht & Hct).
      - apply IH; auto; [eapply cnrr_black; eauto|eapply cbal_eq; [eassumption|lia]|eapply croot_black; eauto].
      - rewrite make_black_id by (rewrite col_plug, Hct; auto).
        apply plug_is_rb. rewrite Hct. rbfin. }
    (* a red sibling is rotated above the parent, which turns red; the iteration then runs under
       the frame g of the sibling, now black, and either way ends the loop *)
    assert (Hred : forall d g, fcol f = Black -> dstep_ok (bh x) Red d ->
              fcol g = Black -> nrr (fsib g) -> bal (fsib g) -> bh (fsib g) = S (bh x) ->
              is_rb (match d with Up t => plug (g :: up) (make_black t) | Done t => make_black (plug (g :: up) t) end)).
    { intros [t|t] g Hf (Ht & Hbt & Hht & Hct) Hg Hng Hbg Hhg; rewrite Hf in *.
      - apply plug_is_rb. cbn [croot cnrr cbal].
        rewrite col_make_black, bal_make_black, (bh_make_black_red t Hct), Hg. rbfin.
      - rewrite make_black_id by (rewrite col_plug; cbn [croot]; rewrite Hg; auto).
        apply plug_is_rb. cbn [croot cnrr cbal]. rewrite Hg. rbfin. }
    destruct f as [pc pn w|pc w pn]; cbn [fsib fcol] in *; (destruct w as [|[|] wl wn wr]; [discriminate| |]).
    + destruct pc; rbcbn; rbhyp.
      apply (Hred _ (FL Black wn wr)); auto; [|cbn [fsib]; lia].
      apply del_left_rb; auto. lia.
    + apply Hblack, del_left_rb; auto.
    + destruct pc; rbcbn; rbhyp.
      apply (Hred _ (FR Black wl wn)); auto; [|cbn [fsib]; lia].
      apply del_right_rb; auto. lia.
    + apply Hblack, del_right_rb; auto.
Qed.

(* unlinking a node that has no left child *)
Lemma del_finish_rb ctx yc yn yr : is_rb (plug ctx (T yc E yn yr)) -> is_rb (del_finish yc yr ctx).
Proof.
  intros H. apply plug_is_rb in H as (Hr & (Hy & Hn) & (Hby & Hb)).
  rewrite col_T in *. cbn [nrr bal bh] in Hy, Hby, Hb. destruct Hy as (_ & Hyr & Hc). destruct Hby as (_ & Hbyr & Hh).
  destruct yc; cbn [del_finish bk] in *.
  - destruct (Hc eq_refl) as [_ Hcr]. apply plug_is_rb. rewrite Hcr.
    assert (ctx <> []) by (intros ->; discriminate).
    rewrite (croot_indep ctx Black Red) by auto. repeat split; auto; [eapply cnrr_black; eauto|].
    eapply cbal_eq; [eassumption|lia].
  - apply del_fix_rb; auto; [apply nrr_make_black; auto|eapply cbal_eq; [eassumption|lia]].
Qed.

(* a lone left child may as well hang on the right *)
Lemma is_rb_lone_child ctx c n t : is_rb (plug ctx (T c t n E)) -> is_rb (plug ctx (T c E n t)).
Proof.
  rewrite !plug_is_rb, !col_T. cbn [nrr bal bh col].
  intros (Hr & ((Ht & _ & Hc) & Hn) & ((Hb & _ & Hh) & Hcb)). rewrite Hh in Hcb.
  repeat split; auto; apply Hc; assumption.
Qed.

(* the invariants do not look at the nodes *)
Lemma is_rb_frame_node a b c l n n' t :
  is_rb (plug (a ++ FR c l n :: b) t) <-> is_rb (plug (a ++ FR c l n' :: b) t).
Proof. rewrite !plug_app. cbn [plug fill]. rewrite !plug_is_rb. cbn [nrr bal bh]. rewrite !col_T. tauto. Qed.

Lemma remove_at_rb ctx zc zl zn zr : is_rb (plug ctx (T zc zl zn zr)) -> is_rb (remove_at ctx zc zl zn zr).
Proof.
  intros H. unfold remove_at. destruct zl as [|lc ll ln lr].
  - apply del_finish_rb with (yn := zn); auto.
  - destruct zr as [|rc rl rn rr].
    + apply del_finish_rb with (yn := zn), is_rb_lone_child, H.
    + destruct (split_min rc rl rn rr []) as [[[fr yc] yn] yr] eqn:Hm.
      apply split_min_spec in Hm as (fr' & -> & Hp & _). rewrite app_nil_r.
      apply del_finish_rb with (yn := yn).
      apply (is_rb_frame_node fr' ctx zc _ zn yn). rewrite plug_app, Hp. exact H.
Qed.

Lemma remove_rb id t : is_rb t -> is_rb (remove id t).
Proof.
  intros H. unfold remove. destruct (locate id t []) as [[[[[ctx c] l] n] r]|] eqn:Hl; auto.
  apply locate_spec in Hl as [Hp _]. cbn [plug] in Hp. apply remove_at_rb. rewrite Hp. exact H.
Qed.

Lemma update_at_rb t ctx c l n r newk :
  is_rb t -> plug ctx (T c l n r) = t -> is_rb (fst (update_at t ctx c l n r newk)).
Proof.
  intros H Hp. unfold update_at. destruct (upd_decide _ _ _); cbn [fst]; auto.
  - destruct (find newk t); cbn [fst]; auto. apply insert_rb, remove_at_rb. rewrite Hp; auto.
  - rewrite <- Hp in H. rewrite plug_is_rb in *. cbn [nrr bal bh] in *. rewrite !col_T in *. exact H.
Qed.

Lemma paths_bh t : bal t -> forall h, In h (paths t) -> h = bh t.
Proof.
  induction t as [|c l IHl n r IHr]; cbn [bal paths bh]; intros Hb h Hin.
  - destruct Hin as [<-|[]]. reflexivity.
  - destruct Hb as (Hl & Hr & He). apply in_map_iff in Hin as (h' & <- & Hin).
    apply in_app_or in Hin as [Hin|Hin]; [rewrite (IHl Hl h' Hin)|rewrite (IHr Hr h' Hin), He]; reflexivity.
Qed.

Lemma size_bh t : bal t -> 2 ^ bh t <= size t + 1.
Proof.
  induction t as [|c l IHl n r IHr]; cbn [bal bh size]; intros Hb; [cbn; lia|].
  destruct Hb as (Hl & Hr & He). specialize (IHl Hl). specialize (IHr Hr). rewrite <- He in IHr.
  destruct c; cbn [bk]; rewrite ?Nat.add_0_r, ?Nat.add_1_r, ?Nat.pow_succ_r'; lia.
Qed.

Lemma depth_bh t : nrr t -> bal t -> depth t <= 2 * bh t + match col t with Red => 1 | Black => 0 end.
Proof.
  induction t as [|c l IHl n r IHr]; cbn [nrr bal bh depth]; intros Hn Hb; [cbn; lia|].
  destruct Hn as (Hnl & Hnr & Hc). destruct Hb as (Hl & Hr & He).
  specialize (IHl Hnl Hl). specialize (IHr Hnr Hr). rewrite col_T.
  destruct c; cbn [bk].
  - destruct (Hc eq_refl) as [Hcl Hcr]. rewrite Hcl in IHl. rewrite Hcr in IHr. lia.
  - destruct (col l), (col r); lia.
Qed.

Lemma depth_log t : is_rb t -> depth t <= 2 * Nat.log2 (size t + 1).
Proof.
  intros (Hc & Hn & Hb). pose proof (depth_bh t Hn Hb) as H1. rewrite Hc in H1.
  pose proof (size_bh t Hb) as H2.
  assert (bh t <= Nat.log2 (size t + 1)).
  { rewrite <- (Nat.log2_pow2 (bh t)) by lia. apply Nat.log2_le_mono. exact H2. }
  lia.
Qed.
