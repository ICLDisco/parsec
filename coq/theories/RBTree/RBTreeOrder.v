(* C36, part 1: what the operations do to the in-order sequence of nodes
   (fix-ups and rotations keep it, insert adds one node at a sorted place,
   remove deletes exactly the node), search-tree order, find, find_or_larger,
   update_node. *)
From PV Require Import Base.Tac RBTree.RBTreeDefs.
Local Open Scope Z_scope.

(* sorted lists of nodes, for a transitive relation on keys *)
Section Sorted.
  Variable R : Z -> Z -> Prop.
  Hypothesis R_trans : forall a b c, R a b -> R b c -> R a c.

  Fixpoint sortedR (l : list node) : Prop :=
    match l with
    | [] => True
    | x :: l' => (forall y, In y l' -> R (nkey x) (nkey y)) /\ sortedR l'
    end.

  Lemma sortedR_app : forall a b,
    sortedR (a ++ b) <-> sortedR a /\ sortedR b /\ (forall x y, In x a -> In y b -> R (nkey x) (nkey y)).
  Proof.
    induction a as [|x a IH]; intros b; cbn [app sortedR].
    - split; [intros H; repeat split; auto; intros ? ? []|intros (_ & H & _); exact H].
    - rewrite IH. split.
      + intros (Hx & Ha & Hb & Hab). repeat split; auto.
        * intros y Hy. apply Hx, in_or_app; auto.
        * intros u v [<-|Hu] Hv; [apply Hx, in_or_app; auto|auto].
      + intros ((Hx & Ha) & Hb & Hab). repeat split; auto.
        * intros y Hy. apply in_app_or in Hy as [Hy|Hy]; [auto|apply Hab; cbn; auto].
        * intros u v Hu Hv. apply Hab; cbn; auto.
  Qed.

  Fixpoint bstR (t : tree) : Prop :=
    match t with
    | E => True
    | T _ l n r => bstR l /\ bstR r /\ (forall m, In m (nodes l) -> R (nkey m) (nkey n))
                                 /\ (forall m, In m (nodes r) -> R (nkey n) (nkey m))
    end.

  Lemma bstR_sorted : forall t, bstR t <-> sortedR (nodes t).
  Proof.
    induction t as [|c l IHl n r IHr]; cbn [bstR nodes]; [tauto|].
    rewrite sortedR_app; cbn [sortedR]. rewrite IHl, IHr. split.
    - intros (Hl & Hr & Hln & Hnr). repeat split; auto.
      intros x y Hx [<-|Hy]; [auto|]. eapply R_trans; [apply Hln|apply Hnr]; auto.
    - intros (Hl & (Hnr & Hr) & Hc). repeat split; auto.
      intros m Hm. apply Hc; cbn; auto.
  Qed.
End Sorted.

Definition sorted := sortedR Z.le.
Definition sorted_lt := sortedR Z.lt.

Lemma bst_sorted t : bst t <-> sorted (nodes t).
Proof. apply (bstR_sorted Z.le Z.le_trans). Qed.
Lemma bst_strict_sorted t : bst_strict t <-> sorted_lt (nodes t).
Proof. apply (bstR_sorted Z.lt Z.lt_trans). Qed.

Lemma sorted_app a b :
  sorted (a ++ b) <-> sorted a /\ sorted b /\ (forall x y, In x a -> In y b -> nkey x <= nkey y).
Proof. apply sortedR_app. Qed.
Lemma sorted_lt_app a b :
  sorted_lt (a ++ b) <-> sorted_lt a /\ sorted_lt b /\ (forall x y, In x a -> In y b -> nkey x < nkey y).
Proof. apply sortedR_app. Qed.

Lemma sorted_lt_le l : sorted_lt l -> sorted l.
Proof.
  induction l as [|x l IH]; cbn; auto. intros [H1 H2]. split; auto.
  intros y Hy. apply Z.lt_le_incl; auto.
Qed.

(* strictly sorted = sorted without repeated keys *)
Lemma sorted_lt_iff l : sorted_lt l <-> sorted l /\ NoDup (map nkey l).
Proof.
  induction l as [|x l IH]; cbn [map].
  - split; [split; [exact I|constructor]|intros; exact I].
  - cbn. split.
    + intros [Hx Hl]. apply IH in Hl as [Hs Hn]. split; [split; auto; intros y Hy; apply Z.lt_le_incl; auto|].
      constructor; auto. intros Hin. apply in_map_iff in Hin as (y & Hk & Hy). specialize (Hx y Hy). lia.
    + intros [[Hx Hl] Hn]. inv Hn. split; [|apply IH; auto].
      intros y Hy. specialize (Hx y Hy).
      assert (nkey x <> nkey y) by (intros Heq; apply H1; rewrite Heq; apply in_map; auto). lia.
Qed.

Fixpoint cbefore (ctx : list frame) : list node :=
  match ctx with [] => [] | FL _ _ _ :: up => cbefore up | FR _ l n :: up => cbefore up ++ nodes l ++ [n] end.
Fixpoint cafter (ctx : list frame) : list node :=
  match ctx with [] => [] | FL _ n r :: up => n :: nodes r ++ cafter up | FR _ _ _ :: up => cafter up end.

Lemma nodes_plug : forall ctx t, nodes (plug ctx t) = cbefore ctx ++ nodes t ++ cafter ctx.
Proof.
  induction ctx as [|[c n r|c l n] up IH]; intros t; cbn [plug cbefore cafter fill].
  - rewrite app_nil_r; reflexivity.
  - rewrite IH; cbn [nodes]. rewrite <- !app_assoc. reflexivity.
  - rewrite IH; cbn [nodes]. rewrite <- !app_assoc. reflexivity.
Qed.

Lemma plug_app : forall a b t, plug (a ++ b) t = plug b (plug a t).
Proof. induction a as [|f a IH]; intros; cbn [app plug]; auto. Qed.

Lemma nodes_make_black t : nodes (make_black t) = nodes t.
Proof. destruct t; reflexivity. Qed.

(* normalise an equation between concatenations *)
Ltac lnorm := cbn [nodes cbefore cafter app]; repeat (rewrite nodes_plug || rewrite nodes_make_black);
  cbn [nodes cbefore cafter app]; repeat (rewrite <- ?app_assoc; cbn [app]).
Ltac lsolve := lnorm; try reflexivity; repeat (f_equal; try reflexivity).

Lemma ctx_ind2 (P : list frame -> Prop) :
  P [] -> (forall f, P [f]) -> (forall f g up, P up -> P (f :: g :: up)) -> forall ctx, P ctx.
Proof.
  intros H0 H1 H2. fix IH 1. intros [|f [|g up]]; [exact H0|apply H1|apply H2, IH].
Qed.

Lemma ins_fix_nodes : forall ctx zl zn zr,
  nodes (ins_fix zl zn zr ctx) = nodes (plug ctx (T Red zl zn zr)).
Proof.
  induction ctx as [|f|f g up IH] using ctx_ind2; intros zl zn zr.
  - reflexivity.
  - destruct f as [[|] pn pr|[|] pl pn]; reflexivity.
  - destruct f as [[|] pn pr|[|] pl pn]; try reflexivity;
      destruct g as [gc gn u|gc u gn]; destruct u as [|[|] ul un ur]; cbn [ins_fix];
      rewrite ?IH; lsolve.
Qed.

Lemma descend_plug : forall k t ctx, plug (descend k t ctx) E = plug ctx t.
Proof.
  induction t as [|c l IHl n r IHr]; intros ctx; cbn [descend]; auto.
  destruct (k <? nkey n); [rewrite IHl|rewrite IHr]; reflexivity.
Qed.

(* the place found by the descent: everything before is <= k, everything after is > k *)
Lemma descend_bounds : forall k t ctx, bst t ->
  (forall a, In a (cbefore ctx) -> nkey a <= k) -> (forall b, In b (cafter ctx) -> k < nkey b) ->
  (forall a, In a (cbefore (descend k t ctx)) -> nkey a <= k) /\
  (forall b, In b (cafter (descend k t ctx)) -> k < nkey b).
Proof.
  induction t as [|c l IHl n r IHr]; intros ctx Ht Hb Ha; cbn [descend]; auto.
  destruct Ht as (Hl & Hr & Hln & Hnr). destruct (k <? nkey n) eqn:Hk.
  - apply IHl; auto.
    cbn [cafter]. intros b [<-|Hb']; [lia|]. apply in_app_or in Hb' as [Hb'|Hb']; auto.
    specialize (Hnr b Hb'). lia.
  - apply IHr; auto.
    cbn [cbefore]. intros a Ha'. apply in_app_or in Ha' as [|Ha']; auto.
    apply in_app_or in Ha' as [Ha'|[<-|[]]]; [specialize (Hln a Ha')|]; lia.
Qed.

(* insert puts the node at a sorted place of the in-order sequence and keeps everything else *)
Lemma insert_nodes n t :
  sorted (nodes t) ->
  exists A B, nodes t = A ++ B /\ nodes (insert n t) = A ++ n :: B /\
              (forall a, In a A -> nkey a <= nkey n) /\ (forall b, In b B -> nkey n < nkey b).
Proof.
  intros Hs. unfold insert.
  exists (cbefore (descend (nkey n) t [])), (cafter (descend (nkey n) t [])).
  rewrite nodes_make_black, ins_fix_nodes, nodes_plug.
  pose proof (descend_plug (nkey n) t []) as Hp. cbn [plug] in Hp.
  pose proof (f_equal nodes Hp) as Hn. rewrite nodes_plug in Hn. cbn [nodes app] in Hn.
  split; [auto|]. split; [reflexivity|].
  apply descend_bounds; [apply bst_sorted, Hs|intros ? []|intros ? []].
Qed.

Definition dtree (d : dstep) : tree := match d with Up t | Done t => t end.

Lemma del_left_nodes x pc pn w : nodes (dtree (del_left x pc pn w)) = nodes x ++ pn :: nodes w.
Proof.
  destruct w as [|wc wl wn wr]; cbn [del_left]; [reflexivity|].
  destruct wl as [|[|] a ln b]; destruct wr as [|[|] c rn d]; cbn [dtree]; lsolve.
Qed.
Lemma del_right_nodes x pc pn w : nodes (dtree (del_right x pc pn w)) = nodes w ++ pn :: nodes x.
Proof.
  destruct w as [|wc wl wn wr]; cbn [del_right]; [reflexivity|].
  destruct wl as [|[|] a ln b]; destruct wr as [|[|] c rn d]; cbn [dtree]; lsolve.
Qed.

Lemma del_fix_nodes : forall ctx x, nodes (del_fix x ctx) = nodes (plug ctx x).
Proof.
  induction ctx as [|f up IH]; intros x; cbn [del_fix].
  - apply nodes_make_black.
  - destruct (col x) eqn:Hx; [lsolve|].
    (* whichever way an iteration ends, the tree it built is plugged where the parent was *)
    assert (HA : forall d, nodes (match d with Up t => del_fix t up | Done t => make_black (plug up t) end)
                           = nodes (plug up (dtree d))) by (intros [t|t]; [apply IH|apply nodes_make_black]).
    assert (HB : forall d c, nodes (match d with Up t => plug c (make_black t) | Done t => make_black (plug c t) end)
                             = nodes (plug c (dtree d))) by (intros [t|t] c; lsolve).
    destruct f as [pc pn w|pc w pn]; destruct w as [|[|] wl wn wr];
      rewrite ?HA, ?HB; lnorm; rewrite ?del_left_nodes, ?del_right_nodes; lsolve.
Qed.

Lemma del_finish_nodes yc x ctx : nodes (del_finish yc x ctx) = nodes (plug ctx x).
Proof. destruct yc; cbn [del_finish]; [reflexivity|apply del_fix_nodes]. Qed.

(* all frames of the walk to the minimum are left steps *)
Definition all_FL (fr : list frame) : Prop := forall f, In f fr -> match f with FL _ _ _ => True | FR _ _ _ => False end.

Lemma split_min_spec : forall l c n r acc fr yc yn yr,
  split_min c l n r acc = (fr, yc, yn, yr) ->
  exists fr', fr = fr' ++ acc /\ plug fr' (T yc E yn yr) = T c l n r /\ all_FL fr'.
Proof.
  induction l as [|c' l' IHl n' r' _]; intros c n r acc fr yc yn yr H; cbn [split_min] in H.
  - inv H. exists []. repeat split; auto. intros ? [].
  - apply IHl in H as (fr' & -> & Hp & Hall).
    exists (fr' ++ [FL c n r]). rewrite <- app_assoc. repeat split; auto.
    + rewrite plug_app, Hp. reflexivity.
    + intros f Hf. apply in_app_or in Hf as [Hf|[<-|[]]]; [apply Hall; exact Hf|exact I].
Qed.

Lemma all_FL_cbefore fr : all_FL fr -> cbefore fr = [].
Proof.
  induction fr as [|[c n r|c l n] fr IH]; intros H; cbn [cbefore]; auto.
  - apply IH. intros f Hf. apply H; cbn; auto.
  - exfalso. apply (H (FR c l n)); cbn; auto.
Qed.

Lemma cbefore_app a b : cbefore (a ++ b) = cbefore b ++ cbefore a.
Proof.
  induction a as [|[c n r|c l n] a IH]; cbn [app cbefore]; rewrite ?app_nil_r; auto.
  rewrite IH, <- !app_assoc. reflexivity.
Qed.
Lemma cafter_app a b : cafter (a ++ b) = cafter a ++ cafter b.
Proof.
  induction a as [|[c n r|c l n] a IH]; cbn [app cafter]; auto.
  rewrite IH, <- !app_assoc. reflexivity.
Qed.

(* remove deletes exactly the node at the zipper position *)
Lemma remove_at_nodes ctx zc zl zn zr :
  nodes (remove_at ctx zc zl zn zr) = cbefore ctx ++ nodes zl ++ nodes zr ++ cafter ctx.
Proof.
  unfold remove_at. destruct zl as [|lc ll ln lr].
  - rewrite del_finish_nodes, nodes_plug. reflexivity.
  - destruct zr as [|rc rl rn rr].
    + rewrite del_finish_nodes, nodes_plug, app_nil_l. reflexivity.
    + destruct (split_min rc rl rn rr []) as [[[fr yc] yn] yr] eqn:Hm.
      apply split_min_spec in Hm as (fr' & -> & Hp & Hall). rewrite app_nil_r.
      rewrite del_finish_nodes, nodes_plug, cbefore_app, cafter_app, (all_FL_cbefore _ Hall).
      rewrite <- Hp, nodes_plug, (all_FL_cbefore _ Hall). lsolve.
Qed.

Lemma locate_spec : forall id t ctx ctx' c l n r,
  locate id t ctx = Some (ctx', c, l, n, r) -> plug ctx' (T c l n r) = plug ctx t /\ nid n = id.
Proof.
  induction t as [|c0 l0 IHl n0 r0 IHr]; intros ctx ctx' c l n r H; cbn [locate] in H; [discriminate|].
  destruct (nid n0 =? id) eqn:Hid.
  - inv H. split; [reflexivity|lia].
  - destruct (locate id l0 (FL c0 n0 r0 :: ctx)) as [z|] eqn:Hl.
    + inv H. apply IHl in Hl. exact Hl.
    + apply IHr in H. exact H.
Qed.
Lemma locate_none : forall id t ctx, locate id t ctx = None -> ~ In id (ids t).
Proof.
  unfold ids. induction t as [|c0 l0 IHl n0 r0 IHr]; intros ctx H; cbn [locate] in H; [intros []|].
  destruct (nid n0 =? id) eqn:Hid; [discriminate|].
  destruct (locate id l0 (FL c0 n0 r0 :: ctx)) as [z|] eqn:Hl; [discriminate|].
  cbn [nodes]. rewrite map_app. cbn [map]. intros Hin.
  apply in_app_or in Hin as [Hin|[Hin|Hin]].
  - eapply IHl; eauto.
  - lia.
  - eapply IHr; eauto.
Qed.

Lemma find_some q t n : find q t = Some n -> In n (nodes t) /\ nkey n = q.
Proof.
  induction t as [|c l IHl m r IHr]; cbn [find nodes]; [discriminate|].
  destruct (nkey m =? q) eqn:H1.
  - intros H; inv H. split; [apply in_or_app; cbn; auto|lia].
  - destruct (nkey m <? q); intros H; [apply IHr in H|apply IHl in H];
      destruct H; split; auto; apply in_or_app; cbn; auto.
Qed.
Lemma find_none q t : bst t -> find q t = None -> forall m, In m (nodes t) -> nkey m <> q.
Proof.
  induction t as [|c l IHl n r IHr]; cbn [find nodes bst]; [intros _ _ m []|].
  intros (Hl & Hr & Hln & Hnr).
  destruct (nkey n =? q) eqn:H1; [discriminate|].
  destruct (nkey n <? q) eqn:H2; intros H m Hm; apply in_app_or in Hm as [Hm|[<-|Hm]]; try lia.
  - specialize (Hln m Hm). lia.
  - apply IHr; auto.
  - apply IHl; auto.
  - specialize (Hnr m Hm). lia.
Qed.

Definition least_geq (q : Z) (l : list node) (n : node) : Prop :=
  In n l /\ q <= nkey n /\ forall m, In m l -> q <= nkey m -> nkey n <= nkey m.

(* the candidate handed down matters only when the sub-tree holds no key >= q *)
Lemma fol_acc q : forall t acc,
  fol q t acc = match fol q t None with Some n => Some n | None => acc end.
Proof.
  induction t as [|c l IHl n r IHr]; intros acc; cbn [fol]; auto.
  destruct (nkey n =? q); auto. destruct (nkey n <? q); auto.
  rewrite (IHl (Some n)). destruct (fol q l None); reflexivity.
Qed.

Lemma find_or_larger_spec q t : bst t ->
  match find_or_larger q t with
  | Some n => least_geq q (nodes t) n
  | None => forall m, In m (nodes t) -> nkey m < q
  end.
Proof.
  unfold find_or_larger. induction t as [|c l IHl n r IHr]; cbn [fol nodes bst]; [intros _ m []|].
  intros (Hl & Hr & Hln & Hnr). specialize (IHl Hl). specialize (IHr Hr).
  destruct (nkey n =? q) eqn:H1.
  { repeat split; [apply in_or_app; cbn; auto|lia|]. intros m Hm Hq.
    apply in_app_or in Hm as [Hm|[<-|Hm]]; [specialize (Hln m Hm)|lia|specialize (Hnr m Hm)]; lia. }
  destruct (nkey n <? q) eqn:H2.
  - (* the left part and n are below q *)
    destruct (fol q r None) as [x|].
    + destruct IHr as (Hin & Hq & Hmin). repeat split; [apply in_or_app; cbn; auto|auto|]. intros m Hm Hqm.
      apply in_app_or in Hm as [Hm|[<-|Hm]]; [specialize (Hln m Hm); lia|lia|auto].
    + intros m Hm. apply in_app_or in Hm as [Hm|[<-|Hm]]; [specialize (Hln m Hm); lia|lia|auto].
  - (* n is a candidate; anything >= q on the left is better *)
    rewrite fol_acc. destruct (fol q l None) as [x|].
    + destruct IHl as (Hin & Hq & Hmin). specialize (Hln x Hin).
      repeat split; [apply in_or_app; auto|auto|]. intros m Hm Hqm.
      apply in_app_or in Hm as [Hm|[<-|Hm]]; [auto|lia|specialize (Hnr m Hm); lia].
    + repeat split; [apply in_or_app; cbn; auto|lia|]. intros m Hm Hqm.
      apply in_app_or in Hm as [Hm|[<-|Hm]]; [specialize (IHl m Hm); lia|lia|specialize (Hnr m Hm); lia].
Qed.

Lemma leftmost_spec : forall l d R, exists B, nodes l ++ d :: R = leftmost l d :: B.
Proof.
  induction l as [|c l IHl n r _]; intros d R; cbn [leftmost nodes].
  - exists R. reflexivity.
  - destruct (IHl n (nodes r ++ d :: R)) as [B HB]. exists B. rewrite <- app_assoc. exact HB.
Qed.
Lemma rightmost_spec : forall r d L, exists A, L ++ d :: nodes r = A ++ [rightmost r d].
Proof.
  induction r as [|c l _ n r IHr]; intros d L; cbn [rightmost nodes].
  - exists L. reflexivity.
  - destruct (IHr n (L ++ d :: nodes l)) as [A HA]. exists A. rewrite <- HA, <- app_assoc. reflexivity.
Qed.

Lemma minimum_spec t : bst t ->
  match minimum t with
  | Some n => In n (nodes t) /\ forall m, In m (nodes t) -> nkey n <= nkey m
  | None => t = E
  end.
Proof.
  destruct t as [|c l n r]; cbn [minimum]; auto. intros Hb. apply bst_sorted in Hb. cbn [nodes] in *.
  destruct (leftmost_spec l n (nodes r)) as [B HB]. rewrite HB in *. destruct Hb as [Hmin _].
  split; [cbn; auto|]. intros m [<-|Hm]; [lia|auto].
Qed.

Lemma first_FR_spec ctx :
  match first_FR ctx with Some p => exists A, cbefore ctx = A ++ [p] | None => cbefore ctx = [] end.
Proof.
  induction ctx as [|[c n r|c l n] up IH]; cbn [first_FR cbefore]; auto.
  exists (cbefore up ++ nodes l). rewrite app_assoc. reflexivity.
Qed.
Lemma first_FL_spec ctx :
  match first_FL ctx with Some s => exists B, cafter ctx = s :: B | None => cafter ctx = [] end.
Proof.
  induction ctx as [|[c n r|c l n] up IH]; cbn [first_FL cafter]; auto.
  eexists; reflexivity.
Qed.
Lemma pred_of_spec l ctx :
  match pred_of l ctx with
  | Some p => exists A, cbefore ctx ++ nodes l = A ++ [p]
  | None => cbefore ctx ++ nodes l = [] end.
Proof.
  destruct l as [|c l n r]; cbn [pred_of nodes].
  - rewrite app_nil_r. apply first_FR_spec.
  - rewrite app_assoc. apply rightmost_spec.
Qed.
Lemma succ_of_spec r ctx :
  match succ_of r ctx with
  | Some s => exists B, nodes r ++ cafter ctx = s :: B
  | None => nodes r ++ cafter ctx = [] end.
Proof.
  destruct r as [|c l n r]; cbn [succ_of nodes].
  - apply first_FL_spec.
  - rewrite <- app_assoc. apply leftmost_spec.
Qed.

Lemma upd_decide_spec Pre Post pred succ newk own :
  sorted (Pre ++ own :: Post) ->
  match pred with Some p => exists A, Pre = A ++ [p] | None => Pre = [] end ->
  match succ with Some s => exists B, Post = s :: B | None => Post = [] end ->
  match upd_decide pred succ newk with
  | UExists => exists m, In m (Pre ++ Post) /\ nkey m = newk
  | UInPlace => (forall a, In a Pre -> nkey a < newk) /\ (forall b, In b Post -> newk < nkey b)
  | UReinsert => nkey own <> newk
  end.
Proof.
  intros Hs Hp Hsu. apply sorted_app in Hs as (HsPre & [Hown HsPost] & Hcross).
  (* the test against pred, the largest of Pre, says UInPlace exactly when all of Pre is below newk *)
  unfold upd_decide. set (d1 := match pred with Some _ => _ | None => _ end).
  assert (H1 : match d1 with
               | UExists => exists m, In m Pre /\ nkey m = newk
               | UInPlace => forall a, In a Pre -> nkey a < newk
               | UReinsert => nkey own <> newk
               end).
  { subst d1. destruct pred as [p|]; [|subst Pre; intros ? []].
    destruct Hp as [A ->]. apply sorted_app in HsPre as (_ & _ & HA).
    assert (Hin : In p (A ++ [p])) by (apply in_or_app; cbn; auto).
    assert (Hpo : nkey p <= nkey own) by (apply Hcross; cbn; auto).
    destruct (nkey p =? newk) eqn:E1; [exists p; split; [auto|lia]|].
    destruct (nkey p >? newk) eqn:E2; [lia|].
    intros a Ha. apply in_app_or in Ha as [Ha|[<-|[]]]; [specialize (HA a p Ha (or_introl eq_refl))|]; lia. }
  destruct d1.
  - destruct H1 as (m & Hm & Hk). exists m. split; [apply in_or_app; auto|exact Hk].
  - exact H1.
  - (* the test against succ, the smallest of Post *)
    destruct succ as [s|]; [|subst Post; split; [exact H1|intros ? []]].
    destruct Hsu as [B ->]. destruct HsPost as [HB _].
    assert (Hso : nkey own <= nkey s) by (apply Hown; cbn; auto).
    destruct (nkey s =? newk) eqn:E3; [exists s; split; [apply in_or_app; cbn; auto|lia]|].
    destruct (nkey s <? newk) eqn:E4; [lia|].
    split; [exact H1|]. intros b [<-|Hb]; [lia|specialize (HB b Hb); lia].
Qed.

Lemma sorted_remove Pre Post own : sorted (Pre ++ own :: Post) -> sorted (Pre ++ Post).
Proof.
  intros Hs. apply sorted_app in Hs as (HsPre & HsPost & Hcross). cbn in HsPost.
  apply sorted_app. repeat split; try tauto. intros x y Hx Hy. apply Hcross; cbn; auto.
Qed.

Lemma sorted_insert A B n :
  sorted (A ++ B) -> (forall a, In a A -> nkey a <= nkey n) -> (forall b, In b B -> nkey n <= nkey b) ->
  sorted (A ++ n :: B).
Proof.
  intros Hs Ha Hb. apply sorted_app in Hs as (HsA & HsB & Hcross).
  apply sorted_app. split; [auto|]. split; [cbn; split; auto|].
  intros x y Hx [<-|Hy]; auto.
Qed.

(* the position of a zipper splits the in-order sequence *)
Lemma nodes_zipper ctx c l n r :
  nodes (plug ctx (T c l n r)) = (cbefore ctx ++ nodes l) ++ n :: (nodes r ++ cafter ctx).
Proof. lsolve. Qed.

(* update_node refuses exactly when another node holds the key, and then changes nothing *)
Lemma update_at_spec t ctx c l n r newk :
  bst t -> plug ctx (T c l n r) = t ->
  forall Pre Post, Pre = cbefore ctx ++ nodes l -> Post = nodes r ++ cafter ctx ->
  match update_at t ctx c l n r newk with
  | (t', false) => t' = t /\ exists m, In m (Pre ++ Post) /\ nkey m = newk
  | (t', true) => (forall m, In m (Pre ++ Post) -> nkey m <> newk) /\ sorted (nodes t') /\
                  exists A B, Pre ++ Post = A ++ B /\ nodes t' = A ++ (nid n, newk) :: B
  end.
Proof.
  intros Hb Hp Pre Post HPre HPost.
  assert (Hn : nodes t = Pre ++ n :: Post) by (subst t Pre Post; apply nodes_zipper).
  assert (Hs : sorted (Pre ++ n :: Post)) by (rewrite <- Hn; apply bst_sorted; auto).
  pose proof (upd_decide_spec Pre Post (pred_of l ctx) (succ_of r ctx) newk n Hs) as Hd.
  assert (H1 := pred_of_spec l ctx). assert (H2 := succ_of_spec r ctx).
  rewrite <- HPre in H1. rewrite <- HPost in H2. specialize (Hd H1 H2). clear H1 H2.
  unfold update_at. destruct (upd_decide (pred_of l ctx) (succ_of r ctx) newk).
  - auto.
  - destruct (find newk t) as [m|] eqn:Hf.
    + apply find_some in Hf as [Hin Hk]. split; [reflexivity|]. exists m. split; [|exact Hk].
      rewrite Hn in Hin. apply in_app_or in Hin as [Hin|[<-|Hin]]; [apply in_or_app; auto|lia|apply in_or_app; auto].
    + split.
      { intros m Hin. apply (find_none newk t Hb Hf). rewrite Hn.
        apply in_app_or in Hin as [Hin|Hin]; apply in_or_app; cbn; auto. }
      assert (Hr : nodes (remove_at ctx c l n r) = Pre ++ Post).
      { rewrite remove_at_nodes. subst Pre Post. rewrite <- !app_assoc. reflexivity. }
      assert (Hsr : sorted (nodes (remove_at ctx c l n r))) by (rewrite Hr; eapply sorted_remove; eauto).
      destruct (insert_nodes (nid n, newk) _ Hsr) as (A & B & HAB & Hins & HA & HB).
      rewrite Hr in HAB. split; [|exists A, B; auto].
      rewrite Hins. apply sorted_insert; [rewrite <- HAB, <- Hr; auto|auto|].
      intros b Hb'. specialize (HB b Hb'). lia.
  - destruct Hd as [Ha Hb']. split.
    { intros m Hin. apply in_app_or in Hin as [Hin|Hin]; [specialize (Ha m Hin)|specialize (Hb' m Hin)]; lia. }
    rewrite nodes_zipper, <- HPre, <- HPost. split; [|exists Pre, Post; auto].
    apply sorted_insert;
      [eapply sorted_remove; exact Hs|intros a Hin; specialize (Ha a Hin)|intros b Hin; specialize (Hb' b Hin)];
      cbn [nkey snd]; lia.
Qed.
