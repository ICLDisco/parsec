(* C36, part 3: histories.  Every operation keeps the invariant
   (red-black + search order + distinct node identities); content of the tree
   after each operation; unique keys under the allocator's discipline. *)
From Coq Require Import Permutation Sorted.
From PV Require Import Base.Tac RBTree.RBTreeDefs RBTree.RBTreeOrder RBTree.RBTreeBalance.
Local Open Scope Z_scope.

Definition inv (t : tree) : Prop := is_rb t /\ bst t /\ NoDup (ids t).

Lemma inv_E : inv E.
Proof. repeat split; cbn; auto. constructor. Qed.

Lemma map_middle {A B} (f : A -> B) a x b : Permutation (map f (a ++ x :: b)) (f x :: map f (a ++ b)).
Proof. rewrite !map_app. cbn [map]. symmetry. apply Permutation_middle. Qed.

Lemma locate_in id t z : locate id t [] = Some z -> In id (ids t).
Proof.
  destruct z as [[[[ctx c] l] n] r]. intros Hl. apply locate_spec in Hl as [Hp Hid]. cbn [plug] in Hp.
  unfold ids. rewrite <- Hp, nodes_zipper, map_app. apply in_or_app. right. left. exact Hid.
Qed.

Lemma insert_new_content id k t :
  bst t ->
  (In id (ids t) -> insert_new id k t = t) /\
  (~ In id (ids t) -> exists A B, nodes t = A ++ B /\ nodes (insert_new id k t) = A ++ (id, k) :: B /\
       (forall a, In a A -> nkey a <= k) /\ (forall b, In b B -> k < nkey b)).
Proof.
  intros Hb. unfold insert_new. destruct (locate id t []) as [z|] eqn:Hl.
  - split; [reflexivity|]. intros Hn. destruct Hn. exact (locate_in _ _ _ Hl).
  - split; [intros Hin; exfalso; eapply locate_none; eauto|]. intros _.
    apply bst_sorted in Hb. exact (insert_nodes (id, k) t Hb).
Qed.

Lemma insert_new_inv id k t : inv t -> inv (insert_new id k t).
Proof.
  intros (Hrb & Hb & Hid). destruct (insert_new_content id k t Hb) as [H1 H2].
  unfold insert_new in *. destruct (locate id t []) as [z|] eqn:Hl; [exact (conj Hrb (conj Hb Hid))|].
  pose proof (locate_none _ _ _ Hl) as Hn. destruct (H2 Hn) as (A & B & HAB & Hins & HA & HB).
  split; [apply insert_rb; auto|]. split.
  - apply bst_sorted. rewrite Hins. apply bst_sorted in Hb. rewrite HAB in Hb.
    apply sorted_insert; auto. intros b Hin. specialize (HB b Hin). cbn [nkey snd]. lia.
  - unfold ids in *. rewrite Hins. eapply Permutation_NoDup; [symmetry; apply map_middle|].
    cbn [nid fst]. constructor; rewrite <- HAB; auto.
Qed.

Lemma locate_some id t : In id (ids t) -> locate id t [] <> None.
Proof. intros Hin Hn. eapply locate_none; eauto. Qed.

Lemma remove_content id t :
  (~ In id (ids t) -> remove id t = t) /\
  (In id (ids t) -> exists A n B, nodes t = A ++ n :: B /\ nid n = id /\ nodes (remove id t) = A ++ B).
Proof.
  unfold remove. destruct (locate id t []) as [[[[[ctx c] l] n] r]|] eqn:Hl.
  - pose proof (locate_in _ _ _ Hl) as Hin. apply locate_spec in Hl as [Hp Hid]. cbn [plug] in Hp. split.
    + intros Hn. contradiction.
    + intros _. exists (cbefore ctx ++ nodes l), n, (nodes r ++ cafter ctx).
      rewrite <- Hp, nodes_zipper, remove_at_nodes, <- !app_assoc. auto.
  - split; [reflexivity|]. intros Hin. exfalso. eapply locate_none; eauto.
Qed.

Lemma remove_inv id t : inv t -> inv (remove id t).
Proof.
  intros (Hrb & Hb & Hid). split; [apply remove_rb; auto|].
  destruct (remove_content id t) as [H1 H2].
  destruct (in_dec Z.eq_dec id (ids t)) as [Hin|Hn]; [|rewrite (H1 Hn); auto].
  destruct (H2 Hin) as (A & n & B & Ht & _ & Hr). split.
  - apply bst_sorted. rewrite Hr. apply bst_sorted in Hb. rewrite Ht in Hb. eapply sorted_remove; eauto.
  - unfold ids in *. rewrite Hr. rewrite Ht, map_app in Hid. cbn [map] in Hid.
    rewrite map_app. eapply NoDup_remove_1; eauto.
Qed.

Lemma update_content id k t :
  bst t ->
  (~ In id (ids t) -> update id k t = (t, false)) /\
  (In id (ids t) -> exists A n B, nodes t = A ++ n :: B /\ nid n = id /\
     match update id k t with
     | (t', false) => t' = t /\ exists m, In m (A ++ B) /\ nkey m = k
     | (t', true) => (forall m, In m (A ++ B) -> nkey m <> k) /\ sorted (nodes t') /\
                     exists A' B', A ++ B = A' ++ B' /\ nodes t' = A' ++ (id, k) :: B'
     end).
Proof.
  intros Hb. unfold update. destruct (locate id t []) as [[[[[ctx c] l] n] r]|] eqn:Hl.
  - pose proof (locate_in _ _ _ Hl) as Hin. apply locate_spec in Hl as [Hp Hid]. cbn [plug] in Hp. split.
    + intros Hn. contradiction.
    + intros _. exists (cbefore ctx ++ nodes l), n, (nodes r ++ cafter ctx).
      split; [rewrite <- Hp; apply nodes_zipper|]. split; [exact Hid|].
      rewrite <- Hid. apply (update_at_spec t ctx c l n r k Hb Hp); reflexivity.
  - split; [reflexivity|]. intros Hin. exfalso. eapply locate_none; eauto.
Qed.

Lemma update_inv id k t : inv t -> inv (fst (update id k t)).
Proof.
  intros (Hrb & Hb & Hid). split.
  { unfold update. destruct (locate id t []) as [[[[[ctx c] l] n] r]|] eqn:Hl; cbn [fst]; auto.
    apply locate_spec in Hl as [Hp _]. apply update_at_rb; auto. }
  destruct (update_content id k t Hb) as [H1 H2].
  destruct (in_dec Z.eq_dec id (ids t)) as [Hin|Hn]; [|rewrite (H1 Hn); cbn [fst]; auto].
  destruct (H2 Hin) as (A & n & B & Ht & Hnid & Hu).
  destruct (update id k t) as [t' [|]]; cbn [fst].
  - destruct Hu as (_ & Hsort & A' & B' & HAB & Hnodes). split; [apply bst_sorted; auto|].
    unfold ids in *. rewrite Hnodes. eapply Permutation_NoDup; [symmetry; apply map_middle|].
    rewrite <- HAB. cbn [nid fst]. rewrite <- Hnid.
    eapply Permutation_NoDup; [apply map_middle|]. rewrite <- Ht. exact Hid.
  - destruct Hu as [-> _]. auto.
Qed.

Lemma step_inv t o : inv t -> inv (step t o).
Proof.
  destruct o as [id k|id|id k]; cbn [step]; [apply insert_new_inv|apply remove_inv|apply update_inv].
Qed.

Lemma run_inv ops : inv (run ops).
Proof. unfold run. apply fold_left_inv; [intros; apply step_inv; auto|apply inv_E]. Qed.
Lemma run_bst ops : bst (run ops).
Proof. apply run_inv. Qed.

Lemma step_unique t o : inv t -> guarded t o -> NoDup (keys t) -> NoDup (keys (step t o)).
Proof.
  intros (Hrb & Hb & Hid) Hg Hk. unfold keys in *. destruct o as [id k|id|id k]; cbn [step guarded] in *.
  - destruct (insert_new_content id k t Hb) as [H1 H2].
    destruct (in_dec Z.eq_dec id (ids t)) as [Hin|Hn]; [rewrite (H1 Hin); auto|].
    destruct (H2 Hn) as (A & B & HAB & Hins & _). rewrite Hins.
    eapply Permutation_NoDup; [symmetry; apply map_middle|]. rewrite <- HAB. cbn [nkey snd].
    constructor; auto. intros Hin. apply in_map_iff in Hin as (m & Hm & Hin).
    exact (find_none k t Hb Hg m Hin Hm).
  - destruct (remove_content id t) as [H1 H2].
    destruct (in_dec Z.eq_dec id (ids t)) as [Hin|Hn]; [|rewrite (H1 Hn); auto].
    destruct (H2 Hin) as (A & n & B & Ht & _ & Hr). rewrite Hr. rewrite Ht, map_app in Hk. cbn [map] in Hk.
    rewrite map_app. eapply NoDup_remove_1; eauto.
  - destruct (update_content id k t Hb) as [H1 H2].
    destruct (in_dec Z.eq_dec id (ids t)) as [Hin|Hn]; [|rewrite (H1 Hn); auto].
    destruct (H2 Hin) as (A & n & B & Ht & Hnid & Hu).
    destruct (update id k t) as [t' [|]]; cbn [fst]; [|destruct Hu as [-> _]; auto].
    destruct Hu as (Hnew & _ & A' & B' & HAB & Hnodes). rewrite Hnodes.
    eapply Permutation_NoDup; [symmetry; apply map_middle|]. rewrite <- HAB. cbn [nkey snd].
    constructor.
    + intros Hin'. apply in_map_iff in Hin' as (m & Hm & Hin'). exact (Hnew m Hin' Hm).
    + rewrite Ht, map_app in Hk. cbn [map] in Hk. rewrite map_app. eapply NoDup_remove_1; eauto.
Qed.

Lemma run_unique : forall ops t, inv t -> NoDup (keys t) -> all_guarded t ops -> NoDup (keys (fold_left step ops t)).
Proof.
  induction ops as [|o ops IH]; intros t Hi Hk Hg; cbn [fold_left]; auto.
  destruct Hg as [Hg Hgs]. apply IH; auto; [apply step_inv; auto|apply step_unique; auto].
Qed.

Lemma bst_strict_iff t : bst_strict t <-> bst t /\ NoDup (keys t).
Proof. rewrite bst_strict_sorted, bst_sorted. apply sorted_lt_iff. Qed.

Lemma sorted_StronglySorted l : sorted l -> StronglySorted Z.le (map nkey l).
Proof.
  induction l as [|x l IH]; cbn [map]; [constructor|]. intros [Hx Hl]. constructor; auto.
  apply Forall_forall. intros k Hk. apply in_map_iff in Hk as (y & <- & Hy). auto.
Qed.

Lemma invariants ops :
  col (run ops) = Black /\ nrr (run ops) /\ bal (run ops) /\ bst (run ops) /\ NoDup (ids (run ops)).
Proof. destruct (run_inv ops) as ((H1 & H2 & H3) & H4 & H5). auto. Qed.
