(* Well-formed tile descriptors, the slot theorems on submatrix coordinates (as the
   collections' function pointers take them), refutation witnesses. *)
From PV Require Import Base.Tac Dist.DistDefs Dist.DistArith Dist.DistSum Dist.DistBC1 Dist.DistBCProofs
  Dist.DistSymProofs Dist.DistMiscProofs Dist.DistKview.
Local Open Scope Z_scope.

Definition legal_tmat_args (mb nb lm ln i j m n : Z) : Prop :=
  0 < mb /\ 0 < nb /\ 0 <= i /\ 0 <= j /\ 1 <= m /\ 1 <= n /\ i + m <= lm /\ j + n <= ln.
Definition wf_tmat (t : tmat) : Prop :=
  0 <= t_oi t /\ 0 <= t_oj t /\ 1 <= t_mt t /\ 1 <= t_nt t /\
  t_oi t + t_mt t <= t_lmt t /\ t_oj t + t_nt t <= t_lnt t.

Lemma ceil_tiles_ge lm mb : 0 < mb -> 1 <= lm -> (lm - 1) / mb + 1 <= ceil_tiles lm mb.
Proof.
  intros Hmb Hlm. unfold ceil_tiles. pose proof (divmod_spec lm mb Hmb) as [H1 H2].
  destruct (lm mod mb =? 0) eqn:E.
  - assert (1 <= lm / mb) by nia.
    rewrite (div_eq (lm - 1) mb (lm / mb - 1) (mb - 1)) by lia. lia.
  - rewrite (div_eq (lm - 1) mb (lm / mb) (lm mod mb - 1)) by lia. lia.
Qed.

Lemma sub_tiles_fit mb lm i m : 0 < mb -> 0 <= i -> 1 <= m -> i + m <= lm ->
  0 <= i / mb /\ 1 <= sub_tiles i m mb /\ i / mb + sub_tiles i m mb <= ceil_tiles lm mb.
Proof.
  intros Hmb Hi Hm Hlm. unfold sub_tiles.
  pose proof (div_nonneg i mb Hi Hmb).
  pose proof (Z.div_le_mono i (i + m - 1) mb Hmb ltac:(lia)).
  pose proof (Z.div_le_mono (i + m - 1) (lm - 1) mb Hmb ltac:(lia)).
  pose proof (ceil_tiles_ge lm mb Hmb ltac:(lia)). lia.
Qed.

Lemma wf_tmat_lmt t : wf_tmat t -> 0 <= t_lmt t /\ 0 <= t_lnt t.
Proof. unfold wf_tmat. lia. Qed.

Definition in_sub (t : tmat) (m n : Z) : Prop := 0 <= m < t_mt t /\ 0 <= n < t_nt t.

Lemma in_sub_global t m n : wf_tmat t -> in_sub t m n ->
  0 <= m + t_oi t < t_lmt t /\ 0 <= n + t_oj t < t_lnt t.
Proof. unfold wf_tmat, in_sub. lia. Qed.

Theorem bc_slot_in_range d m n : wf_bc d -> wf_tmat (bT d) -> in_sub (bT d) m n ->
  0 <= bc_position d (bc_rank_of d m n) m n < bc_nb_local_tiles d (bc_rank_of d m n).
Proof.
  intros W Wt Hs. destruct (in_sub_global _ m n Wt Hs) as [H1 H2].
  unfold bc_position, bc_rank_of. apply bc_position_range; try assumption. reflexivity.
Qed.

Theorem bc_slot_injective d m n m' n' : wf_bc d -> wf_tmat (bT d) ->
  in_sub (bT d) m n -> in_sub (bT d) m' n' ->
  bc_rank_of d m n = bc_rank_of d m' n' ->
  bc_position d (bc_rank_of d m n) m n = bc_position d (bc_rank_of d m n) m' n' ->
  m = m' /\ n = n'.
Proof.
  intros W Wt Hs Hs' Hr Hp. destruct (in_sub_global _ m n Wt Hs) as [H1 H2].
  destruct (in_sub_global _ m' n' Wt Hs') as [H1' H2'].
  unfold bc_position, bc_rank_of in *.
  destruct (bc_position_inj d _ _ _ _ _ W H1 H2 H1' H2' eq_refl (eq_sym Hr) Hp). lia.
Qed.

Theorem data_key_roundtrip t m n : wf_tmat t -> in_sub t m n ->
  tm_key2coords t (tm_data_key t m n) = (m, n).
Proof. intros Wt Hs. destruct (in_sub_global _ m n Wt Hs). apply key2coords_data_key; lia. Qed.

(* regression witness for the code before fix 12f6606: one process, kp = 2, four tile
   rows: tiles (0,0) and (2,0) got key 0 *)
Definition kcyc_witness : bcd := mk_bcd 1 1 2 1 0 0 ST_TILE (tmat_init ST_TILE 1 1 4 1 0 0 4 1).

(* tile storage: the element ranges [offset, offset + mb*nb) of the tiles of a rank
   are pairwise disjoint and inside the nb_local_tiles * mb*nb elements of the rank *)
Theorem bc_tile_memory d m n m' n' : wf_bc d -> wf_tmat (bT d) -> bst d = ST_TILE ->
  0 < t_mb (bT d) -> 0 < t_nb (bT d) ->
  in_sub (bT d) m n -> in_sub (bT d) m' n' -> bc_rank_of d m n = bc_rank_of d m' n' ->
  let r := bc_rank_of d m n in let bsiz := t_mb (bT d) * t_nb (bT d) in
  0 <= bc_offset d r m n /\ bc_offset d r m n + bsiz <= bc_nb_local_tiles d r * bsiz /\
  ((m, n) = (m', n') \/ bc_offset d r m n + bsiz <= bc_offset d r m' n' \/
   bc_offset d r m' n' + bsiz <= bc_offset d r m n).
Proof.
  intros W Wt Hst Hmb Hnb Hs Hs' Hr r bsiz.
  pose proof (bc_slot_in_range d m n W Wt Hs) as Hp. fold r in Hp.
  pose proof (bc_slot_in_range d m' n' W Wt Hs') as Hp'. rewrite <- Hr in Hp'. fold r in Hp'.
  assert (Hb : 0 < bsiz) by (unfold bsiz; nia).
  assert (Ho : forall a b, bc_offset d r a b = bc_position d r a b * bsiz).
  { intros a b. unfold bc_offset, bc_offset_g, bc_position. rewrite Hst. reflexivity. }
  rewrite !Ho. split; [nia|]. split; [nia|].
  destruct (Z.eq_dec (bc_position d r m n) (bc_position d r m' n')) as [E|Ne].
  - left. destruct (bc_slot_injective d m n m' n' W Wt Hs Hs' Hr E). congruence.
  - right. nia.
Qed.

(* the k-cyclic view: a permutation of the submatrix's tiles, then the plain functions *)
Lemma kv_in_sub d vkp vkq m n : wf_bc d -> 0 < vkp -> 0 < vkq -> in_sub (bT d) m n ->
  in_sub (bT d) (kv_m d vkp m) (kv_n d vkq n).
Proof.
  intros W Hp Hq [Hm Hn]. unfold wf_bc in W. unfold in_sub, kv_m, kv_n.
  split; apply kview_in_range; lia.
Qed.

(* every tile of the submatrix is seen through the view *)
Theorem kv_onto d vkp vkq m n : wf_bc d -> 0 < vkp -> 0 < vkq -> in_sub (bT d) m n ->
  exists m0 n0, in_sub (bT d) m0 n0 /\ kv_m d vkp m0 = m /\ kv_n d vkq n0 = n.
Proof.
  intros W Hp Hq [Hm Hn]. unfold wf_bc in W. unfold kv_m, kv_n.
  destruct (kview_onto (bP d) vkp (t_mt (bT d)) ltac:(lia) Hp m Hm) as (m0 & Hm0 & E1).
  destruct (kview_onto (bQ d) vkq (t_nt (bT d)) ltac:(lia) Hq n Hn) as (n0 & Hn0 & E2).
  exists m0, n0. unfold in_sub. auto.
Qed.

Definition sym_in_sub (d : symd) (m n : Z) : Prop :=
  in_sub (sT d) m n /\ sym_stored (suplo d) (m + t_oi (sT d)) (n + t_oj (sT d)) = true.

(* the slot theorems of one triangle on submatrix coordinates *)
Theorem tri_slot_in_range d lo hi m n : wf_sym d -> triangle d lo hi -> wf_tmat (sT d) -> sym_in_sub d m n ->
  0 <= sym_position d (sym_rank_of d m n) m n < sym_nb_local_tiles d (sym_rank_of d m n).
Proof.
  intros W T Wt [Hs Hst]. destruct (in_sub_global _ m n Wt Hs) as [H1 H2].
  exact (tri_position_range d W lo hi T _ _ _ H1 H2 Hst eq_refl).
Qed.

Theorem tri_slot_injective d lo hi m n m' n' : wf_sym d -> triangle d lo hi -> wf_tmat (sT d) ->
  sym_in_sub d m n -> sym_in_sub d m' n' -> sym_rank_of d m n = sym_rank_of d m' n' ->
  sym_position d (sym_rank_of d m n) m n = sym_position d (sym_rank_of d m n) m' n' -> m = m' /\ n = n'.
Proof.
  intros W T Wt [Hs Hst] [Hs' Hst'] Hr Hp.
  destruct (in_sub_global _ m n Wt Hs) as [H1 H2]. destruct (in_sub_global _ m' n' Wt Hs') as [H1' H2'].
  destruct (tri_position_inj d W lo hi T _ _ _ _ _ H1 H2 Hst H1' H2' Hst' eq_refl (eq_sym Hr) Hp). lia.
Qed.

(* outside the domain: more tile columns than tile rows (lower), a non-square tile grid (upper) *)
Definition sym_wide_lower : symd := mk_symd 1 1 UPLO_LOWER (tmat_init ST_TILE 1 1 2 4 0 0 2 4).
Definition sym_wide_upper : symd := mk_symd 1 1 UPLO_UPPER (tmat_init ST_TILE 1 1 1 3 0 0 1 3).

(* ROW on a 1x2 grid: both segments go to rank 0 at local slot 0, which has room for one *)
Definition vec_row_witness : vecd := mk_vecd 1 2 VD_ROW (tmat_init ST_TILE 1 1 2 1 0 0 2 1).
(* COL on a 2x1 grid: same *)
Definition vec_col_witness : vecd := mk_vecd 2 1 VD_COL (tmat_init ST_TILE 1 1 2 1 0 0 2 1).
(* DIAG on a 1x2 grid: the init of rank 1 does not terminate; on a 2x1 grid the counts are wrong *)
Definition vec_diag_witness : vecd := mk_vecd 1 2 VD_DIAG (tmat_init ST_TILE 1 1 2 1 0 0 2 1).
Definition vec_diag_witness2 : vecd := mk_vecd 2 1 VD_DIAG (tmat_init ST_TILE 1 1 5 1 0 0 5 1).
