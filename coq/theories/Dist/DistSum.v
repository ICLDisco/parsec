(* More finite sums: exchange of summation, conditional sums, sums over residue classes. *)
From PV Require Import Base.Tac Dist.DistDefs Dist.DistArith.
Local Open Scope Z_scope.

Lemma Zsum_zero f n : (forall k, 0 <= k < n -> f k = 0) -> Zsum f n = 0.
Proof.
  intros H. rewrite (Zsum_ext f (fun _ => 0) n H). destruct (Z_lt_ge_dec n 0).
  - unfold Zsum. replace (Z.to_nat n) with O by lia. reflexivity.
  - rewrite Zsum_const by lia. lia.
Qed.

Lemma Zsum_fubini h m n : 0 <= m -> 0 <= n ->
  Zsum (fun a => Zsum (fun b => h a b) n) m = Zsum (fun b => Zsum (fun a => h a b) m) n.
Proof.
  intros Hm Hn. revert m Hm. apply Zsum_ind.
  - rewrite Zsum_0. symmetry. apply Zsum_zero. intros; apply Zsum_0.
  - intros m Hm IH. rewrite Zsum_succ by lia. rewrite IH. rewrite <- Zsum_add.
    apply Zsum_ext. intros b Hb. rewrite Zsum_succ by lia. reflexivity.
Qed.

(* indicator sums *)
Lemma Zsum_lt_ind f n c : 0 <= c <= n -> Zsum (fun k => b2z (k <? c) * f k) n = Zsum f c.
Proof.
  intros Hc. replace n with (c + (n - c)) by lia. rewrite Zsum_app by lia.
  rewrite (Zsum_ext (fun k => b2z (k <? c) * f k) f c).
  2:{ intros k Hk. destruct (k <? c) eqn:E; cbn [b2z]; lia. }
  rewrite (Zsum_zero (fun k => b2z (c + k <? c) * f (c + k))); [lia|].
  intros k Hk. destruct (c + k <? c) eqn:E; cbn [b2z]; lia.
Qed.
Lemma Zsum_ge_ind f n c : 0 <= c <= n -> Zsum (fun k => b2z (c <=? k) * f k) n = Zsum f n - Zsum f c.
Proof.
  intros Hc. rewrite <- (Zsum_lt_ind f n c Hc). rewrite <- Zsum_sub. apply Zsum_ext.
  intros k Hk. destruct (c <=? k) eqn:E1, (k <? c) eqn:E2; cbn [b2z]; lia.
Qed.
Lemma Zsum_one n : 0 <= n -> Zsum (fun _ => 1) n = n.
Proof. intros. rewrite Zsum_const by lia. lia. Qed.

(* cnt_below np rk x = number of y in [0, x) with y mod np = rk *)
Lemma cnt_below_0 np rk : 0 <= rk -> cnt_below np rk 0 = 0.
Proof. intros. unfold cnt_below. rewrite Zdiv_0_l, Zmod_0_l. destruct (0 >? rk) eqn:E; lia. Qed.

Lemma cnt_below_succ np rk x : 0 < np -> 0 <= rk < np -> 0 <= x ->
  cnt_below np rk (x + 1) = cnt_below np rk x + b2z (x mod np =? rk).
Proof.
  intros Hn Hr Hx. unfold cnt_below. pose proof (divmod_spec x np Hn) as [H1 H2].
  set (q := x / np) in *. set (s := x mod np) in *.
  destruct (Z_lt_ge_dec (s + 1) np) as [L|G].
  - rewrite (div_eq (x + 1) np q (s + 1)) by lia. rewrite (mod_eq (x + 1) np q (s + 1)) by lia.
    destruct (s + 1 >? rk) eqn:E1, (s >? rk) eqn:E2, (s =? rk) eqn:E3; cbn [b2z]; lia.
  - rewrite (div_eq (x + 1) np (q + 1) 0) by lia. rewrite (mod_eq (x + 1) np (q + 1) 0) by lia.
    destruct (0 >? rk) eqn:E1, (s >? rk) eqn:E2, (s =? rk) eqn:E3; cbn [b2z]; lia.
Qed.

Lemma cnt_below_sum np rk x : 0 < np -> 0 <= rk < np -> 0 <= x ->
  cnt_below np rk x = Zsum (fun y => b2z (y mod np =? rk)) x.
Proof.
  intros Hn Hr. revert x. apply Zsum_ind.
  - rewrite Zsum_0. apply cnt_below_0; lia.
  - intros x Hx IH. rewrite Zsum_succ by lia. rewrite cnt_below_succ by lia. lia.
Qed.

Lemma cnt_below_mono np rk x y : 0 < np -> 0 <= rk < np -> 0 <= x <= y ->
  cnt_below np rk x <= cnt_below np rk y.
Proof.
  intros Hn Hr Hxy. rewrite !cnt_below_sum by lia. apply Zsum_mono; [lia|].
  intros t _. destruct (t mod np =? rk); cbn [b2z]; lia.
Qed.
Lemma cnt_below_nonneg np rk x : 0 < np -> 0 <= rk < np -> 0 <= x -> 0 <= cnt_below np rk x.
Proof. intros. rewrite <- (cnt_below_0 np rk) by lia. apply cnt_below_mono; lia. Qed.

(* on its own residue class cnt_below is the quotient *)
Lemma cnt_below_own np rk M : 0 < np -> 0 <= rk < np -> M mod np = rk -> cnt_below np rk M = M / np.
Proof. intros Hn Hr Hm. unfold cnt_below. rewrite Hm. destruct (rk >? rk) eqn:E; lia. Qed.

Lemma cnt_below_lt np rk M L : 0 < np -> 0 <= rk < np -> 0 <= M -> 0 <= L -> M mod np = rk ->
  (M < L <-> cnt_below np rk M < cnt_below np rk L).
Proof.
  intros Hn Hr HM HL Hm. split.
  - intros Hlt. pose proof (cnt_below_succ np rk M Hn Hr HM) as H. rewrite Hm in H.
    rewrite Z.eqb_refl in H. cbn [b2z] in H.
    pose proof (cnt_below_mono np rk (M + 1) L Hn Hr ltac:(lia)). lia.
  - intros Hlt. destruct (Z_lt_ge_dec M L) as [|G]; [assumption|].
    pose proof (cnt_below_mono np rk L M Hn Hr ltac:(lia)). lia.
Qed.

(* the member of the class with a given rank *)
Lemma cnt_below_member np rk c : 0 < np -> 0 <= rk < np -> 0 <= c ->
  0 <= c * np + rk /\ (c * np + rk) mod np = rk /\ cnt_below np rk (c * np + rk) = c.
Proof.
  intros Hn Hr Hc. assert (Hm : (c * np + rk) mod np = rk) by (apply (mod_eq _ np c rk); lia).
  split; [nia|]. split; [exact Hm|]. rewrite cnt_below_own by lia. apply (div_eq _ np c rk); lia.
Qed.
Lemma class_member_eq np rk M : 0 < np -> M mod np = rk -> M = (M / np) * np + rk.
Proof. intros Hn Hm. pose proof (divmod_spec M np Hn). lia. Qed.
Lemma class_inj np rk M M' : 0 < np -> 0 <= rk < np -> M mod np = rk -> M' mod np = rk ->
  cnt_below np rk M = cnt_below np rk M' -> M = M'.
Proof.
  intros Hn Hr Hm Hm'. rewrite !cnt_below_own by assumption. intros E.
  rewrite (class_member_eq np rk M Hn Hm), (class_member_eq np rk M' Hn Hm'), E. reflexivity.
Qed.

(* (M - N) / np for M in the class, N <= M : the members of the class in [N, M) *)
Lemma class_diff np rk M N : 0 < np -> 0 <= rk < np -> 0 <= N <= M -> M mod np = rk ->
  (M - N) / np = cnt_below np rk M - cnt_below np rk N.
Proof.
  intros Hn Hr HNM Hm. rewrite (cnt_below_own np rk M) by lia. unfold cnt_below.
  pose proof (divmod_spec M np Hn) as [HM1 HM2]. pose proof (divmod_spec N np Hn) as [HN1 HN2].
  rewrite Hm in *. set (a := M / np) in *. set (b := N / np) in *. set (s := N mod np) in *.
  destruct (s >? rk) eqn:E.
  - apply (div_eq _ np (a - (b + 1)) (np + rk - s)); lia.
  - apply (div_eq _ np (a - (b + 0)) (rk - s)); lia.
Qed.

(* all the classes together *)
Lemma cnt_below_all np x : 0 < np -> 0 <= x -> Zsum (fun rk => cnt_below np rk x) np = x.
Proof.
  intros Hn Hx.
  rewrite (Zsum_ext _ (fun rk => Zsum (fun y => b2z (y mod np =? rk)) x)).
  2:{ intros rk Hrk. apply cnt_below_sum; lia. }
  rewrite Zsum_fubini by lia.
  rewrite (Zsum_ext _ (fun _ => 1)); [apply Zsum_one; lia|].
  intros y Hy. apply Zsum_indicator. apply Z.mod_pos_bound; lia.
Qed.

(* a sum along one residue class *)
Lemma Zsum_class g np rk L : 0 < np -> 0 <= rk < np -> 0 <= L ->
  Zsum (fun j => g (j * np + rk)) (cnt_below np rk L) = Zsum (fun N => b2z (N mod np =? rk) * g N) L.
Proof.
  intros Hn Hr. revert L. apply Zsum_ind.
  - rewrite cnt_below_0 by lia. reflexivity.
  - intros L HL IH. rewrite Zsum_succ by lia. rewrite cnt_below_succ by lia.
    destruct (L mod np =? rk) eqn:E; cbn [b2z].
    + rewrite Zsum_succ by (apply cnt_below_nonneg; lia). rewrite IH.
      assert (Hm : L mod np = rk) by lia. rewrite (cnt_below_own np rk L) by lia.
      rewrite <- (class_member_eq np rk L Hn Hm). lia.
    + rewrite Z.add_0_r. rewrite IH. lia.
Qed.
