(* One dimension of the (k-)cyclic distribution: ownership, local index and the
   counting loop of parsec_matrix_block_cyclic_init. *)
From PV Require Import Base.Tac Dist.DistDefs Dist.DistArith.
Local Open Scope Z_scope.

Lemma count_loop_acc fuel : forall t k s L acc,
  bc_count_loop fuel t k s L acc = acc + bc_count_loop fuel t k s L 0.
Proof.
  induction fuel as [|f IH]; intros t k s L acc; cbn [bc_count_loop]; [lia|].
  destruct (t <? L) eqn:E1; [|lia]. destruct (t + k <? L) eqn:E2; [|lia].
  rewrite IH. rewrite (IH _ _ _ _ (0 + k)). lia.
Qed.

(* the loop started at [t] counts the indices t + j*s + o (0 <= o < k) below L *)
Lemma count_loop_spec fuel : forall t k s L, 0 < k -> k <= s -> L - t < Z.of_nat fuel ->
  0 <= bc_count_loop fuel t k s L 0 /\
  forall j o, 0 <= j -> 0 <= o < k ->
    (t + j * s + o < L <-> j * k + o < bc_count_loop fuel t k s L 0).
Proof.
  induction fuel as [|f IH]; intros t k s L Hk Hs Hf; cbn [bc_count_loop].
  - split; [lia|]. intros j o Hj Ho. assert (0 <= j * s) by nia. assert (0 <= j * k) by nia. lia.
  - destruct (t <? L) eqn:E1.
    + destruct (t + k <? L) eqn:E2.
      * rewrite count_loop_acc. destruct (IH (t + s) k s L Hk Hs ltac:(lia)) as [Hc IHs].
        split; [lia|]. intros j o Hj Ho.
        destruct (Z.eq_dec j 0) as [->|Hj0].
        -- lia.
        -- specialize (IHs (j - 1) o ltac:(lia) Ho).
           replace (t + s + (j - 1) * s + o) with (t + j * s + o) in IHs by lia.
           replace ((j - 1) * k + o) with (j * k + o - k) in IHs by lia. lia.
      * split; [lia|]. intros j o Hj Ho.
        destruct (Z.eq_dec j 0) as [->|Hj0]; [lia|].
        assert (s <= j * s) by nia. assert (k <= j * k) by nia. lia.
    + split; [lia|]. intros j o Hj Ho. assert (0 <= j * s) by nia. assert (0 <= j * k) by nia. lia.
Qed.

(* decomposition of a tile index: M = ((M/(k np)) np + (M/k) mod np) k + M mod k *)
Definition prow (np k M : Z) : Z := (M / k) mod np.
Definition glob1 (np k rr x : Z) : Z := ((x / k) * np + rr) * k + x mod k.

Lemma loc1_kcyc_eq np k M : 0 < np -> 0 < k ->
  loc1_kcyc np k M = (M / k / np) * k + M mod k.
Proof.
  intros Hn Hk. unfold loc1_kcyc. rewrite <- Z.div_div by lia.
  rewrite Z.rem_mul_r by lia.
  rewrite (Z.mul_comm k ((M / k) mod np)). rewrite Z_mod_plus_full. rewrite Z.mod_mod by lia. reflexivity.
Qed.

Lemma decomp1 np k M : 0 < np -> 0 < k ->
  M = ((M / k / np) * np + prow np k M) * k + M mod k.
Proof.
  intros Hn Hk. unfold prow.
  pose proof (divmod_spec M k Hk) as [H1 _]. pose proof (divmod_spec (M / k) np Hn) as [H2 _].
  rewrite <- H2. lia.
Qed.

Lemma glob1_loc np k M : 0 < np -> 0 < k -> 0 <= M ->
  glob1 np k (prow np k M) (loc1_kcyc np k M) = M.
Proof.
  intros Hn Hk HM. rewrite loc1_kcyc_eq by lia. unfold glob1.
  pose proof (divmod_spec M k Hk) as [_ Ho].
  rewrite (div_eq (M / k / np * k + M mod k) k (M / k / np) (M mod k)) by lia.
  rewrite (mod_eq (M / k / np * k + M mod k) k (M / k / np) (M mod k)) by lia.
  symmetry. apply decomp1; lia.
Qed.

Lemma glob1_facts np k rr x : 0 < np -> 0 < k -> 0 <= rr < np -> 0 <= x ->
  0 <= glob1 np k rr x /\ prow np k (glob1 np k rr x) = rr /\ loc1_kcyc np k (glob1 np k rr x) = x.
Proof.
  intros Hn Hk Hr Hx. unfold glob1.
  pose proof (divmod_spec x k Hk) as [Hx1 Hx2]. pose proof (div_nonneg x k Hx Hk) as Hq.
  set (q := x / k) in *. set (o := x mod k) in *.
  assert (Hd : ((q * np + rr) * k + o) / k = q * np + rr) by (apply (div_eq _ k (q * np + rr) o); lia).
  assert (Hm : ((q * np + rr) * k + o) mod k = o) by (apply (mod_eq _ k (q * np + rr) o); lia).
  split; [nia|]. split.
  - unfold prow. rewrite Hd. apply (mod_eq _ np q rr); lia.
  - rewrite loc1_kcyc_eq by lia. rewrite Hd, Hm.
    rewrite (div_eq (q * np + rr) np q rr) by lia. lia.
Qed.

(* local index and global index are in the same order, via the counting loop:
   a tile of process row rr is below L iff its local index is below the count *)
Lemma nb_elem_spec np k rr L : 0 < np -> 0 < k -> 0 <= rr < np -> 0 <= L ->
  0 <= bc_nb_elem rr k np L /\
  forall M, 0 <= M -> prow np k M = rr -> (M < L <-> loc1_kcyc np k M < bc_nb_elem rr k np L).
Proof.
  intros Hn Hk Hr HL. unfold bc_nb_elem.
  assert (Hs : k <= np * k) by nia.
  destruct (count_loop_spec (Z.to_nat L + 1) (rr * k) k (np * k) L Hk Hs) as [Hc Hsp].
  { assert (0 <= rr * k) by nia. lia. }
  split; [exact Hc|]. intros M HM Hp.
  pose proof (decomp1 np k M Hn Hk) as Hd. rewrite Hp in Hd.
  pose proof (divmod_spec M k Hk) as [_ Ho].
  assert (Hq : 0 <= M / k / np) by (apply div_nonneg; [apply div_nonneg|]; lia).
  specialize (Hsp (M / k / np) (M mod k) Hq Ho).
  rewrite loc1_kcyc_eq by lia.
  replace (rr * k + M / k / np * (np * k) + M mod k) with M in Hsp by (rewrite Hd at 1; ring).
  exact Hsp.
Qed.

Lemma loc1_nonneg np k M : 0 < np -> 0 < k -> 0 <= M -> 0 <= loc1_kcyc np k M.
Proof.
  intros Hn Hk HM. rewrite loc1_kcyc_eq by lia.
  assert (0 <= M / k / np) by (apply div_nonneg; [apply div_nonneg|]; lia).
  pose proof (divmod_spec M k Hk). nia.
Qed.

Definition clamp (x k : Z) : Z := Z.max 0 (Z.min x k).

(* with L = full (np k) + rem: the local index q k + o of process row rr is a tile
   below L iff it is below the closed form *)
Lemma closed_threshold np k rr full rem q o : 0 < np -> 0 < k -> 0 <= rr < np ->
  0 <= full -> 0 <= rem < np * k -> 0 <= q -> 0 <= o < k ->
  ((q * np + rr) * k + o < full * (np * k) + rem <-> q * k + o < full * k + clamp (rem - rr * k) k).
Proof.
  intros Hn Hk Hr Hfull Hrem Hq Ho. unfold clamp.
  assert ((rr + 1) * k <= np * k) by nia. assert (0 <= rr * k) by nia.
  destruct (Z_lt_ge_dec q full) as [Hlt|Hge]; [|destruct (Z.eq_dec q full) as [->|Hne]].
  - assert ((q + 1) * (np * k) <= full * (np * k)) by nia. assert ((q + 1) * k <= full * k) by nia. lia.
  - lia.
  - assert ((full + 1) * (np * k) <= q * (np * k)) by nia. assert ((full + 1) * k <= q * k) by nia. lia.
Qed.

(* closed form of the count *)
Lemma nb_elem_closed np k rr L : 0 < np -> 0 < k -> 0 <= rr < np -> 0 <= L ->
  bc_nb_elem rr k np L = (L / (np * k)) * k + clamp (L mod (np * k) - rr * k) k.
Proof.
  intros Hn Hk Hr HL.
  destruct (nb_elem_spec np k rr L Hn Hk Hr HL) as [Hc Hsp].
  assert (Hnk : 0 < np * k) by nia.
  pose proof (divmod_spec L (np * k) Hnk) as [HL1 HL2].
  pose proof (div_nonneg L (np * k) HL Hnk) as Hfull.
  set (c := bc_nb_elem rr k np L) in *.
  set (c0 := L / (np * k) * k + clamp (L mod (np * k) - rr * k) k).
  assert (Hc0 : 0 <= c0) by (unfold c0, clamp; nia).
  (* both c and c0 are thresholds of the same predicate on local indices *)
  assert (Hchar : forall x, 0 <= x -> (x < c <-> x < c0)).
  { intros x Hx. destruct (glob1_facts np k rr x Hn Hk Hr Hx) as (Hg0 & Hgp & Hgl).
    pose proof (Hsp _ Hg0 Hgp) as H. rewrite Hgl in H. rewrite <- H.
    pose proof (divmod_spec x k Hk) as [Hx1 Hx2].
    pose proof (closed_threshold np k rr _ _ _ _ Hn Hk Hr Hfull HL2 (div_nonneg x k Hx Hk) Hx2) as T.
    rewrite <- HL1, <- Hx1 in T. exact T. }
  destruct (Z_lt_ge_dec c c0) as [H1|H1].
  - pose proof (Hchar c Hc). lia.
  - destruct (Z.eq_dec c c0) as [H2|H2]; [exact H2|]. pose proof (Hchar c0 Hc0). lia.
Qed.

Lemma clamp_sum k rem : 0 < k -> 0 <= rem -> forall n, 0 <= n ->
  Zsum (fun rr => clamp (rem - rr * k) k) n = Z.min rem (n * k).
Proof.
  intros Hk Hrem. apply (Zsum_ind (fun n => Zsum (fun rr => clamp (rem - rr * k) k) n = Z.min rem (n * k))).
  - rewrite Zsum_0. lia.
  - intros n Hn IH. rewrite Zsum_succ by lia. rewrite IH. unfold clamp.
    replace ((n + 1) * k) with (n * k + k) by lia. lia.
Qed.

(* the counts of the np process rows add up to the number of tile rows *)
Lemma nb_elem_sum np k L : 0 < np -> 0 < k -> 0 <= L ->
  Zsum (fun rr => bc_nb_elem rr k np L) np = L.
Proof.
  intros Hn Hk HL.
  rewrite (Zsum_ext _ (fun rr => (L / (np * k)) * k + clamp (L mod (np * k) - rr * k) k)).
  2:{ intros rr Hrr. apply nb_elem_closed; lia. }
  rewrite Zsum_add. rewrite Zsum_const by lia. rewrite clamp_sum by (try lia; apply Z.mod_pos_bound; nia).
  assert (Hnk : 0 < np * k) by nia.
  pose proof (divmod_spec L (np * k) Hnk) as [HL1 HL2]. lia.
Qed.

Lemma own1_plain_kcyc np ip M : own1_plain np ip M = own1_kcyc np 1 ip M.
Proof. unfold own1_plain, own1_kcyc. rewrite Z.div_1_r. reflexivity. Qed.
Lemma loc1_plain_kcyc np M : 0 < np -> loc1_plain np M = loc1_kcyc np 1 M.
Proof. intros. unfold loc1_plain. rewrite loc1_kcyc_eq by lia. rewrite Z.div_1_r, Z.mod_1_r. lia. Qed.

Lemma own1_range np k ip M : 0 < np -> 0 <= own1_kcyc np k ip M < np.
Proof. intros. unfold own1_kcyc. apply Z.mod_pos_bound; lia. Qed.

(* process row pr owns M iff M's k-block is congruent to pr's rank in the rotated grid *)
Lemma own1_iff np k ip M pr : 0 < np -> 0 <= ip < np -> 0 <= pr < np ->
  (own1_kcyc np k ip M = pr <-> prow np k M = (pr + (np - ip)) mod np).
Proof.
  intros Hn Hip Hpr. unfold own1_kcyc, prow.
  apply rot_inv; try lia. apply Z.mod_pos_bound; lia.
Qed.

(* One dimension as a whole.
   The tiles below L that process row pr owns are numbered by their local index
   0, 1, ..., count - 1, where the count is the one parsec_matrix_block_cyclic_init
   computes for pr's rank in the rotated grid, (pr + (np - ip)) mod np. *)
Section OneDim.
Variables np k ip L : Z.
Hypothesis Hn1 : 1 <= np.
Hypothesis Hk1 : 1 <= k.
Hypothesis Hip : 0 <= ip < np.
Hypothesis HL : 0 <= L.
Let Hn : 0 < np. Proof. lia. Qed.
Let Hk : 0 < k. Proof. lia. Qed.

Lemma own1_count_nonneg pr : 0 <= pr < np -> 0 <= bc_nb_elem ((pr + (np - ip)) mod np) k np L.
Proof. intros Hpr. apply nb_elem_spec; try assumption. apply rot_range; assumption. Qed.

Lemma own1_loc_range M pr : 0 <= M < L -> own1_kcyc np k ip M = pr ->
  0 <= loc1_kcyc np k M < bc_nb_elem ((pr + (np - ip)) mod np) k np L.
Proof.
  intros HM Ho. pose proof (own1_range np k ip M Hn) as Hpr. rewrite Ho in Hpr.
  apply (own1_iff np k ip M pr Hn Hip Hpr) in Ho.
  destruct (nb_elem_spec np k _ L Hn Hk (rot_range np ip pr Hn Hip Hpr) HL) as [_ H].
  specialize (H M ltac:(lia) Ho). pose proof (loc1_nonneg np k M Hn Hk ltac:(lia)). lia.
Qed.

Lemma own1_loc_inj M M' : 0 <= M -> 0 <= M' ->
  own1_kcyc np k ip M = own1_kcyc np k ip M' -> loc1_kcyc np k M = loc1_kcyc np k M' -> M = M'.
Proof.
  intros HM HM' Ho Hl. pose proof (own1_range np k ip M' Hn) as Hpr.
  apply (own1_iff np k ip M _ Hn Hip Hpr) in Ho.
  pose proof (proj1 (own1_iff np k ip M' _ Hn Hip Hpr) eq_refl) as Ho'.
  rewrite <- (glob1_loc np k M), <- (glob1_loc np k M') by lia. rewrite Ho, Ho', Hl. reflexivity.
Qed.

Lemma own1_loc_surj pr x : 0 <= pr < np -> 0 <= x < bc_nb_elem ((pr + (np - ip)) mod np) k np L ->
  exists M, 0 <= M < L /\ own1_kcyc np k ip M = pr /\ loc1_kcyc np k M = x.
Proof.
  intros Hpr Hx. pose proof (rot_range np ip pr Hn Hip Hpr) as Hrr.
  destruct (glob1_facts np k _ x Hn Hk Hrr ltac:(lia)) as (Hg0 & Hgp & Hgl).
  destruct (nb_elem_spec np k _ L Hn Hk Hrr HL) as [_ H]. specialize (H _ Hg0 Hgp). rewrite Hgl in H.
  exists (glob1 np k ((pr + (np - ip)) mod np) x). split; [lia|]. split; [|exact Hgl].
  apply own1_iff; assumption.
Qed.
End OneDim.

(* rrank of a rank in terms of its grid row *)
Lemma grid_rrank_eq P Q ip r : 0 < Q -> grid_rrank P Q ip r = ((r / Q) + (P - ip)) mod P.
Proof. reflexivity. Qed.
