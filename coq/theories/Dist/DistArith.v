(* Arithmetic and finite-sum lemmas used by the distribution proofs. *)
From PV Require Import Base.Tac Dist.DistDefs.
Local Open Scope Z_scope.

Lemma mod_wrap x n : 0 < n -> 0 <= x < 2*n -> x mod n = if x <? n then x else x - n.
Proof.
  intros Hn Hx. destruct (x <? n) eqn:E.
  - apply Z.mod_small; lia.
  - symmetry; apply (Z.mod_unique_pos x n 1 (x - n)); lia.
Qed.

Lemma div_eq x n q r : 0 <= r < n -> x = q * n + r -> x / n = q.
Proof. intros Hr Hx. symmetry. apply (Z.div_unique_pos x n q r); lia. Qed.
Lemma mod_eq x n q r : 0 <= r < n -> x = q * n + r -> x mod n = r.
Proof. intros Hr Hx. symmetry. apply (Z.mod_unique_pos x n q r); lia. Qed.

Lemma divmod_spec x n : 0 < n -> x = (x / n) * n + x mod n /\ 0 <= x mod n < n.
Proof. intros Hn. pose proof (Z.div_mod x n). pose proof (Z.mod_pos_bound x n). lia. Qed.

Lemma div_nonneg x n : 0 <= x -> 0 < n -> 0 <= x / n.
Proof. intros. apply Z.div_pos; lia. Qed.

Lemma mixed_radix_inj R a b a' b' : 0 <= b < R -> 0 <= b' < R ->
  R * a + b = R * a' + b' -> a = a' /\ b = b'.
Proof.
  intros Hb Hb' H. destruct (Z_lt_ge_dec a a') as [L|G]; [|destruct (Z_lt_ge_dec a' a) as [L|G']].
  - assert (R * (a + 1) <= R * a') by nia. lia.
  - assert (R * (a' + 1) <= R * a) by nia. lia.
  - assert (a = a') by lia. subst. lia.
Qed.

(* rotation by the grid offset *)
Lemma rot_inv np ip a pr : 0 < np -> 0 <= ip < np -> 0 <= a < np -> 0 <= pr < np ->
  ((a + ip) mod np = pr <-> a = (pr + (np - ip)) mod np).
Proof.
  intros Hn Hip Ha Hpr. rewrite !mod_wrap by lia.
  destruct (a + ip <? np) eqn:E1, (pr + (np - ip) <? np) eqn:E2; lia.
Qed.
Lemma rot_range np ip pr : 0 < np -> 0 <= ip < np -> 0 <= pr < np -> 0 <= (pr + (np - ip)) mod np < np.
Proof. intros. apply Z.mod_pos_bound; lia. Qed.

(* a rank of a P x Q grid without offsets: grid row r / Q, grid column r mod Q *)
Lemma grid_row_range P Q r : 0 < Q -> 0 <= r < P * Q -> 0 <= r / Q < P /\ 0 <= r mod Q < Q.
Proof.
  intros HQ Hr. pose proof (divmod_spec r Q HQ) as [H1 H2].
  assert (0 <= r / Q) by (apply div_nonneg; lia). split; [|lia]. split; [lia|]. nia.
Qed.
Lemma grid_ranks0 P Q r : 1 <= P -> 1 <= Q -> 0 <= r < P * Q ->
  grid_rrank P Q 0 r = r / Q /\ grid_crank Q 0 r = r mod Q /\ 0 <= r / Q < P /\ 0 <= r mod Q < Q.
Proof.
  intros HP HQ Hr. destruct (grid_row_range P Q r ltac:(lia) Hr) as [H1 H2]. unfold grid_rrank, grid_crank.
  split; [apply (mod_eq _ P 1 (r / Q)); lia|]. split; [apply (mod_eq _ Q 1 (r mod Q)); lia|]. lia.
Qed.

Lemma zsum_ext f g n : (forall k, 0 <= k < Z.of_nat n -> f k = g k) -> zsum f n = zsum g n.
Proof.
  induction n as [|n IH]; intros H; cbn [zsum]; [reflexivity|].
  rewrite IH by (intros; apply H; lia). rewrite H by lia. reflexivity.
Qed.
Lemma zsum_app f a b : zsum f (a + b) = zsum f a + zsum (fun k => f (Z.of_nat a + k)) b.
Proof.
  induction b as [|b IH]; cbn [zsum].
  - rewrite Nat.add_0_r. lia.
  - rewrite Nat.add_succ_r. cbn [zsum]. rewrite IH.
    replace (Z.of_nat (a + b)) with (Z.of_nat a + Z.of_nat b) by lia. lia.
Qed.

Lemma Zsum_ext f g n : (forall k, 0 <= k < n -> f k = g k) -> Zsum f n = Zsum g n.
Proof. intros H. unfold Zsum. apply zsum_ext. intros k Hk. apply H. lia. Qed.
Lemma Zsum_add f g n : Zsum (fun k => f k + g k) n = Zsum f n + Zsum g n.
Proof. unfold Zsum. induction (Z.to_nat n) as [|m IH]; cbn [zsum]; lia. Qed.
Lemma Zsum_sub f g n : Zsum (fun k => f k - g k) n = Zsum f n - Zsum g n.
Proof. unfold Zsum. induction (Z.to_nat n) as [|m IH]; cbn [zsum]; lia. Qed.
Lemma Zsum_mul_l c f n : Zsum (fun k => c * f k) n = c * Zsum f n.
Proof. unfold Zsum. induction (Z.to_nat n) as [|m IH]; cbn [zsum]; lia. Qed.
Lemma Zsum_mul_r c f n : Zsum (fun k => f k * c) n = Zsum f n * c.
Proof. unfold Zsum. induction (Z.to_nat n) as [|m IH]; cbn [zsum]; lia. Qed.
Lemma Zsum_const c n : 0 <= n -> Zsum (fun _ => c) n = n * c.
Proof. intros Hn. rewrite <- (Z2Nat.id n Hn) at 2. unfold Zsum. induction (Z.to_nat n) as [|m IH]; cbn [zsum]; lia. Qed.
Lemma Zsum_0 f : Zsum f 0 = 0.
Proof. reflexivity. Qed.
Lemma Zsum_succ f n : 0 <= n -> Zsum f (n + 1) = Zsum f n + f n.
Proof.
  intros Hn. unfold Zsum. replace (Z.to_nat (n + 1)) with (S (Z.to_nat n)) by lia.
  cbn [zsum]. rewrite Z2Nat.id by lia. reflexivity.
Qed.
Lemma Zsum_app f a b : 0 <= a -> 0 <= b -> Zsum f (a + b) = Zsum f a + Zsum (fun k => f (a + k)) b.
Proof.
  intros Ha Hb. unfold Zsum. rewrite Z2Nat.inj_add by lia. rewrite zsum_app.
  rewrite Z2Nat.id by lia. reflexivity.
Qed.
(* induction on a non-negative Z bound *)
Lemma Zsum_ind (Pr : Z -> Prop) : Pr 0 -> (forall n, 0 <= n -> Pr n -> Pr (n + 1)) -> forall n, 0 <= n -> Pr n.
Proof. intros H0 HS n Hn. apply (natlike_ind Pr); auto. Qed.

Lemma Zsum_mono s j j' : 0 <= j <= j' -> (forall t, j <= t < j' -> 0 <= s t) -> Zsum s j <= Zsum s j'.
Proof.
  intros Hj Hs. assert (H : forall dlt, 0 <= dlt -> j + dlt <= j' -> Zsum s j <= Zsum s (j + dlt)).
  { apply (Zsum_ind (fun dlt => j + dlt <= j' -> Zsum s j <= Zsum s (j + dlt))).
    - rewrite Z.add_0_r. lia.
    - intros n Hn IH Hle. rewrite Z.add_assoc, Zsum_succ by lia. pose proof (Hs (j + n)). lia. }
  replace j' with (j + (j' - j)) by lia. apply H; lia.
Qed.

(* sum over the ranks of a P x Q grid, r = pr * Q + pc *)
Lemma Zsum_grid2 h P Q : 0 <= P -> 0 < Q ->
  Zsum (fun r => h (r / Q) (r mod Q)) (P * Q) = Zsum (fun a => Zsum (fun b => h a b) Q) P.
Proof.
  intros HP HQ. revert P HP. apply Zsum_ind.
  - reflexivity.
  - intros P HP IH. replace ((P + 1) * Q) with (P * Q + Q) by lia.
    rewrite Zsum_app by nia. rewrite IH. rewrite Zsum_succ by lia. f_equal.
    apply Zsum_ext. intros k Hk.
    rewrite (div_eq (P * Q + k) Q P k) by lia. rewrite (mod_eq (P * Q + k) Q P k) by lia. reflexivity.
Qed.
Lemma Zsum_grid f g P Q : 0 <= P -> 0 < Q ->
  Zsum (fun r => f (r / Q) * g (r mod Q)) (P * Q) = Zsum f P * Zsum g Q.
Proof.
  intros HP HQ. rewrite (Zsum_grid2 (fun a b => f a * g b)) by lia.
  rewrite (Zsum_ext _ (fun a => f a * Zsum g Q)) by (intros; apply Zsum_mul_l). apply Zsum_mul_r.
Qed.

(* a sum over a rotated index set *)
Lemma Zsum_rot_aux f a c : 0 <= a -> 0 <= c -> 0 < a + c ->
  Zsum (fun x => f ((x + c) mod (a + c))) (a + c) = Zsum f (c + a).
Proof.
  intros Ha Hc Hn. rewrite Zsum_app by lia. rewrite (Zsum_app f c a) by lia.
  rewrite (Zsum_ext (fun x => f ((x + c) mod (a + c))) (fun k => f (c + k)) a).
  2:{ intros k Hk. rewrite Z.mod_small by lia. f_equal. lia. }
  rewrite (Zsum_ext (fun k => f ((a + k + c) mod (a + c))) f c).
  2:{ intros k Hk. f_equal. rewrite (mod_eq (a + k + c) (a + c) 1 k) by lia. reflexivity. }
  lia.
Qed.
Lemma Zsum_rot f n c : 0 < n -> 0 <= c <= n ->
  Zsum (fun x => f ((x + c) mod n)) n = Zsum f n.
Proof.
  intros Hn Hc. pose proof (Zsum_rot_aux f (n - c) c) as H.
  replace (n - c + c) with n in H by lia. replace (c + (n - c)) with n in H by lia.
  apply H; lia.
Qed.

(* exactly one index below n equals a given one *)
Lemma Zsum_indicator a n : 0 <= a < n -> Zsum (fun r => b2z (a =? r)) n = 1.
Proof.
  intros Ha. assert (H : forall m, 0 <= m -> Zsum (fun r => b2z (a =? r)) m = b2z (a <? m)).
  { apply Zsum_ind.
    - destruct (a <? 0) eqn:E; [lia|reflexivity].
    - intros m Hm IH. rewrite Zsum_succ, IH by lia.
      destruct (a <? m) eqn:E1, (a =? m) eqn:E2, (a <? m + 1) eqn:E3; cbn [b2z]; lia. }
  rewrite H by lia. destruct (a <? n) eqn:E; [reflexivity|lia].
Qed.
