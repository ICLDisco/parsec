(* Two-dimensional block-cyclic distribution (plain and k-cyclic): ownership,
   local slots, counts, keys, virtual processes. *)
From PV Require Import Base.Tac Dist.DistDefs Dist.DistArith Dist.DistBC1.
Local Open Scope Z_scope.

(* legal parameters of parsec_matrix_block_cyclic_init *)
Definition wf_bc (d : bcd) : Prop :=
  1 <= bP d /\ 1 <= bQ d /\ 1 <= bkp d /\ 1 <= bkq d /\
  0 <= bip d < bP d /\ 0 <= bjq d < bQ d /\ 0 <= t_lmt (bT d) /\ 0 <= t_lnt (bT d).

Lemma is_plain_k d : bc_is_plain d = true -> bkp d = 1 /\ bkq d = 1.
Proof. unfold bc_is_plain. intros H. apply andb_true_iff in H. lia. Qed.

Lemma bc_own_row_eq d M : bc_own_row d M = own1_kcyc (bP d) (bkp d) (bip d) M.
Proof. unfold bc_own_row. destruct (bc_is_plain d) eqn:E; [|reflexivity].
  apply is_plain_k in E as [-> _]. apply own1_plain_kcyc. Qed.
Lemma bc_own_col_eq d N : bc_own_col d N = own1_kcyc (bQ d) (bkq d) (bjq d) N.
Proof. unfold bc_own_col. destruct (bc_is_plain d) eqn:E; [|reflexivity].
  apply is_plain_k in E as [_ ->]. apply own1_plain_kcyc. Qed.
Lemma bc_loc_row_eq d M : wf_bc d -> bc_loc_row d M = loc1_kcyc (bP d) (bkp d) M.
Proof. intros W. unfold bc_loc_row. destruct (bc_is_plain d) eqn:E; [|reflexivity].
  apply is_plain_k in E as [-> _]. apply loc1_plain_kcyc. unfold wf_bc in W; lia. Qed.
Lemma bc_loc_col_eq d N : wf_bc d -> bc_loc_col d N = loc1_kcyc (bQ d) (bkq d) N.
Proof. intros W. unfold bc_loc_col. destruct (bc_is_plain d) eqn:E; [|reflexivity].
  apply is_plain_k in E as [_ ->]. apply loc1_plain_kcyc. unfold wf_bc in W; lia. Qed.

Lemma bc_rank_of_g_range d M N : wf_bc d -> 0 <= bc_rank_of_g d M N < bP d * bQ d.
Proof.
  intros W. unfold bc_rank_of_g. rewrite bc_own_row_eq, bc_own_col_eq. unfold wf_bc in W.
  pose proof (own1_range (bP d) (bkp d) (bip d) M ltac:(lia)).
  pose proof (own1_range (bQ d) (bkq d) (bjq d) N ltac:(lia)). nia.
Qed.

Lemma bc_rank_of_g_iff d M N r : wf_bc d -> 0 <= r < bP d * bQ d ->
  (bc_rank_of_g d M N = r <-> bc_own_row d M = r / bQ d /\ bc_own_col d N = r mod bQ d).
Proof.
  intros W Hr. unfold bc_rank_of_g. rewrite bc_own_row_eq, bc_own_col_eq. unfold wf_bc in W.
  pose proof (own1_range (bQ d) (bkq d) (bjq d) N ltac:(lia)) as Hc.
  set (a := own1_kcyc (bP d) (bkp d) (bip d) M) in *. set (b := own1_kcyc (bQ d) (bkq d) (bjq d) N) in *.
  pose proof (divmod_spec r (bQ d) ltac:(lia)) as [Hr1 Hr2].
  split.
  - intros <-. split; [symmetry; apply (div_eq _ (bQ d) a b); lia | symmetry; apply (mod_eq _ (bQ d) a b); lia].
  - intros [-> ->]. lia.
Qed.

Lemma bc_nb_local_eq d r : bc_nb_local_tiles d r = bc_nb_elem_r0 d r * bc_nb_elem_c0 d r.
Proof.
  unfold bc_nb_local_tiles, bc_nb_elem_r, bc_nb_elem_c.
  destruct (bc_nb_elem_r0 d r =? 0) eqn:E1; cbn.
  - lia.
  - destruct (bc_nb_elem_c0 d r =? 0) eqn:E2; lia.
Qed.
Lemma bc_nb_elem_r_pos d r : 0 < bc_nb_elem_r0 d r -> 0 < bc_nb_elem_c0 d r -> bc_nb_elem_r d r = bc_nb_elem_r0 d r.
Proof.
  intros H1 H2. unfold bc_nb_elem_r, bc_nb_elem_c.
  destruct (bc_nb_elem_r0 d r =? 0) eqn:E1; [lia|]. destruct (bc_nb_elem_c0 d r =? 0) eqn:E2; lia.
Qed.

(* an owned tile inside the matrix has local coordinates below the counts *)
Lemma bc_owned_loc d M N r : wf_bc d -> 0 <= r < bP d * bQ d ->
  0 <= M < t_lmt (bT d) -> 0 <= N < t_lnt (bT d) -> bc_rank_of_g d M N = r ->
  0 <= bc_loc_row d M < bc_nb_elem_r0 d r /\ 0 <= bc_loc_col d N < bc_nb_elem_c0 d r.
Proof.
  intros W Hr HM HN Ho. apply (bc_rank_of_g_iff d M N r W Hr) in Ho as [Ho1 Ho2].
  rewrite bc_own_row_eq in Ho1. rewrite bc_own_col_eq in Ho2.
  rewrite bc_loc_row_eq, bc_loc_col_eq by exact W. destruct W as (HP & HQ & Hkp & Hkq & Hip & Hjq & Hlm & Hln).
  split; [apply (own1_loc_range _ _ _ _ HP Hkp Hip Hlm) | apply (own1_loc_range _ _ _ _ HQ Hkq Hjq Hln)];
    assumption.
Qed.

Theorem bc_position_range d M N r : wf_bc d ->
  0 <= M < t_lmt (bT d) -> 0 <= N < t_lnt (bT d) -> bc_rank_of_g d M N = r ->
  0 <= bc_position_g d r M N < bc_nb_local_tiles d r.
Proof.
  intros W HM HN Ho. pose proof (bc_rank_of_g_range d M N W) as Hr. rewrite Ho in Hr.
  destruct (bc_owned_loc d M N r W Hr HM HN Ho) as [H1 H2].
  unfold bc_position_g. rewrite bc_nb_local_eq. rewrite bc_nb_elem_r_pos by lia. nia.
Qed.

Theorem bc_position_inj d M N M' N' r : wf_bc d ->
  0 <= M < t_lmt (bT d) -> 0 <= N < t_lnt (bT d) -> 0 <= M' < t_lmt (bT d) -> 0 <= N' < t_lnt (bT d) ->
  bc_rank_of_g d M N = r -> bc_rank_of_g d M' N' = r ->
  bc_position_g d r M N = bc_position_g d r M' N' -> M = M' /\ N = N'.
Proof.
  intros W HM HN HM' HN' Ho Ho' Hp. pose proof (bc_rank_of_g_range d M N W) as Hr. rewrite Ho in Hr.
  destruct (bc_owned_loc d M N r W Hr HM HN Ho) as [H1 H2].
  destruct (bc_owned_loc d M' N' r W Hr HM' HN' Ho') as [H1' H2'].
  unfold bc_position_g in Hp. rewrite bc_nb_elem_r_pos in Hp by lia.
  destruct (mixed_radix_inj _ _ _ _ _ H1 H1' Hp) as [Hl2 Hl1].
  apply (bc_rank_of_g_iff d M N r W Hr) in Ho as [Ho1 Ho2].
  apply (bc_rank_of_g_iff d M' N' r W Hr) in Ho' as [Ho1' Ho2'].
  rewrite bc_own_row_eq in Ho1, Ho1'. rewrite bc_own_col_eq in Ho2, Ho2'.
  rewrite !bc_loc_row_eq in Hl1 by exact W. rewrite !bc_loc_col_eq in Hl2 by exact W.
  destruct W as (HP & HQ & Hkp & Hkq & Hip & Hjq & _).
  split; [apply (own1_loc_inj _ _ _ HP Hkp Hip) | apply (own1_loc_inj _ _ _ HQ Hkq Hjq)]; congruence || lia.
Qed.

Theorem bc_position_surj d r x : wf_bc d -> 0 <= r < bP d * bQ d ->
  0 <= x < bc_nb_local_tiles d r ->
  exists M N, 0 <= M < t_lmt (bT d) /\ 0 <= N < t_lnt (bT d) /\
              bc_rank_of_g d M N = r /\ bc_position_g d r M N = x.
Proof.
  intros W Hr Hx. rewrite bc_nb_local_eq in Hx.
  assert (W' := W). destruct W' as (HP & HQ & Hkp & Hkq & Hip & Hjq & Hlm & Hln).
  destruct (grid_row_range (bP d) (bQ d) r ltac:(lia) Hr) as [Hpr Hpc].
  assert (HR : 0 <= bc_nb_elem_r0 d r) by exact (own1_count_nonneg _ _ _ _ HP Hkp Hip Hlm _ Hpr).
  assert (HC : 0 <= bc_nb_elem_c0 d r) by exact (own1_count_nonneg _ _ _ _ HQ Hkq Hjq Hln _ Hpc).
  assert (HRp : 0 < bc_nb_elem_r0 d r) by nia.
  pose proof (divmod_spec x _ HRp) as [Hx1 Hx2].
  assert (Hq : 0 <= x / bc_nb_elem_r0 d r < bc_nb_elem_c0 d r) by (split; [apply div_nonneg; lia | nia]).
  (* the tile with local coordinates (x mod nb_elem_r, x / nb_elem_r) *)
  destruct (own1_loc_surj _ _ _ _ HP Hkp Hip Hlm _ _ Hpr Hx2) as (M & HM & HMo & HMl).
  destruct (own1_loc_surj _ _ _ _ HQ Hkq Hjq Hln _ _ Hpc Hq) as (N & HN & HNo & HNl).
  exists M, N. split; [exact HM|]. split; [exact HN|]. split.
  - apply (bc_rank_of_g_iff d M N r W Hr). rewrite bc_own_row_eq, bc_own_col_eq. split; assumption.
  - unfold bc_position_g. rewrite bc_nb_elem_r_pos by lia.
    rewrite bc_loc_row_eq, bc_loc_col_eq by exact W. rewrite HMl, HNl. lia.
Qed.

Theorem bc_nb_local_sum d : wf_bc d ->
  Zsum (fun r => bc_nb_local_tiles d r) (bP d * bQ d) = t_lmt (bT d) * t_lnt (bT d).
Proof.
  intros W. assert (W' := W). unfold wf_bc in W'.
  set (f := fun pr => bc_nb_elem ((pr + (bP d - bip d)) mod bP d) (bkp d) (bP d) (t_lmt (bT d))).
  set (g := fun pc => bc_nb_elem ((pc + (bQ d - bjq d)) mod bQ d) (bkq d) (bQ d) (t_lnt (bT d))).
  rewrite (Zsum_ext _ (fun r => f (r / bQ d) * g (r mod bQ d))).
  2:{ intros r Hr. rewrite bc_nb_local_eq. reflexivity. }
  rewrite (Zsum_grid f g) by lia. unfold f, g.
  rewrite (Zsum_rot (fun rr => bc_nb_elem rr (bkp d) (bP d) (t_lmt (bT d))) (bP d) (bP d - bip d)) by lia.
  rewrite (Zsum_rot (fun cr => bc_nb_elem cr (bkq d) (bQ d) (t_lnt (bT d))) (bQ d) (bQ d - bjq d)) by lia.
  rewrite !nb_elem_sum by lia. reflexivity.
Qed.

Lemma key2coords_data_key t m n : 0 <= m + t_oi t < t_lmt t ->
  tm_key2coords t (tm_data_key t m n) = (m, n).
Proof.
  intros H. unfold tm_key2coords, tm_data_key.
  rewrite (mod_eq _ (t_lmt t) (n + t_oj t) (m + t_oi t)) by lia.
  rewrite (div_eq _ (t_lmt t) (n + t_oj t) (m + t_oi t)) by lia. f_equal; lia.
Qed.

Lemma bc_stored_key_eq d m n : bc_stored_key d m n = tm_data_key (bT d) m n.
Proof. reflexivity. Qed.

Lemma ceil_sqrt_range n : 1 <= n -> 1 <= ceil_sqrt n <= n.
Proof.
  intros Hn. unfold ceil_sqrt. pose proof (Z.sqrt_spec n ltac:(lia)) as Hs. cbv zeta in Hs. unfold Z.succ in Hs. cbv zeta.
  set (s := Z.sqrt n) in *. assert (0 <= s) by apply Z.sqrt_nonneg.
  destruct (s * s =? n) eqn:E; nia.
Qed.

Lemma vp_loop_spec fuel : forall pq q, 1 <= q <= pq -> pq - q < Z.of_nat fuel ->
  q <= vp_loop fuel pq q <= pq /\ (pq / vp_loop fuel pq q) * vp_loop fuel pq q = pq.
Proof.
  induction fuel as [|f IH]; intros pq q Hq Hf; cbn [vp_loop]; [lia|].
  destruct (pq / q * q =? pq) eqn:E; [lia|].
  assert (q <> pq). { intros ->. rewrite Z.div_same in E by lia. lia. }
  destruct (IH pq (q + 1)) as [H1 H2]; lia.
Qed.

Lemma vp_grid nbvp : 1 <= nbvp -> 1 <= vp_q nbvp /\ 1 <= vp_p nbvp /\ vp_p nbvp * vp_q nbvp = nbvp.
Proof.
  intros Hn. unfold vp_p, vp_q. pose proof (ceil_sqrt_range nbvp Hn) as Hc.
  destruct (vp_loop_spec (Z.to_nat nbvp) nbvp (ceil_sqrt nbvp) Hc ltac:(lia)) as [H1 H2].
  set (q := vp_loop (Z.to_nat nbvp) nbvp (ceil_sqrt nbvp)) in *.
  split; [lia|]. split; [|exact H2]. nia.
Qed.

Theorem vpid_2d_range nbvp lm ln : 1 <= nbvp -> 0 <= vpid_2d nbvp lm ln < nbvp.
Proof.
  intros Hn. unfold vpid_2d. destruct (nbvp =? 1) eqn:E; [lia|].
  destruct (vp_grid nbvp Hn) as (Hq & Hp & Hpq).
  pose proof (Z.mod_pos_bound ln (vp_q nbvp) ltac:(lia)). pose proof (Z.mod_pos_bound lm (vp_p nbvp) ltac:(lia)).
  nia.
Qed.
