(* Tabular, vector and band distributions. *)
From PV Require Import Base.Tac Dist.DistDefs Dist.DistArith Dist.DistSum Dist.DistBC1 Dist.DistBCProofs.
Local Open Scope Z_scope.

Lemma tab_count_nonneg l r : 0 <= tab_count l r.
Proof. induction l as [|a l IH]; cbn [tab_count]; [lia|]. destruct (a =? r); lia. Qed.

Lemma tab_count_firstn_le l r k : tab_count (firstn k l) r <= tab_count l r.
Proof.
  revert k. induction l as [|a l IH]; intros k; destruct k; cbn [firstn tab_count]; try lia.
  - pose proof (tab_count_nonneg l r). destruct (a =? r); lia.
  - specialize (IH k). lia.
Qed.

(* the slot of the k-th table entry, when it belongs to r *)
Lemma tab_positions_spec l r : forall next k, (k < length l)%nat -> nth k l (-1) = r ->
  nth k (tab_positions l r next) (-1) = next + tab_count (firstn k l) r.
Proof.
  induction l as [|a l IH]; intros next k Hk Hn; [cbn in Hk; lia|].
  destruct k as [|k]; cbn [nth firstn tab_count tab_positions length] in *.
  - subst a. rewrite Z.eqb_refl. cbn [nth]. lia.
  - destruct (a =? r) eqn:E; cbn [nth]; (rewrite IH; [lia|lia|assumption]).
Qed.

(* the count grows strictly past an entry of r *)
Lemma tab_count_firstn_strict l r : forall k k', (k < k')%nat -> (k < length l)%nat -> nth k l (-1) = r ->
  tab_count (firstn k l) r < tab_count (firstn k' l) r.
Proof.
  induction l as [|a l IH]; intros k k' Hlt Hk Hn; [cbn in Hk; lia|].
  destruct k' as [|k']; [lia|]. destruct k as [|k]; cbn [nth firstn tab_count length] in *.
  - subst a. rewrite Z.eqb_refl. pose proof (tab_count_nonneg (firstn k' l) r). lia.
  - specialize (IH k k' ltac:(lia) ltac:(lia) Hn). lia.
Qed.

Theorem tab_position_surj l r : forall x, 0 <= x < tab_nb_local_tiles l r ->
  exists k, (k < length l)%nat /\ nth k l (-1) = r /\ nth k (tab_positions l r 0) (-1) = x.
Proof.
  unfold tab_nb_local_tiles.
  assert (H : forall next x, next <= x < next + tab_count l r ->
            exists k, (k < length l)%nat /\ nth k l (-1) = r /\ nth k (tab_positions l r next) (-1) = x).
  { induction l as [|a l IH]; intros next x Hx; cbn [tab_count tab_positions] in *; [lia|].
    destruct (a =? r) eqn:E.
    - destruct (Z.eq_dec x next) as [->|Hne].
      + exists O. cbn [length nth]. split; [lia|]. split; [lia|reflexivity].
      + destruct (IH (next + 1) x ltac:(lia)) as (k & Hk & Hn & Hp).
        exists (S k). cbn [length nth]. split; [lia|]. split; assumption.
    - destruct (IH next x ltac:(lia)) as (k & Hk & Hn & Hp).
      exists (S k). cbn [length nth]. split; [lia|]. split; assumption. }
  intros x Hx. apply (H 0 x). lia.
Qed.

Theorem tab_count_sum l nodes : 0 <= nodes -> Forall (fun a => 0 <= a < nodes) l ->
  Zsum (fun r => tab_nb_local_tiles l r) nodes = Z.of_nat (length l).
Proof.
  intros Hn Hall. unfold tab_nb_local_tiles. induction Hall as [|a l Ha Hall IH]; cbn [tab_count length].
  - apply Zsum_zero. reflexivity.
  - rewrite Zsum_add. change (Zsum (tab_count l) nodes) with (Zsum (fun r => tab_count l r) nodes). rewrite IH.
    change (Zsum (fun r => if a =? r then 1 else 0) nodes) with (Zsum (fun r => b2z (a =? r)) nodes).
    rewrite Zsum_indicator by lia. lia.
Qed.

Lemma tab_index_range t m n : 0 <= m + t_oi t < t_lmt t -> 0 <= n + t_oj t < t_lnt t ->
  0 <= tab_index t m n < t_lmt t * t_lnt t.
Proof. unfold tab_index. intros. nia. Qed.

Definition wf_vec (d : vecd) : Prop := 1 <= vP d /\ 1 <= vQ d /\ 0 <= t_lmt (vT d).
Definition vec_nlt (d : vecd) (r : Z) : Z := match vec_nb_local_tiles d r with Some x => x | None => -1 end.

Lemma vec_rank_range d M : wf_vec d -> 0 <= vec_rank_of_g d M < vP d * vQ d.
Proof.
  intros W. unfold wf_vec in W. unfold vec_rank_of_g.
  pose proof (Z.mod_pos_bound M (vP d) ltac:(lia)). pose proof (Z.mod_pos_bound M (vQ d) ltac:(lia)).
  destruct (vdistrib d =? VD_COL), (vdistrib d =? VD_ROW); nia.
Qed.

(* the diagonal distribution on a square process grid is consistent *)
Lemma c_gcd_same n : 0 < n -> c_gcd n n = n.
Proof.
  intros Hn. unfold c_gcd. replace (Z.to_nat n + 2)%nat with (S (S (Z.to_nat n))) by lia.
  cbn [gcd_loop]. destruct (n =? 0) eqn:E; [lia|]. rewrite Z_mod_same_full. reflexivity.
Qed.

Section DiagSquare.
Variable d : vecd.
Hypothesis W : wf_vec d.
Hypothesis Hd : vdistrib d = VD_DIAG.
Hypothesis Hsq : vP d = vQ d.
Local Notation n := (vQ d).
Local Notation lmt := (t_lmt (vT d)).

Lemma diag_lcm : vec_lcm d = n.
Proof. unfold vec_lcm. rewrite Hd. cbn. unfold c_lcm. rewrite Hsq. unfold wf_vec in W.
  rewrite c_gcd_same by lia. rewrite Z.div_same by lia. lia. Qed.

Lemma diag_nlt r : 0 <= r < n * n ->
  vec_nlt d r = if r / n =? r mod n then cnt_below n (r / n) lmt else 0.
Proof.
  intros Hr. unfold wf_vec in W. unfold vec_nlt, vec_nb_local_tiles. rewrite Hd. cbn [Z.eqb VD_DIAG Pos.eqb].
  cbv zeta. rewrite Hsq. unfold c_lcm. rewrite c_gcd_same by lia. rewrite Z.div_same by lia. rewrite Z.mul_1_l.
  destruct (grid_ranks0 n n r ltac:(lia) ltac:(lia) Hr) as (Hrr & Hcr & H1 & H2). rewrite Hrr, Hcr.
  destruct (r / n =? r mod n) eqn:E.
  - assert (He : r mod n - r / n = 0) by lia. rewrite He. rewrite Z.rem_0_l by lia. cbn [Z.eqb].
    unfold cnt_below. rewrite Z.add_0_l.
    destruct (r / n <? lmt mod n) eqn:E1, (lmt mod n >? r / n) eqn:E2; lia.
  - assert (Hne : Z.rem (r mod n - r / n) n <> 0).
    { intros Hz. apply Z.rem_divide in Hz; [|lia]. destruct Hz as [c Hc].
      assert (c = 0) by nia. lia. }
    destruct (Z.rem (r mod n - r / n) n =? 0) eqn:E1; [lia|reflexivity].
Qed.

Lemma diag_owner_iff M r : 0 <= r < n * n ->
  (vec_rank_of_g d M = r <-> r / n = r mod n /\ M mod n = r / n).
Proof.
  intros Hr. unfold wf_vec in W. unfold vec_rank_of_g. rewrite Hd, Hsq. cbn [VD_DIAG VD_COL VD_ROW Z.eqb Pos.eqb].
  pose proof (Z.mod_pos_bound M n ltac:(lia)) as Hm.
  pose proof (divmod_spec r n ltac:(lia)) as [H1 H2].
  split.
  - intros He. assert (r / n = M mod n) by (apply (div_eq r n (M mod n) (M mod n)); lia).
    assert (r mod n = M mod n) by (apply (mod_eq r n (M mod n) (M mod n)); lia). lia.
  - intros [E1 E2]. rewrite E2. lia.
Qed.

Theorem vec_diag_square_range M r : 0 <= M < lmt -> vec_rank_of_g d M = r ->
  0 <= vec_position_g d M < vec_nlt d r.
Proof.
  intros HM Ho. pose proof (vec_rank_range d M W) as Hr. rewrite Ho, Hsq in Hr.
  apply (diag_owner_iff M r Hr) in Ho as [E1 E2]. unfold wf_vec in W.
  rewrite diag_nlt by assumption. rewrite <- E1, Z.eqb_refl.
  unfold vec_position_g. rewrite diag_lcm.
  pose proof (grid_row_range n n r ltac:(lia) Hr) as [H1 H2].
  rewrite <- (cnt_below_own n (r / n) M) by lia.
  pose proof (cnt_below_nonneg n (r / n) M ltac:(lia) H1 ltac:(lia)).
  pose proof (proj1 (cnt_below_lt n (r / n) M lmt ltac:(lia) H1 ltac:(lia) ltac:(lia) E2) ltac:(lia)). lia.
Qed.

Theorem vec_diag_square_inj M M' r : 0 <= M -> 0 <= M' ->
  vec_rank_of_g d M = r -> vec_rank_of_g d M' = r -> vec_position_g d M = vec_position_g d M' -> M = M'.
Proof.
  intros HM HM' Ho Ho' Hp. pose proof (vec_rank_range d M W) as Hr. rewrite Ho, Hsq in Hr.
  apply (diag_owner_iff M r Hr) in Ho as [E1 E2]. apply (diag_owner_iff M' r Hr) in Ho' as [_ E2'].
  unfold vec_position_g in Hp. rewrite diag_lcm in Hp. unfold wf_vec in W.
  rewrite (class_member_eq n (r / n) M ltac:(lia) E2). rewrite (class_member_eq n (r / n) M' ltac:(lia) E2'). lia.
Qed.

Theorem vec_diag_square_surj r x : 0 <= r < n * n -> 0 <= x < vec_nlt d r ->
  exists M, 0 <= M < lmt /\ vec_rank_of_g d M = r /\ vec_position_g d M = x.
Proof.
  intros Hr Hx. rewrite diag_nlt in Hx by assumption. unfold wf_vec in W.
  destruct (r / n =? r mod n) eqn:E; [|lia].
  pose proof (grid_row_range n n r ltac:(lia) Hr) as [H1 H2].
  destruct (cnt_below_member n (r / n) x ltac:(lia) H1 ltac:(lia)) as (HM0 & HMm & HMc).
  exists (x * n + r / n). split.
  - split; [lia|]. apply (cnt_below_lt n (r / n) _ lmt); try lia.
  - split.
    + apply (diag_owner_iff _ r Hr). split; [lia|assumption].
    + unfold vec_position_g. rewrite diag_lcm. rewrite <- (cnt_below_own n (r / n)) by lia. exact HMc.
Qed.

Theorem vec_diag_square_sum : Zsum (fun r => vec_nlt d r) (n * n) = lmt.
Proof.
  unfold wf_vec in W.
  rewrite (Zsum_ext _ (fun r => (fun a b => b2z (a =? b) * cnt_below n a lmt) (r / n) (r mod n))).
  2:{ intros r Hr. rewrite diag_nlt by assumption. destruct (r / n =? r mod n); cbn [b2z]; lia. }
  rewrite (Zsum_grid2 (fun a b => b2z (a =? b) * cnt_below n a lmt)) by lia.
  rewrite (Zsum_ext _ (fun a => cnt_below n a lmt)).
  - apply cnt_below_all; lia.
  - intros a Ha. rewrite Zsum_mul_r, Zsum_indicator by lia. lia.
Qed.
End DiagSquare.

(* off-band and band descriptors on the same set of ranks, no submatrix offsets *)
Definition wf_band (d : bandd) : Prop :=
  wf_bc (bd_off d) /\ wf_bc (bd_band d) /\
  bP (bd_band d) * bQ (bd_band d) = bP (bd_off d) * bQ (bd_off d) /\
  1 <= bd_size d /\
  t_oi (bT (bd_off d)) = 0 /\ t_oj (bT (bd_off d)) = 0 /\
  t_oi (bT (bd_band d)) = 0 /\ t_oj (bT (bd_band d)) = 0 /\
  2 * bd_size d - 1 <= t_lmt (bT (bd_band d)) /\ t_lnt (bT (bd_off d)) <= t_lnt (bT (bd_band d)).

Lemma band_in_iff d m n : band_in d m n = true <-> - bd_size d < m - n < bd_size d.
Proof. unfold band_in. split; intros H; lia. Qed.

Theorem band_slot_inj d m n m' n' r : wf_band d ->
  0 <= m < t_lmt (bT (bd_off d)) -> 0 <= n < t_lnt (bT (bd_off d)) ->
  0 <= m' < t_lmt (bT (bd_off d)) -> 0 <= n' < t_lnt (bT (bd_off d)) ->
  band_rank_of d m n = r -> band_rank_of d m' n' = r ->
  band_in d m n = band_in d m' n' -> band_position d r m n = band_position d r m' n' ->
  m = m' /\ n = n'.
Proof.
  intros (Wo & Wb & Hg & Hs & Ho1 & Ho2 & Hb1 & Hb2 & Hbm & Hbn) Hm Hn Hm' Hn' Hr Hr' Hin Hp.
  unfold band_position, band_rank_of, bc_position, bc_rank_of in *.
  rewrite <- Hin in *. destruct (band_in d m n) eqn:E.
  - symmetry in Hin. apply band_in_iff in E. apply band_in_iff in Hin. rewrite Hb1, Hb2 in *. unfold band_m in *.
    apply (bc_position_inj (bd_band d) _ _ _ _ r Wb) in Hp; try assumption; lia.
  - rewrite Ho1, Ho2 in *. apply (bc_position_inj (bd_off d) _ _ _ _ r Wo) in Hp; try assumption; lia.
Qed.
