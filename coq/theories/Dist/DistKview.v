(* The k-cyclic view (parsec_matrix_block_cyclic_kview): kview_compute_m/n is a
   permutation of the tile indices of the submatrix ("cycle walking" of the block
   transposition until the index falls inside the matrix). *)
From PV Require Import Base.Tac Dist.DistDefs Dist.DistArith.
Local Open Scope Z_scope.

(* the step is a block-wise transposition *)
Lemma step_decomp p ps blk a b : 0 < p -> 0 < ps -> 0 <= a < p -> 0 <= b < ps ->
  kview_step p ps (blk * (p * ps) + a * ps + b) = blk * (p * ps) + b * p + a.
Proof.
  intros Hp Hps Ha Hb. unfold kview_step.
  set (m := blk * (p * ps) + a * ps + b).
  assert (Hx : 0 <= a * ps + b < p * ps) by nia.
  assert (H1 : m mod (p * ps) = a * ps + b) by (apply (mod_eq m (p * ps) blk (a * ps + b)); unfold m; lia).
  assert (H2 : m mod ps = b) by (apply (mod_eq m ps (blk * p + a) b); unfold m; lia).
  assert (H3 : m / ps = blk * p + a) by (apply (div_eq m ps (blk * p + a) b); unfold m; lia).
  assert (H4 : (blk * p + a) mod p = a) by (apply (mod_eq _ p blk a); lia).
  rewrite H1, H2, H3, H4. unfold m. lia.
Qed.

Lemma decomp_exists p ps m : 0 < p -> 0 < ps -> 0 <= m ->
  exists blk a b, 0 <= blk /\ 0 <= a < p /\ 0 <= b < ps /\ m = blk * (p * ps) + a * ps + b.
Proof.
  intros Hp Hps Hm. assert (HB : 0 < p * ps) by nia.
  pose proof (divmod_spec m (p * ps) HB) as [H1 H2].
  pose proof (divmod_spec (m mod (p * ps)) ps Hps) as [H3 H4].
  exists (m / (p * ps)), (m mod (p * ps) / ps), ((m mod (p * ps)) mod ps).
  assert (0 <= m mod (p * ps) / ps) by (apply div_nonneg; lia).
  assert (m mod (p * ps) / ps < p) by nia.
  split; [apply div_nonneg; lia|]. split; [lia|]. split; [lia|]. lia.
Qed.

Lemma step_inverse p ps m : 0 < p -> 0 < ps -> 0 <= m ->
  0 <= kview_step p ps m /\ kview_step ps p (kview_step p ps m) = m /\
  kview_step p ps m / (p * ps) = m / (p * ps).
Proof.
  intros Hp Hps Hm. destruct (decomp_exists p ps m Hp Hps Hm) as (blk & a & b & Hblk & Ha & Hb & ->).
  rewrite step_decomp by lia. split; [nia|]. split.
  - replace (blk * (p * ps) + b * p + a) with (blk * (ps * p) + b * p + a) by lia.
    rewrite step_decomp by lia. lia.
  - assert (0 <= a * ps + b < p * ps) by nia. assert (0 <= b * p + a < p * ps) by nia.
    rewrite (div_eq (blk * (p * ps) + b * p + a) (p * ps) blk (b * p + a)) by lia.
    rewrite (div_eq (blk * (p * ps) + a * ps + b) (p * ps) blk (a * ps + b)) by lia. reflexivity.
Qed.

Fixpoint iter (f : Z -> Z) (j : nat) (x : Z) : Z :=
  match j with O => x | S k => iter f k (f x) end.
Lemma iter_S_out f j x : iter f (S j) x = f (iter f j x).
Proof. revert x. induction j as [|j IH]; intros x; [reflexivity|]. cbn [iter] in *. rewrite IH. reflexivity. Qed.
Lemma iter_add f a b x : iter f (a + b) x = iter f a (iter f b x).
Proof. revert x. induction b as [|b IH]; intros x.
  - rewrite Nat.add_0_r. reflexivity.
  - rewrite Nat.add_succ_r. cbn [iter]. apply IH. Qed.

Lemma not_NoDup_nth (l : list Z) d : ~ NoDup l ->
  exists a b, (a < b)%nat /\ (b < length l)%nat /\ nth a l d = nth b l d.
Proof.
  induction l as [|x t IH]; intros H; [exfalso; apply H; constructor|].
  destruct (in_dec Z.eq_dec x t) as [Hin|Hnin].
  - destruct (In_nth t x d Hin) as (k & Hk & Hn). exists O, (S k). cbn [length nth]. split; [lia|]. split; [lia|]. auto.
  - destruct IH as (a & b & Hab & Hb & He).
    + intros Hnd. apply H. constructor; assumption.
    + exists (S a), (S b). cbn [length nth]. split; [lia|]. split; [lia|assumption].
Qed.

Lemma pigeonhole lo B (l : list Z) d : 0 <= B -> (forall y, In y l -> lo <= y < lo + B) -> (Z.to_nat B < length l)%nat ->
  exists a b, (a < b)%nat /\ (b < length l)%nat /\ nth a l d = nth b l d.
Proof.
  intros HB Hin Hlen. apply not_NoDup_nth. intros Hnd.
  set (S := map (fun k => lo + Z.of_nat k) (seq 0 (Z.to_nat B))).
  assert (Hincl : incl l S).
  { intros y Hy. specialize (Hin y Hy). unfold S. apply in_map_iff. exists (Z.to_nat (y - lo)).
    split; [lia|]. apply in_seq. lia. }
  pose proof (NoDup_incl_length Hnd Hincl) as Hle. unfold S in Hle. rewrite map_length, seq_length in Hle. lia.
Qed.

(* the orbit of x under an injective map that keeps a finite block comes back to x *)
Lemma orbit_returns f g lo B x : 0 < B ->
  (forall y, lo <= y < lo + B -> lo <= f y < lo + B /\ g (f y) = y) -> lo <= x < lo + B ->
  exists j, (1 <= j <= Z.to_nat B)%nat /\ iter f j x = x.
Proof.
  intros HB Hf Hx.
  assert (Hin : forall j, lo <= iter f j x < lo + B).
  { induction j as [|j IH]; [exact Hx|]. rewrite iter_S_out. apply Hf. exact IH. }
  set (l := map (fun j => iter f j x) (seq 0 (S (Z.to_nat B)))).
  destruct (pigeonhole lo B l (iter f 0 x) ltac:(lia)) as (a & b & Hab & Hb & He).
  { intros y Hy. unfold l in Hy. apply in_map_iff in Hy as (j & <- & _). apply Hin. }
  { unfold l. rewrite map_length, seq_length. lia. }
  unfold l in Hb, He. rewrite map_length, seq_length in Hb.
  rewrite !(map_nth (fun j => iter f j x)) in He. rewrite !seq_nth in He by lia. cbn [plus] in He.
  (* peel a applications of f with g *)
  assert (Hpeel : forall a y z, lo <= y < lo + B -> lo <= z < lo + B -> iter f a y = iter f a z -> y = z).
  { induction a0 as [|a0 IH]; intros y z Hy Hz E; [exact E|]. cbn [iter] in E.
    apply IH in E; try (apply Hf; assumption).
    rewrite <- (proj2 (Hf y Hy)), <- (proj2 (Hf z Hz)). rewrite E. reflexivity. }
  exists (b - a)%nat. split; [lia|].
  replace b with (a + (b - a))%nat in He by lia. rewrite iter_add in He.
  symmetry. apply (Hpeel a x (iter f (b - a) x) Hx (Hin _)). exact He.
Qed.

(* the orbits of the step *)
Section Step.
Variables p ps : Z.
Hypothesis Hp : 0 < p.
Hypothesis Hps : 0 < ps.
Local Notation sg := (kview_step p ps).
Local Notation sg' := (kview_step ps p).

Lemma sg_nonneg j m : 0 <= m -> 0 <= iter sg j m.
Proof. revert m. induction j as [|j IH]; intros m Hm; [exact Hm|]. cbn [iter]. apply IH. apply step_inverse; lia. Qed.

Lemma sg'_sg j m : 0 <= m -> iter sg' j (iter sg j m) = m.
Proof.
  revert m. induction j as [|j IH]; intros m Hm; [reflexivity|].
  rewrite (iter_S_out sg j m). cbn [iter]. rewrite (proj1 (proj2 (step_inverse p ps _ Hp Hps (sg_nonneg j m Hm)))).
  apply IH. exact Hm.
Qed.

(* the block of m is kept, so the orbit comes back *)
Lemma in_block B y blk : 0 < B -> (blk * B <= y < blk * B + B <-> y / B = blk).
Proof.
  intros HB. split.
  - intros H. apply (div_eq y B blk (y - blk * B)); lia.
  - intros <-. pose proof (divmod_spec y B HB). lia.
Qed.

Lemma sg_returns m : 0 <= m -> exists j, (1 <= j <= Z.to_nat (p * ps))%nat /\ iter sg j m = m.
Proof.
  intros Hm. assert (HB : 0 < p * ps) by nia.
  apply (orbit_returns sg sg' ((m / (p * ps)) * (p * ps)) (p * ps) m HB).
  - intros y Hy. assert (Hy0 : 0 <= y).
    { assert (0 <= m / (p * ps)) by (apply div_nonneg; lia). nia. }
    destruct (step_inverse p ps y Hp Hps Hy0) as (H1 & H2 & H3). split; [|exact H2].
    apply (in_block (p * ps) _ (m / (p * ps)) HB). rewrite H3. apply (in_block (p * ps) y _ HB). exact Hy.
  - apply in_block; [exact HB|reflexivity].
Qed.
End Step.

(* cycle walking *)
Section Walk.
Variables p ps mt : Z.
Hypothesis Hp : 0 < p.
Hypothesis Hps : 0 < ps.
Local Notation sg := (kview_step p ps).
Local Notation sg' := (kview_step ps p).

(* first time the orbit is inside [0, mt) *)
Definition first_hit (f : Z -> Z) (j : nat) (m : Z) : Prop :=
  (1 <= j)%nat /\ iter f j m < mt /\ forall i, (1 <= i < j)%nat -> mt <= iter f i m.

Lemma first_hit_exists f n m : (1 <= n)%nat -> iter f n m < mt -> exists j, (j <= n)%nat /\ first_hit f j m.
Proof.
  revert m. induction n as [|n IH]; intros m Hn Hh; [lia|].
  destruct (Z_lt_ge_dec (f m) mt) as [L|G].
  - exists 1%nat. split; [lia|]. split; [lia|]. split; [exact L|]. intros i Hi. lia.
  - destruct n as [|n]; [cbn [iter] in Hh; lia|].
    destruct (IH (f m) ltac:(lia) Hh) as (j & Hj & H1 & H2 & H3).
    exists (S j). split; [lia|]. split; [lia|]. split; [exact H2|].
    intros i Hi. destruct i as [|i]; [lia|]. cbn [iter]. destruct i as [|i]; [cbn [iter]; lia|]. apply H3. lia.
Qed.

Lemma loop_first_hit fuel : forall m j, first_hit sg j m -> (j <= fuel)%nat -> kview_loop fuel p ps mt m = iter sg j m.
Proof.
  induction fuel as [|fuel IH]; intros m j (H1 & H2 & H3) Hf; [lia|].
  cbn [kview_loop]. cbv zeta. destruct (sg m <? mt) eqn:E.
  - destruct j as [|[|j]]; [lia|reflexivity|]. specialize (H3 1%nat ltac:(lia)). cbn [iter] in H3. lia.
  - destruct j as [|[|j]]; [lia|cbn [iter] in H2; lia|].
    rewrite (IH (sg m) (S j)); [reflexivity| |lia].
    split; [lia|]. split; [exact H2|]. intros i Hi. specialize (H3 (S i) ltac:(lia)). exact H3.
Qed.

Theorem kview_in_range m : 0 <= m < mt -> 0 <= kview_compute p ps mt m < mt.
Proof.
  intros Hm. destruct (sg_returns p ps Hp Hps m ltac:(lia)) as (n & Hn & Hr).
  destruct (first_hit_exists sg n m ltac:(lia) ltac:(lia)) as (j & Hj & Hfh).
  unfold kview_compute. rewrite (loop_first_hit _ m j Hfh) by lia.
  destruct Hfh as (_ & H2 & _). split; [apply sg_nonneg; lia|exact H2].
Qed.

Theorem kview_injective m m' : 0 <= m < mt -> 0 <= m' < mt ->
  kview_compute p ps mt m = kview_compute p ps mt m' -> m = m'.
Proof.
  intros Hm Hm' He.
  destruct (sg_returns p ps Hp Hps m ltac:(lia)) as (n & Hn & Hr).
  destruct (sg_returns p ps Hp Hps m' ltac:(lia)) as (n' & Hn' & Hr').
  destruct (first_hit_exists sg n m ltac:(lia) ltac:(lia)) as (j & Hj & Hfh).
  destruct (first_hit_exists sg n' m' ltac:(lia) ltac:(lia)) as (j' & Hj' & Hfh').
  unfold kview_compute in He.
  rewrite (loop_first_hit _ m j Hfh) in He by lia. rewrite (loop_first_hit _ m' j' Hfh') in He by lia.
  assert (Hgen : forall a b x y, (a <= b)%nat -> 0 <= x < mt -> 0 <= y < mt ->
            first_hit sg a x -> first_hit sg b y -> iter sg a x = iter sg b y -> x = y).
  { intros a b x y Hab Hx Hy Ha Hb E.
    replace b with (a + (b - a))%nat in E by lia. rewrite iter_add in E.
    assert (E2 : x = iter sg (b - a) y).
    { rewrite <- (sg'_sg p ps Hp Hps a x) by lia. rewrite E. apply sg'_sg; try assumption. apply sg_nonneg; lia. }
    destruct (Nat.eq_dec a b) as [->|Hne]; [rewrite Nat.sub_diag in E2; exact E2|].
    destruct Hb as (_ & _ & Hb3). specialize (Hb3 (b - a)%nat ltac:(destruct Ha; lia)). lia. }
  destruct (Nat.le_ge_cases j j') as [L|G].
  - apply (Hgen j j' m m' L Hm Hm' Hfh Hfh' He).
  - symmetry. apply (Hgen j' j m' m G Hm' Hm Hfh' Hfh (eq_sym He)).
Qed.

Theorem kview_onto y : 0 <= y < mt -> exists m, 0 <= m < mt /\ kview_compute p ps mt m = y.
Proof.
  intros Hy. destruct (sg_returns ps p Hps Hp y ltac:(lia)) as (n & Hn & Hr).
  destruct (first_hit_exists sg' n y ltac:(lia) ltac:(lia)) as (j & Hj & (H1 & H2 & H3)).
  pose proof (sg_nonneg ps p Hps Hp) as Hnn. pose proof (sg'_sg ps p Hps Hp) as Hinv.
  exists (iter sg' j y). split; [split; [apply Hnn; lia|exact H2]|].
  unfold kview_compute. rewrite (loop_first_hit _ (iter sg' j y) j); [apply Hinv; lia| |lia].
  split; [exact H1|]. split; [rewrite Hinv by lia; lia|].
  (* sg^i (sg'^j y) = sg'^(j-i) y, which is outside by minimality of j *)
  intros i Hi. replace j with (i + (j - i))%nat by lia.
  rewrite iter_add, Hinv by (apply Hnn; lia). apply H3. lia.
Qed.
End Walk.
