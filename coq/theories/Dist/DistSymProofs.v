(* Symmetric two-dimensional block-cyclic distribution (one triangle stored). *)
From PV Require Import Base.Tac Dist.DistDefs Dist.DistArith Dist.DistSum.
Local Open Scope Z_scope.

(* the loops are sums *)
(* Both loops run down x, x + step, ...; after i rounds the accumulator holds the first i
   terms.  The terms are written j * step + x so that the loop's start is the case i = 0
   by computation. *)
Lemma pos_loop_sum f x step J : 0 < step -> forall fuel i, 0 <= i <= J -> J - i < Z.of_nat fuel ->
  sym_pos_loop fuel f (i * step + x) (J * step + x) step (Zsum (fun j => f (j * step + x)) i)
  = Zsum (fun j => f (j * step + x)) J.
Proof.
  intros Hs. induction fuel as [|n IH]; intros i Hi Hf; [lia|]. cbn [sym_pos_loop].
  destruct (i * step + x =? J * step + x) eqn:E.
  - f_equal. nia.
  - replace (i * step + x + step) with ((i + 1) * step + x) by lia. rewrite <- (Zsum_succ (fun j => f (j * step + x)) i) by lia.
    apply IH; [nia|lia].
Qed.

Lemma total_loop_sum f x stop step J : 0 < step -> (forall j, 0 <= j -> (j * step + x < stop <-> j < J)) ->
  forall fuel i, 0 <= i <= J -> J - i < Z.of_nat fuel ->
  sym_total_loop fuel f (i * step + x) stop step (Zsum (fun j => f (j * step + x)) i)
  = Zsum (fun j => f (j * step + x)) J.
Proof.
  intros Hs Hch. induction fuel as [|n IH]; intros i Hi Hf; [lia|]. cbn [sym_total_loop].
  pose proof (Hch i ltac:(lia)). destruct (i * step + x <? stop) eqn:E.
  - replace (i * step + x + step) with ((i + 1) * step + x) by lia. rewrite <- (Zsum_succ (fun j => f (j * step + x)) i) by lia.
    apply IH; lia.
  - f_equal. lia.
Qed.

Lemma cnt_below_le np rk x : 0 < np -> 0 <= rk < np -> 0 <= x -> cnt_below np rk x <= x.
Proof.
  intros Hn Hr. revert x. apply Zsum_ind.
  - rewrite cnt_below_0 by lia. lia.
  - intros x Hx IH. rewrite cnt_below_succ by lia. destruct (x mod np =? rk); cbn [b2z]; lia.
Qed.

(* j-th member of a class is below L iff j is below the class count *)
Lemma class_char np rk L j : 0 < np -> 0 <= rk < np -> 0 <= L -> 0 <= j ->
  (j * np + rk < L <-> j < cnt_below np rk L).
Proof.
  intros Hn Hr HL Hj. destruct (cnt_below_member np rk j Hn Hr Hj) as (H0 & Hm & Hc).
  rewrite (cnt_below_lt np rk (j * np + rk) L Hn Hr H0 HL Hm). rewrite Hc. reflexivity.
Qed.

(* the counting loop over one class: while (x < L) { total += f x; x += np; } from x = rk *)
Lemma sym_total_class f np rk L : 0 < np -> 0 <= rk < np -> 0 <= L ->
  sym_total_loop (Z.to_nat L + 1) f rk L np 0 = Zsum (fun j => f (j * np + rk)) (cnt_below np rk L).
Proof.
  intros Hn Hr HL. pose proof (cnt_below_nonneg np rk L Hn Hr HL). pose proof (cnt_below_le np rk L Hn Hr HL).
  exact (total_loop_sum f rk L np (cnt_below np rk L) Hn (fun j => class_char np rk L j Hn Hr HL)
           (Z.to_nat L + 1)%nat 0 ltac:(lia) ltac:(lia)).
Qed.

(* consecutive blocks of sizes s 0, s 1, ... *)
Lemma block_range s J j i : (forall t, 0 <= t < J -> 0 <= s t) -> 0 <= j < J -> 0 <= i < s j ->
  0 <= Zsum s j + i < Zsum s J.
Proof.
  intros Hs Hj Hi. pose proof (Zsum_mono s 0 j ltac:(lia) ltac:(intros; apply Hs; lia)) as H0. rewrite Zsum_0 in H0.
  pose proof (Zsum_mono s (j + 1) J ltac:(lia) ltac:(intros; apply Hs; lia)) as H1. rewrite Zsum_succ in H1 by lia. lia.
Qed.
Lemma block_inj s J j i j' i' : (forall t, 0 <= t < J -> 0 <= s t) -> 0 <= j < J -> 0 <= i < s j ->
  0 <= j' < J -> 0 <= i' < s j' -> Zsum s j + i = Zsum s j' + i' -> j = j' /\ i = i'.
Proof.
  intros Hs Hj Hi Hj' Hi' He.
  destruct (Z_lt_ge_dec j j') as [L|G]; [|destruct (Z_lt_ge_dec j' j) as [L|G']].
  - pose proof (Zsum_mono s (j + 1) j' ltac:(lia) ltac:(intros; apply Hs; lia)) as H. rewrite Zsum_succ in H by lia. lia.
  - pose proof (Zsum_mono s (j' + 1) j ltac:(lia) ltac:(intros; apply Hs; lia)) as H. rewrite Zsum_succ in H by lia. lia.
  - assert (j = j') by lia. subst. lia.
Qed.
Lemma block_surj s : forall J, 0 <= J -> (forall t, 0 <= t < J -> 0 <= s t) ->
  forall x, 0 <= x < Zsum s J -> exists j i, 0 <= j < J /\ 0 <= i < s j /\ x = Zsum s j + i.
Proof.
  apply (Zsum_ind (fun J => (forall t, 0 <= t < J -> 0 <= s t) ->
    forall x, 0 <= x < Zsum s J -> exists j i, 0 <= j < J /\ 0 <= i < s j /\ x = Zsum s j + i)).
  - intros _ x Hx. rewrite Zsum_0 in Hx. lia.
  - intros J HJ IH Hs x Hx. rewrite Zsum_succ in Hx by lia.
    destruct (Z_lt_ge_dec x (Zsum s J)) as [L|G].
    + destruct (IH ltac:(intros; apply Hs; lia) x ltac:(lia)) as (j & i & H1 & H2 & H3).
      exists j, i. lia.
    + exists J, (x - Zsum s J). lia.
Qed.

Definition wf_sym (d : symd) : Prop :=
  1 <= sP d /\ 1 <= sQ d /\ 0 <= t_lmt (sT d) /\ 0 <= t_lnt (sT d).

Lemma sym_ranks d r : wf_sym d -> 0 <= r < sP d * sQ d ->
  sym_rrank d r = r / sQ d /\ sym_crank d r = r mod sQ d /\ 0 <= r / sQ d < sP d /\ 0 <= r mod sQ d < sQ d.
Proof. intros W Hr. unfold wf_sym in W. apply grid_ranks0; lia. Qed.

Lemma sym_rank_iff d M N r : wf_sym d -> 0 <= r < sP d * sQ d -> sym_stored (suplo d) M N = true ->
  (sym_rank_of_g d M N = r <-> M mod sP d = r / sQ d /\ N mod sQ d = r mod sQ d).
Proof.
  intros W Hr Hst. unfold sym_rank_of_g. rewrite Hst. unfold wf_sym in W.
  pose proof (Z.mod_pos_bound N (sQ d) ltac:(lia)) as Hc.
  pose proof (divmod_spec r (sQ d) ltac:(lia)) as [Hr1 Hr2].
  split.
  - intros <-. split; [symmetry; apply (div_eq _ (sQ d) (M mod sP d) (N mod sQ d)); lia
                      | symmetry; apply (mod_eq _ (sQ d) (M mod sP d) (N mod sQ d)); lia].
  - intros [-> ->]. lia.
Qed.

Lemma sym_rank_range d M N : wf_sym d -> sym_stored (suplo d) M N = true ->
  0 <= sym_rank_of_g d M N < sP d * sQ d.
Proof.
  intros W Hst. unfold sym_rank_of_g. rewrite Hst. unfold wf_sym in W.
  pose proof (Z.mod_pos_bound N (sQ d) ltac:(lia)). pose proof (Z.mod_pos_bound M (sP d) ltac:(lia)). nia.
Qed.

Lemma stored_lower M N : sym_stored UPLO_LOWER M N = true <-> N <= M.
Proof. unfold sym_stored, UPLO_LOWER, UPLO_UPPER. cbn. destruct (M <? N) eqn:E; cbn; lia. Qed.
Lemma stored_upper M N : sym_stored UPLO_UPPER M N = true <-> M <= N.
Proof. unfold sym_stored, UPLO_LOWER, UPLO_UPPER. cbn. destruct (M >? N) eqn:E; cbn; lia. Qed.

(* the sum over all ranks of the per-class sums of a function of (grid row, column) *)
Lemma class_grid_sum h P Q L : 0 < P -> 0 < Q -> 0 <= L ->
  Zsum (fun r => Zsum (fun N => b2z (N mod Q =? r mod Q) * h (r / Q) N) L) (P * Q)
  = Zsum (fun N => Zsum (fun rr => h rr N) P) L.
Proof.
  intros HP HQ HL.
  rewrite (Zsum_grid2 (fun rr cr => Zsum (fun N => b2z (N mod Q =? cr) * h rr N) L) P Q) by lia.
  rewrite (Zsum_ext _ (fun rr => Zsum (fun N => h rr N) L)).
  - apply Zsum_fubini; lia.
  - intros rr Hrr. rewrite Zsum_fubini by lia. apply Zsum_ext. intros N HN.
    rewrite Zsum_mul_r, Zsum_indicator by (apply Z.mod_pos_bound; lia). lia.
Qed.

(* one stored triangle, column by column *)
(* In tile column N the stored rows are lo N <= M < hi N.  A rank in grid row rr
   and grid column cr holds the columns cr, cr + Q, ... and, in each, the rows of
   class rr inside the window, in order: its slots are consecutive blocks of
   sizes colsize rr (j Q + cr), and a row's index in its block is the number of
   rows of its class between lo N and itself. *)
Section Triangle.
Variable d : symd.
Hypothesis W : wf_sym d.
Variables lo hi : Z -> Z.
Local Notation P := (sP d). Local Notation Q := (sQ d).
Local Notation lmt := (t_lmt (sT d)). Local Notation lnt := (t_lnt (sT d)).

Definition colsize (rr N : Z) : Z := cnt_below P rr (hi N) - cnt_below P rr (lo N).

(* the window describes what is stored, and the code's two loops compute the block sums *)
Definition triangle : Prop :=
  (forall N, 0 <= N < lnt -> 0 <= lo N <= hi N /\ hi N <= lmt) /\
  (forall M N, 0 <= M < lmt -> 0 <= N < lnt -> (sym_stored (suplo d) M N = true <-> lo N <= M < hi N)) /\
  (forall r, 0 <= r < P * Q ->
     sym_nb_local_tiles d r = Zsum (fun j => colsize (r / Q) (j * Q + r mod Q)) (cnt_below Q (r mod Q) lnt)) /\
  (forall r M j, 0 <= r < P * Q -> 0 <= j -> lo (j * Q + r mod Q) <= M -> M mod P = r / Q ->
     sym_position_g d r M (j * Q + r mod Q)
     = Zsum (fun j => colsize (r / Q) (j * Q + r mod Q)) j
       + (cnt_below P (r / Q) M - cnt_below P (r / Q) (lo (j * Q + r mod Q)))).
Hypothesis T : triangle.

Lemma colsize_nonneg r : 0 <= r < P * Q ->
  forall j, 0 <= j < cnt_below Q (r mod Q) lnt -> 0 <= colsize (r / Q) (j * Q + r mod Q).
Proof.
  intros Hr j Hj. destruct (sym_ranks d r W Hr) as (_ & _ & H3 & H4). unfold wf_sym in W.
  pose proof (proj2 (class_char Q (r mod Q) lnt j ltac:(lia) H4 ltac:(lia) ltac:(lia)) ltac:(lia)).
  pose proof (proj1 T (j * Q + r mod Q) ltac:(nia)).
  pose proof (cnt_below_mono P (r / Q) (lo (j * Q + r mod Q)) (hi (j * Q + r mod Q)) ltac:(lia) H3 ltac:(lia)).
  unfold colsize. lia.
Qed.

(* an owned tile: its block (column) and its index in the block *)
Lemma tri_owned M N r : 0 <= M < lmt -> 0 <= N < lnt -> sym_stored (suplo d) M N = true ->
  sym_rank_of_g d M N = r ->
  0 <= r < P * Q /\ M mod P = r / Q /\
  exists j, N = j * Q + r mod Q /\ 0 <= j < cnt_below Q (r mod Q) lnt /\ lo N <= M /\
            0 <= cnt_below P (r / Q) M - cnt_below P (r / Q) (lo N) < colsize (r / Q) N.
Proof.
  intros HM HN Hs Ho. pose proof T as (Hwin & Hst & _). pose proof (sym_rank_range d M N W Hs) as Hr. rewrite Ho in Hr.
  apply (sym_rank_iff d M N r W Hr Hs) in Ho as [Hm Hn].
  destruct (sym_ranks d r W Hr) as (_ & _ & H3 & H4). unfold wf_sym in W.
  apply (Hst M N HM HN) in Hs. pose proof (Hwin N HN) as Hw.
  pose proof (class_member_eq Q (r mod Q) N ltac:(lia) Hn) as HNe.
  assert (Hq : 0 <= N / Q) by (apply div_nonneg; lia).
  pose proof (proj1 (class_char Q (r mod Q) lnt (N / Q) ltac:(lia) H4 ltac:(lia) Hq) ltac:(lia)).
  pose proof (cnt_below_mono P (r / Q) (lo N) M ltac:(lia) H3 ltac:(lia)).
  pose proof (proj1 (cnt_below_lt P (r / Q) M (hi N) ltac:(lia) H3 ltac:(lia) ltac:(lia) Hm) ltac:(lia)).
  split; [exact Hr|]. split; [exact Hm|]. exists (N / Q). unfold colsize. lia.
Qed.

Theorem tri_position_range M N r : 0 <= M < lmt -> 0 <= N < lnt -> sym_stored (suplo d) M N = true ->
  sym_rank_of_g d M N = r -> 0 <= sym_position_g d r M N < sym_nb_local_tiles d r.
Proof.
  intros HM HN Hs Ho. destruct (tri_owned M N r HM HN Hs Ho) as (Hr & Hm & j & -> & Hj & Hlo & Hi).
  pose proof T as (_ & _ & Htot & Hpos). rewrite (Htot r Hr), (Hpos r M j Hr (proj1 Hj) Hlo Hm).
  exact (block_range (fun j => colsize (r / Q) (j * Q + r mod Q)) _ j _ (colsize_nonneg r Hr) Hj Hi).
Qed.

Theorem tri_position_inj M N M' N' r :
  0 <= M < lmt -> 0 <= N < lnt -> sym_stored (suplo d) M N = true ->
  0 <= M' < lmt -> 0 <= N' < lnt -> sym_stored (suplo d) M' N' = true ->
  sym_rank_of_g d M N = r -> sym_rank_of_g d M' N' = r ->
  sym_position_g d r M N = sym_position_g d r M' N' -> M = M' /\ N = N'.
Proof.
  intros HM HN Hs HM' HN' Hs' Ho Ho' Hp. pose proof T as (_ & _ & _ & Hpos).
  destruct (tri_owned M N r HM HN Hs Ho) as (Hr & Hm & j & -> & Hj & Hlo & Hi).
  destruct (tri_owned M' N' r HM' HN' Hs' Ho') as (_ & Hm' & j' & -> & Hj' & Hlo' & Hi').
  rewrite (Hpos r M j Hr (proj1 Hj) Hlo Hm), (Hpos r M' j' Hr (proj1 Hj') Hlo' Hm') in Hp.
  destruct (block_inj (fun j => colsize (r / Q) (j * Q + r mod Q)) _ _ _ _ _
              (colsize_nonneg r Hr) Hj Hi Hj' Hi' Hp) as [<- E].
  destruct (sym_ranks d r W Hr) as (_ & _ & H3 & _). unfold wf_sym in W.
  split; [|reflexivity]. exact (class_inj P (r / Q) M M' ltac:(lia) H3 Hm Hm' ltac:(lia)).
Qed.

Theorem tri_position_surj r x : 0 <= r < P * Q -> 0 <= x < sym_nb_local_tiles d r ->
  exists M N, 0 <= N < lnt /\ lo N <= M < hi N /\ sym_rank_of_g d M N = r /\ sym_position_g d r M N = x.
Proof.
  intros Hr Hx. destruct (sym_ranks d r W Hr) as (_ & _ & H3 & H4). assert (W' := W). unfold wf_sym in W'.
  pose proof T as (Hwin & Hst & Htot & Hpos). rewrite Htot in Hx by assumption.
  destruct (block_surj (fun j => colsize (r / Q) (j * Q + r mod Q)) (cnt_below Q (r mod Q) lnt)
              ltac:(apply cnt_below_nonneg; lia) (colsize_nonneg r Hr) x Hx) as (j & i & Hj & Hi & ->).
  (* the i-th row of class r / Q from lo N on *)
  pose (N := j * Q + r mod Q). pose (c := cnt_below P (r / Q) (lo N) + i).
  assert (HN : 0 <= N < lnt) by (split; [unfold N; nia | apply (class_char Q (r mod Q) lnt j); lia]).
  pose proof (Hwin N HN) as Hw.
  pose proof (cnt_below_nonneg P (r / Q) (lo N) ltac:(lia) H3 ltac:(lia)) as Hcn.
  destruct (cnt_below_member P (r / Q) c ltac:(lia) H3 ltac:(unfold c; lia)) as (HM0 & HMm & HMc).
  assert (HMh : c * P + r / Q < hi N)
    by (apply (cnt_below_lt P (r / Q) _ (hi N)); fold N in Hi; unfold colsize, c in *; lia).
  assert (HMl : lo N <= c * P + r / Q).
  { destruct (Z_lt_ge_dec (c * P + r / Q) (lo N)) as [L|G]; [|lia].
    apply (cnt_below_lt P (r / Q) _ (lo N)) in L; unfold c in *; lia. }
  exists (c * P + r / Q), N. split; [exact HN|]. split; [lia|]. split.
  - apply (sym_rank_iff d _ N r W Hr); [apply Hst; lia|].
    split; [exact HMm | apply (mod_eq _ Q j (r mod Q)); unfold N; lia].
  - unfold N. rewrite Hpos by (fold N; lia). fold N. rewrite HMc. unfold c. lia.
Qed.

Theorem tri_sum : Zsum (fun r => sym_nb_local_tiles d r) (P * Q)
  = Zsum (fun N => Zsum (fun M => b2z (sym_stored (suplo d) M N)) lmt) lnt.
Proof.
  assert (W' := W). unfold wf_sym in W'. pose proof T as (Hwin & Hst & Htot & _).
  rewrite (Zsum_ext _ (fun r => Zsum (fun N => b2z (N mod Q =? r mod Q) * colsize (r / Q) N) lnt)).
  2:{ intros r Hr. destruct (sym_ranks d r W Hr) as (_ & _ & H3 & H4). rewrite (Htot r Hr).
      apply (Zsum_class (fun N => colsize (r / Q) N)); lia. }
  rewrite (class_grid_sum (fun rr N => colsize rr N)) by lia.
  apply Zsum_ext. intros N HN. pose proof (Hwin N HN) as Hw.
  unfold colsize. rewrite Zsum_sub, !cnt_below_all by lia.
  rewrite (Zsum_ext _ (fun M => b2z (M <? hi N) * (b2z (lo N <=? M) * 1))).
  2:{ intros M HM. pose proof (Hst M N HM HN) as H.
      destruct (sym_stored (suplo d) M N), (M <? hi N) eqn:E1, (lo N <=? M) eqn:E2; cbn [b2z]; lia. }
  rewrite Zsum_lt_ind, (Zsum_ge_ind (fun _ => 1)), !Zsum_one by lia. reflexivity.
Qed.

End Triangle.

(* lower: N <= M < lmt *)
Lemma lower_triangle d : wf_sym d -> suplo d = UPLO_LOWER -> t_lnt (sT d) <= t_lmt (sT d) ->
  triangle d (fun N => N) (fun _ => t_lmt (sT d)).
Proof.
  intros W Hlo Hshape. split; [|split; [|split]].
  - lia.
  - intros M N HM HN. rewrite Hlo, stored_lower. lia.
  - intros r Hr. destruct (sym_ranks d r W Hr) as (H1 & H2 & H3 & H4). unfold wf_sym in W.
    unfold sym_nb_local_tiles. rewrite Hlo, Z.eqb_refl. cbv zeta. rewrite H1, H2.
    rewrite sym_total_class by lia. reflexivity.
  - intros r M j Hr Hj HM Hm. destruct (sym_ranks d r W Hr) as (H1 & H2 & H3 & H4). unfold wf_sym in W.
    unfold sym_position_g. rewrite Hlo, Z.eqb_refl. cbv zeta. rewrite H1, H2.
    rewrite (class_diff (sP d) (r / sQ d)) by nia. f_equal.
    apply (pos_loop_sum _ (r mod sQ d) (sQ d) j) with (i := 0); nia.
Qed.

(* upper (square tile grid): 0 <= M <= N *)
Section Upper.
Variable d : symd.
Hypothesis W : wf_sym d.
Hypothesis Hup : suplo d = UPLO_UPPER.
Hypothesis Hsq : t_lmt (sT d) = t_lnt (sT d).
Local Notation P := (sP d). Local Notation Q := (sQ d).
Local Notation lmt := (t_lmt (sT d)). Local Notation lnt := (t_lnt (sT d)).

(* the code counts the rows of class rr in column N as cnt_below P rr (N + 1) *)
Lemma upper_blocks rr cr J : 0 <= rr ->
  Zsum (fun j => cnt_below P rr (j * Q + cr + 1)) J
  = Zsum (fun j => colsize d (fun _ => 0) (fun N => N + 1) rr (j * Q + cr)) J.
Proof. intros Hrr. apply Zsum_ext. intros j _. unfold colsize. rewrite (cnt_below_0 P rr) by lia. lia. Qed.

(* nb_local_tiles is computed row by row; the same set counted column by column *)
Lemma upper_double_count rr cr : 0 <= rr < P -> 0 <= cr < Q ->
  Zsum (fun t => cnt_below Q cr lnt - cnt_below Q cr (t * P + rr)) (cnt_below P rr lmt)
  = Zsum (fun j => cnt_below P rr (j * Q + cr + 1)) (cnt_below Q cr lnt).
Proof.
  intros Hrr Hcr. unfold wf_sym in W.
  rewrite (Zsum_class (fun M => cnt_below Q cr lnt - cnt_below Q cr M) P rr lmt) by lia.
  rewrite (Zsum_class (fun N => cnt_below P rr (N + 1)) Q cr lnt) by lia.
  (* both are the double sum of [M = rr][M <= N][N = cr] *)
  rewrite (Zsum_ext _ (fun M => Zsum (fun N => b2z (M mod P =? rr) * (b2z (M <=? N) * b2z (N mod Q =? cr))) lnt)).
  2:{ intros M HM. rewrite Zsum_mul_l. f_equal.
      rewrite (Zsum_ge_ind (fun N => b2z (N mod Q =? cr)) lnt M) by lia.
      rewrite <- !cnt_below_sum by lia. reflexivity. }
  rewrite (Zsum_ext (fun N => b2z (N mod Q =? cr) * cnt_below P rr (N + 1))
                    (fun N => Zsum (fun M => b2z (M mod P =? rr) * (b2z (M <=? N) * b2z (N mod Q =? cr))) lmt)).
  2:{ intros N HN. rewrite (cnt_below_sum P rr (N + 1)) by lia.
      rewrite <- (Zsum_lt_ind (fun M => b2z (M mod P =? rr)) lmt (N + 1)) by lia.
      rewrite <- Zsum_mul_l. apply Zsum_ext. intros M HM.
      destruct (M <? N + 1) eqn:E1, (M <=? N) eqn:E2; try lia; cbn [b2z]; lia. }
  apply Zsum_fubini; lia.
Qed.

Lemma upper_triangle : triangle d (fun _ => 0) (fun N => N + 1).
Proof.
  split; [|split; [|split]].
  - lia.
  - intros M N HM HN. rewrite Hup, stored_upper. lia.
  - intros r Hr. destruct (sym_ranks d r W Hr) as (H1 & H2 & H3 & H4). assert (W' := W). unfold wf_sym in W'.
    unfold sym_nb_local_tiles. rewrite Hup. change (UPLO_UPPER =? UPLO_LOWER) with false. cbv zeta. rewrite H1, H2.
    rewrite sym_total_class, upper_double_count by lia. apply upper_blocks; lia.
  - intros r M j Hr Hj HM Hm. destruct (sym_ranks d r W Hr) as (H1 & H2 & H3 & H4). unfold wf_sym in W.
    unfold sym_position_g. rewrite Hup. change (UPLO_UPPER =? UPLO_LOWER) with false. cbv zeta. rewrite H1, H2.
    rewrite <- upper_blocks, cnt_below_own, cnt_below_0, Z.sub_0_r by lia. f_equal.
    apply (pos_loop_sum (fun c => cnt_below P (r / Q) (c + 1)) (r mod Q) Q j) with (i := 0); nia.
Qed.

End Upper.
