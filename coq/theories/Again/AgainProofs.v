(* C16 — proofs for Again/AgainDefs.v, in the order of this file (the numbers are those of AgainDefs.v):
   (1) one task: [expect a k p n] is the state after n calls of __parsec_task_progress, in closed
       form ([trun_expect]);
   (3) chunked startup: resuming from the saved locals walks the execution space in order
       ([walk_is_enum]), and the successive invocations create every task once ([chunks_concat]);
   (2) the engine of PTG/Engine.v with AGAIN (section AgainEngineProofs): the invariant [AInv] of
       [astep] gives at most k+1 invocations and one release per task, each invocation after the
       release of the predecessors, and every task done at quiescence;
   (1) again, for several tasks under an arbitrary conserving scheduler (section Sys): every task is
       some number of calls into its script, so its state is an [expect] of the first part. *)
From Coq Require Import ZArith List Bool Arith Lia Permutation.
From PV Require Import Base.Tac PTG.PTGDefs PTG.Engine PTG.EngineProofs PTG.PTGProofs PTGVal.PTGValDefs Again.AgainDefs.
Import ListNotations.

Definition dem (n : nat) (p : Z) : Z := Nat.iter n demote p.

Lemma dem_S n p : dem (S n) p = demote (dem n p).
Proof. reflexivity. Qed.
Lemma dem_S_r n p : dem (S n) p = dem n (demote p).
Proof. unfold dem. apply iter_succ_r. Qed.

Lemma iter_demote_snoc m : forall q, iter_demote (S m) q = iter_demote m q ++ [dem m q].
Proof.
  induction m as [|m IH]; intros q; [reflexivity|].
  change (iter_demote (S (S m)) q) with (q :: iter_demote (S m) (demote q)).
  rewrite IH. cbn [iter_demote app]. rewrite dem_S_r. reflexivity.
Qed.
Lemma iter_demote_length m : forall q, length (iter_demote m q) = m.
Proof. induction m as [|m IH]; intros q; cbn [iter_demote length]; [reflexivity|]. rewrite IH. reflexivity. Qed.

(* the state of the task after n calls of __parsec_task_progress *)
Definition expect (a k : nat) (p : Z) (n : nat) : tstate :=
  if Nat.leb n a then
    {| ts_task := {| t_status := 0; t_prio := dem n p |}; ts_pi := n; ts_hook := 0; ts_rel := 0;
       ts_queued := true; ts_prios := [] |}
  else if Nat.leb n (a + k) then
    {| ts_task := {| t_status := ST_HOOK; t_prio := dem n p |}; ts_pi := S a; ts_hook := n - a; ts_rel := 0;
       ts_queued := true; ts_prios := rev (iter_demote (n - a) (dem a p)) |}
  else
    {| ts_task := {| t_status := ST_COMPLETE; t_prio := dem (a + k) p |}; ts_pi := S a; ts_hook := S k; ts_rel := 1;
       ts_queued := false; ts_prios := rev (iter_demote (S k) (dem a p)) |}.

Lemma expect_lo a k p n : n <= a ->
  expect a k p n = {| ts_task := {| t_status := 0; t_prio := dem n p |}; ts_pi := n; ts_hook := 0; ts_rel := 0;
                      ts_queued := true; ts_prios := [] |}.
Proof. intros H. unfold expect. replace (Nat.leb n a) with true by (symmetry; apply Nat.leb_le; lia). reflexivity. Qed.
Lemma expect_mid a k p n : a < n -> n <= a + k ->
  expect a k p n = {| ts_task := {| t_status := ST_HOOK; t_prio := dem n p |}; ts_pi := S a; ts_hook := n - a; ts_rel := 0;
                      ts_queued := true; ts_prios := rev (iter_demote (n - a) (dem a p)) |}.
Proof.
  intros H1 H2. unfold expect. replace (Nat.leb n a) with false by (symmetry; apply Nat.leb_gt; lia).
  replace (Nat.leb n (a + k)) with true by (symmetry; apply Nat.leb_le; lia). reflexivity.
Qed.
Lemma expect_hi a k p n : a + k < n ->
  expect a k p n = {| ts_task := {| t_status := ST_COMPLETE; t_prio := dem (a + k) p |}; ts_pi := S a; ts_hook := S k; ts_rel := 1;
                      ts_queued := false; ts_prios := rev (iter_demote (S k) (dem a p)) |}.
Proof.
  intros H. unfold expect. replace (Nat.leb n a) with false by (symmetry; apply Nat.leb_gt; lia).
  replace (Nat.leb n (a + k)) with false by (symmetry; apply Nat.leb_gt; lia). reflexivity.
Qed.

Lemma dem_add n m p : dem n (dem m p) = dem (m + n) p.
Proof.
  induction n as [|n IH]; [rewrite Nat.add_0_r; reflexivity|].
  rewrite dem_S, IH. replace (m + S n) with (S (m + n)) by lia. reflexivity.
Qed.

Lemma expect_step a k p n d : tstep a k (expect a k p n) d = expect a k p (S n).
Proof.
  destruct (le_lt_dec n a) as [H1|H1].
  - rewrite (expect_lo a k p n H1). unfold tstep, progress, call_for.
    cbn [ts_queued ts_task ts_pi ts_hook ts_rel ts_prios t_status t_prio pi_ret hk_ret].
    change (Nat.leb 0 ST_PREPARE_INPUT) with true. change (Nat.leb 0 ST_HOOK) with true. cbv iota.
    destruct (Nat.ltb n a) eqn:E2.
    + apply Nat.ltb_lt in E2. rewrite (expect_lo a k p (S n)) by lia.
      cbn [r_task r_pi r_hook r_complete r_resched t_prio t_status]. reflexivity.
    + apply Nat.ltb_ge in E2. assert (n = a) by lia. subst n.
      destruct (Nat.ltb 0 k) eqn:E3.
      * apply Nat.ltb_lt in E3. rewrite (expect_mid a k p (S a)) by lia.
        cbn [r_task r_pi r_hook r_complete r_resched t_prio t_status].
        replace (S a - a) with 1 by lia. reflexivity.
      * apply Nat.ltb_ge in E3. assert (k = 0) by lia. subst k. rewrite (expect_hi a 0 p (S a)) by lia.
        cbn [r_task r_pi r_hook r_complete r_resched t_prio t_status].
        rewrite Nat.add_0_r. reflexivity.
  - destruct (le_lt_dec n (a + k)) as [H2|H2].
    + rewrite (expect_mid a k p n H1 H2). unfold tstep, progress, call_for.
      cbn [ts_queued ts_task ts_pi ts_hook ts_rel ts_prios t_status t_prio pi_ret hk_ret].
      change (Nat.leb ST_HOOK ST_PREPARE_INPUT) with false. change (Nat.leb ST_HOOK ST_HOOK) with true. cbv iota.
      destruct (Nat.ltb (n - a) k) eqn:E3.
      * apply Nat.ltb_lt in E3. rewrite (expect_mid a k p (S n)) by lia.
        cbn [r_task r_pi r_hook r_complete r_resched t_prio t_status].
        replace (S n - a) with (S (n - a)) by lia.
        rewrite (iter_demote_snoc (n - a)), rev_app_distr. cbn [rev app].
        rewrite dem_add. replace (a + (n - a)) with n by lia. reflexivity.
      * apply Nat.ltb_ge in E3. assert (n = a + k) by lia. subst n. rewrite (expect_hi a k p (S (a + k))) by lia.
        cbn [r_task r_pi r_hook r_complete r_resched t_prio t_status].
        replace (a + k - a) with k by lia.
        rewrite (iter_demote_snoc k), rev_app_distr. cbn [rev app].
        rewrite dem_add. reflexivity.
    + rewrite (expect_hi a k p n H2), (expect_hi a k p (S n)) by lia. reflexivity.
Qed.

Lemma trun_expect a k p ds : trun a k p ds = expect a k p (length ds).
Proof.
  unfold trun. change (tinit p) with (expect a k p 0) at 1.
  assert (H : forall ds n, fold_left (tstep a k) ds (expect a k p n) = expect a k p (n + length ds)).
  { clear. induction ds as [|d ds IH]; intros n; cbn [fold_left length]; [rewrite Nat.add_0_r; reflexivity|].
    rewrite expect_step, IH. f_equal. lia. }
  rewrite (H ds 0). reflexivity.
Qed.

(* after every call the task is either back in the scheduler with nothing released, or complete *)
Lemma expect_queued_or_done a k p m :
  (ts_queued (expect a k p m) = true /\ ts_rel (expect a k p m) = 0)
  \/ (ts_hook (expect a k p m) = S k /\ ts_pi (expect a k p m) = S a /\ ts_rel (expect a k p m) = 1).
Proof.
  unfold expect. destruct (Nat.leb m a); [left; split; reflexivity|].
  destruct (Nat.leb m (a + k)); [left|right]; repeat split.
Qed.

(* demotion divides by 10 the way C does (truncation towards 0); below 0 that is minus the quotient of -p *)
Local Open Scope Z_scope.
Lemma quot10_neg p : p < 0 -> exists q r, Z.quot p 10 = - q /\ - p = 10 * q + r /\ 0 <= r < 10.
Proof.
  intros H. exists (Z.quot (- p) 10), (Z.rem (- p) 10).
  replace p with (- - p) at 1 by lia. rewrite Z.quot_opp_l by lia.
  pose proof (Z.quot_rem' (- p) 10). pose proof (Z.rem_bound_pos (- p) 10). lia.
Qed.
Theorem demote_low : demote 0 = -1 /\ demote (-1) = 0.
Proof. split; reflexivity. Qed.
Local Close Scope Z_scope.

Local Open Scope Z_scope.
(* the loop `for (v = lo; v <= hi; v += st)` unrolled once *)
Lemma zrange_unfold lo hi st :
  zrange lo hi st = if (st <=? 0) || (hi <? lo) then [] else lo :: zrange (lo + st) hi st.
Proof.
  unfold zrange at 1. destruct ((st <=? 0) || (hi <? lo)) eqn:E; [reflexivity|].
  apply orb_false_iff in E. destruct E as [Hst Hle]. apply Z.leb_gt in Hst. apply Z.ltb_ge in Hle.
  cbn [seq map]. f_equal; [lia|].
  unfold zrange. rewrite (proj2 (Z.leb_gt st 0) Hst). cbn [orb].
  destruct (Z.ltb_spec hi (lo + st)) as [Hlt|Hge].
  - rewrite Z.div_small by lia. reflexivity.
  - replace (hi - lo) with ((hi - (lo + st)) + 1 * st) by lia.
    rewrite Z.div_add by lia.
    assert (0 <= (hi - (lo + st)) / st) by (apply Z.div_pos; lia).
    rewrite Z2Nat.inj_add by lia. change (Z.to_nat 1) with 1%nat. rewrite Nat.add_1_r.
    rewrite <- seq_shift, map_map. apply map_ext. intros i. rewrite Nat2Z.inj_succ. lia.
Qed.

Lemma zrange_suffix hi st : forall a lo v b, zrange lo hi st = a ++ v :: b -> b = zrange (v + st) hi st.
Proof.
  induction a as [|x a IH]; intros lo v b H; rewrite zrange_unfold in H;
    (destruct ((st <=? 0) || (hi <? lo)); [discriminate H|]); injection H as Hx Ht.
  - subst. reflexivity.
  - apply (IH (lo + st)). assumption.
Qed.
Local Close Scope Z_scope.

Lemma find_some_hd {A C} (f : A -> option C) (g : A -> list C) :
  (forall v, f v = hd_error (g v)) -> forall vs, find_some f vs = hd_error (flat_map g vs).
Proof.
  intros H. induction vs as [|a vs IH]; cbn [find_some flat_map]; [reflexivity|].
  rewrite H. destruct (g a) as [|x r]; cbn [hd_error app]; [assumption|reflexivity].
Qed.

Lemma flat_map_split {A C} (g : A -> list C) : forall vs l1 x l2,
  flat_map g vs = l1 ++ x :: l2 ->
  exists va v vb m1 m2, vs = va ++ v :: vb /\ g v = m1 ++ x :: m2
                        /\ l1 = flat_map g va ++ m1 /\ l2 = m2 ++ flat_map g vb.
Proof.
  induction vs as [|a vs IH]; intros l1 x l2 H; cbn [flat_map] in H; [destruct l1; discriminate|].
  (* either x falls in g a, or later *)
  assert (Hc : (exists m2, g a = l1 ++ x :: m2 /\ l2 = m2 ++ flat_map g vs)
               \/ (exists l1', l1 = g a ++ l1' /\ flat_map g vs = l1' ++ x :: l2)).
  { apply app_eq_app in H. destruct H as (l & [[E1 E2]|[E1 E2]]); [destruct l as [|y l]; cbn [app] in E2|].
    - right. exists []. rewrite app_nil_r in *. split; symmetry; assumption.
    - left. injection E2 as <- ->. exists l. split; [assumption|reflexivity].
    - right. exists l. split; assumption. }
  destruct Hc as [(m2 & E1 & E2)|(l1' & E1 & E2)].
  - exists [], a, vs, l1, m2. repeat split; try assumption; reflexivity.
  - destruct (IH l1' x l2 E2) as (va & v & vb & m1 & m2 & H1 & H2 & H3 & H4).
    exists (a :: va), v, vb, m1, m2. repeat split; try assumption.
    + cbn [app]. congruence.
    + cbn [flat_map]. rewrite <- app_assoc. congruence.
Qed.

Lemma enum_shape G : forall ls pre e, In e (enum G ls pre) -> exists cur, e = pre ++ cur /\ length cur = length ls.
Proof.
  induction ls as [|l ls IH]; intros pre e H; cbn [enum] in H.
  - destruct H as [<-|[]]. exists []. split; [rewrite app_nil_r; reflexivity|reflexivity].
  - destruct l as [lo hi st|ex].
    + apply in_flat_map in H. destruct H as (v & _ & H).
      destruct (IH _ _ H) as (cur & -> & Hl). exists (v :: cur). split; [rewrite <- app_assoc; reflexivity|cbn [length]; lia].
    + destruct (IH _ _ H) as (cur & -> & Hl). exists (eval G pre ex :: cur).
      split; [rewrite <- app_assoc; reflexivity|cbn [length]; lia].
Qed.

Lemma first_env_hd G : forall ls pre, first_env G ls pre = hd_error (enum G ls pre).
Proof.
  induction ls as [|l ls IH]; intros pre; cbn [first_env enum]; [reflexivity|].
  destruct l as [lo hi st|ex]; [|apply IH].
  apply find_some_hd. intros v. apply IH.
Qed.

Lemma enum_head G ls pre w v c : In (pre ++ v :: c) (enum G ls (pre ++ [w])) -> v = w.
Proof.
  intros Hin. destruct (enum_shape G ls _ _ Hin) as (cur & He & _).
  rewrite <- app_assoc in He. apply app_inv_head in He. inversion He; reflexivity.
Qed.

Lemma next_env_hd G : forall ls pre l1 c1 l2,
  enum G ls pre = l1 ++ (pre ++ c1) :: l2 -> length c1 = length ls -> next_env G ls pre c1 = hd_error l2.
Proof.
  induction ls as [|l ls IH]; intros pre l1 c1 l2 H Hl.
  - cbn [enum] in H. destruct c1; [|discriminate]. cbn [next_env].
    destruct l1 as [|x l1]; [inversion H; reflexivity|]. inversion H. destruct l1; discriminate.
  - destruct c1 as [|v c1]; [discriminate|]. cbn [length] in Hl. injection Hl as Hl.
    destruct l as [lo hi st|ex]; cbn [enum next_env] in *.
    + apply flat_map_split in H.
      destruct H as (va & v0 & vb & m1 & m2 & Hvs & Hg & -> & ->).
      assert (v = v0) as <- by (apply (enum_head G ls pre v0 v c1); rewrite Hg; apply in_elt).
      replace (pre ++ v :: c1) with ((pre ++ [v]) ++ c1) in Hg by (rewrite <- app_assoc; reflexivity).
      rewrite (IH (pre ++ [v]) m1 c1 m2 Hg Hl).
      destruct m2 as [|e2 m2]; cbn [hd_error app]; [|reflexivity].
      rewrite <- (zrange_suffix _ _ _ _ _ _ Hvs).
      apply find_some_hd. intros v'. apply first_env_hd.
    + assert (v = eval G pre ex) as -> by (apply (enum_head G ls pre _ v c1); rewrite H; apply in_elt).
      replace (pre ++ eval G pre ex :: c1) with ((pre ++ [eval G pre ex]) ++ c1) in H by (rewrite <- app_assoc; reflexivity).
      apply (IH _ l1 c1 l2 H Hl).
Qed.

Lemma walk_from_none G ls n : walk_from G ls n None = [].
Proof. destruct n; reflexivity. Qed.

Lemma walk_from_suffix G ls : forall fuel l1 e l2,
  enum G ls [] = l1 ++ e :: l2 -> length l2 < fuel -> walk_from G ls fuel (Some e) = e :: l2.
Proof.
  induction fuel as [|n IH]; intros l1 e l2 H Hf; [lia|]. cbn [walk_from].
  assert (Hin : In e (enum G ls [])) by (rewrite H; apply in_elt).
  destruct (enum_shape G ls [] e Hin) as (cur & -> & Hl). cbn [app] in *.
  rewrite (next_env_hd G ls [] l1 cur l2 H Hl). f_equal.
  destruct l2 as [|e2 l2]; cbn [hd_error]; [apply walk_from_none|].
  apply (IH (l1 ++ [cur])); [rewrite <- app_assoc; assumption|cbn [length] in Hf; lia].
Qed.

(* resuming from the saved locals enumerates exactly the execution space, in order *)
Theorem walk_is_enum G ls fuel : length (enum G ls []) <= fuel -> walk G ls fuel = enum G ls [].
Proof.
  intros Hf. unfold walk. rewrite first_env_hd.
  destruct (enum G ls []) as [|e l] eqn:E; cbn [hd_error]; [apply walk_from_none|].
  apply (walk_from_suffix G ls fuel [] e l); [rewrite E; reflexivity|cbn [length] in Hf; lia].
Qed.

Lemma invocation_spec {A} iter chunk : forall (l : list A) acc r nb total,
  let '(c, rest, again) := invocation iter chunk r nb total l acc in
  c ++ rest = rev acc ++ l /\ (again = false -> rest = []) /\ (again = true -> length rest < length l).
Proof.
  induction l as [|x l IH]; intros acc r nb total; cbn [invocation].
  - repeat split; try reflexivity. discriminate.
  - (* an invocation that goes on past x *)
    assert (Hrec : forall r' nb' total',
      let '(c, rest, again) := invocation iter chunk r' nb' total' l (x :: acc) in
      c ++ rest = rev acc ++ x :: l /\ (again = false -> rest = []) /\ (again = true -> length rest < length (x :: l))).
    { intros r' nb' total'. specialize (IH (x :: acc) r' nb' total').
      destruct (invocation iter chunk r' nb' total' l (x :: acc)) as [[c rest] again].
      destruct IH as (H1 & H2 & H3). cbn [rev] in H1. rewrite <- app_assoc in H1.
      repeat split; [assumption|assumption|]. intros Ha. specialize (H3 Ha). cbn [length]. lia. }
    destruct (Nat.ltb r (S nb)); [destruct (Nat.ltb chunk (total + S nb))|]; [|apply Hrec|apply Hrec].
    cbn [rev length]. repeat split; [rewrite <- app_assoc; reflexivity|discriminate|lia].
Qed.

(* whatever task_startup_iter and task_startup_chunk are, the successive invocations create every
   instance exactly once, in enumeration order *)
Theorem chunks_concat {A} iter chunk : forall fuel (l : list A), length l < fuel ->
  concat (chunks fuel iter chunk l) = l.
Proof.
  induction fuel as [|f IH]; intros l Hl; [lia|]. cbn [chunks].
  pose proof (invocation_spec iter chunk l [] 1 0 0) as H.
  destruct (invocation iter chunk 1 0 0 l []) as [[c rest] again]. destruct H as (H1 & H2 & H3). cbn [rev app] in H1.
  destruct again.
  - cbn [concat]. rewrite IH; [assumption|]. specialize (H3 eq_refl). lia.
  - rewrite (H2 eq_refl) in H1. cbn [concat]. rewrite app_nil_r in *. assumption.
Qed.

Section AgainEngineProofs.
  Variable task : Type.
  Variable teq : forall a b : task, {a = b} + {a <> b}.
  Variable tasks : list task.
  Variable preds succs : task -> list task.
  Variable kagain : task -> nat.
  Hypothesis H_conv : forall p t, In p tasks -> In t tasks ->
                                  count_occ teq (succs p) t = count_occ teq (preds t) p.
  Hypothesis H_succ_in : forall p s, In p tasks -> In s (succs p) -> In s tasks.
  Hypothesis H_pred_in : forall t p, In t tasks -> In p (preds t) -> In p tasks.
  Variable rank : task -> nat.
  Hypothesis H_rank : forall t p, In t tasks -> In p (preds t) -> rank p < rank t.

  Local Notation astateT := (astate task).
  Local Notation astepE := (astep task teq tasks succs kagain).
  Local Notation arunE := (arun task teq tasks preds succs kagain).
  Local Notation stepE := (step task teq tasks succs).
  Local Notation InvE := (Inv task teq tasks preds).
  Local Notation stE := (st task).
  Local Notation invokesE := (invokes task).
  Local Notation releasesE := (releases task).
  Local Notation fupdE := (fupd task teq).

  Lemma fupd_same {B} (f : task -> B) t v : fupdE f t v t = v.
  Proof. unfold fupd. destruct (teq t t); congruence. Qed.
  Lemma fupd_other {B} (f : task -> B) t v x : x <> t -> fupdE f t v x = f x.
  Proof. unfold fupd. destruct (teq x t); congruence. Qed.

  (* what the log must hold below an entry: an invocation follows the release of all predecessors,
     a release follows the k+1 invocations *)
  Definition log_ok (e : alogev task) (l1 : list (alogev task)) : Prop :=
    match e with
    | AInvoke t => forall p, In p (preds t) -> In (ARelease p) l1
    | ARelease t => count_occ teq (invokesE l1) t = S (kagain t)
    | AAgain _ => True
    end.

  (* a core step other than an enabled Begin / End keeps "not started / running / done" of every task *)
  Definition kind (s : status) : nat := match s with Running => 1 | Done => 2 | _ => 0 end.
  Lemma kind_rel1 s : kind (rel1 s) = kind s.
  Proof. destruct s as [|[|[|n]]| | |]; reflexivity. Qed.
  Lemma kind_start1 s : kind (start1 s) = kind s.
  Proof. destruct s as [|[|n]| | |]; reflexivity. Qed.
  Lemma kind_iter k s : kind (Nat.iter k rel1 s) = kind s.
  Proof. induction k as [|k IH]; [reflexivity|]. rewrite iter_S, kind_rel1. exact IH. Qed.

  (* what is known of a task in core status c that waits in the scheduler iff sub, was invoked n times,
     and has ninv invocations and nrel releases in the log *)
  Definition task_ok (t : task) (c : status) (sub : bool) (n ninv nrel : nat) : Prop :=
    ninv = n /\
    match c with
    | Running => nrel = 0 /\ 1 <= n <= S (kagain t) /\ (sub = true -> n <= kagain t)
    | Done => nrel = 1 /\ n = S (kagain t)
    | _ => nrel = 0 /\ n = 0
    end.
  Lemma task_ok_kind t c c' sub n ninv nrel :
    kind c' = kind c -> task_ok t c sub n ninv nrel -> task_ok t c' sub n ninv nrel.
  Proof. destruct c, c'; try discriminate; trivial. Qed.

  Record AInv (s : astateT) : Prop := {
    ai_core : InvE (acore task s);
    ai_task : forall t, task_ok t (stE (acore task s) t) (asub task s t) (ainv task s t)
                                (count_occ teq (invokesE (alog task s)) t) (count_occ teq (releasesE (alog task s)) t);
    ai_log : forall l1 l2 e, alog task s = l2 ++ e :: l1 -> log_ok e l1
  }.

  Lemma in_releases l p : In p (releasesE l) <-> In (ARelease p) l.
  Proof.
    unfold releases. rewrite in_flat_map. split.
    - intros ([t|t|t] & Hin & Hp); try contradiction. destruct Hp as [<-|[]]. assumption.
    - intros H. exists (ARelease p). split; [assumption|left; reflexivity].
  Qed.

  Lemma done_released (s : astateT) p : AInv s -> stE (acore task s) p = Done -> In (ARelease p) (alog task s).
  Proof.
    intros I Hp. apply in_releases. destruct (ai_task s I p) as [_ H]. rewrite Hp in H.
    apply (count_occ_In teq). lia.
  Qed.

  Lemma preds_released (s : astateT) t : AInv s -> In t tasks ->
    (stE (acore task s) t = Ready \/ stE (acore task s) t = Running) ->
    forall p, In p (preds t) -> In (ARelease p) (alog task s).
  Proof.
    intros I Ht Hs p Hp. apply (done_released s p I).
    pose proof (inv_count _ _ _ _ _ (ai_core s I) t Ht) as Hc.
    apply (pending_zero_all_done task preds (stE (acore task s)) t); [|assumption].
    destruct Hs as [Hs|Hs]; rewrite Hs in Hc; exact Hc.
  Qed.

  Lemma AInv_kind (s : astateT) c' : AInv s -> InvE c' ->
    (forall v, kind (stE c' v) = kind (stE (acore task s) v)) ->
    AInv {| acore := c'; asub := asub task s; ainv := ainv task s; alog := alog task s |}.
  Proof.
    intros I I' Hk. split; cbn [acore asub ainv alog]; [assumption| |apply (ai_log s I)].
    intros t. exact (task_ok_kind t _ _ _ _ _ _ (Hk t) (ai_task s I t)).
  Qed.

  (* the test reads as in `fupd` and `upd`, so that one case distinction serves the state and the log *)
  Lemma count_invokes_cons_i t l x :
    count_occ teq (invokesE (AInvoke t :: l)) x = (if teq x t then 1 else 0) + count_occ teq (invokesE l) x.
  Proof. cbn [invokes flat_map app count_occ]. destruct (teq t x), (teq x t); congruence || reflexivity. Qed.
  Lemma count_releases_cons_r t l x :
    count_occ teq (releasesE (ARelease t :: l)) x = (if teq x t then 1 else 0) + count_occ teq (releasesE l) x.
  Proof. cbn [releases flat_map app count_occ]. destruct (teq t x), (teq x t); congruence || reflexivity. Qed.

  Lemma log_cons (l : list (alogev task)) e :
    (forall l1 l2 x, l = l2 ++ x :: l1 -> log_ok x l1) -> log_ok e l ->
    forall l1 l2 x, e :: l = l2 ++ x :: l1 -> log_ok x l1.
  Proof.
    intros Hl He l1 l2 x H. destruct l2 as [|e' l2]; cbn [app] in H; inversion H; subst.
    - exact He.
    - apply (Hl l1 l2 x). reflexivity.
  Qed.

  Lemma AInv_init : AInv (ainit task teq tasks preds).
  Proof.
    split; cbn [ainit acore asub ainv alog].
    - apply Inv_init.
    - intros t. cbn. destruct (in_dec teq t tasks); repeat split.
    - intros l1 l2 e H. destruct l2; discriminate.
  Qed.

  (* every enabled event changes the state and the log at its task t only: below, x = t is settled by
     arithmetic from what held of t, and nothing has changed for the other tasks *)
  Lemma AInv_step (s : astateT) e : AInv s -> AInv (astepE s e).
  Proof.
    intros I. pose proof (ai_core s I) as Ic.
    destruct e as [[|t|t|t]|t|t]; cbn [astep].
    - (* Startup *)
      apply AInv_kind; [assumption|apply Inv_step; assumption|].
      intros v. cbn [step st]. rewrite fold_start. destruct (in_dec teq v tasks); [apply kind_start1|reflexivity].
    - (* StartupOne *)
      apply AInv_kind; [assumption|apply Inv_step; assumption|].
      intros v. cbn [step st]. unfold start_one.
      destruct (teq v t) as [->|Hne]; [rewrite upd_same; apply kind_start1|rewrite upd_other by assumption; reflexivity].
    - (* Begin t *)
      destruct (stE (acore task s) t) eqn:Et; try assumption.
      assert (Ht : In t tasks) by (apply (in_tasks_of_status _ _ _ _ _ t Ic); rewrite Et; discriminate).
      split; cbn [acore asub ainv alog].
      + apply Inv_step; assumption.
      + intros x. pose proof (ai_task s I x) as Hx. rewrite count_invokes_cons_i.
        cbn [step]. rewrite Et. cbn [st]. unfold fupd, upd.
        destruct (teq x t) as [->|Hne]; [|exact Hx].
        rewrite Et in Hx. destruct Hx as (H1 & H2 & H3). repeat split; try assumption; lia.
      + apply log_cons; [apply (ai_log s I)|]. exact (preds_released s t I Ht (or_introl Et)).
    - (* End t *)
      destruct (stE (acore task s) t) eqn:Et; try assumption.
      destruct (negb (asub task s t) && Nat.eqb (ainv task s t) (S (kagain t))) eqn:Ec; [|assumption].
      apply andb_true_iff in Ec. destruct Ec as [Ec1 Ec2]. apply Nat.eqb_eq in Ec2.
      assert (Ht : In t tasks) by (apply (in_tasks_of_status _ _ _ _ _ t Ic); rewrite Et; discriminate).
      assert (Hk : forall v, kind (stE (stepE (acore task s) (End t)) v) = if teq v t then 2 else kind (stE (acore task s) v)).
      { intros v. cbn [step]. rewrite Et. cbn [st]. rewrite fold_release, kind_iter.
        destruct (teq v t) as [->|Hne]; [rewrite upd_same; reflexivity|rewrite upd_other by assumption; reflexivity]. }
      split; cbn [acore asub ainv alog].
      + apply Inv_step; assumption.
      + intros x. pose proof (ai_task s I x) as Hx. rewrite count_releases_cons_r. specialize (Hk x).
        destruct (teq x t) as [->|Hne]; [|exact (task_ok_kind x _ _ _ _ _ _ Hk Hx)].
        rewrite Et in Hx. destruct Hx as (H1 & H2 & H3 & H4).
        destruct (stE (stepE (acore task s) (End t)) t); try discriminate. repeat split; try assumption; lia.
      + apply log_cons; [apply (ai_log s I)|]. cbn [log_ok]. destruct (ai_task s I t) as [-> _]. assumption.
    - (* Again t *)
      destruct (stE (acore task s) t) eqn:Et; try assumption.
      destruct (negb (asub task s t) && Nat.leb (ainv task s t) (kagain t)) eqn:Ec; [|assumption].
      apply andb_true_iff in Ec. destruct Ec as [Ec1 Ec2]. apply Nat.leb_le in Ec2.
      split; cbn [acore asub ainv alog].
      + assumption.
      + intros x. pose proof (ai_task s I x) as Hx. unfold fupd.
        destruct (teq x t) as [->|Hne]; [|exact Hx].
        rewrite Et in *. destruct Hx as (H1 & H2 & H3 & H4). repeat split; try assumption; lia.
      + apply log_cons; [apply (ai_log s I)|]. exact Logic.I.
    - (* Rerun t *)
      destruct (stE (acore task s) t) eqn:Et; try assumption.
      destruct (asub task s t) eqn:Es; [|assumption].
      assert (Ht : In t tasks) by (apply (in_tasks_of_status _ _ _ _ _ t Ic); rewrite Et; discriminate).
      split; cbn [acore asub ainv alog].
      + assumption.
      + intros x. pose proof (ai_task s I x) as Hx. rewrite count_invokes_cons_i. unfold fupd.
        destruct (teq x t) as [->|Hne]; [|exact Hx].
        rewrite Et in *. destruct Hx as (H1 & H2 & H3 & H4). specialize (H4 Es). repeat split; try assumption; lia.
      + apply log_cons; [apply (ai_log s I)|]. exact (preds_released s t I Ht (or_intror Et)).
  Qed.

  Theorem AInv_run evs : AInv (arunE evs).
  Proof. unfold arun. apply fold_left_inv; [intros a b; apply AInv_step|apply AInv_init]. Qed.

  (* in every run: never more than k+1 invocations, never more than one release *)
  Theorem invocations_bounded evs t :
    count_occ teq (invokesE (alog task (arunE evs))) t <= S (kagain t)
    /\ count_occ teq (releasesE (alog task (arunE evs))) t <= 1.
  Proof.
    destruct (ai_task _ (AInv_run evs) t) as [Hi Hr]. destruct (stE (acore task (arunE evs)) t); lia.
  Qed.

  (* the release comes after the k+1 invocations, and no invocation follows it *)
  Theorem release_after_last_invocation evs l1 l2 t :
    alog task (arunE evs) = l2 ++ ARelease t :: l1 ->
    count_occ teq (invokesE l1) t = S (kagain t) /\ count_occ teq (invokesE l2) t = 0.
  Proof.
    intros Hl. pose proof (AInv_run evs) as I. pose proof (ai_log _ I l1 l2 _ Hl) as H1. cbn [log_ok] in H1.
    split; [assumption|].
    destruct (invocations_bounded evs t) as [Hb _]. rewrite Hl in Hb.
    assert (Hsplit : forall a b, invokesE (a ++ b) = invokesE a ++ invokesE b)
      by (intros a b; unfold invokes; apply flat_map_app).
    rewrite Hsplit, count_occ_app in Hb. cbn [invokes flat_map app] in Hb. fold (invokesE l1) in Hb. lia.
  Qed.

  (* every invocation of a task, the first and the repeated ones, follows the release of all its predecessors *)
  Theorem invocation_after_predecessors_released evs l1 l2 t :
    alog task (arunE evs) = l2 ++ AInvoke t :: l1 -> forall p, In p (preds t) -> In (ARelease p) l1.
  Proof. apply (ai_log _ (AInv_run evs) l1 l2 (AInvoke t)). Qed.

  (* a running task is never stuck: one of Again / Rerun / End is enabled *)
  Theorem running_task_can_move evs t : stE (acore task (arunE evs)) t = Running ->
    exists e, (e = Again t \/ e = Rerun t \/ e = AE (End t)) /\ alog task (astepE (arunE evs) e) <> alog task (arunE evs).
  Proof.
    intros Hs. destruct (ai_task _ (AInv_run evs) t) as [_ Hr]. rewrite Hs in Hr. destruct Hr as (_ & Hr1 & Hr2).
    assert (Hcons : forall (x : alogev task) l, x :: l <> l).
    { intros x l H. assert (length (x :: l) = length l) by congruence. cbn [length] in *. lia. }
    destruct (asub task (arunE evs) t) eqn:Es.
    - exists (Rerun t). split; [tauto|]. cbn [astep]. rewrite Hs, Es. cbn [alog]. apply Hcons.
    - destruct (Nat.eq_dec (ainv task (arunE evs) t) (S (kagain t))) as [He|Hne].
      + exists (AE (End t)). split; [tauto|]. cbn [astep]. rewrite Hs, Es, He, Nat.eqb_refl. cbn [negb andb alog]. apply Hcons.
      + exists (Again t). split; [tauto|]. cbn [astep]. rewrite Hs, Es.
        replace (Nat.leb (ainv task (arunE evs) t) (kagain t)) with true by (symmetry; apply Nat.leb_le; lia).
        cbn [negb andb alog]. apply Hcons.
  Qed.

  (* when nothing can happen any more every task is done: invoked k+1 times, released once *)
  Theorem quiescent_all_invoked evs : aquiescent task tasks (arunE evs) ->
    forall t, In t tasks ->
      stE (acore task (arunE evs)) t = Done
      /\ count_occ teq (invokesE (alog task (arunE evs))) t = S (kagain t)
      /\ count_occ teq (releasesE (alog task (arunE evs))) t = 1.
  Proof.
    intros Q t Ht. pose proof (AInv_run evs) as I.
    assert (Hd : stE (acore task (arunE evs)) t = Done).
    { apply (quiescent_done_by_rank task teq tasks preds H_pred_in rank H_rank (acore task (arunE evs)) (ai_core _ I) Q (S (rank t)) t Ht). lia. }
    split; [assumption|]. destruct (ai_task _ I t) as [Hi Hr]. rewrite Hd in Hr. lia.
  Qed.
End AgainEngineProofs.

Lemma take_nth_spec {A} : forall i (l : list A) x r, take_nth i l = Some (x, r) ->
  nth_error l i = Some x /\ (forall y, In y l <-> y = x \/ In y r) /\ (NoDup l -> NoDup r /\ ~ In x r).
Proof.
  induction i as [|i IH]; intros [|a l] x r H; cbn [take_nth] in H; try discriminate.
  - inversion H; subst. split; [reflexivity|]. split.
    + intros y. cbn [In]. split; intros [E|E]; auto.
    + intros Hnd. inversion Hnd; auto.
  - destruct (take_nth i l) as [[y r']|] eqn:E; [|discriminate]. inversion H; subst.
    destruct (IH l x r' E) as (H1 & H2 & H3). split; [assumption|]. split.
    + intros y. cbn [In]. rewrite H2. tauto.
    + intros Hnd. inversion Hnd as [|a' l' Hna Hnd']; subst. destruct (H3 Hnd') as [H4 H5]. split.
      * constructor; [|assumption]. intros Hin. apply Hna. apply H2. right; assumption.
      * intros [Hin|Hin]; [subst; apply Hna; apply H2; left; reflexivity|contradiction].
Qed.
Lemma take_nth_some {A} : forall i (l : list A), i < length l -> exists x r, take_nth i l = Some (x, r).
Proof.
  induction i as [|i IH]; intros [|a l] H; cbn [length] in H; try lia; cbn [take_nth].
  - eauto.
  - destruct (IH l) as (x & r & E); [lia|]. rewrite E. eauto.
Qed.
Lemma set_nth_length {A} (v : A) : forall i l, length (set_nth i v l) = length l.
Proof. induction i as [|i IH]; intros [|a l]; cbn [set_nth length]; auto. Qed.
Lemma set_nth_same {A} (v : A) : forall i l, i < length l -> nth_error (set_nth i v l) i = Some v.
Proof. induction i as [|i IH]; intros [|a l] H; cbn [length] in H; try lia; cbn [set_nth nth_error]; [reflexivity|apply IH; lia]. Qed.
Lemma set_nth_other {A} (v : A) : forall i j l, i <> j -> nth_error (set_nth i v l) j = nth_error l j.
Proof.
  induction i as [|i IH]; intros [|j] [|a l] H; cbn [set_nth nth_error]; try reflexivity; try congruence.
  apply IH. congruence.
Qed.

Section Sys.
  Variable scripts : list (nat * nat).
  Variable prios : list Z.
  Hypothesis H_len : length prios = length scripts.

  (* every task is some number of calls into its script; the ready list holds, once each, exactly
     the tasks that still have calls to make *)
  Record SInv (s : sys) : Prop := {
    si_nodup : NoDup (sy_ready s);
    si_ready : forall j, In j (sy_ready s) <->
                         exists ts, nth_error (sy_tasks s) j = Some ts /\ ts_queued ts = true;
    si_expect : forall j ts, nth_error (sy_tasks s) j = Some ts ->
                             exists a k p m, nth_error scripts j = Some (a, k) /\ nth_error prios j = Some p
                                             /\ ts = expect a k p m
  }.

  Lemma SInv_init : SInv (sys_init prios).
  Proof.
    split; cbn [sys_init sy_tasks sy_ready].
    - apply seq_NoDup.
    - intros j. rewrite in_seq. split.
      + intros [_ Hj]. cbn [Nat.add] in Hj. destruct (nth_error prios j) as [p|] eqn:E; [|apply nth_error_None in E; lia].
        exists (tinit p). split; [apply map_nth_error; assumption|reflexivity].
      + intros (ts & H & _). assert (j < length (map tinit prios)) by (apply nth_error_Some; congruence).
        rewrite map_length in *. lia.
    - intros j ts H. assert (Hj : j < length prios) by (rewrite <- (map_length tinit); apply nth_error_Some; congruence).
      destruct (nth_error prios j) as [p|] eqn:Ep; [|apply nth_error_None in Ep; lia].
      destruct (nth_error scripts j) as [[a k]|] eqn:Es; [|apply nth_error_None in Es; lia].
      rewrite (map_nth_error tinit j prios Ep) in H. inversion H; subst.
      exists a, k, p, 0. repeat split.
  Qed.

  (* a selection takes some ready task j, which is m calls into its script, and makes it advance by one call;
     it goes to the back of the ready list if it has more to do *)
  Lemma sys_step_selects s c : SInv s -> sy_ready s <> [] ->
    exists j rest a k p m,
      (forall y, In y (sy_ready s) <-> y = j \/ In y rest) /\ NoDup rest /\ ~ In j rest
      /\ nth_error scripts j = Some (a, k) /\ nth_error prios j = Some p
      /\ nth_error (sy_tasks s) j = Some (expect a k p m) /\ ts_queued (expect a k p m) = true
      /\ sys_step scripts s c = {| sy_tasks := set_nth j (expect a k p (S m)) (sy_tasks s);
                                  sy_ready := if ts_queued (expect a k p (S m)) then rest ++ [j] else rest |}.
  Proof.
    intros I Hne. unfold sys_step. destruct (sy_ready s) as [|j0 r0] eqn:Er; [congruence|]. rewrite <- Er.
    assert (Hi : Nat.modulo c (length (sy_ready s)) < length (sy_ready s))
      by (apply Nat.mod_upper_bound; rewrite Er; discriminate).
    destruct (take_nth_some _ _ Hi) as (j & rest & Et). rewrite Et.
    destruct (take_nth_spec _ _ _ _ Et) as (_ & Hin & Hnd). destruct (Hnd (si_nodup s I)) as [Hnd1 Hnd2].
    destruct (proj1 (si_ready s I j)) as (ts & Ets & Hq); [apply Hin; left; reflexivity|].
    destruct (si_expect s I j ts Ets) as (a & k & p & m & Es & Ep & ->).
    exists j, rest, a, k, p, m. rewrite Ets, Es, expect_step. repeat split; try assumption; apply Hin; assumption.
  Qed.

  Lemma SInv_step s c : SInv s -> SInv (sys_step scripts s c).
  Proof.
    intros I. destruct (sy_ready s) as [|j0 r0] eqn:Er; [unfold sys_step; rewrite Er; assumption|].
    destruct (sys_step_selects s c I) as (j & rest & a & k & p & m & Hin & Hnd1 & Hnd2 & Es & Ep & Ets & Hq & ->);
      [rewrite Er; discriminate|]. clear Er.
    assert (Hjt : j < length (sy_tasks s)) by (apply nth_error_Some; congruence).
    split; cbn [sy_tasks sy_ready].
    - destruct (ts_queued (expect a k p (S m))); [|assumption].
      apply (Permutation_NoDup (Permutation_cons_append rest j)). constructor; assumption.
    - intros j'. destruct (Nat.eq_dec j j') as [<-|Hne].
      + rewrite set_nth_same by assumption. split.
        * intros Hin'. exists (expect a k p (S m)). split; [reflexivity|].
          destruct (ts_queued (expect a k p (S m))); [reflexivity|contradiction].
        * intros (ts' & H & Hq'). inversion H; subst. rewrite Hq'. apply in_or_app. right; left; reflexivity.
      + rewrite set_nth_other by assumption. rewrite <- (si_ready s I j'), Hin.
        destruct (ts_queued (expect a k p (S m))).
        * split; [intros H; apply in_app_or in H; destruct H as [H|[H|[]]]; [right; assumption|congruence]|].
          intros [H|H]; [congruence|apply in_or_app; left; assumption].
        * split; [intros H; right; assumption|intros [H|H]; [congruence|assumption]].
    - intros j' ts' H. destruct (Nat.eq_dec j j') as [<-|Hne].
      + rewrite set_nth_same in H by assumption. inversion H; subst. exists a, k, p, (S m). repeat split; assumption.
      + rewrite set_nth_other in H by assumption. apply (si_expect s I j' ts' H).
  Qed.

  Theorem SInv_run cs : SInv (sys_run scripts prios cs).
  Proof. unfold sys_run. apply fold_left_inv; [intros a b; apply SInv_step|apply SInv_init]. Qed.

  (* never lost, never duplicated: whatever the scheduler selects, a task that has not released its
     dependencies is in the ready list, exactly once *)
  Theorem unreleased_task_is_ready_once s : SInv s -> forall j ts, nth_error (sy_tasks s) j = Some ts ->
    ts_rel ts = 0 -> count_occ Nat.eq_dec (sy_ready s) j = 1.
  Proof using.
    intros I j ts H Hr.
    destruct (si_expect _ I j ts H) as (a & k & p & m & _ & _ & ->).
    destruct (expect_queued_or_done a k p m) as [[Hq _]|(_ & _ & Hr')]; [|congruence].
    assert (Hin : In j (sy_ready s)) by (apply (si_ready _ I j); eauto).
    pose proof (proj1 (NoDup_count_occ Nat.eq_dec _) (si_nodup _ I) j) as H1.
    pose proof (proj1 (count_occ_In Nat.eq_dec _ j) Hin) as H0. clear - H0 H1. lia.
  Qed.

  (* when the scheduler is empty every task has been invoked k+1 times and released once *)
  Theorem empty_scheduler_all_complete s : SInv s -> sy_ready s = [] ->
    forall j ts a k, nth_error (sy_tasks s) j = Some ts -> nth_error scripts j = Some (a, k) ->
    ts_hook ts = S k /\ ts_pi ts = S a /\ ts_rel ts = 1.
  Proof using.
    intros I He j ts a k H Hs.
    destruct (si_expect _ I j ts H) as (a' & k' & p & m & Hs' & _ & ->).
    rewrite Hs in Hs'. injection Hs' as <- <-.
    destruct (expect_queued_or_done a k p m) as [[Hq _]|Hd]; [|exact Hd].
    assert (Hin : In j (sy_ready s)) by (apply (si_ready _ I j); eauto).
    rewrite He in Hin. destruct Hin.
  Qed.
End Sys.
