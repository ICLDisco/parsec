(* List lemmas that several components use, by subject: nth_error and [upd], firstn and
   skipn, NoDup, filter and flat_map, [cnt].  [upd] and [cnt] serve the atomic-step
   concurrency models: a configuration holds a list of per-thread states, one step
   replaces the entry of the scheduled thread, and invariants count the threads in
   some set of states. *)
From PV Require Import Base.Tac.

Section Upd.
Context {A : Type}.

Definition upd (l : list A) (t : nat) (p : A) : list A :=
  firstn t l ++ p :: skipn (S t) l.

Lemma split_nth (l : list A) t p : nth_error l t = Some p ->
  l = firstn t l ++ p :: skipn (S t) l.
Proof.
  revert t; induction l as [|x l IH]; intros [|t] H; simpl in *; try discriminate.
  - now inversion H.
  - f_equal. now apply IH.
Qed.

Lemma len_upd l t p q : nth_error l t = Some p -> length (upd l t q) = length l.
Proof.
  intros H. unfold upd. rewrite (split_nth l t p H) at 3.
  rewrite !app_length. simpl. lia.
Qed.

Lemma nth_upd_same l t p q : nth_error l t = Some p -> nth_error (upd l t q) t = Some q.
Proof.
  revert t; induction l as [|x l IH]; intros [|t] H; try discriminate; [reflexivity|apply (IH t H)].
Qed.

Lemma nth_upd_other l t u p q : nth_error l t = Some p -> u <> t ->
  nth_error (upd l t q) u = nth_error l u.
Proof.
  revert t u; induction l as [|x l IH]; intros [|t] [|u] H Hne; try discriminate; try reflexivity.
  - congruence.
  - apply (IH t u H). congruence.
Qed.

Lemma nth_upd l t u p q : nth_error l t = Some p ->
  nth_error (upd l t q) u = if u =? t then Some q else nth_error l u.
Proof.
  intros H. destruct (Nat.eqb_spec u t) as [->|Hne].
  - apply (nth_upd_same _ _ _ _ H).
  - apply (nth_upd_other _ _ _ _ _ H Hne).
Qed.

Lemma nth_upd_inv l t p q u x : nth_error l t = Some p -> nth_error (upd l t q) u = Some x ->
  u = t /\ x = q \/ u <> t /\ nth_error l u = Some x.
Proof.
  intros H Hu. rewrite (nth_upd _ _ _ _ _ H) in Hu.
  destruct (Nat.eqb_spec u t); [left|right]; split; congruence.
Qed.

Lemma nth_upd_all (P : A -> Prop) l t p q : nth_error l t = Some p ->
  (forall u x, nth_error l u = Some x -> P x) -> P q ->
  forall u x, nth_error (upd l t q) u = Some x -> P x.
Proof.
  intros H Hall Hq u x Hu. destruct (nth_upd_inv _ _ _ _ _ _ H Hu) as [[_ ->]|[_ Hx]]; eauto.
Qed.

Lemma nth_error_map_inv {B} (g : A -> B) l t y : nth_error (map g l) t = Some y ->
  exists x, nth_error l t = Some x /\ g x = y.
Proof.
  revert t; induction l as [|a l IH]; intros [|t] H; simpl in *; try discriminate.
  - inversion H. eauto.
  - eauto.
Qed.

Lemma map_upd {B} (g : A -> B) l t p q : nth_error l t = Some p -> g q = g p ->
  map g (upd l t q) = map g l.
Proof.
  intros H Hg. unfold upd. rewrite (split_nth l t p H) at 3.
  rewrite !map_app. cbn [map]. rewrite Hg. reflexivity.
Qed.

Lemma nth_repeat_inv (x y : A) m i : nth_error (repeat x m) i = Some y -> y = x.
Proof. intros H. apply nth_error_In in H. apply repeat_spec in H. exact H. Qed.

Lemma Forall_nth (P : A -> Prop) l t p : Forall P l -> nth_error l t = Some p -> P p.
Proof. intros H E. rewrite Forall_forall in H. apply H. eapply nth_error_In; eauto. Qed.

Lemma Forall_upd (P : A -> Prop) l t q : Forall P l -> P q -> Forall P (upd l t q).
Proof.
  intros H Hq. revert t; induction H as [|x l Hx H IH]; intros [|t]; try (repeat constructor; assumption).
  constructor; [exact Hx|apply IH].
Qed.
End Upd.

Lemma firstn_app_len {A} n (a b : list A) : length a = n -> firstn n (a ++ b) = a.
Proof. intros <-. rewrite firstn_app, Nat.sub_diag, firstn_all. cbn. apply app_nil_r. Qed.

Lemma skipn_app_len {A} n (a b : list A) : length a = n -> skipn n (a ++ b) = b.
Proof. intros <-. rewrite skipn_app, Nat.sub_diag, skipn_all. reflexivity. Qed.

Lemma skipn_add {A} n m (l : list A) : skipn (n + m) l = skipn m (skipn n l).
Proof.
  revert l; induction n as [|n IH]; intros l; [reflexivity|].
  destruct l; [now rewrite !skipn_nil|apply IH].
Qed.

Lemma NoDup_nth_inj {A} (l : list A) i j x : NoDup l ->
  nth_error l i = Some x -> nth_error l j = Some x -> i = j.
Proof.
  intros Hnd Hi Hj. rewrite NoDup_nth_error in Hnd. apply Hnd.
  - apply nth_error_Some. congruence.
  - congruence.
Qed.

Lemma NoDup_app_iff {A} (a b : list A) :
  NoDup (a ++ b) <-> NoDup a /\ NoDup b /\ forall x, In x a -> In x b -> False.
Proof.
  induction a as [|y a IH]; cbn [app].
  - split; [intros H; repeat split; [constructor|exact H|intros x []]|tauto].
  - rewrite !NoDup_cons_iff, IH, in_app_iff. split.
    + intros (Hy & Ha & Hb & Hd). repeat split; try tauto. intros x [<-|Hx]; [tauto|eauto].
    + intros ((Hy & Ha) & Hb & Hd). repeat split; eauto using in_eq, in_cons.
      intros [H|H]; [tauto|]. apply (Hd y); auto using in_eq.
Qed.

Lemma NoDup_app_intro {A} (a b : list A) :
  NoDup a -> NoDup b -> (forall x, In x a -> In x b -> False) -> NoDup (a ++ b).
Proof. intros Ha Hb Hd. apply NoDup_app_iff. auto. Qed.

Lemma NoDup_flat_map {A B} (f : A -> list B) l :
  NoDup l -> (forall x, In x l -> NoDup (f x)) ->
  (forall x y z, In x l -> In y l -> x <> y -> In z (f x) -> ~ In z (f y)) ->
  NoDup (flat_map f l).
Proof.
  induction l as [|a l IH]; intros Hl Hf Hd; cbn [flat_map]; [constructor|].
  apply NoDup_cons_iff in Hl. destruct Hl as [Ha Hl]. apply NoDup_app_intro.
  - apply Hf, in_eq.
  - apply IH; [exact Hl|auto using in_cons|]. intros x y z Hx Hy. apply Hd; apply in_cons; assumption.
  - intros z Hz Hz'. apply in_flat_map in Hz'. destruct Hz' as (y & Hy & Hzy).
    apply (Hd a y z); auto using in_eq, in_cons. intros ->. contradiction.
Qed.

Lemma filter_none {A} (f : A -> bool) l : (forall x, In x l -> f x = false) -> filter f l = [].
Proof.
  induction l as [|x l IH]; intros H; [reflexivity|].
  cbn [filter]. rewrite (H x (in_eq _ _)). apply IH. auto using in_cons.
Qed.

Lemma flat_map_nil {A B} (f : A -> list B) l : (forall x, In x l -> f x = []) -> flat_map f l = [].
Proof.
  induction l as [|x l IH]; intros H; [reflexivity|].
  cbn [flat_map]. rewrite (H x (in_eq _ _)). apply IH. auto using in_cons.
Qed.

Lemma map_flat_map {A B C} (f : B -> C) (g : A -> list B) l :
  map f (flat_map g l) = flat_map (fun x => map f (g x)) l.
Proof. induction l as [|x l IH]; cbn [flat_map map]; [reflexivity|]. rewrite map_app, IH. reflexivity. Qed.

Lemma flat_map_map {A B C} (f : A -> B) (g : B -> list C) l :
  flat_map g (map f l) = flat_map (fun x => g (f x)) l.
Proof. induction l as [|x l IH]; cbn [flat_map map]; [reflexivity|]. rewrite IH. reflexivity. Qed.

Lemma flat_map_flat_map {A B C} (f : A -> list B) (g : B -> list C) l :
  flat_map g (flat_map f l) = flat_map (fun x => flat_map g (f x)) l.
Proof. induction l as [|x l IH]; cbn [flat_map]; [reflexivity|]. rewrite flat_map_app, IH. reflexivity. Qed.

Local Open Scope Z_scope.

Section Cnt.
Context {A : Type}.

Definition cnt (f : A -> bool) (l : list A) : Z := Z.of_nat (length (filter f l)).

Lemma cnt_app f a b : cnt f (a ++ b) = cnt f a + cnt f b.
Proof. unfold cnt. rewrite filter_app, app_length. lia. Qed.
Lemma cnt_cons f x l : cnt f (x :: l) = (if f x then 1 else 0) + cnt f l.
Proof. unfold cnt; simpl; destruct (f x); simpl length; lia. Qed.
Lemma cnt_nil f : cnt f [] = 0. Proof. reflexivity. Qed.
Lemma cnt_nonneg f l : 0 <= cnt f l. Proof. unfold cnt; lia. Qed.
Lemma cnt_le_len f l : cnt f l <= Z.of_nat (length l).
Proof. unfold cnt. induction l as [|x l IH]; simpl; [lia|]. destruct (f x); simpl length; lia. Qed.

Lemma cnt_upd f l t p q : nth_error l t = Some p ->
  cnt f (upd l t q) = cnt f l - (if f p then 1 else 0) + (if f q then 1 else 0).
Proof.
  intros H. unfold upd. rewrite (split_nth l t p H) at 3.
  rewrite !cnt_app, !cnt_cons. lia.
Qed.

Lemma cnt_lt_len f l t p : nth_error l t = Some p -> f p = false ->
  cnt f l <= Z.of_nat (length l) - 1.
Proof.
  intros Hp Hf. pose proof (split_nth _ _ _ Hp) as Hsp.
  assert (Hl : Z.of_nat (length l) =
               Z.of_nat (length (firstn t l)) + 1 + Z.of_nat (length (skipn (S t) l))).
  { rewrite Hsp at 1. rewrite app_length. simpl length. lia. }
  assert (Hc : cnt f l = cnt f (firstn t l) + cnt f (skipn (S t) l)).
  { rewrite Hsp at 1. rewrite cnt_app, cnt_cons, Hf. lia. }
  pose proof (cnt_le_len f (firstn t l)). pose proof (cnt_le_len f (skipn (S t) l)). lia.
Qed.

Lemma cnt_pos_of_nth f l t p : nth_error l t = Some p -> f p = true -> 0 < cnt f l.
Proof.
  intros Hp Hf. rewrite (split_nth _ _ _ Hp), cnt_app, cnt_cons, Hf.
  pose proof (cnt_nonneg f (firstn t l)). pose proof (cnt_nonneg f (skipn (S t) l)). lia.
Qed.

Lemma cnt_zero_all f l : cnt f l = 0 -> forall t p, nth_error l t = Some p -> f p = false.
Proof.
  intros H t p Hp. destruct (f p) eqn:E; [|reflexivity].
  pose proof (cnt_pos_of_nth f l t p Hp E). lia.
Qed.

Lemma cnt_all_false f l : (forall x, In x l -> f x = false) -> cnt f l = 0.
Proof. intros H. unfold cnt. rewrite (filter_none f l H). reflexivity. Qed.

Lemma cnt_zero_of_all f l : (forall t p, nth_error l t = Some p -> f p = false) -> cnt f l = 0.
Proof. intros H. apply cnt_all_false. intros x Hx. apply In_nth_error in Hx. destruct Hx as [t Ht]. eauto. Qed.

Lemma cnt_full_all f l : cnt f l = Z.of_nat (length l) -> forall t p, nth_error l t = Some p -> f p = true.
Proof.
  intros H t p Hp. destruct (f p) eqn:E; [reflexivity|].
  pose proof (cnt_lt_len f l t p Hp E). lia.
Qed.

Lemma cnt_repeat f x n : cnt f (repeat x n) = if f x then Z.of_nat n else 0.
Proof. induction n as [|n IH]; [destruct (f x); reflexivity|].
  cbn [repeat]. rewrite cnt_cons, IH. destruct (f x); lia. Qed.

Lemma cnt_map {B} (g : B -> A) f l : cnt f (map g l) = Z.of_nat (length (filter (fun x => f (g x)) l)).
Proof. unfold cnt. induction l as [|x l IH]; [reflexivity|]. cbn [map filter].
  destruct (f (g x)); cbn [length]; lia. Qed.

Lemma cnt_map_false {B} (g : B -> A) f l : (forall x, f (g x) = false) -> cnt f (map g l) = 0.
Proof. intros H. induction l as [|x l IH]; [reflexivity|]. cbn [map]. rewrite cnt_cons, H, IH. reflexivity. Qed.

Lemma exists_false (f : A -> bool) l : cnt f l <= Z.of_nat (length l) - 1 ->
  exists u q, nth_error l u = Some q /\ f q = false.
Proof.
  induction l as [|x l IH]; intros H.
  - rewrite cnt_nil in H. simpl in H. lia.
  - destruct (f x) eqn:E.
    + rewrite cnt_cons, E in H. cbn [length] in H.
      destruct IH as (u & q & Hu & Hq); [lia|]. exists (S u), q. auto.
    + exists 0%nat, x. auto.
Qed.

Lemma exists_other_false (f : A -> bool) l t : cnt f l <= Z.of_nat (length l) - 2 ->
  exists u q, u <> t /\ nth_error l u = Some q /\ f q = false.
Proof.
  revert t. induction l as [|x l IH]; intros t H.
  - rewrite cnt_nil in H. simpl in H. lia.
  - rewrite cnt_cons in H. cbn [length] in H. destruct t as [|t].
    + destruct (exists_false f l) as (u & q & Hu & Hq); [destruct (f x); lia|].
      exists (S u), q. repeat split; auto.
    + destruct (f x) eqn:E.
      * destruct (IH t) as (u & q & Hne & Hu & Hq); [lia|].
        exists (S u), q. repeat split; auto.
      * exists 0%nat, x. repeat split; auto.
Qed.

Lemma cnt_two_false (f : A -> bool) l t u p q : t <> u ->
  nth_error l t = Some p -> f p = false -> nth_error l u = Some q -> f q = false ->
  cnt f l <= Z.of_nat (length l) - 2.
Proof.
  revert t u. induction l as [|x l IH]; intros t u Hne Ht Hp Hu Hq.
  - destruct t; discriminate.
  - rewrite cnt_cons. cbn [length]. destruct t as [|t], u as [|u]; try congruence.
    + cbn in Ht. inversion Ht; subst x. rewrite Hp. cbn in Hu.
      pose proof (cnt_lt_len f l u q Hu Hq). lia.
    + cbn in Hu. inversion Hu; subst x. rewrite Hq. cbn in Ht.
      pose proof (cnt_lt_len f l t p Ht Hp). lia.
    + cbn in Ht, Hu. assert (t <> u) by congruence.
      pose proof (IH t u H Ht Hp Hu Hq). destruct (f x); lia.
Qed.
End Cnt.
