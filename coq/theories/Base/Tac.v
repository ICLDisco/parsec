(* Common tactics. *)
From Coq Require Export ZArith Lia List Bool Arith.
From Coq Require Export ZifyBool.
Export ListNotations.

(* for goals about counters updated by conditionals (cnt_cons, cnt_upd, nth_upd): case
   analysis on every [if] in the goal and the hypotheses, then [lia] *)
Ltac iflia := repeat match goal with
  | |- context[if ?b then _ else _] => destruct b eqn:?
  | H : context[if ?b then _ else _] |- _ => destruct b eqn:? end; lia.

Ltac inv H := inversion H; subst; clear H.

Lemma fold_left_inv {A B} (f : A -> B -> A) (P : A -> Prop) :
  (forall a b, P a -> P (f a b)) -> forall l a, P a -> P (fold_left f l a).
Proof. intros Hs l; induction l as [|x l IH]; intros a Ha; cbn [fold_left]; auto. Qed.
