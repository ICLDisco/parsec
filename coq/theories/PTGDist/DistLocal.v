(* Per-rank state: a step executed by rank r reads and writes only r's part of the state.
   The status / slots / outputs of a task belong to its owner, acted and got are indexed by
   the rank; so the global maps of DistEngine.state are the disjoint union of one engine state
   per rank.  No hypothesis on the program is needed. *)
From Coq Require Import ZArith List Bool Arith Lia.
From PV Require Import Base.Tac PTG.Engine PTG.EngineProofs PTGDist.DistEngine PTGDist.DistProofs.
Import ListNotations.

Section DistLocal.
  Variable task : Type.
  Variable teq : forall a b : task, {a = b} + {a <> b}.
  Variable tasks : list task.
  Variable ins outs : task -> list (edge task).
  Variable isctl writes : task -> nat -> bool.
  Variable reads wlist : task -> list nat.
  Variable hashv : task -> nat -> list Z -> Z.
  Variable srcv : task -> nat -> Z.
  Variable nranks : nat.
  Variable rank_of : task -> nat.
  Variable parent : task -> nat -> nat.
  Variable eager : task -> nat -> nat -> bool.

  Local Notation State := (state task).
  Local Notation stepD := (step task teq tasks ins outs isctl writes reads wlist hashv srcv nranks rank_of parent eager).
  Local Notation arriveD := (arrive task teq outs rank_of).
  Local Notation e_task := (e_task task).

  (* s and s' agree on everything rank r does not own *)
  Definition same_elsewhere (r : nat) (s s' : State) : Prop :=
    (forall t, rank_of t <> r -> st task s' t = st task s t /\ (forall f, slot task s' t f = slot task s t f)
                                 /\ (forall k, outv task s' t k = outv task s t k))
    /\ (forall d, d <> r -> (forall p, acted task s' d p = acted task s d p) /\ (forall p k, got task s' d p k = got task s d p k)).

  Lemma same_refl r s : same_elsewhere r s s.
  Proof. split; intros; repeat split; reflexivity. Qed.
  Lemma same_conv r (s s' : State) :
    st task s' = st task s -> slot task s' = slot task s -> outv task s' = outv task s ->
    acted task s' = acted task s -> got task s' = got task s -> same_elsewhere r s s'.
  Proof. intros H1 H2 H3 H4 H5. split; intros; rewrite ?H1, ?H2, ?H3, ?H4, ?H5; repeat split; reflexivity. Qed.
  Lemma same_trans r s1 s2 s3 : same_elsewhere r s1 s2 -> same_elsewhere r s2 s3 -> same_elsewhere r s1 s3.
  Proof.
    intros [A1 B1] [A2 B2]. split.
    - intros t Ht. destruct (A1 t Ht) as (a & b & c), (A2 t Ht) as (a' & b' & c').
      split; [congruence|]. split; intros; [rewrite b'; apply b|rewrite c'; apply c].
    - intros d Hd. destruct (B1 d Hd) as (a & b), (B2 d Hd) as (a' & b'). split; intros; [rewrite a'; apply a|rewrite b'; apply b].
  Qed.

  Lemma release_edges_elsewhere es v stm slm t :
    (forall e, In e es -> e_task e <> t) ->
    fst (release_edges task teq es v stm slm) t = stm t /\ forall f, snd (release_edges task teq es v stm slm) t f = slm t f.
  Proof.
    intros H. split.
    - rewrite release_edges_st, (proj1 (count_occ_not_In teq _ t)); [reflexivity|].
      intros Hin. apply in_map_iff in Hin. destruct Hin as (e & He & Hi). exact (H e Hi He).
    - intros f. destruct (release_edges_slot task teq es v stm slm t f) as [[Heq _]|(e & He & Ht & _)]; [exact Heq|].
      exfalso. exact (H e He Ht).
  Qed.

  Lemma arrive_elsewhere d p k v (s : State) : same_elsewhere d s (arriveD d p k v s).
  Proof.
    split.
    - intros t Ht. unfold arrive. cbn [st slot outv].
      destruct (release_edges_elsewhere (remote_outs task outs rank_of d p k) (fun _ => v) (st task s) (slot task s) t) as [H1 H2].
      + intros e He Heq. apply remote_outs_in in He. destruct He as (_ & _ & He). rewrite Heq in He. contradiction.
      + split; [assumption|]. split; [assumption|reflexivity].
    - intros d' Hd'. unfold arrive. cbn [acted got]. split; [reflexivity|]. intros q j. unfold updG.
      destruct (Nat.eqb d' d) eqn:E; [apply Nat.eqb_eq in E; congruence|reflexivity].
  Qed.

  Lemma send_elsewhere r (s : State) l : same_elsewhere r s (send task s l).
  Proof. apply same_conv; reflexivity. Qed.

  Lemma propagate_elsewhere r n p (s : State) : same_elsewhere r s (propagate task outs nranks rank_of parent eager n p s).
  Proof. unfold propagate. destruct (complete task outs rank_of s n p); [apply send_elsewhere|apply same_refl]. Qed.

  Theorem step_local (s : State) (e : event task) :
    same_elsewhere (ev_rank task rank_of e) s (stepD s e).
  Proof.
    destruct e as [r|t|t|a b]; cbn [ev_rank step].
    - split; [|intros; split; reflexivity]. intros t Ht. cbn [st slot outv]. split; [|split; reflexivity].
      rewrite fold_start. destruct (in_dec teq t _) as [Hi|]; [|reflexivity].
      apply filter_In in Hi. destruct Hi as [_ Hi]. apply Nat.eqb_eq in Hi. congruence.
    - destruct (st task s t); try apply same_refl.
      split; [|intros; split; reflexivity]. intros x Hx. cbn [st slot outv]. split; [|split; reflexivity].
      unfold upd. destruct (teq x t); congruence.
    - destruct (st task s t); try apply same_refl.
      split; [|intros; split; reflexivity]. intros x Hx. cbn [send st slot outv].
      destruct (release_edges_elsewhere (local_outs task outs rank_of t) (fun k => body task isctl writes reads hashv t k (inval task ins srcv s t))
                  (upd task teq (st task s) t Done) (slot task s) x) as [H1 H2].
      + intros e He Heq. apply local_outs_in in He. destruct He as [_ He]. rewrite Heq in He. congruence.
      + split; [rewrite H1; unfold upd; destruct (teq x t); congruence|]. split; [assumption|].
        intros k. unfold updO. destruct (teq x t); congruence.
    - destruct (take task a b (net task s)) as [[pk rest]|]; [|apply same_refl].
      assert (H0 : same_elsewhere b s (set_net task s rest)) by (apply same_conv; reflexivity).
      destruct (p_body task pk) as [p pl|p k|p k v].
      + unfold deliver_act. apply (same_trans b _ _ _ H0).
        set (f := fun (s : State) k => match lookup k pl with Some v => arriveD b p k v s | None => s end).
        assert (Hf : forall l s1, same_elsewhere b s1 (fold_left f l s1)).
        { induction l as [|k l IH]; intros s1; [apply same_refl|]. cbn [fold_left].
          apply (same_trans b _ (f s1 k)); [|apply IH]. unfold f. destruct (lookup k pl); [apply arrive_elsewhere|apply same_refl]. }
        eapply same_trans; [apply (Hf (needed task outs rank_of b p))|].
        eapply same_trans; [|apply propagate_elsewhere].
        split.
        * intros t Ht. cbn [st slot outv]. repeat split; reflexivity.
        * intros d Hd. cbn [acted got]. split; [|reflexivity]. intros q. unfold updA.
          destruct (Nat.eqb d b) eqn:E; [apply Nat.eqb_eq in E; congruence|reflexivity].
      + destruct (holds task rank_of (set_net task s rest) b p k); apply same_conv; reflexivity.
      + apply (same_trans b _ _ _ H0). eapply same_trans; [apply arrive_elsewhere|apply propagate_elsewhere].
  Qed.

  (* what a step does to the network: the packet removed was addressed to the acting rank, the packets added come from it *)
  Theorem step_net_local (s : State) (e : event task) pk :
    In pk (net task (stepD s e)) -> In pk (net task s) \/ p_src task pk = ev_rank task rank_of e.
  Proof.
    destruct e as [r|t|t|a b]; cbn [ev_rank step].
    - cbn [net]. auto.
    - destruct (st task s t); cbn [net]; auto.
    - destruct (st task s t); cbn [net send]; auto. intros H. apply in_app_or in H. destruct H as [H|H]; [left; exact H|right].
      unfold acts in H. apply in_map_iff in H. destruct H as (c & <- & _). reflexivity.
    - destruct (take task a b (net task s)) as [[x rest]|] eqn:Et; [|auto].
      assert (Hsub : forall y, In y rest -> In y (net task s)) by apply (take_spec task a b _ x rest Et).
      assert (Hprop : forall (s1 : State) p, (forall y, In y (net task s1) -> In y (net task s) \/ p_src task y = b) ->
                        In pk (net task (propagate task outs nranks rank_of parent eager b p s1)) -> In pk (net task s) \/ p_src task pk = b).
      { intros s1 p H1. unfold propagate. destruct (complete task outs rank_of s1 b p); [|apply H1]. cbn [send net].
        intros H. apply in_app_or in H. destruct H as [H|H]; [apply H1; exact H|right].
        unfold acts in H. apply in_map_iff in H. destruct H as (c & <- & _). reflexivity. }
      destruct (p_body task x) as [p pl|p k|p k v].
      + unfold deliver_act. apply Hprop. cbn [net]. intros y Hy. apply in_app_or in Hy. destruct Hy as [Hy|Hy].
        * left. apply Hsub.
          assert (Hf : forall l (s1 : State), net task (fold_left (fun (s : State) k => match lookup k pl with Some v => arriveD b p k v s | None => s end) l s1) = net task s1).
          { induction l as [|k l IH]; intros s1; [reflexivity|]. cbn [fold_left]. rewrite IH. destruct (lookup k pl); reflexivity. }
          rewrite Hf in Hy. exact Hy.
        * right. apply in_flat_map in Hy. destruct Hy as (k & _ & Hy). destruct (lookup k pl); [destruct Hy|].
          destruct Hy as [<-|[]]. reflexivity.
      + destruct (holds task rank_of (set_net task s rest) b p k); cbn [send net set_net].
        * intros H. apply in_app_or in H. destruct H as [H|[<-|[]]]; [left; apply Hsub; exact H|right; reflexivity].
        * intros H. left. apply Hsub. exact H.
      + apply Hprop. cbn [arrive set_net net]. intros y Hy. left. apply Hsub. exact Hy.
  Qed.
End DistLocal.
