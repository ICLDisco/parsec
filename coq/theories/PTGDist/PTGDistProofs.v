(* The distributed engine on a well-formed program: wf_program / wf_dist give the hypotheses of
   DistProofs.v, seq_exec computes the solution ref_in / ref_out of the dataflow equations, and the
   engine's theorems are instantiated (the ptgd_ theorems) for every placement, tree, protocol choice
   and schedule; Properties_C05.v derives its statements from these. *)
From Coq Require Import ZArith NArith List Bool Arith Lia Permutation.
From PV Require Import Base.Tac PTG.PTGDefs PTG.Engine PTG.PTGProofs
     PTGDist.DistEngine PTGDist.DistProofs PTGDist.DistLocal PTGDist.PTGDistDefs.
Import ListNotations.

Local Notation dedge := (DistEngine.edge tid).

Lemma edge_eqb_spec (a b : dedge) : edge_eqb a b = true <-> a = b.
Proof.
  destruct a as [[fa ta] ga], b as [[fb tb] gb]. unfold edge_eqb. cbn [fst snd].
  rewrite !andb_true_iff, !Nat.eqb_eq, tid_eqb_spec. split; [intros [[-> ->] ->]; reflexivity|intros H; inversion H; auto].
Qed.
Definition edge_eq_dec : forall a b : dedge, {a = b} + {a <> b}.
Proof. intros a b. decide equality; [apply Nat.eq_dec|]. decide equality; [apply tid_eq_dec|apply Nat.eq_dec]. Defined.

Lemma ecount_count_occ (e : dedge) l : ecount e l = count_occ edge_eq_dec l e.
Proof.
  unfold ecount. induction l as [|x l IH]; [reflexivity|]. cbn [filter count_occ].
  destruct (edge_eq_dec x e) as [->|Hne].
  - replace (edge_eqb e e) with true by (symmetry; apply edge_eqb_spec; reflexivity). cbn [length]. congruence.
  - destruct (edge_eqb e x) eqn:E; [apply edge_eqb_spec in E; congruence|exact IH].
Qed.

(* the two views of every edge, with the flows (task_ok of wf_program) *)
Lemma wf_edges P : wf_program P = true ->
  (forall t, In t (instances P) -> forall ft p fp, In (ft, p, fp) (pred_edges P t) ->
     In p (instances P) /\ ecount (fp, t, ft) (succ_edges P p) = ecount (ft, p, fp) (pred_edges P t))
  /\ (forall t, In t (instances P) -> forall ft s fs, In (ft, s, fs) (succ_edges P t) ->
     In s (instances P) /\ ecount (fs, t, ft) (pred_edges P s) = ecount (ft, s, fs) (succ_edges P t)).
Proof.
  unfold wf_program. intros H.
  repeat (apply andb_true_iff in H; destruct H as [H ?]).
  assert (Htask : forall t, In t (instances P) -> task_ok P (instances P) t = true) by (apply forallb_forall; assumption).
  (* what task_ok tests of one edge *)
  assert (Hedge : forall q a b, mem q (instances P) && Nat.eqb a b = true -> In q (instances P) /\ a = b).
  { intros q a b. rewrite andb_true_iff, mem_In, Nat.eqb_eq. intros Hab. exact Hab. }
  (* Hpr, Hsu: the second and third conjunct of task_ok, of its five *)
  split; intros t Ht ft q fq Hin; specialize (Htask t Ht); unfold task_ok in Htask;
    (destruct (env_of P t) as [[c env]|]; [|discriminate]);
    do 2 (apply andb_true_iff in Htask; destruct Htask as [Htask _]);
    apply andb_true_iff in Htask; destruct Htask as [Htask Hsu];
    apply andb_true_iff in Htask; destruct Htask as [_ Hpr].
  - rewrite forallb_forall in Hpr. exact (Hedge _ _ _ (Hpr _ Hin)).
  - rewrite forallb_forall in Hsu. exact (Hedge _ _ _ (Hsu _ Hin)).
Qed.

Lemma ecount_cnt (e : dedge) l : ecount e l = cnt (edge_eqb e) l.
Proof. reflexivity. Qed.

Lemma edge_perm P : wf_program P = true -> forall p x, In p (instances P) -> In x (instances P) ->
  Permutation (map (fun e : dedge => (e_oflow tid e, p, e_flow tid e))
                   (filter (fun e => teqb tid tid_eq_dec (e_task tid e) x) (succ_edges P p)))
              (filter (fun e => teqb tid tid_eq_dec (e_task tid e) p) (pred_edges P x)).
Proof.
  intros Hwf p x Hp Hx. destruct (wf_edges P Hwf) as [Hpr Hsu].
  assert (Hteq : forall a b, teqb tid tid_eq_dec a b = true <-> a = b).
  { intros a b. unfold DistEngine.teqb. destruct (tid_eq_dec a b); split; congruence. }
  apply (Permutation_count_occ edge_eq_dec). intros [[f q] k].
  rewrite <- !ecount_count_occ, !ecount_cnt, cnt_map, !cnt_filter.
  (* (f, q, k) is counted on either side only when q = p: on the left, as (k, x, f) among the successors of p *)
  destruct (tid_eq_dec q p) as [->|Hne].
  - rewrite (cnt_ext _ (edge_eqb (k, x, f)) (succ_edges P p)), (cnt_ext _ (edge_eqb (f, p, k)) (pred_edges P x)).
    + rewrite <- !ecount_cnt.
      destruct (in_dec edge_eq_dec (f, p, k) (pred_edges P x)) as [Hin|Hnin]; [apply (Hpr x Hx f p k Hin)|].
      assert (H0 : ecount (f, p, k) (pred_edges P x) = 0) by (rewrite ecount_count_occ; apply count_occ_not_In; assumption).
      rewrite H0. destruct (in_dec edge_eq_dec (k, x, f) (succ_edges P p)) as [Hin2|Hnin2].
      * destruct (Hsu p Hp k x f Hin2) as [_ Hc]. rewrite H0 in Hc. symmetry. exact Hc.
      * rewrite ecount_count_occ. apply count_occ_not_In. assumption.
    + intros e _. apply eq_true_iff_eq. rewrite andb_true_iff, Hteq, edge_eqb_spec.
      split; [intros [_ H]; exact H|intros <-; split; reflexivity].
    + intros [[k' x'] f'] _. apply eq_true_iff_eq. rewrite andb_true_iff, Hteq, !edge_eqb_spec.
      unfold DistEngine.e_task, DistEngine.e_oflow, DistEngine.e_flow. cbn [fst snd].
      split; [intros [-> H]; inversion H; reflexivity|intros H; inversion H; split; reflexivity].
  - rewrite !cnt_zero; [reflexivity| |]; intros e _; apply not_true_iff_false;
      rewrite andb_true_iff, Hteq, edge_eqb_spec; intros [H1 H2]; apply Hne.
    + rewrite <- H2 in H1. exact H1.
    + inversion H2. reflexivity.
Qed.

Lemma wf_dist_single P : wf_dist P = true -> forall t e1 e2, In t (instances P) ->
  In e1 (pred_edges P t) -> In e2 (pred_edges P t) -> e_flow tid e1 = e_flow tid e2 ->
  d_isctl P t (e_flow tid e1) = false -> e1 = e2.
Proof.
  unfold wf_dist. intros H t e1 e2 Ht H1 H2 Hf Hc.
  rewrite forallb_forall in H. specialize (H t Ht). rewrite forallb_forall in H. specialize (H e1 H1).
  rewrite forallb_forall in H. specialize (H e2 H2). rewrite Hf, Nat.eqb_refl in H. rewrite Hf in Hc. rewrite Hc in H.
  cbn [negb andb] in H. apply edge_eqb_spec. assumption.
Qed.

Lemma d_reads_data P t f : In f (d_reads P t) -> d_isctl P t f = false.
Proof.
  unfold d_reads, d_readsb, d_isctl. rewrite filter_In. intros [_ H]. destruct (cflow P t f) as [fl|]; [|discriminate].
  unfold is_ctl. destruct (f_mode fl); cbn in H; try discriminate; reflexivity.
Qed.

Lemma d_body_ext names P t k g g' : (forall f, g f = g' f) -> d_body names P t k g = d_body names P t k g'.
Proof.
  intros H. unfold d_body, DistEngine.body. destruct (d_isctl P t k); [reflexivity|].
  destruct (d_writes P t k); [|apply H]. f_equal. apply map_ext. assumption.
Qed.

Section Reference.
  Variable names : list (list Z).
  Variable P : program.
  Hypothesis Hwf : wf_program P = true.

  Lemma pred_edge_rank t e : In t (instances P) -> In e (pred_edges P t) ->
    In (e_task tid e) (instances P) /\ ptg_rank P (e_task tid e) < ptg_rank P t.
  Proof.
    intros Ht He. destruct (wf_unpack P Hwf) as (_ & Hpr & _ & Hrk).
    assert (Hp : In (e_task tid e) (preds P t)) by (unfold preds; apply in_map_iff; exists e; auto).
    split; [apply (Hpr t Ht _ Hp)|apply (Hrk t _ Ht Hp)].
  Qed.

  Lemma succ_edge_in p e : In p (instances P) -> In e (succ_edges P p) -> In (e_task tid e) (instances P).
  Proof.
    intros Hp He. destruct (wf_unpack P Hwf) as (_ & _ & Hsu & _).
    assert (Hs : In (e_task tid e) (succs P p)) by (unfold succs; apply in_map_iff; exists e; auto).
    apply (Hsu p Hp _ Hs).
  Qed.

  Lemma rv_fuel : forall n m t k, In t (instances P) -> ptg_rank P t < n -> ptg_rank P t < m ->
    rv names P n t k = rv names P m t k.
  Proof.
    induction n as [|n IH]; intros m t k Ht Hn Hm; [lia|]. destruct m as [|m]; [lia|].
    cbn [rv]. apply d_body_ext. intros f. destruct (d_in_edge P t f) as [e|] eqn:E; [|reflexivity].
    destruct (in_edge_some tid (pred_edges P) t f e E) as [He _]. destruct (pred_edge_rank t e Ht He) as [Hq Hlt].
    apply IH; [assumption|lia|lia].
  Qed.

  Lemma ref_out_eq t k : In t (instances P) -> ref_out names P t k = d_body names P t k (ref_in names P t).
  Proof.
    intros Ht. unfold ref_out at 1. cbn [rv]. apply d_body_ext. intros f. unfold ref_in.
    destruct (d_in_edge P t f) as [e|] eqn:E; [|reflexivity].
    destruct (in_edge_some tid (pred_edges P) t f e E) as [He _]. destruct (pred_edge_rank t e Ht He) as [Hq Hlt].
    unfold ref_out. apply rv_fuel; [assumption|lia|lia].
  Qed.

  Lemma nth_map_seq (g : nat -> Z) N k : nth k (map g (seq 0 N)) (g k) = g k.
  Proof.
    destruct (lt_dec k N) as [Hlt|Hge].
    - rewrite (nth_indep _ _ (g 0)) by (rewrite map_length, seq_length; assumption).
      rewrite map_nth, seq_nth by assumption. reflexivity.
    - apply nth_overflow. rewrite map_length, seq_length. lia.
  Qed.

  Lemma sx_one_spec s t u k :
    sx_out (sx_one names P s t) u k = if tid_eq_dec u t then d_body names P t k (sx_in P s t) else sx_out s u k.
  Proof.
    unfold sx_one, sx_out. cbn [sx_find]. destruct (tid_eq_dec u t); [|reflexivity]. apply nth_map_seq.
  Qed.

  Lemma seq_fold : forall order seen s, check_order P seen order = true ->
    (forall u, In u seen -> In u (instances P) /\ forall k, sx_out s u k = ref_out names P u k) ->
    (forall u, In u order -> In u (instances P)) ->
    forall u, In u seen \/ In u order -> forall k, sx_out (fold_left (sx_one names P) order s) u k = ref_out names P u k.
  Proof.
    induction order as [|t r IH]; intros seen s Hc Hs Ho u Hu k.
    - cbn [fold_left]. destruct Hu as [Hu|[]]. apply (Hs u Hu).
    - cbn [check_order] in Hc. apply andb_true_iff in Hc. destruct Hc as [Hc1 Hc2]. cbn [fold_left].
      assert (Htin : In t (instances P)) by (apply Ho; left; reflexivity).
      apply (IH (t :: seen) (sx_one names P s t) Hc2).
      + intros v Hv. split; [destruct Hv as [<-|Hv]; [assumption|apply (Hs v Hv)]|]. intros j. rewrite sx_one_spec.
        destruct (tid_eq_dec v t) as [->|Hne].
        * rewrite (ref_out_eq t j Htin). apply d_body_ext. intros f. unfold sx_in, ref_in.
          destruct (d_in_edge P t f) as [e|] eqn:E; [|reflexivity].
          destruct (in_edge_some tid (pred_edges P) t f e E) as [He _]. rewrite forallb_forall in Hc1.
          assert (Hp : In (e_task tid e) (preds P t)) by (unfold preds; apply in_map_iff; exists e; auto).
          specialize (Hc1 _ Hp). apply mem_In in Hc1. apply (Hs _ Hc1).
        * destruct Hv as [Hv|Hv]; [congruence|]. apply (Hs v Hv).
      + intros v Hv. apply Ho. right; assumption.
      + destruct Hu as [Hu|[<-|Hu]]; [left; right; assumption|left; left; reflexivity|right; assumption].
  Qed.

  Lemma topo_incl : incl (topo_order P) (instances P) /\ incl (instances P) (topo_order P)
                    /\ check_order P [] (topo_order P) = true.
  Proof.
    pose proof Hwf as H. unfold wf_program in H.
    repeat (apply andb_true_iff in H; destruct H as [H ?]).
    apply andb_true_iff in H0. destruct H0 as [H0 Hord]. apply andb_true_iff in H0. destruct H0 as [Hlen Hmem].
    apply Nat.eqb_eq in Hlen.
    assert (Hin : incl (instances P) (topo_order P)).
    { intros t Ht. rewrite forallb_forall in Hmem. apply mem_In. apply Hmem. assumption. }
    split; [|split; assumption].
    (* the instances are duplicate-free (H2), topo_order has their length and contains them: it contains nothing else *)
    apply (NoDup_length_incl (nodupb_NoDup _ H2)); [lia|assumption].
  Qed.

  (* seq_exec computes the reference: the value of every flow of every instance *)
  Theorem seq_out_ref t k : In t (instances P) -> seq_out names P t k = ref_out names P t k.
  Proof.
    intros Ht. destruct topo_incl as (H1 & H2 & H3). unfold seq_out, seq_exec.
    apply (seq_fold (topo_order P) [] [] H3); [intros u []|intros u Hu; apply H1; assumption|right; apply H2; assumption].
  Qed.
  Theorem seq_in_ref t f : In t (instances P) -> seq_in names P t f = ref_in names P t f.
  Proof.
    intros Ht. unfold seq_in, sx_in, ref_in. destruct (d_in_edge P t f) as [e|] eqn:E; [|reflexivity].
    destruct (in_edge_some tid (pred_edges P) t f e E) as [He _]. destruct (pred_edge_rank t e Ht He) as [Hq _].
    apply (seq_out_ref _ _ Hq).
  Qed.
End Reference.

Section Dist.
  Variable names : list (list Z).
  Variable P : program.
  Variable nranks : nat.
  Variable rank_of : tid -> nat.
  Variable parent : tid -> nat -> nat.
  Variable eager : tid -> nat -> nat -> bool.
  Variable depth : tid -> nat -> nat.
  (* the conjunction that Properties_C05 names dist_hyps *)
  Hypothesis Hyp : wf_program P = true /\ wf_dist P = true
    /\ (forall t, In t (instances P) -> rank_of t < nranks)
    /\ (forall p d, In p (instances P) -> dist_isdest P rank_of d p = true ->
          (parent p d = rank_of p \/ dist_isdest P rank_of (parent p d) p = true) /\ depth p (parent p d) < depth p d)
    /\ (forall p d k, In p (instances P) -> dist_isdest P rank_of d p = true -> dist_needs P rank_of d p k = true ->
          parent p d = rank_of p \/ dist_needs P rank_of (parent p d) p k = true).
  Local Notation Hwf := (proj1 Hyp).
  Local Notation Hwd := (proj1 (proj2 Hyp)).
  Local Notation H_ranks := (proj1 (proj2 (proj2 Hyp))).
  Local Notation H_tree := (proj1 (proj2 (proj2 (proj2 Hyp)))).
  Local Notation H_relay_holds := (proj2 (proj2 (proj2 (proj2 Hyp)))).

  Local Notation runP := (dist_run names P nranks rank_of parent eager).

  Lemma H_pred_in : forall t e, In t (instances P) -> In e (pred_edges P t) -> In (e_task tid e) (instances P).
  Proof. intros t e Ht He. apply (pred_edge_rank P Hwf t e Ht He). Qed.
  Lemma H_drank : forall t e, In t (instances P) -> In e (pred_edges P t) -> ptg_rank P (e_task tid e) < ptg_rank P t.
  Proof. intros t e Ht He. apply (pred_edge_rank P Hwf t e Ht He). Qed.
  Lemma H_refin : forall t f, ref_in names P t f = match DistEngine.in_edge tid (pred_edges P) t f with
                                                   | Some e => ref_out names P (e_task tid e) (e_oflow tid e)
                                                   | None => d_srcv P t f end.
  Proof. reflexivity. Qed.
  Lemma H_refout : forall t k, In t (instances P) ->
    ref_out names P t k = DistEngine.body tid (d_isctl P) (d_writes P) (d_reads P) (d_hashv names P) t k (ref_in names P t).
  Proof. intros t k Ht. apply (ref_out_eq names P Hwf t k Ht). Qed.

  (* a theorem of DistProofs.v at this program: GENR for those about every run, GENQ for those about quiescent
     states (only the latter use the DAG rank and that parent is a tree) *)
  Local Notation GENR thm :=
    (thm tid tid_eq_dec (instances P) (pred_edges P) (succ_edges P) (d_isctl P) (d_writes P) (d_reads P) (d_wlist P)
         (d_hashv names P) (d_srcv P) nranks rank_of parent eager
         (edge_perm P Hwf) (succ_edge_in P Hwf) (wf_dist_single P Hwd)
         (fun t f _ Hf => d_reads_data P t f Hf) H_ranks H_relay_holds
         (ref_in names P) (ref_out names P) H_refin H_refout).
  Local Notation GENQ thm :=
    (thm tid tid_eq_dec (instances P) (pred_edges P) (succ_edges P) (d_isctl P) (d_writes P) (d_reads P) (d_wlist P)
         (d_hashv names P) (d_srcv P) nranks rank_of parent eager
         (edge_perm P Hwf) (succ_edge_in P Hwf) H_pred_in (ptg_rank P) H_drank (wf_dist_single P Hwd)
         (fun t f _ Hf => d_reads_data P t f Hf) H_ranks depth H_tree H_relay_holds
         (ref_in names P) (ref_out names P) H_refin H_refout).

  Theorem ptgd_begins_once evs : NoDup (begins tid (log tid (runP evs))).
  Proof. exact (GENR dist_begins_once evs). Qed.

  Theorem ptgd_begin_on_owner evs t r vs : In (LBegin t r vs) (log tid (runP evs)) ->
    In t (instances P) /\ r = rank_of t /\ vs = map (seq_in names P t) (d_reads P t).
  Proof.
    intros H. destruct (GENR dist_begin_on_owner evs t r vs H) as (H1 & H2 & H3).
    split; [assumption|]. split; [assumption|]. rewrite H3. apply map_ext. intros f. symmetry. apply (seq_in_ref names P Hwf t f H1).
  Qed.

  Theorem ptgd_end_values evs t r ovs : In (LEnd t r ovs) (log tid (runP evs)) ->
    In t (instances P) /\ r = rank_of t /\ ovs = map (fun k => (k, seq_out names P t k)) (d_wlist P t).
  Proof.
    intros H. destruct (GENR dist_end_values evs t r ovs H) as (H1 & H2 & H3).
    split; [assumption|]. split; [assumption|]. rewrite H3. apply map_ext. intros k. rewrite (seq_out_ref names P Hwf t k H1). reflexivity.
  Qed.

  Theorem ptgd_no_failure evs : failed tid (runP evs) = false.
  Proof. exact (GENR dist_no_failure evs). Qed.

  Theorem ptgd_received_values evs d p k v : got tid (runP evs) d p k = Some v -> In p (instances P) -> v = seq_out names P p k.
  Proof. intros H Hp. rewrite (seq_out_ref names P Hwf p k Hp). exact (GENR dist_received_values evs d p k v H). Qed.

  Theorem ptgd_quiescent_all_done evs : dist_quiescent P (runP evs) -> forall t, In t (instances P) -> st tid (runP evs) t = Done.
  Proof. exact (GENQ dist_quiescent_all_done evs). Qed.

  Theorem ptgd_complete_run evs : dist_quiescent P (runP evs) ->
    Permutation (begins tid (log tid (runP evs))) (instances P)
    /\ (forall t k, In t (instances P) -> state_out (runP evs) t k = seq_out names P t k)
    /\ forall ndata, final_data P (state_out (runP evs)) ndata = final_data P (seq_out names P) ndata.
  Proof.
    intros Q. destruct (wf_unpack P Hwf) as (Hnd & _).
    assert (Hout : forall t k, In t (instances P) -> state_out (runP evs) t k = seq_out names P t k).
    { intros t k Ht. unfold state_out, dist_run. rewrite (GENQ dist_quiescent_outputs evs Q t k Ht). symmetry. apply (seq_out_ref names P Hwf t k Ht). }
    split; [exact (GENQ dist_quiescent_executed_once evs Hnd Q)|]. split; [exact Hout|].
    intros ndata. unfold final_data. apply map_ext. intros i. unfold final_elem.
    destruct (unspecified P (Z.of_nat i)); [reflexivity|]. f_equal.
    destruct (find (defines P (Z.of_nat i)) (all_flows P)) as [[t f]|] eqn:E; [|reflexivity].
    apply find_some in E. destruct E as [E _]. unfold all_flows in E. apply in_flat_map in E. destruct E as (u & Hu & E).
    apply in_map_iff in E. destruct E as (g & Heq & _). inversion Heq; subst. apply Hout. assumption.
  Qed.
End Dist.

(* what the executable model tests at the end of a schedule *)
Lemma all_done_quiescent P (s : state tid) : net tid s = [] -> all_done P s = true -> dist_quiescent P s.
Proof.
  unfold all_done. rewrite forallb_forall. intros Hn Hd. split; [exact Hn|]. intros t Ht. specialize (Hd t Ht).
  destruct (st tid s t); try discriminate Hd. repeat split; discriminate.
Qed.

(* decision procedures for the hypotheses on a concrete configuration, with relay_holdsb of PTGDistDefs.v
   (used by the examples of Properties_C05.v) *)
Definition tree_okb (P : program) (nranks : nat) (rank_of : tid -> nat) (parent : tid -> nat -> nat) (depth : tid -> nat -> nat) : bool :=
  forallb (fun p => forallb (fun d =>
     if dist_isdest P rank_of d p
     then (Nat.eqb (parent p d) (rank_of p) || dist_isdest P rank_of (parent p d) p) && Nat.ltb (depth p (parent p d)) (depth p d)
     else true) (seq 0 nranks)) (instances P).
Definition ranks_okb (P : program) (nranks : nat) (rank_of : tid -> nat) : bool :=
  forallb (fun t => Nat.ltb (rank_of t) nranks) (instances P).

Lemma ranks_okb_sound P nranks rank_of : ranks_okb P nranks rank_of = true -> forall t, In t (instances P) -> rank_of t < nranks.
Proof. unfold ranks_okb. rewrite forallb_forall. intros H t Ht. apply Nat.ltb_lt. apply H. assumption. Qed.

Lemma isdest_bound P nranks rank_of : wf_program P = true -> ranks_okb P nranks rank_of = true ->
  forall p d, In p (instances P) -> dist_isdest P rank_of d p = true -> d < nranks.
Proof.
  intros Hwf Hr p d.
  exact (isdest_lt tid (instances P) (succ_edges P) nranks rank_of (succ_edge_in P Hwf) (ranks_okb_sound P nranks rank_of Hr) d p).
Qed.

Lemma tree_okb_sound P nranks rank_of parent depth : wf_program P = true -> ranks_okb P nranks rank_of = true ->
  tree_okb P nranks rank_of parent depth = true ->
  forall p d, In p (instances P) -> dist_isdest P rank_of d p = true ->
    (parent p d = rank_of p \/ dist_isdest P rank_of (parent p d) p = true) /\ depth p (parent p d) < depth p d.
Proof.
  intros Hwf Hr H p d Hp Hd. unfold tree_okb in H. rewrite forallb_forall in H. specialize (H p Hp).
  rewrite forallb_forall in H. specialize (H d). rewrite Hd in H.
  assert (Hin : In d (seq 0 nranks)) by (apply in_seq; pose proof (isdest_bound P nranks rank_of Hwf Hr p d Hp Hd); lia).
  specialize (H Hin). apply andb_true_iff in H. destruct H as [H1 H2]. apply Nat.ltb_lt in H2. split; [|assumption].
  apply orb_true_iff in H1. destruct H1 as [H1|H1]; [left; apply Nat.eqb_eq; assumption|right; assumption].
Qed.

Lemma relay_holdsb_sound P nranks rank_of parent : wf_program P = true -> ranks_okb P nranks rank_of = true ->
  relay_holdsb P nranks rank_of parent = true ->
  forall p d k, In p (instances P) -> dist_isdest P rank_of d p = true -> dist_needs P rank_of d p k = true ->
    parent p d = rank_of p \/ dist_needs P rank_of (parent p d) p k = true.
Proof.
  intros Hwf Hr H p d k Hp Hd Hk. unfold relay_holdsb in H. rewrite forallb_forall in H. specialize (H p Hp).
  rewrite forallb_forall in H.
  assert (Hin : In d (seq 0 nranks)) by (apply in_seq; pose proof (isdest_bound P nranks rank_of Hwf Hr p d Hp Hd); lia).
  specialize (H d Hin). rewrite forallb_forall in H.
  assert (Hko : In k (oflows tid (succ_edges P) p)).
  { unfold dist_needs, DistEngine.needs in Hk. apply existsb_exists in Hk. destruct Hk as (e & He & Hk).
    apply andb_true_iff in Hk. destruct Hk as [Hk _]. apply Nat.eqb_eq in Hk. subst k.
    unfold oflows. apply nodup_In. apply in_map. assumption. }
  specialize (H k Hko). rewrite Hd, Hk in H. cbn [andb] in H.
  apply orb_true_iff in H. destruct H as [H|H]; [left; apply Nat.eqb_eq; assumption|right; assumption].
Qed.
