(* Invariant proofs for the distributed dataflow engine (DistEngine.v), for EVERY schedule,
   rank count, placement, activation tree and eager/rendezvous choice. *)
From Coq Require Import ZArith List Bool Arith Lia Permutation.
From PV Require Import Base.Tac PTG.Engine PTG.EngineProofs PTGDist.DistEngine.
Import ListNotations.

Definition b2n (b : bool) : nat := if b then 1 else 0.
Definition cnt {A} (f : A -> bool) (l : list A) : nat := length (filter f l).

Lemma cnt_app {A} (f : A -> bool) l1 l2 : cnt f (l1 ++ l2) = cnt f l1 + cnt f l2.
Proof. unfold cnt. rewrite filter_app, app_length. reflexivity. Qed.
Lemma cnt_cons {A} (f : A -> bool) x l : cnt f (x :: l) = b2n (f x) + cnt f l.
Proof. unfold cnt. cbn [filter]. destruct (f x); reflexivity. Qed.
Lemma cnt_nil {A} (f : A -> bool) : cnt f [] = 0.
Proof. reflexivity. Qed.
Lemma cnt_zero {A} (f : A -> bool) l : (forall x, In x l -> f x = false) -> cnt f l = 0.
Proof.
  intros H. induction l as [|x l IH]; [reflexivity|]. rewrite cnt_cons, H by (left; reflexivity).
  rewrite IH; [reflexivity|]. intros y Hy. apply H. right; assumption.
Qed.
Lemma cnt_pos_in {A} (f : A -> bool) l : 0 < cnt f l -> exists x, In x l /\ f x = true.
Proof.
  induction l as [|x l IH]; [cbn; lia|]. rewrite cnt_cons. destruct (f x) eqn:E.
  - intros _. exists x. split; [left; reflexivity|assumption].
  - cbn [b2n]. intros H. destruct (IH H) as (y & Hy & Hf). exists y. split; [right; assumption|assumption].
Qed.
Lemma cnt_ext {A} (f g : A -> bool) l : (forall x, In x l -> f x = g x) -> cnt f l = cnt g l.
Proof. intros H. unfold cnt. f_equal. apply filter_ext_in. assumption. Qed.
Lemma cnt_map {A B} (h : A -> B) (f : B -> bool) l : cnt f (map h l) = cnt (fun x => f (h x)) l.
Proof. induction l as [|x l IH]; [reflexivity|]. cbn [map]. rewrite !cnt_cons, IH. reflexivity. Qed.
Lemma cnt_single {A} (f : A -> bool) l x : NoDup l -> In x l -> f x = true ->
  (forall y, In y l -> f y = true -> y = x) -> cnt f l = 1.
Proof.
  intros Hnd. induction Hnd as [|a l Hna Hnd IH]; intros Hin Hfx Hu; [destruct Hin|].
  rewrite cnt_cons. destruct Hin as [->|Hin].
  - rewrite Hfx. cbn [b2n]. rewrite cnt_zero; [reflexivity|].
    intros y Hy. destruct (f y) eqn:E; [|reflexivity]. exfalso. apply Hna.
    rewrite <- (Hu y (or_intror Hy) E). assumption.
  - destruct (f a) eqn:E.
    + exfalso. apply Hna. rewrite (Hu a (or_introl eq_refl) E). assumption.
    + cbn [b2n]. apply IH; auto. intros y Hy. apply Hu. right; assumption.
Qed.

Lemma cnt_filter {A} (f g : A -> bool) l : cnt f (filter g l) = cnt (fun x => g x && f x) l.
Proof.
  induction l as [|x l IH]; [reflexivity|]. cbn [filter]. rewrite cnt_cons.
  destruct (g x); cbn [andb]; [rewrite cnt_cons, IH; reflexivity|rewrite IH; reflexivity].
Qed.

Lemma cnt_perm {A} (f : A -> bool) l1 l2 : Permutation l1 l2 -> cnt f l1 = cnt f l2.
Proof.
  intros H. induction H as [|x l l' H IH|x y l|l l' l'' H1 IH1 H2 IH2]; [reflexivity| | |congruence].
  - rewrite !cnt_cons, IH. reflexivity.
  - rewrite !cnt_cons. lia.
Qed.

Section DistProofs.
  Variable task : Type.
  Variable teq : forall a b : task, {a = b} + {a <> b}.
  Variable tasks : list task.
  Variable ins outs : task -> list (edge task).
  Variable isctl writes : task -> nat -> bool.
  Variable reads wlist : task -> list nat.
  Variable hashv : task -> nat -> list Z -> Z.
  Variable srcv : task -> nat -> Z.
  Variable nranks : nat.
  Variable rank_of : task -> nat.
  Variable parent : task -> nat -> nat.
  Variable eager : task -> nat -> nat -> bool.

  Local Notation edge := (edge task).
  Local Notation e_flow := (e_flow task).
  Local Notation e_task := (e_task task).
  Local Notation e_oflow := (e_oflow task).
  Local Notation teqb := (teqb task teq).
  Local Notation State := (state task).
  Local Notation packet := (packet task).
  Local Notation stepD := (step task teq tasks ins outs isctl writes reads wlist hashv srcv nranks rank_of parent eager).
  Local Notation initD := (init task teq tasks ins).
  Local Notation runD := (run task teq tasks ins outs isctl writes reads wlist hashv srcv nranks rank_of parent eager).
  Local Notation in_edgeD := (in_edge task ins).
  Local Notation bodyD := (body task isctl writes reads hashv).
  Local Notation invalD := (inval task ins srcv).
  Local Notation needsD := (needs task outs rank_of).
  Local Notation neededD := (needed task outs rank_of).
  Local Notation isdestD := (isdest task outs rank_of).
  Local Notation childrenD := (children task outs nranks rank_of parent).
  Local Notation holdsD := (holds task rank_of).
  Local Notation payloadD := (payload task outs rank_of eager).
  Local Notation actsD := (acts task outs nranks rank_of parent eager).
  Local Notation arriveD := (arrive task teq outs rank_of).
  Local Notation completeD := (complete task outs rank_of).
  Local Notation propagateD := (propagate task outs nranks rank_of parent eager).
  Local Notation remote_outsD := (remote_outs task outs rank_of).
  Local Notation local_outsD := (local_outs task outs rank_of).
  Local Notation release_edgesD := (release_edges task teq).
  Local Notation updE := (upd task teq).
  Local Notation releaseE := (release task teq).

  (* the two views of every edge agree with multiplicity: the successors of p that are x, seen from x *)
  Hypothesis H_perm : forall p x, In p tasks -> In x tasks ->
    Permutation (map (fun e : edge => (e_oflow e, p, e_flow e)) (filter (fun e => teqb (e_task e) x) (outs p)))
                (filter (fun e => teqb (e_task e) p) (ins x)).
  Hypothesis H_succ_in : forall p e, In p tasks -> In e (outs p) -> In (e_task e) tasks.
  Hypothesis H_pred_in : forall t e, In t tasks -> In e (ins t) -> In (e_task e) tasks.
  Variable drank : task -> nat.
  Hypothesis H_drank : forall t e, In t tasks -> In e (ins t) -> drank (e_task e) < drank t.
  (* a data flow has at most one input edge *)
  Hypothesis H_single : forall t e1 e2, In t tasks -> In e1 (ins t) -> In e2 (ins t) ->
    e_flow e1 = e_flow e2 -> isctl t (e_flow e1) = false -> e1 = e2.
  Hypothesis H_reads_data : forall t f, In t tasks -> In f (reads t) -> isctl t f = false.
  Hypothesis H_ranks : forall t, In t tasks -> rank_of t < nranks.
  (* the activation tree of every producer: the parent of a destination is the root or a destination, closer to the root *)
  Variable depth : task -> nat -> nat.
  Hypothesis H_tree : forall p d, In p tasks -> isdestD d p = true ->
    (parent p d = rank_of p \/ isdestD (parent p d) p = true) /\ depth p (parent p d) < depth p d.
  (* NO relay-lacks-output (finding F8): the sender of d's activation is the root or consumes what d consumes *)
  Hypothesis H_relay_holds : forall p d k, In p tasks -> isdestD d p = true -> needsD d p k = true ->
    parent p d = rank_of p \/ needsD (parent p d) p k = true.
  (* the sequential reference: any solution of the dataflow equations (PTGDistProofs takes ref_in / ref_out, which seq_exec computes) *)
  Variable refin refout : task -> nat -> Z.
  Hypothesis H_refin : forall t f, refin t f = match in_edgeD t f with
                                                | Some e => refout (e_task e) (e_oflow e)
                                                | None => srcv t f end.
  Hypothesis H_refout : forall t k, In t tasks -> refout t k = bodyD t k (refin t).

  Lemma teqb_true a b : teqb a b = true <-> a = b.
  Proof. unfold DistEngine.teqb. destruct (teq a b); split; congruence. Qed.
  Lemma teqb_refl a : teqb a a = true.
  Proof. apply teqb_true. reflexivity. Qed.
  Lemma teqb_false a b : teqb a b = false <-> a <> b.
  Proof. unfold DistEngine.teqb. destruct (teq a b); split; congruence. Qed.

  Lemma updS_same m t f v : updS task teq m t f v t f = v.
  Proof. unfold updS. destruct (teq t t); [|congruence]. rewrite Nat.eqb_refl. reflexivity. Qed.
  Lemma updS_other m t f v t' f' : (t', f') <> (t, f) -> updS task teq m t f v t' f' = m t' f'.
  Proof.
    intros H. unfold updS. destruct (teq t' t) as [->|]; [|reflexivity].
    destruct (Nat.eqb f' f) eqn:E; [|reflexivity]. apply Nat.eqb_eq in E. subst. congruence.
  Qed.
  Lemma updG_same m d p k v : updG task teq m d p k v d p k = v.
  Proof. unfold updG. rewrite !Nat.eqb_refl. destruct (teq p p); congruence. Qed.
  Lemma updG_cases m d p k v d' p' k' : (d', p', k') = (d, p, k) \/ updG task teq m d p k v d' p' k' = m d' p' k'.
  Proof.
    unfold updG. destruct (Nat.eqb_spec d' d) as [->|]; [|right; reflexivity].
    destruct (teq p' p) as [->|]; [|right; reflexivity].
    destruct (Nat.eqb_spec k' k) as [->|]; [left|right]; reflexivity.
  Qed.
  Lemma updG_other m d p k v d' p' k' : (d', p', k') <> (d, p, k) -> updG task teq m d p k v d' p' k' = m d' p' k'.
  Proof. intros H. destruct (updG_cases m d p k v d' p' k'); [contradiction|assumption]. Qed.
  Lemma updA_same m d p v : updA task teq m d p v d p = v.
  Proof. unfold updA. rewrite Nat.eqb_refl. destruct (teq p p); congruence. Qed.
  Lemma updA_other m d p v d' p' : (d', p') <> (d, p) -> updA task teq m d p v d' p' = m d' p'.
  Proof.
    intros H. unfold updA. destruct (Nat.eqb d' d) eqn:E1; [|reflexivity]. apply Nat.eqb_eq in E1.
    destruct (teq p' p) as [->|]; [|reflexivity]. subst. congruence.
  Qed.

  Lemma in_out p x f k : In p tasks -> In x tasks -> In (f, p, k) (ins x) -> In (k, x, f) (outs p).
  Proof.
    intros Hp Hx Hin.
    assert (H : In (f, p, k) (filter (fun e => teqb (e_task e) p) (ins x))).
    { apply filter_In. split; [assumption|]. apply teqb_refl. }
    apply (Permutation_in _ (Permutation_sym (H_perm p x Hp Hx))) in H.
    apply in_map_iff in H. destruct H as ([[k' x'] f'] & Heq & Hin').
    apply filter_In in Hin'. destruct Hin' as [Hin' Hx']. apply teqb_true in Hx'.
    unfold DistEngine.e_oflow, DistEngine.e_flow, DistEngine.e_task in *. cbn [fst snd] in *.
    inversion Heq; subst. assumption.
  Qed.
  Lemma out_in p x f k : In p tasks -> In x tasks -> In (k, x, f) (outs p) -> In (f, p, k) (ins x).
  Proof.
    intros Hp Hx Hin.
    assert (H : In (f, p, k) (map (fun e : edge => (e_oflow e, p, e_flow e)) (filter (fun e => teqb (e_task e) x) (outs p)))).
    { apply in_map_iff. exists (k, x, f). split; [reflexivity|]. apply filter_In. split; [assumption|apply teqb_refl]. }
    apply (Permutation_in _ (H_perm p x Hp Hx)) in H. apply filter_In in H. apply H.
  Qed.
  (* for any selection phi of the producer's flows: as many edges p -> x seen from p as seen from x *)
  Lemma edge_count p x (phi : nat -> bool) : In p tasks -> In x tasks ->
    cnt (fun e : edge => teqb (e_task e) p && phi (e_oflow e)) (ins x)
    = cnt (fun e : edge => teqb (e_task e) x && phi (e_flow e)) (outs p).
  Proof.
    intros Hp Hx.
    etransitivity; [symmetry; apply (cnt_filter (fun e : edge => phi (e_oflow e)) (fun e => teqb (e_task e) p))|].
    rewrite <- (cnt_perm _ _ _ (H_perm p x Hp Hx)), cnt_map.
    exact (cnt_filter (fun e : edge => phi (e_flow e)) (fun e => teqb (e_task e) x) (outs p)).
  Qed.

  Lemma release_edges_cons a es v stm slm :
    release_edgesD (a :: es) v stm slm
    = release_edgesD es v (releaseE stm (e_task a)) (updS task teq slm (e_task a) (e_oflow a) (Some (v (e_flow a)))).
  Proof. reflexivity. Qed.

  Lemma release_edges_st es v : forall stm slm x,
    fst (release_edgesD es v stm slm) x = Nat.iter (count_occ teq (map e_task es) x) rel1 (stm x).
  Proof.
    intros stm slm x. rewrite <- (fold_release task teq). revert stm slm.
    induction es as [|a es IH]; intros stm slm; [reflexivity|].
    rewrite release_edges_cons. cbn [fold_left map]. apply IH.
  Qed.

  Lemma release_edges_slot es v : forall stm slm t f,
    (snd (release_edgesD es v stm slm) t f = slm t f /\ forall e, In e es -> ~ (e_task e = t /\ e_oflow e = f))
    \/ exists e, In e es /\ e_task e = t /\ e_oflow e = f /\ snd (release_edgesD es v stm slm) t f = Some (v (e_flow e)).
  Proof.
    induction es as [|a es IH]; intros stm slm t f.
    - left. split; [reflexivity|]. intros e [].
    - rewrite release_edges_cons.
      destruct (IH (releaseE stm (e_task a)) (updS task teq slm (e_task a) (e_oflow a) (Some (v (e_flow a)))) t f)
        as [[Heq Hno]|(e & He & H1 & H2 & H3)].
      + destruct (teq (e_task a) t) as [Ht|Ht]; [destruct (Nat.eq_dec (e_oflow a) f) as [Hf|Hf]|].
        * right. exists a. split; [left; reflexivity|]. split; [assumption|]. split; [assumption|].
          rewrite Heq, <- Ht, <- Hf. apply updS_same.
        * left. split.
          -- rewrite Heq. apply updS_other. intros H. inversion H. congruence.
          -- intros e [<-|He]; [intros [_ H]; congruence|apply Hno; assumption].
        * left. split.
          -- rewrite Heq. apply updS_other. intros H. inversion H. congruence.
          -- intros e [<-|He]; [intros [H _]; congruence|apply Hno; assumption].
      + right. exists e. split; [right; assumption|]. auto.
  Qed.

  Lemma count_occ_map_cnt {A} (g : A -> task) l x : count_occ teq (map g l) x = cnt (fun e => teqb (g e) x) l.
  Proof.
    induction l as [|a l IH]; [reflexivity|]. cbn [map count_occ]. rewrite cnt_cons, IH.
    unfold DistEngine.teqb. destruct (teq (g a) x); reflexivity.
  Qed.

  (* the out-edges of p towards the tasks of rank d whose flow phi selects.  local_outs t is
     outs_to (rank_of t) t (fun _ => true), remote_outs d p k is outs_to d p (fun j => Nat.eqb j k), by computation *)
  Definition outs_to (d : nat) (p : task) (phi : nat -> bool) : list edge :=
    filter (fun e => phi (e_flow e) && Nat.eqb (rank_of (e_task e)) d) (outs p).
  (* input edge e of x is one of them, seen from x *)
  Definition hit (d : nat) (p : task) (phi : nat -> bool) (x : task) (e : edge) : bool :=
    Nat.eqb (rank_of x) d && (teqb (e_task e) p && phi (e_oflow e)).

  Lemma outs_to_in d p phi e : In e (outs_to d p phi) <-> In e (outs p) /\ phi (e_flow e) = true /\ rank_of (e_task e) = d.
  Proof. unfold outs_to. rewrite filter_In, andb_true_iff, Nat.eqb_eq. reflexivity. Qed.
  Lemma hit_iff d p phi x e : hit d p phi x e = true <-> rank_of x = d /\ e_task e = p /\ phi (e_oflow e) = true.
  Proof. unfold hit. rewrite !andb_true_iff, Nat.eqb_eq, teqb_true. reflexivity. Qed.

  (* x is released once per edge, counted among its inputs *)
  Lemma outs_to_count d p phi x : In p tasks -> In x tasks ->
    count_occ teq (map e_task (outs_to d p phi)) x = cnt (hit d p phi x) (ins x).
  Proof.
    intros Hp Hx. rewrite count_occ_map_cnt. unfold outs_to, hit. rewrite cnt_filter.
    destruct (Nat.eqb (rank_of x) d) eqn:E; cbn [andb].
    - rewrite (edge_count p x phi Hp Hx). apply cnt_ext. intros e _.
      destruct (teqb (e_task e) x) eqn:Et; [|apply andb_false_r].
      apply teqb_true in Et. rewrite Et, E, !andb_true_r. reflexivity.
    - rewrite (cnt_zero _ (ins x)) by reflexivity. apply cnt_zero. intros e _.
      destruct (teqb (e_task e) x) eqn:Et; [|apply andb_false_r].
      apply teqb_true in Et. rewrite Et, E, andb_false_r. reflexivity.
  Qed.

  (* and the slot of a data flow of x is written exactly when its one input edge is among them *)
  Lemma outs_to_slot d p phi v stm slm x e : In p tasks -> In x tasks -> In e (ins x) -> isctl x (e_flow e) = false ->
    snd (release_edgesD (outs_to d p phi) v stm slm) x (e_flow e)
    = if hit d p phi x e then Some (v (e_oflow e)) else slm x (e_flow e).
  Proof.
    intros Hp Hx He Hc.
    destruct (release_edges_slot (outs_to d p phi) v stm slm x (e_flow e)) as [[Heq Hno]|(e' & He' & H1 & H2 & H3)].
    - rewrite Heq. destruct (hit d p phi x e) eqn:Eh; [|reflexivity].
      exfalso. apply hit_iff in Eh. destruct Eh as (E1 & E2 & E3).
      destruct e as [[f q] j]. unfold DistEngine.e_task, DistEngine.e_oflow, DistEngine.e_flow in *. cbn [fst snd] in *. subst q.
      apply (Hno (j, x, f)); [|split; reflexivity].
      apply outs_to_in. split; [apply in_out; assumption|split; assumption].
    - rewrite H3. apply outs_to_in in He'. destruct He' as (Ho & Hf & Hr).
      destruct e' as [[k' t'] f']. unfold DistEngine.e_task, DistEngine.e_oflow, DistEngine.e_flow in H1, H2, Hf, Hr |- *.
      cbn [fst snd] in H1, H2, Hf, Hr |- *. subst t' f'.
      pose proof (out_in p x (fst (fst e)) k' Hp Hx Ho) as Hi.
      assert (Heq : (fst (fst e), p, k') = e) by (apply (H_single x _ e Hx Hi He); [reflexivity|exact Hc]).
      rewrite <- Heq, (proj2 (hit_iff d p phi x _)); [reflexivity|]. cbn [fst snd]. auto.
  Qed.

  Lemma iter_absent c : Nat.iter c rel1 Absent = Absent.
  Proof. apply iter_rel1_fixed. intros n; discriminate. Qed.
  Lemma rel1_cat s : match rel1 s with Running | Done => 1 | _ => 0 end = match s with Running | Done => 1 | _ => 0 end.
  Proof. destruct s as [|[|[|n]]| | |]; reflexivity. Qed.
  Lemma iter_cat c s : match Nat.iter c rel1 s with Running | Done => 1 | _ => 0 end = match s with Running | Done => 1 | _ => 0 end.
  Proof. induction c as [|c IH]; [reflexivity|]. rewrite iter_S, rel1_cat. exact IH. Qed.
  Lemma iter_cat_done c s : match Nat.iter c rel1 s with Done => 1 | _ => 0 end = match s with Done => 1 | _ => 0 end.
  Proof.
    pose proof (isdone_iter c s) as H. unfold isdone in H.
    destruct (Nat.iter c rel1 s), s; try reflexivity; discriminate.
  Qed.
  Lemma rel1_present s : s <> Absent -> rel1 s <> Absent.
  Proof. destruct s as [|[|[|n]]| | |]; cbn; congruence. Qed.
  Lemma iter_present c s : s <> Absent -> Nat.iter c rel1 s <> Absent.
  Proof. intros H. induction c as [|c IH]; [assumption|]. rewrite iter_S. apply rel1_present. assumption. Qed.

  (* the shape of i_count: c releases take the counter of a waiting task from P to P' *)
  Lemma count_step (s0 : status) P P' c :
    match s0 with Waiting n => n = P | _ => P = 0 end -> P = P' + c ->
    match Nat.iter c rel1 s0 with Waiting n => n = P' | _ => P' = 0 end.
  Proof.
    intros H0 HP. destruct c as [|c].
    - change (Nat.iter 0 rel1 s0) with s0. destruct s0; lia.
    - destruct s0 as [|n| | |]; try lia. subst n.
      rewrite iter_rel1_waiting by lia.
      destruct (Nat.eqb P (S c)) eqn:E; [apply Nat.eqb_eq in E|apply Nat.eqb_neq in E]; lia.
  Qed.

  (* input edge e of x has been released to x: a local producer is done, a remote one's datum has arrived *)
  Definition delivered (s : State) (x : task) (e : edge) : bool :=
    if Nat.eqb (rank_of (e_task e)) (rank_of x) then isdone (st task s (e_task e))
    else isSome (got task s (rank_of x) (e_task e) (e_oflow e)).
  Definition pending (s : State) (x : task) : nat := cnt (fun e => negb (delivered s x e)) (ins x).

  Lemma pending_split (s s' : State) x (hit : edge -> bool) :
    (forall e, In e (ins x) -> hit e = true -> delivered s x e = false /\ delivered s' x e = true) ->
    (forall e, In e (ins x) -> hit e = false -> delivered s' x e = delivered s x e) ->
    pending s x = pending s' x + cnt hit (ins x).
  Proof.
    unfold pending. induction (ins x) as [|a l IH]; intros H1 H2; [reflexivity|].
    rewrite !cnt_cons. rewrite IH; [|intros e He; apply H1; right; assumption|intros e He; apply H2; right; assumption].
    destruct (hit a) eqn:E.
    - destruct (H1 a (or_introl eq_refl) E) as [Ha Hb]. rewrite Ha, Hb. cbn. lia.
    - rewrite (H2 a (or_introl eq_refl) E). cbn [b2n]. lia.
  Qed.

  Lemma pending_zero (s : State) x e : pending s x = 0 -> In e (ins x) -> delivered s x e = true.
  Proof.
    unfold pending. induction (ins x) as [|a l IH]; [intros _ []|]. rewrite cnt_cons. intros H [->|Hin].
    - destruct (delivered s x e); [reflexivity|discriminate H].
    - apply IH; [lia|assumption].
  Qed.

  Local Notation beginsD := (begins task).
  Local Notation endsD := (ends task).

  Record Inv1 (s : State) : Prop := {
    i_absent : forall t, ~ In t tasks -> st task s t = Absent;
    i_present : forall t, In t tasks -> st task s t <> Absent;
    i_count : forall t, In t tasks -> match st task s t with Waiting n => n = pending s t | _ => pending s t = 0 end;
    i_slot : forall t e, In t tasks -> In e (ins t) -> delivered s t e = true -> isctl t (e_flow e) = false ->
                         slot task s t (e_flow e) = Some (refout (e_task e) (e_oflow e));
    i_outv : forall p k, In p tasks -> isdone (st task s p) = true -> outv task s p k = Some (refout p k);
    i_got : forall d p k v, got task s d p k = Some v ->
                            v = refout p k /\ In p tasks /\ needsD d p k = true /\ d <> rank_of p;
    i_begins : forall t, count_occ teq (beginsD (log task s)) t = match st task s t with Running | Done => 1 | _ => 0 end;
    i_ends : forall t, count_occ teq (endsD (log task s)) t = match st task s t with Done => 1 | _ => 0 end;
    i_logb : forall t r vs, In (LBegin t r vs) (log task s) -> In t tasks /\ r = rank_of t /\ vs = map (refin t) (reads t);
    i_loge : forall t r ovs, In (LEnd t r ovs) (log task s) ->
                             In t tasks /\ r = rank_of t /\ ovs = map (fun k => (k, refout t k)) (wlist t)
  }.

  Lemma Inv1_ext (s s' : State) :
    st task s' = st task s -> slot task s' = slot task s -> outv task s' = outv task s ->
    got task s' = got task s -> log task s' = log task s -> Inv1 s -> Inv1 s'.
  Proof.
    destruct s as [a1 a2 a3 a4 a5 a6 a7 a8], s' as [b1 b2 b3 b4 b5 b6 b7 b8].
    cbn [st slot outv got log]. intros -> -> -> -> -> I.
    destruct I as [I1 I2 I3 I4 I5 I6 I7 I8 I9 I10]. split; assumption.
  Qed.

  Lemma in_edge_some t f e : in_edgeD t f = Some e -> In e (ins t) /\ e_flow e = f.
  Proof.
    unfold in_edge. intros H. apply find_some in H. destruct H as [H1 H2]. apply Nat.eqb_eq in H2. auto.
  Qed.

  Lemma inval_ref (s : State) t f : Inv1 s -> In t tasks -> pending s t = 0 -> isctl t f = false ->
    invalD s t f = refin t f.
  Proof.
    intros I Ht Hp Hc. unfold inval. rewrite H_refin. destruct (in_edgeD t f) as [e|] eqn:E; [|reflexivity].
    destruct (in_edge_some t f e E) as [Hin Hf]. subst f.
    rewrite (i_slot s I t e Ht Hin (pending_zero s t e Hp Hin) Hc). reflexivity.
  Qed.

  Lemma remote_outs_in d p k e : In e (remote_outsD d p k) <-> In e (outs p) /\ e_flow e = k /\ rank_of (e_task e) = d.
  Proof. unfold remote_outs. rewrite filter_In, andb_true_iff, !Nat.eqb_eq. reflexivity. Qed.

  Lemma needs_iff d p k : needsD d p k = true <-> exists e, In e (outs p) /\ e_flow e = k /\ rank_of (e_task e) = d.
  Proof.
    unfold needs. rewrite existsb_exists. setoid_rewrite andb_true_iff. setoid_rewrite Nat.eqb_eq. reflexivity.
  Qed.

  Lemma arrive_st d p k v (s : State) x :
    st task (arriveD d p k v s) x = Nat.iter (count_occ teq (map e_task (remote_outsD d p k)) x) rel1 (st task s x).
  Proof. apply release_edges_st. Qed.

  Lemma arrive_isdone d p k v (s : State) x : isdone (st task (arriveD d p k v s) x) = isdone (st task s x).
  Proof. rewrite arrive_st. apply isdone_iter. Qed.

  Lemma Inv1_arrive d p k v (s : State) :
    Inv1 s -> In p tasks -> d <> rank_of p -> needsD d p k = true -> got task s d p k = None -> v = refout p k ->
    Inv1 (arriveD d p k v s).
  Proof.
    intros I Hp Hd Hn Hg Hv.
    set (s' := arriveD d p k v s). set (phi := fun j => Nat.eqb j k).
    assert (Hgot : forall d' p' k', got task s' d' p' k' = updG task teq (got task s) d p k (Some v) d' p' k') by reflexivity.
    (* the delivered predicate changes exactly on the edges (p, k) of the tasks of rank d *)
    assert (Hhit : forall x e, hit d p phi x e = true -> delivered s x e = false /\ delivered s' x e = true).
    { intros x e H. apply hit_iff in H. destruct H as (H1 & H2 & H3). apply Nat.eqb_eq in H3.
      unfold delivered. rewrite H2, H1, H3, (proj2 (Nat.eqb_neq _ _)), Hg, Hgot, updG_same by congruence. split; reflexivity. }
    assert (Hnohit : forall x e, hit d p phi x e = false -> delivered s' x e = delivered s x e).
    { intros x e H. unfold delivered. destruct (Nat.eqb (rank_of (e_task e)) (rank_of x)); [apply arrive_isdone|].
      rewrite Hgot. destruct (updG_cases (got task s) d p k (Some v) (rank_of x) (e_task e) (e_oflow e)) as [Heq| ->]; [|reflexivity].
      inversion Heq as [[H1 H2 H3]]. rewrite (proj2 (hit_iff d p phi x e)) in H; [discriminate|]. rewrite H3. split; [assumption|]. split; [assumption|apply Nat.eqb_refl]. }
    split.
    - intros t Ht. unfold s'. rewrite arrive_st, (i_absent s I t Ht). apply iter_absent.
    - intros t Ht. unfold s'. rewrite arrive_st. apply iter_present. apply (i_present s I t Ht).
    - intros t Ht. unfold s'. rewrite arrive_st. apply (count_step _ (pending s t)); [apply (i_count s I t Ht)|].
      change (remote_outsD d p k) with (outs_to d p phi). rewrite (outs_to_count d p phi t Hp Ht). apply pending_split; intros e _ H; [apply Hhit|apply Hnohit]; assumption.
    - intros t e Ht He Hdel Hc.
      change (slot task s' t (e_flow e)) with (snd (release_edgesD (outs_to d p phi) (fun _ => v) (st task s) (slot task s)) t (e_flow e)).
      rewrite outs_to_slot by assumption. destruct (hit d p phi t e) eqn:Eh.
      + apply hit_iff in Eh. destruct Eh as (_ & E2 & E3). apply Nat.eqb_eq in E3. rewrite E2, E3, Hv. reflexivity.
      + apply (i_slot s I t e Ht He); [|assumption]. rewrite <- (Hnohit t e Eh). assumption.
    - intros q j Hq Hdn. change (outv task s' q j) with (outv task s q j). apply (i_outv s I q j Hq).
      unfold s' in Hdn. rewrite arrive_isdone in Hdn. exact Hdn.
    - intros d' p' k' v' H. rewrite Hgot in H.
      destruct (updG_cases (got task s) d p k (Some v) d' p' k') as [Heq|Hu]; [|rewrite Hu in H; apply (i_got s I _ _ _ _ H)].
      inversion Heq; subst d' p' k'. rewrite updG_same in H. inversion H; subst. auto.
    - intros t. change (log task s') with (log task s). rewrite (i_begins s I t). unfold s'. rewrite arrive_st, iter_cat. reflexivity.
    - intros t. change (log task s') with (log task s). rewrite (i_ends s I t). unfold s'. rewrite arrive_st, iter_cat_done. reflexivity.
    - apply (i_logb s I).
    - apply (i_loge s I).
  Qed.

  Lemma delivered_ext (s s' : State) x e :
    (forall q, isdone (st task s' q) = isdone (st task s q)) -> got task s' = got task s ->
    delivered s' x e = delivered s x e.
  Proof. intros H1 H2. unfold delivered. rewrite H1, H2. reflexivity. Qed.

  Lemma pending_ext (s s' : State) x :
    (forall q, isdone (st task s' q) = isdone (st task s q)) -> got task s' = got task s -> pending s' x = pending s x.
  Proof. intros H1 H2. unfold pending. apply cnt_ext. intros e _. rewrite (delivered_ext s s' x e H1 H2). reflexivity. Qed.

  Lemma st_in_tasks (s : State) t : Inv1 s -> st task s t <> Absent -> In t tasks.
  Proof.
    intros I H. destruct (in_dec teq t tasks) as [Hi|Hi]; [assumption|]. exfalso. apply H. apply (i_absent s I t Hi).
  Qed.

  Lemma count_begins_cons_b t r vs l x :
    count_occ teq (beginsD (LBegin t r vs :: l)) x = (if teq t x then 1 else 0) + count_occ teq (beginsD l) x.
  Proof. cbn [begins flat_map app count_occ]. destruct (teq t x); reflexivity. Qed.
  Lemma count_ends_cons_e t r ovs l x :
    count_occ teq (endsD (LEnd t r ovs :: l)) x = (if teq t x then 1 else 0) + count_occ teq (endsD l) x.
  Proof. cbn [ends flat_map app count_occ]. destruct (teq t x); reflexivity. Qed.

  Lemma local_outs_in t e : In e (local_outsD t) <-> In e (outs t) /\ rank_of (e_task e) = rank_of t.
  Proof. unfold local_outs. rewrite filter_In, Nat.eqb_eq. reflexivity. Qed.

  Local Notation lookupD := (lookup).
  Definition isAct (p : task) (d : nat) (pk : packet) : bool :=
    Nat.eqb (p_dst task pk) d && match p_body task pk with Act q _ => teqb q p | _ => false end.
  Definition isGet (p : task) (d k : nat) (pk : packet) : bool :=
    Nat.eqb (p_src task pk) d && match p_body task pk with Get q j => teqb q p && Nat.eqb j k | _ => false end.
  Definition isPut (p : task) (d k : nat) (pk : packet) : bool :=
    Nat.eqb (p_dst task pk) d && match p_body task pk with Put q j _ => teqb q p && Nat.eqb j k | _ => false end.

  (* rank n has sent the activation of p to its children: the root when p is done, a relay when everything it consumes has arrived *)
  Definition sent (s : State) (p : task) (n : nat) : bool :=
    if Nat.eqb n (rank_of p) then isdone (st task s p) else acted task s n p && completeD s n p.

  Definition pk_ok (s : State) (pk : packet) : Prop :=
    match p_body task pk with
    | Act p pl => In p tasks /\ isdestD (p_dst task pk) p = true /\ p_src task pk = parent p (p_dst task pk)
                  /\ (forall k v, lookupD k pl = Some v -> v = refout p k)
                  /\ (forall k, needsD (p_dst task pk) p k = true -> holdsD s (p_src task pk) p k = Some (refout p k))
    | Get p k => In p tasks /\ isdestD (p_src task pk) p = true /\ p_dst task pk = parent p (p_src task pk)
                 /\ needsD (p_src task pk) p k = true /\ holdsD s (p_dst task pk) p k = Some (refout p k)
    | Put p k v => In p tasks /\ isdestD (p_dst task pk) p = true /\ needsD (p_dst task pk) p k = true /\ v = refout p k
    end.

  Record Inv2r (s : State) : Prop := {
    j_data : forall p d k, In p tasks -> isdestD d p = true -> needsD d p k = true ->
              cnt (isGet p d k) (net task s) + cnt (isPut p d k) (net task s) + b2n (isSome (got task s d p k))
              = b2n (acted task s d p);
    j_acted : forall d p, acted task s d p = true -> In p tasks /\ isdestD d p = true;
    j_pk : forall pk, In pk (net task s) -> pk_ok s pk;
    j_failed : failed task s = false
  }.
  Record Inv2 (s : State) : Prop := {
    j_act : forall p d, In p tasks -> isdestD d p = true ->
              cnt (isAct p d) (net task s) + b2n (acted task s d p) = b2n (sent s p (parent p d));
    j_rest : Inv2r s
  }.
  Definition Inv (s : State) : Prop := Inv1 s /\ Inv2 s.
  (* j_act between the moment rank n counts as having sent the activation of p and the moment it does:
     its children have nothing yet *)
  Definition act_owed (s : State) (p : task) (n : nat) : Prop := forall q d, In q tasks -> isdestD d q = true ->
    cnt (isAct q d) (net task s) + b2n (acted task s d q)
    = if teqb p q && Nat.eqb (parent q d) n then 0 else b2n (sent s q (parent q d)).

  Lemma isdest_iff d p : isdestD d p = true <-> d <> rank_of p /\ exists e, In e (outs p) /\ rank_of (e_task e) = d.
  Proof.
    unfold isdest. rewrite andb_true_iff, negb_true_iff, Nat.eqb_neq, existsb_exists. setoid_rewrite Nat.eqb_eq. reflexivity.
  Qed.
  Lemma needs_isdest d p k : needsD d p k = true -> d <> rank_of p -> isdestD d p = true.
  Proof. intros H Hd. apply needs_iff in H. destruct H as (e & H1 & _ & H3). apply isdest_iff. split; [assumption|]. exists e; auto. Qed.
  Lemma isdest_lt d p : In p tasks -> isdestD d p = true -> d < nranks.
  Proof.
    intros Hp H. apply isdest_iff in H. destruct H as [_ (e & H1 & H2)]. subst d. apply H_ranks. apply (H_succ_in p e Hp H1).
  Qed.
  Lemma isdest_ne d p : isdestD d p = true -> d <> rank_of p.
  Proof. intros H. apply isdest_iff in H. apply H. Qed.

  Lemma needed_in d p k : In k (neededD d p) <-> needsD d p k = true.
  Proof.
    unfold needed. rewrite filter_In. split; [intros [_ H]; exact H|]. intros H. split; [|assumption].
    unfold oflows. apply nodup_In. apply needs_iff in H. destruct H as (e & H1 & H2 & _). subst k. apply in_map. assumption.
  Qed.
  Lemma needed_nodup d p : NoDup (neededD d p).
  Proof. unfold needed, oflows. apply NoDup_filter. apply NoDup_nodup. Qed.
  Lemma children_in p n c : In p tasks -> (In c (childrenD p n) <-> isdestD c p = true /\ parent p c = n).
  Proof.
    intros Hp. unfold children. rewrite filter_In, andb_true_iff, Nat.eqb_eq, in_seq. split; [intros [_ H]; exact H|].
    intros H. split; [|exact H]. pose proof (isdest_lt c p Hp (proj1 H)). lia.
  Qed.
  Lemma children_nodup p n : NoDup (childrenD p n).
  Proof. unfold children. apply NoDup_filter. apply seq_NoDup. Qed.

  Lemma take_spec a b (l : list packet) pk rest : take task a b l = Some (pk, rest) ->
    In pk l /\ p_src task pk = a /\ p_dst task pk = b /\ (forall f, cnt f l = cnt f rest + b2n (f pk)) /\ (forall x, In x rest -> In x l).
  Proof.
    revert pk rest. induction l as [|x l IH]; intros pk rest H; [discriminate|]. cbn [take] in H.
    destruct (Nat.eqb (p_src task x) a && Nat.eqb (p_dst task x) b) eqn:E.
    - inversion H; subst x rest. apply andb_true_iff in E. rewrite !Nat.eqb_eq in E.
      split; [left; reflexivity|]. split; [tauto|]. split; [tauto|]. split; [intros f; rewrite cnt_cons; lia|].
      intros y Hy. right; assumption.
    - destruct (take task a b l) as [[y r']|]; [|discriminate]. inversion H; subst y rest.
      destruct (IH pk r' eq_refl) as (H1 & H2 & H3 & H4 & H5).
      split; [right; assumption|]. split; [assumption|]. split; [assumption|]. split.
      + intros f. rewrite !cnt_cons, (H4 f). lia.
      + intros y [->|Hy]; [left; reflexivity|right; apply H5; assumption].
  Qed.

  Lemma lookup_payload (s : State) n p c k v : lookupD k (payloadD s n p c) = Some v -> holdsD s n p k = Some v.
  Proof.
    unfold payload. induction (neededD c p) as [|a l IH]; [discriminate|].
    cbn [flat_map]. destruct (holdsD s n p a) as [w|] eqn:Eh; [|exact IH].
    unfold lookup. cbn [app find fst]. destruct (Nat.eqb a k) eqn:E.
    - apply Nat.eqb_eq in E. subst a. destruct (eager p c k); [|discriminate]. intros H. inversion H; subst. assumption.
    - exact IH.
  Qed.

  Lemma pk_ok_mono (s s' : State) pk :
    (forall n q j, holdsD s n q j = Some (refout q j) -> holdsD s' n q j = Some (refout q j)) -> pk_ok s pk -> pk_ok s' pk.
  Proof.
    intros H. unfold pk_ok. destruct (p_body task pk) as [p pl|p k|p k v]; [| |intros Hok; exact Hok].
    - intros (H1 & H2 & H3 & H4 & H5). repeat split; auto.
    - intros (H1 & H2 & H3 & H4 & H5). repeat split; auto.
  Qed.

  Lemma acts_ok (s : State) n p pk : In p tasks -> In pk (actsD s n p) ->
    (forall k v, holdsD s n p k = Some v -> v = refout p k) ->
    (forall c k, isdestD c p = true -> parent p c = n -> needsD c p k = true -> holdsD s n p k = Some (refout p k)) ->
    pk_ok s pk.
  Proof.
    intros Hp Hin Hv Hh. unfold acts in Hin. apply in_map_iff in Hin. destruct Hin as (c & <- & Hc).
    apply (children_in p n c Hp) in Hc. destruct Hc as [H1 H2]. unfold pk_ok. cbn [p_body p_dst p_src].
    split; [assumption|]. split; [assumption|]. split; [congruence|]. split.
    - intros k v Hl. apply (Hv k v). apply (lookup_payload s n p c k v Hl).
    - intros k Hk. apply (Hh c k H1 H2 Hk).
  Qed.

  Lemma complete_ext (s s' : State) n p : (forall k, got task s' n p k = got task s n p k) -> completeD s' n p = completeD s n p.
  Proof.
    intros H. unfold complete. induction (neededD n p) as [|k l IH]; [reflexivity|].
    cbn [forallb]. rewrite H, IH. reflexivity.
  Qed.

  Lemma sent_ext (s s' : State) q n :
    isdone (st task s' q) = isdone (st task s q) -> acted task s' n q = acted task s n q ->
    (forall k, got task s' n q k = got task s n q k) -> sent s' q n = sent s q n.
  Proof. intros Hd Ha Hg. unfold sent. rewrite Hd, Ha, (complete_ext s s' n q Hg). reflexivity. Qed.

  Lemma complete_got (s : State) n p k : completeD s n p = true -> needsD n p k = true -> isSome (got task s n p k) = true.
  Proof.
    unfold complete. rewrite forallb_forall. intros H Hk. apply H. apply needed_in. assumption.
  Qed.
  Lemma complete_false (s : State) n p k : needsD n p k = true -> got task s n p k = None -> completeD s n p = false.
  Proof.
    intros Hk Hg. destruct (completeD s n p) eqn:E; [|reflexivity].
    pose proof (complete_got s n p k E Hk) as H. rewrite Hg in H. discriminate.
  Qed.

  Lemma sent_relay_false (s : State) p b : isdestD b p = true ->
    acted task s b p = false \/ (exists k, needsD b p k = true /\ got task s b p k = None) -> sent s p b = false.
  Proof.
    intros Hb H. unfold sent. rewrite (proj2 (Nat.eqb_neq b (rank_of p)) (isdest_ne b p Hb)).
    destruct H as [->|(k & Hk & Hg)]; [reflexivity|]. rewrite (complete_false s b p k Hk Hg). apply andb_false_r.
  Qed.

  (* j_act after a step on relay b of p, which had sent nothing before and may have after it: what it owes is act_owed *)
  Lemma act_owed_relay (s s' : State) p b : sent s p b = false ->
    (forall q d, In q tasks -> isdestD d q = true ->
       cnt (isAct q d) (net task s') + b2n (acted task s' d q) = b2n (sent s q (parent q d))) ->
    (forall q n, (n, q) <> (b, p) -> sent s' q n = sent s q n) ->
    act_owed s' p b.
  Proof.
    intros Hs Hj Hsent q d Hq Hd. rewrite (Hj q d Hq Hd).
    destruct (teqb p q && Nat.eqb (parent q d) b) eqn:E.
    - apply andb_true_iff in E. destruct E as [E1 E2]. apply teqb_true in E1. apply Nat.eqb_eq in E2. subst q.
      rewrite E2, Hs. reflexivity.
    - rewrite Hsent; [reflexivity|]. intros Heq. inversion Heq as [[H1 H2]]. rewrite H1, H2, teqb_refl, Nat.eqb_refl in E. discriminate.
  Qed.

  Lemma Inv2_same (s s' : State) : Inv2 s ->
    net task s' = net task s -> acted task s' = acted task s -> got task s' = got task s -> outv task s' = outv task s ->
    failed task s' = failed task s -> (forall q, isdone (st task s' q) = isdone (st task s q)) -> Inv2 s'.
  Proof.
    intros [Ja [Jd Jc Jp Jf]] Hn Ha Hg Ho Hf Hd. split; [|split].
    - intros p d Hp Hdd. rewrite Hn, Ha, (sent_ext s s' p (parent p d));
        [apply (Ja p d Hp Hdd)|apply Hd|rewrite Ha; reflexivity|intros k; rewrite Hg; reflexivity].
    - intros p d k Hp Hdd Hk. rewrite Hn, Ha, Hg. apply (Jd p d k Hp Hdd Hk).
    - intros d p. rewrite Ha. apply Jc.
    - intros pk Hin. rewrite Hn in Hin. apply (pk_ok_mono s s'); [|apply (Jp pk Hin)].
      intros n q j. unfold holds. rewrite Ho, Hg. auto.
    - rewrite Hf. exact Jf.
  Qed.

  Lemma Inv_startup (s : State) r : Inv s -> Inv (stepD s (Startup r)).
  Proof.
    intros [I J]. cbn [step]. set (g := fold_left (start_one task teq) _ (st task s)). set (s' := Build_state task g _ _ _ _ _ _ _).
    assert (Hg : forall x, g x = st task s x \/ (st task s x = Waiting 0 /\ g x = Ready)).
    { intros x. unfold g. rewrite fold_start. destruct (in_dec teq x _); [|left; reflexivity].
      destruct (st task s x) as [|[|n]| | |]; cbn [start1]; auto. }
    assert (Hd : forall q, isdone (st task s' q) = isdone (st task s q)).
    { intros q. cbn [st s']. destruct (Hg q) as [->|[H1 H2]]; [reflexivity|]. rewrite H1, H2. reflexivity. }
    assert (Hp : forall x, pending s' x = pending s x) by (intros x; apply pending_ext; [exact Hd|reflexivity]).
    split; [|apply (Inv2_same s); try reflexivity; assumption].
    split; cbn [st slot outv got log s'].
    - intros t Ht. destruct (Hg t) as [->|[H1 _]]; [apply (i_absent s I t Ht)|].
      rewrite (i_absent s I t Ht) in H1. discriminate.
    - intros t Ht. destruct (Hg t) as [->|[_ H2]]; [apply (i_present s I t Ht)|]. rewrite H2; discriminate.
    - intros t Ht. change (pending _ t) with (pending s' t). rewrite Hp. pose proof (i_count s I t Ht) as Hc.
      destruct (Hg t) as [->|[H1 H2]]; [exact Hc|]. rewrite H1 in Hc. rewrite H2. symmetry; exact Hc.
    - intros t e Ht He Hdel Hc. apply (i_slot s I t e Ht He); [|assumption].
      rewrite <- (delivered_ext s s' t e Hd eq_refl). exact Hdel.
    - intros p k Hp' Hdn. apply (i_outv s I p k Hp'). rewrite <- Hd. exact Hdn.
    - apply (i_got s I).
    - intros t. rewrite (i_begins s I t). destruct (Hg t) as [->|[H1 H2]]; [reflexivity|]. rewrite H1, H2. reflexivity.
    - intros t. rewrite (i_ends s I t). destruct (Hg t) as [->|[H1 H2]]; [reflexivity|]. rewrite H1, H2. reflexivity.
    - apply (i_logb s I).
    - apply (i_loge s I).
  Qed.

  Lemma Inv_begin (s : State) t : Inv s -> Inv (stepD s (Begin t)).
  Proof.
    intros [I J]. cbn [step]. destruct (st task s t) eqn:Et; try (split; assumption).
    set (s' := Build_state task _ _ _ _ _ _ _ _).
    assert (Htin : In t tasks) by (apply (st_in_tasks s t I); rewrite Et; discriminate).
    assert (Hd : forall q, isdone (st task s' q) = isdone (st task s q)).
    { intros q. cbn [st s']. destruct (teq q t) as [->|Hne]; [rewrite upd_same, Et; reflexivity|rewrite upd_other by assumption; reflexivity]. }
    assert (Hp : forall x, pending s' x = pending s x) by (intros x; apply pending_ext; [exact Hd|reflexivity]).
    split; [|apply (Inv2_same s); try reflexivity; assumption].
    split; cbn [st slot outv got log s'].
    - intros x Hx. rewrite upd_other; [apply (i_absent s I x Hx)|]. intros ->. contradiction.
    - intros x Hx. destruct (teq x t) as [->|Hne]; [rewrite upd_same; discriminate|].
      rewrite upd_other by assumption. apply (i_present s I x Hx).
    - intros x Hx. change (pending _ x) with (pending s' x). rewrite Hp. pose proof (i_count s I x Hx) as Hc.
      destruct (teq x t) as [->|Hne]; [rewrite upd_same; rewrite Et in Hc; exact Hc|].
      rewrite upd_other by assumption. exact Hc.
    - intros x e Hx He Hdel Hc. apply (i_slot s I x e Hx He); [|assumption].
      rewrite <- (delivered_ext s s' x e Hd eq_refl). exact Hdel.
    - intros p k Hp' Hdn. apply (i_outv s I p k Hp'). rewrite <- Hd. exact Hdn.
    - apply (i_got s I).
    - intros x. rewrite count_begins_cons_b, (i_begins s I x).
      destruct (teq t x) as [<-|Hne]; [rewrite upd_same, Et; reflexivity|].
      rewrite upd_other by congruence. reflexivity.
    - intros x. change (endsD (LBegin t (rank_of t) (map (invalD s t) (reads t)) :: log task s)) with (endsD (log task s)).
      rewrite (i_ends s I x).
      destruct (teq x t) as [->|Hne]; [rewrite upd_same, Et; reflexivity|].
      rewrite upd_other by assumption. reflexivity.
    - intros x r vs [H|H]; [|apply (i_logb s I x r vs H)]. inversion H; subst x r vs.
      split; [assumption|]. split; [reflexivity|]. apply map_ext_in. intros f Hf.
      apply inval_ref; [assumption|assumption| |apply (H_reads_data t f Htin Hf)].
      pose proof (i_count s I t Htin) as Hc. rewrite Et in Hc. exact Hc.
    - intros x r ovs [H|H]; [discriminate|apply (i_loge s I x r ovs H)].
  Qed.

  Lemma cnt_isAct_acts (s : State) n p q d : In p tasks ->
    cnt (isAct q d) (actsD s n p) = b2n (teqb p q && (isdestD d p && Nat.eqb (parent p d) n)).
  Proof.
    intros Hp. unfold acts. rewrite cnt_map. unfold isAct. cbn [p_dst p_body].
    destruct (teqb p q); cbn [andb]; [|apply cnt_zero; intros c _; apply andb_false_r].
    rewrite (cnt_ext _ (fun c => Nat.eqb c d)) by (intros c _; apply andb_true_r).
    destruct (isdestD d p && Nat.eqb (parent p d) n) eqn:E.
    - apply andb_true_iff in E. destruct E as [E1 E2]. apply Nat.eqb_eq in E2.
      apply (cnt_single _ _ d); [apply children_nodup|apply children_in; auto|apply Nat.eqb_refl|].
      intros y _ Hy. apply Nat.eqb_eq in Hy. assumption.
    - apply cnt_zero. intros c Hc. apply (children_in p n c Hp) in Hc. destruct Hc as [H1 H2].
      destruct (Nat.eqb c d) eqn:Ec; [|reflexivity]. apply Nat.eqb_eq in Ec. subst c.
      rewrite H1, H2, Nat.eqb_refl in E. discriminate.
  Qed.
  Lemma cnt_isGet_acts (s : State) n p p' d' k' : cnt (isGet p' d' k') (actsD s n p) = 0.
  Proof. unfold acts. rewrite cnt_map. apply cnt_zero. intros c _. unfold isGet. cbn [p_body]. apply andb_false_r. Qed.
  Lemma cnt_isPut_acts (s : State) n p p' d' k' : cnt (isPut p' d' k') (actsD s n p) = 0.
  Proof. unfold acts. rewrite cnt_map. apply cnt_zero. intros c _. unfold isPut. cbn [p_body]. apply andb_false_r. Qed.

  Lemma Inv2_send_acts (s : State) n p : In p tasks -> act_owed s p n -> Inv2r s -> sent s p n = true ->
    (forall pk, In pk (actsD s n p) -> pk_ok s pk) -> Inv2 (send task s (actsD s n p)).
  Proof.
    intros Hp Ho [Jd Jc Jp Jf] Hs Hok. split; [|split]; cbn [send net acted got failed].
    - intros q d Hq Hd. change (sent (send task s (actsD s n p)) q (parent q d)) with (sent s q (parent q d)).
      rewrite cnt_app, cnt_isAct_acts by assumption. pose proof (Ho q d Hq Hd) as Hj.
      destruct (teqb p q) eqn:E; cbn [andb b2n] in *; [|rewrite Nat.add_0_r; exact Hj].
      apply teqb_true in E. subst q. rewrite Hd. cbn [andb].
      destruct (Nat.eqb (parent p d) n) eqn:E2; cbn [b2n]; [|rewrite Nat.add_0_r; exact Hj].
      apply Nat.eqb_eq in E2. rewrite E2, Hs, Nat.add_shuffle0, Hj. reflexivity.
    - intros q d k Hq Hd Hk. rewrite !cnt_app, cnt_isGet_acts, cnt_isPut_acts, !Nat.add_0_r. apply (Jd q d k Hq Hd Hk).
    - exact Jc.
    - intros pk Hin. apply in_app_or in Hin. apply (pk_ok_mono s); [intros; assumption|].
      destruct Hin as [Hin|Hin]; [apply Jp|apply Hok]; exact Hin.
    - exact Jf.
  Qed.

  Lemma relay_acts_ok (s : State) b p pk : Inv1 s -> In p tasks -> isdestD b p = true -> completeD s b p = true ->
    In pk (actsD s b p) -> pk_ok s pk.
  Proof.
    intros I Hp Hb Hc Hin. pose proof (isdest_ne b p Hb) as Hne.
    assert (Hhold : forall j, holdsD s b p j = got task s b p j).
    { intros j. unfold holds. destruct (Nat.eqb b (rank_of p)) eqn:E; [apply Nat.eqb_eq in E; congruence|reflexivity]. }
    apply (acts_ok s b p pk Hp Hin).
    - intros j v. rewrite Hhold. intros H. apply (i_got s I b p j v H).
    - intros c j Hc1 Hc2 Hj. rewrite Hhold.
      destruct (H_relay_holds p c j Hp Hc1 Hj) as [H|H]; [congruence|]. rewrite Hc2 in H.
      pose proof (complete_got s b p j Hc H) as Hs. destruct (got task s b p j) as [x|] eqn:Eg; [|discriminate].
      destruct (i_got s I b p j x Eg) as [-> _]. reflexivity.
  Qed.

  Lemma Inv1_propagate (s : State) b p : Inv1 s -> Inv1 (propagateD b p s).
  Proof. intros I. unfold propagate. destruct (completeD s b p); [|exact I]. apply (Inv1_ext s); try reflexivity. exact I. Qed.

  (* parsec_remote_dep_propagate pays what an activated relay owes, once everything it consumes has arrived *)
  Lemma Inv2_propagate (s : State) b p : Inv1 s -> In p tasks -> isdestD b p = true -> acted task s b p = true ->
    act_owed s p b -> Inv2r s -> Inv2 (propagateD b p s).
  Proof.
    intros I Hp Hb Ha Ho Jr.
    assert (Hs : sent s p b = completeD s b p).
    { unfold sent. rewrite (proj2 (Nat.eqb_neq b (rank_of p)) (isdest_ne b p Hb)), Ha. reflexivity. }
    unfold propagate. destruct (completeD s b p) eqn:Ec.
    - apply Inv2_send_acts; try assumption. intros pk. apply relay_acts_ok; assumption.
    - split; [|exact Jr]. intros q d Hq Hd. rewrite (Ho q d Hq Hd).
      destruct (teqb p q && Nat.eqb (parent q d) b) eqn:E; [|reflexivity].
      apply andb_true_iff in E. destruct E as [E1 E2]. apply teqb_true in E1. apply Nat.eqb_eq in E2.
      subst q. rewrite E2, Hs. reflexivity.
  Qed.

  Lemma body_ext t k g g' : (forall f, isctl t f = false -> g f = g' f) -> In t tasks -> bodyD t k g = bodyD t k g'.
  Proof.
    intros H Ht. unfold body. destruct (isctl t k) eqn:Ec; [reflexivity|].
    destruct (writes t k); [|apply H; assumption]. f_equal. apply map_ext_in. intros f Hf.
    apply H. apply (H_reads_data t f Ht Hf).
  Qed.

  Lemma ov_ref (s : State) t k : Inv1 s -> In t tasks -> pending s t = 0 -> bodyD t k (invalD s t) = refout t k.
  Proof.
    intros I Ht Hp. rewrite (H_refout t k Ht). apply body_ext; [|assumption].
    intros f Hf. apply inval_ref; assumption.
  Qed.

  Lemma end_isdone (stm : task -> status) v slm t q :
    isdone (fst (release_edgesD (local_outsD t) v (updE stm t Done) slm) q) = if teq q t then true else isdone (stm q).
  Proof.
    rewrite release_edges_st, isdone_iter. destruct (teq q t) as [->|Hne]; [rewrite upd_same|rewrite upd_other by assumption]; reflexivity.
  Qed.

  Lemma Inv_end (s : State) t : Inv s -> Inv (stepD s (End t)).
  Proof.
    intros [I J]. cbn [step]. destruct (st task s t) eqn:Et; try (split; assumption).
    destruct J as [Ja [Jd Jc Jp Jf]].
    set (ov := fun k => bodyD t k (invalD s t)).
    set (r := release_edgesD (local_outsD t) ov (updE (st task s) t Done) (slot task s)).
    set (s1 := Build_state task (fst r) (snd r) _ _ _ _ _ _).
    assert (Htin : In t tasks) by (apply (st_in_tasks s t I); rewrite Et; discriminate).
    assert (Hpt : pending s t = 0) by (pose proof (i_count s I t Htin) as Hc; rewrite Et in Hc; exact Hc).
    assert (Hov : forall k, bodyD t k (invalD s t) = refout t k) by (intros k; apply ov_ref; assumption).
    assert (Hh : forall k, holdsD s1 (rank_of t) t k = Some (refout t k)).
    { intros k. unfold holds. rewrite Nat.eqb_refl. cbn [outv s1]. unfold updO.
      destruct (teq t t); [|congruence]. rewrite Hov. reflexivity. }
    assert (Hdn : forall q, isdone (st task s1 q) = if teq q t then true else isdone (st task s q)) by (intros q; apply end_isdone).
    (* the local successors are released as by an arrival: outs_to (rank_of t) t (fun _ => true) *)
    assert (I1 : Inv1 s1).
    { set (phi := fun _ : nat => true).
      assert (Hst : forall x, st task s1 x = Nat.iter (count_occ teq (map e_task (outs_to (rank_of t) t phi)) x) rel1 (updE (st task s) t Done x)).
      { intros x. apply release_edges_st. }
      (* the delivered predicate changes exactly on the edges from t of the tasks of its rank *)
      assert (Hhit : forall x e, hit (rank_of t) t phi x e = true -> delivered s x e = false /\ delivered s1 x e = true).
      { intros x e H. apply hit_iff in H. destruct H as (H1 & H2 & _).
        unfold delivered. rewrite H2, H1, Nat.eqb_refl, Et, Hdn. destruct (teq t t); [split; reflexivity|congruence]. }
      assert (Hnohit : forall x e, hit (rank_of t) t phi x e = false -> delivered s1 x e = delivered s x e).
      { intros x e H. unfold delivered. destruct (Nat.eqb (rank_of (e_task e)) (rank_of x)) eqn:E; [|reflexivity].
        rewrite Hdn. destruct (teq (e_task e) t) as [Heq|]; [|reflexivity].
        rewrite (proj2 (hit_iff _ t phi x e)) in H; [discriminate|]. apply Nat.eqb_eq in E. rewrite <- E, Heq. auto. }
      split.
      - intros x Hx. rewrite Hst, upd_other by (intros ->; contradiction). rewrite (i_absent s I x Hx). apply iter_absent.
      - intros x Hx. rewrite Hst. apply iter_present. destruct (teq x t) as [->|Hne]; [rewrite upd_same; discriminate|].
        rewrite upd_other by assumption. apply (i_present s I x Hx).
      - intros x Hx. rewrite Hst. apply (count_step _ (pending s x)).
        + destruct (teq x t) as [->|Hne]; [rewrite upd_same; exact Hpt|]. rewrite upd_other by assumption. apply (i_count s I x Hx).
        + rewrite (outs_to_count _ t phi x Htin Hx). apply pending_split; intros e _ H; [apply Hhit|apply Hnohit]; assumption.
      - intros x e Hx He Hdel Hc.
        change (slot task s1 x (e_flow e)) with (snd (release_edgesD (outs_to (rank_of t) t phi) ov (updE (st task s) t Done) (slot task s)) x (e_flow e)).
        rewrite outs_to_slot by assumption. destruct (hit (rank_of t) t phi x e) eqn:Eh.
        + apply hit_iff in Eh. destruct Eh as (_ & E2 & _). unfold ov. rewrite E2, Hov. reflexivity.
        + apply (i_slot s I x e Hx He); [|assumption]. rewrite <- (Hnohit x e Eh). assumption.
      - intros p k Hp Hd. cbn [outv s1]. unfold updO. rewrite Hdn in Hd. destruct (teq p t) as [->|Hne]; [rewrite Hov; reflexivity|].
        apply (i_outv s I p k Hp Hd).
      - apply (i_got s I).
      - intros x. change (beginsD (log task s1)) with (beginsD (log task s)). rewrite (i_begins s I x), Hst, iter_cat.
        destruct (teq x t) as [->|Hne]; [rewrite upd_same, Et; reflexivity|]. rewrite upd_other by assumption. reflexivity.
      - intros x. cbn [log s1]. rewrite count_ends_cons_e, (i_ends s I x), Hst, iter_cat_done.
        destruct (teq t x) as [<-|Hne]; [rewrite upd_same, Et; reflexivity|]. rewrite upd_other by congruence. reflexivity.
      - intros x rr vs [H|H]; [discriminate|apply (i_logb s I x rr vs H)].
      - intros x rr ovs [H|H]; [|apply (i_loge s I x rr ovs H)]. inversion H; subst x rr ovs.
        split; [assumption|]. split; [reflexivity|]. apply map_ext. intros k. rewrite Hov. reflexivity. }
    split; [apply (Inv1_ext s1); try reflexivity; exact I1|].
    apply Inv2_send_acts; [assumption| | | |].
    - (* t was running: the root had sent nothing *)
      intros q d Hq Hd. change (cnt (isAct q d) (net task s) + b2n (acted task s d q) = if teqb t q && Nat.eqb (parent q d) (rank_of t) then 0 else b2n (sent s1 q (parent q d))).
      rewrite (Ja q d Hq Hd). unfold sent.
      destruct (teq t q) as [<-|Hne].
      + rewrite teqb_refl. cbn [andb]. destruct (Nat.eqb (parent t d) (rank_of t)); [rewrite Et|]; reflexivity.
      + rewrite (proj2 (teqb_false t q) Hne), Hdn. destruct (teq q t); [congruence|reflexivity].
    - split; [exact Jd|exact Jc| |exact Jf].
      intros pk Hin. apply (pk_ok_mono s); [|apply (Jp pk Hin)].
      intros n q j. unfold holds. cbn [outv got s1]. unfold updO. destruct (Nat.eqb n (rank_of q)); [|auto].
      destruct (teq q t) as [->|]; [rewrite Hov; reflexivity|auto].
    - unfold sent. rewrite Nat.eqb_refl, Hdn. destruct (teq t t); congruence.
    - intros pk Hin. apply (acts_ok s1 (rank_of t) t pk Htin Hin).
      + intros k v. rewrite Hh. congruence.
      + intros c k _ _ _. apply Hh.
  Qed.

  Lemma set_net_Inv1 (s : State) l : Inv1 s -> Inv1 (set_net task s l).
  Proof. apply Inv1_ext; reflexivity. Qed.

  Lemma Inv_deliver_get (s : State) a b pk rest p k : Inv s ->
    take task a b (net task s) = Some (pk, rest) -> p_body task pk = Get p k -> Inv (stepD s (Deliver a b)).
  Proof.
    intros [I [Ja [Jd Jc Jp Jf]]] Ht Hb. cbn [step]. rewrite Ht, Hb.
    destruct (take_spec a b _ pk rest Ht) as (Hin & Hsrc & Hdst & Hcnt & Hsub).
    pose proof (Jp pk Hin) as Hok. unfold pk_ok in Hok. rewrite Hb, Hsrc, Hdst in Hok.
    destruct Hok as (Hp & Hda & Hpar & Hnk & Hh).
    change (holdsD (set_net task s rest) b p k) with (holdsD s b p k). rewrite Hh.
    split; [apply (Inv1_ext s); try reflexivity; assumption|].
    set (put := Build_packet task b a (Put p k (refout p k))).
    split; [|split]; cbn [send set_net net acted got failed].
    - intros q d Hq Hd. change (sent _ q (parent q d)) with (sent s q (parent q d)).
      assert (E1 : isAct q d pk = false) by (unfold isAct; rewrite Hb; apply andb_false_r).
      assert (E2 : isAct q d put = false) by (unfold isAct; cbn [p_body put]; apply andb_false_r).
      rewrite <- (Ja q d Hq Hd), (Hcnt (isAct q d)), cnt_app, cnt_cons, cnt_nil, E1, E2. cbn [b2n]. rewrite !Nat.add_0_r. reflexivity.
    - (* the PUT replaces the GET *)
      intros q d j Hq Hd Hj. rewrite <- (Jd q d j Hq Hd Hj), (Hcnt (isGet q d j)), (Hcnt (isPut q d j)), !cnt_app, !cnt_cons, !cnt_nil.
      assert (E1 : isPut q d j pk = false) by (unfold isPut; rewrite Hb; apply andb_false_r).
      assert (E2 : isGet q d j put = false) by (unfold isGet; cbn [p_body put]; apply andb_false_r).
      assert (E3 : isPut q d j put = isGet q d j pk) by (unfold isPut, isGet; rewrite Hb, Hsrc; reflexivity).
      rewrite E1, E2, E3. cbn [b2n]. rewrite !Nat.add_0_r, <- !Nat.add_assoc. f_equal. apply Nat.add_shuffle3.
    - exact Jc.
    - intros x Hx. apply in_app_or in Hx. destruct Hx as [Hx|[<-|[]]].
      + apply (pk_ok_mono s); [intros; assumption|]. apply (Jp x (Hsub x Hx)).
      + unfold pk_ok. cbn [p_body p_dst put]. auto.
    - exact Jf.
  Qed.

  Lemma arrive_holds d p k v (s : State) n q j : d <> rank_of p -> v = refout p k ->
    holdsD s n q j = Some (refout q j) -> holdsD (arriveD d p k v s) n q j = Some (refout q j).
  Proof.
    intros Hd Hv. unfold holds. cbn [arrive outv got]. destruct (Nat.eqb n (rank_of q)) eqn:E; [auto|].
    intros H. destruct (updG_cases (got task s) d p k (Some v) n q j) as [Heq| ->]; [|assumption].
    inversion Heq; subst n q j. rewrite updG_same, Hv. reflexivity.
  Qed.

  Lemma Inv_deliver_put (s : State) a b pk rest p k v : Inv s ->
    take task a b (net task s) = Some (pk, rest) -> p_body task pk = Put p k v -> Inv (stepD s (Deliver a b)).
  Proof.
    intros [I [Ja [Jd Jc Jp Jf]]] Ht Hb. cbn [step]. rewrite Ht, Hb.
    destruct (take_spec a b _ pk rest Ht) as (Hin & Hsrc & Hdst & Hcnt & Hsub).
    pose proof (Jp pk Hin) as Hok. unfold pk_ok in Hok. rewrite Hb, Hdst in Hok.
    destruct Hok as (Hp & Hdb & Hnk & Hv).
    pose proof (isdest_ne b p Hdb) as Hne.
    assert (Epk : isPut p b k pk = true).
    { unfold isPut. rewrite Hb, Hdst, Nat.eqb_refl, teqb_refl, Nat.eqb_refl. reflexivity. }
    (* before: the PUT is in flight, so b has been activated for p and output k has not arrived *)
    pose proof (Jd p b k Hp Hdb Hnk) as Hjd. rewrite (Hcnt (isPut p b k)), Epk in Hjd.
    assert (Hbefore : acted task s b p = true /\ got task s b p k = None).
    { clear -Hjd. destruct (acted task s b p), (got task s b p k); cbn [isSome b2n] in Hjd; split; reflexivity || lia. }
    destruct Hbefore as [Hacted Hgot].
    set (sA := arriveD b p k v (set_net task s rest)).
    assert (IA : Inv1 sA) by (apply Inv1_arrive; try assumption; apply set_net_Inv1; assumption).
    assert (HgA : forall d q j, (d, q, j) <> (b, p, k) -> got task sA d q j = got task s d q j).
    { intros d q j Hne'. apply updG_other. assumption. }
    split; [apply Inv1_propagate; exact IA|]. apply Inv2_propagate; try assumption.
    - apply (act_owed_relay s); [apply (sent_relay_false s p b Hdb); right; exists k; auto| |].
      + intros q d Hq Hd. change (net task sA) with rest. change (acted task sA) with (acted task s).
        rewrite <- (Ja q d Hq Hd), (Hcnt (isAct q d)). unfold isAct at 3. rewrite Hb, andb_false_r. cbn [b2n].
        rewrite Nat.add_0_r. reflexivity.
      + intros q n Hnq. apply sent_ext; [exact (arrive_isdone b p k v _ q)|reflexivity|]. intros j. apply HgA.
        intros Heq. apply Hnq. inversion Heq. reflexivity.
    - split; [|exact Jc| |exact Jf].
      + intros q d j Hq Hd Hj'. pose proof (Jd q d j Hq Hd Hj') as Hj.
        rewrite (Hcnt (isGet q d j)), (Hcnt (isPut q d j)) in Hj. unfold isGet at 2 in Hj. rewrite Hb, andb_false_r in Hj.
        change (net task sA) with rest. change (acted task sA) with (acted task s).
        destruct (isPut q d j pk) eqn:E2.
        * unfold isPut in E2. rewrite Hb, Hdst in E2. apply andb_true_iff in E2. destruct E2 as [E2 E3].
          apply andb_true_iff in E3. destruct E3 as [E3 E4]. apply Nat.eqb_eq in E2, E4. apply teqb_true in E3. subst d q j.
          change (got task sA b p k) with (updG task teq (got task s) b p k (Some v) b p k).
          rewrite updG_same. rewrite Hgot in Hj. clear -Hj. cbn [isSome b2n] in *. lia.
        * rewrite HgA; [clear -Hj; cbn [b2n] in Hj; lia|]. intros Heq. inversion Heq as [[Hx1 Hx2 Hx3]].
          rewrite Hx1, Hx2, Hx3, Epk in E2. discriminate.
      + intros x Hx. apply (pk_ok_mono s); [intros n q j H; apply arrive_holds; assumption|]. apply (Jp x (Hsub x Hx)).
  Qed.

  Definition arr_step (b : nat) (p : task) (pl : list (nat * option Z)) (s : State) (k : nat) : State :=
    match lookupD k pl with Some v => arriveD b p k v s | None => s end.

  Lemma arrivals b p pl : In p tasks -> b <> rank_of p -> (forall k v, lookupD k pl = Some v -> v = refout p k) ->
    forall l (s : State), NoDup l -> (forall k, In k l -> needsD b p k = true /\ got task s b p k = None) -> Inv1 s ->
    let s1 := fold_left (arr_step b p pl) l s in
    Inv1 s1 /\ acted task s1 = acted task s /\ net task s1 = net task s /\ failed task s1 = failed task s
    /\ (forall q, isdone (st task s1 q) = isdone (st task s q))
    /\ (forall k, In k l -> got task s1 b p k = lookupD k pl)
    /\ (forall d' q j, ~ (d' = b /\ q = p /\ In j l) -> got task s1 d' q j = got task s d' q j)
    /\ (forall n q j, holdsD s n q j = Some (refout q j) -> holdsD s1 n q j = Some (refout q j)).
  Proof.
    intros Hp Hb Hv. induction l as [|k l IH]; intros s Hnd Hl I.
    - cbn [fold_left]. split; [exact I|]. repeat (split; [reflexivity|]). split; [intros k []|]. split; intros; [reflexivity|assumption].
    - cbn [fold_left]. inversion Hnd as [|? ? Hk Hnd']; subst.
      set (s' := arr_step b p pl s k).
      assert (Hs' : Inv1 s' /\ acted task s' = acted task s /\ net task s' = net task s /\ failed task s' = failed task s
                    /\ (forall q, isdone (st task s' q) = isdone (st task s q))
                    /\ got task s' b p k = lookupD k pl
                    /\ (forall d' q j, (d', q, j) <> (b, p, k) -> got task s' d' q j = got task s d' q j)
                    /\ (forall n q j, holdsD s n q j = Some (refout q j) -> holdsD s' n q j = Some (refout q j))).
      { unfold s', arr_step. destruct (Hl k (or_introl eq_refl)) as [Hn Hg].
        destruct (lookupD k pl) as [v|] eqn:El.
        - split; [apply Inv1_arrive; auto|]. repeat (split; [reflexivity|]).
          split; [intros q; apply arrive_isdone|]. split; [cbn [arrive got]; apply updG_same|]. split.
          + intros d' q j Hne. cbn [arrive got]. apply updG_other. assumption.
          + intros n q j. apply arrive_holds; auto.
        - split; [exact I|]. repeat (split; [reflexivity|]). split; [exact Hg|]. split; intros; [reflexivity|assumption]. }
      destruct Hs' as (I' & Ha & Hn & Hf & Hd & Hgk & Hgo & Hh).
      destruct (IH s' Hnd') as (I1 & Ha1 & Hn1 & Hf1 & Hd1 & Hg1 & Hgo1 & Hh1); [|exact I'|].
      { intros j Hj. destruct (Hl j (or_intror Hj)) as [H1 H2]. split; [assumption|].
        rewrite Hgo; [assumption|]. intros Heq. inversion Heq. subst. contradiction. }
      cbv zeta in *. split; [exact I1|]. split; [congruence|]. split; [congruence|]. split; [congruence|].
      split; [intros q; rewrite Hd1; apply Hd|]. split; [|split].
      + intros j [<-|Hj]; [|apply Hg1; assumption]. rewrite Hgo1; [exact Hgk|]. intros (_ & _ & Hin). contradiction.
      + intros d' q j Hno. rewrite Hgo1 by (intros (H1 & H2 & H3); apply Hno; repeat split; auto; right; assumption).
        apply Hgo. intros Heq. inversion Heq. subst. apply Hno. repeat split. left; reflexivity.
      + intros n q j H. apply Hh1, Hh, H.
  Qed.

  Definition getsD (a b : nat) (p : task) (pl : list (nat * option Z)) (l : list nat) : list packet :=
    flat_map (fun k => match lookupD k pl with
                       | Some _ => []
                       | None => [Build_packet task b a (Get p k)] end) l.

  Lemma gets_in a b p pl l x : In x (getsD a b p pl l) ->
    exists k, In k l /\ lookupD k pl = None /\ x = Build_packet task b a (Get p k).
  Proof.
    unfold getsD. rewrite in_flat_map. intros (k & Hk & Hx). exists k. split; [assumption|].
    destruct (lookupD k pl); [destruct Hx|]. destruct Hx as [<-|[]]. split; reflexivity.
  Qed.
  Lemma cnt_isAct_gets a b p pl l p' d' : cnt (isAct p' d') (getsD a b p pl l) = 0.
  Proof.
    apply cnt_zero. intros x Hx. apply gets_in in Hx. destruct Hx as (k & _ & _ & ->).
    unfold isAct. cbn [p_body]. apply andb_false_r.
  Qed.
  Lemma cnt_isPut_gets a b p pl l p' d' k' : cnt (isPut p' d' k') (getsD a b p pl l) = 0.
  Proof.
    apply cnt_zero. intros x Hx. apply gets_in in Hx. destruct Hx as (k & _ & _ & ->).
    unfold isPut. cbn [p_body]. apply andb_false_r.
  Qed.
  Lemma cnt_isGet_gets a b p pl l p' d' k' : NoDup l ->
    cnt (isGet p' d' k') (getsD a b p pl l)
    = b2n (Nat.eqb b d' && teqb p p' && existsb (Nat.eqb k') l && negb (isSome (lookupD k' pl))).
  Proof.
    intros Hnd. induction Hnd as [|k l Hk Hnd IH].
    - cbn [getsD flat_map existsb]. rewrite andb_false_r. reflexivity.
    - unfold getsD in *. cbn [flat_map existsb]. rewrite cnt_app, IH.
      destruct (Nat.eqb k' k) eqn:E.
      + apply Nat.eqb_eq in E. subst k'.
        assert (Hex : existsb (Nat.eqb k) l = false).
        { destruct (existsb (Nat.eqb k) l) eqn:Ee; [|reflexivity]. apply existsb_exists in Ee. destruct Ee as (y & Hy & Hyk).
          apply Nat.eqb_eq in Hyk. subst y. contradiction. }
        rewrite Hex. cbn [orb]. rewrite !andb_false_r. cbn [andb b2n]. rewrite Nat.add_0_r.
        destruct (lookupD k pl); cbn [isSome negb]; [rewrite cnt_nil, andb_false_r; reflexivity|].
        rewrite cnt_cons, cnt_nil. unfold isGet. cbn [p_src p_body]. rewrite Nat.eqb_refl, !andb_true_r. rewrite Nat.add_0_r. reflexivity.
      + cbn [orb]. assert (Hz : cnt (isGet p' d' k') (match lookupD k pl with Some _ => [] | None => [Build_packet task b a (Get p k)] end) = 0).
        { destruct (lookupD k pl); [reflexivity|]. rewrite cnt_cons, cnt_nil. unfold isGet. cbn [p_src p_body].
          rewrite (Nat.eqb_sym k k'), E, !andb_false_r. reflexivity. }
        rewrite Hz. reflexivity.
  Qed.

  Lemma existsb_in k l : existsb (Nat.eqb k) l = true <-> In k l.
  Proof.
    rewrite existsb_exists. split; [intros (y & Hy & E); apply Nat.eqb_eq in E; subst; assumption|].
    intros H. exists k. split; [assumption|apply Nat.eqb_refl].
  Qed.

  Lemma Inv_deliver_act (s : State) a b pk rest p pl : Inv s ->
    take task a b (net task s) = Some (pk, rest) -> p_body task pk = Act p pl -> Inv (stepD s (Deliver a b)).
  Proof.
    intros [I [Ja [Jd Jc Jp Jf]]] Ht Hb. cbn [step]. rewrite Ht, Hb.
    destruct (take_spec a b _ pk rest Ht) as (Hin & Hsrc & Hdst & Hcnt & Hsub).
    pose proof (Jp pk Hin) as Hok. unfold pk_ok in Hok. rewrite Hb, Hdst, Hsrc in Hok.
    destruct Hok as (Hp & Hdb & Hpar & Hlv & Hhold).
    pose proof (isdest_ne b p Hdb) as Hne.
    assert (Eis : forall q d, isAct q d pk = Nat.eqb b d && teqb p q) by (intros q d; unfold isAct; rewrite Hb, Hdst; reflexivity).
    assert (Eat : forall q d, isAct q d pk = true -> d = b /\ q = p).
    { intros q d. rewrite Eis, andb_true_iff, Nat.eqb_eq, teqb_true. intros [<- <-]. split; reflexivity. }
    (* before: the activation is in flight, so b has not been activated and holds nothing of p *)
    assert (Hact0 : acted task s b p = false).
    { pose proof (Ja p b Hp Hdb) as Hja. rewrite (Hcnt (isAct p b)), Eis, Nat.eqb_refl, teqb_refl in Hja.
      clear -Hja. destruct (acted task s b p), (sent s p (parent p b)); cbn [andb b2n] in Hja; lia || reflexivity. }
    assert (Hgot0 : forall k, needsD b p k = true -> got task s b p k = None
                              /\ cnt (isGet p b k) rest = 0 /\ cnt (isPut p b k) rest = 0).
    { intros k Hk. pose proof (Jd p b k Hp Hdb Hk) as Hj.
      rewrite Hact0, (Hcnt (isGet p b k)), (Hcnt (isPut p b k)) in Hj. clear -Hj.
      destruct (got task s b p k); cbn [isSome b2n] in Hj; repeat split; lia. }
    set (s0 := set_net task s rest).
    unfold deliver_act. fold (arr_step b p pl). fold (getsD a b p pl (neededD b p)).
    destruct (arrivals b p pl Hp Hne Hlv (neededD b p) s0 (needed_nodup b p)) as (I1 & Ha1 & Hn1 & Hf1 & Hd1 & Hg1 & Hgo1 & Hmono).
    { intros k Hk. apply needed_in in Hk. split; [assumption|]. apply (Hgot0 k Hk). }
    { apply set_net_Inv1. assumption. }
    cbv zeta in *.
    set (s1 := fold_left (arr_step b p pl) (neededD b p) s0) in *.
    set (gets := getsD a b p pl (neededD b p)).
    set (s2 := Build_state task (st task s1) (slot task s1) (outv task s1) (updA task teq (acted task s1) b p true)
                           (got task s1) (net task s1 ++ gets) (failed task s1) (log task s1)).
    assert (I2 : Inv1 s2) by (apply (Inv1_ext s1); try reflexivity; exact I1).
    assert (Hact2 : forall d q, acted task s2 d q = if isAct q d pk then true else acted task s d q).
    { intros d q. cbn [acted s2]. rewrite Ha1. destruct (isAct q d pk) eqn:E.
      - destruct (Eat q d E) as [-> ->]. apply updA_same.
      - apply updA_other. intros Heq. inversion Heq; subst. rewrite Eis, Nat.eqb_refl, teqb_refl in E. discriminate. }
    assert (Hsent2 : forall q n, (n, q) <> (b, p) -> sent s2 q n = sent s q n).
    { intros q n Hnq. apply sent_ext; [apply Hd1| |intros j; apply Hgo1; intros (-> & -> & _); exact (Hnq eq_refl)].
      cbn [acted s2]. rewrite Ha1. apply updA_other. exact Hnq. }
    assert (Hnet2 : net task s2 = rest ++ gets) by (cbn [net s2]; rewrite Hn1; reflexivity).
    split; [apply Inv1_propagate; exact I2|].
    apply Inv2_propagate; [exact I2|exact Hp|exact Hdb|apply updA_same| |].
    - apply (act_owed_relay s); [apply (sent_relay_false s p b Hdb); left; exact Hact0| |exact Hsent2].
      (* the activation leaves the network and is recorded in acted *)
      intros q d Hq Hd. rewrite Hnet2, cnt_app. unfold gets.
      rewrite cnt_isAct_gets, Nat.add_0_r, Hact2, <- (Ja q d Hq Hd), (Hcnt (isAct q d)).
      destruct (isAct q d pk) eqn:E; [destruct (Eat q d E) as [-> ->]; rewrite Hact0|]; cbn [b2n]; rewrite Nat.add_0_r; reflexivity.
    - split.
      + intros q d j Hq Hd Hj'. pose proof (Jd q d j Hq Hd Hj') as Hj.
        rewrite (Hcnt (isGet q d j)), (Hcnt (isPut q d j)) in Hj. unfold isGet at 2, isPut at 2 in Hj. rewrite Hb, !andb_false_r in Hj.
        rewrite Hnet2, !cnt_app. unfold gets. rewrite cnt_isPut_gets, cnt_isGet_gets, <- Eis, Hact2 by apply needed_nodup.
        change (got task s2) with (got task s1). destruct (isAct q d pk) eqn:E; cbn [andb].
        * (* a GET for every output of p that b consumes and the activation did not embed *)
          destruct (Eat q d E) as [-> ->]. pose proof (proj2 (needed_in b p j) Hj') as Hjn.
          rewrite (Hg1 j Hjn), (proj2 (existsb_in j (neededD b p)) Hjn).
          destruct (Hgot0 j Hj') as (_ & -> & ->). clear. destruct (lookupD j pl); reflexivity.
        * rewrite Hgo1 by (intros (-> & -> & _); rewrite Eis, Nat.eqb_refl, teqb_refl in E; discriminate).
          change (got task s0) with (got task s). clear -Hj. cbn [b2n] in *. lia.
      + intros d q Hq. rewrite Hact2 in Hq. destruct (isAct q d pk) eqn:E; [|apply (Jc d q Hq)].
        destruct (Eat q d E) as [-> ->]. auto.
      + intros x Hx. rewrite Hnet2 in Hx. apply in_app_or in Hx. destruct Hx as [Hx|Hx].
        * apply (pk_ok_mono s); [exact Hmono|]. apply (Jp x (Hsub x Hx)).
        * apply gets_in in Hx. destruct Hx as (k & Hk & _ & ->). apply needed_in in Hk. unfold pk_ok. cbn [p_body p_src p_dst].
          split; [assumption|]. split; [assumption|]. split; [assumption|]. split; [assumption|].
          apply Hmono. apply Hhold. assumption.
      + cbn [failed s2]. rewrite Hf1. exact Jf.
  Qed.

  Lemma Inv1_init : Inv1 initD.
  Proof.
    split; cbn [init st slot outv got log]; intros.
    - destruct (in_dec teq t tasks); [contradiction|reflexivity].
    - destruct (in_dec teq t tasks); [discriminate|contradiction].
    - destruct (in_dec teq t tasks); [|contradiction].
      unfold pending, cnt. rewrite <- (filter_ext_in (fun _ => true)).
      + clear. induction (ins t) as [|a l IH]; cbn; congruence.
      + intros e _. unfold delivered. cbn [init st got].
        destruct (Nat.eqb (rank_of (e_task e)) (rank_of t)); [|reflexivity].
        destruct (in_dec teq (e_task e) tasks); reflexivity.
    - exfalso. unfold delivered in H1. cbn [init st got] in H1.
      destruct (Nat.eqb (rank_of (e_task e)) (rank_of t)); [|discriminate].
      destruct (in_dec teq (e_task e) tasks); discriminate.
    - exfalso. destruct (in_dec teq p tasks); discriminate.
    - discriminate.
    - cbn. destruct (in_dec teq t tasks); reflexivity.
    - cbn. destruct (in_dec teq t tasks); reflexivity.
    - destruct H.
    - destruct H.
  Qed.

  Lemma Inv2_init : Inv2 initD.
  Proof.
    split; [|split]; cbn [init net acted got failed]; try reflexivity.
    - intros p d _ _. unfold sent. cbn [init st acted]. rewrite cnt_nil.
      destruct (Nat.eqb (parent p d) (rank_of p)); [|reflexivity]. destruct (in_dec teq p tasks); reflexivity.
    - discriminate.
    - intros pk [].
  Qed.

  Lemma Inv_step (s : State) e : Inv s -> Inv (stepD s e).
  Proof.
    intros H. destruct e as [r|t|t|a b].
    - apply Inv_startup. assumption.
    - apply Inv_begin. assumption.
    - apply Inv_end. assumption.
    - destruct (take task a b (net task s)) as [[pk rest]|] eqn:Et.
      + destruct (p_body task pk) as [p pl|p k|p k v] eqn:Eb.
        * apply (Inv_deliver_act s a b pk rest p pl H Et Eb).
        * apply (Inv_deliver_get s a b pk rest p k H Et Eb).
        * apply (Inv_deliver_put s a b pk rest p k v H Et Eb).
      + cbn [step]. rewrite Et. assumption.
  Qed.

  Theorem Inv_run (evs : list (event task)) : Inv (runD evs).
  Proof. unfold run. apply fold_left_inv; [intros a b; apply Inv_step|]. split; [apply Inv1_init|apply Inv2_init]. Qed.

  Theorem dist_begins_once evs : NoDup (beginsD (log task (runD evs))).
  Proof.
    destruct (Inv_run evs) as [I _]. apply (NoDup_count_occ teq). intros t. rewrite (i_begins _ I t).
    destruct (st task (runD evs) t); lia.
  Qed.

  Theorem dist_begin_on_owner evs t r vs : In (LBegin t r vs) (log task (runD evs)) ->
    In t tasks /\ r = rank_of t /\ vs = map (refin t) (reads t).
  Proof. destruct (Inv_run evs) as [I _]. apply (i_logb _ I). Qed.

  Theorem dist_end_values evs t r ovs : In (LEnd t r ovs) (log task (runD evs)) ->
    In t tasks /\ r = rank_of t /\ ovs = map (fun k => (k, refout t k)) (wlist t).
  Proof. destruct (Inv_run evs) as [I _]. apply (i_loge _ I). Qed.

  Theorem dist_no_failure evs : failed task (runD evs) = false.
  Proof. destruct (Inv_run evs) as [_ J]. apply (j_failed _ (j_rest _ J)). Qed.

  Theorem dist_received_values evs d p k v : got task (runD evs) d p k = Some v -> v = refout p k.
  Proof. destruct (Inv_run evs) as [I _]. intros H. apply (i_got _ I d p k v H). Qed.

  (* with no message in flight, the completion of p has reached every destination rank: induction on its depth in the tree *)
  Lemma empty_net_reached (s : State) p : Inv s -> net task s = [] -> In p tasks -> isdone (st task s p) = true ->
    forall n d, depth p d < n -> isdestD d p = true -> acted task s d p = true /\ completeD s d p = true.
  Proof.
    intros [I J] Hn Hp Hd. induction n as [|n IH]; intros d Hlt Hdd; [lia|].
    destruct (H_tree p d Hp Hdd) as [Hpar Hdep].
    assert (Hs : sent s p (parent p d) = true).
    { unfold sent. destruct (Nat.eqb (parent p d) (rank_of p)) eqn:E; [assumption|].
      destruct Hpar as [Hpar|Hpar]; [apply Nat.eqb_neq in E; contradiction|].
      destruct (IH (parent p d)) as [H1 H2]; [lia|assumption|]. rewrite H1, H2. reflexivity. }
    pose proof (j_act s J p d Hp Hdd) as Hj. rewrite Hn, cnt_nil, Hs in Hj. cbn [b2n] in Hj.
    assert (Ha : acted task s d p = true) by (destruct (acted task s d p); [reflexivity|discriminate]).
    split; [assumption|]. unfold complete. apply forallb_forall. intros k Hk. apply needed_in in Hk.
    pose proof (j_data s (j_rest s J) p d k Hp Hdd Hk) as Hj2. rewrite Hn, !cnt_nil, Ha in Hj2. cbn [b2n] in Hj2.
    destruct (got task s d p k); [reflexivity|discriminate].
  Qed.

  Lemma quiescent_done_by_rank (s : State) : Inv s -> quiescent task tasks s ->
    forall n t, In t tasks -> drank t < n -> st task s t = Done.
  Proof.
    intros HI [Hn Q] n. destruct HI as [I J]. induction n as [|n IH]; intros t Ht Hr; [lia|].
    assert (Hp : pending s t = 0).
    { unfold pending. apply cnt_zero. intros e He. apply negb_false_iff.
      pose proof (H_pred_in t e Ht He) as Hq. pose proof (H_drank t e Ht He) as Hlt.
      assert (Hdq : st task s (e_task e) = Done) by (apply IH; [assumption|lia]).
      unfold delivered. destruct (Nat.eqb (rank_of (e_task e)) (rank_of t)) eqn:E; [rewrite Hdq; reflexivity|].
      apply Nat.eqb_neq in E.
      destruct e as [[f q] k]. unfold DistEngine.e_task, DistEngine.e_oflow in *. cbn [fst snd] in *.
      pose proof (in_out q t f k Hq Ht He) as Ho.
      assert (Hnk : needsD (rank_of t) q k = true) by (apply needs_iff; exists (k, t, f); auto).
      assert (Hdd : isdestD (rank_of t) q = true) by (apply (needs_isdest _ _ k); auto).
      destruct (empty_net_reached s q (conj I J) Hn Hq) with (n := S (depth q (rank_of t))) (d := rank_of t) as [_ Hc];
        [rewrite Hdq; reflexivity|lia|assumption|].
      apply (complete_got s _ _ _ Hc Hnk). }
    pose proof (i_count s I t Ht) as Hc. pose proof (i_present s I t Ht) as Hpr.
    destruct (Q t Ht) as (Q1 & Q2 & Q3).
    destruct (st task s t) as [|k| | |]; try contradiction; try reflexivity.
    exfalso. apply Q3. f_equal. lia.
  Qed.

  (* no lost activation: nothing enabled and no message in flight => every task is done *)
  Theorem dist_quiescent_all_done evs : quiescent task tasks (runD evs) ->
    forall t, In t tasks -> st task (runD evs) t = Done.
  Proof. intros Q t Ht. apply (quiescent_done_by_rank _ (Inv_run evs) Q (S (drank t)) t Ht). lia. Qed.

  Theorem dist_only_tasks_begin evs t : In t (beginsD (log task (runD evs))) -> In t tasks.
  Proof.
    destruct (Inv_run evs) as [I _]. intros H. apply (count_occ_In teq) in H. rewrite (i_begins _ I t) in H.
    destruct (in_dec teq t tasks) as [Hi|Hi]; [assumption|]. rewrite (i_absent _ I t Hi) in H. lia.
  Qed.

  Theorem dist_quiescent_executed_once evs : NoDup tasks -> quiescent task tasks (runD evs) ->
    Permutation (beginsD (log task (runD evs))) tasks.
  Proof.
    intros Hnd Q. apply NoDup_Permutation; [apply dist_begins_once|assumption|].
    intros t. split; [apply dist_only_tasks_begin|].
    intros Ht. destruct (Inv_run evs) as [I _]. apply (count_occ_In teq). rewrite (i_begins _ I t).
    rewrite (dist_quiescent_all_done evs Q t Ht). lia.
  Qed.

  Theorem dist_quiescent_outputs evs : quiescent task tasks (runD evs) ->
    forall t k, In t tasks -> outv task (runD evs) t k = Some (refout t k).
  Proof.
    intros Q t k Ht. destruct (Inv_run evs) as [I _]. apply (i_outv _ I t k Ht).
    rewrite (dist_quiescent_all_done evs Q t Ht). reflexivity.
  Qed.
End DistProofs.
