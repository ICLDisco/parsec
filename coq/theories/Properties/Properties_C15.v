(* C15 — Composed taskpools run strictly one after another.
   The statements of C15, each derived in a few lines from Compound/CompoundRefine.v (the model
   of compound.c follows a three-number abstract machine on every event) and
   Compound/CompoundProofs.v; the longer proofs are in those files.

   [run pre sizes evs] is the state of the model of parsec/compound.c (CompoundDefs.v)
   after ANY list of events [evs] (add the compound, run / release a startup task,
   begin / end a task: an event that is not enabled changes nothing, so every
   interleaving of any number of threads is such a list) on a compound of
   [length sizes] >= 1 member taskpools with [nth k sizes 0] tasks each.  [log] is the
   history, most recent entry first:  log = l2 ++ e :: l1  says that e happened
   after everything in l1.  [pre] = false is the code as it is, true the repaired
   constructor (see Compound/CompoundCode.v).

   Full statement of the property: no task of a later member starts before every task
   of the earlier ones completed (C15_sequential, both versions); the compound
   completes exactly once (C15_nothing_twice, C15_all_exactly_once) after the last
   member: proved for the repaired constructor (C15_compound_after_last_fixed) and
   REFUTED for the code as it is (C15_compound_completion_refuted,
   C15_code_compound_reported_at_add: the report is the first thing that happens). *)
From PV Require Import Base.Tac Compound.CompoundDefs Compound.CompoundAbs Compound.CompoundProofs Compound.CompoundBare Compound.CompoundTree Compound.CompoundExplore.
Local Open Scope nat_scope.

Lemma nonempty_len (sizes : list nat) : sizes <> [] -> 0 < length sizes.
Proof. destruct sizes; [congruence|cbn; lia]. Qed.

(* a task of member k starts only after member k was handed to the context and EVERY
   task of EVERY earlier member ended; any n, any sizes, any schedule, both constructors *)
Theorem C15_sequential : forall pre sizes evs l1 l2 k i, sizes <> [] ->
  log (run pre sizes evs) = l2 ++ LBegin k i :: l1 ->
  In (LEnq k) l1 /\
  forall k' i', k' < k -> i' < nth k' sizes 0 -> In (LEnd k' i') l1.
Proof. intros pre sizes evs l1 l2 k i H. exact (run_entry_ok pre sizes (nonempty_len _ H) evs l1 l2 (LBegin k i)). Qed.
Print Assumptions C15_sequential.

(* member k is enabled (parsec_context_add_taskpool) only after every task of every
   earlier member ended *)
Theorem C15_enabled_after_previous : forall pre sizes evs l1 l2 k, sizes <> [] ->
  log (run pre sizes evs) = l2 ++ LEnq k :: l1 ->
  forall k' i', k' < k -> i' < nth k' sizes 0 -> In (LEnd k' i') l1.
Proof. intros pre sizes evs l1 l2 k H. exact (run_entry_ok pre sizes (nonempty_len _ H) evs l1 l2 (LEnq k)). Qed.
Print Assumptions C15_enabled_after_previous.

(* a member's completion callback (which enables the next member) runs after all its tasks *)
Theorem C15_member_callback_after_its_tasks : forall pre sizes evs l1 l2 k, sizes <> [] ->
  log (run pre sizes evs) = l2 ++ LPoolCb k :: l1 ->
  In (LEnq k) l1 /\ forall i, i < nth k sizes 0 -> In (LEnd k i) l1.
Proof. intros pre sizes evs l1 l2 k H. exact (run_entry_ok pre sizes (nonempty_len _ H) evs l1 l2 (LPoolCb k)). Qed.
Print Assumptions C15_member_callback_after_its_tasks.

(* nothing happens twice: no task begins or ends twice, no member is enabled twice, no
   member callback runs twice, the compound is not reported twice *)
Theorem C15_nothing_twice : forall pre sizes evs x, sizes <> [] ->
  lcount x (log (run pre sizes evs)) <= 1.
Proof. intros pre sizes evs x H. exact (P_at_most_once pre sizes (nonempty_len _ H) evs x). Qed.
Print Assumptions C15_nothing_twice.

(* once the last member's callback has run everything happened exactly once *)
Theorem C15_all_exactly_once : forall pre sizes evs, sizes <> [] ->
  c_done (run pre sizes evs) = length sizes ->
  let lg := log (run pre sizes evs) in
  lcount LCompound lg = 1 /\
  (forall k, k < length sizes -> lcount (LEnq k) lg = 1 /\ lcount (LPoolCb k) lg = 1 /\
     (forall i, i < nth k sizes 0 -> lcount (LBegin k i) lg = 1 /\ lcount (LEnd k i) lg = 1)).
Proof. intros pre sizes evs H. exact (P_complete pre sizes (nonempty_len _ H) evs). Qed.
Print Assumptions C15_all_exactly_once.

(* and that point is always reached: a run that is not complete has an event that makes
   progress, every event either changes nothing or increases the progress measure [pm]
   (4 x length of the history + startup stage of the current member + 1 once added) *)
Theorem C15_no_stuck : forall pre sizes evs, sizes <> [] ->
  let s := run pre sizes evs in
  c_done s = length sizes \/ exists e, pm s < pm (step s e).
Proof. intros pre sizes evs H. exact (P_progress pre sizes (nonempty_len _ H) evs). Qed.
Print Assumptions C15_no_stuck.

Theorem C15_steps_monotone : forall pre sizes evs e, sizes <> [] ->
  let s := run pre sizes evs in step s e = s \/ pm s < pm (step s e).
Proof. intros pre sizes evs e H. exact (P_step_monotone pre sizes (nonempty_len _ H) evs e). Qed.
Print Assumptions C15_steps_monotone.

(* the context's counter: once the compound was added, active_taskpools is never negative
   at an event boundary and is 0 exactly when the last member completed *)
Theorem C15_active_taskpools : forall pre sizes evs, sizes <> [] ->
  c_added (run pre sizes evs) = true ->
  (active (run pre sizes evs) = 0%Z <-> c_done (run pre sizes evs) = length sizes) /\
  (0 <= active (run pre sizes evs))%Z.
Proof. intros pre sizes evs H. exact (P_active pre sizes (nonempty_len _ H) evs). Qed.
Print Assumptions C15_active_taskpools.

(* REPAIRED constructor: the compound is reported terminated (its completion callback runs,
   parsec_taskpool_wait(compound) may return) only after every member was enabled, ran
   all its tasks and completed; and it is reported exactly when the last one completed *)
Theorem C15_compound_after_last_fixed : forall sizes evs l1 l2, sizes <> [] ->
  log (run true sizes evs) = l2 ++ LCompound :: l1 ->
  forall k, k < length sizes ->
    In (LEnq k) l1 /\ In (LPoolCb k) l1 /\ forall i, i < nth k sizes 0 -> In (LEnd k i) l1.
Proof. intros sizes evs l1 l2 H. exact (run_entry_ok true sizes (nonempty_len _ H) evs l1 l2 LCompound). Qed.
Print Assumptions C15_compound_after_last_fixed.

Theorem C15_compound_exactly_at_end_fixed : forall sizes evs, sizes <> [] ->
  c_added (run true sizes evs) = true ->
  (lcount LCompound (log (run true sizes evs)) = 1 <-> c_done (run true sizes evs) = length sizes) /\
  (lcount LCompound (log (run true sizes evs)) = 0 <-> c_done (run true sizes evs) < length sizes).
Proof. intros sizes evs H. exact (P_compound_iff_done true sizes (nonempty_len _ H) evs eq_refl). Qed.
Print Assumptions C15_compound_exactly_at_end_fixed.

(* THE CODE AS IT IS: as soon as the compound is added its termination has been reported,
   before anything else: the report is the oldest entry of the history, for every
   composition and every schedule *)
Theorem C15_code_compound_reported_at_add : forall sizes evs, sizes <> [] ->
  c_added (run false sizes evs) = true ->
  exists l, log (run false sizes evs) = l ++ [LCompound].
Proof. intros sizes evs H. exact (P_compound_at_add false sizes (nonempty_len _ H) evs eq_refl). Qed.
Print Assumptions C15_code_compound_reported_at_add.

(* hence the full statement is false of the code as it is: two members of one task, the
   compound is reported before the first task begins (replayed on the real library by
   checks/C15.py: signature compound-completes-at-add) *)
Theorem C15_compound_completion_refuted :
  exists sizes evs l1 l2, sizes <> [] /\
    log (run false sizes evs) = l2 ++ LCompound :: l1 /\
    ~ (forall k, k < length sizes -> forall i, i < nth k sizes 0 -> In (LEnd k i) l1).
Proof.
  exists [1; 1], [EAdd; EStartup 0; EBegin 0 0; EEnd 0 0], [],
         [LEnd 0 0; LBegin 0 0; LEnq 0].
  split; [discriminate|]. split; [vm_compute; reflexivity|].
  intros H. exact (H 0 (Nat.lt_0_succ _) 0 (Nat.lt_0_succ _)).
Qed.
Print Assumptions C15_compound_completion_refuted.

(* Members with no local work at all (a bare parsec_taskpool_t: no detector of its own, no
   startup hook, no pending action) terminate INSIDE parsec_context_add_taskpool, which runs
   parsec_composed_taskpool_cb re-entrantly.  The executable model that is run against the code
   (CompoundDefs.stepB / runB: members are [Some size] or [None] = bare) mirrors that recursion;
   it is the model of the theorems above whenever no member is bare.  The theorems do NOT
   quantify over compositions with bare members: those are tied to the code by the differential
   run and the oracle only (checks/C15.py, corpus/C15).
   EXACTLY WHAT REMAINS for bare members (nothing is assumed, it is simply not proved):
     (a) the chain lemma: on a state whose members >= k are untouched, [add_member bare fuel k]
         (fuel >= number of members) processes the maximal run k .. d'-1 of bare members — each
         gets cb = 1, enq = 1, TERMINATED, completed_taskpools and the compound's pending actions
         move by d'-k, the log grows by LPoolCb k .. LPoolCb (d'-1), then LEnq d' (or LCompound when
         d' is past the end, repaired constructor), then LEnq (d'-1) .. LEnq k — by induction on fuel;
     (b) CompoundAbs.advance / conc generalised to skip such runs (finished and untouched pool
         records depend on the member kind), CompoundRefine.step_conc re-proved with (a) in
         detected_advance and step_add;
     (c) CompoundProofs.advance_inv by induction over the run, with entry_ok weakened where a bare
         member's on_enqueue comes late: the clause In (LEnq k) of C15_member_callback_after_its_tasks
         and of C15_compound_after_last_fixed holds for non-bare k only.
   Statements expected unchanged: C15_sequential, C15_enabled_after_previous, C15_nothing_twice,
   C15_all_exactly_once, C15_no_stuck, C15_steps_monotone, C15_active_taskpools. *)
Theorem C15_model_with_bare_members_conservative : forall pre sizes evs,
  runB pre (map Some sizes) evs = run pre sizes evs.
Proof.
  intros pre sizes evs. unfold runB, run.
  assert (Hi : initB pre (map Some sizes) = init pre sizes).
  { unfold initB, init. rewrite map_map. reflexivity. }
  rewrite Hi. generalize (init pre sizes). induction evs as [|e evs IH]; intros s; cbn [fold_left]; [reflexivity|].
  rewrite stepB_nobare by apply bare_of_some. apply IH.
Qed.
Print Assumptions C15_model_with_bare_members_conservative.

(* A ; E ; B with E bare (the composition of seeded/C15a): adding the compound runs nothing of B
   before A ended; when A's last task ends, E completes inside the callback of A and B is enabled
   by the callback of E; everything exactly once, the compound last *)
Example C15_example_bare_member :
  let ms := [Some 1; None; Some 1] in
  let s := runB true ms [EAdd; EStartup 0; EBegin 0 0; EStartupDone 0; EEnd 0 0; EStartup 2; EStartupDone 2; EBegin 2 0; EEnd 2 0] in
  c_done s = 3 /\ enqs s = [1; 1; 1] /\ ran s = [1; 0; 1] /\ c_cb s = 1 /\ active s = 0%Z /\
  seq_okB (bare_of ms) s = true /\ compound_lastB (bare_of ms) s = true /\
  rev (log s) = [LEnq 0; LBegin 0 0; LEnd 0 0; LPoolCb 0; LPoolCb 1; LEnq 2; LEnq 1; LBegin 2 0; LEnd 2 0; LPoolCb 2; LCompound].
Proof. vm_compute. repeat split. Qed.

(* NESTED compositions: an element of a compound may itself be a compound ([A,[B,C],D] =
   parsec_compose(parsec_compose(A, parsec_compose(B, C)), D)).  CompoundTree.v gives them an
   executable model (every compound node has its own detector, pending actions and
   completed_taskpools; parsec_composed_taskpool_cb runs with the enclosing compound as cbdata, up
   through every ancestor that finishes with this element; adding a nested compound runs its
   startup hook down to its first leaf).  The members are the leaves in order ([flatten]).
   PROVED: nothing general about trees.  The statement wanted — the history (enqueues, begins, ends,
   member callbacks, completion of the OUTER compound) of a nested composition under any event list
   equals that of the list semantics of its flattening under the same event list, so that all the
   theorems above transfer — is only CHECKED: exhaustively over all interleavings for the small
   trees below ([nested_equals_flat_everywhere] follows every effective event from every reachable
   pair of states), by ocaml/d_compound.ml on every generated nested case, and against the real
   library by the differential run.  What a proof needs: the tree model refines the same abstract
   machine (CompoundAbs) over [flatten t], with an advance lemma by induction on the path from the
   finished leaf up to the first ancestor that has an element left and down to that element's
   first leaf. *)
Example C15_nested_equals_flat_A_BC_D :
  nested_equals_flat_everywhere (CNode [CLeaf (Some 1); CNode [CLeaf (Some 1); CLeaf (Some 1)]; CLeaf (Some 1)]) = true.
Proof. apply nested_equals_flat_closed_sound. vm_compute. reflexivity. Qed.
Example C15_nested_equals_flat_depth3_with_bare :
  nested_equals_flat_everywhere
    (CNode [CLeaf None; CLeaf (Some 1); CNode [CLeaf (Some 2); CNode [CLeaf (Some 1); CLeaf (Some 0)]]; CNode [CLeaf (Some 1); CLeaf None]]) = true.
Proof. apply nested_equals_flat_closed_sound. vm_compute. reflexivity. Qed.
Example C15_nested_history :
  let t := CNode [CLeaf (Some 1); CNode [CLeaf (Some 1); CLeaf (Some 1)]; CLeaf (Some 0)] in
  flatten t = [Some 1; Some 1; Some 1; Some 0] /\
  rev (log (t_s (runT true t [EAdd; EStartup 0; EBegin 0 0; EStartupDone 0; EEnd 0 0; EStartup 1; EStartupDone 1; EBegin 1 0; EEnd 1 0;
                              EStartup 2; EBegin 2 0; EEnd 2 0; EStartupDone 2; EStartup 3; EStartupDone 3]))) =
  [LEnq 0; LBegin 0 0; LEnd 0 0; LPoolCb 0; LEnq 1; LBegin 1 0; LEnd 1 0; LPoolCb 1; LEnq 2; LBegin 2 0; LEnd 2 0; LPoolCb 2;
   LEnq 3; LPoolCb 3; LCompound].
Proof. vm_compute. split; reflexivity. Qed.

(* non-vacuity: a compound of three members (2, 0 and 1 tasks) runs to completion under
   an interleaved schedule, with both constructors *)
Definition ex_evs : list event :=
  [EAdd; EStartup 0; EBegin 0 1; EBegin 0 0; EStartupDone 0; EEnd 0 0; EEnd 0 1;
   EStartup 1; EStartupDone 1; EStartup 2; EBegin 2 0; EEnd 2 0; EStartupDone 2].
Example C15_example_fixed :
  c_done (run true [2; 0; 1] ex_evs) = 3 /\ seq_ok (run true [2; 0; 1] ex_evs) = true /\
  compound_last (run true [2; 0; 1] ex_evs) = true /\ active (run true [2; 0; 1] ex_evs) = 0%Z /\
  ran (run true [2; 0; 1] ex_evs) = [2; 0; 1].
Proof. vm_compute. repeat split. Qed.
Example C15_example_code :
  c_done (run false [2; 0; 1] ex_evs) = 3 /\ seq_ok (run false [2; 0; 1] ex_evs) = true /\
  compound_last (run false [2; 0; 1] ex_evs) = false /\ c_cb (run false [2; 0; 1] ex_evs) = 1.
Proof. vm_compute. repeat split. Qed.
