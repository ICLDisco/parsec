(* C11 — Four-counter distributed termination is safe and live.
   The statements of C11, each derived in a few lines from the theorems of
   Term4C/*.v; the longer proofs are in those files.  The model (Term4C/Term4CDefs.v):
   N monitors of termdet_fourcounter_module.c on the module's binary tree
   (parent (i-1)/2), control messages in a network with per-pair FIFO order and
   the module's delayed list, application messages in flight as counters, one
   step = one call into the module, a schedule = any list of choices
   (choices that are not enabled do nothing). *)
From PV Require Import Base.Tac Term4C.Term4CDefs Term4C.Term4CBase Term4C.Term4CMicro Term4C.Term4CInv
  Term4C.Term4CProofs Term4C.Term4CLive Term4C.Term4CBound Term4C.Term4CCount.
Local Open Scope Z_scope.

(* SAFETY, every N >= 1, every schedule: as soon as one process is TERMINATED,
   every process is idle (IDLE_* or TERMINATED, no task, no pending action), no
   application message is in flight or being received, and as many messages
   have been counted received as sent. *)
Theorem C11_safety : forall N sched, (1 <= N)%nat ->
  let c := run (init N) sched in
  (exists i, (i < N)%nat /\ st (P c i) = TERM) ->
  (forall j, (j < N)%nat -> quiet_p (P c j)) /\ total_sent c = total_recv c /\ total_flight c = 0.
Proof. exact safety. Qed.
Print Assumptions C11_safety.

(* termination is announced only to processes that wait for it: a DOWN message
   that exists (in the network or delayed) is addressed to a process in
   *_WAITING_FOR_PARENT, and DOWN(true) to an idle one *)
Theorem C11_down_only_to_waiting : forall N sched s j b, (1 <= N)%nat ->
  let c := run (init N) sched in
  In (s, j, DOWN b) (net c ++ dlyq c) ->
  (j < N)%nat /\ (st (P c j) = BWP \/ st (P c j) = IWP) /\ (b = true -> st (P c j) = IWP).
Proof. exact down_only_to_waiting. Qed.
Print Assumptions C11_down_only_to_waiting.

(* the termination callback of a process has run exactly once if it is TERMINATED, never otherwise *)
Theorem C11_callback_at_most_once : forall N sched i, (1 <= N)%nat -> (i < N)%nat ->
  let c := run (init N) sched in cbs (P c i) = (if is_term (P c i) then 1 else 0).
Proof.
  intros N sched i HN Hi c. destruct (reach_inv N c HN) as (HNP & g & HI); [exists sched; reflexivity|].
  destruct (loc_ok_P c g i HI ltac:(lia)) as (_ & _ & _ & _ & _ & Hc). rewrite Hc. unfold cls, is_term. destruct (st (P c i)); reflexivity.
Qed.
Print Assumptions C11_callback_at_most_once.

(* messages_sent / messages_received never decrease, whatever the configuration *)
Theorem C11_counters_monotone : forall c a j,
  sent (P c j) <= sent (P (step c a) j) /\ recv (P c j) <= recv (P (step c a) j).
Proof. intros c a j. apply msteps_monotone, step_msteps. Qed.
Print Assumptions C11_counters_monotone.

(* sent = received + in flight (or being received), always *)
Theorem C11_conservation : forall N sched, (1 <= N)%nat ->
  let c := run (init N) sched in total_sent c = total_recv c + total_flight c.
Proof. exact conservation. Qed.
Print Assumptions C11_conservation.

(* the topology functions of the module form a tree over 0..N-1 rooted at 0, for every N *)
Theorem C11_tree_wf : forall N,
  (forall k, (0 < k < N)%nat -> (parent k < k)%nat /\ In k (children N (parent k))) /\
  (forall i k, In k (children N i) -> parent k = i /\ (0 < k < N)%nat /\ (i < k)%nat) /\
  (forall i, NoDup (children N i)).
Proof.
  intros N. split; [|split].
  - intros k Hk. split; [apply parent_lt; lia|apply ch_spec; lia].
  - intros i k Hk. apply ch_spec in Hk. pose proof (parent_lt k). lia.
  - apply ch_nodup.
Qed.
Print Assumptions C11_tree_wf.

(* LIVENESS, every N >= 1.  [quiescent N c]: every process is idle (IDLE_* or
   TERMINATED, no task, no pending action) and no application message is in
   flight or being received.  [deliveries c l]: l is a list of choices each of
   which hands over a control message that is in the network at that moment.
   [lbound N c] = 32 N + 15 + 2 |net c| + |dlyq c| (three decisions of the root
   and the messages already there). *)

(* global quiescence persists under every schedule *)
Theorem C11_quiescence_stable : forall N c sched, (1 <= N)%nat -> reach N c -> quiescent N c -> quiescent N (run c sched).
Proof. exact quiescence_stable. Qed.
Print Assumptions C11_quiescence_stable.

(* no deadlock: quiescent, nothing left to deliver => everybody has terminated *)
Theorem C11_no_deadlock : forall N c, (1 <= N)%nat -> reach N c ->
  (forall j, (j < N)%nat -> quiet_p (P c j)) -> net c = [] -> dlyq c = [] ->
  forall j, (j < N)%nat -> st (P c j) = TERM.
Proof. exact no_deadlock. Qed.
Print Assumptions C11_no_deadlock.

(* from every reachable quiescent configuration and for EVERY schedule: at most
   [lbound] choices have any effect, each of them the delivery of a pending
   control message; quiescence persists; as soon as the control channels are
   empty every process is TERMINATED.  So every schedule that keeps delivering
   pending messages (fair delivery) reaches termination everywhere within
   [lbound] deliveries, i.e. within three waves. *)
Theorem C11_liveness : forall N c sched, (1 <= N)%nat -> reach N c -> quiescent N c ->
  let c' := run c sched in
  quiescent N c' /\
  (net c' = [] -> forall j, (j < N)%nat -> st (P c' j) = TERM) /\
  exists l, deliveries c l /\ c' = run c l /\ (length l <= lbound N c)%nat.
Proof.
  intros N c sched HN Hr Hq c'. destruct (run_as_deliveries N HN sched c Hr Hq) as (l & Hd & He & _).
  destruct (liveness N c l HN Hr Hq Hd) as (Hlen & Hq' & Hterm). unfold c'. rewrite He.
  split; [auto|split; [auto|]]. exists l. auto.
Qed.
Print Assumptions C11_liveness.

(* the schedule that always delivers the oldest control message terminates everywhere *)
Theorem C11_liveness_drain : forall N c fuel, (1 <= N)%nat -> reach N c -> quiescent N c -> (lbound N c < fuel)%nat ->
  forall j, (j < N)%nat -> st (P (drain fuel c) j) = TERM.
Proof.
  intros N c fuel HN Hr Hq Hf. destruct (drain_spec N HN fuel c Hr) as (l & Hd & He & Hl).
  destruct (liveness N c l HN Hr Hq Hd) as (Hlen & _ & Hterm). rewrite He. apply Hterm. destruct Hl; [lia|auto].
Qed.
Print Assumptions C11_liveness_drain.

(* THE CALL-SITE OBLIGATION.  All the theorems above are about schedules of
   [step], whose environment counts every application message sent exactly once
   (ASend = one outgoing_message_start) and received exactly once (ARecvEnd is
   enabled once per ARecvStart = one incoming_message_end per message).  The
   module cannot enforce this: the communication layer (parsec/remote_dep.c,
   parsec/remote_dep_mpi.c:remote_dep_release_incoming) must, and the check ties
   it by real multi-rank runs in which one activation is completed in several
   steps (harness/h_term4c_mpi.jdf: calls of outgoing_message_start summed over
   the ranks = calls of incoming_message_end, and the taskpool terminates).
   Necessity: two processes, one message; the disciplined run is quiescent and
   its drained continuation terminates everywhere; if incoming_message_end is
   called ONCE MORE for that message ([dup_end]), the system is quiescent for
   ever and no process is ever TERMINATED, whatever the schedule. *)
Theorem C11_double_count_refuted :
  (quiescent 2 c_ok /\ total_sent c_ok = 1 /\ total_recv c_ok = 1 /\ forall j, (j < 2)%nat -> st (P (finish c_ok) j) = TERM) /\
  (quiescent 2 c_dup /\ total_sent c_dup = 1 /\ total_recv c_dup = 2 /\
   forall sched j, quiescent 2 (run c_dup sched) /\ st (P (run c_dup sched) j) <> TERM).
Proof.
  split.
  - split; [intros [|[|j]] Hj; try lia; vm_compute; repeat split; auto|].
    split; [reflexivity|split; [reflexivity|]]. intros [|[|j]] Hj; try lia; vm_compute; reflexivity.
  - assert (H0 : In c_dup dup_states) by (left; reflexivity).
    split; [apply (dup_states_quiescent c_dup H0)|]. split; [reflexivity|split; [reflexivity|]].
    intros sched j. pose proof (dup_run sched c_dup H0) as Hr. split.
    + apply (dup_states_quiescent _ Hr).
    + apply dup_states_not_term; auto.
Qed.
Print Assumptions C11_double_count_refuted.

(* non-vacuity: three processes, a message from 1 to 2 that crosses the first
   wave, a late ready of the root; after everybody has finished and the channels
   are drained all three are TERMINATED with 1 message sent and 1 received; and
   the run that stops before draining is a reachable configuration that is not yet terminated *)
Example C11_example :
  let sched := [AActs 1 1; AActs 2 1; AReady 1; AReady 2; AActs 2 (-1); ADeliver 2 0; ASend 1 2; AActs 1 (-1);
                AActs 0 1; AReady 0; ARecvStart 2; ATasks 2 1; ARecvEnd 2; AActs 0 (-1); ADeliver 1 0] in
  let c := run (init 3) sched in
  map (fun i => st (P c i)) [0; 1; 2]%nat = [IWC; IWP; BWP] /\
  map (fun i => st (P (finish c) i)) [0; 1; 2]%nat = [TERM; TERM; TERM] /\
  total_sent (finish c) = 1 /\ total_recv (finish c) = 1 /\
  map (fun i => cbs (P (finish c) i)) [0; 1; 2]%nat = [1; 1; 1].
Proof. vm_compute. repeat split. Qed.
