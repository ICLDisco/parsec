(* C20 — Block-cyclic data distributions are consistent.
   The statements, each taken from Dist/*.v or derived from its theorems in a few lines
   (the tabular and band slots).  The model (Dist/DistDefs.v) follows
   parsec/data_dist/matrix/{matrix,grid_2Dcyclic,two_dim_rectangle_cyclic,
   sym_two_dim_rectangle_cyclic,vector_two_dim_cyclic,two_dim_tabular,
   two_dim_rectangle_cyclic_band}.c.  All statements are for every process grid
   P, Q >= 1, every matrix and tile size, every k-cyclicity kp, kq >= 1 and every
   grid offset 0 <= ip < P, 0 <= jq < Q (wf_bc), every legal submatrix (wf_tmat). *)
From PV Require Import Base.Tac Dist.DistDefs Dist.DistArith Dist.DistBCProofs Dist.DistSymProofs
  Dist.DistMiscProofs Dist.DistKview Dist.DistTop.
Local Open Scope Z_scope.

(* legal arguments of parsec_tiled_matrix_init give a well-formed descriptor *)
Theorem C20_tmat_init_wf : forall st mb nb lm ln i j m n,
  legal_tmat_args mb nb lm ln i j m n -> wf_tmat (tmat_init st mb nb lm ln i j m n).
Proof.
  intros st mb nb lm ln i j m n (Hmb & Hnb & Hi & Hj & Hm & Hn & Hlm & Hln).
  unfold wf_tmat, tmat_init, t_oi, t_oj. cbn.
  pose proof (sub_tiles_fit mb lm i m Hmb Hi Hm Hlm). pose proof (sub_tiles_fit nb ln j n Hnb Hj Hn Hln). lia.
Qed.
Print Assumptions C20_tmat_init_wf.

Theorem C20_bc_rank_in_range : forall d m n, wf_bc d -> 0 <= bc_rank_of d m n < bP d * bQ d.
Proof. intros d m n W. apply bc_rank_of_g_range; exact W. Qed.
Print Assumptions C20_bc_rank_in_range.

(* the slot data_of uses for a tile is inside the owner's data map *)
Theorem C20_bc_slot_in_range : forall d m n, wf_bc d -> wf_tmat (bT d) -> in_sub (bT d) m n ->
  0 <= bc_position d (bc_rank_of d m n) m n < bc_nb_local_tiles d (bc_rank_of d m n).
Proof. exact bc_slot_in_range. Qed.
Print Assumptions C20_bc_slot_in_range.

(* two tiles of one rank never share a slot *)
Theorem C20_bc_slot_injective : forall d m n m' n', wf_bc d -> wf_tmat (bT d) ->
  in_sub (bT d) m n -> in_sub (bT d) m' n' -> bc_rank_of d m n = bc_rank_of d m' n' ->
  bc_position d (bc_rank_of d m n) m n = bc_position d (bc_rank_of d m n) m' n' -> m = m' /\ n = n'.
Proof. exact bc_slot_injective. Qed.
Print Assumptions C20_bc_slot_injective.

(* every slot below nb_local_tiles holds a tile of the matrix: with the two
   theorems above, the local index is a bijection between the tiles a rank owns
   and [0, nb_local_tiles) *)
Theorem C20_bc_slot_onto : forall d r x, wf_bc d -> 0 <= r < bP d * bQ d -> 0 <= x < bc_nb_local_tiles d r ->
  exists M N, 0 <= M < t_lmt (bT d) /\ 0 <= N < t_lnt (bT d) /\
              bc_rank_of_g d M N = r /\ bc_position_g d r M N = x.
Proof. exact bc_position_surj. Qed.
Print Assumptions C20_bc_slot_onto.

Theorem C20_bc_tiles_sum : forall d, wf_bc d ->
  Zsum (fun r => bc_nb_local_tiles d r) (bP d * bQ d) = t_lmt (bT d) * t_lnt (bT d).
Proof. exact bc_nb_local_sum. Qed.
Print Assumptions C20_bc_tiles_sum.

(* data_key / key2coords, and rank_of_key *)
Theorem C20_data_key_roundtrip : forall t m n, wf_tmat t -> in_sub t m n ->
  tm_key2coords t (tm_data_key t m n) = (m, n).
Proof. exact data_key_roundtrip. Qed.
Print Assumptions C20_data_key_roundtrip.

Theorem C20_bc_rank_of_key : forall d m n, wf_tmat (bT d) -> in_sub (bT d) m n ->
  bc_rank_of_key d (tm_data_key (bT d) m n) = bc_rank_of d m n.
Proof. intros d m n Wt Hs. unfold bc_rank_of_key. rewrite data_key_roundtrip by assumption. reflexivity. Qed.
Print Assumptions C20_bc_rank_of_key.

(* the key stored in the parsec_data_t built by data_of maps back to the tile, for every
   kp, kq (the k-cyclic data_of was repaired by fix 12f6606) *)
Theorem C20_bc_kcyclic_stored_key : forall d m n, wf_tmat (bT d) -> in_sub (bT d) m n ->
  tm_key2coords (bT d) (bc_stored_key d m n) = (m, n).
Proof. intros d m n Wt Hs. rewrite bc_stored_key_eq. apply data_key_roundtrip; assumption. Qed.
Print Assumptions C20_bc_kcyclic_stored_key.

Theorem C20_bc_stored_key_injective : forall d m n m' n', wf_tmat (bT d) -> in_sub (bT d) m n ->
  in_sub (bT d) m' n' -> bc_stored_key d m n = bc_stored_key d m' n' -> m = m' /\ n = n'.
Proof.
  intros d m n m' n' Wt Hs Hs' He. pose proof (C20_bc_kcyclic_stored_key d m n Wt Hs) as H1.
  rewrite He, (C20_bc_kcyclic_stored_key d m' n' Wt Hs') in H1. inversion H1. auto.
Qed.
Print Assumptions C20_bc_stored_key_injective.

(* the code before the fix (bc_stored_key_prefix: key built from m, n already reduced modulo
   the k-cyclic period) violated both statements: regression witness *)
Theorem C20_bc_kcyclic_stored_key_prefix_refuted :
  exists d m n m' n', wf_bc d /\ wf_tmat (bT d) /\ in_sub (bT d) m n /\ in_sub (bT d) m' n' /\
    (m, n) <> (m', n') /\ bc_rank_of d m n = bc_rank_of d m' n' /\
    bc_stored_key_prefix d m n = bc_stored_key_prefix d m' n' /\
    tm_key2coords (bT d) (bc_stored_key_prefix d m n) <> (m, n).
Proof.
  exists kcyc_witness, 2, 0, 0, 0. unfold wf_bc, wf_tmat, in_sub. vm_compute.
  repeat split; try discriminate.
Qed.
Print Assumptions C20_bc_kcyclic_stored_key_prefix_refuted.

Theorem C20_bc_vpid_in_range : forall d nbvp m n, 1 <= nbvp -> 0 <= bc_vpid d nbvp m n < nbvp.
Proof. intros. apply vpid_2d_range; assumption. Qed.
Print Assumptions C20_bc_vpid_in_range.

(* tile storage: the memory ranges of the tiles of a rank are disjoint and inside
   its nb_local_tiles * mb * nb elements *)
Theorem C20_bc_tile_memory : forall d m n m' n', wf_bc d -> wf_tmat (bT d) -> bst d = ST_TILE ->
  0 < t_mb (bT d) -> 0 < t_nb (bT d) ->
  in_sub (bT d) m n -> in_sub (bT d) m' n' -> bc_rank_of d m n = bc_rank_of d m' n' ->
  let r := bc_rank_of d m n in let bsiz := t_mb (bT d) * t_nb (bT d) in
  0 <= bc_offset d r m n /\ bc_offset d r m n + bsiz <= bc_nb_local_tiles d r * bsiz /\
  ((m, n) = (m', n') \/ bc_offset d r m n + bsiz <= bc_offset d r m' n' \/
   bc_offset d r m' n' + bsiz <= bc_offset d r m n).
Proof. exact bc_tile_memory. Qed.
Print Assumptions C20_bc_tile_memory.

(* kview_compute_m / _n permute the tile indices of the submatrix (cycle walking terminates) *)
Theorem C20_kview_permutation : forall p ps mt, 0 < p -> 0 < ps ->
  (forall m, 0 <= m < mt -> 0 <= kview_compute p ps mt m < mt) /\
  (forall m m', 0 <= m < mt -> 0 <= m' < mt -> kview_compute p ps mt m = kview_compute p ps mt m' -> m = m') /\
  (forall y, 0 <= y < mt -> exists m, 0 <= m < mt /\ kview_compute p ps mt m = y).
Proof. intros p ps mt Hp Hps. split; [|split]. exact (kview_in_range p ps mt Hp Hps).
  exact (kview_injective p ps mt Hp Hps). exact (kview_onto p ps mt Hp Hps). Qed.
Print Assumptions C20_kview_permutation.

Theorem C20_kview_slot_in_range : forall d vkp vkq m n, wf_bc d -> wf_tmat (bT d) -> 0 < vkp -> 0 < vkq ->
  in_sub (bT d) m n ->
  0 <= kv_rank_of d vkp vkq m n < bP d * bQ d /\
  0 <= kv_position d vkp vkq (kv_rank_of d vkp vkq m n) m n < bc_nb_local_tiles d (kv_rank_of d vkp vkq m n).
Proof.
  intros d vkp vkq m n W Wt Hp Hq Hs. split; [apply bc_rank_of_g_range; exact W|].
  apply bc_slot_in_range; try assumption. apply kv_in_sub; assumption.
Qed.
Print Assumptions C20_kview_slot_in_range.

Theorem C20_kview_slot_injective : forall d vkp vkq m n m' n', wf_bc d -> wf_tmat (bT d) -> 0 < vkp -> 0 < vkq ->
  in_sub (bT d) m n -> in_sub (bT d) m' n' -> kv_rank_of d vkp vkq m n = kv_rank_of d vkp vkq m' n' ->
  kv_position d vkp vkq (kv_rank_of d vkp vkq m n) m n = kv_position d vkp vkq (kv_rank_of d vkp vkq m n) m' n' ->
  m = m' /\ n = n'.
Proof.
  intros d vkp vkq m n m' n' W Wt Hp Hq Hs Hs' Hr Hpos.
  destruct (bc_slot_injective d _ _ _ _ W Wt (kv_in_sub d vkp vkq m n W Hp Hq Hs)
              (kv_in_sub d vkp vkq m' n' W Hp Hq Hs') Hr Hpos) as [E1 E2].
  destruct Hs as [Hm Hn]. destruct Hs' as [Hm' Hn']. unfold wf_bc in W. unfold kv_m, kv_n in *.
  split; [apply (kview_injective (bP d) vkp (t_mt (bT d))) | apply (kview_injective (bQ d) vkq (t_nt (bT d)))];
    try assumption; lia.
Qed.
Print Assumptions C20_kview_slot_injective.

Theorem C20_sym_rank_in_range : forall d m n, wf_sym d -> sym_in_sub d m n ->
  0 <= sym_rank_of d m n < sP d * sQ d.
Proof. intros d m n W [_ Hst]. apply sym_rank_range; assumption. Qed.
Print Assumptions C20_sym_rank_in_range.

Theorem C20_sym_lower_slot_in_range : forall d m n, wf_sym d -> wf_tmat (sT d) -> suplo d = UPLO_LOWER ->
  t_lnt (sT d) <= t_lmt (sT d) -> sym_in_sub d m n ->
  0 <= sym_position d (sym_rank_of d m n) m n < sym_nb_local_tiles d (sym_rank_of d m n).
Proof. intros d m n W Wt Hlo Hsh. exact (tri_slot_in_range d _ _ m n W (lower_triangle d W Hlo Hsh) Wt). Qed.
Print Assumptions C20_sym_lower_slot_in_range.

Theorem C20_sym_lower_slot_injective : forall d m n m' n', wf_sym d -> wf_tmat (sT d) -> suplo d = UPLO_LOWER ->
  t_lnt (sT d) <= t_lmt (sT d) -> sym_in_sub d m n -> sym_in_sub d m' n' ->
  sym_rank_of d m n = sym_rank_of d m' n' ->
  sym_position d (sym_rank_of d m n) m n = sym_position d (sym_rank_of d m n) m' n' -> m = m' /\ n = n'.
Proof. intros d m n m' n' W Wt Hlo Hsh. exact (tri_slot_injective d _ _ m n m' n' W (lower_triangle d W Hlo Hsh) Wt). Qed.
Print Assumptions C20_sym_lower_slot_injective.

Theorem C20_sym_lower_slot_onto : forall d, wf_sym d -> suplo d = UPLO_LOWER -> t_lnt (sT d) <= t_lmt (sT d) ->
  forall r x, 0 <= r < sP d * sQ d -> 0 <= x < sym_nb_local_tiles d r ->
  exists M N, 0 <= N <= M /\ M < t_lmt (sT d) /\ N < t_lnt (sT d) /\
              sym_rank_of_g d M N = r /\ sym_position_g d r M N = x.
Proof.
  intros d W Hlo Hsh r x Hr Hx.
  destruct (tri_position_surj d W _ _ (lower_triangle d W Hlo Hsh) r x Hr Hx) as (M & N & HN & HM & Ho & Hp).
  exists M, N. repeat split; try assumption; lia.
Qed.
Print Assumptions C20_sym_lower_slot_onto.

Theorem C20_sym_lower_tiles_sum : forall d, wf_sym d -> suplo d = UPLO_LOWER -> t_lnt (sT d) <= t_lmt (sT d) ->
  Zsum (fun r => sym_nb_local_tiles d r) (sP d * sQ d)
  = Zsum (fun N => Zsum (fun M => b2z (sym_stored (suplo d) M N)) (t_lmt (sT d))) (t_lnt (sT d)).
Proof. intros d W Hlo Hsh. exact (tri_sum d W _ _ (lower_triangle d W Hlo Hsh)). Qed.
Print Assumptions C20_sym_lower_tiles_sum.

Theorem C20_sym_upper_slot_in_range : forall d m n, wf_sym d -> wf_tmat (sT d) -> suplo d = UPLO_UPPER ->
  t_lmt (sT d) = t_lnt (sT d) -> sym_in_sub d m n ->
  0 <= sym_position d (sym_rank_of d m n) m n < sym_nb_local_tiles d (sym_rank_of d m n).
Proof. intros d m n W Wt Hup Hsq. exact (tri_slot_in_range d _ _ m n W (upper_triangle d W Hup Hsq) Wt). Qed.
Print Assumptions C20_sym_upper_slot_in_range.

Theorem C20_sym_upper_slot_injective : forall d m n m' n', wf_sym d -> wf_tmat (sT d) -> suplo d = UPLO_UPPER ->
  t_lmt (sT d) = t_lnt (sT d) -> sym_in_sub d m n -> sym_in_sub d m' n' ->
  sym_rank_of d m n = sym_rank_of d m' n' ->
  sym_position d (sym_rank_of d m n) m n = sym_position d (sym_rank_of d m n) m' n' -> m = m' /\ n = n'.
Proof. intros d m n m' n' W Wt Hup Hsq. exact (tri_slot_injective d _ _ m n m' n' W (upper_triangle d W Hup Hsq) Wt). Qed.
Print Assumptions C20_sym_upper_slot_injective.

Theorem C20_sym_upper_slot_onto : forall d, wf_sym d -> suplo d = UPLO_UPPER -> t_lmt (sT d) = t_lnt (sT d) ->
  forall r x, 0 <= r < sP d * sQ d -> 0 <= x < sym_nb_local_tiles d r ->
  exists M N, 0 <= M <= N /\ N < t_lnt (sT d) /\ sym_rank_of_g d M N = r /\ sym_position_g d r M N = x.
Proof.
  intros d W Hup Hsq r x Hr Hx.
  destruct (tri_position_surj d W _ _ (upper_triangle d W Hup Hsq) r x Hr Hx) as (M & N & HN & HM & Ho & Hp).
  exists M, N. repeat split; try assumption; lia.
Qed.
Print Assumptions C20_sym_upper_slot_onto.

Theorem C20_sym_upper_tiles_sum : forall d, wf_sym d -> suplo d = UPLO_UPPER -> t_lmt (sT d) = t_lnt (sT d) ->
  Zsum (fun r => sym_nb_local_tiles d r) (sP d * sQ d)
  = Zsum (fun N => Zsum (fun M => b2z (sym_stored (suplo d) M N)) (t_lmt (sT d))) (t_lnt (sT d)).
Proof. intros d W Hup Hsq. exact (tri_sum d W _ _ (upper_triangle d W Hup Hsq)). Qed.
Print Assumptions C20_sym_upper_tiles_sum.

Theorem C20_sym_stored_key : forall d m n, wf_tmat (sT d) -> in_sub (sT d) m n ->
  tm_key2coords (sT d) (sym_stored_key d m n) = (m, n).
Proof. intros d. exact (data_key_roundtrip (sT d)). Qed.
Print Assumptions C20_sym_stored_key.

(* why the shape hypotheses are there: with more tile columns than rows (lower) or a
   non-square tile grid (upper) the slot of a stored tile is outside the data map *)
Theorem C20_sym_nonsquare_refuted :
  (wf_sym sym_wide_lower /\ sym_in_sub sym_wide_lower 1 1 /\
   sym_nb_local_tiles sym_wide_lower 0 <= sym_position sym_wide_lower (sym_rank_of sym_wide_lower 1 1) 1 1) /\
  (wf_sym sym_wide_upper /\ sym_in_sub sym_wide_upper 0 2 /\
   sym_nb_local_tiles sym_wide_upper 0 <= sym_position sym_wide_upper (sym_rank_of sym_wide_upper 0 2) 0 2).
Proof. unfold wf_sym, sym_in_sub, in_sub. vm_compute. repeat split; try discriminate. Qed.
Print Assumptions C20_sym_nonsquare_refuted.

Theorem C20_tab_slot_in_range : forall l r k, (k < length l)%nat -> nth k l (-1) = r ->
  0 <= nth k (tab_positions l r 0) (-1) < tab_nb_local_tiles l r.
Proof.
  intros l r k Hk Hn. rewrite tab_positions_spec by assumption. unfold tab_nb_local_tiles.
  pose proof (tab_count_nonneg (firstn k l) r). pose proof (tab_count_firstn_strict l r k (length l) Hk Hk Hn) as Hlt.
  rewrite firstn_all in Hlt. lia.
Qed.
Print Assumptions C20_tab_slot_in_range.

Theorem C20_tab_slot_injective : forall l r k k', (k < length l)%nat -> (k' < length l)%nat ->
  nth k l (-1) = r -> nth k' l (-1) = r ->
  nth k (tab_positions l r 0) (-1) = nth k' (tab_positions l r 0) (-1) -> k = k'.
Proof.
  intros l r k k' Hk Hk' Hn Hn' He. rewrite !tab_positions_spec in He by assumption.
  destruct (Nat.lt_trichotomy k k') as [L|[E|L]]; [|exact E|].
  - pose proof (tab_count_firstn_strict l r k k' L Hk Hn). lia.
  - pose proof (tab_count_firstn_strict l r k' k L Hk' Hn'). lia.
Qed.
Print Assumptions C20_tab_slot_injective.

Theorem C20_tab_slot_onto : forall l r x, 0 <= x < tab_nb_local_tiles l r ->
  exists k, (k < length l)%nat /\ nth k l (-1) = r /\ nth k (tab_positions l r 0) (-1) = x.
Proof. exact tab_position_surj. Qed.
Print Assumptions C20_tab_slot_onto.

Theorem C20_tab_tiles_sum : forall l nodes, 0 <= nodes -> Forall (fun a => 0 <= a < nodes) l ->
  Zsum (fun r => tab_nb_local_tiles l r) nodes = Z.of_nat (length l).
Proof. exact tab_count_sum. Qed.
Print Assumptions C20_tab_tiles_sum.

Theorem C20_tab_index_injective : forall t m n m' n', 0 <= m + t_oi t < t_lmt t -> 0 <= m' + t_oi t < t_lmt t ->
  tab_index t m n = tab_index t m' n' -> m = m' /\ n = n'.
Proof.
  unfold tab_index. intros t m n m' n' H1 H2 He.
  destruct (mixed_radix_inj (t_lmt t) (n + t_oj t) (m + t_oi t) (n' + t_oj t) (m' + t_oi t) H1 H2 He). lia.
Qed.
Print Assumptions C20_tab_index_injective.

Theorem C20_vec_rank_in_range : forall d m, wf_vec d -> 0 <= vec_rank_of d m < vP d * vQ d.
Proof. intros d m W. apply vec_rank_range; exact W. Qed.
Print Assumptions C20_vec_rank_in_range.

Theorem C20_vec_vpid_in_range : forall d nbvp m, 1 <= nbvp -> 0 <= vec_vpid d nbvp m < nbvp.
Proof.
  intros d nbvp m Hn. unfold vec_vpid, vec_vpid_g. destruct (nbvp =? 1) eqn:E; [lia|].
  destruct (vp_grid nbvp Hn) as (Hq & Hp & Hpq).
  pose proof (Z.mod_pos_bound ((m + t_oi (vT d)) / vP d) (vp_p nbvp) ltac:(lia)).
  pose proof (Z.mod_pos_bound ((m + t_oi (vT d)) / vQ d) (vp_q nbvp) ltac:(lia)).
  destruct (vdistrib d =? VD_COL), (vdistrib d =? VD_ROW); nia.
Qed.
Print Assumptions C20_vec_vpid_in_range.

(* the diagonal distribution is consistent on square process grids ... *)
Theorem C20_vec_diag_square_slot_in_range : forall d, wf_vec d -> vdistrib d = VD_DIAG -> vP d = vQ d ->
  forall M r, 0 <= M < t_lmt (vT d) -> vec_rank_of_g d M = r -> 0 <= vec_position_g d M < vec_nlt d r.
Proof. exact vec_diag_square_range. Qed.
Print Assumptions C20_vec_diag_square_slot_in_range.

Theorem C20_vec_diag_square_slot_injective : forall d, wf_vec d -> vdistrib d = VD_DIAG -> vP d = vQ d ->
  forall M M' r, 0 <= M -> 0 <= M' -> vec_rank_of_g d M = r -> vec_rank_of_g d M' = r ->
  vec_position_g d M = vec_position_g d M' -> M = M'.
Proof. exact vec_diag_square_inj. Qed.
Print Assumptions C20_vec_diag_square_slot_injective.

Theorem C20_vec_diag_square_slot_onto : forall d, wf_vec d -> vdistrib d = VD_DIAG -> vP d = vQ d ->
  forall r x, 0 <= r < vQ d * vQ d -> 0 <= x < vec_nlt d r ->
  exists M, 0 <= M < t_lmt (vT d) /\ vec_rank_of_g d M = r /\ vec_position_g d M = x.
Proof. exact vec_diag_square_surj. Qed.
Print Assumptions C20_vec_diag_square_slot_onto.

Theorem C20_vec_diag_square_tiles_sum : forall d, wf_vec d -> vdistrib d = VD_DIAG -> vP d = vQ d ->
  Zsum (fun r => vec_nlt d r) (vQ d * vQ d) = t_lmt (vT d).
Proof. exact vec_diag_square_sum. Qed.
Print Assumptions C20_vec_diag_square_tiles_sum.

(* ... and is not on the others: the init loop "while (drank % Q != 0) drank += Q" does not
   terminate (1x2 grid, rank 1) or yields wrong counts (2x1 grid, 3 + 3 segments of 5): FINDING *)
Theorem C20_vec_diag_rect_refuted :
  (wf_vec vec_diag_witness /\ vec_nb_local_tiles vec_diag_witness 1 = None) /\
  (wf_vec vec_diag_witness2 /\ vec_nb_local_tiles vec_diag_witness2 0 = Some 3 /\
   vec_nb_local_tiles vec_diag_witness2 1 = Some 3 /\ t_lmt (vT vec_diag_witness2) = 5).
Proof. unfold wf_vec. vm_compute. repeat split; discriminate. Qed.
Print Assumptions C20_vec_diag_rect_refuted.

(* ROW and COL: rank_of and the init disagree on which processes hold the vector:
   two segments of one rank share local slot 0, and the counts add up to 2 * lmt / ... : FINDING *)
Theorem C20_vec_row_col_refuted :
  (wf_vec vec_row_witness /\ vec_rank_of vec_row_witness 0 = vec_rank_of vec_row_witness 1 /\
   vec_position vec_row_witness 0 = vec_position vec_row_witness 1 /\
   vec_nb_local_tiles vec_row_witness 0 = Some 1 /\ vec_nb_local_tiles vec_row_witness 1 = Some 1) /\
  (wf_vec vec_col_witness /\ vec_rank_of vec_col_witness 0 = vec_rank_of vec_col_witness 1 /\
   vec_position vec_col_witness 0 = vec_position vec_col_witness 1 /\
   vec_nb_local_tiles vec_col_witness 0 = Some 1 /\ vec_nb_local_tiles vec_col_witness 1 = Some 1).
Proof. unfold wf_vec. vm_compute. repeat split; discriminate. Qed.
Print Assumptions C20_vec_row_col_refuted.

Theorem C20_band_rank_in_range : forall d m n, wf_band d ->
  0 <= band_rank_of d m n < bP (bd_off d) * bQ (bd_off d).
Proof.
  intros d m n (Wo & Wb & Hg & _). unfold band_rank_of, bc_rank_of.
  destruct (band_in d m n); [rewrite <- Hg|]; apply bc_rank_of_g_range; assumption.
Qed.
Print Assumptions C20_band_rank_in_range.

(* a tile's slot: the sub-collection it lives in, and its position there *)
Theorem C20_band_slot_in_range : forall d m n r, wf_band d ->
  0 <= m < t_lmt (bT (bd_off d)) -> 0 <= n < t_lnt (bT (bd_off d)) -> band_rank_of d m n = r ->
  0 <= band_position d r m n <
  (if band_in d m n then bc_nb_local_tiles (bd_band d) r else bc_nb_local_tiles (bd_off d) r).
Proof.
  intros d m n r (Wo & Wb & Hg & Hs & Ho1 & Ho2 & Hb1 & Hb2 & Hbm & Hbn) Hm Hn Hr.
  unfold band_position, band_rank_of, bc_position, bc_rank_of in *.
  destruct (band_in d m n) eqn:E.
  - apply band_in_iff in E. rewrite Hb1, Hb2 in *. unfold band_m in *.
    apply bc_position_range; try assumption; lia.
  - rewrite Ho1, Ho2 in *. apply bc_position_range; try assumption; lia.
Qed.
Print Assumptions C20_band_slot_in_range.

Theorem C20_band_slot_injective : forall d m n m' n' r, wf_band d ->
  0 <= m < t_lmt (bT (bd_off d)) -> 0 <= n < t_lnt (bT (bd_off d)) ->
  0 <= m' < t_lmt (bT (bd_off d)) -> 0 <= n' < t_lnt (bT (bd_off d)) ->
  band_rank_of d m n = r -> band_rank_of d m' n' = r ->
  band_in d m n = band_in d m' n' -> band_position d r m n = band_position d r m' n' ->
  m = m' /\ n = n'.
Proof. exact band_slot_inj. Qed.
Print Assumptions C20_band_slot_injective.

(* non-vacuity: a 2x3 grid, kp = 2, kq = 1, offsets (1, 2), 5x4 tiles of 2x3 elements,
   the whole matrix: the hypotheses hold, ranks 0..5 hold 2,2,4,3,3,6 of the 20 tiles *)
Definition C20_ex : bcd := mk_bcd 2 3 2 1 1 2 ST_TILE (tmat_init ST_TILE 2 3 10 12 0 0 10 12).
Example C20_example :
  wf_bc C20_ex /\ wf_tmat (bT C20_ex) /\ in_sub (bT C20_ex) 4 3 /\
  map (bc_nb_local_tiles C20_ex) [0;1;2;3;4;5] = [2;2;4;3;3;6] /\
  bc_rank_of C20_ex 4 3 = 5 /\ bc_position C20_ex 5 4 3 = 5.
Proof. unfold wf_bc, wf_tmat, in_sub. vm_compute. repeat split; try discriminate. Qed.
