(* C05 — Distributed PTG results do not depend on process count or message path.
   The statements, each derived in a few lines from the theorems of PTGDist/DistProofs.v, DistLocal.v and
   PTGDistProofs.v, where the longer proofs are; the F8 example is evaluated here.

   Model: PTGDist/DistEngine.v (distributed dataflow engine: per task status / input slots /
   outputs owned by rank_of t, per rank the activations and data received, ONE list of packets
   from which `Deliver a b` removes the oldest packet from a to b = per-pair FIFO channels with
   arbitrary delay; the completion of a producer is propagated along an ARBITRARY tree
   `parent p d` over the ranks that consume its outputs, every datum either embedded in the
   activation (eager/short) or fetched by GET/PUT (rendezvous) according to an ARBITRARY
   boolean `eager p d k`), instantiated in PTGDist/PTGDistDefs.v with the JDF AST of
   PTG/PTGDefs.v, the body hash of the harness and the sequential reference `seq_exec`.
   A schedule is an arbitrary list of events Startup r / Begin t / End t / Deliver a b
   (not enabled = no-op).

   `dist_hyps` collects what the theorems assume:
     wf_program, wf_dist   the program is well formed; a data flow has at most one input edge
     ranks                 the placement maps every instance below nranks (ANY function otherwise)
     tree                  parent is a tree over the destination ranks of every producer
     relay_holds           the EXPLICIT F8 condition: the rank that activates a consumer of output k
                           is the root or consumes k itself.  parsec_remote_dep_activate's chain and
                           binomial trees violate it when the destination sets of a task's outputs
                           overlap without being equal (C13_payload_refuted); then the statement is
                           FALSE of the faithful model: C05_refuted_without_relay_holds.
   Documented exclusion: one output flow with several remote shapes in short messages — the
   model has ONE output per flow (outputs are indexed by the flow), which is that hypothesis. *)
From Coq Require Import ZArith NArith List Bool Permutation.
From PV Require Import Base.Tac PTG.PTGDefs PTG.Engine PTG.PTGProofs
     PTGDist.DistEngine PTGDist.DistProofs PTGDist.DistLocal PTGDist.PTGDistDefs PTGDist.PTGDistProofs.
From PV Require Bcast.BcastDefs.
Import ListNotations.

Definition dist_hyps (P : program) (nranks : nat) (rank_of : tid -> nat) (parent : tid -> nat -> nat)
           (depth : tid -> nat -> nat) : Prop :=
  wf_program P = true /\ wf_dist P = true
  /\ (forall t, In t (instances P) -> rank_of t < nranks)
  /\ (forall p d, In p (instances P) -> dist_isdest P rank_of d p = true ->
        (parent p d = rank_of p \/ dist_isdest P rank_of (parent p d) p = true) /\ depth p (parent p d) < depth p d)
  /\ (forall p d k, In p (instances P) -> dist_isdest P rank_of d p = true -> dist_needs P rank_of d p k = true ->
        parent p d = rank_of p \/ dist_needs P rank_of (parent p d) p k = true).

(* every instance begins at most once, and only on the rank that owns it *)
Theorem C05_runs_once_on_owner : forall names P nranks rank_of parent eager depth,
  dist_hyps P nranks rank_of parent depth -> forall evs,
  NoDup (begins tid (log tid (dist_run names P nranks rank_of parent eager evs)))
  /\ forall t r vs, In (LBegin t r vs) (log tid (dist_run names P nranks rank_of parent eager evs)) ->
       In t (instances P) /\ r = rank_of t.
Proof.
  intros names P nranks rank_of parent eager depth H evs. split.
  - exact (ptgd_begins_once names P nranks rank_of parent eager depth H evs).
  - intros t r vs Hin. destruct (ptgd_begin_on_owner names P nranks rank_of parent eager depth H evs t r vs Hin) as (A & B & _). auto.
Qed.
Print Assumptions C05_runs_once_on_owner.

(* the values an instance reads are those of the sequential reference, whatever the rank count, placement,
   tree, protocol choice and schedule *)
Theorem C05_inputs_equal_sequential_reference : forall names P nranks rank_of parent eager depth,
  dist_hyps P nranks rank_of parent depth -> forall evs t r vs,
  In (LBegin t r vs) (log tid (dist_run names P nranks rank_of parent eager evs)) ->
  vs = map (seq_in names P t) (d_reads P t).
Proof.
  intros names P nranks rank_of parent eager depth H evs t r vs Hin.
  apply (ptgd_begin_on_owner names P nranks rank_of parent eager depth H evs t r vs Hin).
Qed.
Print Assumptions C05_inputs_equal_sequential_reference.

Theorem C05_outputs_equal_sequential_reference : forall names P nranks rank_of parent eager depth,
  dist_hyps P nranks rank_of parent depth -> forall evs t r ovs,
  In (LEnd t r ovs) (log tid (dist_run names P nranks rank_of parent eager evs)) ->
  In t (instances P) /\ r = rank_of t /\ ovs = map (fun k => (k, seq_out names P t k)) (d_wlist P t).
Proof. exact ptgd_end_values. Qed.
Print Assumptions C05_outputs_equal_sequential_reference.

(* every datum a rank receives, embedded or fetched, is the reference value of that output *)
Theorem C05_received_values : forall names P nranks rank_of parent eager depth,
  dist_hyps P nranks rank_of parent depth -> forall evs d p k v,
  got tid (dist_run names P nranks rank_of parent eager evs) d p k = Some v -> In p (instances P) -> v = seq_out names P p k.
Proof. exact ptgd_received_values. Qed.
Print Assumptions C05_received_values.

(* no GET ever reaches a process that does not hold the datum (what aborts the runtime in F8) *)
Theorem C05_no_failure : forall names P nranks rank_of parent eager depth,
  dist_hyps P nranks rank_of parent depth -> forall evs,
  failed tid (dist_run names P nranks rank_of parent eager evs) = false.
Proof. exact ptgd_no_failure. Qed.
Print Assumptions C05_no_failure.

(* no lost activation: when nothing is enabled and no message is in flight, every instance is done *)
Theorem C05_no_lost_activation : forall names P nranks rank_of parent eager depth,
  dist_hyps P nranks rank_of parent depth -> forall evs,
  dist_quiescent P (dist_run names P nranks rank_of parent eager evs) ->
  forall t, In t (instances P) -> st tid (dist_run names P nranks rank_of parent eager evs) t = Done.
Proof. exact ptgd_quiescent_all_done. Qed.
Print Assumptions C05_no_lost_activation.

(* hence a complete run executes the multiset `instances P`, and its outputs and the final content of the
   collection are those of seq_exec *)
Theorem C05_complete_run_matches_seq_exec : forall names P nranks rank_of parent eager depth,
  dist_hyps P nranks rank_of parent depth -> forall evs,
  dist_quiescent P (dist_run names P nranks rank_of parent eager evs) ->
  Permutation (begins tid (log tid (dist_run names P nranks rank_of parent eager evs))) (instances P)
  /\ (forall t k, In t (instances P) -> state_out (dist_run names P nranks rank_of parent eager evs) t k = seq_out names P t k)
  /\ forall ndata, final_data P (state_out (dist_run names P nranks rank_of parent eager evs)) ndata
                   = final_data P (seq_out names P) ndata.
Proof. exact ptgd_complete_run. Qed.
Print Assumptions C05_complete_run_matches_seq_exec.

(* per-rank state: a step executed by rank r changes nothing that another rank owns, removes only a packet addressed
   to r and adds only packets sent by r.  No hypothesis. *)
Theorem C05_step_local : forall names P nranks rank_of parent eager s e,
  same_elsewhere tid rank_of (ev_rank tid rank_of e) s (dist_step names P nranks rank_of parent eager s e)
  /\ forall pk, In pk (net tid (dist_step names P nranks rank_of parent eager s e)) ->
       In pk (net tid s) \/ p_src tid pk = ev_rank tid rank_of e.
Proof.
  intros names P nranks rank_of parent eager s e. split.
  - apply step_local.
  - apply step_net_local.
Qed.
Print Assumptions C05_step_local.

(* seq_exec (instances in topological order over a store) solves the dataflow equations *)
Theorem C05_seq_exec_is_reference : forall names P, wf_program P = true -> forall t k, In t (instances P) ->
  seq_out names P t k = d_body names P t k (seq_in names P t)
  /\ forall f, seq_in names P t f = match d_in_edge P t f with
                                    | Some e => seq_out names P (e_task tid e) (e_oflow tid e)
                                    | None => d_srcv P t f end.
Proof.
  intros names P Hwf t k Ht. split; [|reflexivity].
  rewrite (seq_out_ref names P Hwf t k Ht), (ref_out_eq names P Hwf t k Ht). apply d_body_ext.
  intros f. symmetry. apply (seq_in_ref names P Hwf t f Ht).
Qed.
Print Assumptions C05_seq_exec_is_reference.

(* the engine-level statement for ANY finite DAG with flows (the form a DTD instantiation can reuse) *)
Theorem C05_engine_generic :
  forall (task : Type) (teq : forall a b : task, {a = b} + {a <> b}) (tasks : list task)
         (ins outs : task -> list (DistEngine.edge task)) (isctl writes : task -> nat -> bool) (reads wlist : task -> list nat)
         (hashv : task -> nat -> list Z -> Z) (srcv : task -> nat -> Z)
         (nranks : nat) (rank_of : task -> nat) (parent : task -> nat -> nat) (eager : task -> nat -> nat -> bool),
    (forall p x, In p tasks -> In x tasks ->
       Permutation (map (fun e => (e_oflow task e, p, e_flow task e)) (filter (fun e => teqb task teq (e_task task e) x) (outs p)))
                   (filter (fun e => teqb task teq (e_task task e) p) (ins x))) ->
    (forall p e, In p tasks -> In e (outs p) -> In (e_task task e) tasks) ->
    (forall t e, In t tasks -> In e (ins t) -> In (e_task task e) tasks) ->
    forall drank : task -> nat,
    (forall t e, In t tasks -> In e (ins t) -> drank (e_task task e) < drank t) ->
    (forall t e1 e2, In t tasks -> In e1 (ins t) -> In e2 (ins t) -> e_flow task e1 = e_flow task e2 ->
       isctl t (e_flow task e1) = false -> e1 = e2) ->
    (forall t f, In t tasks -> In f (reads t) -> isctl t f = false) ->
    (forall t, In t tasks -> rank_of t < nranks) ->
    forall depth : task -> nat -> nat,
    (forall p d, In p tasks -> isdest task outs rank_of d p = true ->
       (parent p d = rank_of p \/ isdest task outs rank_of (parent p d) p = true) /\ depth p (parent p d) < depth p d) ->
    (forall p d k, In p tasks -> isdest task outs rank_of d p = true -> needs task outs rank_of d p k = true ->
       parent p d = rank_of p \/ needs task outs rank_of (parent p d) p k = true) ->
    forall refin refout : task -> nat -> Z,
    (forall t f, refin t f = match in_edge task ins t f with Some e => refout (e_task task e) (e_oflow task e) | None => srcv t f end) ->
    (forall t k, In t tasks -> refout t k = body task isctl writes reads hashv t k (refin t)) ->
    forall evs, NoDup tasks ->
      quiescent task tasks (run task teq tasks ins outs isctl writes reads wlist hashv srcv nranks rank_of parent eager evs) ->
      Permutation (begins task (log task (run task teq tasks ins outs isctl writes reads wlist hashv srcv nranks rank_of parent eager evs))) tasks.
Proof. exact dist_quiescent_executed_once. Qed.
Print Assumptions C05_engine_generic.

(* the relay-lacks-output program (design finding F8), 3 ranks, cyclic placement on the first parameter:
     TA(0)@0   RW A <- D(0) -> A TB(1 .. 2) -> D(2)      RW B <- D(1) -> B TC(2) -> D(3)
     TB(k)@k   READ A <- A TA(0)        k = 1 .. 2
     TC(2)@2   READ B <- B TA(0)
   output A goes to ranks {1, 2}, output B to rank {2} *)
Definition dep_in (t : target) := {| d_in := true; d_guard := None; d_then := t; d_else := None |}.
Definition dep_out (t : target) := {| d_in := false; d_guard := None; d_then := t; d_else := None |}.
Definition one (k : Z) := Lrange (Ec k) (Ec k) (Ec 1).
Definition ex_f8 : program :=
  {| p_globals := [];
     p_classes :=
       [ {| c_locals := [one 0]; c_params := [0%nat]; c_place := [Ec 0];
            c_flows := [ {| f_mode := MRW; f_deps := [dep_in (Tmem [Ec 0]); dep_out (Ttask 1 0 [Arng (Ec 1) (Ec 2) (Ec 1)]); dep_out (Tmem [Ec 2])] |};
                         {| f_mode := MRW; f_deps := [dep_in (Tmem [Ec 1]); dep_out (Ttask 2 0 [Aexp (Ec 2)]); dep_out (Tmem [Ec 3])] |} ];
            c_prio := None; c_count := false |};
         {| c_locals := [Lrange (Ec 1) (Ec 2) (Ec 1)]; c_params := [0%nat]; c_place := [Ec 0];
            c_flows := [ {| f_mode := MRead; f_deps := [dep_in (Ttask 0 0 [Aexp (Ec 0)])] |} ];
            c_prio := None; c_count := false |};
         {| c_locals := [one 2]; c_params := [0%nat]; c_place := [Ec 0];
            c_flows := [ {| f_mode := MRead; f_deps := [dep_in (Ttask 0 1 [Aexp (Ec 0)])] |} ];
            c_prio := None; c_count := false |} ] |}.
Definition ex_names : list (list Z) := [[84; 65]; [84; 66]; [84; 67]]%Z.      (* "TA" "TB" "TC" *)
Definition ex_rank : tid -> nat := place_rank PCyc 3.
Definition ex_depth : tid -> nat -> nat := fun _ d => d.
Definition tA : tid := (0%nat, [0%Z]).
Definition ex_sched : list (event tid) := rounds 6 (all_events ex_f8 3).
Definition idle (P : program) (s : state tid) : bool :=
  forallb (fun t => match st tid s t with Ready | Running | Waiting 0 => false | _ => true end) (instances P).

(* WITHOUT relay_holds the property is false of the faithful model: with the tree parsec_remote_dep_activate builds
   for the default chain topology (C13's model: 0 -> 1 -> 2) every other hypothesis holds, rank 2 asks relay 1
   for output B, which rank 1 never held (the runtime aborts in MPI_Isend), TC(2) never runs although nothing is
   enabled and no message is in flight *)
Theorem C05_refuted_without_relay_holds :
  exists names P nranks rank_of parent eager depth evs,
    wf_program P = true /\ wf_dist P = true /\ ranks_okb P nranks rank_of = true
    /\ tree_okb P nranks rank_of parent depth = true
    /\ relay_holdsb P nranks rank_of parent = false
    /\ let s := dist_run names P nranks rank_of parent eager evs in
       failed tid s = true /\ net tid s = [] /\ idle P s = true /\ all_done P s = false.
Proof.
  exists ex_names, ex_f8, 3%nat, ex_rank, (c13_parent ex_f8 3 ex_rank BcastDefs.Chain), (fun _ _ _ => true), ex_depth, ex_sched.
  vm_compute. repeat split; reflexivity.
Qed.
Print Assumptions C05_refuted_without_relay_holds.

(* C13's own predicate flags the same producer, and the tree is the one of its witness (C13_payload_refuted) *)
Theorem C05_c13_tree_refuted :
  c13_relay_lacks ex_f8 3 ex_rank BcastDefs.Chain tA = true
  /\ dest_sets ex_f8 ex_rank tA = [[1; 2]; [2]]%N
  /\ map (c13_parent ex_f8 3 ex_rank BcastDefs.Chain tA) [1; 2]%nat = [0; 1]%nat
  /\ c13_relay_lacks ex_f8 3 ex_rank BcastDefs.Star tA = false
  /\ c13_relay_lacks ex_f8 3 ex_rank BcastDefs.Binomial tA = false.
Proof. vm_compute. repeat split; reflexivity. Qed.
Print Assumptions C05_c13_tree_refuted.

(* non-vacuity: the same program with the star tree meets every hypothesis *)
Example C05_hyps_satisfiable : dist_hyps ex_f8 3 ex_rank (c13_parent ex_f8 3 ex_rank BcastDefs.Star) ex_depth.
Proof.
  assert (Hwf : wf_program ex_f8 = true) by (vm_compute; reflexivity).
  assert (Hr : ranks_okb ex_f8 3 ex_rank = true) by (vm_compute; reflexivity).
  split; [exact Hwf|]. split; [vm_compute; reflexivity|]. split; [exact (ranks_okb_sound ex_f8 3 ex_rank Hr)|]. split.
  - apply (tree_okb_sound ex_f8 3 ex_rank _ ex_depth Hwf Hr). vm_compute. reflexivity.
  - apply (relay_holdsb_sound ex_f8 3 ex_rank _ Hwf Hr). vm_compute. reflexivity.
Qed.

(* The run of C05_example for an arbitrary body hash h.  The engine copies the value of an output into every slot,
   message and log entry that carries it, and the checker would evaluate the harness hash at each of them; with h in
   its place the two hashes of TA are evaluated once, in ex_hash. *)
Lemma ex_run (h : tid -> nat -> list Z -> Z) :
  let s := DistEngine.run tid tid_eq_dec (instances ex_f8) (pred_edges ex_f8) (succ_edges ex_f8) (d_isctl ex_f8) (d_writes ex_f8)
             (d_reads ex_f8) (d_wlist ex_f8) h (d_srcv ex_f8) 3 ex_rank (c13_parent ex_f8 3 ex_rank BcastDefs.Star)
             (fun _ d _ => Nat.even d) ex_sched in
  let a := h tA 0%nat [1000; 1001]%Z in
  let b := h tA 1%nat [1000; 1001]%Z in
  failed tid s = false /\ net tid s = [] /\ all_done ex_f8 s = true
  /\ map (fun x => (fst (fst x), snd (fst x))) (log_begins s) = [((1%nat, [1%Z]), 1%nat); ((2%nat, [2%Z]), 2%nat); ((1%nat, [2%Z]), 2%nat); (tA, 0%nat)]
  /\ map snd (log_begins s) = [[a]; [b]; [a]; [1000; 1001]%Z]
  /\ final_data ex_f8 (state_out s) 4 = [Some a; Some b; Some a; Some b].
Proof. vm_compute. repeat split; reflexivity. Qed.

Lemma dist_run_eq names P nranks rank_of parent eager evs :
  DistEngine.run tid tid_eq_dec (instances P) (pred_edges P) (succ_edges P) (d_isctl P) (d_writes P) (d_reads P) (d_wlist P)
    (d_hashv names P) (d_srcv P) nranks rank_of parent eager evs
  = dist_run names P nranks rank_of parent eager evs.
Proof. reflexivity. Qed.

Lemma ex_hash :
  d_hashv ex_names ex_f8 tA 0 [1000; 1001]%Z = 1836216450972380024%Z
  /\ d_hashv ex_names ex_f8 tA 1 [1000; 1001]%Z = 1071881603628849665%Z.
Proof. vm_compute. split; reflexivity. Qed.

(* a schedule in which both protocols are used runs TA on 0, TB(1) on 1, TB(2) and TC(2) on 2, with the reference values *)
Example C05_example :
  let s := dist_run ex_names ex_f8 3 ex_rank (c13_parent ex_f8 3 ex_rank BcastDefs.Star) (fun _ d _ => Nat.even d) ex_sched in
  failed tid s = false /\ net tid s = [] /\ all_done ex_f8 s = true
  /\ map (fun x => (fst (fst x), snd (fst x))) (log_begins s) = [((1%nat, [1%Z]), 1%nat); ((2%nat, [2%Z]), 2%nat); ((1%nat, [2%Z]), 2%nat); (tA, 0%nat)]
  /\ map snd (log_begins s) = [[1836216450972380024]; [1071881603628849665]; [1836216450972380024]; [1000; 1001]]%Z
  /\ final_data ex_f8 (state_out s) 4 = final_data ex_f8 (seq_out ex_names ex_f8) 4
  /\ final_data ex_f8 (seq_out ex_names ex_f8) 4
     = [Some 1836216450972380024; Some 1071881603628849665; Some 1836216450972380024; Some 1071881603628849665]%Z.
Proof.
  intros s. pose proof (ex_run (d_hashv ex_names ex_f8)) as H. cbv zeta in H.
  rewrite dist_run_eq in H. fold s in H.
  destruct ex_hash as [Ea Eb]. rewrite Ea, Eb in H. destruct H as (Hf & Hn & Hd & Hb & Hv & Ho).
  (* the run is complete, so the final content is the reference's by the theorem *)
  destruct (C05_complete_run_matches_seq_exec ex_names ex_f8 3 ex_rank _ (fun _ d _ => Nat.even d) ex_depth
              C05_hyps_satisfiable ex_sched (all_done_quiescent ex_f8 s Hn Hd)) as (_ & _ & Hfin).
  fold s in Hfin. rewrite (Hfin 4) in Ho.
  exact (conj Hf (conj Hn (conj Hd (conj Hb (conj Hv (conj (Hfin 4) Ho)))))).
Qed.
