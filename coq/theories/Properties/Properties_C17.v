(* C17 — DTD data flush returns the last written value to the owner.
   The statements, each derived in a few lines from the theorems of DTDFlush/DTDFlushSeq.v,
   DTDFlushProofs.v, DTDFlushCompile.v (on top of DTD/DTDEngine.v), where the longer proofs are.

   Model (DTDFlush/DTDFlushDefs.v): [owner] maps tiles to ranks; the taskpool holds a list [fp] of
   user tasks (with their execution rank) and flush-class tasks ([FFlush r d]: PARSEC_INOUT on tile d,
   executed by rank r; the one executed by the owner is the receive side); [waits] are the positions of
   the parsec_taskpool_wait calls; [frun owner body fp waits g m0 es] folds an ARBITRARY list of events
   Insert / Begin t / End t (a refused event is a no-op; [g] = any sliding window) over the engine and
   keeps, besides the current version of every tile ([memo]), the owner's storage [home]: a task writes
   it only when it runs on the owner and the tile's current version is that storage ([inpl], decided by
   the insertion sequence: false from a write by a task placed elsewhere until the next receive-side
   flush), the receive-side flush task copies its input into it.  [compile owner ops] is what the API
   calls OTask / OFlush / OFlushAll / OWait insert.  [wfb] is the contract of parsec_dtd_data_flush: a
   tile is not named again before a wait that follows its flush. *)
From PV Require Import Base.Tac DTD.DTDDefs DTD.DTDSeq DTD.DTDChain DTD.DTDEngine DTD.DTDProofs
  DTDFlush.DTDFlushDefs DTDFlush.DTDFlushSeq DTDFlush.DTDFlushProofs DTDFlush.DTDFlushCompile.

(* every insertion sequence, ownership map, placement, window and schedule: when the inserting thread
   is back from a wait (w tasks inserted, all of them ended), the owner's storage of every tile whose
   current version is the owner's storage holds the value of the sequential execution in insertion order *)
Theorem C17_owner_copy_after_wait : forall owner body fp waits g m0,
  wfb owner fp waits = true -> forall es w d,
  let s := frun owner body fp waits g m0 es in
  ins (eng s) = w -> (forall j, j < w -> st (eng s) j = Done) ->
  inpl owner fp w d = true ->
  home s d = prefix_mem (fbody_of body fp) (prog_of fp) m0 w d.
Proof.
  intros owner body fp waits g m0 Hwf es w d s Hi Hd Hp.
  apply (owner_copy_after_wait owner body fp waits g m0 (wfb_wf owner fp waits Hwf) es w d); [now split|exact Hp].
Qed.
Print Assumptions C17_owner_copy_after_wait.

(* a receive-side flush task of d makes the owner's storage the current version of d, and it stays so
   as long as no task placed on another rank writes d: with the theorem above, after flush + wait the
   owner holds the sequential value of d *)
Theorem C17_flush_brings_version_home : forall owner fp f d w,
  f < length fp -> ftask_at fp f = FFlush (owner d) d -> f < w ->
  (forall j r t, f < j < w -> ftask_at fp j = FUser r t -> writes t d = true -> r = owner d) ->
  (forall j r, f < j < w -> ftask_at fp j = FFlush r d -> r = owner d) ->
  inpl owner fp w d = true.
Proof. intros owner fp f d w Hf HF. now apply inpl_after_flush. Qed.
Print Assumptions C17_flush_brings_version_home.

(* at the end of a complete run *)
Theorem C17_owner_copy_final : forall owner body fp waits g m0,
  wfb owner fp waits = true -> forall es d,
  let s := frun owner body fp waits g m0 es in
  all_done (prog_of fp) (eng s) = true -> inpl owner fp (length fp) d = true ->
  home s d = snd (seq_dtd body (uprog fp) m0) d.
Proof.
  intros owner body fp waits g m0 Hwf es d. exact (owner_copy_final owner body fp waits g m0 (wfb_wf owner fp waits Hwf) es d).
Qed.
Print Assumptions C17_owner_copy_final.

(* flush tasks are transparent: inserting flushes (of any tile, touched or not, any number of times,
   anywhere) changes neither what the user tasks observe nor the values, in the sequential reference *)
Theorem C17_flush_transparent : forall body fp m0,
  users fp (fst (seq_dtd (fbody_of body fp) (prog_of fp) m0)) = fst (seq_dtd body (uprog fp) m0) /\
  forall d, snd (seq_dtd (fbody_of body fp) (prog_of fp) m0) d = snd (seq_dtd body (uprog fp) m0) d.
Proof. exact flush_transparent. Qed.
Print Assumptions C17_flush_transparent.

(* ... and in every execution: every task (in particular one inserted after a flush and the wait)
   observes the values of the sequential execution, and the current versions at the end are its result *)
Theorem C17_observations_sequential : forall owner body fp waits g m0,
  wfb owner fp waits = true -> forall es,
  let s := eng (frun owner body fp waits g m0 es) in
  (forall t i, obs s t = Some i ->
     t < length fp /\ i = nth t (fst (seq_dtd (fbody_of body fp) (prog_of fp) m0)) []) /\
  (all_done (prog_of fp) s = true -> forall d, memo s d = snd (seq_dtd body (uprog fp) m0) d).
Proof.
  intros owner body fp waits g m0 Hwf es. exact (flush_observations owner body fp waits g m0 (wfb_wf owner fp waits Hwf) es).
Qed.
Print Assumptions C17_observations_sequential.

(* the sequential value is the output of the last inserted task that writes the datum, or the initial value *)
Theorem C17_last_written_value : forall body p m0 d,
  (forall j, j < length p -> writes (task_at p j) d = true ->
     (forall i, j < i < length p -> writes (task_at p i) d = false) ->
     snd (seq_dtd body p m0) d = body j (nth j (fst (seq_dtd body p m0)) [])) /\
  ((forall j, j < length p -> writes (task_at p j) d = false) -> snd (seq_dtd body p m0) d = m0 d).
Proof.
  intros body p m0 d. split.
  - intros j Hj Hw Hn. now apply seq_final_last_writer.
  - apply seq_final_unwritten.
Qed.
Print Assumptions C17_last_written_value.

(* reads (of a whole tile or of its leading part: the model works on tile values, a tile is moved as a whole by
   the datatype of its first access) change no value, do not move a version and do not touch the owner's storage:
   they do not change what a flush returns *)
Theorem C17_reads_do_not_change_what_a_flush_returns : forall owner body k r t, (forall d, writes t d = false) ->
  (forall m d, exec_task body k t m d = m d) /\
  (forall ip d, inpl_step owner ip (FUser r t) d = ip d) /\
  (forall fp j v h d, ftask_at fp j = FUser r t -> home_update owner fp j v h d = h d).
Proof. exact read_only_transparent. Qed.
Print Assumptions C17_reads_do_not_change_what_a_flush_returns.

(* the API level: what the calls insert.  After parsec_dtd_data_flush(d) the current version of d is
   the owner's storage; after parsec_dtd_data_flush_all (followed by waits) that of every tile is;
   the user tasks of the inserted sequence are the application's tasks *)
Theorem C17_flush_call_brings_home : forall owner ops d,
  let c := compile owner (ops ++ [OFlush d]) in inpl owner (c_out c) (length (c_out c)) d = true.
Proof. exact compile_flush_clean. Qed.
Print Assumptions C17_flush_call_brings_home.

Theorem C17_flush_all_call_brings_home : forall owner ops tail, (forall o, In o tail -> o = OWait) -> forall d,
  let c := compile owner (ops ++ OFlushAll :: tail) in inpl owner (c_out c) (length (c_out c)) d = true.
Proof. exact compile_flush_all_clean. Qed.
Print Assumptions C17_flush_all_call_brings_home.

(* the property as the application sees it: insert any tasks / flushes / waits (respecting the contract),
   end with flush_all and a wait: every owner holds, for each of its tiles, the value of the sequential
   execution of the application's tasks, whichever ranks ran them *)
Theorem C17_flush_all_returns_last_written : forall owner body ops g m0,
  let c := compile owner (ops ++ [OFlushAll; OWait]) in
  wfb owner (c_out c) (c_waits c) = true -> forall es,
  let s := frun owner body (c_out c) (c_waits c) g m0 es in
  all_done (prog_of (c_out c)) (eng s) = true ->
  forall d, home s d = snd (seq_dtd body (utasks ops) m0) d.
Proof.
  intros owner body ops g m0 c Hwf es s Hd d.
  assert (Hu : uprog (c_out c) = utasks ops).
  { unfold c. rewrite compile_uprog. unfold utasks. rewrite flat_map_app. cbn. now rewrite app_nil_r. }
  rewrite <- Hu. apply (C17_owner_copy_final owner body (c_out c) (c_waits c) g m0 Hwf es d Hd).
  apply (compile_flush_all_clean owner ops [OWait]). intros o [<-|[]]. reflexivity.
Qed.
Print Assumptions C17_flush_all_returns_last_written.

(* no reachable state is stuck before every task is done (waits included), for every window that lets
   the inserting thread insert when nothing is pending *)
Theorem C17_progress : forall owner body fp waits g m0,
  wfb owner fp waits = true -> (forall i, g i i = true) -> forall es,
  all_done (prog_of fp) (eng (frun owner body fp waits g m0 es)) = false ->
  exists e, enabled (prog_of fp) (rdep owner fp) (wait_gate waits g) (eng (frun owner body fp waits g m0 es)) e = true.
Proof.
  intros owner body fp waits g m0 Hwf Hg es. now apply flush_progress; [apply wfb_wf|].
Qed.
Print Assumptions C17_progress.

(* non-vacuity.  2 ranks, tile 0 owned by rank 0, tile 1 by rank 1.  T0 on rank 1 writes both tiles,
   T1 on rank 0 reads tile 0 and rewrites tile 1; flush(0) in the middle; T2 on rank 1 reads tile 1;
   flush_all; wait; T3 on rank 0 (after the wait) rewrites tile 0 in the owner's storage;
   flush(1); flush(0); flush_all; wait.
   An interleaved schedule with refused events (Begin before the dependencies ended, Insert at a wait). *)
Definition C17_ex_owner : datum -> rank := fun d => d.
Definition C17_ex_ops : list op :=
  [OTask 1 [(0,RW);(1,RW)]; OTask 0 [(0,R);(1,W)]; OFlush 0; OTask 1 [(1,R)]; OFlushAll; OWait;
   OTask 0 [(0,RW)]; OFlush 1; OFlush 0].
Definition C17_ex_es : list event :=
  [Insert; Insert; Begin 1; Begin 0; Insert; Insert; Begin 2; End 0; Begin 1; Insert; Begin 4; End 1; Begin 2; Begin 4;
   Insert; Insert; Insert; End 4; Begin 5; End 2; Begin 3; End 5; End 3; Begin 6; Insert; End 6; Insert; Begin 7; Insert;
   Begin 8; End 7; Begin 8; End 8; Insert].
Example C17_example :
  let c := compile C17_ex_owner (C17_ex_ops ++ [OFlushAll; OWait]) in
  c_out c = [FUser 1 [(0,RW);(1,RW)]; FUser 0 [(0,R);(1,W)]; FFlush 1 0; FFlush 0 0; FUser 1 [(1,R)];
             FFlush 0 1; FFlush 1 1; FUser 0 [(0,RW)]; FFlush 0 0] /\
  c_waits c = [9; 7] /\ wfb C17_ex_owner (c_out c) (c_waits c) = true /\
  (let s := frun C17_ex_owner fbody (c_out c) (c_waits c) no_window mem0 C17_ex_es in
   all_done (prog_of (c_out c)) (eng s) = true /\
   map (home s) [0;1] = map (snd (seq_dtd fbody (utasks C17_ex_ops) mem0)) [0;1] /\
   map (home s) [0;1] = [269832; 268778]%N) /\
  (* before the flushes have run the owner of tile 0 still holds the initial value *)
  (let s := frun C17_ex_owner fbody (c_out c) (c_waits c) no_window mem0 [Insert; Begin 0; End 0] in
   home s 0 = 100%N /\ memo (eng s) 0 = 74565%N).
Proof. vm_compute. repeat split. Qed.

(* the timing of the flush is not a parameter: the theorems hold for every event list.  A writer chain that leaves
   the owner and returns (rank 0 owns tile 0; writers on ranks 0, 1, 0: the last writer works on a copy, inpl = false),
   flushed EARLY (the flush task is inserted while the writers are pending: tile->last_user alive) and LATE (after they
   have all ended: the not-alive branch of parsec_insert_dtd_flush_task): in both runs the owner's storage ends with
   the value of the last writer, and before the flush task has run it still holds the value of the first one *)
Definition C17_bounce_ops : list op := [OTask 0 [(0,RW)]; OTask 1 [(0,RW)]; OTask 0 [(0,RW)]; OFlush 0; OWait].
Example C17_early_and_late_flush :
  let c := compile C17_ex_owner C17_bounce_ops in
  let run := frun C17_ex_owner fbody (c_out c) (c_waits c) no_window mem0 in
  let early := [Insert; Insert; Insert; Insert; Begin 0; End 0; Begin 1; End 1; Begin 2; End 2; Begin 3; End 3] in
  let late := [Insert; Begin 0; End 0; Insert; Begin 1; End 1; Insert; Begin 2; End 2; Insert; Begin 3; End 3] in
  c_out c = [FUser 0 [(0,RW)]; FUser 1 [(0,RW)]; FUser 0 [(0,RW)]; FFlush 0 0] /\
  inpl C17_ex_owner (c_out c) 3 0 = false /\ wfb C17_ex_owner (c_out c) (c_waits c) = true /\
  home (run early) 0 = snd (seq_dtd fbody (utasks C17_bounce_ops) mem0) 0 /\
  home (run late) 0 = snd (seq_dtd fbody (utasks C17_bounce_ops) mem0) 0 /\
  home (run (firstn 11 late)) 0 = hd 0%N (nth 1 (fst (seq_dtd fbody (utasks C17_bounce_ops) mem0)) []) /\
  home (run late) 0 <> home (run (firstn 11 late)) 0.
Proof. vm_compute. repeat split; discriminate. Qed.

(* the contract is needed: without the wait, a task inserted after the flush of a tile is chained behind
   nothing and may run before the tasks that precede the flush *)
Example C17_unwaited_flush_refuted :
  let c := compile C17_ex_owner [OTask 1 [(0,RW)]; OFlush 0; OTask 0 [(0,R)]] in
  wfb C17_ex_owner (c_out c) (c_waits c) = false /\
  (let s := eng (frun C17_ex_owner fbody (c_out c) (c_waits c) no_window mem0
                   [Insert; Insert; Insert; Insert; Begin 3; End 3]) in
   obs s 3 = Some [100%N] /\ nth 3 (fst (seq_dtd (fbody_of fbody (c_out c)) (prog_of (c_out c)) mem0)) [] = [2349%N]).
Proof. vm_compute. repeat split. Qed.
