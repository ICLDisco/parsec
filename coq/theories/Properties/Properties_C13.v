(* C13 — Collective activations reach each destination exactly once.
   Proofs live in Bcast/*.v.  Model: Bcast/BcastDefs.v
   (bit-level mirror of parsec_remote_dep_activate, closed over the ranks).

   Full statement of the property: for every nb_nodes, root, family of destination
   sets (one per output) and topology, (1) every rank that consumes an output
   receives exactly one activation, nobody else receives one; (2) for every output k
   and every consumer r of k, the activation r receives announces k and its sender
   holds k.  (1) is proved in full.  (2) is FALSE of the code for chain/binomial when
   the sets overlap without being equal (C13_payload_refuted); it is proved for star,
   for families whose sets are pairwise equal or disjoint, and characterised exactly
   by relay_lacks_output = false. *)
From PV Require Import Base.Tac Bcast.BcastDefs Bcast.BcastBits Bcast.BcastTopo Bcast.BcastProofs.
From PV Require Gen.Gen_bcast Gen.GenEq_bcast.
From Coq Require Import NArith.
Local Open Scope N_scope.

(* (1) every rank of the union of the destination sets other than the root receives
   exactly one activation message over the whole propagation, every other rank none *)
Theorem C13_activation_exactly_once : forall n root sets t,
  n < 2 ^ 31 -> root < n -> (forall s, In s sets -> forall r, In r s -> r < n) ->
  forall r, recv_count r (all_msgs (propagate n root sets (child_fn t))) =
            if is_dest root sets r then 1%nat else 0%nat.
Proof. exact activation_exactly_once. Qed.
Print Assumptions C13_activation_exactly_once.

(* the breadth-first closure is complete after nb_nodes rounds *)
Theorem C13_propagation_terminates : forall n root sets t,
  n < 2 ^ 31 -> root < n -> (forall s, In s sets -> forall r, In r s -> r < n) ->
  leftover (propagate n root sets (child_fn t)) = [].
Proof. exact propagation_terminates. Qed.
Print Assumptions C13_propagation_terminates.

(* what the packed message announces: output k iff the receiver consumes k and the
   sender holds k (it is the root or consumes k) *)
Theorem C13_announced_iff : forall n root sets t,
  n < 2 ^ 31 -> root < n -> (forall s, In s sets -> forall r, In r s -> r < n) ->
  forall m k, In m (all_msgs (propagate n root sets (child_fn t))) ->
  N.testbit (m_ann m) (N.of_nat k) =
  mem (m_dst m) (nth k sets []) && ((m_src m =? root) || mem (m_src m) (nth k sets [])).
Proof. exact announced_iff. Qed.
Print Assumptions C13_announced_iff.

(* (2) holds with the star topology: only the root sends *)
Theorem C13_payload_star : forall n root sets,
  n < 2 ^ 31 -> root < n -> (forall s, In s sets -> forall r, In r s -> r < n) ->
  payload_ok n root sets (child_fn Star).
Proof.
  intros n root sets Hn Hr Hs. apply (payload_from_senders n root sets Star); auto.
  intros m Hm k _. left. now apply (star_only_root n root sets Star).
Qed.
Print Assumptions C13_payload_star.

(* (2) holds with every topology when the sets are pairwise equal or disjoint *)
Theorem C13_payload_same_or_disjoint : forall n root sets t,
  n < 2 ^ 31 -> root < n -> (forall s, In s sets -> forall r, In r s -> r < n) ->
  same_or_disjoint root sets -> payload_ok n root sets (child_fn t).
Proof. exact payload_same_or_disjoint. Qed.
Print Assumptions C13_payload_same_or_disjoint.

(* the exact condition: (2) holds iff no consumer is activated through a relay lacking the output *)
Theorem C13_payload_iff_no_relay_lacks_output : forall n root sets t,
  n < 2 ^ 31 -> root < n -> (forall s, In s sets -> forall r, In r s -> r < n) ->
  payload_ok n root sets (child_fn t) <-> relay_lacks_output n root sets (child_fn t) = false.
Proof. exact payload_iff. Qed.
Print Assumptions C13_payload_iff_no_relay_lacks_output.

(* under (2) every consumer of k gets k announced by exactly one message *)
Theorem C13_each_output_once : forall n root sets t,
  n < 2 ^ 31 -> root < n -> (forall s, In s sets -> forall r, In r s -> r < n) ->
  payload_ok n root sets (child_fn t) ->
  forall k r, mem r (nth k sets []) = true -> r <> root ->
  exists m, In m (all_msgs (propagate n root sets (child_fn t))) /\ m_dst m = r /\
            N.testbit (m_ann m) (N.of_nat k) = true /\
            (m_src m = root \/ mem (m_src m) (nth k sets []) = true) /\
            forall m', In m' (all_msgs (propagate n root sets (child_fn t))) -> m_dst m' = r -> m' = m.
Proof. exact each_output_once. Qed.
Print Assumptions C13_each_output_once.

(* (2) is false of the code: 3 ranks, root 0, output 0 -> {1,2}, output 1 -> {2}, chain
   (the default): rank 2 is activated by relay 1, which never holds output 1 *)
Theorem C13_payload_refuted : exists n root sets t,
  n < 2 ^ 31 /\ root < n /\ (forall s, In s sets -> forall r, In r s -> r < n) /\
  relay_lacks_output n root sets (child_fn t) = true /\ ~ payload_ok n root sets (child_fn t).
Proof.
  exists 3, 0, [[1; 2]; [2]], Chain.
  assert (H1 : 3 < 2 ^ 31) by reflexivity.
  assert (H2 : 0 < 3) by reflexivity.
  assert (H3 : forall s, In s [[1; 2]; [2]] -> forall r, In r s -> r < 3).
  { intros s [<-|[<-|[]]] r; cbn [In]; lia. }
  assert (H4 : relay_lacks_output 3 0 [[1; 2]; [2]] (child_fn Chain) = true) by (vm_compute; reflexivity).
  repeat split; auto.
  intros Hp. apply (proj1 (payload_iff 3 0 [[1; 2]; [2]] Chain H1 H2 H3)) in Hp. congruence.
Qed.
Print Assumptions C13_payload_refuted.

(* the same witness with the binomial tree needs 4 ranks *)
Theorem C13_payload_refuted_binomial :
  relay_lacks_output 4 0 [[1; 2; 3]; [3]] (child_fn Binomial) = true.
Proof. vm_compute. reflexivity. Qed.
Print Assumptions C13_payload_refuted_binomial.

(* the bit mapping of remote_dep.h is a bijection between ranks and (bank, bit) positions *)
Theorem C13_bit_mapping_bijective : forall n root,
  root < n ->
  (forall rank, rank < n ->
     let '(b, i) := rank_to_bit n root rank in
     bit_to_rank n root b i = rank /\ i < 32 /\ b * 32 + i < n) /\
  (forall b i, i < 32 -> b * 32 + i < n ->
     bit_to_rank n root b i < n /\ rank_to_bit n root (bit_to_rank n root b i) = (b, i)).
Proof.
  intros n root Hr. split.
  - intros rank Hk. now apply rank_to_bit_to_rank.
  - intros b i Hi Hb. now apply bit_to_rank_to_bit.
Qed.
Print Assumptions C13_bit_mapping_bijective.

(* each of the three child predicates gives every index q >= 1 exactly one parent in [0, q) *)
Theorem C13_unique_parent : forall t q, (1 <= q < 2 ^ 31)%Z ->
  (0 <= parent_idx t q < q)%Z /\
  forall p, (0 <= p)%Z -> (child_fn t p q = true <-> p = parent_idx t q).
Proof.
  intros t q Hq. split; [apply parent_idx_range; lia|]. intros p Hp. now apply unique_parent.
Qed.
Print Assumptions C13_unique_parent.

(* translator tie: the three child predicates the theorems above are about are the C functions
   remote_dep_bcast_{star,chainpipeline,binomial}_child of parsec/remote_dep.c, translated from the
   current C text on every run (Gen/Gen_bcast.v, tools/c2gallina.py), for every pair of ints *)
Theorem C13_child_predicates_are_the_code : forall t me him,
  (match t with
   | Star => PV.Gen.Gen_bcast.remote_dep_bcast_star_child me him
   | Chain => PV.Gen.Gen_bcast.remote_dep_bcast_chainpipeline_child me him
   | Binomial => PV.Gen.Gen_bcast.remote_dep_bcast_binomial_child me him
   end) = if child_fn t me him then 1%Z else 0%Z.
Proof.
  intros [] me him; [apply GenEq_bcast.star_eq|apply GenEq_bcast.chain_eq|apply GenEq_bcast.binomial_eq].
Qed.
Print Assumptions C13_child_predicates_are_the_code.

(* non-vacuity: 8 ranks, root 3, two overlapping outputs, binomial tree: the hypotheses
   hold, seven ranks are activated once each; and an instance of the positive payload theorem *)
Example C13_example :
  map (fun r => recv_count r (all_msgs (propagate 8 3 [[0;1;2;4;5;6;7]; [1;2;3]] (child_fn Binomial))))
      [0;1;2;3;4;5;6;7] = [1;1;1;0;1;1;1;1]%nat /\
  map (fun m => (m_src m, m_dst m)) (all_msgs (propagate 8 3 [[0;1;2;4;5;6;7]; [1;2;3]] (child_fn Binomial))) =
      [(3,4); (3,5); (3,7); (4,6); (4,0); (5,1); (6,2)] /\
  relay_lacks_output 8 3 [[0;1;2;4;5;6;7]; [0;1;2;4;5;6;7]] (child_fn Chain) = false /\
  relay_lacks_output 8 3 [[0;1;2;4;5;6;7]; [1;2;3]] (child_fn Binomial) = true.
Proof. vm_compute. repeat split. Qed.
