(* C16 — Deferred tasks are re-run, never lost or duplicated.
   The proofs rest on Again/AgainProofs.v.

   Models (Again/AgainDefs.v):
   * `progress` = __parsec_task_progress + __parsec_execute (parsec/scheduling.c) on the task's
     status and priority; `trun a k p ds` = the successive calls for a task whose prepare_input
     returns AGAIN a times and whose hook returns AGAIN k times, starting with priority p, the
     scheduler handing it over at the distances ds (arbitrary);
   * `sys_run` = several such tasks and a scheduler that keeps exactly what it is given (C08's
     conservation), selecting in an arbitrary order;
   * `ptg_arun` = C01's dataflow engine on the instances of a program with the events
     Again t / Rerun t (any schedule; events that are not enabled are no-ops);
   * `startup_chunks` = what the successive invocations of the generated startup function
     create: the loop nest is resumed from the locals saved in the pseudo task
     (`first_env` / `next_env`), batches are flushed and AGAIN is returned by the
     task_startup_iter / task_startup_chunk rule (`invocation`). *)
From Coq Require Import ZArith List Arith Lia.
From PV Require Import Base.Tac PTG.PTGDefs PTG.Engine PTG.EngineProofs PTG.PTGProofs
     PTGVal.PTGValDefs Again.AgainDefs Again.AgainProofs.
Import ListNotations.

(* (i) a body returning AGAIN k times is invoked exactly k+1 times, release_deps runs once, in
   the call of the last invocation; prepare_input (a deferrals) runs a+1 times; the priorities seen
   by the invocations are the successive demotions; whatever the distances *)
Theorem C16_body_invoked_k_plus_1_times : forall a k p ds, length ds = a + k + 1 ->
  ts_hook (trun a k p ds) = S k /\ ts_pi (trun a k p ds) = S a /\ ts_rel (trun a k p ds) = 1
  /\ ts_queued (trun a k p ds) = false
  /\ rev (ts_prios (trun a k p ds)) = iter_demote (S k) (dem a p).
Proof.
  intros a k p ds Hl. rewrite trun_expect, expect_hi by lia.
  cbn [ts_hook ts_pi ts_rel ts_queued ts_prios]. rewrite rev_involutive. repeat split; reflexivity.
Qed.
Print Assumptions C16_body_invoked_k_plus_1_times.

(* until then the task is in the scheduler after every call (never lost), nothing is released *)
Theorem C16_pending_task_stays_scheduled : forall a k p ds, length ds < a + k + 1 ->
  ts_queued (trun a k p ds) = true /\ ts_rel (trun a k p ds) = 0 /\ ts_hook (trun a k p ds) <= k
  /\ (ts_hook (trun a k p ds) = 0 <-> length ds <= a).
Proof.
  intros a k p ds Hl. rewrite trun_expect. destruct (le_lt_dec (length ds) a) as [H|H].
  - rewrite expect_lo by assumption. cbn [ts_hook ts_rel ts_queued]. repeat split; lia.
  - rewrite expect_mid by lia. cbn [ts_hook ts_rel ts_queued]. repeat split; lia.
Qed.
Print Assumptions C16_pending_task_stays_scheduled.

(* afterwards nothing more happens: no second release, no further invocation *)
Theorem C16_no_duplicate_after_completion : forall a k p ds, a + k + 1 <= length ds ->
  trun a k p ds = expect a k p (a + k + 1).
Proof. intros a k p ds Hl. rewrite trun_expect, !expect_hi by lia. reflexivity. Qed.
Print Assumptions C16_no_duplicate_after_completion.

(* a hook AGAIN does not look the inputs up again (status = HOOK skips prepare_input) *)
Theorem C16_hook_again_keeps_inputs : forall a k p ds,
  0 < ts_hook (trun a k p ds) -> ts_pi (trun a k p ds) = S a.
Proof.
  intros a k p ds. rewrite trun_expect. unfold expect.
  destruct (Nat.leb (length ds) a); cbn [ts_hook ts_pi]; [lia|].
  destruct (Nat.leb (length ds) (a + k)); cbn [ts_hook ts_pi]; reflexivity.
Qed.
Print Assumptions C16_hook_again_keeps_inputs.

(* demotion stays inside int32 and strictly lowers a positive priority *)
Theorem C16_demotion_int32 : forall p, (-2147483648 <= p <= 2147483647)%Z -> (-2147483648 <= demote p <= 2147483647)%Z.
Proof.
  intros p H. unfold demote. destruct (p =? 0)%Z eqn:E; [lia|].
  destruct (Z_le_gt_dec 0 p).
  - pose proof (Z.quot_rem' p 10). pose proof (Z.rem_bound_pos p 10). lia.
  - destruct (quot10_neg p) as (q & r & -> & H1 & H2); lia.
Qed.
Print Assumptions C16_demotion_int32.
Theorem C16_demotion_lowers_positive : forall p, (0 < p)%Z -> (0 <= demote p < p)%Z.
Proof.
  intros p H. unfold demote. replace (p =? 0)%Z with false by (symmetry; apply Z.eqb_neq; lia).
  pose proof (Z.quot_rem' p 10). pose proof (Z.rem_bound_pos p 10). lia.
Qed.
Print Assumptions C16_demotion_lowers_positive.
(* observation: a NEGATIVE priority is raised towards 0 by the "demotion", and 0 / -1 alternate *)
Theorem C16_demotion_raises_negative : forall p, (p < 0)%Z -> (p < demote p <= 0)%Z.
Proof.
  intros p H. unfold demote. replace (p =? 0)%Z with false by (symmetry; apply Z.eqb_neq; lia).
  destruct (quot10_neg p H) as (q & r & -> & H1 & H2). lia.
Qed.
Print Assumptions C16_demotion_raises_negative.

(* with a scheduler that keeps what it is given, whatever it selects: a task that has not released
   its dependencies is in the ready list exactly once ... *)
Theorem C16_never_lost_never_duplicated : forall scripts prios, length prios = length scripts ->
  forall cs j ts, nth_error (sy_tasks (sys_run scripts prios cs)) j = Some ts -> ts_rel ts = 0 ->
  count_occ Nat.eq_dec (sy_ready (sys_run scripts prios cs)) j = 1.
Proof. intros scripts prios Hlen cs. exact (unreleased_task_is_ready_once scripts prios _ (SInv_run scripts prios Hlen cs)). Qed.
Print Assumptions C16_never_lost_never_duplicated.
(* ... an empty scheduler means every task was invoked k+1 times and released once ... *)
Theorem C16_empty_scheduler_all_complete : forall scripts prios, length prios = length scripts ->
  forall cs, sy_ready (sys_run scripts prios cs) = [] ->
  forall j ts a k, nth_error (sy_tasks (sys_run scripts prios cs)) j = Some ts -> nth_error scripts j = Some (a, k) ->
  ts_hook ts = S k /\ ts_pi ts = S a /\ ts_rel ts = 1.
Proof. intros scripts prios Hlen cs. exact (empty_scheduler_all_complete scripts prios _ (SInv_run scripts prios Hlen cs)). Qed.
Print Assumptions C16_empty_scheduler_all_complete.
(* ... and a non-empty one makes some task advance at the next selection *)
Theorem C16_scheduler_progress : forall scripts prios, length prios = length scripts ->
  forall cs c, sy_ready (sys_run scripts prios cs) <> [] ->
  exists j a k p m, nth_error scripts j = Some (a, k) /\ nth_error prios j = Some p
    /\ nth_error (sy_tasks (sys_run scripts prios cs)) j = Some (expect a k p m)
    /\ ts_queued (expect a k p m) = true
    /\ nth_error (sy_tasks (sys_run scripts prios (cs ++ [c]))) j = Some (expect a k p (S m)).
Proof.
  intros scripts prios Hlen cs c Hne. set (s := sys_run scripts prios cs) in *.
  assert (Hrun : sys_run scripts prios (cs ++ [c]) = sys_step scripts s c)
    by (unfold sys_run; rewrite fold_left_app; reflexivity).
  destruct (sys_step_selects scripts prios s c (SInv_run scripts prios Hlen cs) Hne)
    as (j & rest & a & k & p & m & _ & _ & _ & Es & Ep & Ets & Hq & Est).
  exists j, a, k, p, m. rewrite Hrun, Est. repeat split; try assumption.
  cbn [sy_tasks]. apply set_nth_same. apply nth_error_Some. congruence.
Qed.
Print Assumptions C16_scheduler_progress.

(* in the dataflow engine, for every well-formed program, every AGAIN count per instance and
   EVERY schedule: at most k+1 invocations and one release ... *)
Theorem C16_engine_invocations_bounded : forall P, wf_program P = true -> forall kagain evs t,
  count_occ tid_eq_dec (invokes tid (alog tid (ptg_arun P kagain evs))) t <= S (kagain t)
  /\ count_occ tid_eq_dec (releases tid (alog tid (ptg_arun P kagain evs))) t <= 1.
Proof.
  intros P Hwf kagain. destruct (wf_with_engine data_inputs_ok P Hwf) as (_ & Hconv & Hsucc & Hpred & Hrank).
  apply (invocations_bounded tid tid_eq_dec (instances P) (preds P) (succs P) kagain Hconv Hsucc).
Qed.
Print Assumptions C16_engine_invocations_bounded.
(* ... the successors are released after the (k+1)-th invocation, which is the last ... *)
Theorem C16_engine_release_after_last_invocation : forall P, wf_program P = true -> forall kagain evs l1 l2 t,
  alog tid (ptg_arun P kagain evs) = l2 ++ ARelease t :: l1 ->
  count_occ tid_eq_dec (invokes tid l1) t = S (kagain t) /\ count_occ tid_eq_dec (invokes tid l2) t = 0.
Proof.
  intros P Hwf kagain. destruct (wf_with_engine data_inputs_ok P Hwf) as (_ & Hconv & Hsucc & Hpred & Hrank).
  apply (release_after_last_invocation tid tid_eq_dec (instances P) (preds P) (succs P) kagain Hconv Hsucc).
Qed.
Print Assumptions C16_engine_release_after_last_invocation.
(* ... every invocation of a task, first or repeated, follows the release of all its predecessors ... *)
Theorem C16_engine_invocation_after_predecessors : forall P, wf_program P = true -> forall kagain evs l1 l2 t,
  alog tid (ptg_arun P kagain evs) = l2 ++ AInvoke t :: l1 -> forall p, In p (preds P t) -> In (ARelease p) l1.
Proof.
  intros P Hwf kagain. destruct (wf_with_engine data_inputs_ok P Hwf) as (_ & Hconv & Hsucc & Hpred & Hrank).
  apply (invocation_after_predecessors_released tid tid_eq_dec (instances P) (preds P) (succs P) kagain Hconv Hsucc).
Qed.
Print Assumptions C16_engine_invocation_after_predecessors.
(* ... a started task can always move on (re-run, defer again, or complete) ... *)
Theorem C16_engine_running_task_can_move : forall P, wf_program P = true -> forall kagain evs t,
  st tid (acore tid (ptg_arun P kagain evs)) t = Running ->
  exists e, (e = Again t \/ e = Rerun t \/ e = AE (End t))
            /\ alog tid (astep tid tid_eq_dec (instances P) (succs P) kagain (ptg_arun P kagain evs) e)
               <> alog tid (ptg_arun P kagain evs).
Proof.
  intros P Hwf kagain. destruct (wf_with_engine data_inputs_ok P Hwf) as (_ & Hconv & Hsucc & Hpred & Hrank).
  apply (running_task_can_move tid tid_eq_dec (instances P) (preds P) (succs P) kagain Hconv Hsucc).
Qed.
Print Assumptions C16_engine_running_task_can_move.
(* ... and when nothing can happen any more every instance is done, invoked exactly k+1 times, released once *)
Theorem C16_engine_complete_run : forall P, wf_program P = true -> forall kagain evs,
  ptg_aquiescent P (ptg_arun P kagain evs) ->
  forall t, In t (instances P) ->
    st tid (acore tid (ptg_arun P kagain evs)) t = Done
    /\ count_occ tid_eq_dec (invokes tid (alog tid (ptg_arun P kagain evs))) t = S (kagain t)
    /\ count_occ tid_eq_dec (releases tid (alog tid (ptg_arun P kagain evs))) t = 1.
Proof.
  intros P Hwf kagain. destruct (wf_with_engine data_inputs_ok P Hwf) as (_ & Hconv & Hsucc & Hpred & Hrank).
  apply (quiescent_all_invoked tid tid_eq_dec (instances P) (preds P) (succs P) kagain Hconv Hsucc Hpred (ptg_rank P) Hrank).
Qed.
Print Assumptions C16_engine_complete_run.

(* (ii) chunked startup.  Resuming from the saved locals enumerates the execution space of
   the loop nest, in order, for every list of locals (ranges with dependent bounds, derived locals) *)
Theorem C16_resumed_enumeration_is_execution_space : forall G ls fuel,
  length (enum G ls []) <= fuel -> walk G ls fuel = enum G ls [].
Proof. exact walk_is_enum. Qed.
Print Assumptions C16_resumed_enumeration_is_execution_space.
(* for all task_startup_iter, task_startup_chunk (0 included): the invocations create every instance once, in order *)
Theorem C16_chunks_concat : forall (A : Type) iter chunk fuel (l : list A), length l < fuel ->
  concat (chunks fuel iter chunk l) = l.
Proof. exact @chunks_concat. Qed.
Print Assumptions C16_chunks_concat.
(* an invocation that returns AGAIN has created at least one task *)
Theorem C16_again_invocation_progresses : forall (A : Type) iter chunk (l : list A),
  let '(c, rest, again) := invocation iter chunk 1 0 0 l [] in again = true -> c <> [].
Proof.
  intros A iter chunk l. pose proof (invocation_spec iter chunk l [] 1 0 0) as H.
  destruct (invocation iter chunk 1 0 0 l []) as [[c rest] again]. destruct H as (H1 & _ & H3).
  intros Ha Hc. specialize (H3 Ha). subst c. cbn [rev app] in H1. subst rest. lia.
Qed.
Print Assumptions C16_again_invocation_progresses.
(* together, for every class of every program: each startup instance exactly once, in enumeration order *)
Theorem C16_startup_instances_exactly_once : forall P ci c iter chunk,
  concat (startup_chunks P ci c iter chunk) = startup_space P ci c.
Proof.
  intros P ci c iter chunk. unfold startup_chunks, startup_space, instances_of.
  rewrite walk_is_enum by lia. apply chunks_concat. lia.
Qed.
Print Assumptions C16_startup_instances_exactly_once.

(* non-vacuity *)
(* a task deferred twice by prepare_input and three times by its body, priority 25 *)
Example C16_example_task :
  let s := trun 2 3 25 [1; 7; 0; 3; 2; 9]%nat in
  ts_pi s = 3 /\ ts_hook s = 4 /\ ts_rel s = 1 /\ ts_queued s = false
  /\ rev (ts_prios s) = [0; -1; 0; -1]%Z
  /\ ts_rel (trun 2 3 25 [1; 7; 0; 3; 2]%nat) = 0 /\ ts_queued (trun 2 3 25 [1; 7; 0; 3; 2]%nat) = true.
Proof. vm_compute. repeat split. Qed.

(* three tasks, the scheduler picking in a scrambled order: all complete, none twice *)
Example C16_example_sys :
  let s := sys_run [(0, 2); (1, 0); (0, 0)]%nat [5; 0; -7]%Z [2; 0; 1; 5; 3; 0; 1; 4; 2; 2]%nat in
  sy_ready s = [] /\ map ts_hook (sy_tasks s) = [3; 1; 1] /\ map ts_rel (sy_tasks s) = [1; 1; 1]
  /\ map ts_pi (sy_tasks s) = [1; 2; 1].
Proof. vm_compute. repeat split. Qed.

(* a triangular space with a derived local and a step, cut by task_startup_iter = 1, task_startup_chunk = 1:
     T(k, m)  k = 0 .. 2   h = 2 * k   m = 1 .. h .. 2                                      *)
Definition ex_tri : program :=
  {| p_globals := [];
     p_classes := [ {| c_locals := [Lrange (Ec 0) (Ec 2) (Ec 1); Ldef (Eb Omul (Ec 2) (El 0));
                                    Lrange (Ec 1) (El 1) (Ec 2)];
                       c_params := [0%nat; 2%nat]; c_place := [Ec 0];
                       c_flows := [ {| f_mode := MRead; f_deps := [ {| d_in := true; d_guard := None; d_then := Tmem [Ec 0]; d_else := None |} ] |} ];
                       c_prio := None; c_count := false |} ] |}.
Example C16_example_startup :
  match nth_error (p_classes ex_tri) 0 with
  | Some c =>
      startup_space ex_tri 0 c = [[1; 2; 1]; [2; 4; 1]; [2; 4; 3]]%Z
      /\ startup_chunks ex_tri 0 c 1 1 = [[[1; 2; 1]; [2; 4; 1]]; [[2; 4; 3]]]%Z
      /\ startup_chunks ex_tri 0 c 4 0 = [[[1; 2; 1]; [2; 4; 1]]; [[2; 4; 3]]]%Z
      /\ startup_chunks ex_tri 0 c 4 100 = [[[1; 2; 1]; [2; 4; 1]; [2; 4; 3]]]%Z
  | None => False
  end.
Proof. vm_compute. repeat split. Qed.
