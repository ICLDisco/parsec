(* C02 — PTG execution respects dependencies and delivers the named data.
   The statements, each taken from PTGVal/ValEngineProofs.v and PTGVal/PTGValProofs.v or derived
   from their theorems in a few lines.

   Model: PTG/PTGDefs.v (AST of the JDF subset) + PTGVal/ValEngine.v: C01's dataflow
   engine extended with data.  A flow carries a data COPY (a reference to a memory cell:
   an element D(k) of the collection, or a NEW tile); `Begin t` is the generated
   data_lookup (every flow is bound to the copy found in the producer's repository
   entry, to D(k), or to a fresh tile), `End t` is the body (reads, then writes IN PLACE)
   followed by the posting of the `-> D(k)` copies and the release of the successors;
   `VCopy i` performs a posted copy at any later moment (the communication engine).  A
   schedule is an arbitrary list of events; events that are not enabled are no-ops.

   `ptg_Vin names P t g` is the value the JDF names as input of flow g of instance t (what
   the producer's flow holds after the producer's body: `ptg_Vout`; or the initial content of
   D(k)); bodies write F(class, all locals, flow, values read) — `ptg_F`, the hash of the
   harness; the theorems of ValEngineProofs.v hold for ANY F.

   Copies are shared, not duplicated, so the statements need the program to be free of
   hazards on shared copies: `ptg_Safe P` (ValEngine.Safe), decided by `safeb P`. *)
From Coq Require Import ZArith List Permutation.
From PV Require Import Base.Tac PTG.PTGDefs PTG.Engine PTG.EngineProofs PTG.PTGProofs
     PTGVal.ValEngine PTGVal.ValEngineProofs PTGVal.PTGValDefs PTGVal.PTGValProofs.
Import ListNotations.

(* the theorems assume wf_program_fm: C01's wf_program with "exactly one input dependency of a data flow has a
   true guard" relaxed to "at least one" — the runtime takes the FIRST applicable one (parsec_check_IN_dependencies_*,
   generated data_lookup), which is what pred_edges / flow_src compute; `<- (k > 0) ? A T(k-1)  <- D(0)` is accepted *)
Theorem C02_wf_program_implies_fm : forall P, wf_program P = true -> wf_program_fm P = true.
Proof. intros P. rewrite wf_program_with, wf_program_fm_with. apply wf_with_mono, data_inputs_ok_fm. Qed.
Print Assumptions C02_wf_program_implies_fm.

(* the decision procedure run on every generated program is sound *)
Theorem C02_safe_check_sound : forall P, wf_program_fm P = true -> safeb P = true -> ptg_Safe P.
Proof. exact safeb_sound. Qed.
Print Assumptions C02_safe_check_sound.

(* the dependency part of EVERY run of the engine with data is a run of C01's engine: all
   the C01 theorems (exactly once, only instances, no deadlock) hold unchanged *)
Theorem C02_dependencies_are_C01 : forall names P evs,
  core tid (ptg_vrun names P evs) = ptg_run P (core_events tid evs).
Proof. intros names P evs. apply core_vrun. Qed.
Print Assumptions C02_dependencies_are_C01.

(* (a), first half: every Begin comes after the End of every predecessor, data and control
   (log most recent first: l1 is the past of this Begin) *)
Theorem C02_begin_after_predecessors : forall names P, wf_program_fm P = true ->
  forall evs l1 l2 t, log tid (core tid (ptg_vrun names P evs)) = l2 ++ LBegin t :: l1 ->
  forall p, In p (preds P t) -> In (LEnd p) l1.
Proof.
  intros names P H evs l1 l2 t. rewrite C02_dependencies_are_C01. apply (wf_begin_after_preds_ended data_inputs_fm P H).
Qed.
Print Assumptions C02_begin_after_predecessors.

(* (a), second half: in every reachable state, a started instance holds in each data flow fed
   by a task the very copy of its producer, the producer is done, and the copy contains the
   value the producer left in it *)
Theorem C02_started_task_holds_producer_values : forall names P, wf_program_fm P = true -> ptg_Safe P ->
  forall evs t, In t (instances P) -> st tid (core tid (ptg_vrun names P evs)) t = Running ->
  forall g p fp, flow_src P t g = STask p fp ->
    st tid (core tid (ptg_vrun names P evs)) p = Done
    /\ bind tid (ptg_vrun names P evs) t g = bind tid (ptg_vrun names P evs) p fp
    /\ rdval tid (ptg_vrun names P evs) t g = ptg_Vout names P p fp.
Proof. exact ptgval_started_inputs. Qed.
Print Assumptions C02_started_task_holds_producer_values.

(* ... and every flow (fed by a task, by D(k), NEW or NULL) shows the named value for as long
   as the instance runs: nobody else writes its copies meanwhile *)
Theorem C02_running_task_sees_named_values : forall names P, wf_program_fm P = true -> ptg_Safe P ->
  forall evs t g, In t (instances P) -> st tid (core tid (ptg_vrun names P evs)) t = Running ->
  rdval tid (ptg_vrun names P evs) t g = ptg_Vin names P t g.
Proof. exact ptgval_running_values. Qed.
Print Assumptions C02_running_task_sees_named_values.

(* what the body of a completed instance has read *)
Theorem C02_body_reads_named_values : forall names P, wf_program_fm P = true -> ptg_Safe P ->
  forall evs t, In t (instances P) -> st tid (core tid (ptg_vrun names P evs)) t = Done ->
  rlog tid (ptg_vrun names P evs) t = ptg_expected_reads names P t.
Proof. exact ptgval_observed_reads. Qed.
Print Assumptions C02_body_reads_named_values.

(* the sequential execution (instances in the topological order, then the copies) is a complete run *)
Theorem C02_sequential_execution_completes : forall names P, wf_program_fm P = true -> ptg_Safe P ->
  ptg_complete P (ptg_seq_exec names P).
Proof. exact ptgval_seq_complete. Qed.
Print Assumptions C02_sequential_execution_completes.

(* (b) every complete run, whatever its schedule, ends with the memory (collection elements
   and tiles) of the sequential execution *)
Theorem C02_final_data_equal_sequential : forall names P, wf_program_fm P = true -> ptg_Safe P ->
  forall evs, ptg_complete P (ptg_vrun names P evs) ->
  forall c, mem tid (ptg_vrun names P evs) c = mem tid (ptg_seq_exec names P) c.
Proof. exact ptgval_final_memory. Qed.
Print Assumptions C02_final_data_equal_sequential.

(* (c) the inputs observed by a task do not depend on the schedule; they are those of the
   sequential execution *)
Theorem C02_observed_inputs_schedule_independent : forall names P, wf_program_fm P = true -> ptg_Safe P ->
  forall evs1 evs2 t, In t (instances P) ->
  st tid (core tid (ptg_vrun names P evs1)) t = Done -> st tid (core tid (ptg_vrun names P evs2)) t = Done ->
  rlog tid (ptg_vrun names P evs1) t = rlog tid (ptg_vrun names P evs2) t.
Proof. exact ptgval_reads_schedule_independent. Qed.
Print Assumptions C02_observed_inputs_schedule_independent.

Theorem C02_observed_inputs_equal_sequential : forall names P, wf_program_fm P = true -> ptg_Safe P ->
  forall evs t, In t (instances P) -> st tid (core tid (ptg_vrun names P evs)) t = Done ->
  rlog tid (ptg_vrun names P evs) t = rlog tid (ptg_seq_exec names P) t.
Proof. exact ptgval_reads_sequential. Qed.
Print Assumptions C02_observed_inputs_equal_sequential.

(* the same for ANY finite DAG with flows, ANY body function F, initial collection D0 and tile
   content U0 (the form C15/C22 can reuse) *)
Theorem C02_engine_generic :
  forall (task : Type) (teq : forall a b : task, {a = b} + {a <> b}) (tasks : list task)
         (preds succs : task -> list task) (nfl : task -> nat) (src : task -> nat -> source task)
         (reads writes : task -> nat -> bool) (wbs : task -> list (nat * Z))
         (F : task -> nat -> list (nat * Z) -> Z) (D0 : Z -> Z) (U0 : task -> nat -> Z) (rank : task -> nat),
    (forall p t, In p tasks -> In t tasks -> count_occ teq (succs p) t = count_occ teq (preds t) p) ->
    (forall p s, In p tasks -> In s (succs p) -> In s tasks) ->
    (forall t p, In t tasks -> In p (preds t) -> In p tasks) ->
    (forall t p, In t tasks -> In p (preds t) -> rank p < rank t) ->
    (forall t f p fp, In t tasks -> src t f = STask p fp -> In p (preds t)) ->
    (forall t f, writes t f = true -> f < nfl t) ->
    Safe task tasks preds src writes wbs rank ->
    forall evs1 evs2,
      complete task tasks (vrun task teq tasks preds succs nfl src reads writes wbs F D0 U0 evs1) ->
      complete task tasks (vrun task teq tasks preds succs nfl src reads writes wbs F D0 U0 evs2) ->
      forall c, mem task (vrun task teq tasks preds succs nfl src reads writes wbs F D0 U0 evs1) c
                = mem task (vrun task teq tasks preds succs nfl src reads writes wbs F D0 U0 evs2) c.
Proof. exact final_memory_schedule_independent. Qed.
Print Assumptions C02_engine_generic.

(* non-vacuity.
     A(k) k = 0..1   RW X <- D(k)                 -> X B(k)           (modifies D(k) in place)
     B(k) k = 0..1   RW X <- X A(k)               -> X C(k)           (in place again, then read by C)
                     WRITE Y <- NEW               -> D(4 + k)         (a tile, written back)
     C(j) j = 0..1   READ X <- (j == 0) ? X B(0) : X B(1)
                     READ Z <- D(2 + j)                                                        *)
Definition dep_in (t : target) := {| d_in := true; d_guard := None; d_then := t; d_else := None |}.
Definition dep_out (t : target) := {| d_in := false; d_guard := None; d_then := t; d_else := None |}.
Definition k01 := Lrange (Ec 0) (Ec 1) (Ec 1).
Definition ex_prog : program :=
  {| p_globals := [];
     p_classes :=
       [ {| c_locals := [k01]; c_params := [0%nat]; c_place := [Ec 0];
            c_flows := [ {| f_mode := MRW; f_deps := [dep_in (Tmem [El 0]); dep_out (Ttask 1 0 [Aexp (El 0)])] |} ];
            c_prio := None; c_count := false |};
         {| c_locals := [k01]; c_params := [0%nat]; c_place := [Ec 0];
            c_flows := [ {| f_mode := MRW; f_deps := [dep_in (Ttask 0 0 [Aexp (El 0)]);
                                                       dep_out (Ttask 2 0 [Aexp (El 0)])] |};
                         {| f_mode := MWrite; f_deps := [dep_in Tnew; dep_out (Tmem [Eb Oadd (Ec 4) (El 0)])] |} ];
            c_prio := None; c_count := false |};
         {| c_locals := [k01]; c_params := [0%nat]; c_place := [Ec 0];
            c_flows := [ {| f_mode := MRead;
                            f_deps := [ {| d_in := true; d_guard := Some (Eb Oeq (El 0) (Ec 0));
                                           d_then := Ttask 1 0 [Aexp (Ec 0)]; d_else := Some (Ttask 1 0 [Aexp (Ec 1)]) |} ] |};
                         {| f_mode := MRead; f_deps := [dep_in (Tmem [Eb Oadd (Ec 2) (El 0)])] |} ];
            c_prio := None; c_count := false |} ] |}.
Definition ex_names : list (list Z) := [[65%Z]; [66%Z]; [67%Z]].
Definition tA (k : Z) : tid := (0%nat, [k]).
Definition tB (k : Z) : tid := (1%nat, [k]).
Definition tC (k : Z) : tid := (2%nat, [k]).
(* an interleaved schedule: both chains in flight together, copies performed late and out of order *)
Definition ex_sched : list (vevent tid) :=
  [VE Startup; VE (Begin (tA 1)); VE (Begin (tA 0)); VE (End (tA 0)); VE (Begin (tB 0)); VE (End (tA 1));
   VE (End (tB 0)); VE (Begin (tC 0)); VE (Begin (tB 1)); VE (End (tB 1)); VE (Begin (tC 1)); VE (End (tC 1));
   VCopy 1; VE (End (tC 0)); VCopy 0].

Example C02_example :
  wf_program ex_prog = true /\ wf_program_fm ex_prog = true /\ safeb ex_prog = true /\ reads_uninit ex_prog = false
  /\ all_done ex_prog (ptg_seq_exec ex_names ex_prog) = true
  /\ all_done ex_prog (ptg_vrun ex_names ex_prog ex_sched) = true
  /\ obs_data (ptg_vrun ex_names ex_prog ex_sched) 6 = obs_data (ptg_seq_exec ex_names ex_prog) 6
  /\ obs_reads (ptg_vrun ex_names ex_prog ex_sched) (tC 1) = obs_reads (ptg_seq_exec ex_names ex_prog) (tC 1)
  /\ map fst (obs_reads (ptg_seq_exec ex_names ex_prog) (tC 1)) = [0%nat; 1%nat]
  /\ nth 3 (obs_data (ptg_seq_exec ex_names ex_prog) 6) 0%Z = 1003%Z
  /\ nth 0 (obs_data (ptg_seq_exec ex_names ex_prog) 6) 0%Z <> 1000%Z.
Proof.
  repeat apply conj.
  1-6, 9-10: vm_compute; reflexivity.
  (* the two runs leave and observe the same values whatever the bodies compute: with the body
     function abstract, no hash is evaluated *)
  1-2: unfold ptg_vrun, ptg_seq_exec; generalize (ptg_F ex_names ex_prog); intros F; vm_compute; reflexivity.
  vm_compute. discriminate.
Qed.

(* why Safe is needed: the broadcast of ONE copy to two RW consumers.
     A(0)  RW X <- D(0) -> X B(0 .. 1)        B(k)  RW X <- X A(0)
   Both B write the copy in place; the final D(0) is the value of whichever ran last. *)
Definition ex_racy : program :=
  {| p_globals := [];
     p_classes :=
       [ {| c_locals := [Lrange (Ec 0) (Ec 0) (Ec 1)]; c_params := [0%nat]; c_place := [Ec 0];
            c_flows := [ {| f_mode := MRW; f_deps := [dep_in (Tmem [Ec 0]); dep_out (Ttask 1 0 [Arng (Ec 0) (Ec 1) (Ec 1)])] |} ];
            c_prio := None; c_count := false |};
         {| c_locals := [k01]; c_params := [0%nat]; c_place := [Ec 0];
            c_flows := [ {| f_mode := MRW; f_deps := [dep_in (Ttask 0 0 [Aexp (Ec 0)])] |} ];
            c_prio := None; c_count := false |} ] |}.
Definition racy1 : list (vevent tid) :=
  [VE Startup; VE (Begin (tA 0)); VE (End (tA 0)); VE (Begin (tB 0)); VE (End (tB 0)); VE (Begin (tB 1)); VE (End (tB 1))].
Definition racy2 : list (vevent tid) :=
  [VE Startup; VE (Begin (tA 0)); VE (End (tA 0)); VE (Begin (tB 1)); VE (End (tB 1)); VE (Begin (tB 0)); VE (End (tB 0))].
Example C02_unsafe_program_is_rejected_and_schedule_dependent :
  wf_program ex_racy = true /\ safeb ex_racy = false
  /\ all_done ex_racy (ptg_vrun ex_names ex_racy racy1) = true
  /\ all_done ex_racy (ptg_vrun ex_names ex_racy racy2) = true
  /\ obs_data (ptg_vrun ex_names ex_racy racy1) 1 <> obs_data (ptg_vrun ex_names ex_racy racy2) 1.
Proof. vm_compute. repeat split; discriminate. Qed.

(* overlapping input guards, first match wins (the usual JDF idiom):
     S(k) k = 0..2   RW B <- D(3 + k)                      -> B T(k)
     T(k) k = 0..2   RW A <- (k > 0) ? A T(k-1)   <- D(0)  -> (k < 2) ? A T(k+1)
                     READ B <- B S(k)
   wf_program refuses it (two guards hold for k > 0); wf_program_fm accepts it, and T(k) waits for T(k-1). *)
Definition ex_overlap : program :=
  {| p_globals := [];
     p_classes :=
       [ {| c_locals := [Lrange (Ec 0) (Ec 2) (Ec 1)]; c_params := [0%nat]; c_place := [Ec 0];
            c_flows := [ {| f_mode := MRW; f_deps := [dep_in (Tmem [Eb Oadd (Ec 3) (El 0)]); dep_out (Ttask 1 1 [Aexp (El 0)])] |} ];
            c_prio := None; c_count := false |};
         {| c_locals := [Lrange (Ec 0) (Ec 2) (Ec 1)]; c_params := [0%nat]; c_place := [Ec 0];
            c_flows := [ {| f_mode := MRW;
                            f_deps := [ {| d_in := true; d_guard := Some (Eb Ogt (El 0) (Ec 0));
                                           d_then := Ttask 1 0 [Aexp (Eb Osub (El 0) (Ec 1))]; d_else := None |};
                                        dep_in (Tmem [Ec 0]);
                                        {| d_in := false; d_guard := Some (Eb Olt (El 0) (Ec 2));
                                           d_then := Ttask 1 0 [Aexp (Eb Oadd (El 0) (Ec 1))]; d_else := None |} ] |};
                         {| f_mode := MRead; f_deps := [dep_in (Ttask 0 0 [Aexp (El 0)])] |} ];
            c_prio := None; c_count := false |} ] |}.
Example C02_overlapping_guards_first_match :
  wf_program ex_overlap = false /\ wf_program_fm ex_overlap = true /\ safeb ex_overlap = true
  /\ preds ex_overlap (1%nat, [2%Z]) = [(1%nat, [1%Z]); (0%nat, [2%Z])]
  /\ flow_src ex_overlap (1%nat, [2%Z]) 0 = STask (1%nat, [1%Z]) 0
  /\ flow_src ex_overlap (1%nat, [0%Z]) 0 = SMem 0%Z
  /\ all_done ex_overlap (ptg_seq_exec ex_names ex_overlap) = true.
Proof. vm_compute. repeat split. Qed.
