(* C06 — Wait and completion calls return exactly when the work is done.
   The invariants and the longer arguments are in CtxWait/CtxWaitProofs.v (context model) and
   CtxWait/CtxBarrierProofs.v (per-thread model); what follows from them in a few lines is proved here.

   [run decls evs] is the state of the model of the context (CtxWaitDefs.v) after ANY list of
   events: master-thread API calls (start, add, DTD insert, test, DTD free, context_wait
   enter/leave, taskpool_wait enter/leave), task execution by any thread (startup task,
   begin/end of a task, return of a termination callback, store of TERMINATED), and
   parsec_context_add_taskpool called from inside a running task body (TAdd) or from a
   running completion callback (CAdd).  An event that is not enabled is a no-op, so every
   program over the declared taskpools (PTG of any size, DTD), every interleaving and every
   multi-epoch history is such a list.

   LEVEL: partial, hence the suffix.  The barrier choreography of __parsec_context_wait is
   not modelled thread by thread; what the barriers guarantee is the enabling condition of
   MWaitLeave: the master returns at an instant where active_taskpools = 0 and no thread
   is inside a task, a startup task or a termination callback.  Each termination-detector
   call is one atomic step (C10).  The list lock, the communication engine and DTD
   insertions from task bodies are outside the model (see notes/findings/C06-*.md for what
   was found there on the real code).

   [epoch (step s MWaitLeave) = S (epoch s)] says that parsec_context_wait returns in state s. *)
From PV Require Import Base.Tac Base.ListX CtxWait.CtxWaitDefs CtxWait.CtxWaitProofs CtxWait.CtxBarrierDefs CtxWait.CtxBarrierProofs.
Local Open Scope Z_scope.

(* parsec_context_wait returns only when EVERY taskpool given to the context so far — by the
   master, by a task body or by a completion callback, before or during the wait — has
   terminated, all its tasks have ended, none is running, and (PTG) its completion
   callback ran exactly once *)
Theorem C06_context_wait_returns_when_done_partial : forall decls evs,
  let s := run decls evs in
  epoch (step s MWaitLeave) = S (epoch s) ->
  forall q p, nth_error (pools s) q = Some p -> k_added p = true ->
    k_st p = STerminated /\ all_done p = true /\ norun (k_tasks p) /\ (k_dtd p = false -> k_cb p = 1%nat).
Proof.
  intros decls evs. cbv zeta. intros He q p Hq Had. apply leave_effective in He. destruct He as (Hm & Ha & Hqq).
  destruct (leave_facts _ (run_inv decls evs) Ha Hqq p (nth_error_In _ _ Hq)) as (_ & _ & Hst).
  exact (terminated_done _ q p (run_inv decls evs) Hq (Hst Had)).
Qed.
Print Assumptions C06_context_wait_returns_when_done_partial.

(* ... and it does return then: in the wait, with every taskpool terminated and no thread in
   a task, the leave is enabled (active_taskpools is 0) *)
Theorem C06_context_wait_returns_partial : forall decls evs,
  let s := run decls evs in
  master s = MInWait -> quiescent s = true ->
  (forall q p, nth_error (pools s) q = Some p -> k_added p = true -> k_st p = STerminated) ->
  epoch (step s MWaitLeave) = S (epoch s).
Proof.
  intros decls evs. cbv zeta. intros Hm Hq Hall. apply leave_effective. split; [assumption|]. split; [|assumption].
  rewrite (i_active _ (run_inv decls evs)). unfold tok. rewrite Hm. cbn [in_wait negb]. rewrite andb_false_r.
  rewrite cnt_zero_of_all; [reflexivity|].
  intros q p Hq'. unfold counted. destruct (k_added p) eqn:Had; [|reflexivity]. rewrite (Hall q p Hq' Had). reflexivity.
Qed.
Print Assumptions C06_context_wait_returns_partial.

(* parsec_taskpool_wait(q) returns only after q terminated: all its tasks ended, none runs,
   its completion callback (PTG) ran exactly once and returned *)
Theorem C06_taskpool_wait_returns_when_terminated_partial : forall decls evs q,
  let s := run decls evs in
  master s = MInTp q -> master (step s (MTpLeave q)) = MIdle ->
  exists p, nth_error (pools s) q = Some p /\ k_st p = STerminated /\ all_done p = true /\ norun (k_tasks p) /\
            (k_dtd p = false -> k_cb p = 1%nat).
Proof.
  intros decls evs q. cbv zeta. intros Hm Hl. destruct (tp_leave_effective _ q Hm Hl) as (p & Hq & Hst).
  exists p. split; [exact Hq|]. exact (terminated_done _ q p (run_inv decls evs) Hq Hst).
Qed.
Print Assumptions C06_taskpool_wait_returns_when_terminated_partial.

(* at every moment of every history: a taskpool whose termination was detected (its completion
   callback is running or has run) has all its tasks ended and none running; the completion
   callback of a PTG taskpool has run exactly once from then on and never before *)
Theorem C06_callback_once_after_last_task_partial : forall decls evs q p,
  nth_error (pools (run decls evs)) q = Some p ->
  (in_term (k_st p) = true -> all_done p = true /\ norun (k_tasks p)) /\
  (k_dtd p = false -> k_cb p = if in_term (k_st p) then 1%nat else 0%nat).
Proof. intros decls evs q p. exact (P_detected_means_done _ q p (run_inv decls evs)). Qed.
Print Assumptions C06_callback_once_after_last_task_partial.

(* the literal "exactly once" is false for DTD taskpools in the code as it is: the callback runs
   at every wait the taskpool goes through and once more in its destructor
   (add; start; context_wait; free -> 2 calls; replayed by checks/C06.py: dtd-complete-callback-repeats) *)
Theorem C06_dtd_callback_once_refuted :
  exists decls evs p, nth_error (pools (run decls evs)) 0 = Some p /\ k_dtd p = true /\ k_cb p = 2%nat.
Proof.
  exists [DDtd], [MAdd 0; MStart; MWaitEnter; WCbDone 0; WFin 0; MWaitLeave; MFree 0].
  eexists. split; [vm_compute; reflexivity|]. split; reflexivity.
Qed.
Print Assumptions C06_dtd_callback_once_refuted.

(* epochs are independent: when parsec_context_wait returns the context is in the state of a
   fresh context to which the still-attached DTD taskpools (re-armed: NOT_READY, no task, no
   pending action) have been added — flags cleared, master idle, active_taskpools = number of
   attached DTD taskpools, everything else terminated; only the epoch counter remembers *)
Theorem C06_epochs_independent_partial : forall decls evs,
  let s := run decls evs in
  epoch (step s MWaitLeave) = S (epoch s) -> fresh_like (step s MWaitLeave).
Proof. intros decls evs. exact (P_epoch_reset _ (run_inv decls evs)). Qed.
Print Assumptions C06_epochs_independent_partial.

Theorem C06_initial_state_is_fresh : forall decls, fresh_like (init decls).
Proof.
  intros decls. unfold fresh_like. cbn. repeat split.
  - unfold count_dtd_att. rewrite cnt_all_false; [reflexivity|].
    intros p Hp. apply in_map_iff in Hp. destruct Hp as (d & <- & _). destruct d; reflexivity.
  - unfold settled. cbn. apply forallb_forall. intros p Hp. apply in_map_iff in Hp. destruct Hp as (d & <- & _). destruct d; reflexivity.
Qed.
Print Assumptions C06_initial_state_is_fresh.

(* parsec_context_test: active_taskpools = 0 only when every taskpool given to the context is
   past its completion callback, with all tasks ended *)
Theorem C06_test_true_means_done_partial : forall decls evs,
  let s := run decls evs in
  active s = 0 -> forall q p, nth_error (pools s) q = Some p -> k_added p = true ->
  in_term (k_st p) = true /\ k_st p <> STermCb /\ all_done p = true.
Proof.
  intros decls evs. cbv zeta. intros Ha q p Hq Had.
  pose proof (active_zero_uncounted _ (run_inv decls evs) Ha q p Hq) as Hc. unfold counted in Hc. rewrite Had in Hc.
  destruct (P_detected_means_done _ q p (run_inv decls evs) Hq) as [H1 _].
  destruct (k_st p) eqn:Hst; cbn in Hc; try discriminate; cbn [in_term] in *; (split; [reflexivity|]); (split; [discriminate|]); apply H1; reflexivity.
Qed.
Print Assumptions C06_test_true_means_done_partial.

(* the accounting behind all of it: active_taskpools = the start token + the number of
   taskpools given to the context whose completion callback has not returned *)
Theorem C06_active_taskpools_accounting : forall decls evs,
  let s := run decls evs in active s = tok s + cnt counted (pools s).
Proof. intros decls evs. exact (i_active _ (run_inv decls evs)). Qed.
Print Assumptions C06_active_taskpools_accounting.

(* the part that does not lean on the barrier abstraction: while the completion callback of a
   taskpool runs — on whatever thread, e.g. the communication thread of a multi-rank run, which is
   not a thread of the barrier — active_taskpools is positive, so the master cannot see 0 before
   the callback returned; and (C06_test_true_means_done_partial) active_taskpools = 0 alone already
   implies that every taskpool given to the context, including those a callback added, is past its
   callback with all tasks ended.  This is what "callback first, decrement second" in
   parsec_taskpool_termination_detected buys (seeded/C06a swaps them; the two-rank scenarios of
   checks/C06.py observe the consequence on the real code). *)
Theorem C06_running_callback_keeps_context_active : forall decls evs q p,
  nth_error (pools (run decls evs)) q = Some p -> k_st p = STermCb -> 0 < active (run decls evs).
Proof.
  intros decls evs q p Hq Hst. pose proof (run_inv decls evs) as Hi. rewrite (i_active _ Hi).
  pose proof (Forall_nth _ _ _ _ (i_pools _ Hi) Hq) as Hok.
  assert (Had : k_added p = true) by (apply (armed_added p (pre_of_ok p Hok)); congruence).
  assert (Hc : counted p = true) by (unfold counted; rewrite Had, Hst; reflexivity).
  pose proof (cnt_pos_of_nth _ _ _ _ Hq Hc). unfold tok. destruct (started _ && _); lia.
Qed.
Print Assumptions C06_running_callback_keeps_context_active.

(* THE REFINED MODEL (CtxBarrierDefs.v): the choreography of __parsec_context_wait thread by thread —
   n threads (master + n-1 workers) on one barrier (counter + generation): the start barrier of
   parsec_context_start and the increment of the token after it, the work loop with its test of
   active_taskpools, the final barrier, the workers' return to the start barrier, the master's leave;
   every inner event is performed by a thread, which is "inside" what it started until it finished
   it.  [rrun decls n evs] is the state after ANY interleaving [evs] of barrier steps (RBar t) and
   inner events performed by a thread (RIn t e).  [pc_of r 0 = TPassed]: the master has been
   released from the final barrier, its next step is the return of parsec_context_wait.
   The enabling condition that the model above ASSUMES for MWaitLeave is here a THEOREM
   (C06_master_released_only_when_done), so the statements below carry no "_partial".
   What is still abstract: each termination-detector call is one step (C10); the list lock, the
   communication engine and the communication thread are outside (see the two-rank scenarios). *)

Theorem C06_master_released_only_when_done : forall decls n evs, (1 <= n)%nat ->
  let r := rrun decls n evs in
  pc_of r 0 = TPassed ->
  master (inner r) = MInWait /\ active (inner r) = 0 /\ quiescent (inner r) = true /\
  (forall t, t <> 0%nat -> pc_of r t <> TLoop).
Proof. intros decls n evs Hn. exact (P_master_passes_only_when_done _ (rrun_inv decls n evs Hn)). Qed.
Print Assumptions C06_master_released_only_when_done.

(* parsec_context_wait returns only when everything given to the context is done *)
Theorem C06_context_wait_returns_when_done : forall decls n evs, (1 <= n)%nat ->
  let r := rrun decls n evs in
  pc_of r 0 = TPassed ->
  forall q p, nth_error (pools (inner r)) q = Some p -> k_added p = true ->
    k_st p = STerminated /\ all_done p = true /\ norun (k_tasks p) /\ (k_dtd p = false -> k_cb p = 1%nat).
Proof.
  intros decls n evs Hn r Hp. destruct (C06_master_released_only_when_done decls n evs Hn Hp) as (A & B & C & _). fold r in A, B, C.
  assert (He : epoch (step (inner r) MWaitLeave) = S (epoch (inner r))) by (apply leave_effective; auto).
  revert He. unfold r. apply project. intros l. apply C06_context_wait_returns_when_done_partial.
Qed.
Print Assumptions C06_context_wait_returns_when_done.

(* and it does return: from every reachable state where the master is in the wait, active_taskpools
   is 0 and every thread is outside tasks, some schedule (barrier steps only) releases the master;
   no thread is left behind a barrier (C06_barrier_accounting: the counter is exactly the number of
   threads waiting in the current generation and never all of them) *)
Theorem C06_context_wait_returns : forall decls n evs, (1 <= n)%nat ->
  let r := rrun decls n evs in
  work_done r -> exists sched, pc_of (fold_left rstep sched r) 0 = TPassed.
Proof. intros decls n evs Hn. exact (P_master_is_released _ (rrun_inv decls n evs Hn)). Qed.
Print Assumptions C06_context_wait_returns.

Theorem C06_barrier_accounting : forall decls n evs, (1 <= n)%nat ->
  let r := rrun decls n evs in
  Z.of_nat (bcnt r) = cnt (wcur (bgen r)) (pcs r) /\ (bcnt r < length (pcs r))%nat.
Proof. intros decls n evs Hn r. destruct (rrun_inv decls n evs Hn) as [Hc _]. exact (v_cnt _ Hc). Qed.
Print Assumptions C06_barrier_accounting.

(* the return itself: the master's next step leaves the wait, the epoch counter advances *)
Theorem C06_master_returns : forall decls n evs, (1 <= n)%nat ->
  let r := rrun decls n evs in
  pc_of r 0 = TPassed ->
  pc_of (rstep r (RBar 0)) 0 = TOut /\ inner (rstep r (RBar 0)) = step (inner r) MWaitLeave /\
  epoch (step (inner r) MWaitLeave) = S (epoch (inner r)).
Proof. intros decls n evs Hn. exact (P_master_returns _ (rrun_inv decls n evs Hn)). Qed.
Print Assumptions C06_master_returns.

Theorem C06_taskpool_wait_returns_when_terminated : forall decls n evs q, (1 <= n)%nat ->
  let r := rrun decls n evs in
  master (inner r) = MInTp q -> master (inner (rstep r (RIn 0 (MTpLeave q)))) = MIdle ->
  exists p, nth_error (pools (inner r)) q = Some p /\ k_st p = STerminated /\ all_done p = true /\ norun (k_tasks p) /\
            (k_dtd p = false -> k_cb p = 1%nat).
Proof.
  intros decls n evs q Hn r Hm Hl. apply (rstep_tp_leave r q Hm) in Hl. revert Hm Hl. unfold r.
  apply project. intros l. apply C06_taskpool_wait_returns_when_terminated_partial.
Qed.
Print Assumptions C06_taskpool_wait_returns_when_terminated.

Theorem C06_callback_once_after_last_task : forall decls n evs q p,
  nth_error (pools (inner (rrun decls n evs))) q = Some p ->
  (in_term (k_st p) = true -> all_done p = true /\ norun (k_tasks p)) /\
  (k_dtd p = false -> k_cb p = if in_term (k_st p) then 1%nat else 0%nat).
Proof.
  intros decls n evs. apply project. intros l. apply C06_callback_once_after_last_task_partial.
Qed.
Print Assumptions C06_callback_once_after_last_task.

(* after the master's return the context is fresh, the master is out and no worker is in the work loop *)
Theorem C06_epochs_independent : forall decls n evs, (1 <= n)%nat ->
  let r := rrun decls n evs in
  pc_of r 0 = TPassed ->
  fresh_like (inner (rstep r (RBar 0))) /\ pc_of (rstep r (RBar 0)) 0 = TOut /\
  (forall t, t <> 0%nat -> pc_of (rstep r (RBar 0)) t <> TLoop).
Proof.
  intros decls n evs Hn r Hp. destruct (C06_master_returns decls n evs Hn Hp) as (A & B & C). fold r in A, B, C.
  destruct (C06_master_released_only_when_done decls n evs Hn Hp) as (_ & _ & _ & D). fold r in D.
  split; [|split; [exact A|]].
  - rewrite B. revert C. unfold r. apply project. intros l. apply C06_epochs_independent_partial.
  - intros t Ht. rewrite (master_return_others r t Hp Ht). now apply D.
Qed.
Print Assumptions C06_epochs_independent.

Theorem C06_test_true_means_done : forall decls n evs,
  let s := inner (rrun decls n evs) in
  active s = 0 -> forall q p, nth_error (pools s) q = Some p -> k_added p = true ->
  in_term (k_st p) = true /\ k_st p <> STermCb /\ all_done p = true.
Proof.
  intros decls n evs. cbv zeta. apply project. intros l. apply C06_test_true_means_done_partial.
Qed.
Print Assumptions C06_test_true_means_done.

(* non-vacuity of the refined model: 3 threads, one PTG taskpool of two tasks run by the two workers,
   the master passes the final barrier last and returns; second epoch opens *)
Example C06_example_threads :
  let r := rrun [DPtg 2] 3
    [RIn 0 (MAdd 0); RIn 0 MStart; RBar 1; RBar 2; RIn 1 (WStartup 0); RIn 2 (WBegin 0 0); RIn 1 (WStartupDone 0);
     RBar 0; RIn 1 (WBegin 0 1); RIn 0 MWaitEnter; RIn 2 (WEnd 0 0); RBar 2; RIn 1 (WEnd 0 1); RIn 1 (WCbDone 0);
     RBar 0; RIn 1 (WFin 0); RBar 2; RBar 1; RBar 0] in
  pc_of r 0 = TPassed /\ pc_of r 1 = TPassed /\ pc_of r 2 = TWaitE 1 /\ bgen r = 2%nat /\ running r = false /\
  epoch (inner (rstep r (RBar 0))) = 1%nat /\ ran (inner r) = [2%nat].
Proof. vm_compute. repeat split. Qed.

(* non-vacuity: two epochs; a PTG taskpool whose task adds a second PTG taskpool while the
   master is in the wait, whose completion callback adds a third; a DTD taskpool that gets a
   task per epoch and is waited with parsec_taskpool_wait in the second *)
Definition ex_decls := [DPtg 2; DPtg 1; DPtg 0; DDtd].
Definition ex_evs : list event :=
  [MAdd 0; MAdd 3; MStart; MInsert 3; MTest; MWaitEnter;
   WStartup 0; WBegin 0 0; WBegin 3 0; TAdd 0 0 1; WEnd 0 0; WStartupDone 0; WBegin 0 1; WStartup 1;
   WEnd 3 0; WCbDone 3; WBegin 1 0; WEnd 0 1; CAdd 0 2; WCbDone 0; WFin 0; WFin 3;
   WStartupDone 1; WStartup 2; WEnd 1 0; WStartupDone 2; WCbDone 1; WCbDone 2; WFin 2; WFin 1;
   MWaitLeave; MTest;
   MStart; MInsert 3; MTpEnter 3; WBegin 3 1; WEnd 3 1; WCbDone 3; WFin 3; MTpLeave 3; MWaitEnter; WCbDone 3; WFin 3; MWaitLeave;
   MFree 3; MTest].
Example C06_example :
  let s := run ex_decls ex_evs in
  epoch s = 2%nat /\ active s = 0 /\ settled s = true /\ ran s = [2; 1; 0; 2]%nat /\ cbs s = [1; 1; 1; 4]%nat /\
  obs s = [true; false; false].
Proof. vm_compute. repeat split. Qed.
