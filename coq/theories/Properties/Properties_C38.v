(* C38 — Runtime (MCA) parameters resolve by documented precedence.
   The model is MCA/MCADefs.v; the lemmas used here are in MCA/MCAProofs.v
   (per-state facts, join law) and MCA/MCAHistProofs.v (facts about histories). *)
From PV Require Import Base.Tac MCA.MCADefs MCA.MCAProofs MCA.MCAHistProofs.
From Coq Require Import Ascii.
Local Open Scope Z_scope.

(* precedence: in EVERY state (hence after every history of registrations, synonyms,
   set/unset, environment changes, command lines, file re-reads and lookups), the result of a
   lookup is the first source that has a value, in the order
     override ; environment (real name, then the synonyms in registration order) ;
     file (value cached on the parameter, else first entry of the file-value list whose name is
           the real name or any synonym) ; default
   and a read-only parameter yields its default.  [sources] lists them in that order. *)
Theorem C38_lookup_precedence : forall st idx p,
  get_param (st_params st) idx = Some p ->
  snd (param_lookup st idx) =
    if p_ro p then LFound (p_default p) SDefault None
    else found (first_some (fun x => x) (sources st p)).
Proof.
  intros st idx p Hg. rewrite lookup_resolve, Hg. unfold resolve, sources, lookup_env.
  destruct (p_over p) as [v|] eqn:Ho.
  - destruct (p_ro p); reflexivity.
  - destruct (p_ro p); [reflexivity|]. cbn [first_some option_map].
    destruct (first_some (env_get (st_env st)) (names p)) as [s|]; [reflexivity|].
    destruct (file_src st p) as [[v fi]|]; reflexivity.
Qed.
Print Assumptions C38_lookup_precedence.

(* lookups are stable: repeating a lookup returns the same value and leaves the state
   (file-value cache included) as the first one left it *)
Theorem C38_lookup_stable : forall st idx st' r,
  param_lookup st idx = (st', r) -> param_lookup st' idx = (st', r).
Proof. exact lookup_stable. Qed.
Print Assumptions C38_lookup_stable.

Theorem C38_lookup_twice : forall st idx,
  snd (param_lookup (fst (param_lookup st idx)) idx) = snd (param_lookup st idx).
Proof.
  intros st idx. destruct (param_lookup st idx) as [st' r] eqn:H. cbn.
  rewrite (lookup_stable _ _ _ _ H). reflexivity.
Qed.
Print Assumptions C38_lookup_twice.

(* one parameter does not affect another *)
Theorem C38_set_other : forall st idx v j, 0 <= idx -> 0 <= j -> idx <> j ->
  snd (param_lookup (fst (set_value st idx v)) j) = snd (param_lookup st j).
Proof. exact set_other. Qed.
Print Assumptions C38_set_other.

Theorem C38_unset_other : forall st idx j, 0 <= idx -> 0 <= j -> idx <> j ->
  snd (param_lookup (fst (unset st idx)) j) = snd (param_lookup st j).
Proof.
  intros st idx j Hi Hj H. unfold unset.
  destruct (get_param (st_params st) idx) as [p|]; [now apply upd_other | reflexivity].
Qed.
Print Assumptions C38_unset_other.

(* a lookup caches a file value on its parameter and removes the entry from the list: invisible
   to every parameter that shares no name with it *)
Theorem C38_lookup_other : forall st i j pi pj,
  get_param (st_params st) i = Some pi -> get_param (st_params st) j = Some pj -> i <> j ->
  pdisj pi pj ->
  snd (param_lookup (fst (param_lookup st i)) j) = snd (param_lookup st j).
Proof. exact lookup_other. Qed.
Print Assumptions C38_lookup_other.

Theorem C38_setenv_other : forall st idx p n v,
  get_param (st_params st) idx = Some p -> matches p n = false ->
  snd (param_lookup (mkState (st_params st) (st_files st) (env_set (st_env st) n v)) idx)
  = snd (param_lookup st idx).
Proof.
  intros st idx p n v Hg Hm. apply (env_other _ _ _ _ Hg).
  intros m Hin. apply env_get_set_other. eapply matches_false_names; eauto.
Qed.
Print Assumptions C38_setenv_other.

Theorem C38_set_then_lookup : forall st idx p v,
  get_param (st_params st) idx = Some p -> type_of v = p_type p ->
  snd (param_lookup (fst (set_value st idx v)) idx) =
    if p_ro p then LFound (p_default p) SDefault None else LFound v SOverride None.
Proof. exact set_then_lookup. Qed.
Print Assumptions C38_set_then_lookup.

(* synonyms resolve to the same storage *)
Theorem C38_env_by_any_name : forall st idx p before n after s,
  get_param (st_params st) idx = Some p ->
  p_ro p = false -> p_over p = None ->
  names p = before ++ n :: after ->
  (forall m, In m before -> env_get (st_env st) m = None) ->
  env_get (st_env st) n = Some s ->
  snd (param_lookup st idx) = LFound (conv (p_type p) (Some s)) SEnv None.
Proof.
  intros st idx p before n after s Hg Hro Ho Hn Hb He.
  rewrite lookup_resolve, Hg. unfold resolve, lookup_env. rewrite Ho, Hro, Hn.
  rewrite first_some_app, (first_some_none _ _ Hb). cbn. rewrite He. reflexivity.
Qed.
Print Assumptions C38_env_by_any_name.

Theorem C38_file_by_any_name : forall st idx p fe,
  get_param (st_params st) idx = Some p ->
  p_ro p = false -> p_over p = None -> p_file p = None ->
  first_some (env_get (st_env st)) (names p) = None ->
  find (fun fe => matches p (f_name fe)) (st_files st) = Some fe ->
  snd (param_lookup st idx) = LFound (conv (p_type p) (f_val fe)) SFile (Some (f_file fe)).
Proof.
  intros st idx p fe Hg Hro Ho Hf He Hfind.
  rewrite lookup_resolve, Hg. unfold resolve, lookup_env, file_src. rewrite Ho, Hro, He, Hf, Hfind. reflexivity.
Qed.
Print Assumptions C38_file_by_any_name.

Theorem C38_reg_syn_names : forall st idx p tn pn,
  get_param (st_params st) idx = Some p ->
  exists p', get_param (st_params (fst (reg_syn st idx tn pn))) idx = Some p' /\
             names p' = names p ++ [full_name tn pn] /\
             p_type p' = p_type p /\ p_ro p' = p_ro p /\ p_over p' = p_over p /\
             p_file p' = p_file p /\ p_default p' = p_default p /\
             snd (reg_syn st idx tn pn) = 0.
Proof.
  intros st idx p tn pn Hg. unfold reg_syn. rewrite Hg. cbn [fst snd st_params].
  exists (add_syn (full_name tn pn) p). rewrite (get_param_upd_same _ _ _ _ Hg).
  repeat split.
Qed.
Print Assumptions C38_reg_syn_names.

(* read-only parameters ignore override, environment and files *)
Theorem C38_read_only : forall st idx p,
  get_param (st_params st) idx = Some p -> p_ro p = true ->
  snd (param_lookup st idx) = LFound (p_default p) SDefault None.
Proof.
  intros st idx p Hg Hro. rewrite (C38_lookup_precedence _ _ _ Hg), Hro. reflexivity.
Qed.
Print Assumptions C38_read_only.

(* unknown parameters report not-found *)
Theorem C38_out_of_range : forall st idx,
  idx < 0 \/ Z.of_nat (length (st_params st)) <= idx -> snd (param_lookup st idx) = LNotFound.
Proof.
  intros st idx H. rewrite lookup_resolve. unfold get_param.
  destruct (idx <? 0) eqn:E; [reflexivity|].
  assert (Hn : nth_error (st_params st) (Z.to_nat idx) = None) by (apply nth_error_None; lia).
  rewrite Hn. reflexivity.
Qed.
Print Assumptions C38_out_of_range.

Theorem C38_find_unknown : forall st tn pn,
  (forall p, In p (st_params st) -> ostr_eqb tn (p_tname p) && ostr_eqb pn (p_pname p) = false) ->
  mca_find st tn pn = -1 /\ snd (param_lookup st (mca_find st tn pn)) = LNotFound.
Proof.
  intros st tn pn H. unfold mca_find. rewrite (find_idx_none _ _ H). split; [reflexivity|].
  apply C38_out_of_range. left. lia.
Qed.
Print Assumptions C38_find_unknown.

(* the command line: every --mca name gets the comma-joined list of its values, in
   command-line order; --mca takes precedence over --gmca; other variables are untouched *)
Theorem C38_cmdline_join : forall args e n,
  env_get (process_cmdline args e) n =
    match vals n (mca_args args) with
    | (_ :: _) as vs => Some (join vs)
    | [] => match vals n (gmca_args args) with
            | (_ :: _) as vs => Some (join vs)
            | [] => env_get e n
            end
    end.
Proof.
  intros args e n. unfold process_cmdline. fold (mca_args args) (gmca_args args).
  rewrite !add_to_env_get by apply collect_nodup. rewrite !collect_join.
  destruct (vals n (mca_args args)); [|reflexivity].
  destruct (vals n (gmca_args args)); reflexivity.
Qed.
Print Assumptions C38_cmdline_join.

(* variables are identified by their exact name: setting name n (setenv, or one --mca/--gmca pair
   through add_to_env / parsec_setenv) rebinds n and no other name — in particular no name that has
   n as a prefix and no prefix of n *)
Theorem C38_setenv_exact_name : forall e n v m,
  env_get (env_set e n v) m = if str_eqb m n then Some v else env_get e m.
Proof.
  intros e n v m. destruct (str_eqb m n) eqn:E.
  - apply str_eqb_eq in E. subst m. apply env_get_set_same.
  - apply env_get_set_other. apply str_eqb_neq in E. congruence.
Qed.
Print Assumptions C38_setenv_exact_name.

Theorem C38_add_to_env_other : forall kvs e n,
  ~ In n (map fst kvs) -> env_get (add_to_env kvs e) n = env_get e n.
Proof.
  unfold add_to_env. induction kvs as [|[k v] kvs IH]; intros e n H; cbn [fold_left]; [reflexivity|].
  cbn in H. rewrite IH by tauto. cbn [fst snd]. apply env_get_set_other. intros E. apply H. left. exact E.
Qed.
Print Assumptions C38_add_to_env_other.

Theorem C38_cmdline_other : forall args e n,
  (forall a, In a args -> fst (snd a) <> n) -> env_get (process_cmdline args e) n = env_get e n.
Proof. exact cmdline_other. Qed.
Print Assumptions C38_cmdline_other.

(* the file stage after any history without a re-read of the files, in a table where no
   two parameters share a name: an uncached parameter sees the list read at initialisation *)
Theorem C38_file_history_uncached : forall env files ops idx p,
  no_recache ops = true -> disjoint (run (init env files) ops) ->
  get_param (st_params (run (init env files) ops)) idx = Some p -> p_file p = None ->
  file_src (run (init env files) ops) p =
    match find (fun fe => matches p (f_name fe)) (read_files [] files) with
    | Some fe => Some (conv (p_type p) (f_val fe), f_file fe)
    | None => None
    end.
Proof. exact history_uncached. Qed.
Print Assumptions C38_file_history_uncached.

(* a cached value is the first entry of that list under one of the names the parameter had
   when the value was cached (the real name and the first k-1 synonyms) *)
Theorem C38_file_history_cached : forall env files ops idx p v fi,
  no_recache ops = true -> disjoint (run (init env files) ops) ->
  get_param (st_params (run (init env files) ops)) idx = Some p -> p_file p = Some (v, fi) ->
  exists k fe, (k <= length (names p))%nat /\
    find (fun fe => existsb (str_eqb (f_name fe)) (firstn k (names p))) (read_files [] files) = Some fe /\
    v = conv (p_type p) (f_val fe) /\ fi = f_file fe.
Proof. exact history_cached. Qed.
Print Assumptions C38_file_history_cached.

Theorem C38_file_history_no_synonyms : forall env files ops idx p,
  no_recache ops = true -> disjoint (run (init env files) ops) ->
  get_param (st_params (run (init env files) ops)) idx = Some p -> p_syns p = [] ->
  file_src (run (init env files) ops) p =
    match find (fun fe => str_eqb (f_name fe) (p_full p)) (read_files [] files) with
    | Some fe => Some (conv (p_type p) (f_val fe), f_file fe)
    | None => None
    end.
Proof. exact history_no_synonyms. Qed.
Print Assumptions C38_file_history_no_synonyms.

(* the value that list holds for a name: the leftmost file of the path list that sets the name,
   and in it the last line that does *)
Theorem C38_file_list_precedence : forall files m,
  fl_get (read_files [] files) m = first_file m O files.
Proof.
  intros files m. unfold read_files. rewrite read_files_get_gen.
  destruct (first_file m 0 files); reflexivity.
Qed.
Print Assumptions C38_file_list_precedence.

(* parameter t_a (int, default 3) with synonym o_a: file 0 says t_a = 5, file 1 says t_a = 6 and o_a = 9;
   the environment sets o_a to 7; then an override 8; then unset; then the synonym's variable goes away *)
Example C38_example :
  let st0 := init [(["o"; "_"; "a"]%char, ["7"]%char)] [[(["t"; "_"; "a"]%char, Some ["5"]%char)]; [(["t"; "_"; "a"]%char, Some ["6"]%char); (["o"; "_"; "a"]%char, Some ["9"]%char)]] in
  let st1 := run st0 [OReg TInt (Some ["t"]%char) (Some ["a"]%char) false false (VInt 3) true; OSyn 1 (Some ["o"]%char) (Some ["a"]%char)] in
  let st2 := run st1 [OSet 1 (VInt 8)] in
  let st3 := run st2 [OUnset 1] in
  let st4 := run st3 [OUnsetenv ["o"; "_"; "a"]%char] in
  disjoint st4 /\
  snd (param_lookup st1 1) = LFound (VInt 7) SEnv None /\
  snd (param_lookup st2 1) = LFound (VInt 8) SOverride None /\
  snd (param_lookup st3 1) = LFound (VInt 7) SEnv None /\
  snd (param_lookup st4 1) = LFound (VInt 5) SFile (Some 0%nat) /\
  snd (param_lookup st4 2) = LNotFound /\
  env_get (process_cmdline [(false, (["a"]%char, ["x"]%char)); (true, (["a"]%char, ["g"]%char)); (false, (["a"]%char, ["y"]%char))] []) ["a"]%char
    = Some ["x"; ","; "y"]%char.
Proof.
  split.
  - apply disjointb_ok. vm_compute. reflexivity.
  - vm_compute. repeat split.
Qed.

(* names in prefix relation on one command line, longer name first and shorter name first:
   every name keeps its own value *)
Example C38_prefix_names :
  let fb := ["f"; "o"; "o"; "_"; "b"; "a"; "r"]%char in
  let f := ["f"; "o"; "o"]%char in
  let e1 := process_cmdline [(false, (fb, ["1"]%char)); (false, (f, ["2"]%char))] [] in
  let e2 := process_cmdline [(false, (f, ["2"]%char)); (false, (fb, ["1"]%char)); (false, (f, ["3"]%char))] [] in
  env_get e1 fb = Some ["1"]%char /\ env_get e1 f = Some ["2"]%char /\
  env_get e2 fb = Some ["1"]%char /\ env_get e2 f = Some ["2"; ","; "3"]%char.
Proof. vm_compute. repeat split. Qed.

(* two parameters that share a name (a synonym of the second is the real name of the first): which of
   them gets the file value depends on who is looked up first — the reason for [pdisj] / [disjoint] *)
Example C38_shared_name_order_dependence :
  let st0 := init [] [[(["t"; "_"; "a"]%char, Some ["5"]%char)]] in
  let st1 := run st0 [OReg TString (Some ["t"]%char) (Some ["a"]%char) false false (VStr None) false;
                      OReg TString (Some ["t"]%char) (Some ["b"]%char) false false (VStr None) false;
                      OSyn 2 (Some ["t"]%char) (Some ["a"]%char)] in
  snd (param_lookup st1 2) = LFound (VStr (Some ["5"]%char)) SFile (Some 0%nat) /\
  snd (param_lookup (fst (param_lookup st1 1)) 2) = LFound (VStr None) SDefault None.
Proof. vm_compute. split; reflexivity. Qed.
