(* C28 — The zone allocator is a correct best-fit allocator.
   The model is Zone/ZoneDefs.v (zone_malloc_init, zone_malloc, zone_free,
   zone_in_use, zone_debug of parsec/utils/zone_malloc.c and a client that
   remembers what it holds); the invariant of the reachable states and the
   longer proofs are in Zone/Zone*.v.

   Every theorem is about [reachable n unit c]: c is the state of a client after
   ANY finite sequence of operations on a zone of n >= 1 units of unit >= 1
   bytes, where each operation is zone_malloc of any size >= 0, zone_free of an
   allocation the client holds, zone_free of an offset it already freed (stale
   pointer), or zone_free of an address past the end of the zone.
   [cl_live c] lists (offset from base, requested size) of the allocations held. *)
From PV Require Import Base.Tac Zone.ZoneDefs Zone.ZoneBase Zone.ZoneChain Zone.ZoneMalloc Zone.ZoneSpec Zone.ZoneTheorems.
Local Open Scope Z_scope.

(* what zone_malloc returned is held by the client afterwards (so the next two
   theorems speak about every returned address) *)
Theorem C28_malloc_returns_live : forall c size off,
  snd (step c (Malloc size)) = Some off ->
  In (off, size) (cl_live (fst (step c (Malloc size)))).
Proof.
  intros c size off. cbn [step]. destruct (zmalloc (cl_zone c) size) as [z' [o|]]; cbn [fst snd]; intros E; inv E.
  cbn [cl_live]. apply in_app_iff. right; left; auto.
Qed.
Print Assumptions C28_malloc_returns_live.

(* allocations are aligned to the unit and lie inside the zone *)
Theorem C28_in_range_aligned : forall n unit c, 1 <= n -> 1 <= unit -> reachable n unit c ->
  forall off size, In (off, size) (cl_live c) ->
  0 < size /\ off mod unit = 0 /\ 0 <= off /\ off + size <= n * unit.
Proof.
  intros n unit c Hn Hu HR. destruct (reachable_cinv n unit c Hn Hu HR) as (hs & CI). intros off size Hin.
  destruct (ci_live _ _ _ _ CI _ _ Hin) as (Hp & t & -> & Ht & Hst & Hnb).
  destruct (head_range n unit c hs CI t Ht) as (H0 & H1 & H2). rewrite Hnb in H1.
  pose proof (units_of_cover size unit Hu).
  split; auto. split; [apply Z.mod_mul; lia|]. split; nia.
Qed.
Print Assumptions C28_in_range_aligned.

(* two live allocations never overlap, not even in the units reserved for them *)
Theorem C28_live_disjoint : forall n unit c, 1 <= n -> 1 <= unit -> reachable n unit c ->
  forall (i j : nat) o1 s1 o2 s2, i <> j ->
  nth_error (cl_live c) i = Some (o1, s1) -> nth_error (cl_live c) j = Some (o2, s2) ->
  o1 + units_of s1 unit * unit <= o2 \/ o2 + units_of s2 unit * unit <= o1.
Proof. intros n unit c Hn Hu HR. destruct (reachable_cinv n unit c Hn Hu HR) as (hs & CI). exact (live_disjoint n unit c hs Hu CI). Qed.
Print Assumptions C28_live_disjoint.

(* zone_malloc(size > 0) returns NULL exactly when no window of ceil(size/unit)
   consecutive units of the zone is free of live allocations *)
Theorem C28_malloc_fails_iff_no_run : forall n unit c, 1 <= n -> 1 <= unit -> reachable n unit c ->
  forall size, 0 < size ->
  (snd (step c (Malloc size)) = None <-> ~ exists a, free_window c a (units_of size unit)).
Proof. intros n unit c Hn Hu HR. destruct (reachable_cinv n unit c Hn Hu HR) as (hs & CI). exact (malloc_fails_iff n unit c hs Hu CI). Qed.
Print Assumptions C28_malloc_fails_iff_no_run.

(* best fit: the returned block starts a maximal free run that is large enough,
   and no maximal free run that is large enough is shorter *)
Theorem C28_best_fit : forall n unit c, 1 <= n -> 1 <= unit -> reachable n unit c ->
  forall size off, 0 <= size -> snd (step c (Malloc size)) = Some off ->
  off mod unit = 0 /\
  exists k, max_free_run c (off / unit) k /\ units_of size unit <= k /\
    forall a' k', max_free_run c a' k' -> units_of size unit <= k' -> k <= k'.
Proof. intros n unit c Hn Hu HR. destruct (reachable_cinv n unit c Hn Hu HR) as (hs & CI). exact (malloc_best_fit n unit c hs Hu CI). Qed.
Print Assumptions C28_best_fit.

(* the segment array, walked as zone_in_use / zone_debug walk it, partitions
   [0,n) into segments of >= 1 units with status EMPTY or FULL and nb_prev equal
   to the size of the previous segment (1 for the first) *)
Theorem C28_segments_wellformed : forall n unit c, 1 <= n -> 1 <= unit -> reachable n unit c ->
  segs_ok n 0 1 false (z_segments (cl_zone c)).
Proof. intros n unit c Hn Hu HR. destruct (reachable_cinv n unit c Hn Hu HR) as (hs & CI). apply (view_segs_ok n unit c hs CI). Qed.
Print Assumptions C28_segments_wellformed.

(* zone_free coalesces: no two adjacent segments are both free *)
Theorem C28_coalesced : forall n unit c, 1 <= n -> 1 <= unit -> reachable n unit c ->
  no_adjacent_free false (z_segments (cl_zone c)).
Proof. intros n unit c Hn Hu HR. destruct (reachable_cinv n unit c Hn Hu HR) as (hs & CI). apply (view_segs_ok n unit c hs CI). Qed.
Print Assumptions C28_coalesced.

(* zone_in_use is the number of units reserved for the live allocations, in bytes *)
Theorem C28_in_use : forall n unit c, 1 <= n -> 1 <= unit -> reachable n unit c ->
  z_in_use (cl_zone c) = unit * units_sum unit (cl_live c).
Proof.
  intros n unit c Hn Hu HR. destruct (reachable_cinv n unit c Hn Hu HR) as (hs & CI).
  unfold z_in_use. rewrite (inv_heads _ _ (ci_inv _ _ _ _ CI)), (ci_unit _ _ _ _ CI), (ci_sum _ _ _ _ CI).
  reflexivity.
Qed.
Print Assumptions C28_in_use.

(* zone_debug returns the rest of the zone *)
Theorem C28_free_space : forall n unit c, 1 <= n -> 1 <= unit -> reachable n unit c ->
  z_debug_free (cl_zone c) = n * unit - z_in_use (cl_zone c).
Proof.
  intros n unit c Hn Hu HR. destruct (reachable_cinv n unit c Hn Hu HR) as (hs & CI).
  unfold z_debug_free, z_in_use. rewrite (inv_heads _ _ (ci_inv _ _ _ _ CI)), (ci_unit _ _ _ _ CI).
  destruct (view_chain n unit c hs CI) as (q & g & H).
  pose proof (sum_units_total _ _ _ _ _ _ _ _ H). nia.
Qed.
Print Assumptions C28_free_space.

(* the chunk lists of the tree hold exactly the free segments, each under its
   size, once; keys increase strictly and no list is empty *)
Theorem C28_index_consistent : forall n unit c, 1 <= n -> 1 <= unit -> reachable n unit c ->
  keys_gt 0 (z_idx (cl_zone c)) /\
  (forall k l, ix_find (z_idx (cl_zone c)) k = Some l -> l <> [] /\ NoDup l) /\
  (forall k t, In t (ix_get (z_idx (cl_zone c)) k) <->
     exists s, In (t, s) (z_segments (cl_zone c)) /\ c_st s = EMPTY /\ c_nbu s = k).
Proof.
  intros n unit c Hn Hu HR. destruct (reachable_cinv n unit c Hn Hu HR) as (hs & CI).
  pose proof (ci_inv _ _ _ _ CI) as I. destruct (inv_rep _ _ I) as [R1 R2].
  split; [apply (inv_sorted _ _ I)|]. split; [exact R1|].
  intros k t. rewrite (view_segments n unit c hs CI).
  change (ix_get (z_idx (cl_zone c)) k) with (fget (ix_find (z_idx (cl_zone c))) k).
  rewrite R2. unfold FreeSeg. split.
  - intros (Ht & Hst & Hk). exists (cget (z_cells (cl_zone c)) t). split; auto.
    apply in_map_iff. exists t. auto.
  - intros (s & Hin & Hst & Hk). apply in_map_iff in Hin. destruct Hin as (t' & E & Ht). inv E. auto.
Qed.
Print Assumptions C28_index_consistent.

(* a repeated free of a stale offset, or a free past the end, changes nothing *)
Theorem C28_ignored_free : forall n unit c, 1 <= n -> 1 <= unit -> reachable n unit c ->
  forall off, is_live c off = false -> In off (cl_dead c) \/ n * unit <= off ->
  fst (step c (Free off)) = c.
Proof.
  intros n unit c Hn Hu HR. destruct (reachable_cinv n unit c Hn Hu HR) as (hs & CI). intros off Hl Hoff.
  cbn [step]. rewrite Hl. cbn [fst].
  rewrite (cinv_free_ignored n unit c hs off Hu CI); auto.
  - destruct c; reflexivity.
  - intros Hin. apply is_live_iff in Hin. congruence.
Qed.
Print Assumptions C28_ignored_free.

(* zone_malloc(0) returns NULL and changes nothing (nb_units == 0) *)
Theorem C28_malloc_zero : forall n unit c, 1 <= n -> 1 <= unit -> reachable n unit c ->
  step c (Malloc 0) = (c, None).
Proof.
  intros n unit c Hn Hu HR. destruct (reachable_cinv n unit c Hn Hu HR) as (hs & CI).
  cbn [step]. unfold zmalloc. rewrite (ci_unit _ _ _ _ CI).
  assert (E : units_of 0 unit = 0) by (unfold units_of; apply Z.div_small; lia).
  rewrite E. cbn. destruct c; reflexivity.
Qed.
Print Assumptions C28_malloc_zero.

(* non-vacuity: a zone of 8 units of 4 bytes.  Three allocations; the middle one
   is freed and its hole reused (best fit, LIFO among equal holes); frees that
   merge with the next and with both neighbours; a request placed in the
   smaller of two holes; stale frees ignored; everything coalesced at the end *)
Definition C28_ops : list op :=
  [Malloc 4; Malloc 7; Malloc 12; Free 4; Malloc 3; Free 4; Free 0; Malloc 1;
   Free 12; Free 0; Free 4; Free 24].
Example C28_example :
  reachable 8 4 (run (cl_init 8 4) C28_ops) /\
  reachable 8 4 (run (cl_init 8 4) (firstn 8 C28_ops)) /\
  cl_live (run (cl_init 8 4) (firstn 8 C28_ops)) = [(12, 12); (24, 1)] /\
  z_segments (cl_zone (run (cl_init 8 4) (firstn 8 C28_ops))) =
    [(0, mkCell EMPTY 3 1); (3, mkCell FULL 3 3); (6, mkCell FULL 1 3); (7, mkCell EMPTY 1 1)] /\
  z_idx (cl_zone (run (cl_init 8 4) (firstn 8 C28_ops))) = [(1, [7]); (3, [0])] /\
  z_in_use (cl_zone (run (cl_init 8 4) (firstn 8 C28_ops))) = 16 /\
  z_segments (cl_zone (run (cl_init 8 4) C28_ops)) = [(0, mkCell EMPTY 8 1)] /\
  z_idx (cl_zone (run (cl_init 8 4) C28_ops)) = [(8, [0])].
Proof.
  assert (H : ops_ok (cl_init 8 4) C28_ops).
  { vm_compute. repeat split; try discriminate; auto 10. }
  split; [exists C28_ops; split; [exact H|reflexivity]|].
  split; [exists (firstn 8 C28_ops); split; [|reflexivity]|].
  { vm_compute. repeat split; try discriminate; auto 10. }
  vm_compute. repeat split.
Qed.
