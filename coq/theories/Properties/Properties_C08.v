(* C08 — Schedulers never lose or duplicate a ready task.
   The lemmas behind the proofs are in Sched/Sched*Proofs.v.

   [m] ranges over the 11 modules (ap gd ip lfq lhq ll llp ltq pbq rnd spq),
   [c] over every configuration (number of streams, hbbuffer sizes, parents,
   task queues and steal chains), [ops] over every finite history of whole
   operations by any streams: module.schedule, module.select,
   __parsec_schedule_vp (next_task retention, foreign threads), get_next_task,
   __parsec_schedule_flush_private (as a schedule of the retained task alone: the
   code does that only when the task is a ring of one, finding flush-stale-ring)
   and drains.  [vpend s] is everything the scheduler holds in state [s] (module
   queues and next_task slots); [op_in]/[ob_out] are the identities an
   operation hands in / its observation hands out. *)
From Coq Require Import ZArith List Permutation.
From PV Require Import Base.Tac Sched.SchedDefs Sched.SchedProofs Sched.SchedHistProofs.
Import ListNotations.

(* (i) conservation: handed in = handed out + still held, as multisets *)
Theorem C08_conservation : forall m c ops s obs,
  vrun c (vinit m c) ops = (s, obs) ->
  Permutation (flat_map op_in ops) (flat_map ob_out obs ++ ids (vpend s)).
Proof. exact conservation. Qed.
Print Assumptions C08_conservation.

(* at every point of a history, what has been returned so far had been scheduled before *)
Theorem C08_returned_were_scheduled : forall m c ops1 ops2 s obs,
  vrun c (vinit m c) (ops1 ++ ops2) = (s, obs) ->
  incl (flat_map ob_out (firstn (length ops1) obs)) (flat_map op_in ops1).
Proof.
  intros m c ops1 ops2 s obs H. rewrite vrun_app in H.
  destruct (vrun c (vinit m c) ops1) as [s1 o1] eqn:E1. destruct (vrun c s1 ops2) as [s2 o2] eqn:E2.
  injection H as <- <-.
  destruct (vrun_spec c ops1 _ _ _ (vinit_inv m c) E1) as (_ & Hp & Hl).
  rewrite <- Hl, firstn_app, Nat.sub_diag, firstn_all. cbn [firstn]. rewrite app_nil_r.
  rewrite vinit_pend in Hp. cbn [ids map app] in Hp.
  intros x Hx. eapply Permutation_in; [apply Permutation_sym, Hp|]. apply in_or_app; auto.
Qed.
Print Assumptions C08_returned_were_scheduled.

(* a selection that finds nothing changes nothing *)
Theorem C08_select_none_is_stutter : forall m c s es, reach m c s ->
  (forall s', vsel c s es = (s', None) -> s' = s) /\ (forall s', vnext c s es = (s', None) -> s' = s).
Proof.
  intros m c s es Hr. apply reach_inv in Hr. split; intros s' H.
  - apply (vsel_spec _ _ _ _ _ Hr H).
  - apply (vnext_spec _ _ _ _ _ Hr H).
Qed.
Print Assumptions C08_select_none_is_stutter.

(* (ii) liveness at operation granularity.  [wf c]: every buffer of the VP is
   some stream's task queue or steal target. *)
Theorem C08_all_streams_idle_means_empty : forall m c s, wf c -> reach m c s ->
  (forall es, es < cn c -> snd (vnext c s es) = None) -> vpend s = [].
Proof. intros m c s Hwf Hr. apply (idle_means_empty c s Hwf (reach_inv m c s Hr)). Qed.
Print Assumptions C08_all_streams_idle_means_empty.

(* rounds of selection by the streams 0..n-1 of the VP, until a round is empty,
   return exactly what was held, on streams of the VP, and then only NULL *)
Theorem C08_drain_returns_everything : forall m c s s' l, wf c -> reach m c s ->
  vstep c s ODrain = (s', ObDrain l) ->
  Permutation (vpend s) (map snd l) /\ vpend s' = [] /\ Forall (fun p => fst p < cn c) l /\
  forall es, snd (vnext c s' es) = None.
Proof.
  intros m c s s' l Hwf Hr H. apply reach_inv in Hr. cbn [vstep] in H.
  destruct (vdrain (S (length (vpend s))) c s) as [s1 l1] eqn:E. injection H as <- <-.
  destruct (drain_all c _ _ _ Hwf Hr E) as (H1 & H2 & H3 & H4). repeat split; auto.
  intros es. destruct (vnext c s1 es) as [s2 [t|]] eqn:En; auto.
  destruct (vnext_spec _ _ _ _ _ H1 En) as [_ Hp]. rewrite H3 in Hp. apply Permutation_nil in Hp. discriminate.
Qed.
Print Assumptions C08_drain_returns_everything.

(* the bound: |held| rounds (each stream selecting once per round) suffice *)
Theorem C08_task_returned_within_bound : forall m c s s' l, wf c -> reach m c s ->
  vrounds (length (vpend s)) c s = (s', l) ->
  Permutation (vpend s) (map snd l) /\ vpend s' = [].
Proof.
  intros m c s s' l Hwf Hr H. apply reach_inv in Hr.
  destruct (vrounds_spec c _ _ _ _ Hwf Hr H) as (_ & Hp & Hb).
  specialize (Hb (Nat.le_refl _)). rewrite Hb, app_nil_r in Hp. auto.
Qed.
Print Assumptions C08_task_returned_within_bound.

(* with distinct identities: a history followed by a drain returns every
   scheduled task exactly once *)
Theorem C08_exactly_once : forall m c ops s obs, wf c -> NoDup (flat_map op_in ops) ->
  vrun c (vinit m c) (ops ++ [ODrain]) = (s, obs) ->
  Permutation (flat_map op_in ops) (flat_map ob_out obs) /\ NoDup (flat_map ob_out obs) /\ vpend s = [].
Proof. exact exactly_once. Qed.
Print Assumptions C08_exactly_once.

(* non-vacuity: two streams with one 2-slot buffer each over the system queue
   (the lfq/pbq/ltq shape) is well formed; a ring of five tasks overflows stream
   0's buffer into the system queue and comes back exactly once, for each module *)
Definition c2 : config := mkCfg 1 [2; 2]%nat [None; None] [0; 1]%nat [[0; 1]; [1; 0]]%nat.
Definition t5 : list task :=
  [mkT 0 3 1 false; mkT 1 9 1 false; mkT 2 3 2 true; mkT 3 5 2 false; mkT 4 9 0 false].
Definition h5 : list op := [OVp (Some 0%nat) 0 t5 [7; 1; 1; 4; 0]%Z; OSel 1%nat; ODrain].
Example C08_example_wf : wf c2.
Proof.
  intros b Hb. cbn in Hb. destruct b as [|[|b]]; [exists 0%nat|exists 1%nat|lia]; cbn; auto.
Qed.
Example C08_example :
  map (fun m => flat_map ob_out (fst (run m c2 h5))) [LFQ; PBQ; LTQ; AP; IP; LLP] =
  [[1; 0; 2; 3; 4]; [1; 0; 4; 3; 2]; [1; 0; 3; 2; 4]; [1; 0; 4; 3; 2]; [2; 0; 3; 4; 1]; [1; 0; 2; 3; 4]]%Z
  /\ map (fun m => snd (run m c2 h5)) [LFQ; PBQ; LTQ; AP; IP; LLP] = [0; 0; 0; 0; 0; 0]%nat.
Proof. vm_compute. split; reflexivity. Qed.
