(* C36 — The red-black tree keeps order and balance.
   The lemmas used are in RBTree/RBTree{Order,Balance,Proofs}.v.
   [run ops] is the tree after the history [ops] of insert / remove /
   update_node calls starting from the empty tree (RBTree/RBTreeDefs.v); a
   history may be of any length, over any keys, with or without repeated keys. *)
From Coq Require Import Sorted.
From PV Require Import Base.Tac RBTree.RBTreeDefs RBTree.RBTreeOrder RBTree.RBTreeBalance RBTree.RBTreeProofs.
Local Open Scope Z_scope.

(* every operation keeps: black root, no red node with a red child, equal black
   heights, search-tree order, distinct node identities — from any tree that has them *)
Theorem C36_invariants_step : forall t o,
  is_rb t -> bst t -> NoDup (ids t) -> is_rb (step t o) /\ bst (step t o) /\ NoDup (ids (step t o)).
Proof. exact (fun t o Hrb Hb Hid => step_inv t o (conj Hrb (conj Hb Hid))). Qed.
Print Assumptions C36_invariants_step.

(* the five invariants hold of the tree after any history from the empty tree *)
Theorem C36_invariants : forall ops,
  col (run ops) = Black /\ nrr (run ops) /\ bal (run ops) /\ bst (run ops) /\ NoDup (ids (run ops)).
Proof. exact invariants. Qed.
Print Assumptions C36_invariants.

(* exact lookup finds exactly the stored keys *)
Theorem C36_find : forall ops q,
  match find q (run ops) with
  | Some n => In n (nodes (run ops)) /\ nkey n = q
  | None => ~ In q (keys (run ops))
  end.
Proof.
  intros ops q. destruct (find q (run ops)) as [n|] eqn:Hf; [now apply find_some|].
  intros Hin. apply in_map_iff in Hin as (m & Hk & Hin). exact (find_none q _ (run_bst ops) Hf m Hin Hk).
Qed.
Print Assumptions C36_find.

(* lookup-or-larger returns a node with the smallest stored key not below the query, NULL iff there is none *)
Theorem C36_find_or_larger : forall ops q,
  match find_or_larger q (run ops) with
  | Some n => In n (nodes (run ops)) /\ q <= nkey n /\
              forall m, In m (nodes (run ops)) -> q <= nkey m -> nkey n <= nkey m
  | None => forall m, In m (nodes (run ops)) -> nkey m < q
  end.
Proof. exact (fun ops q => find_or_larger_spec q _ (run_bst ops)). Qed.
Print Assumptions C36_find_or_larger.

(* insert adds exactly the node, at a sorted place of the in-order sequence *)
Theorem C36_insert_content : forall ops id k,
  (In id (ids (run ops)) -> step (run ops) (Insert id k) = run ops) /\
  (~ In id (ids (run ops)) -> exists A B, nodes (run ops) = A ++ B /\
      nodes (step (run ops) (Insert id k)) = A ++ (id, k) :: B /\
      (forall a, In a A -> nkey a <= k) /\ (forall b, In b B -> k < nkey b)).
Proof. exact (fun ops id k => insert_new_content id k _ (run_bst ops)). Qed.
Print Assumptions C36_insert_content.

(* remove deletes exactly the node and keeps the order of the others (any tree) *)
Theorem C36_remove_content : forall id t,
  (~ In id (ids t) -> remove id t = t) /\
  (In id (ids t) -> exists A n B, nodes t = A ++ n :: B /\ nid n = id /\ nodes (remove id t) = A ++ B).
Proof. exact remove_content. Qed.
Print Assumptions C36_remove_content.

(* update_node answers ERR_EXISTS exactly when another node holds the key, and then changes nothing;
   otherwise the node, and only it, gets the new key (in place or by re-insertion) *)
Theorem C36_update_spec : forall ops id k,
  In id (ids (run ops)) ->
  exists A n B, nodes (run ops) = A ++ n :: B /\ nid n = id /\
    (snd (update id k (run ops)) = false <-> exists m, In m (A ++ B) /\ nkey m = k) /\
    (snd (update id k (run ops)) = false -> fst (update id k (run ops)) = run ops) /\
    (snd (update id k (run ops)) = true ->
       exists A' B', A ++ B = A' ++ B' /\ nodes (fst (update id k (run ops))) = A' ++ (id, k) :: B').
Proof.
  intros ops id k Hin.
  destruct (proj2 (update_content id k _ (run_bst ops)) Hin) as (A & n & B & H1 & H2 & Hu).
  exists A, n, B. split; [exact H1|]. split; [exact H2|].
  destruct (update id k (run ops)) as [t' [|]]; cbn [fst snd].
  - destruct Hu as (Hnew & _ & HAB). repeat split; auto; try discriminate.
    intros (m & Hm & Hk). destruct (Hnew m Hm Hk).
  - destruct Hu as [-> Hm]. repeat split; auto; discriminate.
Qed.
Print Assumptions C36_update_spec.

(* when every insert is guarded by a failed find (what zone_malloc.c does), keys stay pairwise distinct *)
Theorem C36_unique_keys : forall ops, all_guarded E ops -> bst_strict (run ops).
Proof.
  intros ops Hg. apply bst_strict_iff. split; [apply run_bst|].
  apply run_unique; auto; [apply inv_E|constructor].
Qed.
Print Assumptions C36_unique_keys.

Theorem C36_minimum : forall ops,
  match minimum (run ops) with
  | Some n => In n (nodes (run ops)) /\ forall m, In m (nodes (run ops)) -> nkey n <= nkey m
  | None => run ops = E
  end.
Proof. exact (fun ops => minimum_spec _ (run_bst ops)). Qed.
Print Assumptions C36_minimum.

(* parsec_rbtree_foreach visits the keys in non-decreasing order *)
Theorem C36_foreach_sorted : forall ops, StronglySorted Z.le (keys (run ops)).
Proof. exact (fun ops => sorted_StronglySorted _ (proj1 (bst_sorted _) (run_bst ops))). Qed.
Print Assumptions C36_foreach_sorted.

(* balance in path form: all root-to-nil paths hold the same number of black nodes *)
Theorem C36_paths_equal : forall ops h1 h2,
  In h1 (paths (run ops)) -> In h2 (paths (run ops)) -> h1 = h2.
Proof.
  intros ops h1 h2 H1 H2. destruct (run_inv ops) as ((_ & _ & Hb) & _).
  rewrite (paths_bh _ Hb h1 H1), (paths_bh _ Hb h2 H2). reflexivity.
Qed.
Print Assumptions C36_paths_equal.

Theorem C36_depth_log : forall ops, (depth (run ops) <= 2 * Nat.log2 (size (run ops) + 1))%nat.
Proof. exact (fun ops => depth_log _ (proj1 (run_inv ops))). Qed.
Print Assumptions C36_depth_log.

(* non-vacuity: a guarded history that exercises recolouring, rotations, a removal with delete
   fix-up, an in-place update, a refused update and a re-inserting update *)
Example C36_example :
  let h := [Insert 1 10; Insert 2 20; Insert 3 30; Insert 4 40; Insert 5 50; Insert 6 60; Insert 7 70;
            Remove 1; Update 4 45; Update 4 50; Update 7 5] in
  all_guarded E h /\
  run h = T Black (T Black (T Red E (7, 5) E) (2, 20) (T Red E (3, 30) E)) (4, 45)
                  (T Black (T Red E (5, 50) E) (6, 60) E) /\
  snd (update 4 50 (run h)) = false /\
  find_or_larger 46 (run h) = Some (5, 50) /\ find 45 (run h) = Some (4, 45) /\ find 40 (run h) = None.
Proof. vm_compute. repeat split; reflexivity. Qed.
