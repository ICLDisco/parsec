(* C22 — Matrix operators visit each tile once and reduce correctly.

   Statement (properties.jsonl): parsec_apply invokes the operator exactly once on every
   tile of the requested region (full, upper, lower), the row/column reductions and the map
   operator combine every tile exactly once, and with an associative and commutative
   operator the result equals the sequential fold.

   What is proved, over the definitions GENERATED from the .jdf / wrapper text
   (Gen/Gen_ops.v, tools/jdf2ast.py) and the hand model of map_operator.c (Ops/OpsDefs.v):

   apply.jdf          for every uplo in {UPPER, LOWER, FULL} and ALL mt, nt: the operator calls of
                      APPLY_L ++ APPLY_U ++ APPLY_DIAG are a permutation of the region's tile list;
                      diagonal tiles get the caller's uplo, the others FULL; every instance is placed
                      on, reads and writes back the tile it passes to the operator.           FULL
   map_operator.c     for ALL mt, nt, core counts, ownership predicates and ALL interleavings of the
                      startup function and the task chains: never a tile twice, only local tiles, a
                      complete run visits exactly the local tiles; every unfinished agent can step and
                      each step decreases a measure (every run of the iterator completes).   FULL
                      The TASKPOOL however does not complete on a process without stored tiles, or when
                      the matrix is the leading part of a larger stored grid (C22_map_completion_refuted).
   reduce.jdf         for ALL MT >= 1: the tree named by the input dependencies has the source tiles
                      0..MT-1 as its leaves, each once and in order, every inner node is an instance
                      of the execution space, the root writes R(0,0), and IF the bodies combined
                      their inputs with an associative operator the root would carry the sequential
                      fold (commutativity is not needed).  The shipped BODY is a printf: no operator
                      (C22_reduce_no_operator) — as far as the JDF implements it.        PARTIAL
                      Also: for every even MT an instance reads descA(MT, 0), outside the matrix
                      (C22_reduce_in_matrix_refuted).
   reduce_col/_row    as instantiated by parsec_reduce_col_New / parsec_reduce_row_New: the user
                      operator is never applied; for EVERY shape reduce_col has an instance placed
                      outside the matrix; witnesses of tasks waiting for non-existent predecessors.
                      The full statement "combine every tile exactly once / equal the fold" is
                      REFUTED for these two (C22_reduce_col_refuted, C22_reduce_row_refuted).  *)
From Coq Require Import ZArith List Bool Permutation String.
From PV Require Import Ops.OpsBase Gen.Gen_ops Ops.OpsDefs Ops.OpsApplyProofs Ops.OpsReduceProofs
                       Ops.OpsSkeletonProofs Ops.OpsMapProofs.
Import ListNotations.

(* apply.jdf *)
Theorem C22_apply_exactly_once : forall uplo mt nt : Z, valid_uplo uplo = true ->
  Permutation (map call_tile (apply_calls uplo mt nt)) (region uplo mt nt).
Proof. exact apply_exactly_once. Qed.

Theorem C22_apply_uplo_argument : forall (uplo mt nt : Z) a, In a (apply_calls uplo mt nt) ->
  call_uplo a = if (fst (call_tile a) =? snd (call_tile a))%Z then uplo else matrix_full_v.
Proof. exact apply_uplo_argument. Qed.

Theorem C22_apply_on_tile : forall uplo mt nt : Z, apply_insts_on_tile uplo mt nt = true.
Proof. exact apply_on_tile. Qed.

(* map_operator.c *)
Theorem C22_map_never_twice : forall (mt nt ncores : nat) (local : nat -> nat -> bool) (sched : list nat),
  let s := mrun mt nt ncores local sched in
  NoDup (m_log s) /\ forall m n, In (m, n) (m_log s) -> (m < mt /\ n < nt /\ local m n = true)%nat.
Proof. intros mt nt ncores local sched. exact (map_never_twice _ _ _ _ (Inv_run mt nt ncores local sched)). Qed.

Theorem C22_map_exactly_once : forall (mt nt ncores : nat) (local : nat -> nat -> bool) (sched : list nat),
  let s := mrun mt nt ncores local sched in
  mfinal s = true -> Permutation (m_log s) (local_tiles mt nt local).
Proof. intros mt nt ncores local sched. exact (map_exactly_once _ _ _ _ (Inv_run mt nt ncores local sched)). Qed.

Theorem C22_map_progress : forall (mt nt ncores : nat) (local : nat -> nat -> bool) (sched : list nat) i a,
  nth_error (m_agents (mrun mt nt ncores local sched)) i = Some a -> is_done a = false ->
  (measure mt nt local (mrun mt nt ncores local (sched ++ [i])) < measure mt nt local (mrun mt nt ncores local sched))%nat.
Proof. exact map_progress_run. Qed.

(* the taskpool's task count is src->nb_local_tiles and its pending action is released only by a
   positive -> zero transition of that count: "the map operator completes on every process" is false
   of the code (a process that owns no tile of a 1 x 1 matrix on a 1 x 2 grid), see map_completes *)
Theorem C22_map_completion_refuted : exists (P Q me mt nt : nat),
  local_tiles mt nt (bc_local P Q me) = [] /\
  map_completes false (List.length (local_tiles mt nt (bc_local P Q me))) 0 = false.
Proof. exists 1%nat, 2%nat, 1%nat, 1%nat, 1%nat. vm_compute. split; reflexivity. Qed.

(* reduce.jdf *)
Theorem C22_reduce_leaves : forall MT : Z, (1 <= MT)%Z -> reduce_leaves MT = Some (zrange 0 (MT - 1)).
Proof. exact reduce_leaves_all. Qed.

Theorem C22_reduce_root_fold : forall MT : Z, (1 <= MT)%Z ->
  forall (V : Type) (op : V -> V -> V) (tl : Z -> V),
  (forall a b c, op a (op b c) = op (op a b) c) ->
  reduce_root_value op tl MT = fold1 op (map tl (zrange 0 (MT - 1))).
Proof. exact reduce_root_fold. Qed.

Theorem C22_reduce_root_output : forall MT : Z, reduce_root_out MT = [RData "R" [0; 0]%Z].
Proof. exact reduce_root_output. Qed.

Theorem C22_reduce_no_operator : forall G, all_calls (reduce_classes G) = [].
Proof. exact reduce_no_operator. Qed.

(* "every data reference of an instance is a tile of the matrix" is false of reduce.jdf *)
Theorem C22_reduce_in_matrix_refuted : forall MT : Z, (1 <= MT)%Z -> Z.even MT = true ->
  In [1; MT / 2]%Z (reduce_reduce_space (reduce_G_of MT)) /\
  active_in (reduce_reduce_in_A (reduce_G_of MT) 1 (MT / 2)) = Some (RData "descA" [MT; 0%Z]).
Proof. exact reduce_even_reads_outside. Qed.

(* reduce_col.jdf / reduce_row.jdf *)
Theorem C22_reduce_col_refuted : forall src dest : mdesc, (0 <= md_lmt src)%Z -> (0 <= md_lnt src)%Z ->
  let G := rcol_New_G src dest in
  all_calls (rcol_classes G) = [] /\
  In [md_lnt src; md_lmt src] (rcol_reduce_in_col_space G) /\
  rcol_reduce_in_col_place G (md_lnt src) (md_lmt src) = RData "src" [md_lnt src; md_lmt src] /\
  tile_in_matrix src (RData "src" [md_lnt src; md_lmt src]) = false.
Proof. intros src dest H1 H2 G. split; [apply rcol_no_operator|apply rcol_out_of_matrix; assumption]. Qed.

Theorem C22_reduce_row_refuted :
  (forall G, all_calls (rrow_classes G) = []) /\
  out_of_matrix (md_of 3 3) (rrow_reduce_in_row_class (rrow_New_G (md_of 3 3) (md_of 3 1))) <> [].
Proof. split; [exact rrow_no_operator|exact rrow_out_of_matrix_witness]. Qed.

Theorem C22_reduce_col_dangling_witness :
  dangling_inputs (rcol_classes (rcol_New_G (md_of 5 5) (md_of 1 5))) <> [].
Proof. exact rcol_dangling_witness. Qed.

Print Assumptions C22_apply_exactly_once.
Print Assumptions C22_apply_uplo_argument.
Print Assumptions C22_apply_on_tile.
Print Assumptions C22_map_never_twice.
Print Assumptions C22_map_exactly_once.
Print Assumptions C22_map_progress.
Print Assumptions C22_map_completion_refuted.
Print Assumptions C22_reduce_leaves.
Print Assumptions C22_reduce_root_fold.
Print Assumptions C22_reduce_root_output.
Print Assumptions C22_reduce_no_operator.
Print Assumptions C22_reduce_in_matrix_refuted.
Print Assumptions C22_reduce_col_refuted.
Print Assumptions C22_reduce_row_refuted.
Print Assumptions C22_reduce_col_dangling_witness.

(* non-vacuity *)
Example apply_lower_3x2 :
  map call_tile (apply_calls matrix_lower_v 3 2) = [(1, 0); (2, 0); (2, 1); (0, 0); (1, 1)]%Z
  /\ region matrix_lower_v 3 2 = [(0, 0); (1, 0); (1, 1); (2, 0); (2, 1)]%Z.
Proof. vm_compute. split; reflexivity. Qed.
Example reduce_sum_9 :
  reduce_root_value Z.add (fun i => (i * i + 1)%Z) 9 = Some 213%Z
  /\ reduce_leaves 6 = Some [0; 1; 2; 3; 4; 5]%Z.
Proof. vm_compute. split; reflexivity. Qed.
Example map_2ranks :
  map_visits 3 4 2 1 2 1 [0; 1; 0; 2; 1] = ([(0, 1); (1, 1); (2, 1); (0, 3); (1, 3); (2, 3)], true)%nat.
Proof. vm_compute. reflexivity. Qed.
