(* C09 — Priority schedulers honour task priorities.
   The lemmas behind the proofs are in Sched/SchedPrioProofs.v.

   Reference semantics (Sched/SchedPrioDefs.v): the pending tasks in arrival
   order (order of the schedule calls, ring order inside a call), each with the
   distance it was scheduled with; [srun pick] appends on schedule and removes
   [pick]'s choice on select.  [plain ops]: the history consists of
   module.schedule / module.select calls (any streams, any rings, any
   distances); ap, ip and spq keep one structure per virtual process, so the
   stream does not matter. *)
From Coq Require Import ZArith List.
From PV Require Import Base.Tac Sched.SchedDefs Sched.SchedPrioDefs Sched.SchedContProofs Sched.SchedPrioProofs.
Import ListNotations.
Local Open Scope Z_scope.

(* ap: every select returns what the reference returns ... *)
Theorem C09_ap_refines : forall c ops, plain ops ->
  snd (vrun c (vinit AP c) ops) = srun ap_pick [] ops.
Proof.
  intros c ops H. apply (sim AP apI ap_pick (fun _ => True)); auto using dists_true, apI_init.
  - intros c0 Q P es d ring rnds _. apply apI_sched.
  - intros c0 [|t Q] P es Q' o HI E; injection E as <- <-.
    + destruct HI as [_ HI]. apply sameI_nil in HI. subst P. exists [], None. auto using apI_init.
    + destruct (ap_sel_sim _ _ _ HI) as (x & P' & Hp & Hx & HI'). exists P', (Some x). cbn. rewrite Hx. auto.
Qed.
Print Assumptions C09_ap_refines.
(* ... which is a maximum-priority pending task, the earliest scheduled among equals (NULL only when nothing is pending) *)
Theorem C09_ap_pick_meaning : forall P P' x, ap_pick P = (P', Some x) ->
  exists a b, P = a ++ x :: b /\ P' = a ++ b /\
              (forall y, In y P -> pprio y <= pprio x) /\ (forall y, In y a -> pprio y < pprio x).
Proof. exact ap_pick_meaning. Qed.
Print Assumptions C09_ap_pick_meaning.
Theorem C09_ap_pick_none : forall P P', ap_pick P = (P', None) -> P = [].
Proof.
  intros P P'. unfold ap_pick. destruct (zmax_list (map pprio P)) as [k|] eqn:Ek.
  - intros H. apply take_spec in H. destruct H as [_ H]. apply zmax_list_iff in Ek. destruct Ek as [Hin _].
    apply in_map_iff in Hin. destruct Hin as (y & Hy1 & Hy2). rewrite Forall_forall in H. specialize (H y Hy2).
    apply Z.eqb_neq in H. congruence.
  - destruct P; [auto|discriminate].
Qed.
Print Assumptions C09_ap_pick_none.

(* spq: the smallest pending distance first (so a task rescheduled at distance
   d+1 is never selected while one is pending at distance <= d); within that
   distance as ap *)
Theorem C09_spq_refines : forall c ops, plain ops ->
  snd (vrun c (vinit SPQ c) ops) = srun spq_pick [] ops.
Proof.
  intros c ops H. apply (sim SPQ spI spq_pick (fun _ => True)); auto using dists_true, spI_init.
  - intros c0 Q P es d ring rnds _. apply spI_sched.
  - intros c0 Q P es Q' [t|] HI E; cbn [msel] in E.
    + destruct (spq_sel_sim _ _ _ _ HI E) as (x & P' & Hp & Hx & HI'). exists P', (Some x). cbn. rewrite Hx. auto.
    + destruct (spq_sel_none_sim _ _ _ HI E) as [-> ->]. exists [], None. auto.
Qed.
Print Assumptions C09_spq_refines.
Theorem C09_spq_pick_meaning : forall P P' x, spq_pick P = (P', Some x) ->
  exists a b, P = a ++ x :: b /\ P' = a ++ b /\
              (forall y, In y P -> fst x <= fst y) /\
              (forall y, In y P -> fst y = fst x -> pprio y <= pprio x) /\
              (forall y, In y a -> fst y = fst x -> pprio y < pprio x).
Proof. exact spq_pick_meaning. Qed.
Print Assumptions C09_spq_pick_meaning.

(* ip, histories whose schedules all have distance 0: a minimum-priority pending
   task, the LATEST scheduled among equals (pop_back of the stable sorted list) *)
Theorem C09_ip_refines_dist0 : forall c ops, plain ops -> dist0 ops ->
  snd (vrun c (vinit IP c) ops) = srun ip_pick [] ops.
Proof.
  (* H0 is the premise [dists (fun d => d = 0) ops] of [sim], to which [dist0 ops] unfolds *)
  intros c ops H H0. apply (sim IP apI ip_pick (fun d => d = 0)); auto using apI_init.
  - intros c0 Q P es d ring rnds -> HI. apply (apI_sched Q P 0 ring HI).
  - intros c0 Q P es Q' [t|] HI E; cbn [msel] in E.
    + apply pop_back_some in E. subst Q.
      destruct (ip_sel_sim _ _ _ HI) as (x & P' & Hp & Hx & HI'). exists P', (Some x). cbn. rewrite Hx. auto.
    + apply pop_back_none in E. destruct E as [-> ->].
      destruct HI as [_ HI]. apply sameI_nil in HI. subst P. exists [], None. auto using apI_init.
Qed.
Print Assumptions C09_ip_refines_dist0.
Theorem C09_ip_pick_meaning : forall P P' x, ip_pick P = (P', Some x) ->
  exists a b, P = a ++ x :: b /\ P' = a ++ b /\
              (forall y, In y P -> pprio x <= pprio y) /\ (forall y, In y b -> pprio x < pprio y).
Proof. exact ip_pick_meaning. Qed.
Print Assumptions C09_ip_pick_meaning.

(* the unrestricted ip statement is false of the code: schedule priority 5 (d=0),
   3 (d=0), 10 (d=1): chain_back puts 10 at the tail, where pop_back selects:
   10 is returned before 3 and 5.  Replayed on the real module by checks/C09.py
   (signature ip-distance). *)
Theorem C09_ip_distance_refuted :
  plain ip_witness /\
  snd (vrun c1 (vinit IP c1) ip_witness) <> srun ip_pick [] ip_witness /\
  map ob_prio (snd (vrun c1 (vinit IP c1) ip_witness)) = [None; None; None; Some 10; Some 3; Some 5].
Proof.
  split; [repeat constructor|]. split; [vm_compute; discriminate|vm_compute; reflexivity].
Qed.
Print Assumptions C09_ip_distance_refuted.

(* non-vacuity: ties and several distances *)
Definition hx : list op :=
  [OSched 0 0 [mkT 0 2 0 false; mkT 1 7 0 false; mkT 2 2 0 false] [];
   OSched 0 1 [mkT 3 9 0 false] []; OSched 0 0 [mkT 4 7 0 false; mkT 5 1 0 false] [];
   OSel 0; OSel 0; OSel 0; OSel 0; OSel 0; OSel 0; OSel 0].
Definition hx0 : list op :=
  map (fun o => match o with OSched es _ r x => OSched es 0 r x | _ => o end) hx.
Example C09_example :
  plain hx /\ plain hx0 /\ dist0 hx0 /\
  skipn 3 (map ob_out_id (snd (vrun c1 (vinit AP c1) hx))) = [3; 1; 4; 0; 2; 5; -1] /\
  skipn 3 (map ob_out_id (snd (vrun c1 (vinit SPQ c1) hx))) = [1; 4; 0; 2; 5; 3; -1] /\
  skipn 3 (map ob_out_id (snd (vrun c1 (vinit IP c1) hx0))) = [5; 2; 0; 4; 1; 3; -1].
Proof.
  split; [repeat constructor|]. split; [repeat constructor|]. split; [repeat constructor|].
  vm_compute. repeat split; reflexivity.
Qed.
