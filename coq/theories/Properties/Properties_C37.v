(* C37 — Taskpool identifiers resolve to the registered taskpool.
   The model is TpIds/TpIdsDefs.v (parsec/parsec.c: taskpool_array,
   parsec_taskpool_reserve_id / _register / _unregister / _lookup /
   _sync_ids_context); the refinement is proved in TpIds/TpIdsProofs.v, the
   longer clauses in TpIds/TpIdsClauses.v.

   A history is a list of events over n processes: [At r op] = process r runs
   one critical section of taskpool_array_lock, [SyncAll] = the collective
   parsec_taskpool_sync_ids (MPI_Allreduce(MAX) of the counters).  Because every
   operation is one critical section of the same lock, the concurrent
   executions of one process are exactly these sequential histories.
   [wf n h] is the callers' discipline, stated on the finite-map
   specification: a pool is given an identifier once, before it is registered
   or unregistered; identifiers looked up are >= 1. *)
From Coq Require Import Sorted.
From PV Require Import Base.Tac TpIds.TpIdsDefs TpIds.TpIdsProofs TpIds.TpIdsClauses.
Local Open Scope Z_scope.

(* trace refinement to one finite map id -> pool per process: every answer of
   the table (identifiers, lookups, no crash) is the answer of the maps, for
   every number of processes and every history, array growth included *)
Theorem C37_refines_finite_map : forall n h, wf n h = true ->
  snd (sys_run (sys_init n) h) = snd (spec_sys_run (spec_sys_init n) h).
Proof. intros n h Hwf. apply sys_run_R; auto. apply sys_init_R. Qed.
Print Assumptions C37_refines_finite_map.

(* ... and at any time the lookup of any identifier is the map's entry *)
Theorem C37_lookup_is_map : forall n h r s a i, wf n h = true ->
  nth_error (fst (sys_run (sys_init n) h)) r = Some s ->
  nth_error (fst (spec_sys_run (spec_sys_init n) h)) r = Some a ->
  1 <= i -> lookup s i = RPool (s_map a i) /\ dead s = false.
Proof.
  intros n h r s a i Hwf Hs Ha Hi.
  destruct (Forall2_nth _ _ _ _ _ (final_R n h Hwf) Ha) as (s' & Hs' & HR). rewrite Hs in Hs'. inv Hs'.
  unfold lookup. rewrite (lookup_R _ _ _ HR Hi). split; auto. apply HR.
Qed.
Print Assumptions C37_lookup_is_map.

(* while a taskpool is registered, looking up its identifier returns it *)
Theorem C37_registered_resolves : forall n h1 h2 r p,
  wf n (h1 ++ At r (Register p) :: h2) = true -> ~ In (At r (Unregister p)) h2 ->
  exists s i, nth_error (fst (sys_run (sys_init n) (h1 ++ At r (Register p) :: h2))) r = Some s /\
    1 <= i /\ assoc p (tpid s) = i /\ lookup s i = RPool (Some p).
Proof. exact (written_entry_resolves true). Qed.
Print Assumptions C37_registered_resolves.

(* after unregistration the lookup returns nothing *)
Theorem C37_unregistered_resolves_to_nothing : forall n h1 h2 r p,
  wf n (h1 ++ At r (Unregister p) :: h2) = true -> ~ In (At r (Register p)) h2 ->
  exists s i, nth_error (fst (sys_run (sys_init n) (h1 ++ At r (Unregister p) :: h2))) r = Some s /\
    1 <= i /\ assoc p (tpid s) = i /\ lookup s i = RPool None.
Proof. exact (written_entry_resolves false). Qed.
Print Assumptions C37_unregistered_resolves_to_nothing.

(* identifiers under which nothing was ever registered resolve to nothing *)
Theorem C37_never_registered_is_null : forall n h r s i, wf n h = true ->
  nth_error (fst (sys_run (sys_init n) h)) r = Some s -> 1 <= i ->
  (forall p, In (At r (Register p)) h -> assoc p (tpid s) <> i) ->
  lookup s i = RPool None.
Proof. exact never_registered_is_null. Qed.
Print Assumptions C37_never_registered_is_null.

(* growth of the array preserves the entries *)
Theorem C37_growth_preserves_entries : forall n h r p s i, wf n (h ++ [At r (Reserve p)]) = true ->
  nth_error (fst (sys_run (sys_init n) h)) r = Some s -> 1 <= i ->
  lookup (fst (step s (Reserve p))) i = lookup s i.
Proof.
  intros n h r p s i Hwf Hs Hi. unfold wf in Hwf. rewrite wf_run_app in Hwf.
  apply andb_true_iff in Hwf. destruct Hwf as [Hwf1 Hwf2]. pose proof (final_R n h Hwf1) as HF.
  destruct (Forall2_nth_l _ _ _ _ _ HF Hs) as (a & Ha & HR).
  cbn [wf_run ok_event] in Hwf2. rewrite Ha in Hwf2. apply andb_true_iff in Hwf2.
  eapply reserve_preserves_lookups; eauto. apply Hwf2.
Qed.
Print Assumptions C37_growth_preserves_entries.

(* identifiers reserved by one process are pairwise distinct (strictly
   increasing, >= 1), whatever else the callers do *)
Theorem C37_reserved_ids_distinct : forall n h r, collective h ->
  StronglySorted Z.lt (reserved_ids r h (snd (sys_run (sys_init n) h))) /\
  NoDup (reserved_ids r h (snd (sys_run (sys_init n) h))) /\
  Forall (fun i => 1 <= i) (reserved_ids r h (snd (sys_run (sys_init n) h))).
Proof. exact reserved_ids_distinct. Qed.
Print Assumptions C37_reserved_ids_distinct.

(* after the synchronisation all processes assign the same identifier to
   their next taskpool, and it is new everywhere *)
Theorem C37_sync_common_next : forall n h r1 r2 s1 s2 p1 p2, wf n h = true -> collective h ->
  let ss := fst (sys_run (sys_init n) (h ++ [SyncAll])) in
  nth_error ss r1 = Some s1 -> nth_error ss r2 = Some s2 ->
  exists i, snd (step s1 (Reserve p1)) = RId i /\ snd (step s2 (Reserve p2)) = RId i /\
    forall r, Forall (fun j => j < i) (reserved_ids r h (snd (sys_run (sys_init n) h))).
Proof. exact sync_common_next. Qed.
Print Assumptions C37_sync_common_next.

(* the synchronisation is one critical section of taskpool_array_lock: the
   value written back is the maximum over the counters as they are at that
   moment, so no counter ever decreases (a reservation by another thread of
   the process is ordered before or after the whole synchronisation, and
   C37_reserved_ids_distinct covers both orders) *)
Theorem C37_sync_never_lowers_a_counter : forall ss r s s', nth_error ss r = Some s -> dead s = false ->
  nth_error (fst (sys_step ss SyncAll)) r = Some s' -> pos s <= pos s' /\ pos s' = max_pos ss.
Proof.
  intros ss r s s' Hn Hd Hn'. cbn [sys_step fst] in Hn'. rewrite nth_error_map, Hn in Hn'. inv Hn'.
  destruct (sync_pos s (max_pos ss) Hd) as [-> _]. split; auto. eapply max_pos_ge; eauto.
Qed.
Print Assumptions C37_sync_never_lowers_a_counter.

(* ... and it has to be: a write-back computed from a counter read before a
   reservation (Sync m with m below the current counter) repeats an identifier *)
Theorem C37_stale_write_back_repeats_an_identifier :
  let s1 := fst (step init (Reserve 1)) in
  let s2 := fst (step s1 (Sync 0)) in
  snd (step init (Reserve 1)) = RId 1 /\ snd (step s2 (Reserve 2)) = RId 1.
Proof. vm_compute. auto. Qed.
Print Assumptions C37_stale_write_back_repeats_an_identifier.

(* outside the property: 0 is not an identifier (the first one is 1), and the
   code does not tolerate its lookup: NULL array before the first
   reservation, a slot nobody initialised afterwards *)
Theorem C37_zero_is_not_an_identifier :
  lookup init 0 = RCrash /\ forall p, lookup (fst (step init (Reserve p))) 0 = RJunk.
Proof. split; reflexivity. Qed.
Print Assumptions C37_zero_is_not_an_identifier.

(* non-vacuity: two processes; process 0 reserves five identifiers (the array
   grows 1 -> 2 -> 4 -> 8), registers pool 3, process 1 reserves one; after the
   synchronisation both hand out 6; pool 3 is still found under 3 on process 0 *)
Example C37_example :
  let h := [At 0 (Reserve 1); At 0 (Reserve 2); At 0 (Reserve 3); At 0 (Register 3); At 0 (Reserve 4);
            At 0 (Reserve 5); At 1 (Reserve 1); At 1 (Register 1); SyncAll;
            At 0 (Reserve 6); At 1 (Reserve 2); At 0 (Lookup 3); At 1 (Lookup 3); At 1 (Lookup 1);
            At 0 (Unregister 3); At 0 (Lookup 3)] in
  wf 2 h = true /\
  snd (sys_run (sys_init 2) h) =
    [RId 1; RId 2; RId 3; RId 3; RId 4; RId 5; RId 1; RId 1; RUnit; RId 6; RId 6;
     RPool (Some 3); RPool None; RPool (Some 1); RUnit; RPool None] /\
  map size (fst (sys_run (sys_init 2) h)) = [8; 8].
Proof. vm_compute. repeat split. Qed.
