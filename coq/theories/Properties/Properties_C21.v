(* C21 — Redistribution copies exactly the requested window.
   The decomposition of one dimension is proved in Redist/RedistDim.v, the two
   dimensions and the element level in Redist/RedistProofs.v.

   Quantifiers: every configuration [c] (tile sizes of source and target, window
   size, the four displacements, descriptor extents, column-batch widths) that the
   wrapper parsec_redistribute_New accepts ([wf c] = its parameter checks pass and
   tile sizes are positive); every source and target content; both execution paths
   (general redistribute.jdf and optimized redistribute_reshuffle.jdf, selected by
   the wrapper's own condition). *)
From Coq Require Import ZArith List.
From PV Require Import Base.Tac Redist.RedistDefs Redist.RedistDim Redist.RedistProofs.
Import ListNotations.
Local Open Scope Z_scope.

(* the call succeeds and the target becomes: window of the source at the target
   displacement, every other entry unchanged *)
Theorem C21_result_is_window_copy : forall c src tgt,
  wf c ->
  fst (redistribute c src tgt) = true /\
  forall i j, snd (redistribute c src tgt) i j = spec c src tgt i j.
Proof.
  intros c src tgt Hwf. unfold redistribute. destruct Hwf as (Ha & Hb). rewrite Ha. cbn [fst snd].
  split; [reflexivity|]. intros i j. apply exec_spec. split; assumption.
Qed.
Print Assumptions C21_result_is_window_copy.

(* the union of the copied sub-blocks is exactly the window, and each entry is
   copied from the source position the specification names *)
Theorem C21_writes_exactly_the_window : forall c ti tj si sj,
  wf c ->
  (In ((ti, tj), (si, sj)) (cells c) <->
   dT (rd c) <= ti < dT (rd c) + sz (rd c) /\ dT (cd c) <= tj < dT (cd c) + sz (cd c) /\
   si = ti - dT (rd c) + dY (rd c) /\ sj = tj - dT (cd c) + dY (cd c)).
Proof. exact cells_exact. Qed.
Print Assumptions C21_writes_exactly_the_window.

(* no target entry is written twice (inside one sub-block or by two sub-blocks) *)
Theorem C21_each_entry_written_once : forall c, wf c -> NoDup (map fst (cells c)).
Proof.
  intros c Hwf. unfold cells. apply NoDup_flat_map_key.
  - apply NoDup_copies; exact Hwf.
  - intros [r s] _. unfold rect_cells. rewrite map_map. cbn [fst snd].
    apply (NoDup_prod_key fst fst); apply NoDup_seg_cells_fst.
  - intros r1 r2 [[i j] u] [[i' j'] v] H1 H2 C1 C2 E. cbn in E. injection E as <- <-.
    eapply copies_disjoint; eauto.
Qed.
Print Assumptions C21_each_entry_written_once.

(* the target rectangles of the copied sub-blocks are pairwise disjoint *)
Theorem C21_blocks_pairwise_disjoint : forall c r1 r2 i j u v,
  wf c -> In r1 (copies c) -> In r2 (copies c) ->
  In ((i, j), u) (rect_cells c r1) -> In ((i, j), v) (rect_cells c r2) -> r1 = r2.
Proof. exact copies_disjoint. Qed.
Print Assumptions C21_blocks_pairwise_disjoint.

Theorem C21_blocks_listed_once : forall c, wf c -> NoDup (copies c).
Proof. exact NoDup_copies. Qed.
Print Assumptions C21_blocks_listed_once.

(* each sub-block lies inside one existing source tile and one existing target tile *)
Theorem C21_blocks_inside_tiles : forall c r s,
  wf c -> In (r, s) (copies c) ->
  (seg_in_tiles (rd c) r /\ 0 <= s_t r < lmtT c /\ 0 <= s_y r < lmtY c) /\
  (seg_in_tiles (cd c) s /\ 0 <= s_t s < lntT c /\ 0 <= s_y s < lntY c).
Proof.
  intros c r s Hwf H. unfold copies in H. apply in_prod_iff in H. destruct H as (Hr & Hs).
  destruct (wf_facts c Hwf) as (W1 & W2 & _ & Y1 & Y2 & T1 & T2).
  split; [eapply seg_in_matrix; eauto using row_exact|eapply seg_in_matrix; eauto using col_exact].
Qed.
Print Assumptions C21_blocks_inside_tiles.

(* the result does not depend on the order in which the runtime performs the copies *)
Theorem C21_order_irrelevant : forall c ws src tgt i j,
  wf c -> (forall w, In w ws <-> In w (cells c)) -> exec ws src tgt i j = spec c src tgt i j.
Proof. exact exec_any_order. Qed.
Print Assumptions C21_order_irrelevant.

(* the column batches of both JDFs enumerate every target tile column once, in order *)
Theorem C21_batches_cover_columns : forall tstart tend nc,
  0 < nc -> tstart <= tend -> batch_ts tstart tend nc = zrange tstart tend.
Proof. exact batch_ts_eq. Qed.
Print Assumptions C21_batches_cover_columns.

(* a refused call leaves the target alone *)
Theorem C21_refused_call_untouched : forall c src tgt,
  accept c = false -> redistribute c src tgt = (false, tgt).
Proof. exact refused. Qed.
Print Assumptions C21_refused_call_untouched.

(* the function run by the differential driver is the model's result on the harness patterns *)
Theorem C21_observation_is_model_result : forall c,
  observe c =
  (fst (redistribute c pat_src pat_tgt),
   flat_map (fun i => map (fun j => snd (redistribute c pat_src pat_tgt) i j) (zrange 0 (lntT c * bT (cd c) - 1)))
            (zrange 0 (lmtT c * bT (rd c) - 1))).
Proof.
  intros c. unfold observe, redistribute. destruct (accept c); cbn [fst snd]; [|reflexivity].
  f_equal. apply flat_map_ext. intros i. apply map_ext. intros j.
  rewrite <- lookup_exec. reflexivity.
Qed.
Print Assumptions C21_observation_is_model_result.

(* all dividends of the JDF index expressions are non-negative (so C division is Z.div) *)
Theorem C21_c_division_agrees : forall d t,
  wf1 d -> t_START d <= t <= t_END d ->
  0 <= dT d /\ 0 <= sz d + dT d - 1 /\ 0 <= dY d /\
  (t <> t_START d -> 0 <= size_T d t /\ 0 <= size_T d t + dY d /\ 0 <= size_T d t + dY d + t_inner d t - 1) /\
  0 <= dY d + t_inner d t - 1 /\ 0 <= i_start d t + t_inner d t - 1.
Proof.
  intros d t Hwf Ht. destruct (tile_part d t Hwf Ht) as (P1 & P2 & P3 & P4 & P5 & P6 & _).
  destruct (jdf_forms d t) as (F1 & _). pose proof Hwf as (HbY & HbT & Hsz & HdY & HdT).
  assert (0 <= i_start d t) by (rewrite F1; apply Z.mod_pos_bound; lia).
  unfold lo in P1. repeat split; try lia; destruct (t =? t_START d) eqn:E;
    try (apply Z.eqb_eq in E; congruence); lia.
Qed.
Print Assumptions C21_c_division_agrees.

(* non-vacuity: source 10x10 in 3x3 tiles, target 12x12 in 4x4 tiles, a 5x6 window from (2,1)
   to (3,2): accepted, general path, 3 row intervals x 3 column intervals; and an aligned 8x5 window
   (40 cells) in 4x4 tiles on the optimized path *)
Definition ex_general : cfg := mkCfg (mkDim 3 4 5 2 3) (mkDim 3 4 6 1 2) 4 4 3 3 1 1.
Definition ex_reshuffle : cfg := mkCfg (mkDim 4 4 8 0 4) (mkDim 4 4 5 4 0) 3 3 3 3 2 1.
Example C21_example :
  wf ex_general /\ use_reshuffle ex_general = false /\
  map (fun s => (s_t s, s_y s, s_src s, s_dst s, s_len s)) (row_segs ex_general)
    = [(0, 0, 2, 3, 1); (1, 1, 0, 0, 3); (1, 2, 0, 3, 1)] /\
  length (copies ex_general) = 9%nat /\ length (cells ex_general) = 30%nat /\
  wf ex_reshuffle /\ use_reshuffle ex_reshuffle = true /\
  map (fun s => (s_t s, s_y s, s_src s, s_dst s, s_len s)) (col_segs ex_reshuffle)
    = [(0, 1, 0, 0, 4); (1, 2, 0, 0, 1)] /\
  length (cells ex_reshuffle) = 40%nat.
Proof. vm_compute. repeat split; reflexivity || lia. Qed.
