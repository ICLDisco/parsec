(* C24 — The PTG compiler accepts only programs it can compile.
   Proved here: the limit decision.  "Emits C that compiles" and "same input, same output"
   are properties of the implementation that a theorem about the model cannot state; they
   are exercised by the check on every generated program and labelled as tests there. *)
From PV Require Import Base.Tac PTGCheck.PTGCheckDefs PTGCheck.PTGCheckProofs.

(* every accepted program fits the fixed-size arrays of the runtime (repaired tree) *)
Theorem C24_accept_sound : forall p, accept true p = true -> within_limits p.
Proof.
  intros p. unfold accept, within_limits. destruct (pg_mal p); try discriminate.
  intros H f Hin. rewrite forallb_forall in H. apply func_ok_within. auto.
Qed.
Print Assumptions C24_accept_sound.

(* programs exceeding a runtime limit on flows, dependencies or locals are always rejected *)
Theorem C24_overlimit_rejected : forall p, ~ within_limits p -> accept true p = false.
Proof.
  intros p H. destruct (accept true p) eqn:E; [|reflexivity]. exfalso. apply H, C24_accept_sound, E.
Qed.
Print Assumptions C24_overlimit_rejected.

(* malformed input is rejected whatever the counting *)
Theorem C24_malformed_rejected : forall fixed p, pg_mal p <> WellFormed -> accept fixed p = false.
Proof. intros fixed p. unfold accept. destruct (pg_mal p); congruence. Qed.
Print Assumptions C24_malformed_rejected.

(* the number of local-definition slots the compiler declares (and tests the locals limit with) is the
   number the generated code indexes, whatever the position of the dependency that needs most *)
Theorem C24_ldef_counted_is_needed : forall f, ldef_counted f = ldef_needed f.
Proof. exact ldef_counted_is_needed. Qed.
Print Assumptions C24_ldef_counted_is_needed.

(* before commit 23ef5a8 of /repo (see KNOWN_FINDINGS.txt) the compiler under-counted a ternary dependency
   whose true branch introduces more local definitions than its false branch: kept as a witness *)
Theorem C24_ternary_ldef_counting_refuted : exists f, ldef_counted_old f < ldef_needed f.
Proof.
  exists {| fn_locals := 1; fn_pdefs := 0;
            fn_flows := [ {| fl_access := AccRead;
                             fl_deps := [ {| dp_in := false; dp_guard := GTernary; dp_ldefs := 0; dp_ct := 1; dp_cf := 0 |} ] |} ] |}.
  vm_compute. lia.
Qed.
Print Assumptions C24_ternary_ldef_counting_refuted.

(* before commit 7624807 of /repo (see KNOWN_FINDINGS.txt) the compiler counted one entry per
   dependency whatever its guard, and accepted a program that overflows dep_in: kept as a witness *)
Theorem C24_prefix_counting_refuted : exists p, accept false p = true /\ ~ within_limits p.
Proof.
  exists tern6. split; [vm_compute; reflexivity|].
  intros H. apply within_limitsb_spec in H. vm_compute in H. discriminate.
Qed.
Print Assumptions C24_prefix_counting_refuted.

(* non-vacuity: a program at the limits is accepted *)
Example C24_example_at_limit :
  accept true {| pg_mal := WellFormed;
                 pg_funcs := [ {| fn_locals := 17; fn_pdefs := 1;
                   fn_flows := repeat {| fl_access := AccRW;
                                         fl_deps := repeat {| dp_in := true; dp_guard := GTernary; dp_ldefs := 0; dp_ct := 0; dp_cf := 0 |} 5 ++
                                                    [ {| dp_in := false; dp_guard := GBinary; dp_ldefs := 1; dp_ct := 1; dp_cf := 0 |} ] ++
                                                    repeat {| dp_in := false; dp_guard := GBinary; dp_ldefs := 0; dp_ct := 0; dp_cf := 0 |} 9 |} 2 ++
                               [ {| fl_access := AccRW;
                                    fl_deps := repeat {| dp_in := true; dp_guard := GBinary; dp_ldefs := 0; dp_ct := 0; dp_cf := 0 |} 10 ++
                                               repeat {| dp_in := false; dp_guard := GBinary; dp_ldefs := 0; dp_ct := 0; dp_cf := 0 |} 3 |} ] |} ;
                               (* the class above: 20 input and 23 output dependency indices (10+10+3), the most jdf_flatten_function accepts for outputs; below: 20 flows *)
                               {| fn_locals := 20; fn_pdefs := 0;
                                  fn_flows := repeat {| fl_access := AccRead;
                                                        fl_deps := [ {| dp_in := true; dp_guard := GUncond; dp_ldefs := 0; dp_ct := 0; dp_cf := 0 |} ] |} 20 |} ] |} = true.
Proof. vm_compute. reflexivity. Qed.
