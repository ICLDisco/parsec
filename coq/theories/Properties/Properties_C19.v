(* C19 — Matrix datatypes select exactly the specified elements.
   The specifications of the four constructors are proved in DType/DTypeProofs.v.

   Vocabulary (DType/DTypeDefs.v): [selected t] is the list of byte offsets that
   MPI_Pack reads through datatype t, in type order; [elems sz es] the bytes of
   the sz-byte elements at element offsets es; [region_enum P m n ld] the
   column-major enumeration (columns j = 0..n-1, rows i = 0..m-1 inside a column)
   of the offsets i + j*ld of the positions with P i j; [region uplo diag] the
   upper / lower triangle with the diagonal iff diag <> 0, anything else full.
   Hypothesis ld*n*sz < 2^31: range in which the model's Z arithmetic is the
   code's unsigned/int arithmetic. *)
From PV Require Import Base.Tac DType.DTypeDefs DType.DTypeProofs.
Local Open Scope Z_scope.

(* the public entry point parsec_matrix_define_datatype, every uplo value, both
   diag values, every m, n >= 1, ld >= m, every base size, resized or not:
   it succeeds, the type selects exactly the region in column-major order, lb = 0,
   the returned extent is the type's extent and has the stated value *)
Theorem C19_datatype : forall sz uplo diag m n ld rsz,
  0 < sz -> 1 <= m -> 1 <= n -> m <= ld -> ld * n * sz < 2 ^ 31 ->
  exists t, define_datatype sz uplo diag m n ld rsz = (Ok t, ext t) /\
    selected t = elems sz (region_enum (region uplo diag) m n ld) /\ lb t = 0 /\
    ext t = if (uplo =? PARSEC_MATRIX_UPPER) || (uplo =? PARSEC_MATRIX_LOWER) then ld * n * sz
            else if 0 <=? rsz then rsz * sz else ((n - 1) * ld + m) * sz.
Proof. exact datatype_spec. Qed.
Print Assumptions C19_datatype.

(* parsec_matrix_define_triangle (anchor: index / blocklen computation) *)
Theorem C19_triangle : forall sz uplo diag m n ld,
  0 < sz -> 1 <= m -> 1 <= n -> m <= ld -> ld * n * sz < 2 ^ 31 ->
  uplo = PARSEC_MATRIX_UPPER \/ uplo = PARSEC_MATRIX_LOWER ->
  exists t, define_triangle sz uplo diag m n ld = Ok t /\
    selected t = elems sz (region_enum (region uplo diag) m n ld) /\
    lb t = 0 /\ ext t = ld * n * sz.
Proof. exact triangle_spec. Qed.
Print Assumptions C19_triangle.

(* parsec_matrix_define_rectangle (contiguous when m = ld, vector otherwise) *)
Theorem C19_rectangle : forall sz m n ld rsz,
  0 < sz -> 1 <= m -> 1 <= n -> m <= ld -> ld * n * sz < 2 ^ 31 ->
  exists t, define_rectangle sz m n ld rsz = Ok t /\
    selected t = elems sz (region_enum (fun _ _ => true) m n ld) /\ lb t = 0 /\
    ext t = if 0 <=? rsz then rsz * sz else ((n - 1) * ld + m) * sz.
Proof. exact rectangle_spec. Qed.
Print Assumptions C19_rectangle.

(* parsec_matrix_define_contiguous *)
Theorem C19_contiguous : forall sz nb rsz, 0 < sz -> 1 <= nb ->
  exists t, define_contiguous sz nb rsz = Ok t /\
    selected t = elems sz (zseq 0 nb) /\ lb t = 0 /\
    ext t = if 0 <=? rsz then rsz * sz else nb * sz.
Proof. exact contiguous_spec. Qed.
Print Assumptions C19_contiguous.

(* "exactly the elements of the region": each byte of each element of the region
   once, nothing else *)
Theorem C19_exactly_once : forall sz uplo diag m n ld rsz t e,
  0 < sz -> 1 <= m -> 1 <= n -> m <= ld -> ld * n * sz < 2 ^ 31 ->
  define_datatype sz uplo diag m n ld rsz = (Ok t, e) ->
  NoDup (selected t) /\
  forall b, In b (selected t) <->
    exists i j, 0 <= i < m /\ 0 <= j < n /\ region uplo diag i j = true /\
                (i + j * ld) * sz <= b < (i + j * ld + 1) * sz.
Proof.
  intros sz uplo diag m n ld rsz t e Hsz Hm Hn Hld Hov Hdef.
  destruct (datatype_spec sz uplo diag m n ld rsz Hsz Hm Hn Hld Hov) as [t' [Ht [Hs [Hl He]]]].
  rewrite Ht in Hdef. inversion Hdef; subst t' e. clear Hdef. rewrite Hs. split.
  - apply elems_NoDup; [exact Hsz|]. apply region_enum_NoDup. exact Hld.
  - intros b. apply elems_region_In. exact Hsz.
Qed.
Print Assumptions C19_exactly_once.

(* "the extent covers the tile" (no resize requested): the whole m-by-n tile with
   leading dimension ld, and every selected byte, lies in [lb, lb + extent) *)
Theorem C19_extent_covers : forall sz uplo diag m n ld rsz t e,
  0 < sz -> 1 <= m -> 1 <= n -> m <= ld -> ld * n * sz < 2 ^ 31 -> rsz < 0 ->
  define_datatype sz uplo diag m n ld rsz = (Ok t, e) ->
  e = ext t /\ ((n - 1) * ld + m) * sz <= ext t /\
  forall b, In b (selected t) -> lb t <= b < lb t + ext t.
Proof. exact datatype_covers. Qed.
Print Assumptions C19_extent_covers.

(* the enumeration that the theorems compare with is what the property names:
   membership, no repetition, and column-major = increasing memory order *)
Theorem C19_region_enum_spec : forall P m n ld, m <= ld ->
  NoDup (region_enum P m n ld) /\
  forall e, In e (region_enum P m n ld) <->
    exists i j, 0 <= i < m /\ 0 <= j < n /\ P i j = true /\ e = i + j * ld.
Proof.
  intros P m n ld H. split; [exact (region_enum_NoDup P m n ld H)|intro e; exact (region_enum_In P m n ld e)].
Qed.
Print Assumptions C19_region_enum_spec.

(* ... and with ld >= m the column-major order of positions is the increasing order of offsets *)
Theorem C19_column_major_increasing : forall m ld i1 j1 i2 j2,
  m <= ld -> 0 <= i1 < m -> 0 <= i2 < m -> 0 <= j1 -> 0 <= j2 ->
  (i1 + j1 * ld < i2 + j2 * ld <-> j1 < j2 \/ (j1 = j2 /\ i1 < i2)).
Proof. intros. nia. Qed.
Print Assumptions C19_column_major_increasing.

(* the arena shorthands adt_define_{rect,upper,lower,square} *)
Theorem C19_adt : forall kind sz diag m n ld,
  0 < sz -> 1 <= m -> 1 <= n -> m <= ld -> ld * n * sz < 2 ^ 31 -> m * m * sz < 2 ^ 31 ->
  0 <= kind <= 3 ->
  let uplo := if kind =? 1 then PARSEC_MATRIX_UPPER else if kind =? 2 then PARSEC_MATRIX_LOWER else PARSEC_MATRIX_FULL in
  let n' := if kind =? 0 then n else m in
  let ld' := if kind =? 0 then ld else m in
  exists t, adt_define kind sz diag m n ld = (Ok t, ext t) /\
    selected t = elems sz (region_enum (region uplo diag) m n' ld') /\ lb t = 0 /\
    ((n' - 1) * ld' + m) * sz <= ext t.
Proof. exact adt_spec. Qed.
Print Assumptions C19_adt.

(* an uplo that is neither UPPER nor LOWER is refused by define_triangle *)
Theorem C19_triangle_bad_uplo : forall sz uplo diag m n ld,
  uplo <> PARSEC_MATRIX_UPPER -> uplo <> PARSEC_MATRIX_LOWER ->
  define_triangle sz uplo diag m n ld = Err PARSEC_ERR_BAD_PARAM.
Proof.
  intros sz uplo diag m n ld H1 H2. unfold define_triangle.
  destruct (uplo =? PARSEC_MATRIX_UPPER) eqn:E1; [lia|].
  destruct (uplo =? PARSEC_MATRIX_LOWER) eqn:E2; [lia|]. reflexivity.
Qed.
Print Assumptions C19_triangle_bad_uplo.

(* non-vacuity: a 3-by-4 tile of 4-byte elements with ld = 5 *)
Example C19_example :
  region_enum (region PARSEC_MATRIX_UPPER 1) 3 4 5 = [0; 5; 6; 10; 11; 12; 15; 16; 17] /\
  region_enum (region PARSEC_MATRIX_UPPER 0) 3 4 5 = [5; 10; 11; 15; 16; 17] /\
  region_enum (region PARSEC_MATRIX_LOWER 1) 3 4 5 = [0; 1; 2; 6; 7; 12] /\
  region_enum (region PARSEC_MATRIX_LOWER 0) 3 4 5 = [1; 2; 7] /\
  (exists t, define_datatype 4 PARSEC_MATRIX_LOWER 0 3 4 5 (-1) = (Ok t, 80) /\
             selected t = [4;5;6;7; 8;9;10;11; 28;29;30;31]) /\
  (exists t, define_datatype 4 PARSEC_MATRIX_FULL 0 3 2 5 (-1) = (Ok t, 32) /\
             selected t = elems 4 [0;1;2;5;6;7]).
Proof. vm_compute. repeat split; eexists; split; reflexivity. Qed.
