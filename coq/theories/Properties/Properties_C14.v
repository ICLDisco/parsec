(* C14 — The communication engine delivers every message exactly once and intact.
   The model is CE/CEDefs.v; the invariants and lemmas used here are in CE/CE*Proofs.v.

   MPI is an assumption, made explicit by the abstract MPI of the model: per source FIFO channels,
   receives matched in the order they were started, completions reported by an oracle.  The oracle
   is unconstrained wherever the statement does not name a hypothesis: any interleaving of sends,
   matchings and MPI_Testsome calls, any subset reported, any window sizes.

   Level: partial.  Not proved (see the end of the file): eventual delivery, FIFO under in-order
   reports, the put/get handshake across two processes. *)
From Coq Require Import List Arith Bool ZArith Lia Permutation Sorted.
From PV Require Import Base.Tac CE.CEDefs CE.CEAmProofs CE.CEWinProofs CE.CELiveProofs CE.CEDynProofs CE.CETagProofs.
Import ListNotations.

(** Active messages: exactly once, with the bytes sent *)

(* at any time, every message handed to MPI_Send is in exactly one place: handed to the callback,
   matched with a posted receive and waiting for its callback, or still in flight *)
Theorem C14_am_conservation : forall P T nsrc evs,
  let st := arun (init_am P T nsrc) evs in
  Permutation (a_sent st) (a_deliv st ++ pending st ++ concat (a_chan st)).
Proof. intros. apply ai_perm, arun_inv, init_am_inv. Qed.
Print Assumptions C14_am_conservation.

(* what the callback receives — source, sequence number and the bytes it reads from the receive
   buffer — is a message that was sent, byte for byte *)
Theorem C14_am_exactly_once_intact : forall P T nsrc evs m,
  In m (a_deliv (arun (init_am P T nsrc) evs)) -> In m (a_sent (arun (init_am P T nsrc) evs)).
Proof.
  intros P T nsrc evs m H. eapply Permutation_in; [symmetry; apply C14_am_conservation|]. apply in_or_app; auto.
Qed.
Print Assumptions C14_am_exactly_once_intact.

(* no message is handed to the callback twice *)
Theorem C14_am_no_duplicate : forall P T nsrc evs, NoDup (a_deliv (arun (init_am P T nsrc) evs)).
Proof.
  intros P T nsrc evs. pose proof (arun_inv _ evs (init_am_inv P T nsrc)) as I.
  pose proof (Permutation_NoDup (ai_perm _ I) (ai_sent _ I)) as H.
  clear - H. induction (a_deliv (arun (init_am P T nsrc) evs)) as [|x l IH]; [constructor|].
  cbn in H. inv H. constructor; [|now apply IH].
  intro Hx. apply H2. apply in_or_app; auto.
Qed.
Print Assumptions C14_am_no_duplicate.

(* when nothing is in flight and no completed receive waits, every message has been delivered *)
Theorem C14_am_quiescent_all_delivered : forall P T nsrc evs,
  let st := arun (init_am P T nsrc) evs in
  pending st = [] -> concat (a_chan st) = [] -> Permutation (a_sent st) (a_deliv st).
Proof.
  cbn. intros P T nsrc evs Hp Hc. pose proof (C14_am_conservation P T nsrc evs) as H. cbn in H.
  now rewrite Hp, Hc, !app_nil_r in H.
Qed.
Print Assumptions C14_am_quiescent_all_delivered.

(* Per-(source, tag) FIFO delivery does NOT hold for every MPI behaviour: posted 3, tested 2, two
   sources.  Source 1's message completes before source 0's and MPI_Testsome reports it first
   (slot 1, then slot 0) — no order is broken yet, the messages come from different processes.  The
   window is refilled in index order while the receives were restarted in completion order, so the
   tested window and MPI's matching order disagree from then on: source 0 then sends #1 #2 #3, every
   later Testsome reports everything that is complete in the window, and the callback sees #3 before #2. *)
Definition fifo_witness : list aev :=
  [ASend 0 [10]; ASend 1 [20]; AMatch 0; AMatch 1; AReport [1]; AReport [0];
   ASend 0 [11]; ASend 0 [12]; ASend 0 [13]; AMatch 0; AMatch 0; AMatch 0; AReport [0; 1]; AReport [0; 1]].
Theorem C14_am_fifo_refuted :
  exists P T nsrc evs, 1 <= T <= P /\ seqs_from 0 (a_deliv (arun (init_am P T nsrc) evs)) = [0; 1; 3; 2].
Proof. exists 3, 2, 2, fifo_witness. split; [lia|]. vm_compute. reflexivity. Qed.
Print Assumptions C14_am_fifo_refuted.

(** The tested window of a tag *)

(* packing + refilling: the surviving receives keep their order, the window is full again, it holds
   distinct receives of the pool (Wok: reqs_in_testsome is exactly the set of receives in the slots) *)
Theorem C14_window_conserved : forall w, Wok w ->
  Wok (refill_w w) /\ Wfull (refill_w w) /\ length (w_slots (refill_w w)) = length (w_slots w) /\
  w_P (refill_w w) = w_P w /\ w_tag (refill_w w) = w_tag w /\
  exists picks, somes (w_slots (refill_w w)) = somes (w_slots w) ++ picks.
Proof. exact refill_ok. Qed.
Print Assumptions C14_window_conserved.

(* every window of the engine is consistent and full between two progress passes, whatever
   MPI_Testsome reports and whatever the callbacks issue *)
Theorem C14_windows_invariant : forall tags P T D R l,
  1 <= T -> T <= P -> EWin (fold_left step l (init_eng tags P T D R)).
Proof.
  intros. apply fold_left_inv; [intros; now apply step_windows|now apply init_windows].
Qed.
Print Assumptions C14_windows_invariant.

(* one tag's window under any history of callbacks (WServe o: the receive in slot o is served and
   restarted, in any order — completions out of posting order included) and refills: no pool entry
   ever occupies two slots, for every posted/tested pair *)
Theorem C14_window_no_double : forall l w, Wok w -> NoDup (somes (w_slots (fold_left wstep l w))).
Proof.
  intros l w H.
  assert (Hok : Wok (fold_left wstep l w)) by (apply fold_left_inv; auto; intros; now apply wstep_ok).
  destruct Hok as (_ & _ & _ & Hnd & _). exact Hnd.
Qed.
Print Assumptions C14_window_no_double.

(* the rotation is fair: once req_count pool entries have been moved into the window (each served
   slot is refilled by one), every posted receive has been in the window at some point *)
Theorem C14_window_eventually : forall l w i,
  Wok w -> i < w_P w -> w_P w <= picks w l -> ever_in i w l.
Proof.
  intros l w i Hw Hi Hp. destruct (ahead_exists w i Hw Hi) as (d & Ha).
  destruct (nth i (w_ints w) false) eqn:E.
  - (* already in the window *)
    destruct Hw as (_ & _ & _ & _ & Hiff). destruct l; cbn; left; apply Hiff; auto.
  - eapply window_fair; eauto. destruct Ha. lia.
Qed.
Print Assumptions C14_window_eventually.

(** The dynamic region and the pending FIFOs *)

(* for any report with ascending positions inside the active part of the array: every dynamic
   request ever issued (allids) is in exactly one of: a slot or a pending FIFO (dlive), or completed;
   the region has no hole after the compaction; and a free slot means nothing installable waits *)
Theorem C14_dynamic_conserved : forall e rep done,
  DInv e done -> Dfull e -> valid_report e rep ->
  let e' := progress_iter e rep in
  DInv e' (done ++ completed e rep) /\ Dfull e' /\ settled e'.
Proof.
  intros e rep done I F V. destruct (progress_iter_inv e rep done I F V) as (A & B & C & _). auto.
Qed.
Print Assumptions C14_dynamic_conserved.

Theorem C14_dynamic_run : forall tags P T D R l,
  let e0 := init_eng tags P T D R in
  valid_run e0 l ->
  Permutation (allids (fold_left step l e0)) (dlive (fold_left step l e0) ++ done_run e0 l) /\
  Dfull (fold_left step l e0) /\ length (e_dyn (fold_left step l e0)) <= D.
Proof.
  intros tags P T D R l e0 V. destruct (init_dyn tags P T D R) as [I F].
  destruct (run_dyn l e0 [] I F V) as (I' & F' & HD).
  split; [apply (di_perm _ _ I')|split; [exact F'|]].
  pose proof (di_len _ _ I') as H. now rewrite HD in H.
Qed.
Print Assumptions C14_dynamic_run.

(* the pending FIFOs are drained whenever a slot is free: after a progress pass, a free slot in the
   dynamic region implies that the send FIFO is empty and the receive FIFO is empty or blocked by
   the receive share *)
Theorem C14_pending_installed : forall e rep done,
  DInv e done -> Dfull e -> valid_report e rep ->
  let e' := progress_iter e rep in
  length (e_dyn e') < e_D e' -> e_sendq e' = [] /\ (e_recvq e' = [] \/ e_R e' <= e_nrecv e').
Proof. intros e rep done I F V. destruct (C14_dynamic_conserved e rep done I F V) as (_ & _ & S). exact S. Qed.
Print Assumptions C14_pending_installed.

(** Tags of the data messages *)
Local Open Scope Z_scope.

(* every tag range [t, t+k) handed out lies inside [0, MAX_MPI_TAG] *)
Theorem C14_next_tag_valid : forall MAX k n v,
  1 <= k <= MAX -> 0 <= v <= MAX -> Forall (fun t => 0 <= t /\ t + k <= MAX) (tags_from MAX k v n).
Proof.
  intros MAX k n. induction n as [|n IH]; intros v Hk Hv; cbn [tags_from]; [constructor|].
  pose proof (next_tag_step MAX k v Hk Hv) as (A & B & C & D).
  destruct (next_tag MAX k v) as [t v'] eqn:E. cbn in *.
  constructor; [lia|]. apply IH; auto.
Qed.
Print Assumptions C14_next_tag_valid.

(* from the initial counter value 0, two allocations fewer than floor(MAX_MPI_TAG / k) apart get
   disjoint tag ranges: tags in flight are distinct unless more than the tag space allows are outstanding *)
Theorem C14_next_tag_distinct : forall MAX k n i j,
  1 <= k <= MAX -> (i < j < n)%nat -> Z.of_nat j - Z.of_nat i < MAX / k ->
  let ts := tags_from MAX k 0 n in
  nth i ts 0 + k <= nth j ts 0 \/ nth j ts 0 + k <= nth i ts 0.
Proof. exact tags_distinct. Qed.
Print Assumptions C14_next_tag_distinct.

Local Close Scope Z_scope.

(* Not proved.
   - Liveness beyond C14_window_eventually (which bounds the wait by req_count served slots): the
     oldest started receive is always in the window after a refill (argument in notes/findings/C14-fifo.md;
     explored exhaustively for posted <= 6 by /verif/notes/findings/C14-bfs.py), not formalised.
   - FIFO under in-order reports (full statement): if every AReport names a prefix 0..n-1 of the
     window (MPI reports completions in the order the receives were started), then for every source s
     seqs_from s (a_deliv st) = seq 0 (length ...).  The invariant is
       map fst (a_posted st) = window ++ outside  and  the cyclic enumeration from w_ridx = outside ++ window.
   - put/get across two processes: a put/get moves exactly the registered bytes and both completion
     callbacks fire exactly once, given distinct tags.  Only the per-process bookkeeping above and the tag
     allocation are proved; the tag hypothesis is false when a get and a put move data in the same
     direction between two processes (finding getput-cross, replayed on the real code). *)

(* non-vacuity: an engine with two tags (posted 3, tested 2), two dynamic slots, receive share 1:
   a put and two gets are issued, MPI_Testsome reports the AM in slot 1 and the send in slot 4 *)
Example C14_example :
  let e0 := init_eng [0; 7] 3 2 2 1 in
  let e1 := run_ops e0 [OSend; ORecv; ORecv] in
  let rep := [(1, []); (4, [])] in
  EWin e0 /\ DInv e1 [] /\ Dfull e1 /\ valid_report e1 rep /\
  flat e1 = [Some (EAm 0 0); Some (EAm 0 1); Some (EAm 7 0); Some (EAm 7 1); Some (EDyn false 0); Some (EDyn true 0)] /\
  e_recvq e1 = [1] /\
  flat (progress_iter e1 rep) =
    [Some (EAm 0 0); Some (EAm 0 2); Some (EAm 7 0); Some (EAm 7 1); Some (EDyn true 0); Some (EDyn false 1)] /\
  completed e1 rep = [(false, 0)].
Proof.
  cbn zeta. split; [apply init_windows; lia|].
  destruct (init_dyn [0; 7] 3 2 2 1) as [I F].
  split; [now apply run_ops_inv|]. split; [eapply Dfull_ext; [apply run_ops_ext|exact F]|].
  split; [split; [repeat constructor|repeat constructor]|].
  vm_compute. repeat split.
Qed.
