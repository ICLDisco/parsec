(* C25 — Data repository entries are reclaimed exactly when unused.
   Each statement is the instance at a run of a fact about every state that satisfies an invariant:
   Repo/RepoInv.v (interleaving invariant), Repo/RepoProofs.v (its consequences), Repo/RepoIds.v,
   Repo/RepoMutex.v, Repo/RepoSeq.v.
   Model: Repo/RepoDefs.v — atomic-step model of data_repo_lookup_entry,
   __data_repo_lookup_entry_and_create, __data_repo_entry_addto_usage_limit and
   __data_repo_entry_used_once over the bucket locks of the hash table (one step = the code of one
   thread between two lock operations / atomic read-modify-writes), plus the client protocol as
   ghost state.  [run nb progs sched] executes the schedule [sched] (ANY list of thread ids) on ANY
   number of threads with per-thread operation lists [progs]; [nb] is the number of bucket bits.

   [protocol progs]: in every thread, each addto(k, n) closes a create(k) of the same thread whose
   announced promise is n >= 0, and every create is closed (datarepo.h: "the same thread that called
   data_repo_lookup_entry_and_create must eventually call data_repo_entry_addto_usage_limit").
   A use takes a grant first: grants are issued by a creator when its create has returned, as many as
   it will announce (release_deps enables the consumers between the two calls), so uses never exceed
   the announced + to-be-announced limits by construction of the model, for every schedule.

   [needed c k]: some thread holds the entry of k (it is between the retained++ of its create and the
   retained-- of its addto), or a granted use of k has not been counted yet (grant not yet taken, or
   the use is in flight before its usagecnt increment).                                           *)
From PV Require Import Base.Tac Base.ListX Repo.RepoDefs Repo.RepoSum Repo.RepoInv Repo.RepoProofs
  Repo.RepoIds Repo.RepoMutex Repo.RepoSeq.
Local Open Scope Z_scope.

(* an entry is in the table exactly while it is needed *)
Theorem C25_present_iff_needed : forall nb progs sched k, protocol progs ->
  (c_tab (run nb progs sched) k <> None <-> needed (run nb progs sched) k).
Proof. intros nb progs sched k H. apply (present_iff_needed _ _ (inv_run nb progs sched H)). Qed.
Print Assumptions C25_present_iff_needed.

(* what the three fields mean: retained = number of holders; usagecnt + (uses in flight + grants not
   taken + grants not yet issued by creators that retain) = usagelmt + (what the holders still announce) *)
Theorem C25_fields_account : forall nb progs sched k e, protocol progs ->
  c_tab (run nb progs sched) k = Some e ->
  e_ret e = holders (run nb progs sched) k /\
  e_cnt e + inflight (run nb progs sched) k + c_bud (run nb progs sched) k + ungranted (run nb progs sched) k
    = e_lmt e + promised (run nb progs sched) k.
Proof. intros nb progs sched k e H. apply (fields_account _ _ (inv_run nb progs sched H)). Qed.
Print Assumptions C25_fields_account.

(* an entry that is present is retained or has fewer uses than announced: the state
   retained = 0 /\ usagecnt = usagelmt never survives a step *)
Theorem C25_present_while_retained_or_unused : forall nb progs sched k e, protocol progs ->
  c_tab (run nb progs sched) k = Some e -> 0 < e_ret e \/ e_cnt e < e_lmt e.
Proof. intros nb progs sched k e H. apply (present_while _ _ (inv_run nb progs sched H)). Qed.
Print Assumptions C25_present_while_retained_or_unused.

(* for every next step of every thread: a present entry disappears in that very step when the step
   makes it unneeded, and only then *)
Theorem C25_reclaimed_in_the_very_step : forall nb progs sched t k, protocol progs ->
  let c := run nb progs sched in
  (c_tab c k <> None -> ~ needed (step nb c t) k -> c_tab (step nb c t) k = None) /\
  (c_tab c k <> None -> c_tab (step nb c t) k = None -> needed c k /\ ~ needed (step nb c t) k).
Proof. intros nb progs sched t k H. apply (reclaimed_in_the_step _ nb _ t k (inv_run nb progs sched H)). Qed.
Print Assumptions C25_reclaimed_in_the_very_step.

(* no granted use and no addto finds the entry missing: no "missing" event, no NULL dereference *)
Theorem C25_no_use_finds_it_missing : forall nb progs sched, protocol progs ->
  bad (run nb progs sched) = false /\ c_crash (run nb progs sched) = false.
Proof. intros nb progs sched H. pose proof (inv_run nb progs sched H) as I. split; apply I. Qed.
Print Assumptions C25_no_use_finds_it_missing.

(* every incarnation goes back to the mempool at most once, and never while it is in the table
   (any programs, protocol or not) *)
Theorem C25_freed_once : forall nb progs sched,
  NoDup (freed (run nb progs sched)) /\
  forall k e, c_tab (run nb progs sched) k = Some e -> ~ In (e_id e) (freed (run nb progs sched)).
Proof.
  intros nb progs sched. pose proof (id_run nb progs sched) as H. split; [apply (d_free _ H)|].
  intros k e. apply (tab_not_freed _ k e H).
Qed.
Print Assumptions C25_freed_once.

(* at quiescence the table holds exactly the keys with announced uses that were never performed *)
Theorem C25_quiescent_contents : forall nb progs sched k, protocol progs ->
  all_done (run nb progs sched) = true ->
  (c_tab (run nb progs sched) k <> None <-> 0 < surplus progs k).
Proof. intros nb progs sched k H. apply (quiescent _ _ (inv_run nb progs sched H)). Qed.
Print Assumptions C25_quiescent_contents.

Theorem C25_quiescent_empty : forall nb progs sched, protocol progs ->
  all_done (run nb progs sched) = true ->
  (forall k, total_uses progs k = total_promised progs k) ->
  forall k, c_tab (run nb progs sched) k = None.
Proof.
  intros nb progs sched H Hd Hall k. destruct (c_tab (run nb progs sched) k) eqn:E; [|reflexivity]. exfalso.
  assert (Hs : 0 < surplus progs k) by (apply (C25_quiescent_contents nb progs sched k H Hd); congruence).
  unfold surplus in Hs. rewrite Hall in Hs. lia.
Qed.
Print Assumptions C25_quiescent_empty.

(* the multi-access segments are critical sections of the bucket lock *)
Theorem C25_mutual_exclusion : forall nb progs sched u v x y b,
  nth_error (c_thr (run nb progs sched)) u = Some x -> nth_error (c_thr (run nb progs sched)) v = Some y ->
  cs_bucket nb x = Some b -> cs_bucket nb y = Some b -> u = v.
Proof. exact mutex_run. Qed.
Print Assumptions C25_mutual_exclusion.

(* one thread alone: each operation, run through its atomic steps, is the sequential specification *)
Theorem C25_sequential_refinement : forall nb c o r held,
  c_crash c = false -> c_thr c = [mk PIdle (o :: r) held] ->
  exists n, (n <= 6)%nat /\ solo_run nb c n = seq_apply c o r held.
Proof. exact seq_refinement. Qed.
Print Assumptions C25_sequential_refinement.

(* non-vacuity: a producer announcing 2 uses and two consumers; both uses complete before the
   announcement, so the addto reclaims incarnation 0; and two creators racing for the insertion
   (one gives its own entry 1 back), the last use reclaiming entry 0 *)
Example C25_example_addto_reclaims :
  let progs := [[OCreate 5 2; OAddto 5 2]; [OUse 5]; [OUse 5]] in
  let c := run 1 progs [0;0;0;0;0; 1;1;1;1;1;1; 2;2;2;2;2;2; 0;0;0;0]%nat in
  protocol progs /\ all_done c = true /\ c_tab c 5%N = None /\
  c_log c = [EvAddto 0 5 2; EvReclaim 0 5 0; EvUse 2 5; EvUse 1 5; EvCreate 0 5 0 true].
Proof.
  cbv zeta. split; [|vm_compute; auto].
  repeat constructor; cbn; auto; lia.
Qed.
Example C25_example_insertion_race :
  let progs := [[OCreate 5 1; OAddto 5 1]; [OCreate 5 1; OAddto 5 1]; [OUse 5; OUse 5]] in
  let c := run 2 progs ([0;1;0;1;0;1;0;1;0;1] ++ concat (repeat [0;1;2] 16))%nat in
  protocol progs /\ all_done c = true /\ c_tab c 5%N = None /\ freed c = [0; 1]%nat /\ bad c = false.
Proof.
  cbv zeta. split; [|vm_compute; auto].
  repeat constructor; cbn; auto; lia.
Qed.
