(* C26 — Data copy ownership transfers keep one consistent newest version.
   The model is Coherency/CoherencyDefs.v (parsec/data.c mirrored statement by statement), the
   vocabulary Coherency/CoherencySpec.v; the lemmas used here are in Coherency/CoherencyProofs.v.

   Full statement (properties.jsonl): after any sequence of ownership transfers of a datum to device
   copies with read, write or read-write access (and version bumps by the owner), (a) at most one
   copy is the owner, (b) a transfer is requested exactly when the target copy is not up to date,
   (c) the copy named as transfer source holds the newest version, (d) a write access makes the
   target the owner.  Every theorem is for any number of device slots and histories of any length.

   (a), (c), (d) and the "only if" half of (b) are proved for all histories.  The "if" half of (b)
   is FALSE of the code: C26_transfer_iff_stale_refuted gives the history; it is proved
   (C26_transfer_iff_stale_partial) for the histories in which the owner device never makes a
   read-only access to its own copy. *)
From PV Require Import Base.Tac Coherency.CoherencyDefs Coherency.CoherencySpec Coherency.CoherencyProofs.
Local Open Scope Z_scope.

(* (a) for every history of the primitive operations (start, end, the locked start+end, and the
   callers' writes to version / readers / data_transfer_status) from a state satisfying the
   invariant: every OWNED copy sits on owner_device, and when there is an owner the other copies
   are INVALID or SHARED.  Contract: device numbers fit int8_t, and a write transfer is ended while
   its target is still owner_device (automatic for parsec_data_transfer_ownership_to_copy).  The
   assertions "2 writers" (case OWNED), "(int)i == valid_copy" and "EXCLUSIVE || SHARED" of start
   are consequences of this invariant (one_owner_no_tro, used by start_Inv12). *)
Theorem C26_one_owner : forall ops rs, Inv12 (dat rs) -> ok_along pre_owner rs ops ->
  Forall (fun sv => Inv12 (dat (fst sv))) (run rs ops).
Proof.
  induction ops as [|o ops IH]; intros rs HI Hok; cbn [run]; [constructor|].
  destruct Hok as [Hp Hok]. pose proof (step_Inv12 rs o HI Hp) as H1.
  destruct (step rs o) as [rs1 v] eqn:Es. cbn [fst] in *. constructor; [exact H1|]. apply IH; auto.
Qed.
Print Assumptions C26_one_owner.

Theorem C26_owned_unique : forall dt i j ci cj, one_owner dt ->
  getc (copies dt) i = Some ci -> cst ci = OWNED -> getc (copies dt) j = Some cj -> cst cj = OWNED -> i = j.
Proof. intros dt i j ci cj H Hi Hci Hj Hcj. pose proof (H i ci Hi Hci). pose proof (H j cj Hj Hcj). lia. Qed.
Print Assumptions C26_owned_unique.

(* the contract of C26_one_owner is needed and is not an assertion of the code: two bracketed
   write transfers that overlap leave two OWNED copies while every assertion holds *)
Theorem C26_overlapping_writers_two_owned :
  let rs0 := mkrs (data_new 2) [] in
  dat (final rs0 overlap) = mkdata 1 [Some (mkcopy OWNED 0 0 0); Some (mkcopy OWNED 0 0 0)] /\
  start_asserts (data_new 2) 0 Wr = true /\
  start_asserts (dat (final rs0 [OStart 0 Wr])) 1 Wr = true /\
  end_asserts (dat (final rs0 [OStart 0 Wr; OStart 1 Wr])) 0 = true /\
  end_asserts (dat (final rs0 [OStart 0 Wr; OStart 1 Wr; OEnd 0 Wr])) 1 = true.
Proof. vm_compute. repeat split. Qed.
Print Assumptions C26_overlapping_writers_two_owned.

(* (d), one call, any state: start with the WRITE bit makes the target owner_device; every other
   copy keeps version, readers and status; unless the target already was the owner, every other
   non-INVALID copy becomes SHARED (none is invalidated) *)
Theorem C26_write_start_effect : forall dt d m c,
  getc (copies dt) d = Some c -> (d < 128)%nat -> mw m = true ->
  owner (fst (start dt d m)) = Z.of_nat d /\
  forall i x, i <> d -> getc (copies dt) i = Some x ->
    exists x', getc (copies (fst (start dt d m))) i = Some x' /\
      ver x' = ver x /\ rdr x' = rdr x /\ xfer x' = xfer x /\
      cst x' = if owner dt =? Z.of_nat d then cst x
               else if is_invalid (cst x) then INVALID else SHARED.
Proof.
  intros dt d m c Hd Hd8 Hw. pose proof (start_others dt d m c Hd) as H. rewrite Hw, andb_false_r in H.
  rewrite sint8_small in H by lia. apply H. reflexivity.
Qed.
Print Assumptions C26_write_start_effect.

Theorem C26_write_transfer_owned : forall dt d m c,
  getc (copies dt) d = Some c -> (d < 128)%nat -> mw m = true ->
  owner (fst (transfer dt d m)) = Z.of_nat d /\
  exists c', getc (copies (fst (transfer dt d m))) d = Some c' /\ cst c' = OWNED.
Proof.
  intros dt d m c Hd Hd8 Hw. unfold transfer.
  pose proof (start_owner_w dt d m c Hd8 Hw Hd) as Ho.
  destruct (start_rdr dt d m d c Hd) as (c1 & Hg1 & _).
  destruct (start dt d m) as [dt1 r]. cbn [fst] in *. split; [exact Ho|].
  unfold endt. cbn [copies]. rewrite getc_upd_at_same, Hg1, Hw. cbn. eexists; split; reflexivity.
Qed.
Print Assumptions C26_write_transfer_owned.

(* a start without the WRITE bit (hypothesis = the assertion of case OWNED) keeps the owner and
   only turns EXCLUSIVE copies into SHARED *)
Theorem C26_read_start_effect : forall dt d m c,
  getc (copies dt) d = Some c -> mw m = false -> (owner dt <> Z.of_nat d -> cst c <> OWNED) ->
  owner (fst (start dt d m)) = owner dt /\
  forall i x, i <> d -> getc (copies dt) i = Some x ->
    exists x', getc (copies (fst (start dt d m))) i = Some x' /\
      ver x' = ver x /\ rdr x' = rdr x /\ xfer x' = xfer x /\
      cst x' = if negb (owner dt =? Z.of_nat d) && mr m && is_exclusive (cst x) then SHARED else cst x.
Proof.
  intros dt d m c Hd Hw Hno. destruct (start_others dt d m c Hd) as [Ho Hoth].
  { intros Hne. specialize (Hno Hne). destruct (cst c); cbn; auto; congruence. }
  rewrite Hw in *. split; [exact Ho|]. intros i x Hne Hx.
  destruct (Hoth i x Hne Hx) as (x' & Hx' & Hv & Hr & Ht & Hc). exists x'. rewrite Hc.
  repeat split; auto. destruct (owner dt =? Z.of_nat d), (mr m), (is_exclusive (cst x)); reflexivity.
Qed.
Print Assumptions C26_read_start_effect.

(* readers: exact count for every history, never negative when every release follows a pending
   read start on the same copy (int32_t overflow is not modelled: fewer than 2^31 pending readers) *)
Theorem C26_readers_exact : forall d ops rs c0, getc (copies (dat rs)) d = Some c0 ->
  exists c, getc (copies (dat (final rs ops))) d = Some c /\ rdr c = rdr c0 + net_reads d ops.
Proof.
  intros d ops. induction ops as [|o ops IH]; intros rs c0 H0; cbn [final net_reads fold_right].
  - exists c0. split; [exact H0|lia].
  - destruct (step_rdr rs o d c0 H0) as (c1 & Hg1 & Hr1).
    destruct (IH _ c1 Hg1) as (c & Hg & Hr). exists c. split; [exact Hg|]. unfold net_reads in Hr. lia.
Qed.
Print Assumptions C26_readers_exact.

Theorem C26_readers_nonneg : forall d ops rs c0, getc (copies (dat rs)) d = Some c0 -> 0 <= rdr c0 ->
  balanced d (rdr c0) ops ->
  Forall (fun sv => exists c, getc (copies (dat (fst sv))) d = Some c /\ 0 <= rdr c) (run rs ops).
Proof.
  intros d ops. induction ops as [|o ops IH]; intros rs c0 H0 Hpos Hb; cbn [run]; [constructor|].
  destruct Hb as [Hrel Hb]. destruct (step_rdr rs o d c0 H0) as (c1 & Hg1 & Hr1).
  destruct (step rs o) as [rs1 v]. cbn [fst] in *.
  assert (Hpos1 : 0 <= rdr c1).
  { pose proof (reads_on_range d o). destruct (rels_on_range d o) as [E|E]; [lia|]. specialize (Hrel E). lia. }
  constructor.
  - exists c1. auto.
  - apply (IH rs1 c1 Hg1 Hpos1). rewrite Hr1. exact Hb.
Qed.
Print Assumptions C26_readers_nonneg.

(* histories of accesses (device, mode) and extra bumps by the owner, from any state satisfying
   J (in particular both constructors of data.c); hypotheses: the assertions of start and end at
   each access, and no uint32_t overflow of the version *)
Theorem C26_access_invariant : forall ts dt b, J dt b -> b + Z.of_nat (length ts) < two32 ->
  tx_along tx_asserts dt ts -> J (tx_final dt ts) (b + Z.of_nat (length ts)).
Proof.
  induction ts as [|t ts IH]; intros dt b HJ Hb Ha; cbn [tx_final length].
  - eapply J_mono; eauto. cbn. lia.
  - destruct Ha as [Ha Hr]. cbn [length] in Hb.
    replace (b + Z.of_nat (S (length ts))) with ((b + 1) + Z.of_nat (length ts)) by lia.
    apply IH; [apply tx_step_J; auto; lia|lia|exact Hr].
Qed.
Print Assumptions C26_access_invariant.

(* at every access of every history: (b, only if) a source is returned only for a read of a
   target that is not up to date; (c) the returned source holds the newest version; (d) a write
   leaves the target OWNED, owner_device, above every other valid version, the others INVALID or
   SHARED; (a) one owner *)
Theorem C26_access_clauses : forall ts dt b, J dt b -> b + Z.of_nat (length ts) < two32 ->
  tx_along tx_asserts dt ts -> tx_all step_clauses dt ts.
Proof.
  induction ts as [|t ts IH]; intros dt b HJ Hb Ha; cbn [tx_all]; [exact I|].
  destruct Ha as [Ha Hr]. cbn [length] in Hb. split.
  - apply (tx_step_clauses dt b t HJ); [lia|exact Ha].
  - apply (IH _ (b + 1)); [apply tx_step_J; auto; lia|lia|exact Hr].
Qed.
Print Assumptions C26_access_clauses.

(* (b, if) PARTIAL: a read of a target that is not up to date is answered with a source, for the
   histories in which the owner device makes no read-only access to its own copy.
   Full statement (false, see below): the same without [tx_along no_owner_readonly]. *)
Theorem C26_transfer_iff_stale_partial : forall ts dt b, J dt b -> owner_owned dt ->
  b + Z.of_nat (length ts) < two32 -> tx_along tx_asserts dt ts -> tx_along no_owner_readonly dt ts ->
  tx_all transfer_if_stale dt ts.
Proof.
  induction ts as [|t ts IH]; intros dt b HJ Hoo Hb Ha Hn; cbn [tx_all]; [exact I|].
  destruct Ha as [Ha Hr]. destruct Hn as [Hn Hnr]. cbn [length] in Hb.
  assert (Hb1 : b + 1 < two32) by lia. split.
  - destruct t as [d m|]; [|exact I]. destruct Ha as [Ha _]. destruct (asserts_attached dt d m Ha) as (c & Hd).
    cbn [transfer_if_stale tx_step]. rewrite (access_ret dt b d m c HJ Hb1 Hd).
    intros Hm Hnu. eapply transfer_complete; eauto. apply asserts_src; auto.
  - apply (IH _ (b + 1)); [apply tx_step_J; auto|eapply tx_step_owner_owned; eauto|lia|exact Hr|exact Hnr].
Qed.
Print Assumptions C26_transfer_iff_stale_partial.

(* the full (b, if) is false of the code: from parsec_data_create's state, a write on device 1,
   a read on device 1 (end_transfer turns the OWNED copy SHARED while it remains owner_device),
   then a read on device 0, whose SHARED copy has the old version: no transfer is requested *)
Theorem C26_refuting_history :
  let dt2 := tx_final (data_create 2) [Acc 1 Wr; Acc 1 Rd] in
  dt2 = mkdata 1 [Some (mkcopy SHARED 0 0 0); Some (mkcopy SHARED 1 1 0)] /\
  snd (tx_step dt2 (Acc 0 Rd)) = -1 /\ ~ uptodate dt2 0.
Proof.
  cbv zeta. assert (E : tx_final (data_create 2) [Acc 1 Wr; Acc 1 Rd]
              = mkdata 1 [Some (mkcopy SHARED 0 0 0); Some (mkcopy SHARED 1 1 0)]) by (vm_compute; reflexivity).
  rewrite E. split; [reflexivity|]. split; [vm_compute; reflexivity|].
  intros (c & Hc & _ & Hmax). unfold getc in Hc; cbn in Hc. inversion Hc; subst c.
  specialize (Hmax 1%nat (mkcopy SHARED 1 1 0) eq_refl ltac:(discriminate)). cbn in Hmax. lia.
Qed.
Print Assumptions C26_refuting_history.

Theorem C26_transfer_iff_stale_refuted :
  exists dt ts b, J dt b /\ owner_owned dt /\ b + Z.of_nat (length ts) < two32 /\
    tx_along tx_asserts dt ts /\ ~ tx_all transfer_if_stale dt ts.
Proof.
  exists (data_create 2), witness, 0. destruct (J_data_create 2 ltac:(lia)) as [HJ Hoo].
  split; [exact HJ|]. split; [exact Hoo|]. split; [unfold two32; cbn; lia|]. split; [exact witness_asserts|].
  intros Hall. destruct C26_refuting_history as (E & Hr & Hnu). cbv zeta in *.
  unfold witness in Hall. cbn [tx_all] in Hall. destruct Hall as (_ & _ & H3 & _).
  change (fst (tx_step (fst (tx_step (data_create 2) (Acc 1 Wr))) (Acc 1 Rd)))
    with (tx_final (data_create 2) [Acc 1 Wr; Acc 1 Rd]) in H3.
  cbn [transfer_if_stale] in H3. specialize (H3 eq_refl Hnu). rewrite Hr in H3. lia.
Qed.
Print Assumptions C26_transfer_iff_stale_refuted.

(* the two orders in which callers complete a transfer give the same state *)
Theorem C26_access_atomic_eq : forall dt d m, access_atomic dt d m = access dt d m.
Proof.
  intros dt d m. unfold access_atomic, access, transfer. destruct (start dt d m) as [dt1 r].
  destruct (0 <=? r); [rewrite pull_endt_comm|]; reflexivity.
Qed.
Print Assumptions C26_access_atomic_eq.

(* the states built by parsec_data_new + parsec_data_copy_new, and by parsec_data_create *)
Theorem C26_constructors : forall n, (1 <= n <= 128)%nat ->
  J (data_new n) 0 /\ J (data_create n) 0 /\ owner_owned (data_create n).
Proof. intros n Hn. split; [apply J_data_new; lia|apply J_data_create; exact Hn]. Qed.
Print Assumptions C26_constructors.

(* non-vacuity: three devices, created on device 0; device 1 reads (source 0), device 2 reads and
   writes (source 0, becomes owner with version 1), device 1 reads again (source 2, version 1);
   the assertions hold all along *)
Example C26_example :
  let ts := [Acc 1 Rd; Acc 2 RW; Acc 1 Rd] in
  map snd (tx_run (data_create 3) ts) = [0; 0; 2] /\
  tx_final (data_create 3) ts =
    mkdata 2 [Some (mkcopy SHARED 0 0 0); Some (mkcopy SHARED 1 2 0); Some (mkcopy OWNED 1 1 0)] /\
  tx_along tx_asserts (data_create 3) ts /\ tx_along no_owner_readonly (data_create 3) ts.
Proof. vm_compute. repeat split; intros (? & ? & ?); discriminate. Qed.
