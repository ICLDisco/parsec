(* C34 — Objects are destroyed exactly once when their last reference goes.
   The invariants and the longer proofs are in Obj/ObjClassProofs.v (class descriptors,
   constructor / destructor arrays), Obj/ObjRefProofs.v (reference count under any
   interleaving) and Obj/ObjFirstProofs.v (first use of a class by several threads).
   Model: Obj/ObjDefs.v — parsec_class_initialize with its two loops over the parent
   chain and the single allocation holding both NULL-terminated arrays;
   PARSEC_OBJ_RETAIN / PARSEC_OBJ_RELEASE as one atomic fetch-add each (int32), the
   release that reads 0 runs the destructor chain and free.  A schedule is an
   arbitrary list of thread ids; threads, their operation lists and the class
   hierarchy are arbitrary. *)
From PV Require Import Base.Tac Base.ListX Obj.ObjDefs Obj.ObjClassProofs Obj.ObjRefProofs Obj.ObjFirstProofs.
Local Open Scope Z_scope.

(* (a) every class chain: any depth, any pattern of NULL constructors/destructors,
   any content [junk] of the fresh allocation *)

(* construction runs exactly the non-NULL constructors of the chain, base -> derived *)
Theorem C34_ctor_order : forall junk k,
  run_constructors (class_initialize junk k) = rev (ctors_of k).
Proof. exact ctor_order. Qed.
Print Assumptions C34_ctor_order.

(* destruction runs exactly the non-NULL destructors of the chain, derived -> base *)
Theorem C34_dtor_order : forall junk k,
  run_destructors (class_initialize junk k) = dtors_of k.
Proof. exact dtor_order. Qed.
Print Assumptions C34_dtor_order.

(* each destructor runs exactly once (stated with pairwise distinct functions) *)
Theorem C34_dtor_each_once : forall junk k f, NoDup (dtors_of k) ->
  count_occ Nat.eq_dec (run_destructors (class_initialize junk k)) f =
  if in_dec Nat.eq_dec f (dtors_of k) then 1%nat else 0%nat.
Proof. intros junk k f Hnd. rewrite dtor_order. now apply count_once. Qed.
Print Assumptions C34_dtor_each_once.

Theorem C34_ctor_each_once : forall junk k f, NoDup (ctors_of k) ->
  count_occ Nat.eq_dec (run_constructors (class_initialize junk k)) f =
  if in_dec Nat.eq_dec f (ctors_of k) then 1%nat else 0%nat.
Proof.
  intros junk k f Hnd. rewrite ctor_order. apply count_once; [now apply NoDup_rev|]. symmetry. apply in_rev.
Qed.
Print Assumptions C34_ctor_each_once.

(* cls_depth is the length of the parent chain; both arrays and their NULL sentinels lie
   inside the allocated block of (#ctors + #dtors + 2) cells *)
Theorem C34_depth_counted : forall junk k, i_depth (class_initialize junk k) = depth_of k.
Proof. intros junk k. rewrite class_initialize_spec. reflexivity. Qed.
Print Assumptions C34_depth_counted.

Theorem C34_arrays_in_block : forall junk k,
  length (i_arr (class_initialize junk k)) = (length (ctors_of k) + length (dtors_of k) + 2)%nat /\
  nth_error (i_arr (class_initialize junk k)) (length (ctors_of k)) = Some None /\
  nth_error (i_arr (class_initialize junk k)) (length (ctors_of k) + length (dtors_of k) + 1) = Some None.
Proof. exact arrays_in_block. Qed.
Print Assumptions C34_arrays_in_block.

(* (b) every reachable configuration: ANY destructor sequence dt, ANY number of threads
   with ANY (references initially held, retain/release list) obeying the discipline
   [disciplined] (an operation is performed only while holding a reference), at least one
   reference handed out, no int32 overflow, ANY schedule (any prefix of any run) *)

(* the count is the number of references held; it never goes negative *)
Theorem C34_count_is_refs_held : forall dt ths sched, disciplined ths ->
  1 <= sumf t_held (map mk_thr ths) -> bound ths < 2147483648 ->
  o_rc (run dt (init ths) sched) = sumf t_held (o_thr (run dt (init ths) sched)) /\
  0 <= o_rc (run dt (init ths) sched).
Proof.
  intros dt ths sched Hd H1 HB.
  destruct (inv_run dt ths sched Hd H1 HB) as (_ & _ & _ & [(? & ? & ? & ?)|(? & ? & ? & ?)]); lia.
Qed.
Print Assumptions C34_count_is_refs_held.

(* at most one update returns 0, the object is destroyed at most once, and the destructor
   log is empty or exactly the class's chain *)
Theorem C34_destroyed_at_most_once : forall dt ths sched, disciplined ths ->
  1 <= sumf t_held (map mk_thr ths) -> bound ths < 2147483648 ->
  0 <= o_destroys (run dt (init ths) sched) <= 1 /\
  zeros (o_trace (run dt (init ths) sched)) = o_destroys (run dt (init ths) sched) /\
  dlog (o_trace (run dt (init ths) sched)) =
    (if o_destroys (run dt (init ths) sched) =? 1 then dt else []).
Proof. intros dt ths sched Hd H1 HB. exact (destroyed_at_most_once _ _ _ (inv_run dt ths sched Hd H1 HB)). Qed.
Print Assumptions C34_destroyed_at_most_once.

(* the release that observes 0 is the last atomic update: the event trace is
   (updates with results >= 1) ++ [update -> 0] ++ destructors ++ [free], and no thread has an
   operation left or holds a reference *)
Theorem C34_zero_is_last : forall dt ths sched, disciplined ths ->
  1 <= sumf t_held (map mk_thr ths) -> bound ths < 2147483648 ->
  o_destroys (run dt (init ths) sched) = 1 ->
  final_trace dt (o_trace (run dt (init ths) sched)) /\ o_rc (run dt (init ths) sched) = 0 /\
  Forall (fun th => t_held th = 0 /\ t_ops th = []) (o_thr (run dt (init ths) sched)).
Proof. intros dt ths sched Hd H1 HB. exact (zero_is_last _ _ _ (inv_run dt ths sched Hd H1 HB)). Qed.
Print Assumptions C34_zero_is_last.

(* whatever is scheduled after the destruction changes neither the trace nor the count *)
Theorem C34_nothing_after_destroy : forall dt ths s1 s2, disciplined ths ->
  1 <= sumf t_held (map mk_thr ths) -> bound ths < 2147483648 ->
  o_destroys (run dt (init ths) s1) = 1 ->
  o_trace (run dt (init ths) (s1 ++ s2)) = o_trace (run dt (init ths) s1) /\
  o_rc (run dt (init ths) (s1 ++ s2)) = 0 /\ o_destroys (run dt (init ths) (s1 ++ s2)) = 1.
Proof.
  intros dt ths s1 s2 Hd H1 HB Hdead.
  destruct (zero_is_last _ _ _ (inv_run dt ths s1 Hd H1 HB) Hdead) as (_ & Hrc & _). rewrite <- Hrc.
  unfold run at 1 3 5. rewrite fold_left_app.
  exact (dead_run dt _ s2 HB _ (inv_run dt ths s1 Hd H1 HB) Hdead).
Qed.
Print Assumptions C34_nothing_after_destroy.

(* while the object is live, every update returned a value >= 1 *)
Theorem C34_live_trace_positive : forall dt ths sched, disciplined ths ->
  1 <= sumf t_held (map mk_thr ths) -> bound ths < 2147483648 ->
  o_destroys (run dt (init ths) sched) = 0 ->
  Forall is_pos_upd (o_trace (run dt (init ths) sched)) /\ 1 <= o_rc (run dt (init ths) sched).
Proof.
  intros dt ths sched Hd H1 HB H0.
  destruct (inv_run dt ths sched Hd H1 HB) as (_ & _ & _ & [(_ & _ & ? & ?)|(? & _)]); [auto|lia].
Qed.
Print Assumptions C34_live_trace_positive.

(* no retain / release is ever performed on a destroyed object *)
Theorem C34_no_touch_after_destroy : forall dt ths sched, disciplined ths ->
  1 <= sumf t_held (map mk_thr ths) -> bound ths < 2147483648 ->
  o_late (run dt (init ths) sched) = 0.
Proof. intros dt ths sched Hd H1 HB. exact (no_touch_after_destroy _ _ _ (inv_run dt ths sched Hd H1 HB)). Qed.
Print Assumptions C34_no_touch_after_destroy.

(* destroyed exactly when the last reference is gone *)
Theorem C34_destroyed_iff_no_reference_left : forall dt ths sched, disciplined ths ->
  1 <= sumf t_held (map mk_thr ths) -> bound ths < 2147483648 ->
  (o_destroys (run dt (init ths) sched) = 1 <-> sumf t_held (o_thr (run dt (init ths) sched)) = 0).
Proof. intros dt ths sched Hd H1 HB. exact (destroyed_iff_no_reference_left _ _ _ (inv_run dt ths sched Hd H1 HB)). Qed.
Print Assumptions C34_destroyed_iff_no_reference_left.

(* when every reference handed out or retained is released by somebody ([balanced]) and all
   operations have been performed: exactly one release observed 0 and the destructor chain
   ran exactly once; when one reference is never released the object is never destroyed *)
Theorem C34_all_released_destroyed_once : forall dt ths sched, disciplined ths ->
  1 <= sumf t_held (map mk_thr ths) -> bound ths < 2147483648 -> balanced ths ->
  all_ops_done (run dt (init ths) sched) ->
  o_destroys (run dt (init ths) sched) = 1 /\ zeros (o_trace (run dt (init ths) sched)) = 1 /\
  dlog (o_trace (run dt (init ths) sched)) = dt /\ final_trace dt (o_trace (run dt (init ths) sched)).
Proof. exact all_released_destroyed_once. Qed.
Print Assumptions C34_all_released_destroyed_once.

Theorem C34_leaked_never_destroyed : forall dt ths sched, disciplined ths ->
  1 <= sumf t_held (map mk_thr ths) -> bound ths < 2147483648 ->
  sumf fin (map mk_thr ths) <> 0 ->
  o_destroys (run dt (init ths) sched) = 0 /\ dlog (o_trace (run dt (init ths) sched)) = [].
Proof. exact leaked_never_destroyed. Qed.
Print Assumptions C34_leaked_never_destroyed.

(* (a)+(b): the whole life of an object of any class *)
Theorem C34_whole_life : forall junk k ths sched, disciplined ths ->
  1 <= sumf t_held (map mk_thr ths) -> bound ths < 2147483648 -> balanced ths ->
  all_ops_done (snd (obj_life junk k ths sched)) ->
  fst (obj_life junk k ths sched) = rev (ctors_of k) /\
  final_trace (dtors_of k) (o_trace (snd (obj_life junk k ths sched))) /\
  dlog (o_trace (snd (obj_life junk k ths sched))) = dtors_of k /\
  zeros (o_trace (snd (obj_life junk k ths sched))) = 1 /\
  o_destroys (snd (obj_life junk k ths sched)) = 1 /\
  o_late (snd (obj_life junk k ths sched)) = 0 /\
  o_rc (snd (obj_life junk k ths sched)) = 0.
Proof.
  intros junk k ths sched. unfold obj_life; cbn [fst snd]. rewrite ctor_order, dtor_order.
  intros Hd H1 HB Hbal Hdone.
  destruct (all_released_destroyed_once (dtors_of k) ths sched Hd H1 HB Hbal Hdone) as (Hdes & Hz & Hl & Hf).
  destruct (zero_is_last _ _ _ (inv_run (dtors_of k) ths sched Hd H1 HB) Hdes) as (_ & Hrc & _).
  pose proof (no_touch_after_destroy _ _ _ (inv_run (dtors_of k) ths sched Hd H1 HB)).
  repeat split; assumption.
Qed.
Print Assumptions C34_whole_life.

(* (c) first use: ANY number of threads create an object of the same not yet initialised
   class (each then runs ANY disciplined, balanced retain/release list on its own object), ANY
   schedule over the scheduling points lock / unlock / fetch-add *)

(* any interleaving of initialise attempts builds the arrays exactly once, and they are the
   arrays of ONE sequential parsec_class_initialize *)
Theorem C34_first_use_init_once : forall junk k opss sched, first_use_ok opss ->
  let ks := fc_k (frun true junk k (finit opss) sched) in
  0 <= k_inits ks <= 1 /\
  (k_init ks = true -> k_tab ks = Some (class_initialize junk k) /\ k_inits ks = 1 /\
                        tab_ctors ks = rev (ctors_of k) /\ tab_dtors ks = dtors_of k) /\
  (k_init ks = false -> k_tab ks = None /\ k_inits ks = 0).
Proof.
  intros junk k opss sched Hok ks. destruct (finv_run junk k opss sched Hok) as (HK & _ & _). fold ks in HK.
  pose proof HK as (H0 & H1). split.
  - destruct (k_init ks); [destruct (H1 eq_refl)|destruct (H0 eq_refl)]; lia.
  - split; [|exact H0]. intros Hi. destruct (H1 Hi) as (? & ?). destruct (kinv_tabs _ _ _ HK Hi). auto.
Qed.
Print Assumptions C34_first_use_init_once.

(* class_lock is held exactly while one thread is between lock and unlock *)
Theorem C34_first_use_mutex : forall junk k opss sched, first_use_ok opss ->
  let c := frun true junk k (finit opss) sched in
  cnt is_unlock (fc_thr c) = (if k_lock (fc_k c) then 1 else 0).
Proof. intros junk k opss sched Hok c. destruct (finv_run junk k opss sched Hok) as (_ & HM & _). exact HM. Qed.
Print Assumptions C34_first_use_mutex.

(* at every moment every thread's log is: nothing before its object is constructed; then all
   constructors base -> derived followed by updates >= 1; and once its last reference went,
   additionally the update 0, all destructors derived -> base and free - none before *)
Theorem C34_first_use_lives : forall junk k opss sched t th, first_use_ok opss ->
  nth_error (fc_thr (frun true junk k (finit opss) sched)) t = Some th ->
  match f_pc th with
  | FOps => (1 <= f_rc th /\ life_running k (f_ev th)) \/
            (f_rc th = 0 /\ f_ops th = [] /\ life_complete k (f_ev th))
  | _ => f_ev th = []
  end.
Proof.
  intros junk k opss sched t th Hok Hn. destruct (finv_run junk k opss sched Hok) as (_ & _ & HT).
  pose proof (Forall_nth _ _ _ _ HT Hn) as H. unfold tinv in H.
  destruct (f_pc th); tauto.
Qed.
Print Assumptions C34_first_use_lives.

Theorem C34_first_use_finished : forall junk k opss sched t th, first_use_ok opss ->
  nth_error (fc_thr (frun true junk k (finit opss) sched)) t = Some th ->
  fthr_done th = true -> life_complete k (f_ev th) /\ f_rc th = 0.
Proof.
  intros junk k opss sched t th Hok Hn Hdone. destruct (finv_run junk k opss sched Hok) as (_ & _ & HT).
  pose proof (Forall_nth _ _ _ _ HT Hn) as H. unfold tinv in H. unfold fthr_done in Hdone.
  destruct (f_pc th); try discriminate.
  destruct (f_ops th) eqn:Eo; [|discriminate].
  destruct H as (_ & [((_ & _ & Hbal) & H1 & _)|(? & _ & ?)]); [|auto].
  rewrite Eo in Hbal. cbn in Hbal. lia.
Qed.
Print Assumptions C34_first_use_finished.

(* the same model WITHOUT the re-test of cls_initialized under the lock builds the arrays twice:
   the block another thread's constructor / destructor chain is walking gets replaced *)
Theorem C34_first_use_no_recheck_refuted : exists junk k opss sched, first_use_ok opss /\
  k_inits (fc_k (frun false junk k (finit opss) sched)) = 2.
Proof.
  exists (fun _ => None), (Derived (Some 1%nat) (Some 1%nat) (Base None None)), [[Release]; [Release]], [0;1;0;0;1;1]%nat.
  split; [repeat constructor|vm_compute; reflexivity].
Qed.
Print Assumptions C34_first_use_no_recheck_refuted.

(* what the discipline buys: thread 1 retains WITHOUT holding a reference (it borrows
   thread 0's); when thread 0's release comes first the retain touches a destroyed object
   and the following release destroys it a second time.  (With the other order all is well:
   ObjRefProofs.race_good_order.)  This is not a defect of the code but the reason for the
   hypothesis [disciplined]. *)
Theorem C34_undisciplined_refuted : exists ths sched,
  1 <= sumf t_held (map mk_thr ths) /\ bound ths < 2147483648 /\ balanced ths /\
  o_destroys (run [7%nat] (init ths) sched) = 2 /\ o_late (run [7%nat] (init ths) sched) = 2 /\
  dlog (o_trace (run [7%nat] (init ths) sched)) = [7%nat; 7%nat].
Proof. exists race_ths, [0;1;0;1;1]%nat. vm_compute. repeat split; congruence. Qed.
Print Assumptions C34_undisciplined_refuted.

(* non-vacuity: a class of depth 4 (3 user levels + parsec_object_t) with a missing constructor
   and a missing destructor; thread 0 holds two references and releases both, thread 1 holds
   one, retains once more and releases twice, interleaved *)
Example C34_example :
  let k := Derived (Some 3%nat) None (Derived None (Some 2%nat) (Derived (Some 1%nat) (Some 1%nat) (Base None None))) in
  let ths := [(2, [Release; Release]); (1, [Retain; Release; Release])] in
  disciplined ths /\ balanced ths /\ bound ths < 2147483648 /\
  fst (obj_life (fun _ => Some 9%nat) k ths [0;1;1;0;1;0;1]%nat) = [1%nat; 3%nat] /\
  o_trace (snd (obj_life (fun _ => Some 9%nat) k ths [0;1;1;0;1;0;1]%nat)) =
    [EUpd 1%nat 4; EUpd 0%nat 3; EUpd 1%nat 2; EUpd 0%nat 1; EUpd 1%nat 0; EDtor 2%nat; EDtor 1%nat; EFree].
Proof. vm_compute. repeat split; try congruence; repeat constructor. Qed.

(* non-vacuity of (c): three threads, all see the class uninitialised; thread 1 wins the lock *)
Example C34_example_first_use :
  let k := Derived None (Some 2%nat) (Derived (Some 1%nat) (Some 1%nat) (Base None None)) in
  let opss := [[Release]; [Retain; Release; Release]; [Release]] in
  first_use_ok opss /\
  let c := frun true (fun _ => Some 9%nat) k (finit opss) [0;1;2;1;0;2;1;1;0;0;1;2;2;1;1;0;2]%nat in
  k_inits (fc_k c) = 1 /\
  map f_ev (fc_thr c) = [[FCtor 1%nat; FUpd 0; FDtor 2%nat; FDtor 1%nat; FFree];
                         [FCtor 1%nat; FUpd 2; FUpd 1; FUpd 0; FDtor 2%nat; FDtor 1%nat; FFree];
                         [FCtor 1%nat; FUpd 0; FDtor 2%nat; FDtor 1%nat; FFree]].
Proof. split; [repeat constructor|]. vm_compute. split; reflexivity. Qed.
