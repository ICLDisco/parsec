(* C29 — Futures complete once and deliver one value.
   Each statement is read off the invariant of its model, proved in Future/FutureBaseProofs.v,
   FutureCountProofs.v, FutureDcProofs.v.
   Models: Future/FutureDefs.v — atomic-step models of
     (a) the base future      (parsec_base_future_set / get / is_ready),
     (b) the countable future (parsec_countable_future_set),
     (c) the data-copy future (parsec_datacopy_future_get_or_trigger(_internal) / set, nested futures).
   A configuration holds one future and a list of threads, each running a list of operations;
   [brun/krun/drun ... sched] folds the step function over an ARBITRARY list of thread ids, for ANY
   number of threads and ANY operation lists.  The per-thread result lists ([b_res], [k_res],
   [d_res]) log every value ever returned, so statements about them cover earlier and later readers. *)
From PV Require Import Base.Tac Base.ListX Future.FutureDefs Future.FutureLib
  Future.FutureBaseProofs Future.FutureCountProofs Future.FutureDcProofs.
From Coq Require Import Permutation.

(* (a) base future.  No hypothesis at all: once tracked_data is non-NULL no continuation of the schedule changes it *)
Theorem C29_base_value_written_once : forall h ops s1 s2,
  b_data (brun h ops s1) <> 0%Z -> b_data (brun h ops (s1 ++ s2)) = b_data (brun h ops s1).
Proof.
  intros h ops s1 s2. rewrite brun_app. generalize (brun h ops s1) as c.
  induction s2 as [|t s IH]; intros c Hc; [reflexivity|].
  cbn [fold_left]. rewrite IH; rewrite bstep_data_stable; auto.
Qed.
Print Assumptions C29_base_value_written_once.

(* protocol hypothesis: no set(NULL) (NULL is the "unset" sentinel of the CAS).  Every value
   returned by a get is the tracked value, is non-NULL, and the future is COMPLETED *)
Theorem C29_base_readers_get_the_value : forall h ops sched u th x, nonnull_sets ops ->
  nth_error (b_thr (brun h ops sched)) u = Some th -> In (BRGet x) (b_res th) ->
  x = b_data (brun h ops sched) /\ x <> 0%Z /\ b_stat (brun h ops sched) = true.
Proof.
  intros h ops sched u th x Hn Hu Hx. destruct (binv_run h ops sched Hn) as (Hthr & _ & Hsd & _).
  destruct (Hthr u th Hu) as (_ & _ & Hres). destruct (Hres _ Hx) as [-> Hs]. auto.
Qed.
Print Assumptions C29_base_readers_get_the_value.

Theorem C29_base_later_reader_same_value : forall h ops s1 s2 u th x u' th' y, nonnull_sets ops ->
  nth_error (b_thr (brun h ops s1)) u = Some th -> In (BRGet x) (b_res th) ->
  nth_error (b_thr (brun h ops (s1 ++ s2))) u' = Some th' -> In (BRGet y) (b_res th') -> x = y.
Proof.
  intros h ops s1 s2 u th x u' th' y Hn Hu Hx Hu' Hy.
  destruct (C29_base_readers_get_the_value h ops s1 u th x Hn Hu Hx) as (-> & Hx0 & _).
  destruct (C29_base_readers_get_the_value h ops (s1 ++ s2) u' th' y Hn Hu' Hy) as (-> & _).
  symmetry. apply C29_base_value_written_once. exact Hx0.
Qed.
Print Assumptions C29_base_later_reader_same_value.

(* exactly one set has won once the future is COMPLETED (none before), and the callback ran as often,
   seeing the tracked value *)
Theorem C29_base_one_winner_one_callback : forall h ops sched, nonnull_sets ops ->
  let c := brun h ops sched in
  tot nwon (b_thr c) = (if b_stat c then 1 else 0)%Z /\
  Z.of_nat (b_ncb c) = (if h && b_stat c then 1 else 0)%Z /\
  b_seen c = (if h && b_stat c then [b_data c] else []).
Proof. intros h ops sched Hn c. destruct (binv_run h ops sched Hn) as (_ & _ & _ & _ & Hw & Hc & Hs). auto. Qed.
Print Assumptions C29_base_one_winner_one_callback.

(* when all threads have finished and at least one set was issued, the registered callback has run
   exactly once *)
Theorem C29_base_callback_exactly_once : forall ops sched l v, nonnull_sets ops ->
  In l ops -> In (BSet v) l ->
  let c := brun true ops sched in
  (forall u th, nth_error (b_thr c) u = Some th -> b_done th = true) ->
  b_stat c = true /\ b_ncb c = 1%nat /\ b_seen c = [b_data c] /\ b_data c <> 0%Z.
Proof. exact base_callback_exactly_once. Qed.
Print Assumptions C29_base_callback_exactly_once.

(* the unguarded statement is false: set(NULL) completes the future with a NULL value, a later
   set(7) wins the CAS again; two readers see different values and the callback runs twice *)
Theorem C29_base_null_set_refuted : exists ops sched u th x y,
  nth_error (b_thr (brun true ops sched)) u = Some th /\
  In (BRGet x) (b_res th) /\ In (BRGet y) (b_res th) /\ x <> y /\
  b_ncb (brun true ops sched) = 2%nat.
Proof.
  exists [[BSet 0; BGet; BSet 7; BGet]], [0;0;0;0;0;0;0;0;0;0]%nat, 0%nat.
  eexists. exists 0%Z, 7%Z. vm_compute. repeat split; auto. discriminate.
Qed.
Print Assumptions C29_base_null_set_refuted.

(* (b) countable future: ready exactly when [count] sets have decremented it; the counter holds
   what is left, and the decrements are the sets completed by the threads *)
Theorem C29_countable_ready_exactly_at_count : forall h n0 ops sched, (1 <= n0)%Z ->
  let c := krun h n0 ops sched in
  k_stat c = (n0 <=? k_ndec c)%Z /\ k_count c = (n0 - k_ndec c)%Z /\ tot nsets (k_thr c) = k_ndec c.
Proof. intros h n0 ops sched Hn c. destruct (kinv_run h n0 ops sched Hn) as (_ & H1 & _ & H2 & _ & H3 & _). auto. Qed.
Print Assumptions C29_countable_ready_exactly_at_count.

Theorem C29_countable_callback_once : forall h n0 ops sched, (1 <= n0)%Z ->
  let c := krun h n0 ops sched in
  Z.of_nat (k_ncb c) = (if h && (n0 <=? k_ndec c)%Z then 1 else 0)%Z.
Proof. intros h n0 ops sched Hn c. destruct (kinv_run h n0 ops sched Hn) as (_ & _ & _ & _ & H & _). exact H. Qed.
Print Assumptions C29_countable_callback_once.

(* exactly the first count-1 sets return before readiness; ready flags and gets only after the count-th *)
Theorem C29_countable_set_flags : forall h n0 ops sched, (1 <= n0)%Z ->
  let c := krun h n0 ops sched in
  tot nsets0 (k_thr c) = Z.min (k_ndec c) (n0 - 1) /\
  (forall u th, nth_error (k_thr c) u = Some th ->
     (In (KRReady true) (k_res th) -> (n0 <= k_ndec c)%Z) /\
     (forall x, In (KRGet x) (k_res th) -> (n0 <= k_ndec c)%Z)).
Proof.
  intros h n0 ops sched Hn c. destruct (kinv_run h n0 ops sched Hn) as (Hthr & _ & _ & Hst & _ & _ & H0).
  fold c in Hthr, Hst, H0. split; [exact H0|]. intros u th Hu. destruct (Hthr u th Hu) as (_ & Hres). split.
  - intros Hx. pose proof (Hres _ Hx eq_refl) as Hr. rewrite Hst in Hr. lia.
  - intros x Hx. destruct (Hres _ Hx) as [_ Hs]. rewrite Hst in Hs. lia.
Qed.
Print Assumptions C29_countable_set_flags.

(* count <= 0 is outside the protocol: such a future never becomes ready *)
Theorem C29_countable_nonpositive_never_ready : forall h n0 ops sched, (n0 <= 0)%Z ->
  k_stat (krun h n0 ops sched) = false /\ k_ncb (krun h n0 ops sched) = 0%nat.
Proof.
  intros h n0 ops sched Hn. unfold krun.
  apply (fold_left_inv (kstep h) (fun c => (k_count c <= 0)%Z /\ k_stat c = false /\ k_ncb c = 0%nat)).
  - intros a b Ha. apply knever_step. exact Ha.
  - cbn. auto.
Qed.
Print Assumptions C29_countable_nonpositive_never_ready.

(* "ready exactly after count sets" fails for count = 0 (ready after 0 sets would be: at once) *)
Theorem C29_countable_zero_count_refuted : exists h ops sched,
  k_stat (krun h 0 ops sched) <> (0 <=? k_ndec (krun h 0 ops sched))%Z.
Proof. exists true, [[KSet]], []. vm_compute. discriminate. Qed.
Print Assumptions C29_countable_zero_count_refuted.

(* (c) data-copy future.  cbv: per shape, the value the fulfilment callback sets synchronously (0: fulfilment deferred to a
   later set); rs: shape of the root future.  No hypothesis on operations or callbacks: *)
Theorem C29_dc_trigger_at_most_once : forall cbv rs ops sched i f,
  nth_error (d_futs (drun cbv rs ops sched)) i = Some f ->
  f_ncb f = (if f_trig f then 1 else 0)%nat /\ (f_ncb f <= 1)%nat.
Proof.
  intros cbv rs ops sched i f Hi. destruct (dinv_run cbv rs ops sched) as (HT & _). pose proof (HT i f Hi) as H.
  split; [exact H|]. rewrite H. destruct (f_trig f); lia.
Qed.
Print Assumptions C29_dc_trigger_at_most_once.

Theorem C29_dc_one_fulfilment_per_shape : forall cbv rs ops sched s,
  let fs := d_futs (drun cbv rs ops sched) in
  NoDup (specs fs) /\ (fulfilments s fs <= 1)%nat.
Proof.
  intros cbv rs ops sched s fs. destruct (dinv_run cbv rs ops sched) as (HT & HN & _). fold fs in HT, HN.
  split; [exact HN|]. apply fulfil_le1; [exact HN|]. intros f Hf. destruct (In_nth_error _ _ Hf) as (i & Hi).
  rewrite (HT i f Hi). destruct (f_trig f); lia.
Qed.
Print Assumptions C29_dc_one_fulfilment_per_shape.

Theorem C29_dc_lock_mutex : forall cbv rs ops sched i t u th th2,
  let c := drun cbv rs ops sched in
  t <> u -> nth_error (d_thr c) t = Some th -> holds i (d_pc th) = true ->
  nth_error (d_thr c) u = Some th2 -> holds i (d_pc th2) = true -> False.
Proof. intros cbv rs ops sched i t u th th2 c. destruct (dinv_run cbv rs ops sched) as (_ & _ & HM & _). apply mutex_excl. exact HM. Qed.
Print Assumptions C29_dc_lock_mutex.

(* protocol hypothesis = the assert of parsec_datacopy_future_set never fired (d_bad = false):
   all non-NULL values ever returned for a shape are equal, and are the value of its future *)
Theorem C29_dc_readers_agree : forall cbv rs ops sched u th u' th' s x y,
  let c := drun cbv rs ops sched in
  d_bad c = false ->
  nth_error (d_thr c) u = Some th -> In (DRGot s x) (d_res th) -> x <> 0%Z ->
  nth_error (d_thr c) u' = Some th' -> In (DRGot s y) (d_res th') -> y <> 0%Z ->
  x = y /\ Val (d_futs c) s x.
Proof.
  intros cbv rs ops sched u th u' th' s x y c Hb Hu Hx Hx0 Hu' Hy Hy0.
  destruct (dinv_run cbv rs ops sched) as (_ & HN & _ & HTh & _). fold c in HN, HTh.
  destruct (HTh u th Hu) as [_ H1]. destruct (HTh u' th' Hu') as [_ H2].
  pose proof (H1 s x Hx Hx0 Hb) as V1. pose proof (H2 s y Hy Hy0 Hb) as V2.
  split; [eapply Val_unique; eauto|exact V1].
Qed.
Print Assumptions C29_dc_readers_agree.

Theorem C29_dc_value_written_once : forall cbv rs ops s1 s2 s v,
  Val (d_futs (drun cbv rs ops s1)) s v -> d_bad (drun cbv rs ops (s1 ++ s2)) = false ->
  Val (d_futs (drun cbv rs ops (s1 ++ s2))) s v.
Proof.
  intros cbv rs ops s1 s2 s v. rewrite drun_app. intros HV Hb. apply (Val_mono _ _ _ _ HV).
  apply (run_fextV cbv s2 _ (dinv_run cbv rs ops s1) Hb).
Qed.
Print Assumptions C29_dc_value_written_once.

(* a reader starting after completion gets the value: root future (any state) *)
Theorem C29_dc_root_reader_after_completion : forall cbv c t th r rest f0,
  nth_error (d_thr c) t = Some th -> d_pc th = DIdle -> d_ops th = DGT r :: rest ->
  nth_error (d_futs c) 0 = Some f0 -> (r = 0%nat \/ f_spec f0 = r) -> f_comp f0 = true ->
  nth_error (d_thr (dstep cbv c t)) t = Some (dfinish th (DRGot (f_spec f0) (f_data f0))).
Proof.
  intros cbv c t th r rest f0 E Epc Eops E0 Hr Hc. unfold dstep. rewrite E, Epc, Eops, E0.
  assert (Hm : Nat.eqb r 0 || Nat.eqb (f_spec f0) r = true).
  { destruct Hr as [->| <-]; [reflexivity|]. rewrite Nat.eqb_refl. apply orb_true_r. }
  rewrite Hm. unfold enter_direct. rewrite Hc. cbn [d_thr]. apply (nth_upd_same _ _ _ _ E).
Qed.
Print Assumptions C29_dc_root_reader_after_completion.

(* the same for nested futures (reachable states): taking the root lock when the future of the requested
   shape is COMPLETED leads to returning its value, whatever else is in the nested list *)
Theorem C29_dc_later_reader_gets_value : forall cbv rs ops sched t th r f0 j fj,
  let c := drun cbv rs ops sched in
  d_bad c = false ->
  nth_error (d_thr c) t = Some th -> d_pc th = DLockRoot r ->
  nth_error (d_futs c) 0 = Some f0 -> f_lock f0 = false ->
  nth_error (d_futs c) j = Some fj -> f_spec fj = r -> f_comp fj = true -> f_data fj <> 0%Z ->
  nth_error (d_thr (dstep cbv c t)) t = Some (dgoto th (DUnlockRet r (f_data fj))).
Proof. exact dc_later_reader_gets_value. Qed.
Print Assumptions C29_dc_later_reader_gets_value.

(* destruction of the quiescent object runs the cleanup callback once per future *)
Theorem C29_dc_cleanup_exactly_once : forall cbv rs ops sched,
  let fs := d_futs (drun cbv rs ops sched) in
  Permutation (d_cleanup fs) (specs fs) /\ NoDup (d_cleanup fs).
Proof.
  intros cbv rs ops sched fs. split; [apply cleanup_perm|].
  destruct (dinv_run cbv rs ops sched) as (_ & HN & _). fold fs in HN.
  eapply Permutation_NoDup; [apply Permutation_sym; apply cleanup_perm|exact HN].
Qed.
Print Assumptions C29_dc_cleanup_exactly_once.

(* the unguarded statement is false: parsec_datacopy_future_set is a plain store; a second set
   replaces the value and two readers of the same shape see different values *)
Theorem C29_dc_double_set_refuted : exists cbv rs ops sched u th x y,
  nth_error (d_thr (drun cbv rs ops sched)) u = Some th /\
  In (DRGot rs x) (d_res th) /\ In (DRGot rs y) (d_res th) /\
  x <> 0%Z /\ y <> 0%Z /\ x <> y /\ d_bad (drun cbv rs ops sched) = true.
Proof.
  exists [], 1%nat, [[DSet 1 5; DGT 0; DSet 1 6; DGT 0]], [0;0;0;0]%nat, 0%nat.
  eexists. exists 5%Z, 6%Z. vm_compute. repeat split; auto; discriminate.
Qed.
Print Assumptions C29_dc_double_set_refuted.

(* three threads race set 5 / set 6 / get: thread 1 wins the CAS although thread 0 called set first *)
Example C29_example_base :
  let c := brun true [[BSet 5; BGet]; [BSet 6]; [BGet; BReady]] [0;1;1;0;2;1;2;2;0;0;2]%nat in
  nonnull_sets [[BSet 5; BGet]; [BSet 6]; [BGet; BReady]] /\
  map b_res (b_thr c) = [[BRGet 6; BRSet false]; [BRSet true]; [BRReady true; BRGet 6]] /\ b_ncb c = 1%nat.
Proof.
  split; [|vm_compute; auto].
  intros l v Hl Hv. cbn in Hl. destruct Hl as [<-|[<-|[<-|[]]]]; cbn in Hv;
    repeat (destruct Hv as [Hv|Hv]; [inv Hv; lia|]); contradiction.
Qed.
Example C29_example_countable :
  let c := krun true 2 [[KSet; KReady]; [KSet]; [KSet]] [0;1;1;0;2;2;0]%nat in
  map k_res (k_thr c) = [[KRReady true; KRSet true]; [KRSet false]; [KRSet true]] /\ k_ncb c = 1%nat.
Proof. vm_compute. auto. Qed.
(* root shape 1 (callback sets 11), shape 2 deferred and set by thread 2.  Threads 0 and 1 race for
   shape 2: thread 0 creates the nested future, thread 1 triggers it while scanning the nested list
   under the root lock; both get NULL, thread 2 completes it, both then read 22: one nested future,
   one fulfilment per shape *)
Example C29_example_dc :
  let c := drun [0; 11; 0]%Z 1 [[DGT 2; DGT 2]; [DGT 2; DGT 2]; [DGT 0; DSet 2 22]]
                [0;1;0;0;1;0;1;1;0;1;1;0;0;1; 2;2;2;2;2; 0;1;0;1;0;1;1]%nat in
  d_bad c = false /\ map f_ncb (d_futs c) = [1;1]%nat /\ specs (d_futs c) = [1;2]%nat /\
  map d_res (d_thr c) = [[DRGot 2 22; DRGot 2 0]; [DRGot 2 22; DRGot 2 0]; [DRSet 1; DRGot 1 11]].
Proof. vm_compute. auto. Qed.
