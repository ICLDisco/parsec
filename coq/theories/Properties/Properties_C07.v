(* C07 — A task becomes ready exactly once, when its last input arrives.
   Each statement is read off the invariant of its mode at the end of the run: CInv
   (Deps/DepsCounterProofs.v) and MInv (Deps/DepsMaskProofs.v), whose last clause says that
   one release is ready when all have performed their read-modify-write, and none before.
   Model: Deps/DepsDefs.v (atomic-step model of parsec_update_deps_with_counter/_mask;
   one thread = one release; the schedule is an arbitrary list of thread ids). *)
From PV Require Import Base.Tac Base.ListX Deps.DepsDefs Deps.DepsCounterProofs Deps.DepsMaskProofs.

(* counter mode: any goal g > 0, any number n <= g of releases, any schedule *)
Theorem C07_counter_at_most_once : forall g n sched, (0 < g)%Z -> (Z.of_nat n <= g)%Z ->
  (cnt c_is_ready (cpcs (crun g (cinit n) sched)) <= 1)%Z.
Proof. intros g n sched Hg Hn. destruct (cinv_run g n sched Hg Hn) as (_ & _ & _ & _ & Hr). iflia. Qed.
Print Assumptions C07_counter_at_most_once.

Theorem C07_counter_ready_iff_all : forall g n sched, (0 < g)%Z -> (Z.of_nat n <= g)%Z ->
  (cnt c_is_ready (cpcs (crun g (cinit n) sched)) = 1 <->
   cnt c_is_done (cpcs (crun g (cinit n) sched)) = g)%Z.
Proof.
  intros g n sched Hg Hn. destruct (cinv_run g n sched Hg Hn) as (_ & _ & _ & _ & Hr).
  destruct (cnt c_is_done (cpcs (crun g (cinit n) sched)) =? g)%Z eqn:E; split; lia.
Qed.
Print Assumptions C07_counter_ready_iff_all.

(* a release that returned "ready" did so after every release performed its RMW:
   in every reachable state holding a ready thread, all g threads are done *)
Theorem C07_counter_ready_is_last : forall g n sched t, (0 < g)%Z -> (Z.of_nat n <= g)%Z ->
  nth_error (cpcs (crun g (cinit n) sched)) t = Some (CDone true) ->
  forall u p, nth_error (cpcs (crun g (cinit n) sched)) u = Some p -> c_is_done p = true.
Proof.
  intros g n sched t Hg Hn Ht u p Hu.
  destruct (cinv_run g n sched Hg Hn) as (Hlen & _ & _ & _ & Hr).
  pose proof (cnt_pos_of_nth c_is_ready _ _ _ Ht eq_refl) as Hpos.
  destruct (cnt c_is_done (cpcs (crun g (cinit n) sched)) =? g)%Z eqn:E; [|lia].
  apply (cnt_full_all c_is_done (cpcs (crun g (cinit n) sched))) with (t := u); [|exact Hu].
  pose proof (cnt_le_len c_is_done (cpcs (crun g (cinit n) sched))). lia.
Qed.
Print Assumptions C07_counter_ready_is_last.

(* mask mode: releases carry pairwise distinct flow bits that belong to the goal and
   are not collection inputs; the goal is covered by the collection bits and the releases *)
Theorem C07_mask_at_most_once : forall goal inmask idxs, NoDup idxs ->
  (forall i, In i idxs -> i <> 30%N /\ N.testbit goal i = true /\ N.testbit inmask i = false) ->
  (forall k, N.testbit goal k = true -> N.testbit inmask k = true \/ In k idxs \/ k = 30%N) ->
  forall sched, idxs <> [] ->
  (cnt m_is_ready (mpcs (mrun goal inmask (minit idxs) sched)) <= 1)%Z.
Proof.
  intros goal inmask idxs Hnd Hidx Hcov sched Hne.
  destruct (minv_run goal inmask idxs Hnd Hidx Hcov sched Hne) as (_ & _ & _ & Hr). rewrite Hr. iflia.
Qed.
Print Assumptions C07_mask_at_most_once.

Theorem C07_mask_ready_iff_all : forall goal inmask idxs, NoDup idxs ->
  (forall i, In i idxs -> i <> 30%N /\ N.testbit goal i = true /\ N.testbit inmask i = false) ->
  (forall k, N.testbit goal k = true -> N.testbit inmask k = true \/ In k idxs \/ k = 30%N) ->
  forall sched, idxs <> [] ->
  (cnt m_is_ready (mpcs (mrun goal inmask (minit idxs) sched)) = 1 <->
   cnt m_is_done (mpcs (mrun goal inmask (minit idxs) sched)) = Z.of_nat (length idxs))%Z.
Proof.
  intros goal inmask idxs Hnd Hidx Hcov sched Hne.
  destruct (minv_run goal inmask idxs Hnd Hidx Hcov sched Hne) as (_ & _ & _ & Hr). rewrite Hr.
  destruct (cnt m_is_done (mpcs (mrun goal inmask (minit idxs) sched)) =? Z.of_nat (length idxs))%Z eqn:E;
  split; lia.
Qed.
Print Assumptions C07_mask_ready_iff_all.

(* whoever returned "ready" did so after every release performed its fetch-or *)
Theorem C07_mask_ready_is_last : forall goal inmask idxs, NoDup idxs ->
  (forall i, In i idxs -> i <> 30%N /\ N.testbit goal i = true /\ N.testbit inmask i = false) ->
  (forall k, N.testbit goal k = true -> N.testbit inmask k = true \/ In k idxs \/ k = 30%N) ->
  forall sched t i, idxs <> [] ->
  nth_error (mpcs (mrun goal inmask (minit idxs) sched)) t = Some (MDone i true) ->
  forall u p, nth_error (mpcs (mrun goal inmask (minit idxs) sched)) u = Some p -> m_is_done p = true.
Proof.
  intros goal inmask idxs Hnd Hidx Hcov sched t i Hne Ht u p Hu.
  destruct (minv_run goal inmask idxs Hnd Hidx Hcov sched Hne) as (Ha & _ & _ & Hr).
  set (c := mrun goal inmask (minit idxs) sched) in *.
  pose proof (cnt_pos_of_nth m_is_ready _ _ _ Ht eq_refl) as Hpos.
  destruct (cnt m_is_done (mpcs c) =? Z.of_nat (length idxs))%Z eqn:E; [|lia].
  apply (cnt_full_all m_is_done (mpcs c)) with (t := u); [|exact Hu].
  rewrite <- Ha, map_length in E. lia.
Qed.
Print Assumptions C07_mask_ready_is_last.

(* non-vacuity: three releases racing on a counter goal of 3 (the first two interleave their
   read / CAS), and a mask goal 0b1011 with collection bit 0 and releases on flows 1 and 3 *)
Example C07_example_counter :
  map c_is_ready (cpcs (crun 3 (cinit 3) [0;1;0;1;1;2;2]%nat)) = [false; false; true].
Proof. vm_compute. reflexivity. Qed.
Example C07_example_mask :
  map m_is_ready (mpcs (mrun 11 1 (minit [1;3]%N) [0;1;1;0]%nat)) = [true; false] /\
  NoDup [1;3]%N.
Proof. split; [vm_compute; reflexivity|]. repeat constructor; cbn; intuition congruence. Qed.
