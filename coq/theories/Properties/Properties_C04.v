(* C04 — DTD never runs conflicting accesses at the same time.
   Statements, each derived in a few lines from the theorems of DTD/DTDEngine.v, DTDProofs.v and
   DTDGateProofs.v (model: DTD/DTDDefs.v, see Properties_C03.v).  [st s t = Running] is the set `running` of the engine. *)
From PV Require Import Base.Tac DTD.DTDDefs DTD.DTDSeq DTD.DTDChain DTD.DTDEngine DTD.DTDProofs
  DTD.DTDGate DTD.DTDGateProofs.

(* invariant of every run: two running tasks never conflict *)
Theorem C04_exclusive : forall body p gate m0 es t1 t2,
  st (dtd_run body p gate m0 es) t1 = Running -> st (dtd_run body p gate m0 es) t2 = Running ->
  t1 <> t2 -> ~ conflict (task_at p t1) (task_at p t2).
Proof. intros body p gate m0 es t1 t2. apply running_exclusive; [apply dtd_back|apply chain_edges_complete]. Qed.
Print Assumptions C04_exclusive.

(* per datum: while a task holding d in W / RW runs, no other running task touches d *)
Theorem C04_exclusive_datum : forall body p gate m0 es d t1 t2,
  st (dtd_run body p gate m0 es) t1 = Running -> st (dtd_run body p gate m0 es) t2 = Running ->
  t1 <> t2 -> writes (task_at p t1) d = true -> touches (task_at p t2) d = false.
Proof.
  intros body p gate m0 es d t1 t2 H1 H2 Hne Hw. destruct (touches (task_at p t2) d) eqn:E; [|reflexivity].
  exfalso. apply (C04_exclusive body p gate m0 es t1 t2 H1 H2 Hne). now apply conflict_wt with d.
Qed.
Print Assumptions C04_exclusive_datum.

(* Begin t is enabled only when every earlier-inserted task that conflicts with t has ended:
   a writer waits for all earlier readers and writers of its data, a reader for the writers *)
Theorem C04_begin_waits : forall body p gate m0 es t i,
  can_begin (dep_fn p) (dtd_run body p gate m0 es) t = true -> i < t ->
  conflict (task_at p i) (task_at p t) -> st (dtd_run body p gate m0 es) i = Done.
Proof. intros body p gate m0 es t i. apply begin_waits; [apply dtd_back|apply chain_edges_complete]. Qed.
Print Assumptions C04_begin_waits.

Theorem C04_begun_after_conflicts : forall body p gate m0 es t i,
  st (dtd_run body p gate m0 es) t <> Idle -> i < t ->
  conflict (task_at p i) (task_at p t) -> st (dtd_run body p gate m0 es) i = Done.
Proof. intros body p gate m0 es t i. apply begun_after_conflicts; [apply dtd_back|apply chain_edges_complete]. Qed.
Print Assumptions C04_begun_after_conflicts.

(* nothing more is serialised: any set of inserted idle tasks whose earlier conflicting tasks
   have all ended can be running together *)
Theorem C04_concurrent_set : forall body p gate m0 es ts, NoDup ts ->
  (forall t, In t ts -> t < ins (dtd_run body p gate m0 es) /\ st (dtd_run body p gate m0 es) t = Idle /\
     forall i, i < t -> conflict (task_at p i) (task_at p t) -> st (dtd_run body p gate m0 es) i = Done) ->
  forall t, In t ts -> st (dtd_run body p gate m0 (es ++ map Begin ts)) t = Running.
Proof. exact dtd_concurrent_set. Qed.
Print Assumptions C04_concurrent_set.

(* readers between two writers: for every n, a run of "writer; n readers; writer" on one datum
   has all n readers running at the same time *)
Theorem C04_readers_run_together : forall body m0 d n,
  exists es, let s := dtd_run body (wrw_prog d n) no_window m0 es in
    forall t, 1 <= t <= n -> st s t = Running.
Proof. exact readers_run_together. Qed.
Print Assumptions C04_readers_run_together.

(* non-vacuity: a reachable state with two readers of datum 0 running, the writers around them
   done / idle, no conflicting pair in `running`; the second writer cannot begin *)
Definition C04_ex_p : prog := [[(0,RW)]; [(0,R)]; [(0,R);(1,W)]; [(0,RW);(1,R)]; [(1,R);(1,W)]].
Definition C04_ex_es : list event :=
  [Insert; Insert; Begin 1; Begin 0; Insert; End 0; Begin 2; Begin 1; Insert; Begin 3].
Example C04_example :
  let s := dtd_run fbody C04_ex_p no_window mem0 C04_ex_es in
  map (st s) [0;1;2;3;4] = [Done; Running; Running; Idle; Idle] /\
  running_conflicts C04_ex_p s = 0 /\ can_begin (dep_fn C04_ex_p) s 3 = false /\
  conflictb (task_at C04_ex_p 1) (task_at C04_ex_p 3) = true.
Proof. vm_compute. repeat split. Qed.

(* The mechanism below the protocol (DTD/DTDGate.v).
   Flow-level model of how the code realises "a writer waits for the readers since the last
   writer": tile->last_user (task address, flow, INPUT?, alive), the flows chained behind the
   owner of the tile, the reader count of the shared copy, the walk of a completing writer
   (parsec_dtd_ordering_correctly), immediate activation on a chain that is not alive, the
   test of data_lookup_of_dtd_task (readers > 0: AGAIN), task structs recycled per task class.
   [grun true] = with the guard of notes/findings/C03-stale-last-user.patch, [grun false] = the
   code as it is.  [norep p]: no task names a tile twice. *)

(* with the guard: for every sequence (norep) and EVERY event list the mechanism never has two
   conflicting tasks running, and a task begins only after every earlier conflicting task is done *)
Theorem C04_mechanism_exclusive : forall p, norep p -> forall es t1 t2,
  g_st (grun true p es) t1 = Running -> g_st (grun true p es) t2 = Running -> t1 <> t2 ->
  ~ conflict (task_at p t1) (task_at p t2).
Proof. exact gate_exclusive. Qed.
Print Assumptions C04_mechanism_exclusive.

Theorem C04_mechanism_begun_after : forall p, norep p -> forall es t i,
  g_st (grun true p es) t <> Idle -> i < t -> conflict (task_at p i) (task_at p t) ->
  g_st (grun true p es) i = Done.
Proof. exact gate_begun_after. Qed.
Print Assumptions C04_mechanism_begun_after.

(* the code as it is: the literal statement is FALSE of the mechanism model — a recycled task
   struct is taken for an earlier flow of the task being inserted, a reader count is released
   that was never taken, and a writer begins while a reader of the same tile is running.
   Witness replayed on the real code: corpus/C04/stale_last_user.txt *)
Theorem C04_mechanism_unguarded_refuted : exists p es t1 t2, norep p /\ t1 <> t2 /\
  g_st (grun false p es) t1 = Running /\ g_st (grun false p es) t2 = Running /\
  conflict (task_at p t1) (task_at p t2).
Proof. exact gate_unguarded_refuted. Qed.
Print Assumptions C04_mechanism_unguarded_refuted.

Example C04_mechanism_example :
  (let s := grun false gate_witness_p gate_witness_es in
   map (g_st s) [0;1;2;3;4;5] = [Done; Done; Done; Done; Running; Running] /\
   map (g_addr s) [1;2] = [1;1]) /\
  (let s := grun true gate_witness_p gate_witness_es in
   map (g_st s) [0;1;2;3;4;5] = [Done; Done; Done; Done; Running; Idle]).
Proof. vm_compute. repeat split. Qed.
