(* C30 — The lock-free LIFO is a linearizable stack.
   The forward simulation is in Lifo/LifoProofs.v, its consequences for runs from an initial
   configuration and the history invariant in Lifo/LifoThms.v.
   Model: Lifo/LifoDefs.v — atomic-step model of parsec_lifo_push/_chain/_pop/_try_pop/
   _is_empty (128-bit CAS branch of parsec/class/lifo.h): heap of list_next fields, head =
   (counter, item), per-thread program counters with their local variables.

   Quantifiers: any initial contents [s0] (built by nolock_chain or nolock_push), any number
   of threads, each with any bag of items and ANY list of operations ([ths]), and ANY schedule
   [sched] (list of thread ids; run = fold_left step).  The only hypothesis is that the items
   are pairwise distinct.  [step true] is the code (CAS128 compares counter and pointer);
   [step false] is the pointer-only variant used in the refutation at the end.

   The history [hist] (newest first) holds, for every operation, EInv (invocation), ELin (its
   linearisation point: successful CAS, NULL read of an empty pop, failed CAS of try_pop,
   read of is_empty — with the value the implementation returns) and ERes (response).
   [replay s0 h] runs the ELin events on a list: push/chain put the ring on top in order,
   pop must return the top (NULL iff empty), is_empty must say whether the list is empty,
   a failed try_pop has no effect; it is None as soon as one event is not what a stack does.
   [contents n c] is the list reachable from the head (what a drain with nolock_pop returns). *)
From PV Require Import Base.Tac Base.ListX Lifo.LifoDefs Lifo.LifoHeap Lifo.LifoProofs Lifo.LifoThms.
From Coq Require Import Permutation.

(* the linearisation events of every reachable history form a legal sequential stack history *)
Theorem C30_linearizable : forall ch s0 ths sched, NoDup (all_items s0 ths) ->
  exists s, replay s0 (hist (run true (init ch s0 ths) sched)) = Some s.
Proof. intros ch s0 ths sched H. eexists. exact (lifo_linearizable ch s0 ths sched H). Qed.
Print Assumptions C30_linearizable.

(* the abstract stack at the end of that history is the concrete list reachable from the head *)
Theorem C30_final_contents : forall ch s0 ths sched, NoDup (all_items s0 ths) ->
  let c := run true (init ch s0 ths) sched in
  replay s0 (hist c) = Some (contents (length (all_items s0 ths)) c).
Proof. exact lifo_linearizable. Qed.
Print Assumptions C30_final_contents.

(* the values a thread has received are, in order, the values of its linearisation events
   (plus the one it is about to return when it sits between its linearisation point and its return) *)
Theorem C30_results_are_abstract_results : forall ch s0 ths sched t th,
  let c := run true (init ch s0 ths) sched in
  nth_error (thr c) t = Some th -> lin_res t (hist c) = pending (t_pc th) ++ t_res th.
Proof.
  intros ch s0 ths sched t th c Hth. pose proof (run_HistInv true sched _ (init_HistInv ch s0 ths) t) as H.
  unfold tst in H. fold c in H. rewrite Hth in H. unfold th_hist_inv, st in H. destruct (t_pc th); apply H.
Qed.
Print Assumptions C30_results_are_abstract_results.

(* per thread the history is a sequence of triples invocation / linearisation point /
   response carrying the same value (newest first), below at most one operation in progress
   (invoked, or invoked and linearised): every linearisation point lies inside its operation *)
Theorem C30_lp_within_operation : forall ch s0 ths sched t,
  thread_hist_ok (proj t (hist (run true (init ch s0 ths) sched))).
Proof. exact lifo_lp_within. Qed.
Print Assumptions C30_lp_within_operation.

(* a pop that linearises returns the current top of the concrete list and removes exactly it;
   it returns NULL only when the list is empty *)
Theorem C30_pop_returns_top : forall ch s0 ths sched t r, NoDup (all_items s0 ths) ->
  let n := length (all_items s0 ths) in
  let c := run true (init ch s0 ths) sched in
  let c' := step true c t in
  hist c' = ELin t (APop r) :: hist c \/ hist c' = fin_ev t (APop r) ++ hist c ->
  r = hd_error (contents n c) /\ contents n c' = tl (contents n c).
Proof.
  intros ch s0 ths sched t r Hnd n c c' Hh. pose proof (lifo_lp_step ch s0 ths sched t _ Hnd Hh) as H.
  subst c' c n. cbn [astep] in H. destruct (opt_eqb r (hd_error (contents _ _))) eqn:E; [|discriminate].
  apply opt_eqb_eq in E. split; [assumption|]. now inversion H.
Qed.
Print Assumptions C30_pop_returns_top.

(* a push / chain that linearises puts its ring on top, in the order of the ring *)
Theorem C30_chain_keeps_order : forall ch s0 ths sched t xs, NoDup (all_items s0 ths) ->
  let n := length (all_items s0 ths) in
  let c := run true (init ch s0 ths) sched in
  let c' := step true c t in
  hist c' = ELin t (APush xs) :: hist c ->
  contents n c' = xs ++ contents n c.
Proof.
  intros ch s0 ths sched t xs Hnd n c c' Hh.
  pose proof (lifo_lp_step ch s0 ths sched t _ Hnd (or_introl Hh)) as H. cbn [astep] in H. now inversion H.
Qed.
Print Assumptions C30_chain_keeps_order.

(* nothing is lost, nothing is duplicated: the list plus the items held by the threads
   (popped and not pushed back, or being pushed) is always a permutation of the initial items *)
Theorem C30_conservation : forall ch s0 ths sched, NoDup (all_items s0 ths) ->
  let c := run true (init ch s0 ths) sched in
  Permutation (contents (length (all_items s0 ths)) c ++ held_all c) (all_items s0 ths) /\
  NoDup (contents (length (all_items s0 ths)) c ++ held_all c).
Proof.
  intros ch s0 ths sched Hnd c. destruct (reach_Inv ch s0 ths sched Hnd) as [s HI]. fold c in HI.
  rewrite (Inv_contents _ _ _ _ Hnd HI). pose proof (I_perm _ _ _ _ HI) as Hp.
  split; [exact Hp|]. apply (Permutation_NoDup (l := all_items s0 ths)); [now symmetry|assumption].
Qed.
Print Assumptions C30_conservation.

(* the ABA counter counts successful pops: a run of fewer than 2^63 steps cannot wrap it *)
Theorem C30_counter_bound : forall ch s0 ths sched,
  (0 <= hcnt (run true (init ch s0 ths) sched) <= Z.of_nat (length sched))%Z.
Proof.
  intros ch s0 ths sched. pose proof (run_counter sched (init ch s0 ths)) as H. cbn [init hcnt] in H. lia.
Qed.
Print Assumptions C30_counter_bound.

(* The counter is needed: with a pointer-only comparison in pop the classic ABA schedule
   (thread 0 reads head = item 0 and its successor 1; thread 1 pops 0, pops 1, pushes 0 back;
   thread 0's CAS succeeds and installs the popped item 1) yields a history no stack has. *)
Definition aba_ths : list (list item * list op) := [([], [OPop; OPop]); ([], [OPop; OPop; OPush 1])]%nat.
Definition aba_sched : list nat := ([0;0] ++ repeat 1 11 ++ repeat 0 6)%nat.
Theorem C30_without_counter_refuted : exists ch s0 ths sched, NoDup (all_items s0 ths) /\
  replay s0 (hist (run false (init ch s0 ths) sched)) = None /\
  ~ NoDup (held_all (run false (init ch s0 ths) sched)).
Proof.
  exists true, [0;1;2]%nat, aba_ths, aba_sched. split; [|split].
  - repeat constructor; cbn; intuition congruence.
  - vm_compute. reflexivity.
  - vm_compute. intros H. inversion H as [|? ? Hx _]; subst. apply Hx. right. now left.
Qed.
Print Assumptions C30_without_counter_refuted.

(* non-vacuity: the same schedule on the real algorithm — thread 0's first CAS fails, its
   retry pops item 0; the list is [2], the counter 3, items 0 and 1 are held *)
Example C30_example_aba :
  let c := run true (init true [0;1;2]%nat aba_ths) aba_sched in
  NoDup (all_items [0;1;2]%nat aba_ths) /\
  contents 3 c = [2]%nat /\ hcnt c = 3%Z /\ held_all c = [0;1]%nat /\
  map t_res (thr c) = [[RItem 0]; [RPushed [0]; RItem 1; RItem 0]]%nat /\
  replay [0;1;2]%nat (hist c) = Some [2]%nat.
Proof.
  split; [repeat constructor; cbn; intuition congruence|]. vm_compute. repeat split.
Qed.
