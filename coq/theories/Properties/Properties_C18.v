(* C18 — Typed PTG flows deliver correctly converted copies.
   The proofs rest on Reshape/Reshape*Proofs.v, the model is Reshape/ReshapeDefs.v.

   Vocabulary.  A tile is the list of its bytes; [rd t b] reads byte b.  A layout is the list, in
   type order, of the byte offsets a datatype selects ([selected] of DType, C19);
   [shape_layout esz mb s] is the layout of the arena datatype s (1 FULL, 2 LOWER, 3 UPPER with
   the diagonal, 4 LOWS, 5 UPPS without) built by parsec_matrix_adt_define_{rect,lower,upper} for
   an mb x mb tile of esz-byte elements; [in_shape s i j] says that element (i, j) belongs to it.
   [convert ls ld src dst] is PaRSEC's reshape (MPI_Sendrecv to self: pack src with the type of
   layout ls, unpack into dst with the type of layout ld).  A reshape promise is a datacopy
   future [fut] in a state [st] (copies, promises, repositories, event log); [get_from_dep] is
   what a consumer's data_lookup does with the promise it finds, [setup_local] what the
   producer's release_deps does for one local successor.  [ext s s'] : every copy of s is in s',
   unchanged.  [nconv s] : number of conversions performed so far.

   Level: the conversion theorems are for every tile size, element size and pair of layouts; the
   promise theorems for every state and request.  The whole-program statement ("every consumer
   of every program gets ...") is FALSE of the faithful model and of the code: see the two
   [..._refuted] theorems and notes/findings/C18-*.md. *)
From PV Require Import Base.Tac DType.DTypeDefs Reshape.ReshapeDefs Reshape.ReshapeConvProofs
  Reshape.ReshapePromiseProofs Reshape.ReshapeFanoutProofs Reshape.ReshapeWitness.
Local Open Scope Z_scope.

(* the conversion: selected elements arrive, everything else is untouched *)

(* any two layouts (the destination one without repetition and inside the tile): the k-th selected
   byte of the consumer's copy is the k-th selected byte of the producer's copy *)
Theorem C18_convert_selected : forall ls ld src dst k,
  NoDup ld -> (forall o, In o ld -> 0 <= o < Z.of_nat (length dst)) ->
  (k < length ls)%nat -> (k < length ld)%nat ->
  rd (convert ls ld src dst) (nth k ld 0) = rd src (nth k ls 0).
Proof. exact convert_selected. Qed.
Print Assumptions C18_convert_selected.

(* ... and every byte that is not among the first |ls| selected bytes of the destination type keeps
   the value the destination tile had (for a fresh arena copy: whatever the arena returned) *)
Theorem C18_convert_unselected : forall ls ld src dst b,
  ~ In b (firstn (length ls) ld) -> rd (convert ls ld src dst) b = rd dst b.
Proof. exact convert_other. Qed.
Print Assumptions C18_convert_unselected.

Theorem C18_convert_length : forall ls ld src dst, length (convert ls ld src dst) = length dst.
Proof. intros ls ld src dst. apply length_unpack. Qed.
Print Assumptions C18_convert_length.

(* the arena datatypes of EVERY tile size and element size, same shape on both sides (the case of a
   [type] / [type_remote] declared identically by producer and consumer): element (i, j) of the
   consumer's copy is the producer's when (i, j) is in the shape, the destination's own otherwise *)
Theorem C18_shape_same : forall esz mb s src dst i j d,
  0 < esz -> 1 <= mb -> mb * mb * esz < 2 ^ 31 -> 1 <= s <= 5 ->
  Z.of_nat (length dst) = mb * mb * esz ->
  0 <= i < mb -> 0 <= j < mb -> 0 <= d < esz ->
  let l := shape_layout esz mb s in
  let b := (i + j * mb) * esz + d in
  rd (convert l l src dst) b = if in_shape s i j then rd src b else rd dst b.
Proof. exact shape_convert_same. Qed.
Print Assumptions C18_shape_same.

(* two different arena datatypes ("pack t1, unpack t2" of CHANGELOG.ptg.md, e.g. LOWER -> UPPER of
   tests/collections/reshape/local_input_LU_LL.jdf): k-th byte in type order to k-th byte in type order *)
Theorem C18_shape_kth : forall esz mb s1 s2 src dst k,
  0 < esz -> 1 <= mb -> mb * mb * esz < 2 ^ 31 -> 1 <= s1 <= 5 -> 1 <= s2 <= 5 ->
  Z.of_nat (length dst) = mb * mb * esz ->
  let l1 := shape_layout esz mb s1 in
  let l2 := shape_layout esz mb s2 in
  (k < length l1)%nat -> (k < length l2)%nat ->
  rd (convert l1 l2 src dst) (nth k l2 0) = rd src (nth k l1 0).
Proof.
  intros esz mb s1 s2 src dst k Hsz Hmb Hov Hs1 Hs2 Hlen l1 l2 Hk1 Hk2. apply convert_selected; auto.
  - apply shape_layout_NoDup; auto.
  - intros o Ho. rewrite Hlen. eapply shape_layout_range; eauto.
Qed.
Print Assumptions C18_shape_kth.

(* what the layouts are: exactly the bytes of the elements of the shape (from C19) *)
Theorem C18_layout_membership : forall esz mb s b,
  0 < esz -> 1 <= mb -> mb * mb * esz < 2 ^ 31 -> 1 <= s <= 5 ->
  (In b (shape_layout esz mb s) <->
   exists i j, 0 <= i < mb /\ 0 <= j < mb /\ in_shape s i j = true /\
               (i + j * mb) * esz <= b < (i + j * mb + 1) * esz).
Proof. exact shape_layout_In. Qed.
Print Assumptions C18_layout_membership.

(* promises: a new copy, once, shared; nothing else is touched *)

(* fulfilling a promise creates exactly one copy of the destination type whose content is the
   conversion of the promise's input copy into a fresh tile, and records one conversion *)
Theorem C18_fulfil_once : forall E s f,
  f_val (getf s f) = None -> (f < length (futs s))%nat ->
  sendrecv_ok (lay E (f_src (getf s f)) (f_cnt (getf s f))) (lay E (f_dst (getf s f)) 1) = true ->
  let F := getf s f in
  let id := length (copies s) in
  let s' := fst (get_internal E s f true) in
  snd (get_internal E s f true) = Some id /\
  copies s' = copies s ++ [{| cp_dtt := f_dst F; cp_rank := f_rank F;
                              cp_data := convert (lay E (f_src F) (f_cnt F)) (lay E (f_dst F) 1)
                                                 (cp_data (getc s (f_in F))) (e_fresh E) |}] /\
  evs s' = EConv (f_in F) (f_src F) (f_cnt F) id (f_dst F) :: evs s /\
  f_val (getf s' f) = Some id /\
  (forall g, g <> f -> getf s' g = getf s g) /\
  length (futs s') = length (futs s) /\ repo s' = repo s /\ err s' = err s.
Proof. exact get_internal_fulfil. Qed.
Print Assumptions C18_fulfil_once.

(* a completed promise is never fulfilled again: same copy, same state *)
Theorem C18_fulfil_idempotent : forall E s f s1 c b,
  (f < length (futs s))%nat -> get_internal E s f true = (s1, Some c) -> get_internal E s1 f b = (s1, Some c).
Proof. exact get_internal_idem. Qed.
Print Assumptions C18_fulfil_idempotent.

(* consumers that request the same shape (s0, s1) from a promise share one copy and one conversion:
   after a request returned copy c, the same request returns c again without changing the state
   (no new conversion, no new copy); a request performs at most one conversion *)
Theorem C18_same_shape_shared : forall E s f s0 s1 s' c,
  (f < length (futs s))%nat -> nested_done s f ->
  get_spec E s f s0 s1 = (s', Some c) ->
  get_spec E s' f s0 s1 = (s', Some c) /\ nested_done s' f /\ (nconv s' <= nconv s + 1)%nat /\
  (f < length (futs s'))%nat.
Proof. exact get_spec_shared. Qed.
Print Assumptions C18_same_shape_shared.

(* the producer's copy, the other consumers' copies and the tiles of the collection are not
   altered when a consumer obtains its copy, nor when a producer sets up a promise *)
Theorem C18_other_copies_untouched : forall E s f ti i,
  (i < length (copies s))%nat -> getc (fst (get_from_dep E s f ti)) i = getc s i.
Proof. intros E s f ti i Hi. apply ext_getc; [apply get_from_dep_ext|exact Hi]. Qed.
Print Assumptions C18_other_copies_untouched.

Theorem C18_setup_touches_no_copy : forall E fx s pk sk X rank cur to i,
  (i < length (copies s))%nat -> getc (fst (setup_local E fx s pk sk X rank cur to)) i = getc s i.
Proof. intros E fx s pk sk X rank cur to i Hi. apply ext_getc; [apply setup_local_ext|exact Hi]. Qed.
Print Assumptions C18_setup_touches_no_copy.

(* no conversion when the shapes are identical: output dependency without [type] or with the type of
   the produced copy, consumer without [type] or with that type: the consumer gets the producer's
   copy itself, no copy is made, no conversion is recorded *)
Theorem C18_identical_shapes_no_conversion : forall E fx s pk sk X rank to ti,
  let d := cp_dtt (getc s X) in
  repo_get s pk = None -> (to = 0 \/ to = d) -> (ti = 0 \/ ti = d) ->
  let '(s1, cur) := setup_local E fx s pk sk X rank None to in
  exists f, cur = Some f /\ repo_get s1 pk = Some f /\
    get_from_dep E s1 f ti = (s1, Some X) /\ copies s1 = copies s /\ evs s1 = evs s.
Proof. exact identical_shapes_no_conversion. Qed.
Print Assumptions C18_identical_shapes_no_conversion.

(* one producer, any fan-out behind one promise: the documented copies are delivered *)

(* [expected_local d to ti] is the conversion CHANGELOG.ptg.md promises to a local consumer: producer's
   copy of type d, output dependency [type = to], input dependency [type = ti] (0 = absent): None = the
   producer's copy itself, Some (p, u) = pack with p, unpack with u.  [documented E s X n0 xdata c e]:
   c is X (e = None), or c is a copy made after the promise (index >= n0), of type u, whose content is
   convert (layout p) (layout u) xdata fresh.  [consume E f s tis] lets consumers with input types tis
   obtain their copy from promise f one after the other.
   The producer sets up the promise for its first local successor on a free repo entry; then ANY
   number of consumers with ANY input types, in any order, obtain exactly the documented copy, and
   all copies that existed before (the producer's included) are unchanged.  Holds for the code as it
   is (fx = false) and for the repaired variant.  This is the fan-out of the property restricted to
   consumers served by one promise: a single output dependency (possibly a range of successors), or
   several with the same [type] (next theorem). *)
Theorem C18_uniform_fanout : forall E fx s pk sk X rank to tis s1 cur s2 cs,
  (X < length (copies s))%nat -> repo_get s pk = None ->
  setup_local E fx s pk sk X rank None to = (s1, cur) ->
  consume E (length (futs s)) s1 tis = (s2, cs) -> Forall (fun c => c <> None) cs ->
  Forall2 (fun ti oc => exists c, oc = Some c /\
             documented E s2 X (length (copies s)) (cp_data (getc s X)) c (expected_local (cp_dtt (getc s X)) to ti)) tis cs
  /\ (forall i, (i < length (copies s))%nat -> getc s2 i = getc s i).
Proof. exact uniform_fanout. Qed.
Print Assumptions C18_uniform_fanout.

(* a further local successor reached through an output dependency with the same [type] is handed the
   same promise g (in its own repo entry or in the predecessor's): no new promise, no copy, no event *)
Theorem C18_same_type_same_promise : forall E fx s pk sk X rank to g,
  let d := cp_dtt (getc s X) in
  let t := if (to =? 0) || (to =? d) then d else to in
  repo_get s pk = Some g -> f_m0 (getf s g) = t -> f_m1 (getf s g) = t ->
  (t = d -> f_val (getf s g) = Some X) ->
  let '(s1, cur) := setup_local E fx s pk sk X rank (Some g) to in
  cur = Some g /\ copies s1 = copies s /\ futs s1 = futs s /\ evs s1 = evs s /\ err s1 = err s /\
  (repo_get s1 sk = Some g \/ repo s1 = repo (repo_set s pk g)).
Proof. exact setup_next_same. Qed.
Print Assumptions C18_same_type_same_promise.

(* whole programs: the property as stated is false of the code *)

(* FULL STATEMENT (not provable): for every well-formed program, every consumer whose producer
   declares [type = t] on the output dependency observes a copy whose elements of shape t are
   the producer's.  Refuted: in P_stale, C2 is fed through [type = UPPER_TILE] and receives the
   copy converted for C1 (type LOWER); 12 bytes of its upper triangle are not the producer's
   (they are whatever the arena returned).  Cause: the generated iterate_successors never resets
   data.data_future between output dependencies of different [type]. *)
Theorem C18_delivery_refuted :
  summary (P_stale false) lower3 upper3 =
  (0, [(O, 1); (3%nat, 2); (3%nat, 2)], [], [12; 13; 14; 15; 24; 25; 26; 27; 28; 29; 30; 31]).
Proof. vm_compute. reflexivity. Qed.
Print Assumptions C18_delivery_refuted.

(* ... and a program with [type = LOWER_TILE] followed by [type = DEFAULT] does not complete: the
   unfulfilled promise is triggered with a NULL execution stream (error code 1 = SIGSEGV) *)
Theorem C18_completion_refuted : err (run (P_crash false)) = 1.
Proof. vm_compute. reflexivity. Qed.
Print Assumptions C18_completion_refuted.

(* with the two repairs of notes/findings/C18-stale-promise.patch (model variant p_fixed = true)
   both programs deliver what the documentation promises *)
Theorem C18_repaired_witnesses :
  summary (P_stale true) lower3 upper3 = (0, [(O, 1); (3%nat, 2); (4%nat, 3)], [], []) /\
  summary (P_crash true) lower3 (shape_layout 4 3 1) = (0, [(O, 1); (3%nat, 2); (O, 1)], [], []).
Proof. split; vm_compute; reflexivity. Qed.
Print Assumptions C18_repaired_witnesses.

(* non-vacuity: the layouts of a 3 x 3 tile of 2-byte elements, a LOWER -> UPPER conversion into a
   fresh (0xEE) tile, and a state in which a promise exists and is fulfilled *)
Example C18_example :
  shape_layout 2 3 2 = [0; 1; 2; 3; 4; 5; 8; 9; 10; 11; 16; 17] /\
  shape_layout 2 3 5 = [6; 7; 12; 13; 14; 15] /\
  convert (shape_layout 2 3 2) (shape_layout 2 3 3) (zseq 1 18) (repeat 238 18)
    = [1; 2; 238; 238; 238; 238; 3; 4; 5; 6; 238; 238; 9; 10; 11; 12; 17; 18] /\
  (let E := mk_env 2 3 in
   let s0 := {| copies := [{| cp_dtt := 1; cp_rank := 0; cp_data := zseq 1 18 |}]; futs := []; repo := []; evs := []; err := 0 |} in
   let '(s1, cur) := setup_local E false s0 (0, 0, 0, 0, 0) (0, 1, 0, 0, 0) O 0 None 2 in
   let '(s2, c) := get_from_dep E s1 O 3 in
   cur = Some O /\ c = Some 1%nat /\ nconv s2 = 1%nat /\ f_nested (getf s2 O) = [1%nat] /\ f_val (getf s2 1) = Some 1%nat /\
   cp_data (getc s2 1) = [1; 2; 238; 238; 238; 238; 3; 4; 5; 6; 238; 238; 9; 10; 11; 12; 17; 18]).
Proof.
  vm_compute. repeat split; reflexivity.
Qed.
