(* C42 — Profiling traces read back exactly as written.
   Statements; the model is Prof/ProfDefs.v, the proofs are in
   Prof/ProfBytes.v (little-endian fields, C strings, the offset map),
   ProfWriter.v (buffer packing), ProfEvents.v (event records, chain walk),
   ProfTables.v (dictionary and thread table), ProfFile.v (several chains in one
   file, no event across two buffers, the key arithmetic), ProfWhole.v (whole
   profile), ProfDump.v (the infos kept in a thread entry, the copy loop before
   the repair), ProfMerge.v (the merged dictionary of the reader).

   Level: partial.  Modelled byte for byte: events buffers, dictionary and
   thread-table buffers (x86-64 little-endian layout of
   parsec_binary_profile.h), the "does it fit" tests and the chaining by file
   offsets of profiling.c, the walks of dbpreader.c.  Modelled on lists of
   entries: the one dictionary the reader keeps over the files of several
   ranks (read_dictionary, dico_map).  Not modelled: the file header (its
   offsets and counts are arguments of [decode]), the global info blocks,
   mmap/ftruncate/write, the I/O helper thread and the allocation of file
   offsets (any injective allocation [alloc chain index] is covered). *)
From PV Require Import Base.Tac Prof.ProfDefs Prof.ProfBytes Prof.ProfWriter Prof.ProfEvents Prof.ProfFile
  Prof.ProfTables Prof.ProfDump Prof.ProfWhole Prof.ProfMerge.
From Coq Require Import NArith.
Local Open Scope N_scope.

(* The whole profile: for every dictionary, every number of streams, every
   event sequence and info payload, every buffer size that fits each entry
   (dict_ok, stream_ok) and every injective allocation of file offsets, the
   reader applied to the file of the writer returns the dictionary (as the
   reader presents it: key_view), the thread table (streams that logged
   something, each with the infos that fit a thread buffer: kept_infos) and, for
   each of them, exactly the logged events in order. *)
Theorem C42_read_back : forall avail alloc d ss fuel,
  (forall c j c' j', alloc c j = alloc c' j' -> c = c' /\ j = j') ->
  (forall c j, alloc c j < NOOFF) ->
  avail < 4294967296 ->
  dict_ok avail d ->
  Forall (stream_ok (map k_ilen d) avail) ss ->
  (length (encode avail alloc d ss) <= fuel)%nat ->
  decode fuel (fun o => lookup o (encode avail alloc d ss))
         (alloc 0%nat 0%nat) (length d) (alloc 1%nat 0%nat) (length (stored ss))
  = Some (profile_view avail alloc d ss).
Proof. exact encode_read_back. Qed.
Print Assumptions C42_read_back.

(* The events of one stream are read back whatever the dictionary strings and
   the other streams look like (only this stream's events have to be
   well-formed and to fit a buffer). *)
Theorem C42_stream_events_read_back : forall avail alloc d ss i s fuel,
  (forall c j c' j', alloc c j = alloc c' j' -> c = c' /\ j = j') ->
  (forall c j, alloc c j < NOOFF) ->
  avail < 4294967296 ->
  nth_error ss i = Some s ->
  evs_ok (map k_ilen d) avail (s_events s) -> s_events s <> [] ->
  (length (encode avail alloc d ss) <= fuel)%nat ->
  dec_chain fuel (fun o => lookup o (encode avail alloc d ss)) (map k_ilen d) (alloc (2 + i)%nat 0%nat) = s_events s.
Proof. exact encode_stream_roundtrip. Qed.
Print Assumptions C42_stream_events_read_back.

(* Per-stream order: for any interleaving [tr] of the calls of n streams, what
   is read back for stream i is the subsequence of tr logged by i, in the
   order of tr. *)
Theorem C42_order_preserved : forall avail alloc d n hr infos tr i fuel,
  (forall c j c' j', alloc c j = alloc c' j' -> c = c' /\ j = j') ->
  (forall c j, alloc c j < NOOFF) ->
  avail < 4294967296 ->
  (i < n)%nat ->
  evs_ok (map k_ilen d) avail (proj i tr) -> proj i tr <> [] ->
  let ss := streams_of_trace n hr infos tr in
  (length (encode avail alloc d ss) <= fuel)%nat ->
  dec_chain fuel (fun o => lookup o (encode avail alloc d ss)) (map k_ilen d) (alloc (2 + i)%nat 0%nat) = proj i tr.
Proof.
  intros avail alloc d n hr infos tr i fuel Hinj Hlt Hav Hi Hok Hne ss Hfuel.
  apply (C42_stream_events_read_back avail alloc d ss i (mk_stream (hr i) (infos i) (proj i tr)) fuel); auto.
  apply nth_error_streams_of_trace, Hi.
Qed.
Print Assumptions C42_order_preserved.

(* No event across a buffer boundary: the events buffers of a stream are, for a
   split of the logged sequence into chunks, one buffer of exactly 25 + avail
   bytes per chunk: header, the events of the chunk back to back (at most avail
   bytes), zeros; buffer j sits at offset al j and points to al (j+1), the last
   one to (off_t)-1. *)
Theorem C42_no_event_across_buffers : forall il avail al evs,
  evs_ok il avail evs -> evs <> [] ->
  exists cs, concat cs = evs /\
    enc_events il avail al evs =
      map (fun j => (al j, ser_buffer avail (al j) (next_of al (length cs) j)
                             (N.of_nat (length (nth j cs []))) BT_EVENTS (flat ser_event (nth j cs []))))
          (seq 0 (length cs)) /\
    Forall (fun c => c <> [] /\ N.of_nat (length (flat ser_event c)) <= avail) cs /\
    Forall (fun kv => length (snd kv) = (25 + N.to_nat avail)%nat) (enc_events il avail al evs).
Proof. exact enc_events_layout. Qed.
Print Assumptions C42_no_event_across_buffers.

(* START_KEY / END_KEY: (dictionary index, start|end) <-> event key is a
   bijection, BASE_KEY / KEY_IS_END being the inverse *)
Theorem C42_key_pairing_bijective :
  (forall k b, base_key (key_of k b) = k /\ key_is_end (key_of k b) = b /\ key_is_start (key_of k b) = negb b) /\
  (forall key, key_of (base_key key) (key_is_end key) = key).
Proof. split; [exact key_of_base|exact base_key_of]. Qed.
Print Assumptions C42_key_pairing_bijective.
(* ... and survives the (uint16_t) cast of the event record for every index below 2^15 *)
Theorem C42_key_fits_uint16 : forall k b, k < 32768 -> key_of k b mod 65536 = key_of k b.
Proof.
  intros k b Hk. apply N.mod_small. unfold key_of, end_key, start_key. destruct b; lia.
Qed.
Print Assumptions C42_key_fits_uint16.

(* the record logged by a call whose info area has the declared length
   satisfies the hypothesis ev_ok of the theorems above, whatever flags the
   caller passes (since the repair 27f62af the stored HAS_INFO bit is the one
   the space was reserved with) *)
Theorem C42_logged_event_ok : forall il c ts, call_ok il c -> ev_ok il (log_event c ts).
Proof. exact log_event_ok. Qed.
Print Assumptions C42_logged_event_ok.

(* Before the repair (finding hasinfo-flag-null-info): a call that passed
   PARSEC_PROFILING_EVENT_HAS_INFO with a NULL info pointer made the writer
   reserve 24 bytes (EVENT_LENGTH looks at the pointer) but store the flag; the
   reader (DBP_EVENT_LENGTH looks at the flag) then skipped info_length more
   bytes and misread the following events.  The same calls are read back with
   the repaired [log_event]. *)
Definition bad_alloc (j : nat) : N := 4096 * (N.of_nat j + 2).
Definition bad_calls : list call :=
  [ mk_call 2 100 7 None 1;      (* HAS_INFO, no info *)
    mk_call 3 101 7 None 0;
    mk_call 2 102 7 (Some [1;2;3;4;5;6;7;8]) 0 ].
Theorem C42_has_info_flag_without_info_prefix_refuted :
  let il := [0; 8] in
  let before := map (fun c => log_event_prefix c 5) bad_calls in
  let after := map (fun c => log_event c 5) bad_calls in
  Forall (call_ok il) bad_calls /\
  dec_chain 10 (fun o => lookup o (enc_events il 100 bad_alloc before)) il (bad_alloc 0%nat) <> before /\
  dec_chain 10 (fun o => lookup o (enc_events il 100 bad_alloc after)) il (bad_alloc 0%nat) = after.
Proof.
  cbv zeta. repeat apply conj.
  - repeat constructor.
  - vm_compute. discriminate.
  - vm_compute. reflexivity.
Qed.
Print Assumptions C42_has_info_flag_without_info_prefix_refuted.

(* Per-stream info blocks (dump_thread after the repair 54d29e4).  An info that
   does not fit the thread buffer is omitted; the reader then shows the stream
   with its events and with the infos that fit, in order (profile_view /
   kept_infos in C42_read_back).  Nothing is omitted from an entry that fits: *)
Theorem C42_infos_kept_when_entry_fits : forall avail infos,
  156 + infos_sz infos < avail -> kept_infos avail infos = infos /\ omits avail infos = false.
Proof. exact kept_infos_all_when_fit. Qed.
Print Assumptions C42_infos_kept_when_entry_fits.
(* an info that cannot fit any buffer is never stored, the others keep their order
   (kept_infos is a subsequence) *)
Theorem C42_oversized_info_omitted : forall avail infos kv,
  avail <= 156 + info_sz kv -> ~ In kv (kept_infos avail infos).
Proof. intros avail infos kv H. apply (too_large_omitted avail infos 156 kv H), N.le_refl. Qed.
Print Assumptions C42_oversized_info_omitted.
(* the infos written do not depend on where the entry lands in the buffer, and
   the entry has the length thread_size() announced (the switch test of the
   thread table uses it) *)
Theorem C42_kept_infos_position_independent : forall avail infos p,
  p + thread_size_from avail 156 infos < avail ->
  kept_from avail (p + 156) infos = kept_infos avail infos /\
  156 + infos_sz (kept_infos avail infos) = thread_size_from avail 156 infos.
Proof.
  intros avail infos p H. split; [apply kept_position_independent, H|symmetry; apply thread_size_kept].
Qed.
Print Assumptions C42_kept_infos_position_independent.
(* since the repair 73717d1 thread_size() uses the test of the copy loop: an
   entry always ends before the end of a buffer (no hypothesis on the infos is
   needed in stream_ok) ... *)
Theorem C42_thread_entry_ends_before_buffer_end : forall avail infos,
  156 < avail -> thread_size_from avail 156 infos < avail.
Proof. intros avail infos. apply thread_size_lt. Qed.
Print Assumptions C42_thread_entry_ends_before_buffer_end.
(* ... before it (finding thread-entry-exactly-full) an info could make the entry
   exactly as large as the buffer: dump_thread then moved the entry to a new
   buffer even from position 0, leaving a buffer that announces no thread, out
   of which the reader parsed one *)
Theorem C42_thread_entry_exactly_full_prefix_refuted :
  exists avail infos, 156 < avail /\ thread_size_prefix avail 156 infos = avail /\
                      thread_size_from avail 156 infos < avail.
Proof.
  exists 300, [([98; 105; 103], repeat 118 130%nat)].
  repeat apply conj; vm_compute; reflexivity.
Qed.
Print Assumptions C42_thread_entry_exactly_full_prefix_refuted.
(* Before the repair (finding stream-info-too-large) the copy loop did not
   advance past an info that did not fit: the dump never returned.  Where the
   old loop returned, the repaired loop copies exactly the same infos. *)
Theorem C42_repaired_loop_agrees_with_prefix : forall avail infos pos p,
  copy_infos_prefix avail pos infos = Some p ->
  kept_from avail pos infos = infos /\ p = pos + infos_sz infos.
Proof. exact repaired_loop_agrees_with_prefix. Qed.
Print Assumptions C42_repaired_loop_agrees_with_prefix.
Theorem C42_dump_thread_info_loop_prefix_refuted :
  exists avail ss, Forall (fun s => evs_ok [0] avail (s_events s)) ss /\
    dump_terminates_prefix avail ss = false /\
    map (fun s => kept_infos avail (s_infos s)) ss = [[]].       (* repaired: returns, the info is omitted *)
Proof.
  exists 300, [mk_stream [115; 48] [([98; 105; 103], repeat 118 200%nat)] [log_event (mk_call 0 1 1 None 0) 1]].
  repeat apply conj; [|vm_compute; reflexivity|vm_compute; reflexivity].
  repeat constructor; vm_compute; try discriminate; auto.
Qed.
Print Assumptions C42_dump_thread_info_loop_prefix_refuted.

(* Several files / merged dictionary (read_dictionary, dico_map).  For every list
   of per-file dictionaries (any keys, any registration order, duplicates after
   truncation included), opened in any order: through the map of file f, local
   entry j is presented with the name, info length and convertor file f wrote
   (the attributes are those of the first equal entry met) ... *)
Theorem C42_merged_dictionary_returns_written_key : forall files merged maps f local,
  merge_files [] files = (merged, maps) -> nth_error files f = Some local ->
  exists mp, nth_error maps f = Some mp /\ length (presented merged mp) = length local /\
    forall j k, nth_error local j = Some k ->
      let p := nth j (presented merged mp) kent0 in
      k_name p = k_name k /\ k_ilen p = k_ilen k /\ cstr (k_conv p) = cstr (k_conv k).
Proof.
  intros files merged maps f local Hm Hf.
  destruct (merge_files_map files merged maps f local Hm Hf) as (mp & Hmp & Hok). exists mp. split; [exact Hmp|].
  unfold presented. split; [rewrite map_length; symmetry; apply (Forall2_length _ _ _ Hok)|].
  intros j k Hj. cbv zeta. destruct (Forall2_nth_error _ _ _ _ _ Hok Hj) as (i & Hi & x & Hx & He).
  rewrite (nth_error_nth _ _ _ (map_nth_error _ _ _ Hi)), (nth_error_nth merged i kent0 Hx).
  destruct (key_eqb_fields k x He) as (Ha & Hb & Hc). auto.
Qed.
Print Assumptions C42_merged_dictionary_returns_written_key.
(* ... and the events of file f decoded with the merged dictionary are those
   decoded with its own dictionary ([decode] = decode_keys then decode_rest,
   ProfMerge.decode_split), to which C42_read_back applies *)
Theorem C42_events_through_merged_dictionary : forall files merged maps f local fuel file toff tn,
  merge_files [] files = (merged, maps) -> nth_error files f = Some local ->
  exists mp, nth_error maps f = Some mp /\
    decode_rest fuel file toff tn (presented merged mp) = decode_rest fuel file toff tn local.
Proof.
  intros files merged maps f local fuel file toff tn Hm Hf.
  destruct (presented_ilens files merged maps f local Hm Hf) as (mp & Hmp & Hil).
  exists mp. split; [exact Hmp|]. unfold decode_rest. rewrite Hil. reflexivity.
Qed.
Print Assumptions C42_events_through_merged_dictionary.

(* non-vacuity: a profile with two dictionary entries and three streams (one
   silent) in buffers of 25 + 300 bytes: the dictionary, the thread table and
   stream 0 each need more than one buffer *)
Definition ex_alloc (c j : nat) : N := 325 * (N.of_nat c + 16 * N.of_nat j + 1).
Definition ex_str (n : nat) (b : N) : list N := repeat b n.
Definition ex_dict : list kent :=
  [ mk_kent (ex_str 3 78) (ex_str 12 48) [] 0;
    mk_kent (ex_str 5 107) (ex_str 7 97) (ex_str 4 99) 100 ].
Definition ex_ev (key id : N) (info : bool) : event :=
  log_event (mk_call key id 7 (if info then Some (ex_str 100 (id mod 256)) else None) 2) (id + 1).
Definition ex_streams : list stream :=
  [ mk_stream (ex_str 2 115) [(ex_str 2 105, ex_str 3 118)]
      [ ex_ev 2 1 true; ex_ev 3 2 false; ex_ev 2 3 true;
        ex_ev 3 4 true; ex_ev 2 5 false; ex_ev 3 18446744073709551615 false; ex_ev 2 7 true;
        ex_ev 3 8 false ];
    mk_stream (ex_str 3 116) [] [];
    mk_stream (ex_str 2 117) [] [ ex_ev 2 1 false ] ].
Example C42_example :
  dict_ok 300 ex_dict /\ Forall (stream_ok (map k_ilen ex_dict) 300) ex_streams /\
  length (encode 300 ex_alloc ex_dict ex_streams) = 8%nat /\
  decode 8 (fun o => lookup o (encode 300 ex_alloc ex_dict ex_streams))
         (ex_alloc 0 0) 2 (ex_alloc 1 0) 2 = Some (profile_view 300 ex_alloc ex_dict ex_streams).
Proof.
  repeat apply conj.
  - unfold dict_ok, key_ok, nonul. repeat constructor; vm_compute; try discriminate; auto.
  - unfold stream_ok, evs_ok, ev_ok, nonul. repeat constructor; vm_compute; try discriminate; auto.
  - vm_compute. reflexivity.
  - vm_compute. reflexivity.
Qed.
