(* C43 - Accelerator tasks see the newest data.

   FULL STATEMENT (properties.jsonl): a task executed on an accelerator reads the newest version of each input,
   its writes become visible to every later reader on any device, and device memory holding data needed by a
   pending task is never evicted; for all task placements and eviction orders.

   What is established about the faithful model (GPUDefs.v = device_gpu.c + data.c as driven by DTD with one task in
   flight), for every state / task sequence / capacity / number of devices:
     - eviction clause: PROVED (C43_eviction_victim_idle_clean, C43_reserve_spares_busy_and_dirty):
       the reservation pass only evicts copies of the clean list with no reader that no earlier flow of the running task
       names; copies with readers, copies outside the clean list (dirty list, copies held by running tasks) and the copies
       of all the flows of the task are still attached when it ends; C43_capacity_respected: the zone is never over-committed;
     - "reads the newest version / writes visible to later readers / newest version never lost": REFUTED in the model and,
       with the same inputs, on the real code (C43_*_refuted below; notes/findings/C43-*.md):
         stale owner_device after an eviction, a read by the owner demotes the dirty copy which is then evicted,
         data_in of a task inserted later is the stale host copy, an older SHARED copy on a third device,
         CPU writers inserted with parsec_dtd_insert_task do not bump the version;
     - value clause, what is proved: C43_stage_in_moves_source_value (a kernel reads the memory of the source chosen by the
       stage-in when a copy is made, its own tile otherwise).  NOT proved: "reads see the last writer" for the programs
       obeying the "through the host" discipline (GPUSpec.through_host: every device write with PUSHOUT, a CPU task-class
       write between a device write of a tile and its next device use), under which the unchanged code is right on every
       generated input: that statement is exercised by the differential run and the oracle only (missing: the invariant
       relating versions, coherency states and memory contents through start/end_transfer_ownership).  *)
From Coq Require Import ZArith List Bool Lia.
From PV Require Import Coherency.CoherencyDefs GPU.GPUDefs GPU.GPUSpec GPU.GPUProofs GPU.GPUPushout.
Import ListNotations.
Local Open Scope Z_scope.

Theorem C43_eviction_victim_idle_clean : forall fuel st g earlier st' e,
  evict_loop fuel st g earlier = Some (st', e) ->
  In e (lru (get_dev st g)) /\ ~ In e earlier /\
  (exists c, copy_at st e g = Some c /\ rdr c = 0) /\
  dats st' = dats (set_slot st e g None) /\ cap st' = cap st /\
  owned (get_dev st' g) = owned (get_dev st g) /\
  (forall x, In x (lru (get_dev st' g)) -> In x (lru (get_dev st g))).
Proof. exact evict_loop_spec. Qed.

(* parsec_device_data_reserve_space, when it succeeds:
   - every evicted datum came from the clean list gpu_mem_lru of the device;
   - every flow of the task holds a copy on the device at the end of the pass (no flow lost its copy to another one);
   - a copy with readers != 0 is still there, unchanged; so is every copy that was not in the clean list
     (copies of the dirty list, copies held by running tasks);
   - the dirty list and the copies on the other devices are untouched. *)
Theorem C43_reserve_spares_busy_and_dirty : forall st g fl st' ev, reserve st g fl = Some (st', ev) ->
  (forall e, In e ev -> In e (lru (get_dev st g))) /\
  (forall f, In f fl -> slot_ok st (fd f) g -> copy_at st' (fd f) g <> None) /\
  (forall d c, copy_at st d g = Some c -> rdr c <> 0 -> copy_at st' d g = Some c) /\
  (forall d c, copy_at st d g = Some c -> ~ In d (lru (get_dev st g)) -> copy_at st' d g = Some c) /\
  owned (get_dev st' g) = owned (get_dev st g) /\
  (forall d i, i <> g -> copy_at st' d i = copy_at st d i).
Proof.
  intros st g fl st' ev H. destruct (reserve_from_spec g fl st [] [] st' ev H) as (HR & _ & Hf & Hv & _).
  split; [|split; [exact Hf|split; [|split; [|split]]]].
  - intros e He. destruct (Hv e He) as [[]|Hx]. exact Hx.
  - intros d c Hc Hr. apply (ri_kept _ _ _ HR d c Hc). now left.
  - intros d c Hc Hn. apply (ri_kept _ _ _ HR d c Hc). now right.
  - apply (ri_owned _ _ _ HR).
  - apply (ri_other _ _ _ HR).
Qed.

(* for every program, capacity and number of devices: after every task of the run, no device holds more copies
   than its zone has tiles (device 0 is the host and is not a zone: it holds a copy of every tile, which is why
   this is not an instance of run_from_cap_ok) *)
Theorem C43_capacity_respected : forall nd ngpu c direct ts tr g,
  In tr (fst (grun nd ngpu c direct ts)) -> (1 <= g)%nat -> (resident (tr_st tr) g <= c)%nat.
Proof.
  intros nd ngpu c direct ts tr g Hin Hg.
  assert (H0 : (resident (init_state nd ngpu c) g <= cap (init_state nd ngpu c))%nat)
    by (rewrite resident_init by exact Hg; lia).
  destruct (run_from_zone direct g ts _ 0%nat H0 tr Hin) as (H & Hc). rewrite Hc in H. exact H.
Qed.

(* what a kernel reads is decided by the stage-in alone: the tile receives the content of the chosen source when a copy is
   enqueued, and no memory changes otherwise (all states, all flows) *)
Theorem C43_stage_in_moves_source_value : forall st g f st' s cps, stage_in st g f = Some (st', s, cps) ->
  (g < length (vals (get_dat st (fd f))))%nat ->
  (cps = [] /\ same_vals st' st) \/
  (cps = [(fd f, s, g)] /\ val_at st' (fd f) g = val_at st (fd f) s /\
   forall e i, (e <> fd f \/ i <> g) -> val_at st' e i = val_at st e i).
Proof.
  intros st g f st' s cps H Hg. destruct (stage_in_cases _ _ _ _ _ _ H) as (sta & Hq & [[-> ->]|[-> ->]]).
  - left. split; [reflexivity|now apply quiet_vals].
  - right. split; [reflexivity|]. pose proof (quiet_vals _ _ Hq) as Hv. destruct Hq as [_ Hm].
    apply Nat.ltb_lt in Hg. split.
    + rewrite val_at_set_val, !Nat.eqb_refl, Hm, Hg. apply Hv.
    + intros e i Hne. rewrite val_at_set_val.
      destruct Hne as [Hne|Hne]; apply Nat.eqb_neq in Hne; rewrite Hne; cbn [andb]; rewrite ?andb_false_r; apply Hv.
Qed.

(* parsec_gpu_task_update_pushout (the walk of iterate_successors with parsec_gpu_pushout_remote_successor, including its
   early STOP) sets the pushout bit of flow i exactly when the upper layer asked for it or the flow is written and one of its
   successors lives on another rank - for every list of successors of every flow, in every enumeration order *)
Theorem C43_pushout_decision : forall fl succs i, memb i (pushout_bits fl succs) = needs_pushout fl succs i.
Proof. exact pushout_bits_spec. Qed.
(* then kernel_pop, the device-to-host copies and kernel_epilog leave the host copy - the copy the communication engine
   sends, MPI being unable to send from device memory - with the version and the content of the device copy *)
Theorem C43_remote_successor_served_from_newest : forall st g fl succs i f c0 cg,
  (1 <= g)%nat -> NoDup (map fd fl) ->
  nth_error fl i = Some f -> writes (fm f) = true -> has_remote (nth i succs []) = true ->
  copy_at st (fd f) 0 = Some c0 -> copy_at st (fd f) g = Some cg ->
  (0 < length (vals (get_dat st (fd f))))%nat ->
  let st' := post_kernel st g fl succs in
  exists c0' cg', copy_at st' (fd f) 0 = Some c0' /\ copy_at st' (fd f) g = Some cg' /\
                  ver c0' = ver cg /\ ver cg' = ver cg /\ cst c0' = SHARED /\
                  val_at st' (fd f) 0 = val_at st (fd f) g /\ val_at st' (fd f) g = val_at st (fd f) g.
Proof. exact remote_successor_served_from_newest. Qed.

(* refutations of the value clauses; the witnesses are replayed on the real code (corpus/C43) *)
Definition R d := mkflow d MR false.
Definition X d := mkflow d MX false.
Definition Xp d := mkflow d MX true.
Definition G g fl := mktask (S g) fl.
Definition Cpu fl := mktask 0 fl.

(* one device of 2 tiles, every device write asks for PUSHOUT: tile 0 is written on the device, evicted, read again
   on the same device: owner_device still names the device, no transfer is made into the new copy *)
Definition w_stale_owner := [G 0 [Xp 0]; G 0 [R 1]; G 0 [R 2]; G 0 [R 0]].
Theorem C43_reads_see_last_writer_refuted :
  exists nd ngpu c ts, contract ts = true /\ all_pushout ts = true /\ distinct_flows ts = true /\
                       reads_ok nd ngpu c false ts = false.
Proof. exists 3%nat, 1%nat, 2%nat, w_stale_owner. vm_compute. repeat split. Qed.

(* a read by the device that owns a dirty copy demotes it to SHARED; it joins the clean list, is evicted without
   write-back, and the only newest version is gone *)
Definition w_dirty_lost := [G 0 [X 0]; G 0 [R 0]; G 0 [R 1]; G 0 [R 2]; G 0 [Xp 0]].
Theorem C43_newest_version_kept_refuted :
  exists nd ngpu c ts k, contract ts = true /\ distinct_flows ts = true /\
     holds_newest (state_after nd ngpu c false (firstn k ts)) (mem_after nd (firstn k ts)) = false /\
     reads_ok nd ngpu c false ts = false.
Proof. exists 3%nat, 1%nat, 2%nat, w_dirty_lost, 4%nat. vm_compute. repeat split. Qed.

(* the source of a stage-in is not the newest version: tile 0 was written on device 1 (no PUSHOUT, next user is a
   device task: allowed), the reader on device 2 is fed from the host copy *)
Definition w_other_device := [G 0 [X 0]; G 1 [R 0]; G 0 [Xp 0]].
Theorem C43_stage_in_source_newest_refuted :
  exists nd ngpu c ts tr,
     contract ts = true /\ nth_error (fst (grun nd ngpu c false ts)) 1 = Some tr /\
     tr_copies tr = [(0%nat, 0%nat, 2%nat)] /\
     (let st1 := state_after nd ngpu c false (firstn 1 ts) in
      let m1 := mem_after nd (firstn 1 ts) in
      val_at st1 0 0 <> nth 0 m1 0 /\ val_at st1 0 1 = nth 0 m1 0) /\
     reads_ok nd ngpu c false ts = false.
Proof.
  exists 1%nat, 2%nat, 2%nat, w_other_device. eexists. vm_compute.
  split; [reflexivity|]. split; [reflexivity|]. split; [reflexivity|]. split; [split; [discriminate|reflexivity]|reflexivity].
Qed.

(* two devices, every write with PUSHOUT: an older SHARED copy on the device that did not write is used as is *)
Definition w_stale_shared := [G 1 [R 0]; G 0 [Xp 0]; G 1 [R 0]].
Theorem C43_reads_refuted_stale_shared :
  exists nd ngpu c ts, contract ts = true /\ all_pushout ts = true /\ reads_ok nd ngpu c false ts = false.
Proof. exists 1%nat, 2%nat, 2%nat, w_stale_shared. vm_compute. repeat split. Qed.

(* CPU writer inserted with parsec_dtd_insert_task (its body is the hook: no version bump): the device keeps its copy *)
Definition w_cpu_direct := [G 0 [Xp 0]; Cpu [X 0]; G 0 [R 0]].
Theorem C43_reads_refuted_cpu_direct :
  exists nd ngpu c ts, contract ts = true /\ all_pushout ts = true /\
     reads_ok nd ngpu c true ts = false /\ reads_ok nd ngpu c false ts = true.
Proof. exists 1%nat, 1%nat, 2%nat, w_cpu_direct. vm_compute. repeat split. Qed.

Print Assumptions C43_eviction_victim_idle_clean.
Print Assumptions C43_reserve_spares_busy_and_dirty.
Print Assumptions C43_capacity_respected.
Print Assumptions C43_stage_in_moves_source_value.
Print Assumptions C43_pushout_decision.
Print Assumptions C43_remote_successor_served_from_newest.
Print Assumptions C43_reads_see_last_writer_refuted.
Print Assumptions C43_newest_version_kept_refuted.
Print Assumptions C43_stage_in_source_newest_refuted.
Print Assumptions C43_reads_refuted_stale_shared.
Print Assumptions C43_reads_refuted_cpu_direct.

(* non-vacuity.  A reservation pass that does evict: device 1 of 2 tiles holds tiles 1 and 2 in its clean list, a task naming
   tiles 0 and 3 evicts both, in list order *)
Example C43_reserve_nonvacuous :
  let st := state_after 4 1 2 false [G 0 [R 1]; G 0 [R 2]] in
  lru (get_dev st 1) = [1%nat; 2%nat] /\
  exists st', reserve st 1 [R 0; R 3] = Some (st', [1%nat; 2%nat]).
Proof. vm_compute. split; [reflexivity|]. eexists. reflexivity. Qed.
(* a local successor enumerated before a remote one (the layout {0,1}), next to a flow with local successors only:
   the first flow is pushed out, the second is not *)
Example C43_pushout_nonvacuous :
  let fl := [mkflow 0 MX false; mkflow 1 MX false] in
  let succs := [[0%nat; 1%nat]; [0%nat; 0%nat]] in
  map fpo (with_pushout fl succs) = [true; false] /\
  (let tr := fst (prun_s 2 1 2 [(mktask 1 fl, succs)]) in
   map (fun t => (val_at (tr_st t) 0 0 =? val_at (tr_st t) 0 1, val_at (tr_st t) 1 0 =? val_at (tr_st t) 1 1)) tr
   = [(true, false)]).
Proof. vm_compute. split; reflexivity. Qed.
(* a program under memory pressure that obeys the "through the host" discipline and is executed correctly *)
Example C43_through_host_nonvacuous :
  let ts := [G 0 [R 0; R 1]; G 0 [Xp 2]; Cpu [X 2]; G 0 [R 3; R 2]; G 0 [R 0; Xp 1]; Cpu [X 1]; G 0 [R 1; R 2]] in
  through_host ts = true /\ contract ts = true /\ reads_ok 4 1 2 false ts = true /\
  tr_evicted (nth 3 (fst (grun 4 1 2 false ts)) (mktres [] [] [] (init_state 4 1 2))) <> [].
Proof. vm_compute. repeat split. discriminate. Qed.
