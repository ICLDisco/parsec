(* C23 — PTG task keys identify task instances uniquely.
   The statements, each taken from PTG/KeyProofs.v or derived from its theorems in a few lines;
   the refutations and the example exhibit their witnesses here.

   make_key  (PTGDefs.v) is the function parsec-ptgpp generates (jdf_generate_hashfunction_for):
             Σ (v_i − min_i) · Π_{j<i} range_j  over the parameters in the order of the LOCALS,
             as an uint64 (mod 2^64), with min_i / range_i as computed by the generated
             internal_init (min starts at 0x7fffffff, max at 0; updated with min(lo,hi) /
             max(lo,hi) at every visit of the loop header; a parameter that is not a range
             has min 0 and range 1).
   key_print is the inversion of jdf_generate_deps_key_functions:  v_i = key % range_i + min_i,
             key /= range_i, for the parameters in the order of the LOCALS.
   instances_of G c is the execution space of the class (environments of all locals).
   range_product G c = Π range_i;  the no-overflow hypothesis is range_product <= 2^64. *)
From Coq Require Import ZArith List.
From PV Require Import Base.Tac PTG.PTGDefs PTG.KeyProofs.
Import ListNotations.
Local Open Scope Z_scope.

(* two instances of a class of a well-formed program never receive the same key *)
Theorem C23_keys_injective : forall P ci c, wf_program P = true -> nth_class P ci = Some c ->
  params_are_ranges c -> range_product (p_globals P) c <= two64 ->
  forall e1 e2, In e1 (instances_of (p_globals P) c) -> In e2 (instances_of (p_globals P) c) ->
    make_key (p_globals P) c e1 = make_key (p_globals P) c e2 -> e1 = e2.
Proof.
  intros P ci c Hwf Hc. apply make_key_injective. exact (wf_class_ranges P ci c Hwf Hc).
Qed.
Print Assumptions C23_keys_injective.

(* in terms of the identifiers (class header parameters): different parameters, different keys *)
Theorem C23_distinct_params_distinct_keys : forall P ci c, wf_program P = true -> nth_class P ci = Some c ->
  params_are_ranges c -> range_product (p_globals P) c <= two64 ->
  forall e1 e2, In e1 (instances_of (p_globals P) c) -> In e2 (instances_of (p_globals P) c) ->
    params_of c e1 <> params_of c e2 -> make_key (p_globals P) c e1 <> make_key (p_globals P) c e2.
Proof.
  intros P ci c Hwf Hc Hpr Hov e1 e2 H1 H2 Hne Hk. apply Hne. f_equal.
  eapply C23_keys_injective; eassumption.
Qed.
Print Assumptions C23_distinct_params_distinct_keys.

(* without any hypothesis on overflow or on the shape of the parameters (a parameter may be
   defined by an expression): the unbounded key Σ (v_i − min_i) Π range_j is injective *)
Theorem C23_unbounded_key_injective : forall P ci c, wf_program P = true -> nth_class P ci = Some c ->
  forall e1 e2, In e1 (instances_of (p_globals P) c) -> In e2 (instances_of (p_globals P) c) ->
    make_keyZ (p_globals P) c e1 = make_keyZ (p_globals P) c e2 -> e1 = e2.
Proof. intros P ci c Hwf Hc. apply keyZ_injective. exact (wf_class_ranges P ci c Hwf Hc). Qed.
Print Assumptions C23_unbounded_key_injective.

(* the key stays below the product of the ranges (so the hypothesis above is about Π range_i only) *)
Theorem C23_key_below_range_product : forall P ci c, wf_program P = true -> nth_class P ci = Some c ->
  params_are_ranges c ->
  forall e, In e (instances_of (p_globals P) c) -> 0 <= make_keyZ (p_globals P) c e < range_product (p_globals P) c.
Proof. intros P ci c Hwf Hc. apply keyZ_bound. exact (wf_class_ranges P ci c Hwf Hc). Qed.
Print Assumptions C23_key_below_range_product.

(* key_print inverts make_key: it recomputes every local of the instance, hence prints the
   instance's parameter values (in the order of the locals) *)
Theorem C23_decode_make_key : forall P ci c, wf_program P = true -> nth_class P ci = Some c ->
  params_are_ranges c -> range_product (p_globals P) c <= two64 ->
  forall e, In e (instances_of (p_globals P) c) -> decode (p_globals P) c (make_key (p_globals P) c e) = e.
Proof.
  intros P ci c Hwf Hc. apply decode_make_key. exact (wf_class_ranges P ci c Hwf Hc).
Qed.
Print Assumptions C23_decode_make_key.

Theorem C23_key_print_names_instance : forall P ci c, wf_program P = true -> nth_class P ci = Some c ->
  params_are_ranges c -> range_product (p_globals P) c <= two64 ->
  forall e, In e (instances_of (p_globals P) c) ->
    key_print (p_globals P) c (make_key (p_globals P) c e) = params_in_local_order c e.
Proof.
  intros P ci c Hwf Hc. apply key_print_names_instance. exact (wf_class_ranges P ci c Hwf Hc).
Qed.
Print Assumptions C23_key_print_names_instance.

(* The header of a class may permute the definition order of its parameters in ANY way (c_params is an
   arbitrary list of positions): make_key and key_print work in definition order, `to_header_order c` is the
   permutation to the header order, and composing it with key_print gives the instance's header parameters. *)
Theorem C23_key_print_any_header_permutation : forall P ci c, wf_program P = true -> nth_class P ci = Some c ->
  params_are_ranges c -> range_product (p_globals P) c <= two64 ->
  forall e, In e (instances_of (p_globals P) c) ->
    to_header_order c (key_print (p_globals P) c (make_key (p_globals P) c e)) = params_of c e.
Proof.
  intros P ci c Hwf Hc. apply key_print_header_view. exact (wf_class_limits P ci c Hwf Hc).
Qed.
Print Assumptions C23_key_print_any_header_permutation.

(* the full statement ("the printed form names the instance's parameter values, including
   parameters defined by expressions") is FALSE of the faithful model in two ways; both witnesses
   are replayed on the real generated code by checks/C23.py (notes/findings/C23-*.md):

   (1) a parameter defined by an expression (T(i, k): i = 0..2, k = i+1) is printed as 0 and
       the key is still injective;
   (2) the parameters are printed in the order of the local definitions, not of the header
       (T(m, n) with n defined before m prints T(n, m)). *)
Definition mk_class (ls : list local) (ps : list nat) : tclass :=
  {| c_locals := ls; c_params := ps; c_place := [Ec 0]; c_flows := []; c_prio := None; c_count := false |}.
Definition ex_derived : tclass :=
  mk_class [Lrange (Ec 0) (Ec 2) (Ec 1); Ldef (Eb Oadd (El 0) (Ec 1))] [0%nat; 1%nat].
Theorem C23_key_print_derived_parameter_refuted :
  exists P c e, wf_program P = true /\ nth_class P 0 = Some c /\ In e (instances_of (p_globals P) c)
    /\ range_product (p_globals P) c <= two64
    /\ key_print (p_globals P) c (make_key (p_globals P) c e) <> params_in_local_order c e.
Proof.
  exists {| p_globals := []; p_classes := [ex_derived] |}, ex_derived, [2; 3].
  vm_compute. repeat split; try discriminate; auto 10.
Qed.
Print Assumptions C23_key_print_derived_parameter_refuted.

Definition ex_permuted : tclass :=
  mk_class [Lrange (Ec 0) (Ec 2) (Ec 1); Lrange (Ec 5) (Eb Oadd (Ec 5) (El 0)) (Ec 1)] [1%nat; 0%nat].
Theorem C23_key_print_header_order_refuted :
  exists P c e, wf_program P = true /\ nth_class P 0 = Some c /\ In e (instances_of (p_globals P) c)
    /\ params_are_ranges c /\ range_product (p_globals P) c <= two64
    /\ key_print (p_globals P) c (make_key (p_globals P) c e) <> params_of c e.
Proof.
  exists {| p_globals := []; p_classes := [ex_permuted] |}, ex_permuted, [2; 6].
  split; [vm_compute; reflexivity|]. split; [reflexivity|]. split; [vm_compute; auto 10|].
  split.
  - intros pos e Hn. destruct pos as [|[|pos]]; cbn in Hn; try discriminate. destruct pos; discriminate.
  - split; [vm_compute; discriminate|]. vm_compute. discriminate.
Qed.
Print Assumptions C23_key_print_header_order_refuted.

(* non-vacuity: negative lower bound, step 2, triangular second parameter, a derived local
   in between:   T(k, j):  k = -3 .. 3 .. 2;  h = k + 3;  j = 0 .. h / 2          (k ∈ {-3,-1,1,3}) *)
Definition ex_keys : tclass :=
  mk_class [Lrange (Ec (-3)) (Ec 3) (Ec 2); Ldef (Eb Oadd (El 0) (Ec 3));
            Lrange (Ec 0) (Eb Odiv (El 1) (Ec 2)) (Ec 1)] [0%nat; 2%nat].
Example C23_example :
  let P := {| p_globals := []; p_classes := [ex_keys] |} in
  wf_program P = true
  /\ map (params_of ex_keys) (instances_of [] ex_keys)
     = [[-3;0]; [-1;0]; [-1;1]; [1;0]; [1;1]; [1;2]; [3;0]; [3;1]; [3;2]; [3;3]]
  /\ minmax_at [] (c_locals ex_keys) 0 = (-3, 7) /\ minmax_at [] (c_locals ex_keys) 2 = (0, 4)
  /\ range_product [] ex_keys = 28
  /\ map (make_key [] ex_keys) (instances_of [] ex_keys) = [0; 2; 9; 4; 11; 18; 6; 13; 20; 27]
  /\ map (fun e => key_print [] ex_keys (make_key [] ex_keys e)) (instances_of [] ex_keys)
     = map (params_of ex_keys) (instances_of [] ex_keys).
Proof. vm_compute. repeat split. Qed.

(* all six header orders of three range parameters with different sizes and lower bounds
   (a = -3..4, b = 2..4, c = 0..1 defined in this order): the key ignores the header, the
   header view of the printed key is the instance *)
Definition ex_perm (ps : list nat) : tclass :=
  mk_class [Lrange (Ec (-3)) (Ec 4) (Ec 1); Lrange (Ec 2) (Ec 4) (Ec 1); Lrange (Ec 0) (Ec 1) (Ec 1)] ps.
Example C23_all_header_permutations :
  forallb (fun ps =>
     forallb (fun e => andb (make_key [] (ex_perm ps) e =? make_key [] (ex_perm [0;1;2]%nat) e)
                            (zlist_eqb (to_header_order (ex_perm ps) (key_print [] (ex_perm ps) (make_key [] (ex_perm ps) e)))
                                       (params_of (ex_perm ps) e)))
             (instances_of [] (ex_perm ps)))
    [[0;1;2]; [0;2;1]; [1;0;2]; [1;2;0]; [2;0;1]; [2;1;0]]%nat = true
  /\ params_of (ex_perm [2;0;1]%nat) [4; 2; 1] = [1; 4; 2]
  /\ key_print [] (ex_perm [2;0;1]%nat) (make_key [] (ex_perm [2;0;1]%nat) [4; 2; 1]) = [4; 2; 1].
Proof. vm_compute. repeat split. Qed.
