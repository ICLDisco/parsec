(* C33 — The runtime read-write lock excludes correctly and makes progress.
   Each universal statement is the instance, at the reachable states, of a theorem about every state
   that satisfies the invariant: RWLock/RWLock{Inv,Safety,Progress,Fair,Wait}.v.  The refutation and
   the examples are concrete runs, evaluated here.
   Model: RWLock/RWLockDefs.v — atomic-step model of the implementation compiled in this build
   (parsec_rwlock.c, PARSEC_RWLOCK_IMPL_TICKET: phase-fair ticket lock, words rin/rout/win/wout
   as residues mod 2^32).  [reach a b progs sched] = the state reached from a quiescent lock that
   has served a read and b write cycles (a = b = 0 after parsec_atomic_rwlock_init) when
   [length progs] threads run the programs [progs] (arbitrary lists of KR = rdlock;..;rdunlock and
   KW = wrlock;..;wrunlock cycles) under the schedule [sched] (arbitrary list of thread ids).

   NO-OVERFLOW HYPOTHESIS of the bit layout: rin counts readers in its three high bytes, so the
   number of threads must stay below NB = 2^24 (with 2^24 readers in flight rin - rout wraps to 0 and
   a writer would walk in).  The total number of read/write cycles is NOT bounded: the counters wrap. *)
From PV Require Import Base.Tac Base.ListX RWLock.RWLockDefs RWLock.RWLockBase RWLock.RWLockInv
  RWLock.RWLockSafety RWLock.RWLockProgress RWLock.RWLockFair RWLock.RWLockWait RWLock.RWLockTheorems.
Local Open Scope Z_scope.

(* never two writers inside, never a writer together with a reader (readers may share:
   see C33_example_readers_share).  is_wcs / is_rcs = the thread holds the lock, from the return of
   wrlock / rdlock to the first atomic operation of wrunlock / rdunlock. *)
Theorem C33_mutual_exclusion : forall a b progs sched, Z.of_nat (length progs) < NB ->
  let c := reach a b progs sched in
  cnt is_wcs (thrs c) <= 1 /\ (0 < cnt is_wcs (thrs c) -> cnt is_rcs (thrs c) = 0).
Proof. intros a b progs sched H. apply excl, reach_inv, H. Qed.
Print Assumptions C33_mutual_exclusion.

(* the same on the recorded enter/exit log (what the harness prints and the oracle checks):
   replaying the log never finds a writer entering while somebody is inside, nor a reader entering
   while a writer is inside, and the occupancy it computes is the number of threads inside *)
Theorem C33_log_exclusion : forall a b progs sched, Z.of_nat (length progs) < NB ->
  let c := reach a b progs sched in
  occ (log c) = Some (cnt is_rin (thrs c), cnt is_win (thrs c)).
Proof.
  intros a b progs sched Hlen. apply (run_both sched (init_at a b progs)).
  split; [apply init_inv, Hlen|apply init_linv].
Qed.
Print Assumptions C33_log_exclusion.

(* the plain, non-atomic "L->wout = L->wout+1" never races: while a thread is about to execute
   it, no other thread is past the ticket wait *)
Theorem C33_wout_single_writer : forall a b progs sched t u th uh, Z.of_nat (length progs) < NB ->
  let c := reach a b progs sched in
  nth_error (thrs c) t = Some th -> t_pc th = PWy ->
  nth_error (thrs c) u = Some uh -> is_hold uh = true -> u = t.
Proof. intros a b progs sched t u th uh H c. apply wout_single_writer, reach_inv, H. Qed.
Print Assumptions C33_wout_single_writer.

(* when every thread has finished, the four words are what the cycle counts say (mod 2^32) *)
Theorem C33_quiescent_counters : forall a b progs sched, Z.of_nat (length progs) < NB ->
  let c := reach a b progs sched in
  all_done c = true ->
  rin c = wrap (RINC * (a + totalR progs)) /\ rout c = rin c /\
  win c = wrap (b + totalW progs) /\ wout c = win c.
Proof. exact quiescent. Qed.
Print Assumptions C33_quiescent_counters.

(* [enabled c th] says exactly that a step of the thread changes the state (it is neither
   finished nor spinning on a condition that is false) *)
Theorem C33_enabled_meaning : forall c t th, nth_error (thrs c) t = Some th ->
  (enabled c th = false -> step c t = c) /\ (enabled c th = true -> mu (step c t) < mu c).
Proof.
  intros c t th Hn. split; [apply (step_disabled c t th Hn)|].
  destruct (step_mu c t) as [_ H]. apply (H th Hn).
Qed.
Print Assumptions C33_enabled_meaning.

(* no reachable state is stuck *)
Theorem C33_deadlock_free : forall a b progs sched, Z.of_nat (length progs) < NB ->
  let c := reach a b progs sched in
  all_done c = true \/ exists t th, nth_error (thrs c) t = Some th /\ enabled c th = true.
Proof. intros a b progs sched H. apply deadlock_free, reach_inv, H. Qed.
Print Assumptions C33_deadlock_free.

(* a thread that can move can still move after any step of any other thread (a reader never
   misses its window: this is what the phase bit is for) *)
Theorem C33_enabled_stable : forall a b progs sched t u th, Z.of_nat (length progs) < NB ->
  let c := reach a b progs sched in
  nth_error (thrs c) t = Some th -> enabled c th = true -> u <> t ->
  nth_error (thrs (step c u)) t = Some th /\ enabled (step c u) th = true.
Proof. exact stable. Qed.
Print Assumptions C33_enabled_stable.

(* starvation freedom for finite programs: from any reachable state, any continuation made of
   rounds in which every thread is scheduled at least once (any order, any repetitions) completes
   every program after at most mu(initial state) rounds: every waiting thread acquires the lock *)
Theorem C33_fair_completion : forall a b progs sched rounds, Z.of_nat (length progs) < NB ->
  let c := reach a b progs sched in
  (forall s, In s rounds -> covers (length progs) s) ->
  mu (init_at a b progs) <= Z.of_nat (length rounds) ->
  all_done (run c (concat rounds)) = true.
Proof.
  intros a b progs sched rounds H c Hcov Hmu. apply fair_termination.
  - apply reach_inv, H.
  - unfold c. rewrite reach_len. exact Hcov.
  - pose proof (run_mu_le sched (init_at a b progs)). unfold c, reach. lia.
Qed.
Print Assumptions C33_fair_completion.

(* while a reader keeps waiting in rdlock, at most ONE writer enters the critical section *)
Theorem C33_reader_bypass : forall a b progs sched s t w, Z.of_nat (length progs) < NB ->
  let c := reach a b progs sched in
  rd_waits t w c -> stays (rd_waits t w) c s ->
  wents (log (run c s)) <= wents (log c) + 1.
Proof. intros a b progs sched s t w H c. apply reader_bypass, reach_inv, H. Qed.
Print Assumptions C33_reader_bypass.

(* while a writer waits with its bits in rin (second loop of wrlock): no writer enters; the
   readers that enter are exactly readers that were waiting on the PREVIOUS writer's bits (readers
   arriving later are held back), and they are at most the readers counted in its ticket *)
Theorem C33_writer_bypass : forall a b progs sched s t tk, Z.of_nat (length progs) < NB ->
  let c := reach a b progs sched in
  wr_waits t tk c -> stays (wr_waits t tk) c s ->
  wents (log (run c s)) = wents (log c) /\
  rents (log (run c s)) + cnt (is_erw (wout c)) (thrs (run c s)) =
    rents (log c) + cnt (is_erw (wout c)) (thrs c) /\
  256 * cnt (is_erw (wout c)) (thrs c) <= (tk - rout c) mod M32.
Proof. intros a b progs sched s t tk H c. apply writer_bypass, reach_inv, H. Qed.
Print Assumptions C33_writer_bypass.

(* writers enter in ticket order: while a writer waits for wout (first loop of wrlock), at most
   as many writers enter as there are tickets before its own *)
Theorem C33_writer_fifo : forall a b progs sched s t tk, Z.of_nat (length progs) < NB ->
  let c := reach a b progs sched in
  ww_waits t tk c -> stays (ww_waits t tk) c s ->
  wents (log (run c s)) <= wents (log c) + ahead c tk /\
  ahead c tk <= (tk - wout c) mod M32 < cnt is_A (thrs c).
Proof. intros a b progs sched s t tk H c. apply writer_fifo, reach_inv, H. Qed.
Print Assumptions C33_writer_fifo.

(* READERS overtaking a writer during its first loop.  The schedule-independent statement "a
   writer with k tickets before its own is overtaken by at most k+1 reader phases, each made only of
   readers already waiting when the phase began" is FALSE of the code: between the moment a writer's
   ticket is served and its fetch_add on rin (and between the fetch_and of the previous writer and
   that fetch_add) the low bits of rin are clear, and readers that arrive then enter at once, as many
   times as they like while that writer is not scheduled.  Witness: writer 0 stalled just before
   setting its bits, writer 1 queued behind it (k = 1), no reader present; reader 2 then completes
   9 read cycles: more than (k+1) * (number of threads) entries.  (Replayed on the real code by
   corpus/C33/phase.txt; it is the published algorithm's behaviour, not a safety or progress defect:
   the window is closed by at most 3 steps of the two writers involved.) *)
Theorem C33_writer_reader_phases_refuted :
  exists progs sched s t tk,
    Z.of_nat (length progs) < NB /\
    let c := reach 0 0 progs sched in
    ww_waits t tk c /\ stays (ww_waits t tk) c s /\
    (tk - wout c) mod M32 = 1 /\ cnt is_rfl (thrs c) = 0 /\
    rents (log (run c s)) > rents (log c) + ((tk - wout c) mod M32 + 1) * Z.of_nat (length progs).
Proof.
  exists [[KW]; [KW]; repeat KR 9], [0; 0; 1; 1]%nat, (repeat 2%nat 28), 1%nat, 1.
  vm_compute. repeat split; try (eexists; split; reflexivity).
Qed.
Print Assumptions C33_writer_reader_phases_refuted.

(* What the code does give (exact in k, linear in the number of threads): bounded WAITING under
   fair rounds.  A writer that holds a ticket with k = toff tickets before its own (first or second
   loop of wrlock) has entered the critical section after (3N+8)(k+1) rounds in each of which every
   thread is scheduled at least once - whatever the other threads run and however long their
   programs are: per ticket, the served writer needs 2 steps to set its bits, the readers counted in
   its ticket at most 3 steps each to leave, then 4 steps to enter, leave, clear its bits and pass
   the ticket on; readers arriving after the bits are set are held back (C33_writer_bypass). *)
Theorem C33_writer_bounded_wait : forall a b progs sched rounds t, Z.of_nat (length progs) < NB ->
  let c := reach a b progs sched in
  let N := Z.of_nat (length progs) in
  waitingW t c ->
  (forall s, In s rounds -> covers (length progs) s) ->
  (3 * N + 8) * (toff c t + 1) <= Z.of_nat (length rounds) ->
  ents t (log c) < ents t (log (run c (concat rounds))).
Proof.
  intros a b progs sched rounds t H c N Hw Hcov Hr. apply writer_wait_rounds.
  - apply reach_inv, H.
  - exact Hw.
  - unfold c. rewrite reach_len. exact Hcov.
  - pose proof (rho_bound c t) as Hb.
    assert (E : NN c = N) by (unfold NN, c, N; rewrite reach_len; reflexivity).
    rewrite E in Hb. lia.
Qed.
Print Assumptions C33_writer_bounded_wait.

Definition pcs (c : cfg) : list pc := map t_pc (thrs c).
(* readers share: two readers inside together *)
Example C33_example_readers_share :
  pcs (reach 0 0 [[KR]; [KR]] [0; 1; 0; 1]%nat) = [PRcs; PRcs].
Proof. vm_compute. reflexivity. Qed.
(* a writer arrives while a reader is inside (waits in PWr), a second reader arrives and is held
   back by the writer's bits (PRw 3); on the wrap-around of rin/rout and win/wout *)
Example C33_example_phases :
  let c := reach 16777215 4294967295 [[KR]; [KW]; [KR]] [0; 1; 2; 0; 1; 1; 2; 2]%nat in
  pcs c = [PRcs; PWr 0; PRw 3] /\ rin c = 259 /\ rout c = 4294967040 /\ win c = 0 /\
  Z.of_nat 3 < NB /\
  all_done (run c (concat (repeat [0; 1; 2]%nat 15))) = true /\
  rev (log (run c (concat (repeat [0; 1; 2]%nat 15)))) =
    [Enter 0%nat KR; Exit 0%nat KR; Enter 1%nat KW; Exit 1%nat KW; Enter 2%nat KR; Exit 2%nat KR].
Proof. vm_compute. repeat split; reflexivity. Qed.
(* the hypotheses of C33_writer_bounded_wait are met: writer 1 queued behind writer 0 (k = 1) *)
Example C33_example_queued_writer :
  let c := reach 0 0 [[KW]; [KW]; [KR; KR]] [0; 0; 1; 1; 2; 2]%nat in
  pcs c = [PW1 0; PWw 1; PRcs] /\ toff c 1%nat = 1 /\ rho c 1%nat = 32 /\
  ents 1%nat (log (run c (concat (repeat [2; 1; 0]%nat 17)))) = 1.
Proof. vm_compute. repeat split; reflexivity. Qed.
