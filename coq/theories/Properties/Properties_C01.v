(* C01 — Every PTG task instance runs exactly once.
   The statements, each taken from PTG/EngineProofs.v and PTG/PTGProofs.v or derived from their
   theorems in a line or two; the refutations and the example exhibit their witnesses here.

   Model: PTG/PTGDefs.v (AST of the JDF subset, execution space `instances P`,
   dependencies `preds`/`succs`, the decision procedure `wf_program`) and PTG/Engine.v
   (abstract dataflow engine: Startup / StartupOne t / Begin t / End t; a schedule is an
   arbitrary list of such events, events that are not enabled are no-ops; any number
   of tasks may be running at the same time).

   `executed P evs` is the list of tasks whose body started (Begin events) during the
   schedule evs, `ptg_quiescent P evs` says that after evs startup is complete and
   nothing is ready or running. *)
From Coq Require Import ZArith List Permutation.
From PV Require Import Base.Tac PTG.PTGDefs PTG.Engine PTG.EngineProofs PTG.PTGProofs.
Import ListNotations.

(* Well-formedness is `wf_first_match`: the first input dependency of a data flow whose guard holds is THE
   input (as the runtime scans them), so `<- (k > 0) ? X PROD(k)` followed by an unguarded `<- D(k)` is a valid
   program.  `wf_program` (exactly one guard holds) is the special case: *)
Theorem C01_wf_program_is_first_match : forall P, wf_program P = true -> wf_first_match P = true.
Proof. intros P. rewrite wf_program_with, wf_first_match_with. apply wf_with_mono, data_inputs_ok_first. Qed.
Print Assumptions C01_wf_program_is_first_match.

(* for every well-formed program and EVERY schedule: no instance starts twice *)
Theorem C01_no_task_begins_twice : forall P, wf_first_match P = true ->
  forall evs, NoDup (executed P evs).
Proof. exact (wf_no_task_begins_twice data_inputs_first). Qed.
Print Assumptions C01_no_task_begins_twice.

(* nothing outside the declared execution space ever runs *)
Theorem C01_only_instances_run : forall P, wf_first_match P = true ->
  forall evs t, In t (executed P evs) -> In t (instances P).
Proof. exact (wf_only_instances_run data_inputs_first). Qed.
Print Assumptions C01_only_instances_run.

(* every Begin happens after the End of every predecessor (the log is most-recent-first:
   l1 is what happened before this Begin) *)
Theorem C01_begin_after_predecessors_ended : forall P, wf_first_match P = true ->
  forall evs l1 l2 t, log tid (ptg_run P evs) = l2 ++ LBegin t :: l1 ->
  forall p, In p (preds P t) -> In (LEnd p) l1.
Proof. exact (wf_begin_after_preds_ended data_inputs_first). Qed.
Print Assumptions C01_begin_after_predecessors_ended.

(* whenever startup is complete and nothing is ready or running, every instance is done:
   the runtime cannot stop early *)
Theorem C01_quiescent_all_done : forall P, wf_first_match P = true ->
  forall evs, ptg_quiescent P evs -> forall t, In t (instances P) -> st tid (ptg_run P evs) t = Done.
Proof. exact (wf_quiescent_all_done data_inputs_first). Qed.
Print Assumptions C01_quiescent_all_done.

(* hence any complete run executes exactly the multiset `instances P`: each instance once, nothing else *)
Theorem C01_complete_run_executes_each_instance_once : forall P, wf_first_match P = true ->
  forall evs, ptg_quiescent P evs -> Permutation (executed P evs) (instances P).
Proof. exact (wf_complete_run_once data_inputs_first). Qed.
Print Assumptions C01_complete_run_executes_each_instance_once.

(* and a run that is not complete can always continue (no deadlock of the dataflow) *)
Theorem C01_progress : forall P, wf_first_match P = true ->
  forall evs t, In t (instances P) -> st tid (ptg_run P evs) t <> Done ->
  exists u, In u (instances P) /\
    (st tid (ptg_run P evs) u = Ready \/ st tid (ptg_run P evs) u = Running \/ st tid (ptg_run P evs) u = Waiting 0).
Proof. exact (wf_progress data_inputs_first). Qed.
Print Assumptions C01_progress.

(* the same for ANY finite DAG (the form C02/C16/C15 build on): succs is the converse of
   preds with multiplicities, both stay inside `tasks`, and predecessors have smaller rank *)
Theorem C01_engine_generic :
  forall (task : Type) (teq : forall a b : task, {a = b} + {a <> b}) (tasks : list task)
         (preds succs : task -> list task),
    (forall p t, In p tasks -> In t tasks -> count_occ teq (succs p) t = count_occ teq (preds t) p) ->
    (forall p s, In p tasks -> In s (succs p) -> In s tasks) ->
    (forall t p, In t tasks -> In p (preds t) -> In p tasks) ->
    forall rank : task -> nat,
    (forall t p, In t tasks -> In p (preds t) -> rank p < rank t) ->
    forall evs, NoDup tasks -> quiescent task tasks (run task teq tasks preds succs evs) ->
    Permutation (begins task (log task (run task teq tasks preds succs evs))) tasks.
Proof. exact quiescent_executed_once. Qed.
Print Assumptions C01_engine_generic.

(* non-vacuity: a fan-out / control-gather diamond
     A(k)  k = 0..0        RW X <- D(0)            -> X B(0 .. G0-1)
     B(k)  k = 0..G0-1     READ X <- X A(0)        CTL C -> C C(0)
     C(k)  k = 0..0        CTL C <- C B(0 .. G0-1)                      with G0 = 3 *)
Definition dep_in (t : target) := {| d_in := true; d_guard := None; d_then := t; d_else := None |}.
Definition dep_out (t : target) := {| d_in := false; d_guard := None; d_then := t; d_else := None |}.
Definition upto_G0 := Arng (Ec 0) (Eb Osub (Eg 0) (Ec 1)) (Ec 1).
Definition ex_diamond : program :=
  {| p_globals := [3%Z];
     p_classes :=
       [ {| c_locals := [Lrange (Ec 0) (Ec 0) (Ec 1)]; c_params := [0%nat]; c_place := [Ec 0];
            c_flows := [ {| f_mode := MRW; f_deps := [dep_in (Tmem [Ec 0]); dep_out (Ttask 1 0 [upto_G0])] |} ];
            c_prio := None; c_count := false |};
         {| c_locals := [Lrange (Ec 0) (Eb Osub (Eg 0) (Ec 1)) (Ec 1)]; c_params := [0%nat]; c_place := [Ec 0];
            c_flows := [ {| f_mode := MRead; f_deps := [dep_in (Ttask 0 0 [Aexp (Ec 0)])] |};
                         {| f_mode := MCtl; f_deps := [dep_out (Ttask 2 0 [Aexp (Ec 0)])] |} ];
            c_prio := None; c_count := false |};
         {| c_locals := [Lrange (Ec 0) (Ec 0) (Ec 1)]; c_params := [0%nat]; c_place := [Ec 0];
            c_flows := [ {| f_mode := MCtl; f_deps := [dep_in (Ttask 1 1 [upto_G0])] |} ];
            c_prio := None; c_count := true |} ] |}.

Definition tA : tid := (0%nat, [0%Z]).
Definition tB (k : Z) : tid := (1%nat, [k]).
Definition tC : tid := (2%nat, [0%Z]).
(* the three B tasks run concurrently; C starts only after the last B ended *)
Definition ex_schedule : list (event tid) :=
  [Startup; Begin tC; Begin tA; Begin (tB 0); End tA; Begin (tB 1); Begin (tB 0); Begin (tB 2); End (tB 0);
   Begin tC; End (tB 2); End (tB 2); Begin tC; End (tB 1); Begin tC; Begin tC; End tC].

Example C01_example :
  wf_program ex_diamond = true
  /\ instances ex_diamond = [tA; tB 0; tB 1; tB 2; tC]
  /\ preds ex_diamond tC = [tB 0; tB 1; tB 2]
  /\ succs ex_diamond tA = [tB 0; tB 1; tB 2]
  /\ map (st tid (ptg_run ex_diamond ex_schedule)) (instances ex_diamond) = [Done; Done; Done; Done; Done]
  /\ executed ex_diamond ex_schedule = [tC; tB 2; tB 0; tB 1; tA].
Proof. vm_compute. repeat split. Qed.

(* a program whose dependencies form a cycle (A(0) <-> B(0)) is rejected *)
Definition ex_cycle : program :=
  {| p_globals := [];
     p_classes :=
       [ {| c_locals := [Lrange (Ec 0) (Ec 0) (Ec 1)]; c_params := [0%nat]; c_place := [Ec 0];
            c_flows := [ {| f_mode := MCtl; f_deps := [dep_in (Ttask 1 0 [Aexp (Ec 0)]); dep_out (Ttask 1 0 [Aexp (Ec 0)])] |} ];
            c_prio := None; c_count := false |};
         {| c_locals := [Lrange (Ec 0) (Ec 0) (Ec 1)]; c_params := [0%nat]; c_place := [Ec 0];
            c_flows := [ {| f_mode := MCtl; f_deps := [dep_in (Ttask 0 0 [Aexp (Ec 0)]); dep_out (Ttask 0 0 [Aexp (Ec 0)])] |} ];
            c_prio := None; c_count := false |} ] |}.
Example C01_cycle_rejected : wf_program ex_cycle = false.
Proof. vm_compute. reflexivity. Qed.

(* first match wins: overlapping guards.
     PROD(k) k = 1..2     RW Y <- D(k) -> B CONS(k)      RW X <- D(k) -> A CONS(k)
     CONS(k) k = 0..2     RW A <- (k > 0) ? X PROD(k)    <- D(k)          (both hold for k > 0: the first one is the input)
                          READ B <- (k > 0) ? Y PROD(k) : D(k)
   CONS(1) has the two predecessor edges from PROD(1) and nothing else; CONS(0) is a startup task. *)
Definition kpos := Eb Ogt (El 0) (Ec 0).
Definition ex_firstmatch : program :=
  {| p_globals := [];
     p_classes :=
       [ {| c_locals := [Lrange (Ec 1) (Ec 2) (Ec 1)]; c_params := [0%nat]; c_place := [Ec 0];
            c_flows := [ {| f_mode := MRW; f_deps := [dep_in (Tmem [El 0]); dep_out (Ttask 1 1 [Aexp (El 0)])] |};
                         {| f_mode := MRW; f_deps := [dep_in (Tmem [El 0]); dep_out (Ttask 1 0 [Aexp (El 0)])] |} ];
            c_prio := None; c_count := false |};
         {| c_locals := [Lrange (Ec 0) (Ec 2) (Ec 1)]; c_params := [0%nat]; c_place := [Ec 0];
            c_flows := [ {| f_mode := MRW;
                            f_deps := [ {| d_in := true; d_guard := Some kpos; d_then := Ttask 0 1 [Aexp (El 0)]; d_else := None |};
                                        dep_in (Tmem [El 0]) ] |};
                         {| f_mode := MRead;
                            f_deps := [ {| d_in := true; d_guard := Some kpos; d_then := Ttask 0 0 [Aexp (El 0)];
                                           d_else := Some (Tmem [El 0]) |} ] |} ];
            c_prio := None; c_count := false |} ] |}.
Example C01_first_match_example :
  wf_program ex_firstmatch = false /\ wf_first_match ex_firstmatch = true
  /\ preds ex_firstmatch (1%nat, [1%Z]) = [(0%nat, [1%Z]); (0%nat, [1%Z])]
  /\ preds ex_firstmatch (1%nat, [0%Z]) = []
  /\ executed ex_firstmatch [Startup; Begin (1%nat, [0%Z]); Begin (0%nat, [2%Z]); Begin (1%nat, [2%Z]); End (0%nat, [2%Z]);
                              Begin (1%nat, [2%Z]); Begin (1%nat, [2%Z])]
     = [(1%nat, [2%Z]); (0%nat, [2%Z]); (1%nat, [0%Z])].
Proof. vm_compute. repeat split. Qed.
