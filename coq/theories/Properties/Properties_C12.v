(* C12 — User-triggered termination reaches every process exactly once.
   The tree of notifications is treated in UserTrig/UserTrigProofs.v, the counter protocol of one
   process in UserTrig/CountProofs.v, the arrival protocol (a finite state space, closed once
   by evaluation) in UserTrig/ArriveProofs.v. *)
From PV Require Import Base.Tac UserTrig.UserTrigDefs UserTrig.UserTrigProofs.
From PV Require UserTrig.ArriveDefs UserTrig.ArriveProofs.
From PV Require Gen.Gen_usertrig Gen.GenEq_usertrig.
From PV Require UserTrig.CountDefs UserTrig.CountProofs.
Local Open Scope Z_scope.

(* every process other than the root is the destination of exactly one
   notification (sender, index), for every communicator size and root *)
Theorem C12_exactly_one_sender : forall n root r,
  0 < n -> 0 <= root < n -> 0 <= r < n -> r <> root ->
  exists me i, 0 <= me < n /\ sends n root me i r /\
    forall me' i', 0 <= me' < n -> sends n root me' i' r -> me' = me /\ i' = i.
Proof. exact exactly_one_sender. Qed.
Print Assumptions C12_exactly_one_sender.

(* nobody notifies the root *)
Theorem C12_root_has_no_sender : forall n root me i,
  0 < n -> 0 <= root < n -> 0 <= me < n -> ~ sends n root me i root.
Proof.
  intros n root me i Hn Hroot Hme Hsd. apply sends_shifted in Hsd; try lia.
  rewrite shifted_root in Hsd by lia.
  pose proof (shifted_range n root me Hn Hroot Hme). lia.
Qed.
Print Assumptions C12_root_has_no_sender.

(* the notifications started at the root reach every process *)
Theorem C12_all_triggered : forall n root r,
  0 < n -> 0 <= root < n -> 0 <= r < n -> Triggered n root r.
Proof. exact all_triggered. Qed.
Print Assumptions C12_all_triggered.

(* the two notifications of one process go to different ranks inside the job *)
Theorem C12_children_distinct : forall n root me,
  0 < n -> 0 <= root < n -> 0 <= me < n -> NoDup (children n root me).
Proof. exact children_NoDup. Qed.
Print Assumptions C12_children_distinct.

(* only ranks inside the communicator are ever addressed *)
Theorem C12_children_in_range : forall n root me i r, 0 < n -> sends n root me i r -> 0 <= r < n.
Proof. intros n root me i r Hn [_ <-]. unfold real_child. apply Z.mod_pos_bound; lia. Qed.
Print Assumptions C12_children_in_range.

(* translator tie: the destinations computed by the C text of parsec_termdet_signal_termination (the
   initialisers of my_rank, nb_children, child, real_child, translated on every run into
   Gen/Gen_usertrig.v) are the [children] the theorems above are about *)
Theorem C12_children_are_the_code : forall n root me, 0 < n -> 0 <= root < n -> 0 <= me < n ->
  let s := Gen_usertrig.parsec_termdet_signal_termination__my_rank me root n in
  map (fun i => Gen_usertrig.parsec_termdet_signal_termination__real_child
                  (Gen_usertrig.parsec_termdet_signal_termination__child s i) root n)
      (map Z.of_nat (seq 0 (Z.to_nat (Gen_usertrig.parsec_termdet_signal_termination__nb_children s n))))
  = children n root me.
Proof. exact GenEq_usertrig.children_are_the_code. Qed.
Print Assumptions C12_children_are_the_code.

(* The counter protocol of one process (UserTrig/CountDefs.v):
   for every disciplined history of the module's interface calls on one process (ready first and once,
   the trigger once after it, runtime actions never below zero): termination is signalled — children
   notified, callback run — at most once; exactly when the monitor is TERMINATED; and as soon as the
   taskpool is ready with no pending action it HAS been signalled.  In particular runtime actions
   added and retired after the termination do not signal it again. *)
Theorem C12_signalled_exactly_once : forall ops, CountDefs.disciplined CountDefs.cinit ops = true ->
  let s := CountDefs.crun ops CountDefs.cinit in
  (CountDefs.c_sig s <= 1)%nat /\ (CountDefs.c_sig s = 1%nat <-> CountDefs.c_state s = CountDefs.Terminated) /\
  (CountDefs.c_state s <> CountDefs.NotReady -> CountDefs.c_pa s = 0 -> CountDefs.c_sig s = 1%nat).
Proof.
  intros ops D s.
  assert (H : CountProofs.cinv s) by (apply CountProofs.crun_inv; [apply CountProofs.cinv_init|exact D]).
  unfold CountProofs.cinv in H. destruct (CountDefs.c_state s) eqn:E; destruct H as [H1 H2]; rewrite H1.
  - split; [lia|]. split; [split; [discriminate|discriminate]|]. intros Hn; congruence.
  - split; [lia|]. split; [split; [discriminate|discriminate]|]. intros _ Hp. lia.
  - split; [lia|]. split; [split; reflexivity|]. intros _ _. reflexivity.
Qed.
Print Assumptions C12_signalled_exactly_once.

(* the signalling calls must test the monitor state: testing only "nb_tasks was set to 0" signals twice *)
Theorem C12_state_guard_necessary :
  let s1 := CountProofs.add_actions_tasks0 (-1)
              {| CountDefs.c_state := CountDefs.Busy; CountDefs.c_tasks0 := true; CountDefs.c_pa := 1; CountDefs.c_sig := 0 |} in
  CountDefs.c_sig s1 = 1%nat /\
  CountDefs.c_sig (CountProofs.add_actions_tasks0 (-1) (CountProofs.add_actions_tasks0 1 s1)) = 2%nat.
Proof. vm_compute. split; reflexivity. Qed.
Print Assumptions C12_state_guard_necessary.

Example C12_count_example :
  let ops := [CountDefs.OReady; CountDefs.OAddActions 2; CountDefs.OTrigger; CountDefs.OAddActions (-2);
              CountDefs.OAddActions 1; CountDefs.OAddActions (-1)] in
  CountDefs.disciplined CountDefs.cinit ops = true /\ CountDefs.c_sig (CountDefs.crun ops CountDefs.cinit) = 1%nat.
Proof. vm_compute. split; reflexivity. Qed.

(* Arrival of the notification at a process (UserTrig/ArriveDefs.v):
   whatever the moment at which the notification arrives relative to the registration of the
   taskpool and to taskpool_ready (ini = 0: not registered yet, 1: registered but not ready,
   2: ready), and whatever the interleaving of the communication thread with the main thread,
   the process handles the notification (terminates, notifies its children, runs the callback)
   at most once, only while BUSY, and exactly once when both threads are done; the message is
   never left parked and the delayed-message lock is free *)
Theorem C12_arrival_exactly_once : forall ini sched,
  let s := ArriveDefs.run sched (ArriveDefs.init ini) in
  (ArriveDefs.delivered s <= 1 /\ ArriveDefs.bad s = 0 /\ ArriveDefs.parked s + ArriveDefs.delivered s <= 1 /\
   (ArriveDefs.finished s = true ->
      ArriveDefs.delivered s = 1 /\ ArriveDefs.parked s = 0 /\ ArriveDefs.lock_of s = 0 /\ ArriveDefs.tp_of s = 3))%nat.
Proof.
  intros ini sched s. assert (H : In s ArriveProofs.reach) by apply ArriveProofs.reach_run, ArriveProofs.reach_init.
  pose proof ArriveProofs.reach_good as G. rewrite forallb_forall in G. specialize (G s H).
  unfold ArriveProofs.good in G. destruct (ArriveDefs.finished s); lia.
Qed.
Print Assumptions C12_arrival_exactly_once.

(* and both threads do finish: after any schedule, six rounds that run both threads complete them *)
Theorem C12_arrival_terminates : forall ini sched,
  ArriveDefs.finished (ArriveDefs.run (ArriveProofs.rounds 6) (ArriveDefs.run sched (ArriveDefs.init ini))) = true.
Proof.
  intros ini sched. pose proof ArriveProofs.reach_finishes as F. rewrite forallb_forall in F.
  apply F, ArriveProofs.reach_run, ArriveProofs.reach_init.
Qed.
Print Assumptions C12_arrival_terminates.

(* the second taskpool lookup, under the list lock, is necessary: re-testing what the first lookup
   returned parks the notification for ever in one interleaving: the communication thread looks
   the taskpool up before it is registered, the main thread registers it, makes it ready and
   replays the (empty) list, then the message is parked *)
Theorem C12_stale_recheck_refuted :
  exists sched, let s := fold_left (ArriveProofs.step_stale 0) sched (ArriveDefs.init 0) in
    ArriveDefs.finished s = true /\ ArriveDefs.delivered s = 0%nat /\ ArriveDefs.parked s = 1%nat.
Proof. exists [0; 0; 1; 1; 1; 1; 1; 0; 0; 0]%nat. vm_compute. repeat split. Qed.
Print Assumptions C12_stale_recheck_refuted.

(* non-vacuity of the arrival theorems: the notification overtakes the registration *)
Example C12_arrival_example :
  ArriveDefs.run [0; 0; 0; 0; 0; 1; 1; 1; 1; 1]%nat (ArriveDefs.init 0) = (6, 5, 3, 0, 0, 1, 0)%nat.
Proof. vm_compute. reflexivity. Qed.

(* non-vacuity: 5 processes, root 3: rank 0 is notified by rank 4 only *)
Example C12_example : children 5 3 3 = [4; 0] /\ children 5 3 4 = [1; 2] /\ children 5 3 0 = [] /\
  map (received_count 5 3) [0;1;2;3;4] = [1;1;1;0;1]%nat.
Proof. vm_compute. repeat split. Qed.
