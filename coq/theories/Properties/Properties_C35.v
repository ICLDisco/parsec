(* C35 — Task buffers and heaps keep every task and prefer the best.
   The proofs rest on HeapBuf/HeapBuf*Proofs.v and, for hiBit, on HeapBuf/HeapBufBits.v.

   Models (HeapBuf/HeapBufDefs.v): parsec/hbbuffer.c as a chain of slot arrays
   whose last parent store is a recorder (push_all, push_all_by_priority,
   pop_best), parsec/maxheap.c as a pointer tree + size + priority field
   (heap_insert, heap_remove, heap_split_and_steal with the hiBit arithmetic).
   Sequential semantics: one call runs to completion (concurrent slot races of
   hbbuffer.c are not part of this property file). *)
From PV Require Import Base.Tac HeapBuf.HeapBufDefs HeapBuf.HeapBufPerm HeapBuf.HeapBufBits
  HeapBuf.HeapBufBufferProofs HeapBuf.HeapBufHeapProofs.
From PV Require Gen.Gen_hibit Gen.GenEq_hibit.
From Coq Require Import Sorted.
Local Open Scope Z_scope.

(* one operation on any chain of buffers: the tasks in the buffers, the task
   returned and the tasks handed to the top-most parent store are exactly the
   tasks held before plus the pushed ones; no buffer changes capacity *)
Theorem C35_buffer_step_conserves : forall bufs o bufs' r q,
  bstep bufs o = (bufs', (r, q)) ->
  Permutation (held_all bufs' ++ opt r ++ sent q) (held_all bufs ++ pushed o) /\
  map (@length _) bufs' = map (@length _) bufs.
Proof. exact bstep_conserves. Qed.
Print Assumptions C35_buffer_step_conserves.

(* every history of pushes (any rings, any distances) and pops (any level) *)
Theorem C35_buffer_history_conserves : forall ops bufs bufs' rets q,
  brun bufs ops = (bufs', (rets, q)) ->
  Permutation (held_all bufs' ++ rets ++ sent q) (held_all bufs ++ flat_map pushed ops) /\
  map (@length _) bufs' = map (@length _) bufs.
Proof. exact brun_conserves. Qed.
Print Assumptions C35_buffer_history_conserves.

Theorem C35_buffer_bounded : forall ops bufs bufs' out, brun bufs ops = (bufs', out) ->
  map (@length _) bufs' = map (@length _) bufs /\
  Forall (fun b => (length (held b) <= length b)%nat) bufs'.
Proof.
  intros ops bufs bufs' [rets q] H. split; [now apply brun_conserves in H|].
  apply Forall_forall. intros b _. apply held_le_size.
Qed.
Print Assumptions C35_buffer_bounded.

(* a quiescent pop_best returns a task of the buffer of maximal priority and
   removes exactly that task *)
Theorem C35_pop_best_is_max : forall b b' r, pop_best b = (b', r) ->
  length b' = length b /\
  match r with
  | None => held b = [] /\ b' = b
  | Some t => In t (held b) /\ (forall x, In x (held b) -> prio x <= prio t) /\
              Permutation (t :: held b') (held b)
  end.
Proof. exact pop_best_spec. Qed.
Print Assumptions C35_pop_best_is_max.

Theorem C35_pop_best_none_iff_empty : forall b, snd (pop_best b) = None <-> held b = [].
Proof.
  intros b. destruct (pop_best b) as [b' r] eqn:E. destruct (pop_best_spec _ _ _ E) as [_ Hr]. cbn [snd].
  destruct r as [t|]; split; intros H; try discriminate; try tauto.
  destruct Hr as (Hin & _). rewrite H in Hin. destruct Hin.
Qed.
Print Assumptions C35_pop_best_none_iff_empty.

(* push_all_by_priority of a ring sorted by non-increasing priority (the
   callers' convention stated in the code): nothing handed to the parent is
   better than anything kept in the buffer *)
Theorem C35_push_prio_keeps_best : forall b up t rest bufs' q,
  StronglySorted (fun a c => prio c <= prio a) (t :: rest) ->
  push_prio (b :: up) (t :: rest) 0 = (bufs', q) ->
  exists b' up' ej, bufs' = b' :: up' /\ pbp b t rest [] = (b', ej) /\
    forall e x, In e ej -> In x (held b') -> prio e <= prio x.
Proof. exact push_prio_keeps_best. Qed.
Print Assumptions C35_push_prio_keeps_best.

(* hinv h: the tree is the complete tree with [hsize h] nodes addressed by the
   bits of size, it is max-heap ordered, and the priority field is the top's *)

Theorem C35_heap_insert : forall h e, hinv h ->
  hinv (heap_insert h e) /\ Permutation (helems (heap_insert h e)) (e :: helems h) /\
  hsize (heap_insert h e) = N.succ (hsize h).
Proof. exact heap_insert_spec. Qed.
Print Assumptions C35_heap_insert.

(* heap_remove: the returned task is a maximum, nothing else moves out, the
   remaining heap (if any) satisfies the invariant with size - 1 *)
Theorem C35_heap_remove : forall oh oh' r, oinv oh -> heap_remove oh = (oh', r) ->
  oinv oh' /\ Permutation (oelems oh) (opt r ++ oelems oh') /\ best_of (oelems oh) r /\
  (forall h h', oh = Some h -> oh' = Some h' -> r <> None -> N.succ (hsize h') = hsize h).
Proof. exact heap_remove_spec. Qed.
Print Assumptions C35_heap_remove.

(* heap_split_and_steal: the top is returned, both halves are heaps whose size
   fields (computed with hiBit from the bits of size) are their node counts *)
Theorem C35_heap_split : forall oh oh1 oh2 r, oinv oh ->
  (forall h, oh = Some h -> (hsize h < 2 ^ 32)%N) ->
  heap_split oh = ((oh1, oh2), r) ->
  oinv oh1 /\ oinv oh2 /\ Permutation (oelems oh) (opt r ++ oelems oh1 ++ oelems oh2) /\
  best_of (oelems oh) r.
Proof. exact heap_split_spec. Qed.
Print Assumptions C35_heap_split.

Theorem C35_heap_top_is_max : forall h, hinv h ->
  (forall y, In y (helems h) -> prio y <= hprio h) /\
  (forall l x r, htree h = Node l x r -> hprio h = prio x) /\
  N.of_nat (length (helems h)) = hsize h.
Proof.
  intros h Hh. split; [now apply hinv_top_max|]. split; [|now apply hinv_count].
  intros l x r Et. destruct Hh as (_ & _ & Hp). now rewrite Hp, Et.
Qed.
Print Assumptions C35_heap_top_is_max.

(* one operation on a table of heaps: invariants kept, tasks conserved, and a
   remove / steal returns a maximum of the heap it was applied to *)
Theorem C35_heap_step : forall s o s' r, Forall oinv s ->
  (N.of_nat (length (all_elems s)) < 2 ^ 32)%N ->
  hstep s o = (s', r) ->
  Forall oinv s' /\
  Permutation (all_elems s' ++ opt r) (all_elems s ++ hinserted s [o]) /\
  match o with
  | HRemove i | HSplit i => forall oh, nth_error s i = Some oh -> best_of (oelems oh) r
  | _ => r = None
  end.
Proof. exact hstep_spec. Qed.
Print Assumptions C35_heap_step.

(* every history of create / insert / remove / split: each inserted task is
   either still in exactly one heap or was returned exactly once *)
Theorem C35_heap_history : forall ops s s' rets, Forall oinv s ->
  (N.of_nat (length (all_elems s)) + N.of_nat (length ops) < 2 ^ 32)%N ->
  hrun s ops = (s', rets) ->
  Forall oinv s' /\ Permutation (all_elems s' ++ rets) (all_elems s ++ hinserted s ops).
Proof. exact hrun_spec. Qed.
Print Assumptions C35_heap_history.

(* static inline int hiBit(unsigned int n) is the highest power of two <= n *)
Theorem C35_hiBit : forall n, (0 < n)%N -> (n < 2 ^ 32)%N -> hiBit n = (2 ^ N.log2 n)%N.
Proof. exact hiBit_spec. Qed.
Print Assumptions C35_hiBit.

(* translator tie: hiBit of the model is the C function hiBit of parsec/maxheap.c, translated from the
   current C text on every run (Gen/Gen_hibit.v, tools/c2gallina.py), for every heap size below 2^31
   (the C function returns int) *)
Theorem C35_hiBit_is_the_code : forall n : N, (n < 2 ^ 31)%N ->
  PV.Gen.Gen_hibit.hiBit (Z.of_N n) = Z.of_N (hiBit n).
Proof. exact PV.Gen.GenEq_hibit.hiBit_is_the_code. Qed.
Print Assumptions C35_hiBit_is_the_code.

(* non-vacuity: a buffer of 2 slots with a 1-slot parent, and a heap of 6 tasks *)
Example C35_example :
  let t := fun i p => mkTask i p in
  (* push_all_by_priority [9;4;4] into [5;_]: 9 takes the free slot, the 4s find nothing lower and
     travel up the chain (distance -1 at the parent buffer, -2 at the recorder) *)
  bstep [[Some (t 0 5); None]; [None]] (BPushPrio [t 1 9; t 2 4; t 3 4] 0)
    = ([[Some (t 0 5); Some (t 1 9)]; [None]], (None, [([t 2 4; t 3 4], -2)])) /\
  snd (pop_best [Some (t 0 5); Some (t 1 9)]) = Some (t 1 9) /\
  (* six inserts, then split: sizes 6 -> 2 (right part stays) + 3 (left part) *)
  let h := fold_left heap_insert [t 0 3; t 1 7; t 2 5; t 3 7; t 4 1; t 5 9] heap_create in
  hinv h /\ hsize h = 6%N /\ hprio h = 9 /\
  map tid (preorder (htree h)) = [5; 3; 0; 4; 1; 2] /\
  (match heap_split (Some h) with
   | ((Some a, Some b), Some x) => (hsize a, hsize b, tid x)
   | _ => (0%N, 0%N, -1)
   end) = (2%N, 3%N, 5).
Proof.
  cbv zeta. split; [vm_compute; reflexivity|]. split; [vm_compute; reflexivity|].
  split; [|vm_compute; repeat split; reflexivity].
  cbn [fold_left]. do 6 apply hinv_insert. exact hinv_create.
Qed.
