(* C39 — Argument-vector utilities are consistent.
   "Splitting a string on a delimiter and joining the pieces back gives the
   original string (modulo empty fields when empty fields are dropped),
   insertion and deletion change exactly the addressed positions, and
   command-line parsing reports each declared option with its parameters and
   leaves the remaining arguments as the tail."
   Each theorem is put together here from the lemmas of Argv/ArgvProofs.v and
   Argv/ArgvCmdLineProofs.v.
   Models: Argv/ArgvDefs.v (parsec/utils/argv.c), Argv/ArgvCmdLineDefs.v
   (parsec/utils/cmd_line.c).  [fields]/[intercalate] are the mathematical
   split (one field per delimiter, plus one) and join.
   The models follow the code after the repairs 37250ca (split_with_empty) and
   6bc250b (cmd_line double free), both found by this property; the code before
   them lives in Argv/ArgvPrefixDefs.v and is refuted in the two
   [..._prefix_refuted] theorems. *)
From Coq Require Import Ascii.
From PV Require Import Base.Tac Argv.ArgvDefs Argv.ArgvProofs Argv.ArgvCmdLineDefs Argv.ArgvCmdLineProofs.
From PV Require Import Argv.ArgvPrefixDefs.

(* parsec_argv_split drops exactly the empty fields: the string is the join of
   its fields, the result holds the non-empty ones in order *)
Theorem C39_split_join_modulo_empty_fields : forall s d,
  intercalate d (fields d s) = s /\
  vec_of (argv_split s d) = filter nonempty (fields d s) /\
  argv_join (argv_split s d) d = intercalate d (filter nonempty (fields d s)).
Proof. intros s d. split; [apply intercalate_fields | split; [apply split_spec | apply join_split]]. Qed.
Print Assumptions C39_split_join_modulo_empty_fields.

(* which strings round-trip through split + join: the empty string and those
   without leading, trailing or doubled delimiter *)
Theorem C39_split_join_roundtrip_iff : forall s d,
  argv_join (argv_split s d) d = s <-> (s = [] \/ clean d s = true).
Proof. exact join_split_roundtrip_clean. Qed.
Print Assumptions C39_split_join_roundtrip_iff.

(* parsec_argv_split_with_empty drops nothing: the result is the list of all
   fields (NULL for the empty string) and the join gives the string back *)
Theorem C39_split_with_empty_join : forall s d,
  vec_of (argv_split_with_empty s d) = match s with [] => [] | _ :: _ => fields d s end /\
  argv_join (argv_split_with_empty s d) d = s.
Proof. intros s d. split; [apply split_with_empty_spec | apply join_split_with_empty]. Qed.
Print Assumptions C39_split_with_empty_join.

Theorem C39_split_after_join : forall v d,
  Forall (fun t => t <> [] /\ ~ In d t) v ->
  vec_of (argv_split (argv_join (Some v) d) d) = v /\
  vec_of (argv_split_with_empty (argv_join (Some v) d) d) = v.
Proof. intros v d H. split; [now apply split_join | now apply split_with_empty_join]. Qed.
Print Assumptions C39_split_after_join.

(* with empty tokens allowed: every vector comes back except [""] (its join is the
   empty string, which has no field) *)
Theorem C39_split_with_empty_after_join_iff : forall v d,
  Forall (fun t => ~ In d t) v ->
  (vec_of (argv_split_with_empty (argv_join (Some v) d) d) = v <-> v <> [[]]).
Proof. exact split_with_empty_join_iff. Qed.
Print Assumptions C39_split_with_empty_after_join_iff.

Theorem C39_join_is_intercalate : forall a d, argv_join a d = intercalate d (vec_of a).
Proof. exact join_spec. Qed.
Print Assumptions C39_join_is_intercalate.

Theorem C39_join_range : forall a start stop d,
  argv_join_range a start stop d = intercalate d (firstn (stop - start) (skipn start (vec_of a))).
Proof. exact join_range_spec. Qed.
Print Assumptions C39_join_range.

(* insertion: the source lands at min(start, count), everything else keeps its
   content and order; the count grows by the size of the source *)
Theorem C39_insert_positions : forall tv start sv j,
  (0 <= start)%Z ->
  let p := Nat.min (Z.to_nat start) (length tv) in
  let r := vec_of (snd (argv_insert (Some tv) start (Some sv))) in
  argv_insert (Some tv) start (Some sv) =
    (RC_SUCCESS, Some (firstn (Z.to_nat start) tv ++ sv ++ skipn (Z.to_nat start) tv)) /\
  length r = length tv + length sv /\
  (j < p -> nth j r [] = nth j tv []) /\
  (p <= j < p + length sv -> nth j r [] = nth (j - p) sv []) /\
  (p + length sv <= j -> nth j r [] = nth (j - length sv) tv []).
Proof.
  intros tv start sv j Hs p r. split; [now apply insert_spec|].
  split; [now apply insert_count | now apply insert_nth].
Qed.
Print Assumptions C39_insert_positions.

(* the one-element case of insert's loops is the code of insert_element *)
Theorem C39_insert_element : forall tv loc s,
  (0 <= loc)%Z -> argv_insert_element (Some tv) loc (Some s) = argv_insert (Some tv) loc (Some [s]).
Proof. reflexivity. Qed.
Print Assumptions C39_insert_element.

(* deletion: positions before start keep their content, those from start on
   receive the content num places further; min(num, count - start) elements go *)
Theorem C39_delete_positions : forall argc v start num j,
  (0 <= start <= Z.of_nat (length v))%Z -> (0 < num)%Z ->
  let r := vec_of (snd (argv_delete argc (Some v) start num)) in
  argv_delete argc (Some v) start num =
    (RC_SUCCESS, (argc - num)%Z, Some (firstn (Z.to_nat start) v ++ skipn (Z.to_nat start + Z.to_nat num) v)) /\
  length r = length v - Nat.min (Z.to_nat num) (length v - Z.to_nat start) /\
  (j < Z.to_nat start -> nth j r [] = nth j v []) /\
  (Z.to_nat start <= j -> nth j r [] = nth (j + Z.to_nat num) v []).
Proof.
  intros argc v start num j Hs Hn r. split; [now apply delete_spec|].
  split; [now apply delete_count | now apply delete_nth].
Qed.
Print Assumptions C39_delete_positions.

(* everything else leaves the vector (and argc) alone *)
Theorem C39_delete_noop : forall argc a start num,
  ((num = 0 \/ start > Z.of_nat (argv_count a) \/ a = None)%Z ->
     argv_delete argc a start num = (RC_SUCCESS, argc, a)) /\
  (forall v, a = Some v -> (num <> 0)%Z -> (start <= Z.of_nat (length v))%Z -> (start < 0 \/ num < 0)%Z ->
     argv_delete argc a start num = (RC_BAD_PARAM, argc, a)).
Proof.
  intros argc a start num. split; [apply delete_noop|].
  intros v -> H1 H2 H3. now apply delete_bad_param.
Qed.
Print Assumptions C39_delete_noop.

(* delete after insert at the same position is the identity *)
Theorem C39_delete_after_insert : forall argc tv start sv,
  (0 <= start <= Z.of_nat (length tv))%Z ->
  argv_delete argc (snd (argv_insert (Some tv) start (Some sv))) start (Z.of_nat (length sv)) =
    (RC_SUCCESS, (argc - Z.of_nat (length sv))%Z, Some tv).
Proof. exact delete_insert. Qed.
Print Assumptions C39_delete_after_insert.

(* beyond the end the insertion appends (documented), so a deletion at [start]
   removes only the part of the source that lies at or after [start] *)
Theorem C39_delete_after_insert_beyond_end : forall argc tv start sv,
  (start > Z.of_nat (length tv))%Z ->
  snd (argv_delete argc (snd (argv_insert (Some tv) start (Some sv))) start (Z.of_nat (length sv))) =
    Some (tv ++ firstn (Z.to_nat start - length tv) sv).
Proof. exact delete_insert_beyond. Qed.
Print Assumptions C39_delete_after_insert_beyond_end.

(* the argc out-parameter is decremented by num_to_delete, not by the number of
   elements that existed: it stays equal to the count iff the range exists *)
Theorem C39_delete_argc : forall v start num,
  (0 <= start <= Z.of_nat (length v))%Z -> (0 < num)%Z ->
  let '(_, argc', a') := argv_delete (Z.of_nat (length v)) (Some v) start num in
  (argc' = Z.of_nat (argv_count a') <-> (start + num <= Z.of_nat (length v))%Z).
Proof. exact delete_argc. Qed.
Print Assumptions C39_delete_argc.

Theorem C39_append_prepend_copy_count_len : forall a x,
  argv_append a x = (S (argv_count a), Some (vec_of a ++ [x])) /\
  argv_append_nosize a x = Some (vec_of a ++ [x]) /\
  argv_prepend_nosize a x = Some (x :: vec_of a) /\
  argv_copy a = a /\
  argv_count a = length (vec_of a) /\
  argv_len None = 0 /\
  (forall v, argv_len (Some v) = ptr_size + fold_right (fun s acc => length s + 1 + ptr_size + acc) 0 v).
Proof.
  intros a x.
  split; [apply append_vec|]. split; [apply append_nosize_vec|]. split; [apply prepend_spec|].
  split; [apply copy_spec|]. split; [now destruct a|]. split; [reflexivity | apply len_spec].
Qed.
Print Assumptions C39_append_prepend_copy_count_len.

Theorem C39_append_unique : forall a x ow,
  (In x (vec_of a) -> argv_append_unique_nosize a x ow = a) /\
  (~ In x (vec_of a) -> argv_append_unique_nosize a x ow = Some (vec_of a ++ [x])).
Proof. exact append_unique_spec. Qed.
Print Assumptions C39_append_unique.

(* every command line made of options written directly (-name / --name naming a
   declared option, followed by its parameters) or as a group of short options
   (-xyz, each letter a declared option, followed by the parameters of x, then
   of y, ...), then the end, or "--" and anything, or a token that does not
   start with '-' and anything: the parser reports exactly these options with
   these parameters, in order (a group counts as its options one by one), and
   that tail; it succeeds unless the tail starts without "--" and unknown
   tokens are not ignored.  [p_argv] is the vector with the groups expanded. *)
Theorem C39_parse_reports_options_and_tail : forall opts ign prog its e,
  Forall (wf_item opts) its -> wf_end e ->
  cmd_parse opts ign (Some (prog :: render_items its ++ render_end e)) =
    mk_parsed (rc_of ign e) (reported (flatten its)) (tail_of e)
              (prog :: render (flatten its) ++ render_end e) false.
Proof. exact parse_items_wf. Qed.
Print Assumptions C39_parse_reports_options_and_tail.

Theorem C39_parse_queries : forall opts p occs name,
  p_params p = reported occs ->
  match find_option opts name with
  | Some k =>
      let mine := filter (fun o => Nat.eqb (oc_k o) k) occs in
      get_ninsts opts p name = length mine /\
      forall inst idx,
        get_param opts p name inst idx =
          if idx <? np_of opts k
          then match nth_error mine inst with Some o => Some (get (oc_ps o) idx) | None => None end
          else None
  | None => get_ninsts opts p name = 0 /\ forall inst idx, get_param opts p name inst idx = None
  end.
Proof.
  intros opts p occs name Hp. destruct (find_option opts name) as [k|] eqn:Hf.
  - now apply queries_wf.
  - split; [now apply (queries_unknown opts p name 0 0) | intros; now apply queries_unknown].
Qed.
Print Assumptions C39_parse_queries.

(* before 37250ca the statement was false for parsec_argv_split_with_empty:
   "a," came back as "a" (the repaired function gives "a," back) *)
Theorem C39_split_with_empty_join_prefix_refuted :
  exists s d,
    argv_join (Prefix.argv_split_with_empty s d) d <> s /\
    argv_join (argv_split_with_empty s d) d = s.
Proof. exists ["a"; ","]%char, ","%char. split; [vm_compute; discriminate | vm_compute; reflexivity]. Qed.
Print Assumptions C39_split_with_empty_join_prefix_refuted.

(* before 6bc250b "reports each declared option with its parameters" was false
   for an option whose second or later parameter is missing after a group of
   short options (-ab x with a taking two parameters): the error path freed
   param->clp_argv and then released param, whose destructor freed it again;
   the repaired parser returns PARSEC_ERROR and reports nothing *)
Theorem C39_parse_missing_parameter_double_free_prefix_refuted :
  exists opts ign av,
    Prefix.p_ub (Prefix.cmd_parse opts ign (Some av)) = true /\
    p_rc (cmd_parse opts ign (Some av)) = RC_ERROR /\
    p_params (cmd_parse opts ign (Some av)) = [].
Proof.
  (* options a (2 parameters) and b (none), command line "p -ab x": the second
     parameter of -a is missing after the first was taken *)
  exists [mk_opt "a" None (Some ["a"; "l"; "p"; "h"; "a"]) 2; mk_opt "b" None None 0]%char,
         false, [["p"]; ["-"; "a"; "b"]; ["x"]]%char.
  repeat split; vm_compute; reflexivity.
Qed.
Print Assumptions C39_parse_missing_parameter_double_free_prefix_refuted.

(* non-vacuity *)
Local Open Scope char_scope.
Example C39_example :
  argv_split [","; "a"; ","; ","; "b"; ","] "," = Some [["a"]; ["b"]] /\
  argv_split_with_empty ["a"; ","; "b"; ","; ","] "," = Some [["a"]; ["b"]; []; []] /\
  argv_join (Some [["a"]; []; ["b"]]) "," = ["a"; ","; ","; "b"] /\
  argv_insert (Some [["a"]; ["b"]; ["c"]]) 1 (Some [["x"]; ["y"]]) =
    (RC_SUCCESS, Some [["a"]; ["x"]; ["y"]; ["b"]; ["c"]]) /\
  argv_delete 5 (Some [["a"]; ["x"]; ["y"]; ["b"]; ["c"]]) 1 2 = (RC_SUCCESS, 3%Z, Some [["a"]; ["b"]; ["c"]]) /\
  (* p --beta -ba 1 2 -- t : one option written directly, then a group of two *)
  let opts := [mk_opt "a" None (Some ["a"; "l"]) 2; mk_opt "b" None (Some ["b"; "e"; "t"; "a"]) 0] in
  let its := [I_direct (mk_occ ["-"; "-"; "b"; "e"; "t"; "a"] 1 []);
              I_group [mk_sopt "b" 1 []; mk_sopt "a" 0 [["1"]; ["2"]]]] in
  Forall (wf_item opts) its /\ wf_end (E_dashdash [["t"]]) /\
  render_items its = [["-"; "-"; "b"; "e"; "t"; "a"]; ["-"; "b"; "a"]; ["1"]; ["2"]] /\
  p_params (cmd_parse opts false (Some (["p"] :: render_items its ++ render_end (E_dashdash [["t"]])))) =
    [(1, []); (1, []); (0, [["1"]; ["2"]])].
Proof.
  do 5 (split; [vm_compute; reflexivity|]).
  intros opts its. split; [|split; [exact I | split; vm_compute; reflexivity]].
  constructor; [|constructor; [|constructor]].
  - split; [|split; [reflexivity | constructor]].
    split; [discriminate|]. left. exists ["b"; "e"; "t"; "a"]. repeat split.
  - split; [discriminate|]. split; [|reflexivity].
    constructor; [|constructor; [|constructor]].
    + split; [discriminate|]. split; [reflexivity|]. split; [reflexivity | constructor].
    + split; [discriminate|]. split; [reflexivity|]. split; [reflexivity|].
      repeat constructor; discriminate.
Qed.
