(* C41 — Info registries return what was set.
   The invariants ([RegInv] in Info/InfoRegProofs.v, the refinement in InfoSpecProofs.v, [Inv],
   [GInv], [J] in InfoConcProofs.v and InfoConcRegProofs.v) and the longer derivations from them
   (P_* in InfoMain.v) are proved there; a theorem that is an invariant
   read at a reached state is proved here.

   [run fx init ops] executes any sequence of client operations (register,
   unregister by held id, unregister of an unheld id, lookup, new array,
   destruct array, set, get, test-and-set) on the model of info.c;
   [reached fx ops] is the state it ends in.  [fx] selects, for each of the
   three defects found, the rule of the unchanged code or of the repaired code
   (notes/findings/C41-*.md); the model that is run against /repo is the one at
   [InfoCode.code_fixes].  The positive theorems below are stated for the
   repaired rules and quantify over every operation sequence; the [_refuted]
   ones show, for each rule of the unchanged code, an operation sequence on
   which the property fails — they are replayed on the real code by the check. *)
From PV Require Import Base.Tac Info.InfoDefs Info.InfoRegProofs Info.InfoSpecProofs Info.InfoMain.
From PV Require Import Info.InfoConcDefs Info.InfoConcProofs Info.InfoConcRegDefs Info.InfoConcRegProofs.
From Coq Require Import NArith.
Local Open Scope nat_scope.

(* after every operation sequence the live entries carry pairwise distinct ids and
   pairwise distinct names, and no id exceeds max_id *)
Theorem C41_ids_distinct : forall fx ops, fx_reg fx = true ->
  NoDup (map e_iid (s_reg (reached fx ops))) /\ NoDup (map e_name (s_reg (reached fx ops))) /\
  (forall e, In e (s_reg (reached fx ops)) -> e_iid e < s_maxp (reached fx ops)).
Proof.
  intros fx ops H. destruct (reached_RegInv fx ops H) as [Hi Hn Hm _].
  split; [eapply incr_NoDup; eauto|]. split; assumption.
Qed.
Print Assumptions C41_ids_distinct.

(* register: a new name gets an id no live entry carries and lookup returns it (with
   its cb_data) from then on; a live name is refused and nothing changes *)
Theorem C41_register_fresh_id : forall fx ops n cb ctor dtor, fx_reg fx = true ->
  let s := reached fx ops in
  let s' := fst (step fx s (Reg n cb ctor dtor)) in
  match snd (step fx s (Reg n cb ctor dtor)) with
  | RReg (Some i) =>
      lookup n (s_reg s) = None /\ (forall e, In e (s_reg s) -> e_iid e <> i) /\
      lookup n (s_reg s') = Some (i, cb) /\ cl_find n (s_cl s') = Some i /\
      (forall m, m <> n -> lookup m (s_reg s') = lookup m (s_reg s))
  | RReg None => lookup n (s_reg s) <> None /\ s' = s
  | _ => False
  end.
Proof. intros fx ops n cb ctor dtor H. exact (P_register fx _ n cb ctor dtor H (reached_RegInv fx ops H)). Qed.
Print Assumptions C41_register_fresh_id.

(* the id the client holds for a name (the one register returned, until the name is
   unregistered: [s_cl]) is the id lookup returns, after every operation sequence *)
Theorem C41_lookup_returns_registered_id : forall fx ops n, fx_reg fx = true ->
  option_map fst (lookup n (s_reg (reached fx ops))) = cl_find n (s_cl (reached fx ops)).
Proof.
  intros fx ops n Hfx. rewrite (ri_cl _ (reached_RegInv fx ops Hfx) n). unfold lookup.
  destruct (find_name n (s_reg (reached fx ops))); reflexivity.
Qed.
Print Assumptions C41_lookup_returns_registered_id.

(* unregister returns the id, frees it (no live entry carries it any more), forgets the
   name, and leaves every other name alone *)
Theorem C41_unregister_frees_id : forall fx ops n i, fx_reg fx = true ->
  let s := reached fx ops in
  cl_find n (s_cl s) = Some i ->
  let s' := fst (step fx s (Unreg n)) in
  (exists ev, snd (step fx s (Unreg n)) = RUnreg (Some i) ev) /\
  lookup n (s_reg s') = None /\ cl_find n (s_cl s') = None /\
  (forall e, In e (s_reg s') -> e_iid e <> i) /\
  (forall m, m <> n -> lookup m (s_reg s') = lookup m (s_reg s)).
Proof. intros fx ops n i H. exact (P_unregister fx _ n i (reached_RegInv fx ops H)). Qed.
Print Assumptions C41_unregister_frees_id.

Theorem C41_unregister_unknown_id : forall fx ops i, fx_reg fx = true ->
  let s := reached fx ops in
  cl_holds i (s_cl s) = false ->
  snd (step fx s (UnregId i)) = RUnreg None [] /\
  s_reg (fst (step fx s (UnregId i))) = s_reg s /\ s_arrs (fst (step fx s (UnregId i))) = s_arrs s.
Proof.
  intros fx ops i Hfx s C.
  destruct (step_unregid_absent fx s i (reached_RegInv fx ops Hfx) C) as (mp' & _ & ->). now repeat split.
Qed.
Print Assumptions C41_unregister_unknown_id.

(* no operation dereferences a missing entry or uses an id above max_id *)
Theorem C41_operations_return : forall fx ops o, fx_reg fx = true ->
  snd (step fx (reached fx ops) o) <> RCrash /\ snd (step fx (reached fx ops) o) <> ROob.
Proof. intros fx ops o H. exact (P_no_crash fx _ o (reached_RegInv fx ops H)). Qed.
Print Assumptions C41_operations_return.

(* for every operation sequence the results — ids erased — are exactly those of the
   dictionary specification [spec_run] (InfoDefs.v): set returns the previous value, get
   the current one or the constructed default, test-and-set stores on a match only and
   returns what is stored, unregister calls the destructor once on each non-NULL value of
   the info and the next holder of the id starts from NULL, lookups give the cb_data *)
Theorem C41_results_refine_dictionary : forall ops,
  erase_all ops (snd (run all_fixed init ops)) = spec_run spec_init ops /\
  length (snd (run all_fixed init ops)) = length ops.
Proof. intros ops. apply run_refines; [apply init_RegInv|apply init_Rel]. Qed.
Print Assumptions C41_results_refine_dictionary.

(* get returns the last value set for that (array, id): whatever is registered,
   unregistered, created, grown, set on other ids or arrays, or read in between *)
Theorem C41_get_returns_last_set : forall ops1 ops2 a n v s1 old,
  step all_fixed (reached all_fixed ops1) (SetV a n v) = (s1, RVal old false []) ->
  v <> 0%N -> Forall (fun o => touches a n o = false) ops2 ->
  snd (step all_fixed (fst (run all_fixed s1 ops2)) (GetV a n)) = RVal v false [].
Proof.
  intros ops1 ops2 a n v s1 old Hstep Hv Hf. eapply get_after_step; eauto. intros H2.
  cbn [spec_step] in *. apply holds_after_write; [|reflexivity].
  intros Hc. rewrite Hc in H2. cbn in H2. discriminate.
Qed.
Print Assumptions C41_get_returns_last_set.

(* test-and-set returns the value that is stored afterwards ... *)
Theorem C41_test_and_set_returns_stored : forall ops1 ops2 a n v old s1 r,
  step all_fixed (reached all_fixed ops1) (Tas a n v old) = (s1, RVal r false []) ->
  r <> 0%N -> Forall (fun o => touches a n o = false) ops2 ->
  snd (step all_fixed (fst (run all_fixed s1 ops2)) (GetV a n)) = RVal r false [].
Proof. exact P_tas_then_get. Qed.
Print Assumptions C41_test_and_set_returns_stored.

(* ... and replaces the current value only when it matches [old] *)
Theorem C41_test_and_set_only_on_match : forall ops a n v old cur,
  cur <> 0%N ->
  snd (step all_fixed (reached all_fixed ops) (GetV a n)) = RVal cur false [] ->
  snd (step all_fixed (reached all_fixed ops) (Tas a n v old)) = RVal (if (cur =? old)%N then v else cur) false [].
Proof. exact P_tas_decides. Qed.
Print Assumptions C41_test_and_set_only_on_match.

(* F1  parsec_info_register sets next_item = NEXT(item) at the hole:
   register a, b; unregister a; register c, d  =>  c and d both get id 0 *)
Theorem C41_ids_distinct_refuted :
  ~ NoDup (map e_iid (s_reg (reached only_reg_unfixed w_id_reuse))) /\
  ~ NoDup (map e_iid (s_reg (reached none_fixed w_id_reuse))) /\
  snd (run none_fixed init w_id_reuse) =
    [RReg (Some 0); RReg (Some 1); RUnreg (Some 0) []; RReg (Some 0); RReg (Some 0)].
Proof.
  split; [|split]; [| |vm_compute; reflexivity];
    intros H; apply nodupb_complete in H; vm_compute in H; discriminate.
Qed.
Print Assumptions C41_ids_distinct_refuted.

(* then unregister(id of c) removes d's entry: d is held but unknown to lookup *)
Theorem C41_lookup_returns_registered_id_refuted :
  let s := reached none_fixed w_wrong_entry in
  cl_find 3 (s_cl s) = Some 0 /\ lookup 3 (s_reg s) = None /\
  cl_find 2 (s_cl s) = None /\ lookup 2 (s_reg s) = Some (0, 7%N).
Proof. vm_compute. repeat split. Qed.
Print Assumptions C41_lookup_returns_registered_id_refuted.

(* and a get through a held id whose entry is gone dereferences NULL *)
Theorem C41_operations_return_refuted :
  snd (step none_fixed (reached none_fixed (removelast w_crash)) (GetV 0 4)) = RCrash.
Proof. vm_compute. reflexivity. Qed.
Print Assumptions C41_operations_return_refuted.

(* F2  parsec_ioa_resize_and_rdlock: memset(&info_objects[known_infos - 1], 0, ns - known_infos):
   set 0x1122334455667788 on the only info, register a second one and use it on the array
   => the stored pointer reads 0x1122334455667700 and the new slot is not NULL *)
Theorem C41_get_returns_last_set_refuted :
  (exists s1 old, step only_ioa_unfixed (reached only_ioa_unfixed [R 0; NewArr]) (SetV 0 0 V1) = (s1, RVal old false []) /\
     Forall (fun o => touches 0 0 o = false) [R 1; GetV 0 1] /\
     snd (step only_ioa_unfixed (fst (run only_ioa_unfixed s1 [R 1; GetV 0 1])) (GetV 0 0))
       = RVal 0x1122334455667700%N false []) /\
  snd (run none_fixed init w_resize) =
    [RReg (Some 0); RArr 0; RVal 0%N false []; RReg (Some 1); RVal POISON false [];
     RVal 0x1122334455667700%N false []] /\
  erase_all w_resize (snd (run only_ioa_unfixed init w_resize)) <> spec_run spec_init w_resize.
Proof.
  split; [|split].
  - eexists. eexists. split; [vm_compute; reflexivity|]. split; [repeat constructor|]. vm_compute. reflexivity.
  - vm_compute. reflexivity.
  - vm_compute. discriminate.
Qed.
Print Assumptions C41_get_returns_last_set_refuted.

(* F3  parsec_info_unregister leaves the slots alone when the info has no destructor:
   the next info that gets the id reads the previous one's value *)
Theorem C41_fresh_info_reads_null_refuted :
  snd (run only_unreg_unfixed init w_stale) =
    [RReg (Some 0); RArr 0; RVal 0%N false []; RUnreg (Some 0) []; RReg (Some 0); RVal V1 false []] /\
  snd (run none_fixed init w_stale) = snd (run only_unreg_unfixed init w_stale) /\
  erase_all w_stale (snd (run only_unreg_unfixed init w_stale)) <> spec_run spec_init w_stale.
Proof. split; [|split]; vm_compute; try reflexivity. discriminate. Qed.
Print Assumptions C41_fresh_info_reads_null_refuted.

(* Concurrent callers (InfoConcDefs.v): any number of threads run test_and_set / set / get on one object array
   (large enough: no resize), one atomic step per scheduling point of the T-sched harness
   (the rwlock's and the list lock's atomic operations, the CAS of test_and_set); [crun]
   folds an arbitrary schedule.  A slot i is used "publish-once" ([once_op]) when its
   test_and_set calls expect NULL and bring a non-NULL value and nobody calls set on it. *)

(* every non-NULL value returned by any call on a publish-once slot is the value the slot
   holds: all callers (test_and_set winners and losers, gets, constructed defaults) agree *)
Theorem C41_conc_all_callers_agree : forall infos progs sched i,
  i < length infos -> (forall p, In p progs -> Forall (once_op i) p) ->
  let c := crun (cinit infos progs) sched in
  forall u th r, nth_error (g_thr c) u = Some th -> In r (c_res th) ->
    res_slot r = i -> res_val r <> 0%N -> res_val r = slot c i.
Proof.
  intros infos progs sched i Hi Hp c u th r. apply Inv_agree. now apply crun_cinit_Inv.
Qed.
Print Assumptions C41_conc_all_callers_agree.

(* at most one winner per expected value NULL: two calls that both got their own value back
   (a test_and_set that stored, a get whose constructed object was installed) brought the same value *)
Theorem C41_conc_single_winner : forall infos progs sched i,
  i < length infos -> (forall p, In p progs -> Forall (once_op i) p) ->
  let c := crun (cinit infos progs) sched in
  forall u1 th1 r1 u2 th2 r2,
    nth_error (g_thr c) u1 = Some th1 -> In r1 (c_res th1) -> res_slot r1 = i ->
    nth_error (g_thr c) u2 = Some th2 -> In r2 (c_res th2) -> res_slot r2 = i ->
    res_val r1 = res_own r1 -> res_own r1 <> 0%N -> res_val r2 = res_own r2 -> res_own r2 <> 0%N ->
    res_own r1 = res_own r2.
Proof.
  intros infos progs sched i Hi Hp c u1 th1 r1 u2 th2 r2 H1 I1 S1 H2 I2 S2 W1 N1 W2 N2.
  pose proof (C41_conc_all_callers_agree infos progs sched i Hi Hp) as A. cbv zeta in A. fold c in A.
  rewrite <- W1, <- W2, (A u1 th1 r1 H1 I1 S1), (A u2 th2 r2 H2 I2 S2) by congruence. reflexivity.
Qed.
Print Assumptions C41_conc_single_winner.

(* any programs, any schedule: an object built by a constructor during a get is the value
   returned, or it lost and is destructed exactly when the info has a destructor *)
Theorem C41_conc_constructed_objects : forall infos progs sched u th j r made dead,
  nth_error (g_thr (crun (cinit infos progs) sched)) u = Some th -> In (RG j r made dead) (c_res th) ->
  (made = 0%N -> dead = []) /\
  (made <> 0%N -> r <> 0%N /\ (r = made -> dead = []) /\
                  (r <> made -> dead = if snd (nth j infos (0%N, false)) then [made] else [])).
Proof.
  intros infos progs sched u th j r made dead Hth Hin.
  destruct (crun_cinit_GInv infos progs sched) as [_ Hall]. destruct (Hall u th Hth) as [_ Hres].
  rewrite Forall_forall in Hres. exact (Hres _ Hin).
Qed.
Print Assumptions C41_conc_constructed_objects.

(* on a publish-once slot an object that was destructed is not the one stored *)
Theorem C41_conc_destructed_not_stored : forall infos progs sched i,
  i < length infos -> (forall p, In p progs -> Forall (once_op i) p) ->
  let c := crun (cinit infos progs) sched in
  forall u th r made dead d, nth_error (g_thr c) u = Some th -> In (RG i r made dead) (c_res th) ->
    In d dead -> d <> slot c i.
Proof.
  intros infos progs sched i Hi Hp c u th r made dead d Hth Hin Hd.
  destruct (C41_conc_constructed_objects infos progs sched u th i r made dead Hth Hin) as [H0 H1].
  destruct (N.eq_dec made 0) as [E|E]; [rewrite (H0 E) in Hd; destruct Hd|].
  destruct (H1 E) as (Hr & Hsame & Hdiff).
  destruct (N.eq_dec r made) as [E2|E2]; [rewrite (Hsame E2) in Hd; destruct Hd|].
  rewrite (Hdiff E2) in Hd. destruct (snd (nth i infos (0%N, false))); [|destruct Hd].
  destruct Hd as [<-|[]]. intros A. apply E2. rewrite A.
  exact (C41_conc_all_callers_agree infos progs sched i Hi Hp u th _ Hth Hin eq_refl Hr).
Qed.
Print Assumptions C41_conc_destructed_not_stored.

(* three threads: one test_and_set, two first gets of a slot with constructor and destructor,
   then another test_and_set; the default built by thread 2 wins, thread 1's is destructed *)
Example C41_conc_example :
  let c := crun (cinit [(5%N, true)] [[CT 0 0xa1%N 0%N]; [CG 0]; [CG 0; CT 0 0xb2%N 0%N]])
                [2; 1; 2; 1; 2; 1; 2; 1; 2; 1; 2; 0; 1; 0; 2; 1; 0; 0; 1; 1; 1; 2; 2; 2; 2; 2; 2; 1; 1] in
  c_all_done c = true /\ slot c 0 = mkobj 5 2 1 /\
  map c_res (g_thr c) = [[RT 0 0xa1%N (mkobj 5 2 1)];
                         [RG 0 (mkobj 5 2 1) (mkobj 5 1 1) [mkobj 5 1 1]];
                         [RT 0 0xb2%N (mkobj 5 2 1); RG 0 (mkobj 5 2 1) (mkobj 5 2 1) []]] /\
  Forall (once_op 0) [CG 0; CT 0 0xb2%N 0%N].
Proof.
  split; [|split; [|split]]; try (vm_compute; reflexivity).
  constructor; [exact I|]. constructor; [|constructor]. intros _. split; [reflexivity|discriminate].
Qed.

(* Concurrent clients of the registry (InfoConcRegDefs.v): any number of threads call register / unregister (of an id they hold) /
   lookup on one registry; each call takes effect atomically at the step that acquires the
   list lock (same InfoDefs.register / unreg_scan / lookup as the sequential model); [rrun]
   folds an arbitrary schedule.  The theorems hold for the repaired insertion rule. *)

(* in every interleaving names and ids are in one-to-one relation *)
Theorem C41_conc_registry_injective : forall fx pre progs sched, fx_reg fx = true ->
  let c := rrun fx (rinit fx pre progs) sched in
  NoDup (map e_iid (h_reg c)) /\ NoDup (map e_name (h_reg c)).
Proof.
  intros fx pre progs sched Hfx c. destruct (rrun_J fx pre progs sched Hfx) as [[Hi Hn _ _] _].
  split; [eapply incr_NoDup; eauto|exact Hn].
Qed.
Print Assumptions C41_conc_registry_injective.

(* of any number of registrations of one name at most one holds at any time, and lookup
   returns the id that registrant was given *)
Theorem C41_conc_one_registrant_per_name : forall fx pre progs sched, fx_reg fx = true ->
  let c := rrun fx (rinit fx pre progs) sched in
  NoDup (map hname (h_held c)) /\
  forall n i t, In (n, i, t) (h_held c) -> option_map fst (lookup n (h_reg c)) = Some i.
Proof.
  intros fx pre progs sched Hfx c. subst c. destruct (rrun_J fx pre progs sched Hfx) as [[Hi Hn Hh He] _].
  split; [exact Hh|]. intros n i t Hin. destruct (He _ _ _ Hin) as (e & He1 & <- & <-).
  unfold lookup. now rewrite (find_name_self _ _ Hn He1).
Qed.
Print Assumptions C41_conc_one_registrant_per_name.

(* whatever a thread sees when it looks at the registry lists each id once and each name once *)
Theorem C41_conc_registry_views : forall fx pre progs sched, fx_reg fx = true ->
  let c := rrun fx (rinit fx pre progs) sched in
  forall u th x l, nth_error (h_thr c) u = Some th -> In x (q_res th) -> x_snap x = Some l ->
    NoDup (map fst l) /\ NoDup (map snd l).
Proof.
  intros fx pre progs sched Hfx c u th x l Hth Hx Hs. destruct (rrun_J fx pre progs sched Hfx) as [_ Hall].
  specialize (Hall u th Hth). rewrite Forall_forall in Hall. specialize (Hall x Hx).
  unfold snap_ok in Hall. now rewrite Hs in Hall.
Qed.
Print Assumptions C41_conc_registry_views.

(* three threads register name 0 at the same moment (name 1 registered before): one succeeds *)
Example C41_conc_registry_example :
  let c := rrun all_fixed (rinit all_fixed [(1, 0)] [[QReg 0; QLook 0]; [QReg 0; QLook 1]; [QLook 0; QReg 0]])
                [0; 1; 2; 2; 1; 0; 0; 1; 2; 0; 1; 2; 0; 1; 2; 0; 1; 2; 0; 1; 2; 0; 1; 2; 0; 1; 2; 1; 1; 1; 1; 1; 1; 0; 0; 2; 2] in
  r_all_done c = true /\ map (fun e => (e_iid e, e_name e)) (h_reg c) = [(0, 1); (1, 0)] /\
  length (filter (fun x => match x_kind x, x_ret x with KReg, Some _ => true | _, _ => false end)
                 (flat_map q_res (h_thr c))) = 1.
Proof. vm_compute. repeat split. Qed.

(* non-vacuity: three infos, a hole in the middle, two more registrations; an array created when only
   two infos existed holds a value, grows when the fifth info is used on it, keeps the
   value; test-and-set on the fresh slot stores, a second one does not; the destructor is
   called at unregistration; the next holder of the id starts from NULL *)
Example C41_example :
  let ops := [Reg 0 1%N 0%N false; Reg 1 2%N 0%N true; NewArr; SetV 0 1 V1; Reg 2 3%N 0%N false;
              Unreg 0; Reg 3 4%N 0%N false; Reg 4 5%N 5%N false;
              GetV 0 4; GetV 0 1; Tas 0 2 9%N 0%N; Tas 0 2 8%N 0%N; Lookup 3; Unreg 1; Reg 5 6%N 0%N false; GetV 0 5] in
  snd (run all_fixed init ops) =
    [RReg (Some 0); RReg (Some 1); RArr 0; RVal 0%N false []; RReg (Some 2);
     RUnreg (Some 0) []; RReg (Some 0); RReg (Some 3);
     RVal (ctorval 5%N 1) true []; RVal V1 false []; RVal 9%N false []; RVal 9%N false [];
     RLook (Some (0, 4%N)); RUnreg (Some 1) [V1]; RReg (Some 1); RVal 0%N false []] /\
  map (fun e => (e_iid e, e_name e)) (s_reg (reached all_fixed ops)) = [(0, 3); (1, 5); (2, 2); (3, 4)] /\
  erase_all ops (snd (run all_fixed init ops)) = spec_run spec_init ops /\
  Forall (fun o => touches 0 1 o = false) [Reg 2 3%N 0%N false; Unreg 0; Reg 3 4%N 0%N false; Reg 4 5%N 5%N false; GetV 0 4].
Proof. vm_compute. repeat split; repeat constructor. Qed.
