(* C27 — Arenas and memory pools never hand out a block twice.
   Each statement follows in a few lines from an invariant of every run; the invariants and their
   preservation by a step are in Arena/ArenaBlocks.v, ArenaSizes.v, ArenaCounters.v, ArenaMempool.v.
   Models: Arena/ArenaDefs.v
     astep : atomic-step model of parsec_arena_allocate_device_private / parsec_arena_get_chunk /
             parsec_arena_release_chunk (arena.c); one step = the code between two scheduling points
             (each parsec_atomic_* RMW on used/released, each LIFO operation, each operation start);
             [astep false] is the code of the repository ([arun] = runs of it), [astep true] the code with
             notes/findings/C27-cache-limit-race.patch applied ([arun_gen true]);
     mstep : the thread memory pools of mempool.c / mempool.h.
   A run is [fold_left step sched init]: the schedule is an arbitrary list of thread ids, the number of
   threads is the length of [progs], each thread runs an arbitrary op list; [ORel k] / [OGive k u]
   designate the k-th block the thread currently holds (a thread can only release what it holds).
   [fails] = the allocator calls that return NULL.  INT32_MAX in p_mu / p_mr means "no limit". *)
From PV Require Import Base.Tac Base.ListX Arena.ArenaDefs Arena.ArenaBase Arena.ArenaBlocks Arena.ArenaSizes
  Arena.ArenaCounters Arena.ArenaMempool.
Local Open Scope Z_scope.

(* thr_blocks th = the blocks thread th was handed and still has, plus the one an operation in progress
   carries.  No block is in two hands, none is twice in one hand, none is both in hand and in the cache. *)
Theorem C27_arena_never_twice : forall P fails progs sched,
  let c := arun P fails (ainit progs) sched in
  (forall t u th tu b, nth_error (a_thr c) t = Some th -> nth_error (a_thr c) u = Some tu ->
     In b (thr_blocks th) -> In b (thr_blocks tu) -> t = u) /\
  (forall t th, nth_error (a_thr c) t = Some th -> NoDup (thr_blocks th) /\
     forall b, In b (thr_blocks th) -> ~ In b (a_lifo c)) /\
  NoDup (a_lifo c).
Proof.
  intros P fails progs sched c. apply (disjoint_parts thr_blocks). intros b.
  apply (binv_run false P fails progs sched b).
Qed.
Print Assumptions C27_arena_never_twice.

Theorem C27_arena_blocks_allocated_not_freed : forall P fails progs sched,
  let c := arun P fails (ainit progs) sched in
  forall b, In b (all_blocks c) -> (b < length (a_allocs c))%nat /\ ~ In b (a_freed c).
Proof.
  intros P fails progs sched c b Hb. destruct (binv_run false P fails progs sched : BInv c) with b as (_ & H2 & H3).
  apply occ_pos_iff in Hb. split.
  - exact (H2 Hb).
  - intros Hf. destruct (H3 Hf). lia.
Qed.
Print Assumptions C27_arena_blocks_allocated_not_freed.

Theorem C27_arena_block_sizes : forall P fails progs sched,
  let c := arun P fails (ainit progs) sched in
  (forall t th b cnt, nth_error (a_thr c) t = Some th -> In (b, cnt) (t_held th) ->
     nth_error (a_allocs c) b = Some (chunk_size (p_es P) (p_al P) cnt)) /\
  (forall b, In b (a_lifo c) -> nth_error (a_allocs c) b = Some (chunk_size (p_es P) (p_al P) 1)).
Proof.
  intros P fails progs sched c. pose proof (sinv_run false P fails progs sched : SInv P c) as H. split.
  - intros t th b cnt E Hb. apply (H (b, cnt)). eapply old_held; eassumption.
  - intros b Hb. apply (H (b, 1%positive)). apply old_lifo. assumption.
Qed.
Print Assumptions C27_arena_block_sizes.

(* what the code guarantees: for an arena accepted by the constructor, whatever address [base] the allocator
   returned for a held block, the data pointer base + data_off lies after the chunk header, is a multiple of
   the alignment, and count * elem_size bytes from it stay inside the sz bytes that were allocated *)
Theorem C27_arena_aligned_and_sized : forall P fails progs sched,
  let c := arun P fails (ainit progs) sched in
  1 < p_al P -> Z.land (p_al P) (p_al P - 1) = 0 -> 0 <= p_es P ->
  forall t th b cnt sz base, nth_error (a_thr c) t = Some th -> In (b, cnt) (t_held th) ->
    nth_error (a_allocs c) b = Some sz -> 0 <= base ->
    HDR <= data_off base (p_al P) /\
    (base + data_off base (p_al P)) mod p_al P = 0 /\
    data_off base (p_al P) + p_es P * Z.pos cnt <= sz.
Proof.
  intros P fails progs sched c Ha Hl Hes t th b cnt sz base E Hb Hsz Hbase.
  destruct (C27_arena_block_sizes P fails progs sched) as [Hs _]. fold c in Hs.
  rewrite (Hs t th b cnt E Hb) in Hsz. inv Hsz. apply chunk_fits; assumption.
Qed.
Print Assumptions C27_arena_aligned_and_sized.

Theorem C27_construct_limits : forall es al ma mc P, 0 <= es -> 0 <= ma -> 0 <= mc ->
  arena_construct es al ma mc = Some P ->
  p_es P = es /\ p_al P = al /\ 0 < es /\ 1 < al /\ Z.land al (al - 1) = 0 /\
  p_mu P = Z.min (ma / es) INT32_MAX /\ p_mr P = Z.min (mc / es) INT32_MAX /\
  0 <= p_mu P <= INT32_MAX /\ 0 <= p_mr P <= INT32_MAX.
Proof.
  intros es al ma mc P Hes Hma Hmc. unfold arena_construct, limit.
  destruct (al <=? 1) eqn:E1; cbn [orb]; [discriminate|].
  destruct (Z.land al (al - 1) =? 0) eqn:E2; cbn [negb]; [|discriminate].
  destruct (es =? 0) eqn:E3; [discriminate|]. intros Hc. inv Hc. cbn [p_es p_al p_mu p_mr].
  assert (0 <= ma / es) by (apply Z.div_pos; lia). assert (0 <= mc / es) by (apply Z.div_pos; lia).
  unfold INT32_MAX in *.
  destruct (ma / es >? 2147483647) eqn:E4; destruct (mc / es >? 2147483647) eqn:E5; repeat split; lia.
Qed.
Print Assumptions C27_construct_limits.
Theorem C27_construct_rejects : forall es al ma mc, arena_construct es al ma mc = None <->
  (al <= 1 \/ Z.land al (al - 1) <> 0 \/ es = 0).
Proof.
  intros es al ma mc. unfold arena_construct.
  destruct (al <=? 1) eqn:E1; cbn [orb]; [split; [intros _; lia|reflexivity]|].
  destruct (Z.land al (al - 1) =? 0) eqn:E2; cbn [negb]; [|split; [intros _; lia|reflexivity]].
  destruct (es =? 0) eqn:E3; [split; [intros _; lia|reflexivity]|].
  split; [discriminate|]. intros [?|[?|?]]; lia.
Qed.
Print Assumptions C27_construct_rejects.

(* a_live = elements currently allocated from the arena: in hand or cached *)
Theorem C27_arena_limit_respected : forall P fails progs sched, p_mu P <> INT32_MAX -> 0 <= p_mu P ->
  a_live (arun P fails (ainit progs) sched) <= p_mu P.
Proof. intros P fails progs sched Hmu H0. apply (uinv_run false P fails progs sched Hmu H0). Qed.
Print Assumptions C27_arena_limit_respected.

(* a_pending = sum of the counts of the requests between their increment of `used` and the decrement that
   follows their refusal *)
Theorem C27_arena_used_accounting : forall P fails progs sched, p_mu P <> INT32_MAX -> 0 <= p_mu P ->
  let c := arun P fails (ainit progs) sched in
  a_used c = a_live c + a_pending c /\ 0 <= a_pending c /\ a_used c <= p_mu P + a_pending c.
Proof.
  intros P fails progs sched Hmu H0 c. destruct (uinv_run false P fails progs sched Hmu H0 : UInv P c) as [Hu Hl].
  pose proof (sumT_nonneg thr_pending (a_thr c) thr_pending_nonneg). unfold a_pending in *. lia.
Qed.
Print Assumptions C27_arena_used_accounting.

Theorem C27_arena_used_quiescent : forall P fails progs sched, p_mu P <> INT32_MAX -> 0 <= p_mu P ->
  let c := arun P fails (ainit progs) sched in
  cnt is_gfail (a_thr c) = 0 -> a_used c = a_live c /\ a_used c <= p_mu P.
Proof.
  intros P fails progs sched Hmu H0 c Hq. destruct (uinv_run false P fails progs sched Hmu H0 : UInv P c) as [Hu Hl].
  unfold a_pending in Hu. rewrite (pending_zero _ Hq) in Hu. lia.
Qed.
Print Assumptions C27_arena_used_quiescent.

(* "used never exceeds max_used" read literally is false, even with one thread (increment, test, decrement) *)
Theorem C27_arena_used_transient_exceeds : exists P progs sched,
  p_mu P <> INT32_MAX /\ a_used (arun P [] (ainit progs) sched) > p_mu P.
Proof.
  exists {| p_es := 8; p_al := 8; p_mu := 1; p_mr := 0 |}, [[OGet 1; OGet 1]], [0;0;0;0;0;0]%nat.
  split; [discriminate|]. vm_compute. reflexivity.
Qed.
Print Assumptions C27_arena_used_transient_exceeds.

(* in ANY state: a request whose count would take `used` beyond max_used returns NULL, allocates nothing,
   takes nothing from the cache and restores the counter *)
Theorem C27_arena_refuses_beyond_limit : forall P fails c t th cnt,
  nth_error (a_thr c) t = Some th -> t_pc th = GAdd cnt -> a_used c + Z.pos cnt > p_mu P ->
  let c2 := astep false P fails (astep false P fails c t) t in
  exists th2, nth_error (a_thr c2) t = Some th2 /\ t_log th2 = RNull :: t_log th /\ t_held th2 = t_held th /\
              a_allocs c2 = a_allocs c /\ a_used c2 = a_used c /\ a_lifo c2 = a_lifo c.
Proof.
  intros P fails c t th cnt E Hpc Hgt c2.
  assert (E1 : astep false P fails c t = set_thr (set_used c (a_used c + Z.pos cnt)) t (goto th (GFail cnt))).
  { unfold astep. rewrite E, Hpc. destruct (a_used c + Z.pos cnt >? p_mu P) eqn:Eg; [reflexivity|lia]. }
  unfold c2. rewrite E1. unfold astep. cbn [a_thr set_thr set_used].
  rewrite (nth_upd_same _ _ _ _ E). cbn [t_pc goto].
  eexists. split.
  - cbn [a_thr set_thr set_used]. eapply nth_upd_same. apply (nth_upd_same _ _ _ _ E).
  - cbn. repeat split; lia.
Qed.
Print Assumptions C27_arena_refuses_beyond_limit.

Theorem C27_cache_counter_exact : forall P fails progs sched, p_mr P <> INT32_MAX -> 0 <= p_mr P ->
  let c := arun P fails (ainit progs) sched in
  a_rel c = Z.of_nat (length (a_lifo c)) + cnt is_relwin (a_thr c).
Proof. intros P fails progs sched Hmr H0. apply (rinv_run P fails progs sched Hmr H0). Qed.
Print Assumptions C27_cache_counter_exact.

(* The property as stated ("keeps at most its cache limit of released blocks") would be
     forall P fails progs sched, p_mr P <> INT32_MAX -> 0 <= p_mr P ->
       Z.of_nat (length (a_lifo (arun P fails (ainit progs) sched))) <= p_mr P.
   It is FALSE of the code: release_chunk tests `released < max_released` with a plain read and increments
   in a separate atomic operation.  Witness: elem_size 8, max_cached_memory 8 bytes (1 element), two threads
   that each hold a block and release it; both tests run before either increment; all operations complete,
   released = 2 and two blocks sit in the cache.  (Design study: suspected finding F5.) *)
Theorem C27_cache_bound_refuted : exists P progs sched,
  arena_construct 8 8 80 8 = Some P /\ p_mr P <> INT32_MAX /\
  let c := arun P [] (ainit progs) sched in
  a_rel c > p_mr P /\ Z.of_nat (length (a_lifo c)) > p_mr P /\ cnt a_is_done (a_thr c) = Z.of_nat (length progs).
Proof.
  exists refute_P, refute_progs, refute_sched. split; [reflexivity|]. split; [discriminate|].
  vm_compute. repeat split.
Qed.
Print Assumptions C27_cache_bound_refuted.

(* what does hold for every schedule: max_released + (threads - 1) ... *)
Theorem C27_cache_bound_true : forall P fails progs sched, p_mr P <> INT32_MAX -> 0 <= p_mr P ->
  let c := arun P fails (ainit progs) sched in
  a_rel c <= p_mr P + Z.max 0 (Z.of_nat (length progs) - 1) /\
  Z.of_nat (length (a_lifo c)) <= p_mr P + Z.max 0 (Z.of_nat (length progs) - 1).
Proof.
  intros P fails progs sched Hmr H0 c. destruct (rinv_run P fails progs sched Hmr H0) as [Hr Hb]. fold c in Hr, Hb.
  unfold nthreads in Hb. rewrite (run_nthreads false P fails progs sched : length (a_thr c) = _) in Hb.
  pose proof (cnt_nonneg is_rinc (a_thr c)). pose proof (cnt_nonneg is_relwin (a_thr c)). lia.
Qed.
Print Assumptions C27_cache_bound_true.

(* ... and it is reached (3 threads, max_released 1: released = 3) *)
Theorem C27_cache_bound_tight : exists P progs sched, p_mr P <> INT32_MAX /\
  a_rel (arun P [] (ainit progs) sched) = p_mr P + (Z.of_nat (length progs) - 1).
Proof.
  exists refute_P, [[OGet 1; ORel 0]; [OGet 1; ORel 0]; [OGet 1; ORel 0]],
         [0;0;0; 1;1;1; 2;2;2; 0;1;2; 0;1;2; 0;1;2]%nat.
  split; [discriminate|]. vm_compute. reflexivity.
Qed.
Print Assumptions C27_cache_bound_tight.

(* with the repair of notes/findings/C27-cache-limit-race.patch (fetch_inc(released) < max_released is the
   test, undone by a fetch_dec when it fails) the cache never holds more than max_released blocks, for every
   schedule; the counter itself may overshoot by the number of releases being undone *)
Theorem C27_cache_bound_fixed : forall P fails progs sched, p_mr P <> INT32_MAX -> 0 <= p_mr P ->
  let c := arun_gen true P fails (ainit progs) sched in
  Z.of_nat (length (a_lifo c)) <= p_mr P /\
  a_rel c <= p_mr P + Z.of_nat (length progs).
Proof.
  intros P fails progs sched Hmr H0 c. destruct (finv_run P fails progs sched Hmr H0) as [Hr Hb]. fold c in Hr, Hb.
  pose proof (cnt_nonneg is_relwin (a_thr c)). pose proof (rundo_le_relwin (a_thr c)).
  pose proof (cnt_le_len is_rundo (a_thr c)) as Hlen.
  rewrite (run_nthreads true P fails progs sched : length (a_thr c) = _) in Hlen. lia.
Qed.
Print Assumptions C27_cache_bound_fixed.

(* sequentially the limit is respected: one thread ... *)
Theorem C27_cache_bound_one_thread : forall P fails prog sched, p_mr P <> INT32_MAX -> 0 <= p_mr P ->
  let c := arun P fails (ainit [prog]) sched in
  a_rel c <= p_mr P /\ Z.of_nat (length (a_lifo c)) <= p_mr P.
Proof.
  intros P fails prog sched Hmr H0 c. pose proof (C27_cache_bound_true P fails [prog] sched Hmr H0) as H.
  cbn [length] in H. fold c in H. lia.
Qed.
Print Assumptions C27_cache_bound_one_thread.

(* ... or any number of threads, as long as no two releases are between their test and their increment
   at the same moment of the run *)
Theorem C27_cache_bound_nonoverlapping : forall P fails progs sched, p_mr P <> INT32_MAX -> 0 <= p_mr P ->
  windows_disjoint P fails (ainit progs) sched ->
  let c := arun P fails (ainit progs) sched in
  a_rel c <= p_mr P /\ Z.of_nat (length (a_lifo c)) <= p_mr P.
Proof.
  intros P fails progs sched Hmr H0 Hw c.
  assert (H : a_rel c + cnt is_rinc (a_thr c) <= p_mr P).
  { apply rinv_seq_run; [assumption| |assumption]. cbn [ainit a_rel a_thr]. rewrite cnt_map_false by reflexivity. lia. }
  destruct (rinv_run P fails progs sched Hmr H0) as [Hr _]. fold c in Hr.
  pose proof (cnt_nonneg is_rinc (a_thr c)). pose proof (cnt_nonneg is_relwin (a_thr c)). lia.
Qed.
Print Assumptions C27_cache_bound_nonoverlapping.

Theorem C27_mempool_never_twice : forall progs sched,
  let c := mrun (minit progs) sched in
  NoDup (m_all_blocks c) /\
  (forall t u th tu b, nth_error (m_thr c) t = Some th -> nth_error (m_thr c) u = Some tu ->
     In b (mthr_blocks th) -> In b (mthr_blocks tu) -> t = u).
Proof.
  intros progs sched c. destruct (minv_run progs sched) as (H1 & _). fold c in H1.
  assert (Hle : forall b, occ b (m_all_blocks c) <= 1).
  { intros b. rewrite H1. unfold owner_count. destruct (b <? _)%nat; lia. }
  split; [apply NoDup_occ, Hle | apply (disjoint_parts mthr_blocks _ _ Hle)].
Qed.
Print Assumptions C27_mempool_never_twice.

Theorem C27_mempool_returns_to_owner : forall progs sched,
  let c := mrun (minit progs) sched in
  (forall p l b, nth_error (m_pools c) p = Some l -> In b l -> nth_error (m_owner c) b = Some p) /\
  (forall t th b, nth_error (m_thr c) t = Some th -> In (MGot b) (m_log th) -> nth_error (m_owner c) b = Some t).
Proof.
  intros progs sched c. destruct (minv_run progs sched) as (_ & _ & H3 & _ & _ & H6).
  split; [intros p l b Hp; apply (H3 p l Hp) | intros t th b Ht; apply (H6 t th Ht)].
Qed.
Print Assumptions C27_mempool_returns_to_owner.

Theorem C27_mempool_accounting : forall progs sched,
  let c := mrun (minit progs) sched in
  (forall b, (b < length (m_owner c))%nat -> occ b (m_all_blocks c) = 1) /\
  (forall b, In b (m_all_blocks c) -> (b < length (m_owner c))%nat) /\
  m_usage c = Z.of_nat (length (m_owner c)).
Proof.
  intros progs sched c. destruct (minv_run progs sched) as (H1 & _ & _ & _ & H5 & _). fold c in H1, H5. repeat split.
  - intros b Hb. rewrite H1. unfold owner_count. apply Nat.ltb_lt in Hb. rewrite Hb. reflexivity.
  - intros b Hb. apply occ_pos_iff in Hb. rewrite H1 in Hb. unfold owner_count in Hb.
    destruct (b <? length (m_owner c))%nat eqn:E; [apply Nat.ltb_lt in E; assumption|lia].
  - exact H5.
Qed.
Print Assumptions C27_mempool_accounting.

(* non-vacuity: three threads on an arena with max_used = 4 elements, max_released = 2: blocks are obtained, passed to
   another thread, released (cached and freed), a 2-element block is refused; the state reached has blocks
   in hand, in the cache and freed, requests were refused, and it satisfies the hypotheses of the theorems above *)
Definition ex_P : aparams := {| p_es := 24; p_al := 64; p_mu := 4; p_mr := 2 |}.
Definition ex_progs : list (list op) :=
  [[OGet 1; OGet 1; OGive 0 1; ORel 0]; [OGet 1; OGet 2; ORel 0; ORel 0]; [OGet 1; ORel 0; OGet 1]].
Example C27_example_arena :
  arena_construct 24 64 100 50 = Some ex_P /\
  let c := arun ex_P [] (ainit ex_progs)
             [0;1;2;2;1;0;0;0;1;2;1;0;2;1;0;2;0;1;1;2;0;1;2;0;1;2;1;1;0;2;1;1;0;1;2;0;1;2;0;1;2;0;1;2]%nat in
  map (fun th => map fst (t_held th)) (a_thr c) = [[]; []; [1%nat]] /\
  a_lifo c = [2%nat] /\ a_freed c = [0%nat] /\ a_used c = 2 /\ a_rel c = 1 /\
  cnt a_is_done (a_thr c) = 3 /\
  In RNull (flat_map t_log (a_thr c)).
Proof. split; [reflexivity|]. vm_compute. repeat split; auto 20. Qed.
(* two threads, elements allocated, passed across and freed by the other thread: they go back to their owner's pool *)
Example C27_example_mempool :
  let c := mrun (minit [[MGet; MGet; MGive 0 1; MRel 0]; [MGet; MRel 0; MRel 0; MGet]])
             [0;1;0;1;0;1;0;1;0;1;0;1;1;1;1;1;0;0;1;1]%nat in
  m_pools c = [[2%nat; 0%nat]; []] /\ m_owner c = [0%nat; 1%nat; 0%nat] /\ m_usage c = 3 /\
  map m_held (m_thr c) = [[]; [1%nat]].
Proof. vm_compute. repeat split. Qed.
