(* C40 — Virtual-process maps match their specification.
   The model is VpMap/VpMapDefs.v (parsec/vpmap.c: parsec_vpmap_init,
   _init_from_flat, _init_from_parameters, _init_from_file,
   parse_binding_parameter); the longer proofs are in VpMap/VpMapProofs.v,
   VpMapBinding.v and VpMapHwloc.v.

   [vpmap_init spec file nb R sing] = what parsec_vpmap_init(spec, nb) leaves
   behind on a machine with R binding resources, runtime_singlify_bindings =
   sing, [file] = contents of the file a "file:" specification names (None when
   it cannot be opened): [Map nbvp total vps], [Crash] (the process dies of a
   signal) or [Fatal] (parsec_fatal).

   The property as stated is FALSE of the code for two of its three syntaxes:
   see C40_rr_refuted / C40_rr_never_a_map and C40_file_refuted /
   C40_file_never_a_map.  What holds is stated at full strength. *)
From Coq Require Import Ascii String.
From PV Require Import Base.Tac VpMap.VpMapDefs VpMap.VpMapProofs VpMap.VpMapBinding VpMap.VpMapHwloc.
Local Open Scope Z_scope.

(* flat maps: one virtual process, the requested number of threads, thread i is
   offered a non-empty set of cores inside block i of width step; the blocks lie
   inside the R available cores (so bindings are in range and pairwise disjoint) *)
Theorem C40_flat_map : forall R sing nb, 1 <= nb <= R ->
  exists ths, flat R sing nb = Map 1 nb [ths] /\ length ths = Z.to_nat nb /\
    let step := flat_step R sing nb in
    1 <= step /\ nb * step <= R /\
    forall i, 0 <= i < nb -> exists t, nth_error ths (Z.to_nat i) = Some t /\
      t_ht t = 0 /\ is_fin (t_set t) /\ elems (t_set t) <> [] /\
      Forall (fun x => i * step <= x < (i + 1) * step) (elems (t_set t)).
Proof. exact flat_map. Qed.
Print Assumptions C40_flat_map.

Theorem C40_flat_bindings_in_range : forall R sing nb ths, 1 <= nb <= R -> flat R sing nb = Map 1 nb [ths] ->
  forall t x, In t ths -> In x (elems (t_set t)) -> 0 <= x < R.
Proof.
  intros R sing nb ths Hn Hf t x Ht Hx. destruct (In_nth_error _ _ Ht) as [k Hk].
  destruct (flat_map_nth R sing nb ths k t Hn Hf Hk) as (Hlt & H1 & H2 & _ & _ & HF).
  rewrite Forall_forall in HF. specialize (HF x Hx). nia.
Qed.
Print Assumptions C40_flat_bindings_in_range.

Theorem C40_flat_bindings_disjoint : forall R sing nb ths, 1 <= nb <= R -> flat R sing nb = Map 1 nb [ths] ->
  forall i j ti tj x, nth_error ths i = Some ti -> nth_error ths j = Some tj ->
    In x (elems (t_set ti)) -> In x (elems (t_set tj)) -> i = j.
Proof.
  intros R sing nb ths Hn Hf i j ti tj x Hi Hj Hxi Hxj.
  destruct (flat_map_nth R sing nb ths i ti Hn Hf Hi) as (_ & H1 & _ & _ & _ & HF1).
  destruct (flat_map_nth R sing nb ths j tj Hn Hf Hj) as (_ & _ & _ & _ & _ & HF2).
  rewrite Forall_forall in HF1, HF2. specialize (HF1 x Hxi). specialize (HF2 x Hxj).
  assert (Z.of_nat i = Z.of_nat j) by nia. lia.
Qed.
Print Assumptions C40_flat_bindings_disjoint.

(* from the map to cores (parsec.c: parsec_find_core_by_idx, parsec_select_vpmap_thread_core,
   parsec_apply_vpmap_thread_locations): the indexes of the map are relative to the cpuset the process
   is allowed to use.  For ANY finite cpuset (holes, non-zero first cpu) and any requested number of
   cores, the default flat map binds the requested number of threads (all cores when nb <= 0 or too
   large), each of them to a core of the cpuset *)
Theorem C40_flat_bindings_inside_cpuset : forall allowed sing nb, allowed <> [] -> Forall (fun c => 0 <= c) allowed ->
  exists cores, user_flat_bindings allowed sing nb = Some cores /\
    length cores = Z.to_nat (init_nb (Z.of_nat (length allowed)) nb) /\
    Forall (fun c => In c allowed) cores.
Proof. exact flat_bindings_inside_cpuset. Qed.
Print Assumptions C40_flat_bindings_inside_cpuset.

(* the oversubscription fallback of parsec_select_vpmap_thread_core: whatever the candidates, the cores
   already taken and the fallback remembered so far, the result is an allowed core or "not bound" *)
Theorem C40_select_core_allowed_or_unbound : forall allowed used cands first,
  Forall (fun w => 0 <= w) cands -> (first = -1 \/ In first allowed) ->
  select_core allowed used cands first = -1 \/ In (select_core allowed used cands first) allowed.
Proof. exact select_core_allowed_or_unbound. Qed.
Print Assumptions C40_select_core_allowed_or_unbound.

(* ... hence every flat map, oversubscribed (runtime_num_cores above the allowed cores) or not, on every
   cpuset and in every singlify mode, leaves each thread on an allowed core or unbound *)
Theorem C40_flat_bindings_never_escape : forall allowed sing nb numcores cores, 1 <= Z.of_nat (length allowed) ->
  user_flat_bindings_nc allowed sing nb numcores = Some cores ->
  Forall (fun c => c = -1 \/ In c allowed) cores.
Proof. exact flat_bindings_never_escape. Qed.
Print Assumptions C40_flat_bindings_never_escape.

(* which strings give the flat map: NULL, "flat..." (after an optional
   "display:"), and every string that is none of the documented syntaxes
   (neither flat, hwloc, file: nor a scannable rr:n:p:c) -- malformed
   specifications fall back to the flat map, as the code's warning says *)
Theorem C40_flat_strings : forall s file nb R sing, prefix s_flat (strip_display s) = true ->
  vpmap_init (Some s) file nb R sing = flat R sing nb.
Proof. intros s file nb R sing H. unfold vpmap_init, choose. rewrite H. auto. Qed.
Print Assumptions C40_flat_strings.

Theorem C40_malformed_falls_back_to_flat : forall s file nb R sing, documented s = false ->
  vpmap_init (Some s) file nb R sing = vpmap_init None file nb R sing /\
  vpmap_init (Some s) file nb R sing = flat R sing nb.
Proof.
  intros s file nb R sing H. unfold documented in H. unfold vpmap_init, choose.
  destruct (prefix s_flat (strip_display s)); [discriminate|].
  destruct (prefix s_hwloc (strip_display s)); [discriminate|].
  destruct (prefix s_file (strip_display s)); [discriminate|].
  destruct (prefix s_rr (strip_display s)); auto.
  destruct (scan_rr (strip_display s)) as [[[n p] c]|]; [discriminate|]. auto.
Qed.
Print Assumptions C40_malformed_falls_back_to_flat.

Theorem C40_unreadable_file_falls_back_to_flat : forall s name nb R sing, choose (Some s) = CFile name ->
  vpmap_init (Some s) None nb R sing = flat R sing nb.
Proof. intros s name nb R sing H. unfold vpmap_init. rewrite H. auto. Qed.
Print Assumptions C40_unreadable_file_falls_back_to_flat.

(* the hwloc map (runtime_vpmap=hwloc, parsec_vpmap_init_from_hardware_affinity):
   [sockets] = cores of every object at the socket/NUMA level, each with at
   least one core; nb >= 1 threads requested.  The map has one virtual process
   per socket that receives a thread -- k of them, where the first k-1 sockets
   hold fewer cores than requested and the first k hold enough (or k = all) --
   none of them empty, the thread counts add up to min(nb, all cores), and
   virtual process v sits on the first cores of socket v (hwloc core order) *)
Theorem C40_hwloc_map : forall sockets R sing nb, sockets <> [] -> Forall (fun n => 1 <= n) sockets -> 1 <= nb ->
  exists vs tot, hwloc_map sockets R sing nb = Map (Z.of_nat (length vs)) tot vs /\
    Forall (fun v => v <> []) vs /\
    nthreads vs = Z.min nb (zsum sockets) /\
    (1 <= length vs <= length sockets)%nat /\
    zsum (firstn (length vs - 1) sockets) < Z.min nb (zsum sockets) <= zsum (firstn (length vs) sockets) /\
    (forall v ths, nth_error vs v = Some ths -> exists n, nth_error sockets v = Some n /\
       Z.of_nat (length ths) <= n /\
       ths = map (consolidate sing) (on_cores (zsum (firstn v sockets)) (length ths))).
Proof. exact hwloc_map_spec. Qed.
Print Assumptions C40_hwloc_map.

(* rr:n:p:c : "the runtime creates the requested number of virtual
   processes with the requested thread counts" is refuted.
   parsec_vpmap_init_from_parameters is `parsec_nbvp = n; assert(0); /* TODO */`;
   with NDEBUG the map pointer stays NULL and the consolidation loop of
   parsec_vpmap_init stores through it. *)
Definition rr_2_2_4 : list ascii := list_ascii_of_string "rr:2:2:4".
Theorem C40_rr_refuted : exists s n p c, choose (Some s) = CRR n p c /\ 1 <= n /\ 1 <= p /\ 1 <= c /\
  forall file nb R sing, vpmap_init (Some s) file nb R sing = Crash.
Proof.
  exists rr_2_2_4, 2, 2, 4. split; [reflexivity|]. repeat split; try lia.
Qed.
Print Assumptions C40_rr_refuted.

(* ... and for every string the dispatcher scans as rr:n:p:c: a crash when
   n >= 1, a "map" without any virtual process when n <= 0, the flat map for n = -1 *)
Theorem C40_rr_never_a_map : forall s n p c file nb R sing, choose (Some s) = CRR n p c ->
  (1 <= n -> vpmap_init (Some s) file nb R sing = Crash) /\
  (n <= 0 -> n <> -1 -> vpmap_init (Some s) file nb R sing = Map n (n * p) []) /\
  (n = -1 -> vpmap_init (Some s) file nb R sing = flat R sing nb).
Proof.
  intros s n p c file nb R sing H. unfold vpmap_init. rewrite H. repeat split; intros.
  - replace (n =? -1) with false by lia. replace (1 <=? n) with true by lia. auto.
  - replace (n =? -1) with false by lia. replace (1 <=? n) with false by lia. auto.
  - subst. auto.
Qed.
Print Assumptions C40_rr_never_a_map.

(* file: refuted as well.  Witnesses: the documented one-line file
   ":2:0,1" (rest_of_line is never assigned for a line that starts with ':'),
   a rank-prefixed file with two virtual processes (the NULL test on
   local_vpmap is inverted: the descriptions are not accumulated, and piece
   numbers run past the allocated map), and the empty file (zero VPs). *)
Definition file_colon : list ascii := list_ascii_of_string ":2:0,1" ++ [nl].
Definition file_two : list ascii := list_ascii_of_string "0:2:0,1" ++ [nl] ++ list_ascii_of_string "0:3:2-4" ++ [nl].
Theorem C40_file_refuted :
  from_file 16 0 file_colon = Crash /\ from_file 16 0 file_two = Crash /\ from_file 16 0 [] = Map 0 0 [].
Proof. vm_compute. auto. Qed.
Print Assumptions C40_file_refuted.

(* no readable map file, whatever its contents, produces a map with a virtual process *)
Theorem C40_file_never_a_map : forall R sing content,
  from_file R sing content = Crash \/ from_file R sing content = Fatal \/ from_file R sing content = Map 0 0 [].
Proof. exact file_never_a_map. Qed.
Print Assumptions C40_file_never_a_map.

(* the binding syntaxes of a map file line (parse_binding_parameter): the number of
   thread descriptions is the number of threads requested *)
Theorem C40_binding_counts : forall R nbth b ths, parse_binding R nbth b = BOk ths -> length ths = nbth.
Proof. exact binding_counts. Qed.
Print Assumptions C40_binding_counts.

(* start;end;step : every thread is offered cores of [0,R) only (or none) *)
Theorem C40_binding_range_in_range : forall R nbth b ths, 1 <= R -> bind_range R nbth b = BOk ths ->
  length ths = nbth /\ Forall (okt R) ths.
Proof. exact range_in_range. Qed.
Print Assumptions C40_binding_range_in_range.

(* core list: every thread gets one valid core, or the code's "not bound" marker *)
Theorem C40_binding_list_in_range : forall R nbth b ths, bind_list R nbth b = BOk ths ->
  length ths = nbth /\
  Forall (fun t => t_nbcores t = 1 /\ exists c, t_set t = Fin [c] /\ (0 <= c < R \/ c = unbound_index)) ths.
Proof. exact list_in_range. Qed.
Print Assumptions C40_binding_list_in_range.

(* hexadecimal mask: the validity test is `core > nb_real_cores` and the first
   bit of the mask is never tested: on 4 cores the mask 0x10 binds to core 4 *)
Theorem C40_binding_mask_refuted : exists R nbth b t c, parse_binding R nbth b = BOk [t] /\
  t_set t = Fin [c] /\ ~ (0 <= c < R).
Proof.
  exists 4, 1%nat, (list_ascii_of_string "0x10"), (bound 4), 4. split; [vm_compute; reflexivity|].
  split; [reflexivity|lia].
Qed.
Print Assumptions C40_binding_mask_refuted.

(* core list: a range a-b right after the entry that fills core_tab[nbth-1] is
   stored past the end of the variable-length array (undefined behaviour; kept
   out of the generated cases, the effect of the overrun is not reproducible) *)
Theorem C40_binding_list_overrun_refuted : exists R nbth b, parse_binding R nbth b = BSmash.
Proof. exists 8, 1%nat, (list_ascii_of_string "0-5"). vm_compute. reflexivity. Qed.
Print Assumptions C40_binding_list_overrun_refuted.

(* non-vacuity: 16 cores, 5 threads: blocks of 3; a malformed string gives the
   same map; late singlification keeps the first core of each block *)
Example C40_example :
  vpmap_init (Some (list_ascii_of_string "no-such-map")) None 5 16 0 =
    Map 1 5 [[mkt 3 0 (Fin [0;1;2]); mkt 3 0 (Fin [3;4;5]); mkt 3 0 (Fin [6;7;8]); mkt 3 0 (Fin [9;10;11]);
              mkt 3 0 (Fin [12;13;14])]] /\
  documented (list_ascii_of_string "no-such-map") = false /\
  vpmap_init None None 5 16 1 =
    Map 1 5 [[mkt 3 0 (Fin [0]); mkt 3 0 (Fin [3]); mkt 3 0 (Fin [6]); mkt 3 0 (Fin [9]); mkt 3 0 (Fin [12])]] /\
  parse_binding 16 3 (list_ascii_of_string "1;7;2") = BOk [bound 1; bound 3; bound 5] /\
  hwloc_map [4; 4] 8 0 4 = Map 1 4 [[mkt 1 0 (Fin [0]); mkt 1 0 (Fin [1]); mkt 1 0 (Fin [2]); mkt 1 0 (Fin [3])]] /\
  hwloc_map [2; 2; 2] 6 0 3 = Map 2 4 [[mkt 1 0 (Fin [0]); mkt 1 0 (Fin [1])]; [mkt 1 0 (Fin [2])]] /\
  user_flat_bindings_nc [12; 13; 14; 15] 1 6 6 = Some [12; 12; 12; 12; 12; 12] /\
  user_flat_bindings [2; 3; 5] 0 0 = Some [2; 3; 5] /\ user_flat_bindings [0; 1; 2; 3; 4; 6; 7] 0 2 = Some [0; 3] /\
  user_flat_bindings [0; 1; 2; 3; 4; 6; 7] 1 7 = Some [0; 1; 2; 3; 4; 6; 7].
Proof. vm_compute. repeat split. Qed.
