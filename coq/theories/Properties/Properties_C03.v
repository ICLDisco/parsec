(* C03 — DTD results equal sequential execution in insertion order.
   Statements, each derived in a few lines from the theorems of DTD/DTDSeq.v, DTDChain.v,
   DTDEngine.v, DTDProofs.v, DTDGateProofs.v.

   Model (DTD/DTDDefs.v): an insertion sequence p is a list of tasks, a task a list of
   accesses (datum, R | W | RW) in flow order (a datum may appear several times);
   [dep_fn p k] are the tasks that task k waits for, computed flow by flow from the
   per-datum chain (last writer, readers since) as parsec_insert_dtd_task does;
   [dtd_run body p gate m0 es] folds an ARBITRARY list of events Insert / Begin t / End t
   over the engine (an event the protocol does not allow is a no-op), [gate] is the
   sliding window (any function; progress needs only "insertion is allowed when nothing
   is pending"); [body] is an arbitrary deterministic function of task id and inputs. *)
From PV Require Import Base.Tac DTD.DTDDefs DTD.DTDSeq DTD.DTDChain DTD.DTDEngine DTD.DTDProofs
  DTD.DTDGate DTD.DTDGateProofs.

(* the edges built by insertion point backwards, to conflicting tasks only *)
Theorem C03_edges_sound : forall p k j,
  In j (dep_fn p k) -> j < k /\ conflict (task_at p j) (task_at p k).
Proof. exact deps_sound. Qed.
Print Assumptions C03_edges_sound.

(* ... and every RAW / WAR / WAW conflict of the insertion order is enforced by a path of edges *)
Theorem C03_chain_edges_complete : forall p k i, k < length p -> i < k ->
  conflict (task_at p i) (task_at p k) -> dpath (dep_fn p) i k.
Proof. exact chain_edges_complete. Qed.
Print Assumptions C03_chain_edges_complete.

(* independent of DTD: any execution that respects backward edges covering the conflicts of a
   sequence is observation-equivalent to the sequential execution of that sequence *)
Theorem C03_dag_serialisable : forall body p dep gate m0,
  (forall k j, In j (dep k) -> j < k) ->
  (forall k i, k < length p -> i < k -> conflict (task_at p i) (task_at p k) -> dpath dep i k) ->
  forall es, let s := run body p dep gate m0 es in
  (forall t i, obs s t = Some i -> t < length p /\ i = nth t (fst (seq_dtd body p m0)) []) /\
  (all_done p s = true -> forall d, memo s d = snd (seq_dtd body p m0) d).
Proof. exact dag_serialisable. Qed.
Print Assumptions C03_dag_serialisable.

(* every insertion sequence, every body, every window, every schedule: what a task observes
   and what the data finally hold are the values of the sequential execution in insertion order *)
Theorem C03_observations_sequential : forall body p gate m0 es,
  let s := dtd_run body p gate m0 es in
  (forall t i, obs s t = Some i -> t < length p /\ i = nth t (fst (seq_dtd body p m0)) []) /\
  (all_done p s = true -> forall d, memo s d = snd (seq_dtd body p m0) d).
Proof. intros body p gate m0 es. apply dag_serialisable; [apply dtd_back|apply chain_edges_complete]. Qed.
Print Assumptions C03_observations_sequential.

(* a body is started at most once, exactly once for every task that left the idle state *)
Theorem C03_runs_at_most_once : forall body p gate m0 es t,
  nruns (dtd_run body p gate m0 es) t <= 1 /\
  (nruns (dtd_run body p gate m0 es) t = 1 <-> st (dtd_run body p gate m0 es) t <> Idle).
Proof. intros body p gate m0 es t. apply runs_at_most_once; [apply dtd_back|apply chain_edges_complete]. Qed.
Print Assumptions C03_runs_at_most_once.

(* no deadlock: in every reachable state in which some task is not done an event is enabled,
   for every window that lets the inserting thread insert when nothing is pending *)
Theorem C03_progress : forall body p gate m0, (forall i, gate i i = true) -> forall es,
  all_done p (dtd_run body p gate m0 es) = false ->
  exists e, enabled p (dep_fn p) gate (dtd_run body p gate m0 es) e = true.
Proof. intros body p gate m0 Hgate es. apply progress; [apply dtd_back|apply chain_edges_complete|exact Hgate]. Qed.
Print Assumptions C03_progress.

Theorem C03_stuck_means_all_done : forall body p gate m0, (forall i, gate i i = true) -> forall es,
  (forall e, enabled p (dep_fn p) gate (dtd_run body p gate m0 es) e = false) ->
  all_done p (dtd_run body p gate m0 es) = true.
Proof. intros body p gate m0 Hgate es. apply stuck_means_done; [apply dtd_back|apply chain_edges_complete|exact Hgate]. Qed.
Print Assumptions C03_stuck_means_all_done.

(* every inserted task can run: a complete run exists for every sequence and window *)
Theorem C03_complete_run_exists : forall body p gate m0, (forall i, gate i i = true) ->
  exists es, all_done p (dtd_run body p gate m0 es) = true.
Proof.
  intros body p gate m0 Hgate. exists (seq_sched (length p)).
  destruct (seq_sched_state body p gate m0 Hgate (length p) (le_n _)) as (Hi & Hd & _).
  apply all_done_iff. now split.
Qed.
Print Assumptions C03_complete_run_exists.

(* the window of the runtime satisfies the hypothesis, for every window / threshold value *)
Theorem C03_window_gate_admissible : forall w th i, window_gate w th i i = true.
Proof.
  intros w th i. unfold window_gate. rewrite Nat.sub_diag.
  replace (th <? 0) with false by (symmetry; apply Nat.ltb_ge; lia). now rewrite andb_false_r.
Qed.
Print Assumptions C03_window_gate_admissible.

(* the flow-level mechanism (DTD/DTDGate.v, with the guard of notes/findings/C03-stale-last-user.patch)
   refines the protocol engine: every run of the mechanism on a sequence in which no task names a
   tile twice is a run of the engine whose dependencies are all the earlier conflicting tasks, so
   C03_dag_serialisable applies to it *)
Theorem C03_mechanism_refines_protocol : forall p, norep p -> forall body m0 es,
  exists es', let a := run body p (conf_dep p) no_window m0 es' in
    ins a = g_ins (grun true p es) /\ forall t, st a t = g_st (grun true p es) t.
Proof. exact gate_refines. Qed.
Print Assumptions C03_mechanism_refines_protocol.

(* non-vacuity: 5 tasks over 2 data (read groups, a datum used twice by one task); an
   interleaved schedule with refused events, under the window (1, 0) and without window *)
Definition C03_ex_p : prog := [[(0,RW)]; [(0,R)]; [(0,R);(1,W)]; [(0,RW);(1,R)]; [(1,R);(1,W)]].
Definition C03_ex_es : list event :=
  [Insert; Insert; Begin 1; Begin 0; Insert; End 0; Begin 2; Begin 1; Insert; Begin 3; End 2;
   Insert; Begin 4; End 1; Begin 3; End 3; Begin 4; End 4].
Example C03_example :
  deps_of C03_ex_p = [[]; [0]; [0]; [2; 1; 0; 2]; [2; 3; 2]] /\
  (let s := dtd_run fbody C03_ex_p no_window mem0 C03_ex_es in
   map (obs s) [0;1;2;3;4] = map Some (model_inputs C03_ex_p) /\
   map (memo s) [0;1] = model_final C03_ex_p 2 /\ map (nruns s) [0;1;2;3;4] = [1;1;1;1;1] /\
   all_done C03_ex_p s = true) /\
  model_inputs C03_ex_p = [[100]; [2349]; [2349]; [2349; 41636]; [41636]]%N /\
  model_final C03_ex_p 2 = [14888; 710569]%N /\
  map (st (dtd_run fbody C03_ex_p (window_gate 1 0) mem0
             [Insert; Insert; Begin 0; Insert; End 0; Insert; Insert; Begin 1; Begin 2])) [0;1;2;3;4]
    = [Done; Running; Idle; Idle; Idle].
Proof. vm_compute. repeat split. Qed.
