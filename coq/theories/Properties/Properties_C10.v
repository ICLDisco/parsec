(* C10 — Local termination detection is exact.
   The statements, each derived in a few lines from the invariant [inv_reach] and the theorems of
   TermLocal/TermLocalCore.v, TermLocalSafe.v, TermLocalProofs.v, where the longer proofs are.
   Model: TermLocal/TermLocalDefs.v — atomic-step model of
   parsec/mca/termdet/local/termdet_local_module.c; a program is one operation list per
   thread, a schedule an arbitrary list of thread ids, [run (init rc0 prog) sched] the state
   reached.  [wf_prog] is the static client discipline: exactly one ready; an increment is
   issued by a thread that holds a reference (a previous increment not yet given back, or a
   reference handed over by another thread) or by the ready-caller before its ready;
   decrements give held references back; set_* only by the ready-caller before it hands a
   reference over.  Every theorem below holds for ANY number of threads, ANY program with
   [wf_prog prog = true], ANY schedule (hence in every intermediate state of every run). *)
From PV Require Import Base.Tac Base.ListX TermLocal.TermLocalDefs TermLocal.TermLocalAux
  TermLocal.TermLocalCore TermLocal.TermLocalSafe TermLocal.TermLocalProofs.
Local Open Scope Z_scope.

(* the termination callback starts at most once (and has returned at most as often as it started) *)
Theorem C10_callback_at_most_once : forall rc0 prog sched, wf_prog prog = true ->
  let c := run (init rc0 prog) sched in
  0 <= cbd (shd c) <= cbs (shd c) /\ cbs (shd c) <= 1.
Proof. intros. apply callback_at_most_once, inv_reach; assumption. Qed.
Print Assumptions C10_callback_at_most_once.

(* in every state in which the callback has started: ready has happened (the monitor has left
   NOT_READY, and the ready call began strictly before the callback started), both counters
   are 0, nobody holds a reference, and the callback never saw a non-zero counter *)
Theorem C10_callback_only_when_ready_and_zero : forall rc0 prog sched, wf_prog prog = true ->
  let c := run (init rc0 prog) sched in
  1 <= cbs (shd c) ->
  is_notready (mon (shd c)) = false /\
  0 < rdy_at (shd c) /\ rdy_at (shd c) < cb_at (shd c) /\ cb_at (shd c) <= clk c /\
  nt (shd c) = 0 /\ pa (shd c) = 0 /\ no_refs c /\ cb_bad (shd c) = 0.
Proof. intros. apply callback_only_when_ready_and_zero; [apply inv_reach|]; assumption. Qed.
Print Assumptions C10_callback_only_when_ready_and_zero.

(* ... and they stay 0: however the run continues after the callback started *)
Theorem C10_counters_stay_zero : forall rc0 prog sched more, wf_prog prog = true ->
  1 <= cbs (shd (run (init rc0 prog) sched)) ->
  let c := run (init rc0 prog) (sched ++ more) in
  cbs (shd c) = 1 /\ nt (shd c) = 0 /\ pa (shd c) = 0 /\ no_refs c.
Proof.
  intros rc0 prog sched more Hwf H c.
  assert (Hc : 1 <= cbs (shd c)).
  { unfold c, run. rewrite fold_left_app. pose proof (cbs_mono_run more (run (init rc0 prog) sched)).
    unfold run in *. lia. }
  pose proof (inv_reach rc0 prog (sched ++ more) Hwf) as HI. fold c in HI.
  destruct (callback_only_when_ready_and_zero c HI Hc) as (_ & _ & _ & _ & H1 & H2 & H3 & _).
  destruct (callback_at_most_once c HI) as (_ & H4). split; [lia|]. auto.
Qed.
Print Assumptions C10_counters_stay_zero.

(* TERMINATED (what taskpool_state reports as PARSEC_TERM_TP_TERMINATED = 4) implies that the
   callback ran once and has returned, and the counters are 0 *)
Theorem C10_terminated_implies_callback_returned : forall rc0 prog sched, wf_prog prog = true ->
  let c := run (init rc0 prog) sched in
  is_terminated (mon (shd c)) = true ->
  cbs (shd c) = 1 /\ cbd (shd c) = 1 /\ state_ret (shd c) = 4.
Proof. intros. apply terminated_implies_callback_returned; [apply inv_reach|]; assumption. Qed.
Print Assumptions C10_terminated_implies_callback_returned.

(* when all threads have finished and every reference was given back, termination has been
   reported: the callback ran exactly once, returned, and the state is TERMINATED *)
Theorem C10_termination_reported : forall rc0 prog sched, wf_prog prog = true ->
  let c := run (init rc0 prog) sched in
  all_done c = true -> refs_held c = 0 ->
  cbs (shd c) = 1 /\ cbd (shd c) = 1 /\ is_terminated (mon (shd c)) = true.
Proof. intros. apply termination_reported; [apply inv_reach| |]; assumption. Qed.
Print Assumptions C10_termination_reported.

(* Without the discipline the literal statement ("never reported terminated while a count is
   non-zero") is false: thread 0 gives its last reference back and is about to CAS
   BUSY -> TERMINATING when thread 1, which holds nothing, adds a pending action; the callback
   then starts with nb_pending_actions = 1.  By design of the statement (DESIGN.md F9). *)
Theorem C10_undisciplined_refuted : exists prog sched,
  wf_prog prog = false /\
  let c := run (init 1 prog) sched in
  cbs (shd c) = 1 /\ pa (shd c) = 1 /\ cb_bad (shd c) = 1.
Proof.
  exists [[OAddP 1; OReady; OAddP (-1)]; [OAddP 1]], [0;0;0;0;0;0;0;1;1;0]%nat.
  vm_compute. repeat split.
Qed.
Print Assumptions C10_undisciplined_refuted.

(* Outside the statement of C10, recorded because the model exposes it: ready() retains the
   taskpool AFTER its CAS NOT_READY -> BUSY.  A disciplined run in which another thread gives
   the last reference back inside that window runs the whole termination (callback, TERMINATED,
   OBJ_RELEASE) first; with an initial reference count of 1 the count reaches 0 and obj_release
   is called while thread 0 is still inside ready(), about to retain and read the taskpool.
   Replayed on the real module (corpus / directed case of checks/C10.py: final "dead=1"). *)
Theorem C10_refcount_release_before_retain_witness : exists prog sched,
  wf_prog prog = true /\
  let c := run (init 1 prog) sched in
  dead (shd c) = 1 /\ rc (shd c) = 0 /\ map pc (thrs c) = [R2; Idle].
Proof.
  exists [[OAddP 1; OGive false; OReady]; [OTake false; OAddP (-1)]], [0;0;0;0;0;1;1;1;1;1;1;1]%nat.
  vm_compute. repeat split.
Qed.
Print Assumptions C10_refcount_release_before_retain_witness.

(* non-vacuity: a DTD-like disciplined program (set 0/0, one open pending-action reference,
   two tasks inserted and handed to two workers, ready, reference given back) under an
   interleaving schedule; nb_tasks crosses zero twice; everything finishes, the callback ran once *)
Example C10_example :
  let prog := [[OSetT 0; OSetP 0; OAddP 1; OAddT 1; OGive true; OAddT 1; OGive true; OReady; OAddP (-1)];
               [OTake true; OAddT (-1); OState]; [OTake true; OAddT (-1); OState]] in
  let sched := ([1;2;0;0;0;0;0;0;0;1;2;1;2;0;0;0;1;2] ++ concat (repeat [0;1;2] 30))%nat in
  let c := run (init 1 prog) sched in
  wf_prog prog = true /\ all_done c = true /\ refs_held c = 0 /\ cbs (shd c) = 1 /\
  is_terminated (mon (shd c)) = true.
Proof. vm_compute. repeat split. Qed.
