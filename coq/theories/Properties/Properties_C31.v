(* C31 — Lists and dequeues keep their contents and order.
   The models are ListM/ListMDefs.v (sequential) and ListM/ListMConcDefs.v (threads and the
   list's lock); the lemmas used are in ListM/ListMProofs.v and ListM/ListMConcProofs.v.

   A parsec_list_t (and its dequeue / fifo aliases) is modelled by the Gallina list of
   its (id, priority) items from head to tail, a ring by the list of its items from the
   designated one.  The locked entry points run the same code inside the list's lock;
   their linearizability is proved over ListMConcDefs.v, assuming only that each critical
   section is atomic (the sequential behaviour of every entry point, locked or not, is tied
   to the model by the differential harness). *)
From PV Require Import Base.Tac ListM.ListMDefs ListM.ListMProofs ListM.ListMConcDefs ListM.ListMConcProofs.
From Coq Require Import Permutation.
Local Open Scope Z_scope.

(* every operation sequence, from every state: the items present at the start plus the
   items given to the operations are exactly (as a multiset) the items present at the end
   plus the items returned by pops / chops / removes — nothing is lost, nothing duplicated *)
Theorem C31_conservation : forall ops s,
  Permutation (contents s ++ flat_map op_in ops)
              (contents (fst (run s ops)) ++ flat_map ret_out (snd (run s ops))).
Proof. exact run_conserves. Qed.
Print Assumptions C31_conservation.

Theorem C31_no_duplication : forall ops s,
  NoDup (map iid (contents s ++ flat_map op_in ops)) ->
  NoDup (map iid (contents (fst (run s ops)) ++ flat_map ret_out (snd (run s ops)))).
Proof. intros ops s. apply Permutation_NoDup, Permutation_map, run_conserves. Qed.
Print Assumptions C31_no_duplication.

(* push / pop at both ends behave as a double-ended queue; chains are repeated pushes *)
Theorem C31_deque_laws : forall l x xs,
  pop_front (push_front l x) = (Some x, l) /\
  pop_back (push_back l x) = (Some x, l) /\
  (l <> [] -> pop_front (push_back l x) = (fst (pop_front l), push_back (snd (pop_front l)) x)) /\
  (l <> [] -> pop_back (push_front l x) = (fst (pop_back l), push_front (snd (pop_back l)) x)) /\
  pop_front [] = (None, []) /\ pop_back [] = (None, []) /\
  chain_back l xs = fold_left push_back xs l /\
  chain_front l xs = fold_right (fun y l => push_front l y) l xs /\
  unchain l = (l, []).
Proof.
  intros l x xs. repeat split.
  - apply pop_back_push_back.
  - apply pop_front_push_back.
  - apply pop_back_push_front.
  - apply chain_back_is_pushes.
  - apply chain_front_is_pushes.
Qed.
Print Assumptions C31_deque_laws.

(* fifo: items pushed at the back come out at the front in arrival order *)
Theorem C31_fifo_order : forall l xs,
  drain_front (length (fold_left push_back xs l)) (fold_left push_back xs l) = l ++ xs.
Proof. intros l xs. rewrite drain_front_all. symmetry. apply chain_back_is_pushes. Qed.
Print Assumptions C31_fifo_order.

(* push_sorted never moves the other items; in a non-increasing list it goes after every
   item of priority >= its own (so after the equal ones) and before the smaller ones,
   whichever scan direction the pivot expression selects *)
Theorem C31_push_sorted_placement : forall l x,
  (exists l1 l2, l = l1 ++ l2 /\ push_sorted l x = l1 ++ x :: l2) /\
  (desc l -> exists l1 l2, l = l1 ++ l2 /\ push_sorted l x = l1 ++ x :: l2 /\
     Forall (fun e => prio x <= prio e) l1 /\ Forall (fun e => prio e < prio x) l2).
Proof. exact (fun l x => conj (push_sorted_any l x) (push_sorted_placement l x)). Qed.
Print Assumptions C31_push_sorted_placement.

Theorem C31_push_sorted_sorted : forall l x, desc l ->
  desc (push_sorted l x) /\ Permutation (push_sorted l x) (x :: l) /\
  forall v, withp v (push_sorted l x) = withp v l ++ (if prio x =? v then [x] else []).
Proof.
  intros l x Hd. split; [now apply push_sorted_desc|]. split; [apply push_sorted_perm|].
  intros v. rewrite push_sorted_desc_eq by auto. now apply ins_fwd_withp.
Qed.
Print Assumptions C31_push_sorted_sorted.

(* chain_sorted into a non-increasing list = pushing the items one by one with push_sorted:
   the result is non-increasing, a permutation, and stable (equal priorities: old items
   first, then the chained ones in chain order), whatever the order of the chain *)
Theorem C31_chain_sorted_sorted : forall l items, desc l ->
  chain_sorted l items = fold_left push_sorted items l /\
  desc (chain_sorted l items) /\ Permutation (chain_sorted l items) (l ++ items) /\
  forall v, withp v (chain_sorted l items) = withp v l ++ withp v items.
Proof.
  intros l items Hd. split; [rewrite fold_push_sorted by auto; now apply chain_sorted_fold|].
  split; [now apply chain_sorted_desc|]. split; [apply chain_sorted_perm|].
  intros v. now apply chain_sorted_stable.
Qed.
Print Assumptions C31_chain_sorted_sorted.

(* on any list (sorted or not) chain_sorted loses and duplicates nothing *)
Theorem C31_chain_sorted_any : forall l items, Permutation (chain_sorted l items) (l ++ items).
Proof. exact chain_sorted_perm. Qed.
Print Assumptions C31_chain_sorted_any.

(* sort (bottom-up merge sort): a permutation in NON-DECREASING priority order (natural
   order of the ints: A_LOWER_PRIORITY_THAN_B decides), in which the items of one priority
   appear in the REVERSE of their order in the input *)
Theorem C31_sort_sorted : forall l,
  asc (sort l) /\ Permutation (sort l) l /\ forall v, withp v (sort l) = rev (withp v l).
Proof. exact sort_ok. Qed.
Print Assumptions C31_sort_sorted.

(* hence sort is exactly the mirror image of the stable non-increasing sort that the
   disabled (#if 0) variant of parsec_list_nolock_sort, chain_sorted into the emptied
   list, would compute *)
Theorem C31_sort_is_reversed_stable_sort : forall l, sort l = rev (chain_sorted [] l).
Proof.
  intros l. destruct (sort_ok l) as [Ha [_ Hw]]. apply asc_determined; auto.
  - apply asc_rev, chain_sorted_desc. cbn; auto.
  - intros v. rewrite Hw, withp_rev, chain_sorted_stable by (cbn; auto). reflexivity.
Qed.
Print Assumptions C31_sort_is_reversed_stable_sort.

Theorem C31_sort_not_stable : exists l v, withp v (sort l) <> withp v l.
Proof. exists [(1, 0); (2, 0)], 0. vm_compute. discriminate. Qed.
Print Assumptions C31_sort_not_stable.

(* the order produced by sort is the opposite of the one the sorted insertions maintain *)
Theorem C31_sort_direction_differs : exists l x,
  ~ desc (push_sorted (sort l) x) /\ ~ asc (push_sorted (sort l) x).
Proof.
  exists [(1, 0); (2, 1)], (3, 1).
  replace (push_sorted (sort [(1, 0); (2, 1)]) (3, 1)) with [(3, 1); (1, 0); (2, 1)] by (vm_compute; reflexivity).
  split.
  - intros [_ [H _]]. inv H. cbn in *. lia.
  - intros [H _]. inv H. cbn in *. lia.
Qed.
Print Assumptions C31_sort_direction_differs.

(* ring_push_sorted: a permutation that moves nothing; the item goes BEFORE the first item
   of priority <= its own (before the equal ones), and a non-increasing ring stays so *)
Theorem C31_ring_push_sorted : forall l x,
  Permutation (rins l x) (x :: l) /\
  (exists l1 l2, l = l1 ++ l2 /\ rins l x = l1 ++ x :: l2 /\
     Forall (fun e => prio x < prio e) l1 /\ (desc l -> Forall (fun e => prio e <= prio x) l2)) /\
  (desc l -> desc (rins l x)).
Proof. exact (fun l x => conj (rins_perm l x) (conj (rins_spec l x) (rins_desc l x))). Qed.
Print Assumptions C31_ring_push_sorted.

(* every sequence of order-preserving operations (pops, push_sorted, chain_sorted of any
   chain, remove, ring_push_sorted, ring_chop, chaining the ring sorted, unchain...) keeps
   both lists and the free ring non-increasing *)
Theorem C31_sorted_sequences : forall ops s,
  Forall (fun o => keeps_sorted o = true /\ keeps_ring_sorted o = true) ops ->
  all_sorted s -> all_sorted (fst (run s ops)).
Proof.
  induction ops as [|o ops IH]; intros s Hf Hs; cbn [run fst]; auto. inv Hf.
  pose proof (step_sorted s o (proj1 H1) (proj2 H1) Hs) as H.
  destruct (step s o) as [s1 r]. cbn [fst] in H. specialize (IH s1 H2 H).
  destruct (run s1 ops). auto.
Qed.
Print Assumptions C31_sorted_sequences.

(* and then pop_front returns an item of the highest priority *)
Theorem C31_sorted_pop_front_is_max : forall l x l', desc l -> pop_front l = (Some x, l') ->
  l = x :: l' /\ Forall (fun e => prio e <= prio x) l'.
Proof. intros l x l' Hd E. destruct l; inv E. split; [reflexivity | apply Hd]. Qed.
Print Assumptions C31_sorted_pop_front_is_max.

(* Concurrent use of the locked entry points (ListMConcDefs.v).
   Any number of threads, any programs of locked operations, EVERY schedule, with the
   critical section of each operation atomic (the assumption on the lock) and the
   unlocked emptiness pre-check of the pops a step of its own: the log of linearisation
   points, replayed sequentially with the nolock operations from the initial list, gives
   exactly the logged results and the current list; per thread the logged (operation,
   result) pairs are what the thread has done so far, in program order.  Hence every
   interleaving equals some sequential order of the operations. *)
Theorem C31_locked_linearizable : forall l0 progs sched,
  let c := crun (cinit l0 progs) sched in
  replay l0 (log c) = (lst c, map snd (log c)) /\
  forall t th, nth_error (thrs c) t = Some th ->
    by_thread t (log c) = contributed th /\ nth_error progs t = Some (program_left th).
Proof.
  intros l0 progs sched. cbn zeta. destruct (crun_inv l0 progs sched) as [H1 _ H3]. split; auto.
  intros t th H. destruct (H3 t th H) as [Ha [Hb _]]. auto.
Qed.
Print Assumptions C31_locked_linearizable.

(* a finished thread's part of the log is its whole program, with the results it returned *)
Theorem C31_locked_complete : forall l0 progs sched t th,
  let c := crun (cinit l0 progs) sched in
  nth_error (thrs c) t = Some th -> todo th = [] ->
  nth_error progs t = Some (map fst (by_thread t (log c))) /\
  by_thread t (log c) = map (fun h => (fst (fst (fst h)), snd (fst (fst h)))) (hist th).
Proof.
  intros l0 progs sched t th. cbn zeta. intros H Ht.
  destruct (inv_thr _ _ _ (crun_inv l0 progs sched) t th H) as [Ha [Hb _]].
  assert (Hc : contributed th = map (fun h => (fst (fst (fst h)), snd (fst (fst h)))) (hist th)).
  { unfold contributed. rewrite Ht. destruct (ph th); now rewrite app_nil_r. }
  rewrite Ha, Hc. split; auto. rewrite Hb. f_equal. unfold program_left. rewrite Ht, app_nil_r, map_map. reflexivity.
Qed.
Print Assumptions C31_locked_complete.

Theorem C31_locked_mutual_exclusion : forall l0 progs sched t u tht thu,
  let c := crun (cinit l0 progs) sched in
  nth_error (thrs c) t = Some tht -> nth_error (thrs c) u = Some thu ->
  held tht -> held thu -> t = u.
Proof.
  intros l0 progs sched t u tht thu. cbn zeta. intros Ht Hu H1 H2.
  pose proof (inv_thr _ _ _ (crun_inv l0 progs sched)) as H3.
  apply (H3 t tht Ht) in H1. apply (H3 u thu Hu) in H2. congruence.
Qed.
Print Assumptions C31_locked_mutual_exclusion.

(* under every schedule nothing is lost or duplicated *)
Theorem C31_locked_conservation : forall l0 progs sched,
  let c := crun (cinit l0 progs) sched in
  Permutation (l0 ++ ins_of (log c)) (lst c ++ outs_of (log c)).
Proof. exact (fun l0 progs sched => inv_cons _ _ _ (crun_inv l0 progs sched)). Qed.
Print Assumptions C31_locked_conservation.

(* non-vacuity: a sequence of order-preserving operations with ties from the empty state
   (hypotheses of C31_sorted_sequences hold), and what sort does to ties *)
Example C31_example :
  let ops := [PushSorted false (1, 1); ChainSorted false [(2, 2); (3, 1); (4, 0); (5, 2)];
              PushSorted false (6, 1); PopFront false; RingPushSorted (7, 1); RingPushSorted (8, 1);
              RingPushSorted (9, 2); ChainRingSorted false; Remove false 1%nat] in
  Forall (fun o => keeps_sorted o = true /\ keeps_ring_sorted o = true) ops /\ all_sorted init /\
  l0 (fst (run init ops)) = [(5, 2); (1, 1); (3, 1); (6, 1); (8, 1); (7, 1); (4, 0)] /\
  snd (run init ops) = [RNone; RNone; RNone; RItem (2, 2); RNone; RNone; RNone; RNone; RRemoved (9, 2) (Some (5, 2))] /\
  sort [(1, 2); (2, 2); (4, 2); (3, 1); (5, 0)] = [(5, 0); (3, 1); (4, 2); (2, 2); (1, 2)] /\
  (* two threads appending concurrently, the second overtakes the first between its
     prelude and its lock acquisition; a busy try_pop *)
  (let c := crun (cinit [(1, 0)] [[CPushBack (2, 0); CPopBack false]; [CPushBack (3, 0); CPopFront true]])
                 [0; 1; 1; 1; 0; 1; 1; 0; 0; 0; 0]%nat in
   lst c = [(1, 0); (3, 0)] /\ lock c = None /\
   log c = [(1%nat, CPushBack (3, 0), CNone); (0%nat, CPushBack (2, 0), CNone); (1%nat, CPopFront true, CBusy);
            (0%nat, CPopBack false, CItem (2, 0))]).
Proof. vm_compute. repeat split; repeat constructor. Qed.
