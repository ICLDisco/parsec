(* Proofs about the model of parsec/utils/argv.c (ArgvDefs.v). *)
From Coq Require Import Ascii.
From PV Require Import Base.Tac Argv.ArgvDefs.

Lemma str_eqb_eq : forall a b, str_eqb a b = true <-> a = b.
Proof.
  induction a as [|x a IH]; intros [|y b]; cbn [str_eqb]; split; intro H; try easy.
  - apply andb_true_iff in H as [Hx Hr]. apply Ascii.eqb_eq in Hx. apply IH in Hr. now subst.
  - inv H. apply andb_true_iff; split; [apply Ascii.eqb_refl | now apply IH].
Qed.
Lemma str_eqb_refl : forall a, str_eqb a a = true.
Proof. intro a; now apply str_eqb_eq. Qed.

Lemma nth_firstn_lt {A} : forall n j (l : list A) d, j < n -> nth j (firstn n l) d = nth j l d.
Proof.
  induction n as [|n IH]; intros j l d Hj; [lia|].
  destruct l as [|x l]; [now destruct j|]. destruct j as [|j]; cbn; [easy|]. apply IH; lia.
Qed.
Lemma nth_skipn_plus {A} : forall n j (l : list A) d, nth j (skipn n l) d = nth (n + j) l d.
Proof.
  induction n as [|n IH]; intros j l d; [easy|].
  destruct l as [|x l]; [now destruct j|]. cbn. apply IH.
Qed.
Lemma firstn_app_len {A} : forall (a b : list A), firstn (length a) (a ++ b) = a.
Proof. induction a as [|x a IH]; intro b; cbn; [easy | now rewrite IH]. Qed.
Lemma skipn_app_len {A} : forall (a b : list A) n, skipn (length a + n) (a ++ b) = skipn n b.
Proof. induction a as [|x a IH]; intros b n; cbn; [easy | apply IH]. Qed.
Lemma skipn_pre {A} : forall (a b : list A), skipn (length a) (a ++ b) = b.
Proof. intros. rewrite <- (Nat.add_0_r (length a)). apply skipn_app_len. Qed.

Lemma skipn_nth_cons {A} : forall n (l : list A) d,
  n < length l -> skipn n l = nth n l d :: skipn (S n) l.
Proof.
  induction n as [|n IH]; intros [|x l] d H; cbn [length] in H; try lia; [easy|]. apply IH; lia.
Qed.

(* element j of [firstn st t ++ s ++ skipn st t] *)
Lemma nth_splice : forall (t s : vec) st j,
  st <= length t ->
  nth j (firstn st t ++ s ++ skipn st t) [] =
    if j <? st then nth j t []
    else if j <? st + length s then nth (j - st) s []
    else nth (j - length s) t [].
Proof.
  intros t s st j Hst.
  assert (Hl : length (firstn st t) = st) by (rewrite firstn_length; lia).
  destruct (j <? st) eqn:H1.
  - rewrite app_nth1 by lia. apply nth_firstn_lt; lia.
  - rewrite app_nth2 by lia. rewrite Hl.
    destruct (j <? st + length s) eqn:H2.
    + rewrite app_nth1 by lia. easy.
    + rewrite app_nth2 by lia. rewrite nth_skipn_plus. f_equal. lia.
Qed.

Lemma upd_middle : forall (a : vec) o b x, upd (a ++ o :: b) (length a) x = a ++ x :: b.
Proof. induction a as [|h a IH]; intros o b x; cbn; [easy | now rewrite IH]. Qed.
Lemma get_after : forall (a : vec) w k, get (a ++ w) (length a + k) = nth k w [].
Proof. intros. unfold get. apply app_nth2_plus. Qed.
Lemma app_snoc {A} : forall (l : list A) a l', l ++ a :: l' = (l ++ [a]) ++ l'.
Proof. intros. now rewrite <- app_assoc. Qed.

(* The loops that move cells, on a vector given as what precedes the first cell they touch
   ([a]) and what follows: [copy_in] overwrites as many cells as it is given; [shift_up]
   keeps the first k of the k + n cells [u] and writes its first n after them; [shift_down]
   writes n cells taken k further on. *)
Lemma copy_in_spec : forall src (a old b : vec), length old = length src ->
  copy_in (a ++ old ++ b) (length a) src = a ++ src ++ b.
Proof.
  induction src as [|s r IH]; intros a [|o old] b Hl; cbn [length] in Hl; try easy.
  cbn [copy_in app]. rewrite upd_middle, (app_snoc a s (old ++ b)), (app_snoc a s (r ++ b)), <- (last_length a s).
  apply IH. lia.
Qed.

Lemma firstn_app_le {A} : forall j (l1 l2 : list A), j <= length l1 -> firstn j (l1 ++ l2) = firstn j l1.
Proof. intros. rewrite firstn_app. replace (j - length l1) with 0 by lia. apply app_nil_r. Qed.
Lemma firstn_snoc_nth {A} : forall n (l : list A) d, n < length l -> firstn (S n) l = firstn n l ++ [nth n l d].
Proof.
  induction n as [|n IH]; intros [|x l] d H; cbn [length] in H; try lia; [easy|].
  cbn [firstn nth app]. f_equal. apply IH. lia.
Qed.

Lemma shift_up_spec : forall n (a u t : vec) k, length u = k + n ->
  shift_up (a ++ u ++ t) (length a) k n = a ++ firstn k u ++ firstn n u ++ t.
Proof.
  induction n as [|n IH]; intros a u t k Hl; cbn [shift_up].
  - rewrite Nat.add_0_r in Hl. rewrite <- Hl, firstn_all. reflexivity.
  - (* the cell written is the last of u; the steps that remain read and keep what precedes it *)
    destruct (exists_last (l := u)) as (u' & c & ->); [intros ->; cbn in Hl; lia|].
    rewrite app_length in Hl. cbn [length] in Hl.
    rewrite get_after, <- !app_assoc, (app_assoc a u').
    replace (length a + k + n) with (length (a ++ u')) by (rewrite app_length; lia).
    cbn [app]. rewrite upd_middle, <- app_assoc, IH by lia.
    rewrite (app_snoc u' c t), app_nth1, (firstn_snoc_nth n (u' ++ [c]) []) by (rewrite app_length; cbn [length]; lia).
    rewrite !firstn_app_le, <- !app_assoc by lia. reflexivity.
Qed.

Lemma shift_down_spec : forall n (a w : vec) k, n + k <= length w ->
  shift_down (a ++ w) (length a) k n = a ++ firstn n (skipn k w) ++ skipn n w.
Proof.
  induction n as [|n IH]; intros a w k Hl; cbn [shift_down]; [easy|].
  destruct w as [|x w]; cbn [length] in Hl; [lia|].
  rewrite get_after, upd_middle, app_snoc, <- (last_length a (nth k (x :: w) [])).
  rewrite IH, <- app_assoc by lia.
  rewrite (skipn_nth_cons k (x :: w) []) by (cbn [length]; lia). reflexivity.
Qed.

Lemma append_nosize_vec : forall a x, argv_append_nosize a x = Some (vec_of a ++ [x]).
Proof. now intros [v|] x. Qed.
Lemma append_vec : forall a x, argv_append a x = (S (argv_count a), Some (vec_of a ++ [x])).
Proof.
  intros [v|] x; unfold argv_append; cbn; [|easy].
  rewrite app_length; cbn. f_equal; lia.
Qed.
Lemma append_count : forall a x, fst (argv_append a x) = argv_count (snd (argv_append a x)).
Proof. intros; reflexivity. Qed.

Lemma fold_append_some : forall l v,
  fold_left (fun t s => snd (argv_append t s)) l (Some v) = Some (v ++ l).
Proof.
  induction l as [|x l IH]; intro v; cbn [fold_left]; [now rewrite app_nil_r|].
  rewrite append_vec; cbn [snd vec_of]. now rewrite IH, <- app_assoc.
Qed.

Lemma copy_spec : forall a, argv_copy a = a.
Proof. intros [v|]; cbn [argv_copy]; [|easy]. now rewrite fold_append_some. Qed.

Lemma unique_scan_some : forall v x ow v', unique_scan v x ow = Some v' -> v' = v /\ In x v.
Proof.
  induction v as [|h v IH]; intros x ow v' H; cbn [unique_scan] in H; [easy|].
  destruct (str_eqb x h) eqn:He.
  - apply str_eqb_eq in He; subst h. inv H. split; [now destruct ow | now left].
  - destruct (unique_scan v x ow) as [r|] eqn:Hr; [|easy]. inv H.
    apply IH in Hr as [-> Hin]. split; [easy | now right].
Qed.
Lemma unique_scan_none : forall v x ow, unique_scan v x ow = None -> ~ In x v.
Proof.
  induction v as [|h v IH]; intros x ow H; cbn [unique_scan] in H; [easy|].
  destruct (str_eqb x h) eqn:He; [easy|].
  destruct (unique_scan v x ow) as [r|] eqn:Hr; [easy|].
  intros [->|Hin]; [now rewrite str_eqb_refl in He | now apply IH in Hr].
Qed.
(* present: unchanged, whatever [overwrite]; absent: appended *)
Lemma append_unique_spec : forall a x ow,
  (In x (vec_of a) -> argv_append_unique_nosize a x ow = a) /\
  (~ In x (vec_of a) -> argv_append_unique_nosize a x ow = Some (vec_of a ++ [x])).
Proof.
  intros [v|] x ow; cbn [argv_append_unique_nosize vec_of].
  - destruct (unique_scan v x ow) as [v'|] eqn:Hs.
    + apply unique_scan_some in Hs as [-> Hin]. split; [easy | intro Hn; now elim Hn].
    + apply unique_scan_none in Hs. split; [intro Hin; now elim Hs | easy].
  - split; [easy | intros _; reflexivity].
Qed.

Lemma fold_add_right : forall (f : str -> nat) l a,
  fold_left (fun acc s => acc + f s) l a = a + fold_right (fun s acc => f s + acc) 0 l.
Proof.
  induction l as [|x l IH]; intro a; cbn [fold_left fold_right]; [lia|]. rewrite IH. lia.
Qed.
Lemma join_len_cons : forall x r, join_len (x :: r) = length x + 1 + join_len r.
Proof. intros; unfold join_len; cbn [fold_left]. rewrite !fold_add_right. lia. Qed.
Lemma len_spec : forall v,
  argv_len (Some v) = ptr_size + fold_right (fun s acc => length s + 1 + ptr_size + acc) 0 v.
Proof. intro v. apply (fold_add_right (fun s => length s + 1 + ptr_size)). Qed.
Lemma count_app : forall a x, argv_count (argv_append_nosize a x) = S (argv_count a).
Proof. intros [v|] x; cbn; [rewrite app_length; cbn; lia | easy]. Qed.

Lemma intercalate_cons2 : forall d x y r, intercalate d (x :: y :: r) = x ++ d :: intercalate d (y :: r).
Proof. reflexivity. Qed.
Lemma intercalate_cons_char : forall d c f r, intercalate d ((c :: f) :: r) = c :: intercalate d (f :: r).
Proof. intros d c f [|y r]; reflexivity. Qed.

Lemma join_fill_last : forall d x p, join_fill (length x) x p d = x.
Proof. intros d x p; induction x as [|c x IH]; cbn [length join_fill]; [easy | now rewrite IH]. Qed.
Lemma join_fill_next : forall d x q p n,
  join_fill (length x + S n) x (q :: p) d = x ++ d :: join_fill n q p d.
Proof.
  intros d x q p n; induction x as [|c x IH]; cbn [length Nat.add join_fill app]; [easy | now rewrite IH].
Qed.

(* the fill loop walks the whole suffix but stops after the counted characters *)
Lemma join_fill_prefix : forall d t x m,
  join_fill (length x + join_len (firstn m t)) x t d = intercalate d (x :: firstn m t).
Proof.
  intros d t; induction t as [|q t IH]; intros x [|m]; cbn [firstn];
    try (change (join_len []) with 0; rewrite Nat.add_0_r; apply join_fill_last).
  rewrite join_len_cons, intercalate_cons2, <- IH, <- join_fill_next. f_equal; lia.
Qed.
Lemma join_fill_spec : forall d p pp,
  join_fill (length pp + join_len p) pp p d = intercalate d (pp :: p).
Proof. intros d p pp. generalize (join_fill_prefix d p pp (length p)). now rewrite firstn_all. Qed.

Lemma join_spec : forall a d, argv_join a d = intercalate d (vec_of a).
Proof.
  intros [[|x r]|] d; cbn [argv_join vec_of]; try easy.
  rewrite join_len_cons, <- join_fill_spec. f_equal; lia.
Qed.

Lemma join_len_0 : forall v, join_len v = 0 -> v = [].
Proof. intros [|x r] H; [easy|]. rewrite join_len_cons in H. lia. Qed.

Lemma join_range_spec : forall a start stop d,
  argv_join_range a start stop d = intercalate d (firstn (stop - start) (skipn start (vec_of a))).
Proof.
  intros [v|] start stop d; cbn [argv_join_range vec_of].
  2:{ now rewrite skipn_nil, firstn_nil. }
  destruct v as [|x0 r0] eqn:Hv; [now rewrite skipn_nil, firstn_nil|]. rewrite <- Hv. clear Hv x0 r0.
  destruct (length v <? start) eqn:Hs.
  { rewrite skipn_all2 by lia. now rewrite firstn_nil. }
  destruct (join_len (firstn (stop - start) (skipn start v)) =? 0) eqn:Hz.
  { apply Nat.eqb_eq in Hz. apply join_len_0 in Hz. now rewrite Hz. }
  apply Nat.eqb_neq in Hz.
  assert (Hsk : skipn start v = get v start :: skipn (S start) v).
  { apply skipn_nth_cons. destruct (Nat.eq_dec start (length v)) as [->|]; [|lia].
    now rewrite skipn_all, firstn_nil in Hz. }
  rewrite Hsk in *. destruct (stop - start) as [|m]; [easy|]. cbn [firstn] in *.
  rewrite join_len_cons. replace (length (get v start) + 1 + join_len (firstn m (skipn (S start) v)) - 1)
    with (length (get v start) + join_len (firstn m (skipn (S start) v))) by lia.
  apply join_fill_prefix.
Qed.

(* [fields] and [intercalate]: the mathematical split and join are inverse bijections
   between strings and non-empty vectors of delimiter-free strings *)
Lemma fields_nonnil : forall d s, fields d s <> [].
Proof.
  intros d [|c s]; cbn [fields]; [easy|].
  destruct (Ascii.eqb c d); [easy|]. now destruct (fields d s).
Qed.
Lemma intercalate_fields : forall d s, intercalate d (fields d s) = s.
Proof.
  intros d; induction s as [|c s IH]; cbn [fields]; [easy|].
  destruct (fields d s) as [|f r] eqn:Hf; [now apply fields_nonnil in Hf|].
  destruct (Ascii.eqb c d) eqn:Hc.
  - apply Ascii.eqb_eq in Hc; subst c. rewrite intercalate_cons2. cbn [app]. now f_equal.
  - rewrite intercalate_cons_char. now f_equal.
Qed.
Lemma fields_nodelim : forall d t, ~ In d t -> fields d t = [t].
Proof.
  intros d; induction t as [|c t IH]; intro Hn; cbn [fields]; [easy|].
  destruct (Ascii.eqb c d) eqn:Hc.
  - apply Ascii.eqb_eq in Hc; subst c. elim Hn; now left.
  - rewrite IH; [easy|]. intro Hin; apply Hn; now right.
Qed.
Lemma fields_app_delim : forall d t p, ~ In d t -> fields d (t ++ d :: p) = t :: fields d p.
Proof.
  intros d; induction t as [|c t IH]; intros p Hn; cbn [app fields].
  - now rewrite Ascii.eqb_refl.
  - destruct (Ascii.eqb c d) eqn:Hc.
    + apply Ascii.eqb_eq in Hc; subst c. elim Hn; now left.
    + rewrite IH; [easy|]. intro Hin; apply Hn; now right.
Qed.
Lemma fields_intercalate : forall d v,
  v <> [] -> Forall (fun t => ~ In d t) v -> fields d (intercalate d v) = v.
Proof.
  intros d; induction v as [|x v IH]; intros Hne Hall; [easy|].
  inv Hall. destruct v as [|y v].
  - cbn [intercalate]. now apply fields_nodelim.
  - rewrite intercalate_cons2, fields_app_delim by easy. now rewrite IH.
Qed.
Lemma fields_delimfree : forall d s, Forall (fun t => ~ In d t) (fields d s).
Proof.
  intros d; induction s as [|c s IH]; cbn [fields]; [now constructor|].
  destruct (Ascii.eqb c d) eqn:Hc; [now constructor|].
  apply Ascii.eqb_neq in Hc.
  destruct (fields d s) as [|f r]; [constructor; [|easy]; intros [->|[]]; easy|].
  inv IH. constructor; [|easy]. intros [->|Hin]; easy.
Qed.
Lemma fields_snoc_delim : forall d t, fields d (t ++ [d]) = fields d t ++ [[]].
Proof.
  intros d; induction t as [|c t IH]; cbn [app fields].
  - now rewrite Ascii.eqb_refl.
  - destruct (Ascii.eqb c d); rewrite IH; [easy|].
    destruct (fields d t) as [|f r] eqn:Hf; [now apply fields_nonnil in Hf | easy].
Qed.
Lemma fields_snoc_other : forall d t c, c <> d ->
  exists l f, fields d (t ++ [c]) = l ++ [f ++ [c]].
Proof.
  intros d; induction t as [|a t IH]; intros c Hc; cbn [app fields].
  - apply Ascii.eqb_neq in Hc. rewrite Hc. now exists [], [].
  - destruct (IH c Hc) as (l & f & E). rewrite E.
    destruct (Ascii.eqb a d).
    + now exists ([] :: l), f.
    + destruct l as [|g l]; cbn [app].
      * now exists [], (a :: f).
      * now exists ((a :: g) :: l), f.
Qed.

Lemma strip_cons : forall x l, l <> [] -> strip_last_empty (x :: l) = x :: strip_last_empty l.
Proof. intros x [|y l] H; easy. Qed.
Lemma strip_snoc_empty : forall l, strip_last_empty (l ++ [[]]) = l.
Proof.
  induction l as [|x l IH]; [easy|]. cbn [app].
  rewrite strip_cons by now destruct l. now rewrite IH.
Qed.
Lemma strip_snoc_nonempty : forall l x, x <> [] -> strip_last_empty (l ++ [x]) = l ++ [x].
Proof.
  induction l as [|y l IH]; intros x Hx; cbn [app].
  - destruct x; easy.
  - rewrite strip_cons by now destruct l. now rewrite IH.
Qed.
(* a vector is a fixed point exactly when it is empty or its last element is not "" *)
Lemma strip_fixed : forall v, strip_last_empty v = v <-> (v = [] \/ last v [] <> []).
Proof.
  intro v. destruct v as [|y v]; [split; [now left | easy]|].
  destruct (@exists_last _ (y :: v)) as (l & x & E); [easy|]. rewrite E.
  rewrite last_last. destruct x as [|c x].
  - rewrite strip_snoc_empty. split.
    + intro H. apply (f_equal (@length _)) in H. rewrite app_length in H; cbn in H; lia.
    + intros [H|H]; [now destruct l | easy].
  - rewrite strip_snoc_nonempty by easy. split; [now right | easy].
Qed.
Lemma filter_fixed {A} (f : A -> bool) : forall l, filter f l = l <-> forallb f l = true.
Proof.
  induction l as [|x l IH]; cbn [filter forallb]; [easy|].
  destruct (f x) eqn:Hx; cbn [andb].
  - rewrite <- IH. split; [now injection 1 | now intros ->].
  - split; [|easy]. intro H.
    assert (Hin : In x (filter f l)) by (rewrite H; now left).
    apply filter_In in Hin. destruct Hin; congruence.
Qed.

Lemma scan_spec : forall d s t p, scan d s = (t, p) ->
  s = t ++ p /\ ~ In d t /\ (p = [] \/ exists p1, p = d :: p1).
Proof.
  intros d; induction s as [|c s IH]; intros t p H; cbn [scan] in H.
  - inv H. repeat split; [easy | now left].
  - destruct (Ascii.eqb c d) eqn:Hc.
    + inv H. apply Ascii.eqb_eq in Hc; subst c. repeat split; [easy|]. right; now exists s.
    + destruct (scan d s) as [t' p'] eqn:Hs. inv H.
      destruct (IH _ _ eq_refl) as (E & Hn & Hp). apply Ascii.eqb_neq in Hc.
      repeat split; [now rewrite E at 1 | | easy]. intros [->|Hin]; easy.
Qed.

(* the tokens the two variants are expected to produce: all the fields, or the
   non-empty ones; the empty string has no token at all *)
Definition toks' (include_empty : bool) (d : ascii) (s : list ascii) : list (list ascii) :=
  if include_empty then fields d s else filter nonempty (fields d s).
Definition toks (include_empty : bool) (d : ascii) (s : list ascii) : list (list ascii) :=
  match s with [] => [] | _ :: _ => toks' include_empty d s end.
(* [l] appended to an argv that may still be NULL *)
Definition app_argv (a : option (list (list ascii))) (l : list (list ascii)) : option (list (list ascii)) :=
  match l with [] => a | _ => Some (vec_of a ++ l) end.
Lemma app_argv_cons : forall a x l, app_argv (Some (vec_of a ++ [x])) l = app_argv a (x :: l).
Proof. intros a x [|y l]; cbn [app_argv vec_of]; [easy|]. now rewrite <- app_assoc. Qed.

Lemma toks'_delim : forall ie d p, toks' ie d (d :: p) = (if ie then [[]] else []) ++ toks' ie d p.
Proof. intros ie d p; unfold toks'; cbn [fields]. rewrite Ascii.eqb_refl. now destruct ie. Qed.
Lemma toks'_tok_delim : forall ie d t p, t <> [] -> ~ In d t ->
  toks' ie d (t ++ d :: p) = t :: toks' ie d p.
Proof.
  intros ie d t p Hne Hn; unfold toks'. rewrite fields_app_delim by easy.
  destruct ie; [easy|]. cbn [filter]. now destruct t.
Qed.
Lemma toks'_tok_end : forall ie d t, t <> [] -> ~ In d t -> toks' ie d t = [t].
Proof.
  intros ie d t Hne Hn; unfold toks'. rewrite fields_nodelim by easy.
  destruct ie; cbn; now destruct t.
Qed.

Lemma split_loop_spec : forall fuel ie d s a,
  length s < fuel -> split_loop fuel ie d s a = app_argv a (toks ie d s).
Proof.
  induction fuel as [|f IH]; intros ie d s a Hf; [lia|].
  cbn [split_loop]. destruct s as [|c s']; [easy|].
  (* what happens after "src_string = p + 1" *)
  assert (Hrest : forall p1 a1, length p1 < f ->
            split_loop f ie d p1 (trailing ie p1 a1) = app_argv a1 (toks' ie d p1)).
  { intros p1 a1 Hp. rewrite IH by easy. destruct p1 as [|c1 p1]; [|now destruct ie].
    destruct ie; cbn [trailing toks toks' fields filter nonempty app_argv]; [|easy].
    now rewrite append_vec. }
  unfold toks. remember (c :: s') as s eqn:Es.
  destruct (scan d s) as [tok p] eqn:Hs.
  destruct (scan_spec _ _ _ _ Hs) as (E & Hn & Hp).
  destruct tok as [|t0 tok].
  - (* zero-length argument *)
    cbn [app] in E. destruct Hp as [->|[p1 ->]]; [congruence|]. cbn [tl].
    rewrite Hrest by (rewrite E in Hf; cbn in Hf; lia).
    rewrite E, toks'_delim. destruct ie; cbn [app]; [|easy].
    rewrite append_vec; cbn [snd]. apply app_argv_cons.
  - destruct Hp as [->|[p1 ->]].
    + (* tail argument *)
      rewrite app_nil_r in E. rewrite IH by (rewrite Es in Hf; cbn in Hf |- *; lia).
      cbn [toks app_argv].
      rewrite append_vec; cbn [snd]. rewrite toks'_tok_end by (rewrite E; easy). easy.
    + rewrite Hrest by (rewrite E, app_length in Hf; cbn in Hf; lia).
      rewrite append_vec; cbn [snd]. rewrite E, toks'_tok_delim by easy. apply app_argv_cons.
Qed.

Lemma split_inter_spec : forall s d ie, split_inter s d ie = app_argv None (toks ie d s).
Proof. intros; unfold split_inter. apply split_loop_spec; lia. Qed.
Lemma vec_of_app_argv_none : forall l, vec_of (app_argv None l) = l.
Proof. now intros [|x l]. Qed.

(* what the two functions return, for every string *)
Theorem split_spec : forall s d, vec_of (argv_split s d) = filter nonempty (fields d s).
Proof.
  intros; unfold argv_split. rewrite split_inter_spec, vec_of_app_argv_none. now destruct s.
Qed.
Theorem split_with_empty_spec : forall s d,
  vec_of (argv_split_with_empty s d) = match s with [] => [] | _ :: _ => fields d s end.
Proof. intros; unfold argv_split_with_empty. now rewrite split_inter_spec, vec_of_app_argv_none. Qed.
(* NULL is returned exactly when there is no token *)
Theorem split_null : forall s d ie, split_inter s d ie = None <-> toks ie d s = [].
Proof.
  intros; rewrite split_inter_spec. destruct (toks ie d s); cbn; split; easy.
Qed.

Lemma join_vec : forall a d, argv_join a d = argv_join (Some (vec_of a)) d.
Proof. intros [v|] d; [easy|]. reflexivity. Qed.

Theorem join_split : forall s d,
  argv_join (argv_split s d) d = intercalate d (filter nonempty (fields d s)).
Proof. intros. now rewrite join_spec, split_spec. Qed.

(* [clean] says, syntactically, that no field is empty; with [prev = false] the
   first field has a character already *)
Lemma clean_from_spec : forall d s b,
  clean_from d b s = forallb nonempty (if b then fields d s else tl (fields d s)).
Proof.
  intros d; induction s as [|c s IH]; intro b; cbn [clean_from fields]; [now destruct b|].
  destruct (Ascii.eqb c d).
  - rewrite (IH true). now destruct b.
  - rewrite (IH false). destruct (fields d s) as [|f r] eqn:Hf; [now apply fields_nonnil in Hf|].
    now destruct b.
Qed.

Lemma clean_spec : forall d s, clean d s = forallb nonempty (fields d s).
Proof. intros d s. apply (clean_from_spec d s true). Qed.

Theorem join_split_roundtrip_clean : forall s d,
  argv_join (argv_split s d) d = s <-> (s = [] \/ clean d s = true).
Proof.
  intros s d. rewrite join_split, clean_spec, <- filter_fixed. split.
  - intro H. destruct (filter nonempty (fields d s)) as [|x v] eqn:Hf; [now left|]. right.
    (* the non-empty fields of s are the fields of their join, which is s *)
    rewrite <- H. symmetry. apply fields_intercalate; [easy|].
    rewrite <- Hf. apply Forall_forall. intros t Ht. apply filter_In in Ht as [Ht _].
    eapply Forall_forall in Ht; [|apply fields_delimfree]. easy.
  - intros [->|Hfix]; [easy|]. rewrite Hfix. apply intercalate_fields.
Qed.

Lemma str_cases : forall s : str, s = [] \/ exists t c, s = t ++ [c].
Proof.
  intros [|c s]; [now left|]. right.
  destruct (@exists_last _ (c :: s)) as (t & x & E); [easy|]. now exists t, x.
Qed.

(* no field is dropped: joining gives the string back, for every string *)
Theorem join_split_with_empty : forall s d,
  argv_join (argv_split_with_empty s d) d = s.
Proof.
  intros s d. rewrite join_spec, split_with_empty_spec.
  destruct s as [|c s]; [easy|]. apply intercalate_fields.
Qed.

Lemma nonempty_filter_id : forall v, Forall (fun t : str => t <> []) v -> filter nonempty v = v.
Proof. induction 1 as [|[|c t] v Ht Hv IH]; cbn [filter nonempty]; [easy | easy | now f_equal]. Qed.
Theorem split_join : forall v d,
  Forall (fun t => t <> [] /\ ~ In d t) v ->
  vec_of (argv_split (argv_join (Some v) d) d) = v.
Proof.
  intros v d H. rewrite split_spec, join_spec. cbn [vec_of].
  destruct v as [|x v]; [easy|].
  rewrite fields_intercalate; [| easy | eapply Forall_impl; [|exact H]; now intros t [_ Ht]].
  apply nonempty_filter_id. eapply Forall_impl; [|exact H]. now intros t [Ht _].
Qed.
Theorem split_with_empty_join_iff : forall v d,
  Forall (fun t => ~ In d t) v ->
  (vec_of (argv_split_with_empty (argv_join (Some v) d) d) = v <-> v <> [[]]).
Proof.
  intros v d H. rewrite split_with_empty_spec, join_spec. cbn [vec_of].
  destruct v as [|x v]; [split; easy|].
  destruct (intercalate d (x :: v)) as [|c s] eqn:Ei.
  - assert (Hf : fields d (intercalate d (x :: v)) = x :: v) by now apply fields_intercalate.
    rewrite Ei in Hf. cbn [fields] in Hf. split; intro Hc; [easy|]. elim Hc. now rewrite <- Hf.
  - rewrite <- Ei. rewrite fields_intercalate by easy. split; [|easy].
    intros _ Hc. rewrite Hc in Ei. cbn in Ei. easy.
Qed.
Theorem split_with_empty_join : forall v d,
  Forall (fun t => t <> [] /\ ~ In d t) v ->
  vec_of (argv_split_with_empty (argv_join (Some v) d) d) = v.
Proof.
  intros v d H. apply split_with_empty_join_iff.
  - eapply Forall_impl; [|exact H]. now intros t [_ Ht].
  - intros ->. inv H. now destruct H2.
Qed.
(* the result of splitting is NULL (not an empty vector) when v is empty *)
Theorem split_join_null : forall d ie, split_inter (argv_join (Some []) d) d ie = None.
Proof. intros d [|]; reflexivity. Qed.

(* the cells of insert, insert_element and prepend: [n] cells from [st] on move
   up to make room for [sv], which is then written at [st] *)
Lemma insert_cells : forall tv fill sv st n,
  length fill = length sv -> st + n = length tv ->
  copy_in (shift_up (tv ++ fill) st (length sv) n) st sv = firstn st tv ++ sv ++ skipn st tv.
Proof.
  intros tv fill sv st n Hf Hn. rewrite <- (firstn_skipn st tv) at 1.
  set (a := firstn st tv). set (m := skipn st tv).
  assert (Ha : length a = st) by (subst a; rewrite firstn_length; lia).
  assert (Hm : length m = n) by (subst m; rewrite skipn_length; lia).
  rewrite <- Ha, <- app_assoc, <- (app_nil_r (m ++ fill)).
  rewrite shift_up_spec by (rewrite app_length; lia).
  rewrite <- Hm, firstn_app_len, app_nil_r. apply copy_in_spec.
  rewrite firstn_length, app_length. lia.
Qed.

Theorem insert_spec : forall tv start sv,
  (0 <= start)%Z ->
  argv_insert (Some tv) start (Some sv) =
    (RC_SUCCESS, Some (firstn (Z.to_nat start) tv ++ sv ++ skipn (Z.to_nat start) tv)).
Proof.
  intros tv start sv Hs. cbn [argv_insert].
  destruct (start <? 0)%Z eqn:Hneg; [lia|].
  destruct (start >? Z.of_nat (length tv))%Z eqn:Hgt.
  - rewrite fold_append_some. rewrite firstn_all2, skipn_all2 by lia. now rewrite app_nil_r.
  - rewrite insert_cells; [easy | apply repeat_length | lia].
Qed.

Lemma prepend_spec : forall a x, argv_prepend_nosize a x = Some (x :: vec_of a).
Proof.
  intros [v|] x; cbn [argv_prepend_nosize vec_of]; [|easy].
  f_equal. now apply (insert_cells v [[]] [x] 0 (length v)).
Qed.

(* the cells of delete: those after the deleted range move down, the vector ends after them *)
Lemma delete_cells : forall v st nm,
  st <= length v ->
  firstn (st + (length v - (st + nm))) (shift_down v st nm (length v - (st + nm))) =
  firstn st v ++ skipn (st + nm) v.
Proof.
  intros v st nm Hst. pose proof (firstn_skipn st v) as E.
  assert (Ha : length (firstn st v) = st) by (rewrite firstn_length; lia).
  revert E Ha. generalize (firstn st v) (skipn st v). intros a w <- <-.
  rewrite app_length, skipn_app_len. replace (length a + length w - (length a + nm)) with (length w - nm) by lia.
  destruct (le_lt_dec nm (length w)) as [Hle|Hgt].
  - (* the cells moved down are all that follows the deleted range *)
    rewrite shift_down_spec, app_assoc, firstn_app_le by (rewrite ?app_length, ?firstn_length, ?skipn_length; lia).
    rewrite firstn_all2 by (rewrite app_length, firstn_length, skipn_length; lia).
    f_equal. apply firstn_all2. rewrite skipn_length. lia.
  - replace (length w - nm) with 0 by lia. cbn [shift_down].
    now rewrite Nat.add_0_r, firstn_app_len, skipn_all2, app_nil_r by lia.
Qed.

Theorem delete_spec : forall argc v start num,
  (0 <= start <= Z.of_nat (length v))%Z -> (0 < num)%Z ->
  argv_delete argc (Some v) start num =
    (RC_SUCCESS, (argc - num)%Z,
     Some (firstn (Z.to_nat start) v ++ skipn (Z.to_nat start + Z.to_nat num) v)).
Proof.
  intros argc v start num Hs Hn. cbn [argv_delete].
  destruct (num =? 0)%Z eqn:H0; [lia|].
  destruct (start >? Z.of_nat (length v))%Z eqn:Hgt; [lia|].
  destruct ((start <? 0)%Z || (num <? 0)%Z) eqn:Hneg; [lia|].
  rewrite <- delete_cells by lia. do 2 f_equal. f_equal; [|f_equal]; lia.
Qed.

(* everything that is not covered by delete_spec leaves the vector alone *)
Theorem delete_noop : forall argc a start num,
  (num = 0 \/ start > Z.of_nat (argv_count a) \/ a = None)%Z ->
  argv_delete argc a start num = (RC_SUCCESS, argc, a).
Proof.
  intros argc [v|] start num H; cbn [argv_delete argv_count] in *; [|easy].
  destruct (num =? 0)%Z eqn:H0; [easy|].
  destruct (start >? Z.of_nat (length v))%Z eqn:Hgt; [easy|].
  destruct H as [H|[H|H]]; [lia | lia | easy].
Qed.
Theorem delete_bad_param : forall argc v start num,
  (num <> 0)%Z -> (start <= Z.of_nat (length v))%Z -> (start < 0 \/ num < 0)%Z ->
  argv_delete argc (Some v) start num = (RC_BAD_PARAM, argc, Some v).
Proof.
  intros argc v start num Hn Hs Hb. cbn [argv_delete].
  destruct (num =? 0)%Z eqn:H0; [lia|].
  destruct (start >? Z.of_nat (length v))%Z eqn:Hgt; [lia|].
  destruct ((start <? 0)%Z || (num <? 0)%Z) eqn:Hneg; [easy | lia].
Qed.

(* inserting and deleting in the middle of a vector, the position given by what precedes it *)
Lemma insert_middle : forall pre post sv,
  argv_insert (Some (pre ++ post)) (Z.of_nat (length pre)) (Some sv) = (RC_SUCCESS, Some (pre ++ sv ++ post)).
Proof. intros. rewrite insert_spec by lia. now rewrite Nat2Z.id, firstn_app_len, skipn_pre. Qed.
Lemma delete_middle : forall argc pre mid post,
  argv_delete argc (Some (pre ++ mid ++ post)) (Z.of_nat (length pre)) (Z.of_nat (length mid)) =
    (RC_SUCCESS, (argc - Z.of_nat (length mid))%Z, Some (pre ++ post)).
Proof.
  intros argc pre [|x mid] post.
  - rewrite delete_noop by now left. cbn [length]. now rewrite Z.sub_0_r.
  - rewrite delete_spec by (rewrite ?app_length; cbn [length]; lia).
    now rewrite !Nat2Z.id, firstn_app_len, skipn_app_len, skipn_pre.
Qed.

(* delete after insert at the same position is the identity *)
Theorem delete_insert : forall argc tv start sv,
  (0 <= start <= Z.of_nat (length tv))%Z ->
  argv_delete argc (snd (argv_insert (Some tv) start (Some sv))) start (Z.of_nat (length sv)) =
    (RC_SUCCESS, (argc - Z.of_nat (length sv))%Z, Some tv).
Proof.
  intros argc tv start sv Hs. rewrite <- (firstn_skipn (Z.to_nat start) tv).
  set (pre := firstn (Z.to_nat start) tv).
  replace start with (Z.of_nat (length pre)) by (subst pre; rewrite firstn_length; lia).
  rewrite insert_middle. apply delete_middle.
Qed.
(* with a start beyond the end the insertion appends, so the deletion at
   [start] does not find what was inserted *)
Theorem delete_insert_beyond : forall argc tv start sv,
  (start > Z.of_nat (length tv))%Z ->
  snd (argv_delete argc (snd (argv_insert (Some tv) start (Some sv))) start (Z.of_nat (length sv))) =
    Some (tv ++ firstn (Z.to_nat start - length tv) sv).
Proof.
  intros argc tv start sv Hs. rewrite insert_spec by lia. cbn [snd].
  rewrite firstn_all2, skipn_all2 by lia. rewrite app_nil_r.
  destruct sv as [|x sv].
  - rewrite delete_noop by now left. cbn [snd]. now rewrite firstn_nil.
  - destruct (Z_le_gt_dec start (Z.of_nat (length (tv ++ x :: sv)))) as [Hle|Hgt].
    + rewrite delete_spec by (cbn [length]; lia). cbn [snd]. f_equal.
      rewrite skipn_all2 by (rewrite app_length in *; cbn [length] in *; lia).
      rewrite app_nil_r. rewrite firstn_app. f_equal. apply firstn_all2; lia.
    + rewrite delete_noop by (right; left; cbn [argv_count]; lia). cbn [snd]. f_equal. f_equal.
      symmetry; apply firstn_all2. rewrite app_length in Hgt. lia.
Qed.

(* positional laws of insert *)
Theorem insert_count : forall tv start sv,
  (0 <= start)%Z ->
  length (vec_of (snd (argv_insert (Some tv) start (Some sv)))) = length tv + length sv.
Proof.
  intros. rewrite insert_spec by easy. cbn [snd vec_of].
  rewrite !app_length, firstn_length, skipn_length. lia.
Qed.
Theorem insert_nth : forall tv start sv j,
  (0 <= start)%Z ->
  let p := Nat.min (Z.to_nat start) (length tv) in
  let r := vec_of (snd (argv_insert (Some tv) start (Some sv))) in
  (j < p -> nth j r [] = nth j tv []) /\
  (p <= j < p + length sv -> nth j r [] = nth (j - p) sv []) /\
  (p + length sv <= j -> nth j r [] = nth (j - length sv) tv []).
Proof.
  intros tv start sv j Hs p r.
  assert (Hr : r = firstn p tv ++ sv ++ skipn p tv).
  { subst r. rewrite insert_spec by easy. cbn [snd vec_of]. subst p.
    destruct (Nat.le_gt_cases (Z.to_nat start) (length tv)).
    - now rewrite Nat.min_l by easy.
    - rewrite Nat.min_r by lia. now rewrite !firstn_all2, !skipn_all2 by lia. }
  rewrite Hr. assert (Hp : p <= length tv) by (subst p; lia).
  rewrite nth_splice by easy. repeat split; intro Hj.
  - destruct (j <? p) eqn:H1; [easy | lia].
  - destruct (j <? p) eqn:H1; [lia|]. destruct (j <? p + length sv) eqn:H2; [easy | lia].
  - destruct (j <? p) eqn:H1; [lia|]. destruct (j <? p + length sv) eqn:H2; [lia | easy].
Qed.
Theorem insert_bozo : forall t start s,
  (t = None \/ (start < 0)%Z -> argv_insert t start s = (RC_BAD_PARAM, t)) /\
  (t <> None -> (0 <= start)%Z -> s = None -> argv_insert t start s = (RC_SUCCESS, t)).
Proof.
  intros [tv|] start s; cbn [argv_insert]; split.
  - intros [H|H]; [easy|]. destruct (start <? 0)%Z eqn:E; [easy | lia].
  - intros _ Hs ->. destruct (start <? 0)%Z eqn:E; [lia | easy].
  - easy.
  - easy.
Qed.

(* positional laws of delete *)
Theorem delete_count : forall argc v start num,
  (0 <= start <= Z.of_nat (length v))%Z -> (0 < num)%Z ->
  length (vec_of (snd (argv_delete argc (Some v) start num))) =
    length v - Nat.min (Z.to_nat num) (length v - Z.to_nat start).
Proof.
  intros. rewrite delete_spec by easy. cbn [snd vec_of].
  rewrite app_length, firstn_length, skipn_length. lia.
Qed.
Theorem delete_nth : forall argc v start num j,
  (0 <= start <= Z.of_nat (length v))%Z -> (0 < num)%Z ->
  let r := vec_of (snd (argv_delete argc (Some v) start num)) in
  (j < Z.to_nat start -> nth j r [] = nth j v []) /\
  (Z.to_nat start <= j -> nth j r [] = nth (j + Z.to_nat num) v []).
Proof.
  intros argc v start num j Hs Hn r. subst r. rewrite delete_spec by easy. cbn [snd vec_of].
  assert (Hl : length (firstn (Z.to_nat start) v) = Z.to_nat start) by (rewrite firstn_length; lia).
  split; intro Hj.
  - rewrite app_nth1 by lia. apply nth_firstn_lt; lia.
  - rewrite app_nth2 by lia. rewrite nth_skipn_plus, Hl. f_equal; lia.
Qed.
(* the argc out-parameter stays equal to the count exactly when the whole
   range exists (it is decremented by num_to_delete, not by what was deleted) *)
Theorem delete_argc : forall v start num,
  (0 <= start <= Z.of_nat (length v))%Z -> (0 < num)%Z ->
  let '(_, argc', a') := argv_delete (Z.of_nat (length v)) (Some v) start num in
  (argc' = Z.of_nat (argv_count a') <-> (start + num <= Z.of_nat (length v))%Z).
Proof.
  intros v start num Hs Hn. rewrite delete_spec by easy. cbn [argv_count].
  rewrite app_length, firstn_length, skipn_length. lia.
Qed.
