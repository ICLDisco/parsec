(* Proofs about the model of parsec/utils/cmd_line.c (ArgvCmdLineDefs.v). *)
From Coq Require Import Ascii.
From PV Require Import Base.Tac Argv.ArgvDefs Argv.ArgvProofs Argv.ArgvCmdLineDefs.

(* the token [tok] names option [k] directly: "--name" or "-name" *)
Definition resolves (opts : list opt) (tok : list ascii) (k : nat) : Prop :=
  tok <> [dash; dash] /\
  ((exists name, tok = dash :: dash :: name /\ find_option opts name = Some k) \/
   (exists name, tok = dash :: name /\ starts_dashdash tok = false /\ find_option opts name = Some k)).

(* one occurrence of an option: its token, the option it names, its parameters *)
Record occ := mk_occ { oc_tok : list ascii; oc_k : nat; oc_ps : list (list ascii) }.
Definition wf_occ (opts : list opt) (o : occ) : Prop :=
  resolves opts (oc_tok o) (oc_k o) /\
  length (oc_ps o) = np_of opts (oc_k o) /\
  Forall (fun p => p <> special_empty_token) (oc_ps o).
Definition render (occs : list occ) : list (list ascii) :=
  flat_map (fun o => oc_tok o :: oc_ps o) occs.
Definition reported (occs : list occ) : list (nat * list (list ascii)) :=
  map (fun o => (oc_k o, oc_ps o)) occs.

(* how the command line ends *)
Inductive ending :=
| E_none
| E_dashdash (rest : list (list ascii))              (* "--" then anything *)
| E_token (u : list ascii) (rest : list (list ascii)). (* a token that does not start with '-', then anything *)
Definition wf_end (e : ending) : Prop :=
  match e with E_token u _ => hd_error u <> Some dash | _ => True end.
Definition render_end (e : ending) : list (list ascii) :=
  match e with E_none => [] | E_dashdash r => [dash; dash] :: r | E_token u r => u :: r end.
Definition tail_of (e : ending) : list (list ascii) :=
  match e with E_none => [] | E_dashdash r => r | E_token u r => u :: r end.
Definition rc_of (ignore_unknown : bool) (e : ending) : rc :=
  match e with E_token _ _ => if ignore_unknown then RC_SUCCESS else RC_ERROR | _ => RC_SUCCESS end.

Lemma get_middle : forall (pre : list (list ascii)) x post, get (pre ++ x :: post) (length pre) = x.
Proof. intros; unfold get. apply nth_middle. Qed.
Lemma skipn_middle : forall (pre : list (list ascii)) x post, skipn (S (length pre)) (pre ++ x :: post) = post.
Proof. intros. rewrite app_snoc, <- (last_length pre x). apply skipn_pre. Qed.
Lemma leb_middle : forall (pre : list (list ascii)) x post, (length (pre ++ x :: post) <=? length pre) = false.
Proof. intros. rewrite app_length. cbn [length]. apply Nat.leb_gt. lia. Qed.
Lemma str_eqb_false : forall a b, a <> b -> str_eqb a b = false.
Proof.
  intros a b H. destruct (str_eqb a b) eqn:E; [|easy]. apply str_eqb_eq in E. easy.
Qed.

Lemma take_params_ok : forall ps pre post acc,
  Forall (fun p => p <> special_empty_token) ps ->
  take_params (length ps) (pre ++ ps ++ post) (length pre) acc = T_ok (acc ++ ps) (length pre + length ps).
Proof.
  induction ps as [|p ps IH]; intros pre post acc Hall; cbn [length take_params].
  - now rewrite app_nil_r, Nat.add_0_r.
  - inv Hall. cbn [app]. rewrite leb_middle, get_middle, str_eqb_false by easy.
    rewrite (app_snoc pre p), <- (last_length pre p).
    rewrite IH by easy. rewrite <- app_assoc. cbn [app]. f_equal.
    rewrite app_length; cbn; lia.
Qed.

(* one iteration on a directly named option *)
Lemma direct_step : forall opts ign o pre rest params f,
  wf_occ opts o ->
  parse_loop (S f) opts ign (pre ++ (oc_tok o :: oc_ps o) ++ rest) (length pre) params =
  parse_loop f opts ign (pre ++ (oc_tok o :: oc_ps o) ++ rest)
             (length pre + length (oc_tok o :: oc_ps o)) (params ++ [(oc_k o, oc_ps o)]).
Proof.
  intros opts ign [tok k ps] pre rest params f ((Hnd & Hres) & Hnp & Hsp).
  cbn [oc_tok oc_k oc_ps] in *. cbn [app]. cbn [parse_loop].
  rewrite leb_middle, get_middle, (str_eqb_false _ _ Hnd).
  assert (Hk : take_params (np_of opts k) (pre ++ tok :: ps ++ rest) (S (length pre)) [] =
               T_ok ps (length pre + length (tok :: ps))).
  { rewrite <- Hnp.
    rewrite (app_snoc pre tok), <- (last_length pre tok).
    rewrite take_params_ok by easy. cbn [app length]. f_equal. rewrite app_length; cbn; lia. }
  destruct Hres as [(name & -> & Hfind) | (name & -> & Hsd & Hfind)].
  - rewrite Ascii.eqb_refl. cbn [negb starts_dashdash]. rewrite Ascii.eqb_refl. cbn [andb tl].
    rewrite Hfind, Hk. easy.
  - rewrite Ascii.eqb_refl. cbn [negb]. rewrite Hsd, Hfind, Hk. easy.
Qed.

(* a run of directly named options, whatever follows *)
Lemma parse_prefix : forall opts ign os pre rest params fuel,
  Forall (wf_occ opts) os ->
  parse_loop (length os + fuel) opts ign (pre ++ render os ++ rest) (length pre) params =
  parse_loop fuel opts ign (pre ++ render os ++ rest) (length pre + length (render os)) (params ++ reported os).
Proof.
  intros opts ign. induction os as [|o os IH]; intros pre rest params fuel Hwf.
  - cbn [render flat_map length reported map app]. now rewrite Nat.add_0_r, app_nil_r.
  - inv Hwf. cbn [render flat_map]. fold (render os). cbn [length Nat.add].
    rewrite <- (app_assoc (oc_tok o :: oc_ps o)). rewrite direct_step by easy.
    rewrite (app_assoc pre (oc_tok o :: oc_ps o)), <- app_length. rewrite IH by easy. f_equal.
    + repeat (rewrite ?app_length; cbn [length]). lia.
    + cbn [reported map]. now rewrite <- app_assoc.
Qed.

(* the iteration that meets the end of the options *)
Lemma end_step : forall opts ign e pre params f,
  wf_end e ->
  parse_loop (S f) opts ign (pre ++ render_end e) (length pre) params =
    mk_parsed (rc_of ign e) params (tail_of e) (pre ++ render_end e) false.
Proof.
  intros opts ign e pre params f He. cbn [parse_loop].
  destruct e as [|r|u r]; cbn [render_end tail_of rc_of].
  - rewrite app_nil_r. rewrite Nat.leb_refl. easy.
  - rewrite leb_middle, get_middle, str_eqb_refl. f_equal. apply skipn_middle.
  - cbn [wf_end] in He. rewrite leb_middle, get_middle, str_eqb_false by (intros ->; now elim He).
    rewrite skipn_pre.
    destruct u as [|c0 rest]; [now destruct ign|].
    destruct (Ascii.eqb c0 dash) eqn:Hc.
    { apply Ascii.eqb_eq in Hc; subst c0. now elim He. }
    cbn [negb]. now destruct ign.
Qed.

(* groups of short options: "-c1c2..cn" followed by the parameters of c1, then
   those of c2, ... *)
Record sopt := mk_sopt { so_c : ascii; so_k : nat; so_ps : list (list ascii) }.
Definition wf_sopt (opts : list opt) (s : sopt) : Prop :=
  so_c s <> dash /\
  find_option opts [so_c s] = Some (so_k s) /\
  length (so_ps s) = np_of opts (so_k s) /\
  Forall (fun p => p <> special_empty_token) (so_ps s).
Definition expand (g : list sopt) : list occ :=
  map (fun s => mk_occ [dash; so_c s] (so_k s) (so_ps s)) g.
Definition group_tok (g : list sopt) : list ascii := dash :: map so_c g.
Definition group_params (g : list sopt) : list (list ascii) := flat_map so_ps g.
(* the letters together must not be a declared name (the parser tries that first) *)
Definition wf_group (opts : list opt) (g : list sopt) : Prop :=
  g <> [] /\ Forall (wf_sopt opts) g /\ find_option opts (map so_c g) = None.

Lemma expand_wf : forall opts g, Forall (wf_sopt opts) g -> Forall (wf_occ opts) (expand g).
Proof.
  intros opts g H. unfold expand. apply Forall_map. eapply Forall_impl; [|exact H].
  intros [c k ps] (Hc & Hf & Hn & Hs); cbn [so_c so_k so_ps] in *.
  split; [|split; easy]. cbn [oc_tok oc_k]. split.
  - intro E. inv E. easy.
  - right. exists [c]. split; [easy|]. split; [|easy].
    cbn [starts_dashdash]. rewrite Ascii.eqb_refl. cbn [andb].
    now apply Ascii.eqb_neq.
Qed.

Lemma shorts_params_ok : forall ps A B out,
  shorts_params (length ps) (A ++ ps ++ B) (length A) out = (out ++ ps, length A + length ps).
Proof.
  induction ps as [|p ps IH]; intros A B out; cbn [length shorts_params].
  - now rewrite app_nil_r, Nat.add_0_r.
  - destruct (length A <? length (A ++ (p :: ps) ++ B)) eqn:Hl.
    2:{ rewrite app_length in Hl; cbn [length app] in Hl; lia. }
    cbn [app]. rewrite get_middle.
    rewrite (app_snoc A p), <- (last_length A p).
    rewrite IH. rewrite <- app_assoc. cbn [app]. f_equal. rewrite app_length; cbn; lia.
Qed.

Lemma shorts_loop_ok : forall opts ign g A B out,
  Forall (wf_sopt opts) g ->
  shorts_loop opts (map so_c g) (A ++ group_params g ++ B) ign (length A) out =
    Some (out ++ render (expand g), length A + length (group_params g)).
Proof.
  intros opts ign. induction g as [|s g IH]; intros A B out Hwf.
  - cbn. now rewrite app_nil_r, Nat.add_0_r.
  - inv Hwf. destruct H1 as (Hc & Hf & Hn & Hs).
    cbn [map shorts_loop]. rewrite Hf. rewrite <- Hn.
    cbn [group_params flat_map]. fold (group_params g). rewrite <- app_assoc.
    rewrite shorts_params_ok.
    rewrite (app_assoc A (so_ps s)), <- app_length. rewrite IH by easy.
    cbn [expand map render flat_map oc_tok oc_ps]. fold (expand g). fold (render (expand g)).
    f_equal. f_equal.
    + rewrite <- !app_assoc. easy.
    + rewrite !app_length. lia.
Qed.

(* a token "-c..." where c is not a dash is neither "--" nor the start of a long name *)
Lemma dash_letter : forall c l, c <> dash ->
  str_eqb (dash :: c :: l) [dash; dash] = false /\ starts_dashdash (dash :: c :: l) = false.
Proof.
  intros c l Hc. apply Ascii.eqb_neq in Hc. cbn [str_eqb starts_dashdash].
  now rewrite Ascii.eqb_refl, Hc.
Qed.

(* the iteration that meets a group rewrites the vector and goes on exactly as
   if the options had been written one by one *)
Lemma group_step : forall opts ign g pre rest params f,
  wf_group opts g ->
  parse_loop (S f) opts ign (pre ++ (group_tok g :: group_params g) ++ rest) (length pre) params =
  parse_loop (S f) opts ign (pre ++ render (expand g) ++ rest) (length pre) params.
Proof.
  intros opts ign g pre rest params f (Hne & Hwf & Hnone).
  destruct g as [|s g]; [easy|]. clear Hne.
  pose proof Hwf as Hs. inv Hs. destruct H1 as (Hc & Hf & _).
  set (G := s :: g) in *.
  destruct (dash_letter (so_c s) (map so_c g) Hc) as [E1 E3].
  change (dash :: so_c s :: map so_c g) with (group_tok G) in E1, E3.
  destruct (dash_letter (so_c s) [] Hc) as [E2 E4].
  (* right-hand side: the first expanded token is handled directly *)
  set (av' := pre ++ render (expand G) ++ rest).
  assert (Hlen' : (length av' <=? length pre) = false) by apply leb_middle.
  assert (Hget' : get av' (length pre) = [dash; so_c s]) by apply get_middle.
  (* left-hand side *)
  set (av := pre ++ (group_tok G :: group_params G) ++ rest).
  assert (Hlen : (length av <=? length pre) = false) by apply leb_middle.
  assert (Hget : get av (length pre) = group_tok G) by apply get_middle.
  assert (Hsk : skipn (S (length pre)) av = group_params G ++ rest) by apply skipn_middle.
  assert (Hsplit : split_shorts opts (map so_c G) (group_params G ++ rest) ign =
                   Some (render (expand G), length (group_params G))).
  { apply (shorts_loop_ok opts ign G [] rest []). easy. }
  cbn [parse_loop]. fold av. fold av'.
  rewrite Hlen, Hlen', Hget, Hget'.
  rewrite E1, E2. unfold group_tok at 1. rewrite Ascii.eqb_refl. cbn [negb].
  fold (group_tok G). rewrite E3, E4.
  rewrite Hnone, Hsk, Hsplit, Hf.
  replace (get (render (expand G)) 0) with [dash; so_c s] by reflexivity.
  cbn [tl]. rewrite Hf. subst av.
  rewrite (delete_middle _ pre (group_tok G :: group_params G) rest), insert_middle. easy.
Qed.

(* command lines mixing both ways of writing options *)
Inductive item := I_direct (o : occ) | I_group (g : list sopt).
Definition wf_item (opts : list opt) (it : item) : Prop :=
  match it with I_direct o => wf_occ opts o | I_group g => wf_group opts g end.
Definition render_item (it : item) : list (list ascii) :=
  match it with I_direct o => oc_tok o :: oc_ps o | I_group g => group_tok g :: group_params g end.
Definition render_items (its : list item) : list (list ascii) := flat_map render_item its.
(* the options as the parser reports them: a group counts as its options one by one *)
Definition flatten (its : list item) : list occ :=
  flat_map (fun it => match it with I_direct o => [o] | I_group g => expand g end) its.
Definition noptions (its : list item) : nat := length (flatten its).

Lemma render_app : forall a b, render (a ++ b) = render a ++ render b.
Proof. intros; unfold render. apply flat_map_app. Qed.

Lemma parse_items_loop : forall opts ign e its pre params fuel,
  Forall (wf_item opts) its -> wf_end e -> noptions its < fuel ->
  parse_loop fuel opts ign (pre ++ render_items its ++ render_end e) (length pre) params =
    mk_parsed (rc_of ign e) (params ++ reported (flatten its)) (tail_of e)
              (pre ++ render (flatten its) ++ render_end e) false.
Proof.
  intros opts ign e. induction its as [|it its IH]; intros pre params fuel Hwf He Hf.
  - cbn [render_items flatten flat_map render reported map app].
    destruct fuel as [|f]; [cbn in Hf; lia|]. rewrite app_nil_r. now apply end_step.
  - inv Hwf. unfold noptions in Hf. cbn [flatten flat_map] in Hf. fold (flatten its) in Hf.
    rewrite app_length in Hf.
    cbn [render_items flatten flat_map]. fold (render_items its). fold (flatten its).
    rewrite render_app. unfold reported. rewrite map_app. fold (reported (flatten its)).
    destruct it as [o|g]; cbn [wf_item render_item] in *.
    + (* a directly named option *)
      cbn [length] in Hf. destruct fuel as [|f]; [lia|].
      rewrite <- (app_assoc (oc_tok o :: oc_ps o)). rewrite direct_step by easy.
      rewrite (app_assoc pre (oc_tok o :: oc_ps o)), <- app_length. rewrite IH by (try easy; unfold noptions; lia).
      cbn [render flat_map map]. rewrite app_nil_r. rewrite <- !app_assoc. easy.
    + (* a group *)
      destruct H1 as (Hne & Hg & Hnone).
      assert (Hl : length (expand g) = length g) by (unfold expand; apply map_length).
      destruct g as [|s g]; [easy|]. set (G := s :: g) in *.
      destruct fuel as [|f]; [lia|].
      rewrite <- (app_assoc (group_tok G :: group_params G)).
      rewrite group_step by (split; [easy | split; easy]).
      replace (S f) with (length (expand G) + (S f - length (expand G))) by (rewrite Hl in *; cbn [length] in *; lia).
      rewrite parse_prefix by now apply expand_wf.
      rewrite <- app_length.
      rewrite (app_assoc pre (render (expand G))).
      rewrite IH by (try easy; unfold noptions; lia).
      rewrite <- !app_assoc. easy.
Qed.

(* the fuel: every iteration but the last reports at least one option, and an
   option takes at least one character of the command line *)
Definition chars (av : list (list ascii)) : nat := fold_right (fun t acc => length t + acc) 0 av.
Lemma chars_app : forall a b, chars (a ++ b) = chars a + chars b.
Proof.
  unfold chars. induction a as [|x a IH]; intro b; cbn [app fold_right]; [easy|]. rewrite IH. lia.
Qed.

Lemma noptions_le : forall opts its, Forall (wf_item opts) its -> noptions its <= chars (render_items its).
Proof.
  intros opts. induction its as [|it its IH]; intro Hwf; [easy|]. inv Hwf. specialize (IH H2).
  unfold noptions in *. cbn [flatten flat_map render_items]. fold (flatten its). fold (render_items its).
  rewrite app_length, chars_app. destruct it as [o|g]; cbn [render_item length chars fold_right wf_item] in *.
  - destruct H1 as ((_ & Hres) & _).
    destruct Hres as [(name & -> & _) | (name & -> & _)]; cbn [length]; lia.
  - unfold expand, group_tok. rewrite map_length. cbn [length]. rewrite map_length. lia.
Qed.
Lemma fuel_enough : forall opts av, chars av < parse_fuel opts av.
Proof.
  intros opts av. unfold parse_fuel.
  set (m := fold_right (fun o m => Nat.max (o_np o) m) 0 opts).
  assert (H : chars av <= fold_right (fun t acc => length t * (1 + m) + acc) 0 av).
  { induction av as [|t av IH]; cbn [chars fold_right]; [lia|]. fold (chars av). nia. }
  lia.
Qed.

(* the general statement: options written directly or in groups *)
Theorem parse_items_wf : forall opts ign prog its e,
  Forall (wf_item opts) its -> wf_end e ->
  cmd_parse opts ign (Some (prog :: render_items its ++ render_end e)) =
    mk_parsed (rc_of ign e) (reported (flatten its)) (tail_of e)
              (prog :: render (flatten its) ++ render_end e) false.
Proof.
  intros opts ign prog its e Hwf He. cbn [cmd_parse].
  apply (parse_items_loop opts ign e its [prog] []); try easy.
  pose proof (noptions_le opts its Hwf) as H1.
  pose proof (fuel_enough opts (prog :: render_items its ++ render_end e)) as H2.
  change (prog :: render_items its ++ render_end e)
    with ([prog] ++ render_items its ++ render_end e) in H2 at 1.
  rewrite !chars_app in H2. lia.
Qed.

(* all options written directly *)
Lemma direct_items : forall occs,
  render_items (map I_direct occs) = render occs /\ flatten (map I_direct occs) = occs.
Proof.
  unfold render_items, flatten, render.
  induction occs as [|o occs [IHr IHf]]; [easy|]. cbn [map flat_map app]. now rewrite IHr, IHf.
Qed.
Theorem parse_wf : forall opts ign prog occs e,
  Forall (wf_occ opts) occs -> wf_end e ->
  cmd_parse opts ign (Some (prog :: render occs ++ render_end e)) =
    mk_parsed (rc_of ign e) (reported occs) (tail_of e) (prog :: render occs ++ render_end e) false.
Proof.
  intros opts ign prog occs e Hwf He.
  pose proof (parse_items_wf opts ign prog (map I_direct occs) e) as H.
  destruct (direct_items occs) as [Er Ef]. rewrite Er, Ef in H.
  apply H; [|easy]. now apply Forall_map.
Qed.

(* the queries on such a result *)
Lemma filter_reported : forall occs k,
  filter (fun kp : nat * list (list ascii) => Nat.eqb (fst kp) k) (reported occs) =
  reported (filter (fun o => Nat.eqb (oc_k o) k) occs).
Proof.
  induction occs as [|o occs IH]; intro k; [easy|]. cbn [reported map filter fst].
  destruct (Nat.eqb (oc_k o) k); cbn [reported map]; f_equal; apply IH.
Qed.
Theorem queries_wf : forall opts p occs name k,
  p_params p = reported occs -> find_option opts name = Some k ->
  let mine := filter (fun o => Nat.eqb (oc_k o) k) occs in
  get_ninsts opts p name = length mine /\
  forall inst idx,
    get_param opts p name inst idx =
      if idx <? np_of opts k
      then match nth_error mine inst with Some o => Some (get (oc_ps o) idx) | None => None end
      else None.
Proof.
  intros opts p occs name k Hp Hf mine. unfold get_ninsts, get_param. rewrite Hf, Hp, filter_reported.
  fold mine. split.
  - unfold reported. now rewrite map_length.
  - intros inst idx. destruct (idx <? np_of opts k); [|easy].
    unfold reported. rewrite nth_error_map. now destruct (nth_error mine inst).
Qed.
Theorem queries_unknown : forall opts p name inst idx,
  find_option opts name = None -> get_ninsts opts p name = 0 /\ get_param opts p name inst idx = None.
Proof. intros opts p name inst idx H. unfold get_ninsts, get_param. now rewrite H. Qed.

(* make_opt *)
Theorem make_opt_spec : forall cmd sh sd lg np,
  make_opt cmd sh sd lg np =
    if (Ascii.eqb sh zero && is_none sd && is_none lg) || (np <? 0)%Z
    then (RC_BAD_PARAM, cmd)
    else (RC_SUCCESS, cmd ++ [mk_opt sh sd lg (Z.to_nat np)]).
Proof.
  intros. unfold make_opt. destruct (Ascii.eqb sh zero && is_none sd && is_none lg); [easy|].
  now destruct (np <? 0)%Z.
Qed.

(* a missing parameter is an error return, with the rest of the line in the tail *)
Lemma take_params_missing : forall np av i acc j,
  take_params np av i acc = T_missing j -> i <= j.
Proof.
  induction np as [|np IH]; intros av i acc j H; cbn [take_params] in H; [easy|].
  destruct (length av <=? i); [inv H; lia|].
  destruct (str_eqb (get av i) special_empty_token); [inv H; lia|].
  apply IH in H. lia.
Qed.
