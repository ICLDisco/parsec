(* Proofs about the datatype model: what place/indexed/vector/contiguous over a
   basic type select, bounds, the C index loops against the region enumeration,
   and from these the specifications of the entry points that Properties_C19
   states: [triangle_spec], [rectangle_spec], [datatype_spec], [datatype_covers],
   [adt_spec]. *)
From Coq Require Import FinFun.
From PV Require Import Base.Tac Base.ListX DType.DTypeDefs.
Local Open Scope Z_scope.

Lemma zseq_nat_app a k1 k2 :
  zseq_nat a (k1 + k2) = zseq_nat a k1 ++ zseq_nat (a + Z.of_nat k1) k2.
Proof.
  revert a; induction k1 as [|k1 IH]; intros a.
  - cbn [Nat.add zseq_nat app Z.of_nat]. f_equal; lia.
  - cbn [Nat.add zseq_nat app]. f_equal. rewrite IH. f_equal. f_equal. lia.
Qed.

Lemma zseq_app a n1 n2 : 0 <= n1 -> 0 <= n2 -> zseq a (n1 + n2) = zseq a n1 ++ zseq (a + n1) n2.
Proof.
  intros H1 H2. unfold zseq. rewrite Z2Nat.inj_add by lia. rewrite zseq_nat_app.
  rewrite Z2Nat.id by lia. reflexivity.
Qed.

Lemma zseq_nil a n : n <= 0 -> zseq a n = [].
Proof. intros H. unfold zseq. replace (Z.to_nat n) with O by lia. reflexivity. Qed.

Lemma zseq_cons a n : 0 < n -> zseq a n = a :: zseq (a + 1) (n - 1).
Proof.
  intros H. unfold zseq. replace (Z.to_nat n) with (S (Z.to_nat (n - 1))) by lia. reflexivity.
Qed.

Lemma In_zseq_nat x a k : In x (zseq_nat a k) <-> a <= x < a + Z.of_nat k.
Proof.
  revert a; induction k as [|k IH]; intros a; cbn [zseq_nat In].
  - lia.
  - rewrite IH. lia.
Qed.

Lemma In_zseq x a n : In x (zseq a n) <-> a <= x < a + n.
Proof. unfold zseq. rewrite In_zseq_nat. lia. Qed.

Lemma length_zseq a n : length (zseq a n) = Z.to_nat n.
Proof.
  unfold zseq. generalize (Z.to_nat n) as k. intros k; revert a.
  induction k as [|k IH]; intros a; cbn [zseq_nat length]; auto.
Qed.

Lemma zseq_shift d a n : map (fun j => d + j) (zseq a n) = zseq (d + a) n.
Proof.
  unfold zseq. generalize (Z.to_nat n) as k. intros k; revert a.
  induction k as [|k IH]; intros a; cbn [zseq_nat map]; auto.
  rewrite IH. f_equal. f_equal. lia.
Qed.

Lemma zseq_as_map d n : zseq d n = map (fun j => d + j) (zseq 0 n).
Proof. rewrite zseq_shift. f_equal. lia. Qed.

Lemma NoDup_zseq a n : NoDup (zseq a n).
Proof.
  unfold zseq. generalize (Z.to_nat n) as k. intros k; revert a.
  induction k as [|k IH]; intros a; cbn [zseq_nat]; constructor; auto.
  rewrite In_zseq_nat. lia.
Qed.

Lemma filter_all_true {A} (f : A -> bool) l : (forall x, In x l -> f x = true) -> filter f l = l.
Proof.
  induction l as [|x l IH]; intros H; cbn [filter]; auto.
  rewrite (H x) by (left; reflexivity). f_equal. apply IH. intros y Hy. apply H. right; exact Hy.
Qed.

Lemma flat_map_ext_in' {A B} (f g : A -> list B) l :
  (forall x, In x l -> f x = g x) -> flat_map f l = flat_map g l.
Proof.
  induction l as [|x l IH]; intros H; cbn [flat_map]; auto.
  rewrite (H x) by (left; reflexivity). f_equal. apply IH. intros y Hy. apply H. right; exact Hy.
Qed.

Lemma combine_map_same {A B C} (f : A -> B) (g : A -> C) l :
  combine (map f l) (map g l) = map (fun x => (f x, g x)) l.
Proof. induction l as [|x l IH]; cbn [map combine]; auto. rewrite IH. reflexivity. Qed.

Lemma skipn_combine {A B} k (a : list A) (b : list B) :
  combine (skipn k a) (skipn k b) = skipn k (combine a b).
Proof.
  revert a b; induction k as [|k IH]; intros a b; cbn [skipn]; auto.
  destruct a as [|x a]; cbn [combine skipn]; auto.
  destruct b as [|y b]; cbn [combine skipn]; auto.
  destruct (skipn k a); reflexivity.
Qed.

(* 0 .. n-1 cut around the cells d .. d+c-1 *)
Lemma zseq_split d c n : 0 <= d -> 0 <= c -> d + c <= n ->
  zseq 0 n = zseq 0 d ++ zseq d c ++ zseq (d + c) (n - d - c).
Proof.
  intros Hd Hc Hn. replace n with (d + (c + (n - d - c))) at 1 by lia.
  rewrite (zseq_app 0), (zseq_app (0 + d)) by lia. reflexivity.
Qed.

(* the cells d .. d+c-1 of an n-cell array indexed from 0 *)
Lemma array_window {A} (h : Z -> A) d c n : 0 <= d -> 0 <= c -> d + c <= n ->
  firstn (Z.to_nat c) (skipn (Z.to_nat d) (map h (zseq 0 n))) = map h (zseq d c).
Proof.
  intros Hd Hc Hn. rewrite skipn_map, firstn_map, (zseq_split d c n) by lia.
  rewrite <- (length_zseq 0 d) at 1. rewrite skipn_app_len by reflexivity.
  rewrite <- (length_zseq d c) at 1. rewrite firstn_app_len by reflexivity. reflexivity.
Qed.

(* columns outside d .. d+c-1 contribute nothing *)
Lemma flat_map_window {B} (f : Z -> list B) d c n : 0 <= d -> 0 <= c -> d + c <= n ->
  (forall j, 0 <= j < d \/ d + c <= j < n -> f j = []) ->
  flat_map f (zseq 0 n) = flat_map f (zseq d c).
Proof.
  intros Hd Hc Hn Hout. rewrite (zseq_split d c n), !flat_map_app by lia.
  rewrite (flat_map_nil f (zseq 0 d)), (flat_map_nil f (zseq (d + c) _)).
  - apply app_nil_r.
  - intros j Hj. apply In_zseq in Hj. apply Hout. lia.
  - intros j Hj. apply In_zseq in Hj. apply Hout. lia.
Qed.

(* rows a .. b-1 of a column of m rows *)
Lemma filter_interval (f : Z -> bool) a b m :
  0 <= a -> b <= m ->
  (forall i, 0 <= i < m -> f i = ((a <=? i) && (i <? b))%bool) ->
  filter f (zseq 0 m) = zseq a (b - a).
Proof.
  intros Ha Hb Hf.
  destruct (Z_lt_le_dec a b) as [Hab|Hab].
  - rewrite (zseq_split a (b - a) m), !filter_app by lia.
    rewrite (filter_none f (zseq 0 a)), (filter_all_true f (zseq a _)), (filter_none f (zseq (a + _) _)).
    + apply app_nil_r.
    + intros x Hx. apply In_zseq in Hx. rewrite Hf by lia. lia.
    + intros x Hx. apply In_zseq in Hx. rewrite Hf by lia. lia.
    + intros x Hx. apply In_zseq in Hx. rewrite Hf by lia. lia.
  - rewrite (zseq_nil a) by lia. apply filter_none.
    intros x Hx. apply In_zseq in Hx. rewrite Hf by lia. lia.
Qed.

Lemma selected_resized t l e : selected (resized t l e) = selected t.
Proof. reflexivity. Qed.

Lemma selected_place_prim sz es :
  selected (place (prim sz) (map (fun e => e * sz) es)) = elems sz es.
Proof.
  unfold selected, place, prim, elems. cbn [tmap map fst snd].
  rewrite flat_map_flat_map. rewrite flat_map_map.
  apply flat_map_ext. intros e. cbn [flat_map fst snd]. rewrite app_nil_r. f_equal. lia.
Qed.

(* element offsets selected by an indexed type over a basic type *)
Definition indexed_elems (count : Z) (bls disps : list Z) : list Z :=
  flat_map (fun bd => zseq (snd bd) (fst bd)) (firstn (Z.to_nat count) (combine bls disps)).

Lemma indexed_prim_place sz count bls disps :
  indexed count bls disps (prim sz) = place (prim sz) (map (fun e => e * sz) (indexed_elems count bls disps)).
Proof.
  unfold indexed, indexed_elems. f_equal. cbn [ext prim].
  rewrite map_flat_map. apply flat_map_ext. intros [b d]. cbn [fst snd].
  rewrite (zseq_as_map d b). rewrite map_map. reflexivity.
Qed.

Lemma selected_indexed_prim sz count bls disps :
  selected (indexed count bls disps (prim sz)) = elems sz (indexed_elems count bls disps).
Proof. rewrite indexed_prim_place. apply selected_place_prim. Qed.

Definition vector_elems (count bl stride : Z) : list Z :=
  flat_map (fun i => zseq (i * stride) bl) (zseq 0 count).

Lemma vector_prim_place sz count bl stride :
  vector count bl stride (prim sz) = place (prim sz) (map (fun e => e * sz) (vector_elems count bl stride)).
Proof.
  unfold vector, vector_elems. f_equal. cbn [ext prim].
  rewrite map_flat_map. apply flat_map_ext. intros i.
  rewrite (zseq_as_map (i * stride) bl). rewrite map_map. reflexivity.
Qed.

Lemma contiguous_prim_place sz count :
  contiguous count (prim sz) = place (prim sz) (map (fun e => e * sz) (zseq 0 count)).
Proof. reflexivity. Qed.

Lemma fold_min_le d r : fold_right Z.min d r <= d /\ forall x, In x r -> fold_right Z.min d r <= x.
Proof.
  induction r as [|y r IH]; cbn [fold_right In].
  - split; [lia|tauto].
  - destruct IH as [IH1 IH2]. split; [lia|]. intros x [Hx|Hx]; [subst; lia|]. specialize (IH2 x Hx). lia.
Qed.

Lemma fold_min_in d r : In (fold_right Z.min d r) (d :: r).
Proof.
  induction r as [|y r IH]; cbn [fold_right]; [left; reflexivity|].
  destruct (Z.min_spec y (fold_right Z.min d r)) as [[_ E]|[_ E]]; rewrite E.
  - right; left; reflexivity.
  - destruct IH as [IH|IH]; [left; exact IH|right; right; exact IH].
Qed.

Lemma lmin_spec l x : In x l -> (forall y, In y l -> x <= y) -> lmin l = x.
Proof.
  destruct l as [|d r]; [intros []|]. intros Hin Hle. unfold lmin.
  pose proof (fold_min_le d r) as [H1 H2]. pose proof (fold_min_in d r) as H3.
  specialize (Hle _ H3). destruct Hin as [Hx|Hx]; [subst; lia|]. specialize (H2 _ Hx). lia.
Qed.

(* the greatest element is the least of the opposites *)
Lemma fold_max_min d r : fold_right Z.max d r = - fold_right Z.min (- d) (map Z.opp r).
Proof. induction r as [|y r IH]; cbn [fold_right map]; [lia|rewrite IH; lia]. Qed.

Lemma lmax_spec l x : In x l -> (forall y, In y l -> y <= x) -> lmax l = x.
Proof.
  intros Hin Hle. assert (Hopp : lmin (map Z.opp l) = - x).
  { apply lmin_spec; [apply in_map; exact Hin|]. intros y Hy. apply in_map_iff in Hy. destruct Hy as [z [<- Hz]].
    specialize (Hle z Hz). lia. }
  destruct l as [|d r]; [destruct Hin|]. unfold lmax. unfold lmin in Hopp. cbn [map] in Hopp. rewrite fold_max_min. lia.
Qed.

(* a non-empty placement of a basic type whose first element is at lo and last at hi *)
Lemma place_prim_bounds sz es lo hi : 0 < sz ->
  In lo es -> In hi es -> (forall e, In e es -> lo <= e <= hi) ->
  lb (place (prim sz) (map (fun e => e * sz) es)) = lo * sz /\
  ext (place (prim sz) (map (fun e => e * sz) es)) = (hi - lo + 1) * sz.
Proof.
  intros Hsz Hlo Hhi Hall.
  assert (Hmin : lmin (map (fun e => e * sz) es) = lo * sz).
  { apply lmin_spec. - apply in_map_iff. exists lo. auto.
    - intros y Hy. apply in_map_iff in Hy. destruct Hy as [e [<- He]]. specialize (Hall e He). nia. }
  assert (Hmax : lmax (map (fun e => e * sz) es) = hi * sz).
  { apply lmax_spec. - apply in_map_iff. exists hi. auto.
    - intros y Hy. apply in_map_iff in Hy. destruct Hy as [e [<- He]]. specialize (Hall e He). nia. }
  unfold place. cbn [lb ext prim].
  destruct es as [|e0 es']; [destruct Hlo|].
  cbn [map] in *. rewrite Hmin, Hmax. split; lia.
Qed.

Lemma region_enum_In P m n ld e :
  In e (region_enum P m n ld) <->
  exists i j, 0 <= i < m /\ 0 <= j < n /\ P i j = true /\ e = i + j * ld.
Proof.
  unfold region_enum. rewrite in_flat_map. split.
  - intros [j [Hj He]]. apply in_map_iff in He. destruct He as [i [<- Hi]].
    apply filter_In in Hi. destruct Hi as [Hi HP]. apply In_zseq in Hi. apply In_zseq in Hj.
    exists i, j. repeat split; try lia; exact HP.
  - intros [i [j [Hi [Hj [HP ->]]]]]. exists j. split; [apply In_zseq; lia|].
    apply in_map_iff. exists i. split; [reflexivity|]. apply filter_In. split; [apply In_zseq; lia|exact HP].
Qed.

(* with ld >= m distinct positions have distinct offsets: every element exactly once *)
Lemma region_enum_NoDup P m n ld : m <= ld -> NoDup (region_enum P m n ld).
Proof.
  intros Hld. unfold region_enum. apply NoDup_flat_map.
  - apply NoDup_zseq.
  - intros j Hj. apply Injective_map_NoDup; [intros i1 i2; lia|]. apply NoDup_filter. apply NoDup_zseq.
  - intros j1 j2 b Hj1 Hj2 Hne Hb1 Hb2. apply Hne.
    apply in_map_iff in Hb1. destruct Hb1 as [i1 [<- Hi1]].
    apply in_map_iff in Hb2. destruct Hb2 as [i2 [E Hi2]].
    apply filter_In in Hi1. destruct Hi1 as [Hi1 _]. apply filter_In in Hi2. destruct Hi2 as [Hi2 _].
    apply In_zseq in Hi1. apply In_zseq in Hi2. apply In_zseq in Hj1. apply In_zseq in Hj2. nia.
Qed.

Lemma elems_In sz es b : 0 < sz ->
  (In b (elems sz es) <-> exists e, In e es /\ e * sz <= b < (e + 1) * sz).
Proof.
  intros Hsz. unfold elems. rewrite in_flat_map. split.
  - intros [e [He Hb]]. apply In_zseq in Hb. exists e. split; [exact He|lia].
  - intros [e [He Hb]]. exists e. split; [exact He|]. apply In_zseq. lia.
Qed.

Lemma elems_NoDup sz es : 0 < sz -> NoDup es -> NoDup (elems sz es).
Proof.
  intros Hsz Hes. unfold elems. apply NoDup_flat_map; auto.
  - intros e _. apply NoDup_zseq.
  - intros e1 e2 b _ _ Hne H1 H2. apply Hne. apply In_zseq in H1. apply In_zseq in H2. nia.
Qed.

(* the bytes of the elements of a region *)
Lemma elems_region_In sz P m n ld b : 0 < sz ->
  (In b (elems sz (region_enum P m n ld)) <->
   exists i j, 0 <= i < m /\ 0 <= j < n /\ P i j = true /\
               (i + j * ld) * sz <= b < (i + j * ld + 1) * sz).
Proof.
  intros Hsz. rewrite elems_In by exact Hsz. split.
  - intros [x [Hx Hb]]. apply region_enum_In in Hx. destruct Hx as [i [j [Hi [Hj [HP ->]]]]].
    exists i, j. auto.
  - intros [i [j [Hi [Hj [HP Hb]]]]]. exists (i + j * ld). split; [|exact Hb].
    apply region_enum_In. exists i, j. auto.
Qed.

Lemma column_shift j ld a c : map (fun i => i + j * ld) (zseq a c) = zseq (j * ld + a) c.
Proof.
  rewrite <- zseq_shift. apply map_ext. intros; lia.
Qed.

(* the arrays written by  for (i = lo; i < hi; i++) { blocklens[i] = fb(i); indices[i] = fd(i); }
   read from cell d on, c cells, all of them written *)
Lemma indexed_elems_fill n lo hi fb fd d c :
  0 <= d -> 0 <= c -> d + c <= n -> lo <= d -> d + c <= hi ->
  indexed_elems c (skipn (Z.to_nat d) (fill n lo hi fb)) (skipn (Z.to_nat d) (fill n lo hi fd))
  = flat_map (fun j => zseq (fd j) (fb j)) (zseq d c).
Proof.
  intros Hd Hc Hn Hlo Hhi. unfold indexed_elems, fill.
  rewrite skipn_combine, combine_map_same, array_window, flat_map_map by lia.
  apply flat_map_ext_in'. intros j Hj. apply In_zseq in Hj. cbn [fst snd].
  replace ((lo <=? j) && (j <? hi))%bool with true by lia. reflexivity.
Qed.

(* a region whose column j holds the rows a j .. b j - 1 *)
Lemma region_enum_rows P m n ld (a b : Z -> Z) :
  (forall j, 0 <= j < n ->
     0 <= a j /\ b j <= m /\ forall i, 0 <= i < m -> P i j = ((a j <=? i) && (i <? b j))%bool) ->
  region_enum P m n ld = flat_map (fun j => zseq (j * ld + a j) (b j - a j)) (zseq 0 n).
Proof.
  intros H. unfold region_enum. apply flat_map_ext_in'. intros j Hj. apply In_zseq in Hj.
  destruct (H j) as [Ha [Hb HP]]; [lia|].
  rewrite (filter_interval _ (a j) (b j) m) by assumption. apply column_shift.
Qed.

(* UPPER: column j holds the rows 0 .. min(j+1-d, m) - 1; the loop starts at column d, and
   column 0 is empty when the diagonal is left out *)
Lemma upper_elems diag m n ld : 1 <= m -> 1 <= n ->
  let d := if diag =? 0 then 1 else 0 in
  indexed_elems (n - d)
    (skipn (Z.to_nat d) (fill n d n (fun i => let mm := i + 1 - d in if mm <? m then mm else m)))
    (skipn (Z.to_nat d) (fill n d n (fun i => i * ld)))
  = region_enum (region PARSEC_MATRIX_UPPER diag) m n ld.
Proof.
  intros Hm Hn d.
  assert (Hd : d = 0 \/ d = 1) by (subst d; destruct (diag =? 0); lia).
  rewrite indexed_elems_fill by lia.
  rewrite (region_enum_rows _ m n ld (fun _ => 0) (fun j => Z.min (j + 1 - d) m)).
  2:{ intros j Hj. split; [lia|]. split; [lia|]. intros i Hi.
      unfold region. cbn [Z.eqb PARSEC_MATRIX_UPPER Pos.eqb]. subst d. destruct (diag =? 0); lia. }
  rewrite (flat_map_window _ d (n - d) n) by (try lia; intros j Hj; apply zseq_nil; lia).
  apply flat_map_ext_in'. intros j _. cbv zeta. destruct (j + 1 - d <? m) eqn:?; f_equal; lia.
Qed.

(* LOWER: column j holds the rows j+d .. m-1; the loop stops at column min(m-d, n), the columns
   after it are empty *)
Lemma lower_elems diag m n ld : 1 <= m -> 1 <= n ->
  let d := if diag =? 0 then 1 else 0 in
  let nmax := if m - d <=? n then m - d else n in
  indexed_elems nmax
    (skipn (Z.to_nat 0) (fill n 0 nmax (fun i => m - i - d)))
    (skipn (Z.to_nat 0) (fill n 0 nmax (fun i => i * ld + i + d)))
  = region_enum (region PARSEC_MATRIX_LOWER diag) m n ld.
Proof.
  intros Hm Hn d nmax.
  assert (Hd : d = 0 \/ d = 1) by (subst d; destruct (diag =? 0); lia).
  assert (Hnmax : nmax = Z.min (m - d) n) by (subst nmax; destruct (m - d <=? n) eqn:?; lia).
  rewrite indexed_elems_fill by lia.
  rewrite (region_enum_rows _ m n ld (fun j => j + d) (fun _ => m)).
  2:{ intros j Hj. split; [lia|]. split; [lia|]. intros i Hi.
      unfold region. cbn [Z.eqb PARSEC_MATRIX_UPPER PARSEC_MATRIX_LOWER Pos.eqb].
      subst d. destruct (diag =? 0); lia. }
  rewrite (flat_map_window _ 0 nmax n) by (try lia; intros j Hj; apply zseq_nil; lia).
  apply flat_map_ext_in'. intros j _. f_equal; lia.
Qed.

Lemma triangle_spec sz uplo diag m n ld :
  0 < sz -> 1 <= m -> 1 <= n -> m <= ld -> ld * n * sz < 2 ^ 31 ->
  uplo = PARSEC_MATRIX_UPPER \/ uplo = PARSEC_MATRIX_LOWER ->
  exists t, define_triangle sz uplo diag m n ld = Ok t /\
    selected t = elems sz (region_enum (region uplo diag) m n ld) /\
    lb t = 0 /\ ext t = ld * n * sz.
Proof.
  intros Hsz Hm Hn Hld Hov [-> | ->]; unfold define_triangle.
  - cbn [Z.eqb PARSEC_MATRIX_UPPER Pos.eqb]. eexists. split; [reflexivity|].
    pose proof (upper_elems diag m n ld Hm Hn) as HU. cbv zeta in HU |- *.
    rewrite selected_resized, selected_indexed_prim. cbn [lb ext resized].
    rewrite HU. auto.
  - cbn [Z.eqb PARSEC_MATRIX_UPPER PARSEC_MATRIX_LOWER Pos.eqb]. eexists. split; [reflexivity|].
    pose proof (lower_elems diag m n ld Hm Hn) as HL. cbv zeta in HL |- *.
    rewrite selected_resized, selected_indexed_prim. cbn [lb ext resized].
    rewrite HL. auto.
Qed.

Lemma contiguous_spec sz nb rsz : 0 < sz -> 1 <= nb ->
  exists t, define_contiguous sz nb rsz = Ok t /\
    selected t = elems sz (zseq 0 nb) /\ lb t = 0 /\
    ext t = if 0 <=? rsz then rsz * sz else nb * sz.
Proof.
  intros Hsz Hnb. unfold define_contiguous.
  destruct (sz =? 0) eqn:E; [lia|]. eexists. split; [reflexivity|].
  rewrite contiguous_prim_place.
  destruct (place_prim_bounds sz (zseq 0 nb) 0 (nb - 1) Hsz) as [Hlb Hext].
  { apply In_zseq; lia. } { apply In_zseq; lia. } { intros e He. apply In_zseq in He. lia. }
  destruct (0 <=? rsz) eqn:Er.
  - rewrite selected_resized, selected_place_prim. cbn [lb ext resized]. auto.
  - rewrite selected_place_prim, Hlb, Hext. repeat split; lia.
Qed.

Lemma columns_contiguous m (k : nat) : 0 <= m ->
  flat_map (fun j => zseq (j * m) m) (zseq 0 (Z.of_nat k)) = zseq 0 (m * Z.of_nat k).
Proof.
  intros Hm. induction k as [|k IH].
  - rewrite Z.mul_0_r. reflexivity.
  - rewrite Nat2Z.inj_succ. unfold Z.succ. rewrite zseq_app by lia. rewrite flat_map_app, IH.
    rewrite (zseq_cons _ 1) by lia. rewrite (zseq_nil _ (1 - 1)) by lia. cbn [flat_map].
    rewrite app_nil_r. replace (m * (Z.of_nat k + 1)) with (m * Z.of_nat k + m) by lia.
    rewrite zseq_app by nia. f_equal. f_equal; lia.
Qed.

Lemma full_enum_contiguous m n : 0 <= m -> 0 <= n ->
  region_enum (fun _ _ => true) m n m = zseq 0 (m * n).
Proof.
  intros Hm Hn. unfold region_enum.
  rewrite (flat_map_ext_in' _ (fun j => zseq (j * m) m)).
  2:{ intros j _. rewrite filter_all_true by reflexivity. rewrite column_shift. f_equal; lia. }
  rewrite <- (Z2Nat.id n) by lia. apply columns_contiguous. exact Hm.
Qed.

Lemma full_enum_vector m n ld : region_enum (fun _ _ => true) m n ld = vector_elems n m ld.
Proof.
  unfold region_enum, vector_elems. apply flat_map_ext. intros j.
  rewrite filter_all_true by reflexivity. rewrite column_shift. f_equal; lia.
Qed.

Lemma rectangle_spec sz m n ld rsz :
  0 < sz -> 1 <= m -> 1 <= n -> m <= ld -> ld * n * sz < 2 ^ 31 ->
  exists t, define_rectangle sz m n ld rsz = Ok t /\
    selected t = elems sz (region_enum (fun _ _ => true) m n ld) /\ lb t = 0 /\
    ext t = if 0 <=? rsz then rsz * sz else ((n - 1) * ld + m) * sz.
Proof.
  intros Hsz Hm Hn Hld Hov. unfold define_rectangle.
  destruct (m =? ld) eqn:E.
  - assert (ld = m) by lia. subst ld.
    destruct (contiguous_spec sz (m * n) rsz Hsz ltac:(nia)) as [t [Ht [Hs [Hl He]]]].
    exists t. split; [exact Ht|]. rewrite full_enum_contiguous by lia.
    split; [exact Hs|]. split; [exact Hl|]. rewrite He. destruct (0 <=? rsz); lia.
  - destruct (sz =? 0) eqn:E0; [lia|]. eexists. split; [reflexivity|].
    rewrite vector_prim_place, full_enum_vector.
    destruct (place_prim_bounds sz (vector_elems n m ld) 0 ((n - 1) * ld + m - 1) Hsz) as [Hlb Hext].
    { unfold vector_elems. apply in_flat_map. exists 0. split; apply In_zseq; lia. }
    { unfold vector_elems. apply in_flat_map. exists (n - 1). split; apply In_zseq; lia. }
    { intros e He. unfold vector_elems in He. apply in_flat_map in He. destruct He as [j [Hj He]].
      apply In_zseq in Hj. apply In_zseq in He. nia. }
    destruct (0 <=? rsz) eqn:Er.
    + rewrite selected_resized, selected_place_prim. cbn [lb ext resized]. auto.
    + rewrite selected_place_prim, Hlb, Hext. repeat split; lia.
Qed.

Lemma region_full uplo diag :
  uplo <> PARSEC_MATRIX_UPPER -> uplo <> PARSEC_MATRIX_LOWER ->
  region uplo diag = fun _ _ => true.
Proof.
  intros H1 H2. unfold region.
  destruct (uplo =? PARSEC_MATRIX_UPPER) eqn:E1; [lia|].
  destruct (uplo =? PARSEC_MATRIX_LOWER) eqn:E2; [lia|]. reflexivity.
Qed.

(* the public entry: for every uplo (anything that is not UPPER/LOWER means FULL) *)
Lemma datatype_spec sz uplo diag m n ld rsz :
  0 < sz -> 1 <= m -> 1 <= n -> m <= ld -> ld * n * sz < 2 ^ 31 ->
  exists t, define_datatype sz uplo diag m n ld rsz = (Ok t, ext t) /\
    selected t = elems sz (region_enum (region uplo diag) m n ld) /\ lb t = 0 /\
    ext t = if (uplo =? PARSEC_MATRIX_UPPER) || (uplo =? PARSEC_MATRIX_LOWER) then ld * n * sz
            else if 0 <=? rsz then rsz * sz else ((n - 1) * ld + m) * sz.
Proof.
  intros Hsz Hm Hn Hld Hov. unfold define_datatype.
  destruct ((uplo =? PARSEC_MATRIX_LOWER) || (uplo =? PARSEC_MATRIX_UPPER))%bool eqn:Eu.
  - destruct (triangle_spec sz uplo diag m n ld Hsz Hm Hn Hld Hov ltac:(lia)) as [t [Ht [Hs [Hl He]]]].
    exists t. rewrite Ht. split; [reflexivity|]. split; [exact Hs|]. split; [exact Hl|].
    replace ((uplo =? PARSEC_MATRIX_UPPER) || (uplo =? PARSEC_MATRIX_LOWER))%bool with true by lia. exact He.
  - replace ((uplo =? PARSEC_MATRIX_UPPER) || (uplo =? PARSEC_MATRIX_LOWER))%bool with false by lia.
    rewrite region_full by lia.
    destruct (rectangle_spec sz m n ld rsz Hsz Hm Hn Hld Hov) as [t [Ht [Hs [Hl He]]]].
    (* define_rectangle makes the same test again *)
    replace (if m =? ld then _ else _) with (define_rectangle sz m n ld rsz)
      by (unfold define_rectangle; destruct (m =? ld); reflexivity).
    exists t. rewrite Ht. auto.
Qed.

(* without a resize the extent reaches the end of the last column *)
Lemma datatype_spec_unresized sz uplo diag m n ld rsz :
  0 < sz -> 1 <= m -> 1 <= n -> m <= ld -> ld * n * sz < 2 ^ 31 -> rsz < 0 ->
  exists t, define_datatype sz uplo diag m n ld rsz = (Ok t, ext t) /\
    selected t = elems sz (region_enum (region uplo diag) m n ld) /\ lb t = 0 /\
    ((n - 1) * ld + m) * sz <= ext t.
Proof.
  intros Hsz Hm Hn Hld Hov Hr.
  destruct (datatype_spec sz uplo diag m n ld rsz Hsz Hm Hn Hld Hov) as [t [Ht [Hs [Hl He]]]].
  exists t. split; [exact Ht|]. split; [exact Hs|]. split; [exact Hl|]. rewrite He.
  destruct ((uplo =? PARSEC_MATRIX_UPPER) || (uplo =? PARSEC_MATRIX_LOWER))%bool; [nia|].
  destruct (0 <=? rsz) eqn:?; lia.
Qed.

(* the extent covers the tile: every selected byte, and the whole m-by-n tile
   stored with leading dimension ld, lies inside [lb, lb + extent) *)
Lemma datatype_covers sz uplo diag m n ld rsz t e :
  0 < sz -> 1 <= m -> 1 <= n -> m <= ld -> ld * n * sz < 2 ^ 31 -> rsz < 0 ->
  define_datatype sz uplo diag m n ld rsz = (Ok t, e) ->
  e = ext t /\ ((n - 1) * ld + m) * sz <= ext t /\
  forall b, In b (selected t) -> lb t <= b < lb t + ext t.
Proof.
  intros Hsz Hm Hn Hld Hov Hr Hdef.
  destruct (datatype_spec_unresized sz uplo diag m n ld rsz Hsz Hm Hn Hld Hov Hr) as [t' [Ht [Hs [Hl Hcov]]]].
  rewrite Ht in Hdef. inversion Hdef; subst t' e. clear Hdef. split; [reflexivity|].
  split; [exact Hcov|]. intros b Hb. rewrite Hs in Hb. apply elems_region_In in Hb; [|exact Hsz].
  destruct Hb as [i [j [Hi [Hj [_ Hb]]]]]. rewrite Hl.
  (* element (i, j) lies before the end of the last column *)
  assert (H1 : j * ld <= (n - 1) * ld) by nia.
  assert (H2 : 0 <= j * ld) by nia.
  assert (H3 : (i + j * ld + 1) * sz <= ((n - 1) * ld + m) * sz) by nia.
  assert (H4 : 0 <= (i + j * ld) * sz) by nia.
  lia.
Qed.

(* the arena shorthands: FULL with the caller's n and ld, the others square *)
Lemma adt_spec kind sz diag m n ld :
  0 < sz -> 1 <= m -> 1 <= n -> m <= ld -> ld * n * sz < 2 ^ 31 -> m * m * sz < 2 ^ 31 ->
  0 <= kind <= 3 ->
  let uplo := if kind =? 1 then PARSEC_MATRIX_UPPER else if kind =? 2 then PARSEC_MATRIX_LOWER else PARSEC_MATRIX_FULL in
  let n' := if kind =? 0 then n else m in
  let ld' := if kind =? 0 then ld else m in
  exists t, adt_define kind sz diag m n ld = (Ok t, ext t) /\
    selected t = elems sz (region_enum (region uplo diag) m n' ld') /\ lb t = 0 /\
    ((n' - 1) * ld' + m) * sz <= ext t.
Proof.
  intros Hsz Hm Hn Hld Hov Hov2 Hk uplo n' ld'. unfold adt_define.
  assert (Hcase : kind = 0 \/ kind = 1 \/ kind = 2 \/ kind = 3) by lia.
  destruct Hcase as [-> | [-> | [-> | ->]]]; cbn [Z.eqb Pos.eqb] in *; subst uplo n' ld'.
  (* [region PARSEC_MATRIX_FULL] does not look at diag *)
  - apply (datatype_spec_unresized sz PARSEC_MATRIX_FULL 0); lia.
  - apply datatype_spec_unresized; lia.
  - apply datatype_spec_unresized; lia.
  - apply (datatype_spec_unresized sz PARSEC_MATRIX_FULL 0); lia.
Qed.

