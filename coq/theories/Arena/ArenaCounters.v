(* Arena chunk cache: the `used` and `released` counters.
   - elements allocated from the arena (in hand or cached) never exceed max_used;
     `used` = allocated elements + the increments of requests that are being refused;
   - released = cached blocks + blocks between their counter update and their push/pop;
   - released <= max_released + threads - 1 for every schedule (and this is tight);
     released <= max_released when release windows do not overlap (one thread, or sequential use). *)
From PV Require Import Base.Tac Base.ListX Arena.ArenaDefs Arena.ArenaBase Arena.ArenaBlocks.
Local Open Scope Z_scope.

Definition esum (l : list (nat * positive)) : Z := sumZ (map (fun e => Z.pos (snd e)) l).
Lemma thr_elems_eq th : thr_elems th = pc_elems (t_pc th) + esum (t_held th).
Proof. reflexivity. Qed.
Lemma esum_nonneg l : 0 <= esum l.
Proof. apply (sumT_nonneg (fun e => Z.pos (snd e))). intros e. lia. Qed.
Lemma esum_app l1 l2 : esum (l1 ++ l2) = esum l1 + esum l2.
Proof. unfold esum. rewrite map_app, sumZ_app. reflexivity. Qed.
Lemma esum_one e : esum [e] = Z.pos (snd e).
Proof. unfold esum. cbn [map sumZ]. lia. Qed.
Lemma esum_remove l k e : nth_error l k = Some e -> esum (remove_nth k l) = esum l - Z.pos (snd e).
Proof.
  intros H. unfold esum. rewrite map_remove_nth.
  apply (sumZ_remove_nth _ _ _ (map_nth_error (fun e => Z.pos (snd e)) k l H)).
Qed.
Lemma pc_elems_nonneg p : 0 <= pc_elems p. Proof. destruct p; cbn [pc_elems]; lia. Qed.
Lemma thr_elems_nonneg th : 0 <= thr_elems th.
Proof. rewrite thr_elems_eq. pose proof (pc_elems_nonneg (t_pc th)). pose proof (esum_nonneg (t_held th)). lia. Qed.
Lemma thr_pending_eq th : thr_pending th = pc_pending (t_pc th).
Proof. reflexivity. Qed.
Lemma thr_pending_nonneg th : 0 <= thr_pending th.
Proof. unfold thr_pending. destruct (t_pc th); cbn [pc_pending]; lia. Qed.
Lemma pc_pending_rest ops : pc_pending (rest_pc ops) = 0. Proof. destruct ops; reflexivity. Qed.
Lemma pc_elems_rest ops : pc_elems (rest_pc ops) = 0. Proof. destruct ops; reflexivity. Qed.

Definition UInv (P : aparams) (c : acfg) : Prop :=
  a_used c = a_live c + a_pending c /\ a_live c <= p_mu P.

Lemma elems_upd l t p q : nth_error l t = Some p ->
  sumT thr_elems (upd l t q) =
  sumT thr_elems l - (pc_elems (t_pc p) + esum (t_held p)) + (pc_elems (t_pc q) + esum (t_held q)).
Proof. apply (sumT_upd thr_elems). Qed.
Lemma pending_upd l t p q : nth_error l t = Some p ->
  sumT thr_pending (upd l t q) = sumT thr_pending l - pc_pending (t_pc p) + pc_pending (t_pc q).
Proof. apply (sumT_upd thr_pending). Qed.

Lemma uinv_step fx P fails c t : p_mu P <> INT32_MAX -> UInv P c -> UInv P (astep fx P fails c t).
Proof.
  intros Hmu [Hu Hl]. unfold astep, alloc_path, free_path. destruct (nth_error (a_thr c) t) as [th|] eqn:E; [|split; assumption].
  pose proof (sumT_ge_nth thr_elems _ _ _ thr_elems_nonneg E) as Hge. rewrite thr_elems_eq in Hge.
  pose proof (sumT_nonneg thr_pending (a_thr c) thr_pending_nonneg) as Hpn.
  pose proof (sumT_ge_nth thr_pending _ _ _ thr_pending_nonneg E) as Hgp. rewrite thr_pending_eq in Hgp.
  destruct th as [ops pc held log]. cbn [t_ops t_pc t_held] in *.
  pose proof (esum_nonneg held) as Hen.
  unfold UInv, a_live, a_pending in Hu, Hl.
  break_step; try give_absurd; try (split; assumption); unfold UInv, a_live, a_pending.
  all: try match goal with Hh : nth_error ?h ?k = Some ?e |- _ =>
         pose proof (esum_remove h k e Hh) as Her; pose proof (esum_nonneg (remove_nth k h)) as Hrn;
         cbn [fst snd] in Her end.
  all: try match goal with Hb : (?p =? 1)%positive && _ = true |- _ =>
         let Hp := fresh "Hp" in pose proof (proj1 (andb_prop _ _ Hb)) as Hp; apply Pos.eqb_eq in Hp; subst p end.
  all: cbn [a_used a_lifo a_thr set_thr set_used set_rel set_lifo add_alloc add_freed length].
  (* a block given away: first the sums over the receiving thread *)
  all: try match goal with Hn : nth_error (a_thr (set_thr _ _ _)) ?u = Some ?tu |- _ =>
         cbn [a_thr set_thr] in Hn; rewrite (elems_upd _ u tu _ Hn), (pending_upd _ u tu _ Hn) end.
  (* how the two sums change is worked out in hypotheses, where the terms are small, and then put into the goal *)
  all: match goal with |- context[upd ?l ?u ?q] =>
         pose proof (elems_upd _ u _ q E) as He'; pose proof (pending_upd _ u _ q E) as Hp' end.
  all: cbn [t_pc t_held goto finish with_ops pc_elems pc_pending] in *.
  all: rewrite ?pc_elems_rest, ?esum_app, ?esum_one in He'; rewrite ?pc_pending_rest in Hp'.
  all: rewrite He', Hp', ?esum_app, ?esum_one; clear He' Hp'.
  all: try match goal with H : a_lifo _ = _ |- _ => rewrite H end; cbn [fst snd length] in *.
  all: split; lia.
Qed.

Lemma uinv_run fx P fails progs sched : p_mu P <> INT32_MAX -> 0 <= p_mu P ->
  UInv P (arun_gen fx P fails (ainit progs) sched).
Proof.
  intros Hmu H0. unfold arun_gen. apply fold_left_inv; [intros a b; apply uinv_step; assumption|].
  unfold UInv, a_live, a_pending, ainit; cbn [a_used a_thr a_lifo length]. rewrite !sumT_map_zero by reflexivity. lia.
Qed.

(* no request in its refusal window: nothing is pending *)
Lemma pending_zero l : cnt is_gfail l = 0 -> sumT thr_pending l = 0.
Proof.
  induction l as [|x l IH]; [reflexivity|]. rewrite cnt_cons. unfold sumT in *. cbn [map sumZ].
  pose proof (cnt_nonneg is_gfail l). unfold is_gfail at 1, thr_pending at 1. destruct (t_pc x); cbn [pc_pending]; lia.
Qed.

Definition nthreads (c : acfg) : Z := Z.of_nat (length (a_thr c)).
Definition RInv (P : aparams) (c : acfg) : Prop :=
  a_rel c = Z.of_nat (length (a_lifo c)) + cnt is_relwin (a_thr c) /\
  a_rel c + cnt is_rinc (a_thr c) <= p_mr P + Z.max 0 (nthreads c - 1).

(* Replacing one entry moves a count by at most one; by nothing when the two entries count alike. *)
Lemma cnt_upd_cases {A} (f : A -> bool) l t p q : nth_error l t = Some p ->
  cnt f (upd l t q) =
  match f p, f q with true, false => cnt f l - 1 | false, true => cnt f l + 1 | _, _ => cnt f l end.
Proof. intros H. rewrite (cnt_upd f l t p q H). destruct (f p), (f q); lia. Qed.
Lemma cnt_upd_alike {A} (f : A -> bool) l t p q : nth_error l t = Some p -> f q = f p ->
  cnt f (upd l t q) = cnt f l.
Proof. intros H E. rewrite (cnt_upd f l t p q H), E. lia. Qed.

(* a thread that has finished an operation is in none of the windows *)
Lemma is_relwin_finish th held r : is_relwin (finish th held r) = false.
Proof. unfold is_relwin, finish; cbn [t_pc]. destruct (t_ops th); reflexivity. Qed.
Lemma is_rinc_finish th held r : is_rinc (finish th held r) = false.
Proof. unfold is_rinc, finish; cbn [t_pc]. destruct (t_ops th); reflexivity. Qed.
Lemma is_rundo_finish th held r : is_rundo (finish th held r) = false.
Proof. unfold is_rundo, finish; cbn [t_pc]. destruct (t_ops th); reflexivity. Qed.

(* What one step does to `released`, to the cache, and to the number of threads inside each window:
   the values after the step of released, of the number of cached blocks, and of the numbers of threads
   between counter and LIFO, between test and increment, and with a failed reservation. *)
Inductive rdelta (fx : bool) (P : aparams) (c : acfg) : Z -> Z -> Z -> Z -> Z -> Prop :=
  | RD_none : rdelta fx P c (a_rel c) (Z.of_nat (length (a_lifo c)))
      (cnt is_relwin (a_thr c)) (cnt is_rinc (a_thr c)) (cnt is_rundo (a_thr c))
  | RD_test : (if fx then 0 < p_mr P else a_rel c < p_mr P) -> cnt is_rinc (a_thr c) <= nthreads c - 1 ->
      rdelta fx P c (a_rel c) (Z.of_nat (length (a_lifo c)))
        (cnt is_relwin (a_thr c)) (cnt is_rinc (a_thr c) + 1) (cnt is_rundo (a_thr c))
  | RD_inc : (fx = true -> a_rel c < p_mr P) ->
      rdelta fx P c (a_rel c + 1) (Z.of_nat (length (a_lifo c)))
        (cnt is_relwin (a_thr c) + 1) (cnt is_rinc (a_thr c) - 1) (cnt is_rundo (a_thr c))
  | RD_incfail : fx = true -> p_mr P <= a_rel c ->
      rdelta fx P c (a_rel c + 1) (Z.of_nat (length (a_lifo c)))
        (cnt is_relwin (a_thr c) + 1) (cnt is_rinc (a_thr c) - 1) (cnt is_rundo (a_thr c) + 1)
  | RD_undo : rdelta fx P c (a_rel c - 1) (Z.of_nat (length (a_lifo c)))
      (cnt is_relwin (a_thr c) - 1) (cnt is_rinc (a_thr c)) (cnt is_rundo (a_thr c) - 1)
  | RD_push : rdelta fx P c (a_rel c) (Z.of_nat (S (length (a_lifo c))))
      (cnt is_relwin (a_thr c) - 1) (cnt is_rinc (a_thr c)) (cnt is_rundo (a_thr c))
  | RD_pop n : length (a_lifo c) = S n -> rdelta fx P c (a_rel c) (Z.of_nat n)
      (cnt is_relwin (a_thr c) + 1) (cnt is_rinc (a_thr c)) (cnt is_rundo (a_thr c))
  | RD_dec : rdelta fx P c (a_rel c - 1) (Z.of_nat (length (a_lifo c)))
      (cnt is_relwin (a_thr c) - 1) (cnt is_rinc (a_thr c)) (cnt is_rundo (a_thr c)).

Lemma astep_rdelta fx P fails c t : p_mr P <> INT32_MAX ->
  let c' := astep fx P fails c t in
  rdelta fx P c (a_rel c') (Z.of_nat (length (a_lifo c')))
    (cnt is_relwin (a_thr c')) (cnt is_rinc (a_thr c')) (cnt is_rundo (a_thr c')).
Proof.
  intros Hmr. unfold astep, alloc_path, free_path. cbv zeta.
  replace (p_mr P =? INT32_MAX) with false by lia.
  destruct (nth_error (a_thr c) t) as [th|] eqn:E; [|constructor].
  assert (Hri : is_rinc th = false -> cnt is_rinc (a_thr c) <= nthreads c - 1).
  { intros Hf. apply (cnt_lt_len is_rinc _ _ _ E Hf). }
  destruct th as [ops pc held log]. cbn [t_ops t_pc t_held] in *.
  break_step; try give_absurd.
  (* a block given away: the receiving thread stays where it is *)
  all: try match goal with Hu : nth_error (a_thr (set_thr _ _ _)) ?u = Some ?tu |- context[set_thr _ ?u ?q] =>
         cbn [a_thr set_thr] in Hu; cbn [a_thr set_thr];
         rewrite (cnt_upd_alike is_relwin _ u tu q Hu eq_refl), (cnt_upd_alike is_rinc _ u tu q Hu eq_refl),
           (cnt_upd_alike is_rundo _ u tu q Hu eq_refl) end.
  all: cbn [a_rel a_lifo a_thr set_thr set_used set_rel set_lifo add_alloc add_freed length].
  all: repeat match goal with |- context[cnt ?f (upd ?l ?u ?q)] => rewrite (cnt_upd_cases f l u _ q E) end.
  all: repeat match goal with |- context[finish ?a ?b ?r] =>
         rewrite (is_relwin_finish a b r), (is_rinc_finish a b r), (is_rundo_finish a b r) end.
  all: cbn [is_relwin is_rinc is_rundo t_pc goto with_ops].
  all: once constructor; try (apply Hri; reflexivity); try lia.
  match goal with H : a_lifo c = _ |- _ => rewrite H end. reflexivity.
Qed.

Lemma astep_nthreads fx P fails c t : length (a_thr (astep fx P fails c t)) = length (a_thr c).
Proof.
  unfold astep, alloc_path, free_path. destruct (nth_error (a_thr c) t) as [th|] eqn:E; [|reflexivity].
  break_step; try give_absurd; cfg_simpl; repeat (erewrite len_upd by eassumption); reflexivity.
Qed.

Lemma rinv_step P fails c t : p_mr P <> INT32_MAX -> RInv P c -> RInv P (astep false P fails c t).
Proof.
  intros Hmr [Hr Hb]. pose proof (astep_rdelta false P fails c t Hmr) as H.
  pose proof (cnt_nonneg is_rinc (a_thr c)).
  unfold RInv, nthreads. rewrite astep_nthreads. inversion H; unfold nthreads in *; split; lia.
Qed.

Lemma run_nthreads fx P fails progs sched : length (a_thr (arun_gen fx P fails (ainit progs) sched)) = length progs.
Proof. unfold arun_gen. apply fold_left_inv; [intros a b <-; apply astep_nthreads | apply map_length]. Qed.
Lemma rinv_run P fails progs sched : p_mr P <> INT32_MAX -> 0 <= p_mr P ->
  RInv P (arun P fails (ainit progs) sched).
Proof.
  intros Hmr H0. unfold arun, arun_gen. apply fold_left_inv; [intros a b; apply rinv_step; assumption|].
  unfold RInv, ainit, nthreads; cbn [a_rel a_lifo a_thr length]. rewrite !cnt_map_false by reflexivity. lia.
Qed.

(* the limit is respected by every run in which no two releases are between their test and their increment
   at the same time (in particular by every sequential use) *)
Definition windows_disjoint P fails c0 sched : Prop :=
  forall k, cnt is_rinc (a_thr (arun P fails c0 (firstn k sched))) <= 1.
Lemma rinv_seq_step P fails c t : p_mr P <> INT32_MAX ->
  a_rel c + cnt is_rinc (a_thr c) <= p_mr P -> cnt is_rinc (a_thr (astep false P fails c t)) <= 1 ->
  a_rel (astep false P fails c t) + cnt is_rinc (a_thr (astep false P fails c t)) <= p_mr P.
Proof.
  intros Hmr Hb. pose proof (astep_rdelta false P fails c t Hmr) as H.
  pose proof (cnt_nonneg is_rinc (a_thr c)). inversion H; lia.
Qed.
Lemma rinv_seq_run P fails sched : p_mr P <> INT32_MAX -> forall c0,
  a_rel c0 + cnt is_rinc (a_thr c0) <= p_mr P -> windows_disjoint P fails c0 sched ->
  let c := arun P fails c0 sched in a_rel c + cnt is_rinc (a_thr c) <= p_mr P.
Proof.
  intros Hmr. induction sched as [|t s IH]; intros c0 Hb Hw; [exact Hb|].
  apply (IH (astep false P fails c0 t)).
  - apply rinv_seq_step; [assumption..|]. apply (Hw 1%nat).
  - intros k. apply (Hw (S k)).
Qed.

(* the stated cache limit is NOT respected under concurrency:
   two threads hold one block each, max_released = 1; both releases read released = 0 < 1
   before either increments: both blocks are cached. *)
Definition refute_P : aparams := {| p_es := 8; p_al := 8; p_mu := 10; p_mr := 1 |}.
Definition refute_progs : list (list op) := [[OGet 1; ORel 0]; [OGet 1; ORel 0]].
Definition refute_sched : list nat := [0;0;0; 1;1;1; 0;1; 0;1; 0;1]%nat.

(* the repaired release_chunk (fx = true): the cache limit holds for every schedule;
   reserved = cached blocks + successful reservations not yet pushed + popped blocks whose decrement is pending
            = released - (failed reservations not yet undone) *)
Definition FInv (P : aparams) (c : acfg) : Prop :=
  a_rel c = Z.of_nat (length (a_lifo c)) + cnt is_relwin (a_thr c) /\
  a_rel c - cnt is_rundo (a_thr c) <= p_mr P.

Lemma finv_step P fails c t : p_mr P <> INT32_MAX -> FInv P c -> FInv P (astep true P fails c t).
Proof.
  intros Hmr [Hr Hb]. pose proof (astep_rdelta true P fails c t Hmr) as H.
  pose proof (cnt_nonneg is_rundo (a_thr c)). unfold FInv. inversion H; split; lia.
Qed.

Lemma finv_run P fails progs sched : p_mr P <> INT32_MAX -> 0 <= p_mr P ->
  FInv P (arun_gen true P fails (ainit progs) sched).
Proof.
  intros Hmr H0. unfold arun_gen. apply fold_left_inv; [intros a b; apply finv_step; assumption|].
  unfold FInv, ainit; cbn [a_rel a_lifo a_thr length]. rewrite !cnt_map_false by reflexivity. lia.
Qed.
(* a failed reservation is still counted in released *)
Lemma rundo_le_relwin l : cnt is_rundo l <= cnt is_relwin l.
Proof.
  induction l as [|x l IH]; [rewrite !cnt_nil; lia|]. rewrite !cnt_cons.
  unfold is_rundo at 1, is_relwin at 1. destruct (t_pc x); lia.
Qed.
(* the refuting schedule of the unrepaired code, replayed on the repaired model: one block is cached, one is freed *)
Example cache_bound_fixed_witness :
  let c := arun_gen true refute_P [] (ainit refute_progs) (refute_sched ++ [0;1;0;1]%nat) in
  a_rel c = 1 /\ length (a_lifo c) = 1%nat /\ length (a_freed c) = 1%nat /\ cnt a_is_done (a_thr c) = 2.
Proof. vm_compute. repeat split. Qed.
