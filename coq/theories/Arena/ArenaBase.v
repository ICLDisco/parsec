(* Counting lemmas for the arena / mempool invariants: occurrences of a block id in
   the blocks of all threads, sums over threads, and how both change when one
   thread's entry is replaced (ListX.upd). *)
From PV Require Import Base.Tac Base.ListX Arena.ArenaDefs.
Local Open Scope Z_scope.

Definition occ (b : nat) (l : list nat) : Z := Z.of_nat (count_occ Nat.eq_dec l b).

Lemma occ_nil b : occ b [] = 0. Proof. reflexivity. Qed.
Lemma occ_app b l1 l2 : occ b (l1 ++ l2) = occ b l1 + occ b l2.
Proof. unfold occ. rewrite count_occ_app. lia. Qed.
Lemma occ_cons b x l : occ b (x :: l) = occ b [x] + occ b l.
Proof. change (x :: l) with ([x] ++ l). apply occ_app. Qed.
Lemma occ_nonneg b l : 0 <= occ b l. Proof. unfold occ; lia. Qed.
Lemma occ_single b x : occ b [x] = if Nat.eqb x b then 1 else 0.
Proof. unfold occ. cbn [count_occ]. destruct (Nat.eq_dec x b) as [e|n].
  - subst. rewrite Nat.eqb_refl. reflexivity.
  - apply Nat.eqb_neq in n. rewrite n. reflexivity. Qed.
Lemma occ_single_same b : occ b [b] = 1.
Proof. rewrite occ_single, Nat.eqb_refl. reflexivity. Qed.
Lemma occ_single_le b x : 0 <= occ b [x] <= 1.
Proof. rewrite occ_single. destruct (Nat.eqb x b); lia. Qed.
Lemma occ_zero_iff b l : occ b l = 0 <-> ~ In b l.
Proof. unfold occ. rewrite (count_occ_not_In Nat.eq_dec). lia. Qed.
Lemma occ_pos_iff b l : 1 <= occ b l <-> In b l.
Proof. unfold occ. rewrite (count_occ_In Nat.eq_dec). lia. Qed.
Lemma NoDup_occ l : NoDup l <-> (forall b, occ b l <= 1).
Proof. rewrite (NoDup_count_occ Nat.eq_dec). unfold occ. split; intros H b; specialize (H b); lia. Qed.

Lemma flatT_app {A B} (f : A -> list B) l1 l2 : flatT f (l1 ++ l2) = flatT f l1 ++ flatT f l2.
Proof. unfold flatT. rewrite map_app, concat_app. reflexivity. Qed.
Lemma flatT_cons {A B} (f : A -> list B) x l : flatT f (x :: l) = f x ++ flatT f l.
Proof. reflexivity. Qed.
Lemma concat_flatT {B} (l : list (list B)) : concat l = flatT (fun x => x) l.
Proof. unfold flatT. rewrite map_id. reflexivity. Qed.

Lemma occ_flat_upd {A} (f : A -> list nat) l t p q b : nth_error l t = Some p ->
  occ b (flatT f (upd l t q)) = occ b (flatT f l) - occ b (f p) + occ b (f q).
Proof.
  intros H. unfold upd. rewrite (split_nth l t p H) at 3.
  rewrite !flatT_app, !flatT_cons, !occ_app. lia.
Qed.
Lemma occ_flat_ge {A} (f : A -> list nat) l t p b : nth_error l t = Some p ->
  occ b (f p) <= occ b (flatT f l).
Proof.
  intros H. rewrite (split_nth l t p H), flatT_app, flatT_cons, !occ_app.
  pose proof (occ_nonneg b (flatT f (firstn t l))). pose proof (occ_nonneg b (flatT f (skipn (S t) l))). lia.
Qed.
Lemma in_flatT {A B} (f : A -> list B) l t p x : nth_error l t = Some p -> In x (f p) -> In x (flatT f l).
Proof.
  intros H Hx. rewrite (split_nth l t p H), flatT_app, flatT_cons. apply in_or_app. right. apply in_or_app. now left.
Qed.
Lemma flatT_map_nil {A B C} (f : B -> list C) (g : A -> B) l : (forall x, f (g x) = []) -> flatT f (map g l) = [].
Proof. intros H. induction l as [|x l IH]; [reflexivity|]. cbn [map]. rewrite flatT_cons, H, IH. reflexivity. Qed.

Lemma sumZ_app l1 l2 : sumZ (l1 ++ l2) = sumZ l1 + sumZ l2.
Proof. induction l1 as [|x l IH]; cbn [sumZ app]; lia. Qed.
Lemma sumT_upd {A} (g : A -> Z) l t p q : nth_error l t = Some p ->
  sumT g (upd l t q) = sumT g l - g p + g q.
Proof.
  intros H. unfold sumT, upd. rewrite (split_nth l t p H) at 3.
  rewrite !map_app, !sumZ_app. cbn [map sumZ]. rewrite ?sumZ_app. cbn [sumZ]. lia.
Qed.
Lemma sumT_nonneg {A} (g : A -> Z) l : (forall x, 0 <= g x) -> 0 <= sumT g l.
Proof. intros H. unfold sumT. induction l as [|x l IH]; cbn [map sumZ]; [lia|]. specialize (H x). lia. Qed.
Lemma sumT_ge_nth {A} (g : A -> Z) l t p : (forall x, 0 <= g x) -> nth_error l t = Some p -> g p <= sumT g l.
Proof.
  intros Hg H. unfold sumT. rewrite (split_nth l t p H), map_app, sumZ_app. cbn [map sumZ].
  pose proof (sumT_nonneg g (firstn t l) Hg). pose proof (sumT_nonneg g (skipn (S t) l) Hg). unfold sumT in *. lia.
Qed.
Lemma sumT_map_zero {A B} (g : B -> Z) (h : A -> B) l : (forall x, g (h x) = 0) -> sumT g (map h l) = 0.
Proof. intros H. unfold sumT. induction l as [|x l IH]; [reflexivity|]. cbn [map sumZ]. rewrite H, IH. lia. Qed.
Lemma sumZ_upd l t p q : nth_error l t = Some p -> sumZ (upd l t q) = sumZ l - p + q.
Proof. intros H. pose proof (sumT_upd (fun x => x) l t p q H) as E. unfold sumT in E. rewrite !map_id in E. exact E. Qed.

Lemma firstn_In {A} (l : list A) k x : In x (firstn k l) -> In x l.
Proof. intros H. rewrite <- (firstn_skipn k l). apply in_or_app. now left. Qed.
Lemma skipn_In {A} (l : list A) k x : In x (skipn k l) -> In x l.
Proof. intros H. rewrite <- (firstn_skipn k l). apply in_or_app. now right. Qed.

Lemma remove_nth_split {A} (l : list A) k x : nth_error l k = Some x ->
  l = firstn k l ++ x :: skipn (S k) l.
Proof. apply split_nth. Qed.
Lemma occ_remove_nth l k x b : nth_error l k = Some x ->
  occ b (remove_nth k l) = occ b l - occ b [x].
Proof.
  intros H. unfold remove_nth. rewrite (split_nth l k x H) at 3.
  rewrite !occ_app, (occ_cons b x). lia.
Qed.
Lemma map_remove_nth {A B} (f : A -> B) k l : map f (remove_nth k l) = remove_nth k (map f l).
Proof. unfold remove_nth. rewrite map_app, firstn_map, skipn_map. reflexivity. Qed.
Lemma sumZ_remove_nth l k x : nth_error l k = Some x -> sumZ (remove_nth k l) = sumZ l - x.
Proof.
  intros H. unfold remove_nth. rewrite (split_nth l k x H) at 3.
  rewrite !sumZ_app. cbn [sumZ]. lia.
Qed.
Lemma in_remove_nth {A} (l : list A) k x : In x (remove_nth k l) -> In x l.
Proof.
  unfold remove_nth. intros H. apply in_app_or in H. destruct H as [H|H].
  - eapply firstn_In; eauto. - eapply skipn_In; eauto.
Qed.
Lemma nth_error_In' {A} (l : list A) k x : nth_error l k = Some x -> In x l.
Proof. apply nth_error_In. Qed.

Lemma Forall_upd {A} (P : A -> Prop) l t q : Forall P l -> P q -> Forall P (upd l t q).
Proof. exact (ListX.Forall_upd P l t q). Qed.
(* what holds of every entry with its index still does after one is replaced, if it holds of the new one *)
Lemma all_upd {A} (R : nat -> A -> Prop) l t p q : nth_error l t = Some p ->
  (forall u x, nth_error l u = Some x -> R u x) -> R t q ->
  forall u x, nth_error (upd l t q) u = Some x -> R u x.
Proof.
  intros Hp Hl Hq u x Hu. destruct (nth_upd_inv _ _ _ _ _ _ Hp Hu) as [[-> ->]|[_ Hx]]; auto.
Qed.
Lemma nth_error_snoc_old {A} (l : list A) x b y : nth_error l b = Some y -> nth_error (l ++ [x]) b = Some y.
Proof. intros H. rewrite nth_error_app1; [assumption|]. apply nth_error_Some. congruence. Qed.
Lemma nth_error_snoc_new {A} (l : list A) x : nth_error (l ++ [x]) (length l) = Some x.
Proof. rewrite nth_error_app2 by lia. rewrite Nat.sub_diag. reflexivity. Qed.
