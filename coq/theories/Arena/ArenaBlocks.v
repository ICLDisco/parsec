(* Arena chunk cache: blocks in hand are pairwise distinct, allocated, not freed,
   not cached; and every block was allocated with the size its element count needs.
   For any number of threads, any op lists, any schedule. *)
From PV Require Import Base.Tac Base.ListX Arena.ArenaDefs Arena.ArenaBase.
Local Open Scope Z_scope.

(* case analysis of one step: one goal per path through astep *)
Ltac break_step := repeat match goal with
  | |- context[match ?x with _ => _ end] => destruct x eqn:?
  end.
(* reduces the projections and setters of configurations and threads, in the goal and the hypotheses *)
Ltac cfg_simpl := cbn [a_used a_rel a_lifo a_allocs a_freed a_thr set_thr set_used set_rel set_lifo add_alloc add_freed
                       t_ops t_pc t_held t_log goto finish with_ops] in *.

(* what one step does to the multiset of live blocks *)
Inductive beffect (c c' : acfg) : Prop :=
  | BE_move : a_allocs c' = a_allocs c -> a_freed c' = a_freed c ->
      (forall b, occ b (all_blocks c') = occ b (all_blocks c)) -> beffect c c'
  | BE_alloc sz : a_allocs c' = a_allocs c ++ [sz] -> a_freed c' = a_freed c ->
      (forall b, occ b (all_blocks c') = occ b (all_blocks c) + occ b [length (a_allocs c)]) -> beffect c c'
  | BE_allocfail sz : a_allocs c' = a_allocs c ++ [sz] -> a_freed c' = a_freed c ->
      (forall b, occ b (all_blocks c') = occ b (all_blocks c)) -> beffect c c'
  | BE_free x : a_allocs c' = a_allocs c -> a_freed c' = x :: a_freed c -> 1 <= occ x (all_blocks c) ->
      (forall b, occ b (all_blocks c') = occ b (all_blocks c) - occ b [x]) -> beffect c c'.

Lemma pc_blocks_rest ops : pc_blocks (rest_pc ops) = [].
Proof. destruct ops; reflexivity. Qed.

(* turns occ b (all_blocks _) of a stepped configuration into a sum over the parts of the old one: the
   replaced thread ([occ_flat_upd]), a held block taken out ([occ_remove_nth]), then the pc and the LIFO
   by the equations of the case *)
Ltac occ_norm b :=
  unfold all_blocks; cfg_simpl; rewrite ?occ_app;
  repeat match goal with
    | H : nth_error ?l ?t = Some ?p |- context[occ b (flatT ?f (upd ?l ?t ?q))] =>
        rewrite (occ_flat_upd f l t p q b H)
    end;
  unfold thr_blocks; cfg_simpl; rewrite ?map_app, ?occ_app;
  repeat match goal with
    | H : nth_error (t_held ?th) ?k = Some ?e |- context[remove_nth ?k (t_held ?th)] =>
        rewrite (map_remove_nth fst k (t_held th)),
                (occ_remove_nth (map fst (t_held th)) k (fst e) b (map_nth_error fst k (t_held th) H))
    end;
  repeat match goal with H : t_pc _ = _ |- _ => rewrite H end;
  cbn [pc_blocks fst snd]; rewrite ?pc_blocks_rest;
  rewrite ?map_app, ?occ_app; cbn [map fst snd app];
  repeat match goal with H : a_lifo _ = _ |- _ => rewrite H end;
  repeat match goal with |- context[occ b (?x :: ?l)] =>
    lazymatch l with nil => fail | _ => rewrite (occ_cons b x l) end end;
  rewrite ?occ_nil.

Lemma upd_not_none {A} (l : list A) t u p pu q : nth_error l t = Some p -> nth_error l u = Some pu ->
  nth_error (upd l t q) u = None -> False.
Proof.
  intros Ht Hu Hn. apply nth_error_None in Hn. rewrite (len_upd _ _ _ _ Ht) in Hn.
  apply nth_error_None in Hn. congruence.
Qed.
(* OGive: the receiving thread exists before the giver's entry is replaced, hence after it *)
Ltac give_absurd := exfalso; cfg_simpl;
  match goal with
  | Ht : nth_error ?l ?t = Some _, Hu : nth_error ?l ?u = Some _, Hn : nth_error (upd ?l ?t _) ?u = None |- _ =>
      exact (upd_not_none _ _ _ _ _ _ Ht Hu Hn)
  end.
(* the block that is freed is carried by the pc or held, so it occurs in [all_blocks] *)
Ltac in_blocks := apply occ_pos_iff; unfold all_blocks; apply in_or_app; left;
  eapply in_flatT; [eassumption|]; unfold thr_blocks; apply in_or_app;
  first [ left; match goal with H : t_pc _ = _ |- _ => rewrite H end; cbn [pc_blocks]; left; reflexivity
        | right; apply in_map_iff; eexists; split; [|eapply nth_error_In; eassumption]; reflexivity ].

Lemma astep_beffect fx P fails c t : beffect c (astep fx P fails c t).
Proof.
  unfold astep, alloc_path, free_path. break_step; try give_absurd;
    try (apply BE_move; [reflexivity | reflexivity | intros bb; try reflexivity; occ_norm bb; lia]).
  all: try (eapply BE_allocfail; [reflexivity | reflexivity | intros bb; occ_norm bb; lia]).
  all: try (eapply BE_alloc; [reflexivity | reflexivity | intros bb; occ_norm bb; lia]).
  all: try (eapply BE_free; [reflexivity | reflexivity | in_blocks | intros bb; occ_norm bb; lia]).
Qed.

Definition BInv (c : acfg) : Prop := forall b,
  occ b (all_blocks c) <= 1 /\
  (1 <= occ b (all_blocks c) -> (b < length (a_allocs c))%nat) /\
  (In b (a_freed c) -> occ b (all_blocks c) = 0 /\ (b < length (a_allocs c))%nat).

Lemma binv_step fx P fails c t : BInv c -> BInv (astep fx P fails c t).
Proof.
  intros H. unfold BInv in *. destruct (astep_beffect fx P fails c t) as [Ha Hf Ho | sz Ha Hf Ho | sz Ha Hf Ho | x Ha Hf Hx Ho];
    intros b; destruct (H b) as (H1 & H2 & H3); rewrite Ha, Hf, Ho.
  - auto.
  - rewrite app_length, occ_single; cbn [length]. destruct (Nat.eqb_spec (length (a_allocs c)) b) as [<-|Hne].
    + split; [lia|]. split; [lia|]. intros Hin. destruct (H3 Hin). lia.
    + split; [lia|]. split; [lia|]. intros Hin. destruct (H3 Hin). lia.
  - rewrite app_length; cbn [length]. split; [lia|]. split; [lia|]. intros Hin. destruct (H3 Hin). lia.
  - destruct (H x) as (_ & Hxl & _). specialize (Hxl Hx).
    rewrite occ_single. destruct (Nat.eqb_spec x b) as [<-|Hne].
    + split; [lia|]. split; [lia|]. intros _. lia.
    + split; [lia|]. split; [lia|]. intros [Hin|Hin]; [congruence|]. destruct (H3 Hin). lia.
Qed.

Lemma all_blocks_init progs : all_blocks (ainit progs) = [].
Proof. unfold all_blocks, ainit; cbn [a_thr a_lifo]. rewrite flatT_map_nil; reflexivity. Qed.
Lemma binv_init progs : BInv (ainit progs).
Proof. intros b. rewrite all_blocks_init, occ_nil. cbn [ainit a_freed a_allocs]. split; [lia|]. split; [lia|]. intros []. Qed.
Lemma binv_run fx P fails progs sched : BInv (arun_gen fx P fails (ainit progs) sched).
Proof. unfold arun_gen. apply fold_left_inv; [intros a b; apply binv_step | apply binv_init]. Qed.

Lemma occ_flat_two {A} (f : A -> list nat) l t u p q b : t <> u ->
  nth_error l t = Some p -> nth_error l u = Some q -> occ b (f p) + occ b (f q) <= occ b (flatT f l).
Proof.
  revert t u. induction l as [|x l IH]; intros t u Hne Ht Hu; [destruct t; discriminate|].
  rewrite flatT_cons, occ_app. destruct t as [|t], u as [|u]; try congruence; cbn [nth_error] in *.
  - inv Ht. pose proof (occ_flat_ge f l u q b Hu). lia.
  - inv Hu. pose proof (occ_flat_ge f l t p b Ht). lia.
  - assert (t <> u) by congruence. pose proof (IH t u H Ht Hu). pose proof (occ_nonneg b (f x)). lia.
Qed.

(* blocks in hand (held, or carried by an operation in progress) and cached blocks are pairwise distinct *)
Theorem arena_nodup P fails progs sched : NoDup (all_blocks (arun P fails (ainit progs) sched)).
Proof. apply NoDup_occ. intros b. apply (binv_run false P fails progs sched b). Qed.

(* when nothing occurs twice in the parts of the threads followed by a rest: no two threads share an element,
   no thread has one twice or in common with the rest, and the rest has none twice *)
Lemma disjoint_parts {A} (f : A -> list nat) l rest : (forall b, occ b (flatT f l ++ rest) <= 1) ->
  (forall t u p q b, nth_error l t = Some p -> nth_error l u = Some q -> In b (f p) -> In b (f q) -> t = u) /\
  (forall t p, nth_error l t = Some p -> NoDup (f p) /\ forall b, In b (f p) -> ~ In b rest) /\
  NoDup rest.
Proof.
  intros H.
  assert (Hle : forall b, occ b (flatT f l) + occ b rest <= 1) by (intros b; rewrite <- occ_app; apply H).
  repeat split.
  - intros t u p q b Ht Hu Hb Hb'. destruct (Nat.eq_dec t u) as [|Hne]; [assumption|exfalso].
    pose proof (occ_flat_two f _ _ _ _ _ b Hne Ht Hu). apply occ_pos_iff in Hb, Hb'.
    pose proof (occ_nonneg b rest). specialize (Hle b). lia.
  - apply NoDup_occ. intros b. pose proof (occ_flat_ge f _ _ _ b H0). pose proof (occ_nonneg b rest).
    specialize (Hle b). lia.
  - intros b Hb Hl. pose proof (occ_flat_ge f _ _ _ b H0). apply occ_pos_iff in Hb, Hl. specialize (Hle b). lia.
  - apply NoDup_occ. intros b. pose proof (occ_nonneg b (flatT f l)). specialize (Hle b). lia.
Qed.

Lemma held_in_thr_blocks th b cnt : In (b, cnt) (t_held th) -> In b (thr_blocks th).
Proof. intros H. unfold thr_blocks. apply in_or_app. right. apply in_map_iff. exists (b, cnt). auto. Qed.
