(* Arena chunk cache: every block in hand or cached was obtained from the allocator with
   the size chunk_size(elem_size, alignment, count) of its element count, and that size
   leaves room for `count` elements after the aligned data pointer (PARSEC_ALIGN arithmetic). *)
From PV Require Import Base.Tac Base.ListX Arena.ArenaDefs Arena.ArenaBase Arena.ArenaBlocks.
Local Open Scope Z_scope.

Lemma align_up_spec x k : 0 <= k -> 0 <= x ->
  align_up x (2 ^ k) = ((x + (2 ^ k - 1)) / 2 ^ k) * 2 ^ k.
Proof.
  intros Hk Hx. unfold align_up.
  replace (2 ^ k - 1) with (Z.ones k) by (rewrite Z.ones_equiv; lia).
  rewrite <- Z.ldiff_land, Z.ldiff_ones_r by assumption.
  rewrite Z.shiftr_div_pow2, Z.shiftl_mul_pow2 by assumption. reflexivity.
Qed.
Lemma align_up_props x k : 0 <= k -> 0 <= x ->
  x <= align_up x (2 ^ k) < x + 2 ^ k /\ align_up x (2 ^ k) mod 2 ^ k = 0.
Proof.
  intros Hk Hx. rewrite align_up_spec by assumption.
  assert (Hp : 0 < 2 ^ k) by (apply Z.pow_pos_nonneg; lia).
  pose proof (Z.div_mod (x + (2 ^ k - 1)) (2 ^ k) ltac:(lia)) as Hd.
  pose proof (Z.mod_pos_bound (x + (2 ^ k - 1)) (2 ^ k) Hp) as Hm.
  split; [nia|]. apply Z.mod_mul. lia.
Qed.

(* alignment > 1 with alignment & (alignment-1) == 0 is a power of two *)
Lemma pow2_of_land a : 1 < a -> Z.land a (a - 1) = 0 -> exists k, 0 < k /\ a = 2 ^ k.
Proof.
  intros Ha Hl. exists (Z.log2 a). split; [apply Z.log2_pos; lia|].
  pose proof (Z.log2_spec a ltac:(lia)) as [Hlo Hhi].
  set (k := Z.log2 a) in *. assert (Hk : 0 <= k) by apply Z.log2_nonneg.
  destruct (Z.eq_dec a (2 ^ k)) as [|Hne]; [assumption|exfalso].
  (* both a and a-1 have bit k set *)
  assert (Hb1 : Z.testbit a k = true) by (apply Z.bit_log2; lia).
  assert (Hb2 : Z.testbit (a - 1) k = true).
  { assert (Hl2 : Z.log2 (a - 1) = k).
    { apply Z.log2_unique; [assumption|]. rewrite Z.pow_succ_r in * by assumption. lia. }
    rewrite <- Hl2. apply Z.bit_log2. lia. }
  assert (Z.testbit (Z.land a (a - 1)) k = true) by (rewrite Z.land_spec, Hb1, Hb2; reflexivity).
  rewrite Hl, Z.bits_0 in H. discriminate.
Qed.

(* the data region of a chunk: after the header, aligned, and inside the allocated size *)
Lemma chunk_fits es al cnt base : 1 < al -> Z.land al (al - 1) = 0 -> 0 <= es -> 0 <= base ->
  HDR <= data_off base al /\
  (base + data_off base al) mod al = 0 /\
  data_off base al + es * Z.pos cnt <= chunk_size es al cnt.
Proof.
  intros Ha Hl Hes Hb. destruct (pow2_of_land al Ha Hl) as (k & Hk & ->).
  unfold data_off, chunk_size, HDR, LI.
  pose proof (align_up_props (base + 72) k ltac:(lia) ltac:(lia)) as [Hd1 Hd2].
  assert (Hsz : 0 <= es * Z.pos cnt) by nia.
  pose proof (align_up_props (es * Z.pos cnt + 2 ^ k + 72) k ltac:(lia) ltac:(lia)) as [Hs1 Hs2].
  split; [lia|]. split; [replace (base + (align_up (base + 72) (2 ^ k) - base)) with (align_up (base + 72) (2 ^ k)) by lia; assumption|].
  destruct (cnt =? 1)%positive; [destruct (_ <? 48) eqn:E|]; lia.
Qed.

Definition pc_items (p : apc) : list (nat * positive) :=
  match p with
  | GDecRel b | RInc b | RPush b | RUndo b => [(b, 1%positive)]
  | RSub b cnt => [(b, cnt)]
  | _ => []
  end.
Definition thr_items (th : thr) : list (nat * positive) := pc_items (t_pc th) ++ t_held th.
Definition all_items (c : acfg) : list (nat * positive) :=
  flatT thr_items (a_thr c) ++ map (fun b => (b, 1%positive)) (a_lifo c).
Definition sized (P : aparams) (al : list Z) (e : nat * positive) : Prop :=
  nth_error al (fst e) = Some (chunk_size (p_es P) (p_al P) (snd e)).
Definition SInv (P : aparams) (c : acfg) : Prop := forall e, In e (all_items c) -> sized P (a_allocs c) e.

Lemma in_flat_upd {A B} (f : A -> list B) l t p q e : nth_error l t = Some p ->
  In e (flatT f (upd l t q)) -> In e (f q) \/ In e (flatT f l).
Proof.
  intros H. unfold upd. rewrite (split_nth l t p H) at 3.
  rewrite !flatT_app, !flatT_cons, !in_app_iff. tauto.
Qed.
Lemma sized_mono P al x e : sized P al e -> sized P (al ++ [x]) e.
Proof. unfold sized. apply nth_error_snoc_old. Qed.
Lemma pc_items_rest ops : pc_items (rest_pc ops) = [].
Proof. destruct ops; reflexivity. Qed.

Section OldItems.
Context (c : acfg) (t : nat) (th : thr) (E : nth_error (a_thr c) t = Some th).
Lemma old_flat e : In e (flatT thr_items (a_thr c)) -> In e (all_items c).
Proof. intros H. unfold all_items. apply in_or_app. now left. Qed.
Lemma old_lifo_map e : In e (map (fun b => (b, 1%positive)) (a_lifo c)) -> In e (all_items c).
Proof. intros H. unfold all_items. apply in_or_app. now right. Qed.
Lemma old_held e : In e (t_held th) -> In e (all_items c).
Proof. intros H. apply old_flat. eapply in_flatT; [exact E|]. unfold thr_items. apply in_or_app. now right. Qed.
Lemma old_pc p e : t_pc th = p -> In e (pc_items p) -> In e (all_items c).
Proof. intros Hp H. apply old_flat. eapply in_flatT; [exact E|]. unfold thr_items. apply in_or_app. left. now rewrite Hp. Qed.
Lemma old_lifo b : In b (a_lifo c) -> In (b, 1%positive) (all_items c).
Proof. intros H. apply old_lifo_map. exact (in_map _ _ _ H). Qed.
End OldItems.

(* membership He in the items of the stepped thread becomes a disjunction over its pc item and its held items *)
Ltac items_cases He :=
  unfold thr_items in He; cfg_simpl; rewrite ?pc_items_rest in He;
  repeat match goal with H : t_pc _ = _ |- _ => rewrite H in He end;
  cbn [pc_items app] in He; rewrite ?in_app_iff in He; cbn [map In] in He.

(* an item of the stepped configuration that the old one had already: in another thread, held, in the
   LIFO, or carried by the pc *)
Ltac old_item E := first
  [ solve [eapply old_flat; eassumption]
  | solve [eapply (old_held _ _ _ E); first [eassumption | eapply in_remove_nth; eassumption | eapply nth_error_In; eassumption]]
  | solve [eapply old_lifo_map; eassumption]
  | solve [eapply old_lifo_map; match goal with H : a_lifo _ = _ |- _ => rewrite H end; cbn [map In]; auto]
  | solve [eapply (old_pc _ _ _ E); [eassumption | cbn [pc_items In]; auto]]
  | solve [eapply old_lifo; match goal with H : a_lifo _ = _ |- _ => rewrite H end; cbn [In]; auto] ].

Lemma give_recv {A B} (f : A -> list B) l t u p q r e : nth_error l t = Some p ->
  nth_error (upd l t q) u = Some r -> In e (f r) -> In e (f q) \/ In e (flatT f l).
Proof. intros Ht Hu He. eapply in_flat_upd; [exact Ht|]. eapply in_flatT; eassumption. Qed.

Lemma sinv_step fx P fails c t : SInv P c -> SInv P (astep fx P fails c t).
Proof.
  intros H. unfold astep, alloc_path, free_path. destruct (nth_error (a_thr c) t) as [th|] eqn:E; [|assumption].
  break_step; try give_absurd; try assumption;
    intros e He; unfold all_items in He; cfg_simpl; apply in_app_or in He.
  all: destruct He as [He|He];
    [ repeat match goal with
        | Hn : nth_error ?l ?u = Some ?p |- _ =>
            match type of He with In _ (flatT _ (upd l u _)) =>
              apply (in_flat_upd _ _ _ _ _ _ Hn) in He; destruct He as [He|He] end
        end
    | ];
    try (items_cases He);
    try solve [ repeat apply sized_mono; apply H; old_item E ].
  all: repeat match type of He with _ \/ _ => destruct He as [He|He] end;
    try contradiction;
    try solve [ repeat apply sized_mono; apply H; old_item E ];
    try solve [ subst e; unfold sized; cbn [fst snd]; apply nth_error_snoc_new ].
  all: try match goal with Hb : (?p =? 1)%positive && _ = true |- _ =>
         apply andb_prop in Hb; destruct Hb as [Hb _]; apply Pos.eqb_eq in Hb; subst p end;
       try (subst e);
       try solve [ repeat apply sized_mono; apply H; old_item E ].
  - assert (Hi : In e (thr_items t1)) by (unfold thr_items; apply in_or_app; now left).
    destruct (give_recv thr_items _ _ _ _ _ _ _ E Heqo3 Hi) as [Hq|Hq].
    + items_cases Hq. apply H. old_item E.
    + apply H. old_item E.
  - assert (Hi : In e (thr_items t1)) by (unfold thr_items; apply in_or_app; now right).
    destruct (give_recv thr_items _ _ _ _ _ _ _ E Heqo3 Hi) as [Hq|Hq].
    + items_cases Hq. apply H. old_item E.
    + apply H. old_item E.
Qed.

Lemma sinv_init P progs : SInv P (ainit progs).
Proof. intros e He. unfold all_items, ainit in He; cbn [a_thr a_lifo map] in He. rewrite flatT_map_nil in He by reflexivity. destruct He. Qed.
Lemma sinv_run fx P fails progs sched : SInv P (arun_gen fx P fails (ainit progs) sched).
Proof. unfold arun_gen. apply fold_left_inv; [intros a b; apply sinv_step | apply sinv_init]. Qed.
