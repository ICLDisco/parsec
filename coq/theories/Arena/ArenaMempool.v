(* Thread memory pools (parsec/mempool.c, mempool.h): for any number of threads, any op
   lists and any schedule, every element created by the pools is at exactly one place
   (held by one thread, carried by one free in progress, or in one pool), pooled elements sit
   in the pool of the thread mempool recorded in them (free returns to the owner's pool),
   a thread only ever obtains elements owned by its own pool, and nb_elt counts creations. *)
From PV Require Import Base.Tac Base.ListX Arena.ArenaDefs Arena.ArenaBase Arena.ArenaBlocks.
Local Open Scope Z_scope.

(* reduces the projections and setters of pool configurations and threads, in the goal and the hypotheses *)
Ltac m_simpl := cbn [m_pools m_nbelt m_owner m_thr mset_thr mset_pool mnew_elt
                     m_ops m_pc m_held m_log mgoto mfinish] in *.

Definition owner_count (c : mcfg) (b : nat) : Z := if (b <? length (m_owner c))%nat then 1 else 0.
(* every element of pool p, and every element thread t obtained, is recorded as owned by pool p, resp. t *)
Definition pool_owned (owner : list nat) (p : nat) (l : list nat) : Prop :=
  forall b, In b l -> nth_error owner b = Some p.
Definition log_owned (owner : list nat) (t : nat) (th : mthr) : Prop :=
  forall b, In (MGot b) (m_log th) -> nth_error owner b = Some t.
Definition MInv (c : mcfg) : Prop :=
  (forall b, occ b (m_all_blocks c) = owner_count c b) /\
  Forall (fun o => (o < length (m_pools c))%nat) (m_owner c) /\
  (forall p l, nth_error (m_pools c) p = Some l -> pool_owned (m_owner c) p l) /\
  (length (m_pools c) = length (m_thr c) /\ length (m_nbelt c) = length (m_thr c)) /\
  sumZ (m_nbelt c) = Z.of_nat (length (m_owner c)) /\
  (forall t th, nth_error (m_thr c) t = Some th -> log_owned (m_owner c) t th).

Lemma mpc_blocks_rest ops : mpc_blocks (mrest ops) = [].
Proof. destruct ops; reflexivity. Qed.

Lemma mthr_blocks_eq th : mthr_blocks th = mpc_blocks (m_pc th) ++ m_held th.
Proof. reflexivity. Qed.

(* as [occ_norm] of ArenaBlocks.v, for the blocks of the pools *)
Ltac m_occ_norm b :=
  unfold m_all_blocks; m_simpl; rewrite ?concat_flatT, ?occ_app;
  repeat match goal with
    | H : nth_error ?l ?t = Some ?p |- context[occ b (flatT ?f (upd ?l ?t ?q))] =>
        rewrite (occ_flat_upd f l t p q b H)
    end;
  rewrite ?mthr_blocks_eq; m_simpl; rewrite ?occ_app;
  repeat match goal with
    | H : nth_error (m_held ?th) ?k = Some ?e |- context[remove_nth ?k (m_held ?th)] =>
        rewrite (occ_remove_nth (m_held th) k e b H)
    end;
  repeat match goal with H : m_pc _ = _ |- _ => rewrite H end;
  cbn [mpc_blocks]; rewrite ?mpc_blocks_rest;
  repeat match goal with |- context[occ b (?x :: ?l)] =>
    lazymatch l with nil => fail | _ => rewrite (occ_cons b x l) end end;
  rewrite ?occ_nil.

(* a block some thread has was created, so its owner is recorded and is one of the pools *)
Lemma owner_of_live c t th b : MInv c -> nth_error (m_thr c) t = Some th -> In b (mthr_blocks th) ->
  exists o l, nth_error (m_owner c) b = Some o /\ nth_error (m_pools c) o = Some l.
Proof.
  intros (H1 & H2 & _) Et Hb.
  assert (Hl : In b (m_all_blocks c)) by (apply in_or_app; left; eapply in_flatT; eassumption).
  apply occ_pos_iff in Hl. rewrite H1 in Hl. unfold owner_count in Hl.
  destruct (b <? length (m_owner c))%nat eqn:E; [|lia]. apply Nat.ltb_lt in E.
  destruct (nth_error (m_owner c) b) as [o|] eqn:Eo; [|apply nth_error_None in Eo; lia].
  pose proof (Forall_nth _ _ _ _ H2 Eo) as Ho. cbn beta in Ho.
  destruct (nth_error (m_pools c) o) as [l|] eqn:El; [|apply nth_error_None in El; lia].
  eauto.
Qed.

Lemma owner_count_same c c' b : m_owner c' = m_owner c -> owner_count c' b = owner_count c b.
Proof. unfold owner_count. intros ->. reflexivity. Qed.

(* a step that creates no element: the owner table and the counters stay, blocks only move *)
Lemma minv_move c pools' thr' : MInv c ->
  length pools' = length (m_pools c) -> length thr' = length (m_thr c) ->
  (forall b, occ b (flatT mthr_blocks thr' ++ concat pools') = occ b (m_all_blocks c)) ->
  (forall p l, nth_error pools' p = Some l -> pool_owned (m_owner c) p l) ->
  (forall t th, nth_error thr' t = Some th -> log_owned (m_owner c) t th) ->
  MInv {| m_pools := pools'; m_nbelt := m_nbelt c; m_owner := m_owner c; m_thr := thr' |}.
Proof.
  intros (H1 & H2 & _ & (H4 & H4') & H5 & _) Hlp Hlt Hocc Hpool Hlog. unfold MInv; m_simpl.
  split; [|split; [|split; [assumption|split; [lia|split; assumption]]]].
  - intros b. transitivity (occ b (m_all_blocks c)); [apply Hocc | apply H1].
  - rewrite Hlp. assumption.
Qed.

Lemma minv_set_thr c t th th' : MInv c -> nth_error (m_thr c) t = Some th ->
  (forall b, occ b (mthr_blocks th') = occ b (mthr_blocks th)) ->
  (forall b, In (MGot b) (m_log th') -> In (MGot b) (m_log th)) ->
  MInv (mset_thr c t th').
Proof.
  intros H E Hocc Hlog. pose proof H as (_ & _ & H3 & _ & _ & H6).
  apply (minv_move c (m_pools c) (upd (m_thr c) t th') H); [reflexivity | apply (len_upd _ _ _ _ E) | | exact H3 |].
  - intros b. unfold m_all_blocks. rewrite !occ_app, (occ_flat_upd _ _ _ _ _ b E), Hocc. lia.
  - apply (all_upd (log_owned _) _ _ _ _ E H6). intros b Hb. apply (H6 t th E), Hlog, Hb.
Qed.

(* the two side conditions of [minv_set_thr]: the stepped thread has the blocks it had, occurrence by
   occurrence, and every MGot of its log was in the log before *)
Ltac thr_blocks_eq bb := intros bb; m_occ_norm bb; lia.
Ltac log_sub := intros bb; m_simpl; cbn [In]; intros Hx; repeat destruct Hx as [Hx|Hx]; try discriminate; auto.

Lemma minv_step c t : MInv c -> MInv (mstep c t).
Proof.
  intros H. pose proof H as (H1 & H2 & H3 & (H4 & H4') & H5 & H6).
  unfold mstep. destruct (nth_error (m_thr c) t) as [th|] eqn:E; [|assumption].
  destruct (m_pc th) eqn:Epc; [| assumption | |].
  - (* MIdle *)
    destruct (m_ops th) as [|[|k|k u] r] eqn:Eops.
    + apply (minv_set_thr c t th _ H E); [thr_blocks_eq bb | log_sub].
    + apply (minv_set_thr c t th _ H E); [thr_blocks_eq bb | log_sub].
    + destruct (nth_error (m_held th) k) as [b|] eqn:Eh;
        apply (minv_set_thr c t th _ H E); [thr_blocks_eq bb | log_sub | thr_blocks_eq bb | log_sub].
    + (* MGive *)
      destruct (nth_error (m_held th) k) as [e|] eqn:Eh; [|apply (minv_set_thr c t th _ H E); [thr_blocks_eq bb | log_sub]].
      destruct (nth_error (m_thr c) u) as [tu0|] eqn:Eu; [|apply (minv_set_thr c t th _ H E); [thr_blocks_eq bb | log_sub]].
      m_simpl. set (th1 := mfinish th r (remove_nth k (m_held th)) MOk).
      destruct (nth_error (upd (m_thr c) t th1) u) as [tu|] eqn:Eu2; [|exfalso; exact (upd_not_none _ _ _ _ _ _ E Eu Eu2)].
      apply (minv_move c (m_pools c) _ H); [reflexivity | | | exact H3 |].
      * rewrite (len_upd _ _ _ _ Eu2). apply (len_upd _ _ _ _ E).
      * intros bb. subst th1. m_occ_norm bb. lia.
      * assert (H6' : forall v x, nth_error (upd (m_thr c) t th1) v = Some x -> log_owned (m_owner c) v x).
        { apply (all_upd (log_owned _) _ _ _ _ E H6). intros b [Hb|Hb]; [discriminate|apply (H6 t th E b Hb)]. }
        apply (all_upd (log_owned _) _ _ _ _ Eu2 H6'), (H6' u tu Eu2).
  - (* MPop *)
    destruct (nth_error (m_pools c) t) as [[|b l]|] eqn:Ep.
    + (* allocate_when_empty *)
      assert (Ht : (t < length (m_thr c))%nat) by (apply nth_error_Some; congruence).
      destruct (nth_error (m_nbelt c) t) as [n|] eqn:En; [|apply nth_error_None in En; lia].
      unfold MInv, mnew_elt; m_simpl. rewrite En. m_simpl.
      split; [|split; [|split; [|split; [|split]]]].
      * intros bb. specialize (H1 bb). unfold owner_count in *; m_simpl.
        m_occ_norm bb. unfold m_all_blocks in H1. rewrite concat_flatT, occ_app in H1.
        rewrite app_length, occ_single; cbn [length].
        destruct (Nat.eqb_spec (length (m_owner c)) bb), (Nat.ltb_spec bb (length (m_owner c))),
          (Nat.ltb_spec bb (length (m_owner c) + 1)); lia.
      * apply Forall_app. split; [assumption|]. constructor; [lia|constructor].
      * intros p l Hp b Hb. apply nth_error_snoc_old, (H3 p l Hp b Hb).
      * rewrite (len_upd _ _ _ _ E), (len_upd _ _ _ _ En). lia.
      * rewrite (sumZ_upd _ _ _ _ En), app_length. cbn [length]. lia.
      * apply (all_upd (log_owned _) _ _ _ _ E).
        -- intros u x Hu b Hb. apply nth_error_snoc_old, (H6 u x Hu b Hb).
        -- intros b [Hb|Hb]; [inv Hb; apply nth_error_snoc_new|apply nth_error_snoc_old, (H6 t th E b Hb)].
    + (* pop b *)
      apply (minv_move c _ _ H); m_simpl; [apply (len_upd _ _ _ _ Ep) | apply (len_upd _ _ _ _ E) | | |].
      * intros bb. m_occ_norm bb. lia.
      * apply (all_upd (pool_owned _) _ _ _ _ Ep H3). intros b' Hb. apply (H3 t _ Ep). now right.
      * apply (all_upd (log_owned _) _ _ _ _ E H6). intros b' [Hb|Hb]; [inv Hb; apply (H3 t _ Ep); now left|apply (H6 t th E b' Hb)].
    + apply (minv_set_thr c t th _ H E); [thr_blocks_eq bb | log_sub].
  - (* MPush b *)
    destruct (owner_of_live c t th b H E) as (o & l & Eo & El); [unfold mthr_blocks; rewrite Epc; now left|].
    rewrite Eo, El.
    apply (minv_move c _ _ H); m_simpl; [apply (len_upd _ _ _ _ El) | apply (len_upd _ _ _ _ E) | | |].
    + intros bb. m_occ_norm bb. lia.
    + apply (all_upd (pool_owned _) _ _ _ _ El H3). intros b' [->|Hb']; [assumption|apply (H3 o l El b' Hb')].
    + apply (all_upd (log_owned _) _ _ _ _ E H6). intros b' [Hb'|Hb']; [discriminate|apply (H6 t th E b' Hb')].
Qed.

Lemma minv_init progs : MInv (minit progs).
Proof.
  unfold MInv, minit; m_simpl. split; [|split; [|split; [|split; [|split]]]].
  - intros b. unfold owner_count, m_all_blocks; m_simpl.
    rewrite flatT_map_nil by reflexivity. cbn [app]. rewrite concat_flatT, flatT_map_nil by reflexivity. reflexivity.
  - constructor.
  - intros p l Hp b Hb. apply nth_error_map_inv in Hp. destruct Hp as (x & _ & <-). destruct Hb.
  - rewrite !map_length. auto.
  - induction progs as [|x l IH]; [reflexivity|]. cbn [map sumZ length] in *. lia.
  - intros t th Ht b Hb. apply nth_error_map_inv in Ht. destruct Ht as (x & _ & <-). destruct Hb.
Qed.
Lemma minv_run progs sched : MInv (mrun (minit progs) sched).
Proof. unfold mrun. apply fold_left_inv; [intros a b; apply minv_step | apply minv_init]. Qed.
