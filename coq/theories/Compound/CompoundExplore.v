(* C15 — [explore] unfolds the interleavings as a tree: a pair of states reached along many
   schedules is visited once per schedule.  Its verdict also follows from a finite set of pairs that
   holds the start, satisfies [pair_ok] throughout and is closed under every event.  [visit] is a
   search that visits each pair once, tries from it only the events that are enabled, and ends
   with such a set; that search is what the examples over trees evaluate. *)
From Coq Require Import ZArith List Bool Arith.
From PV Require Import Base.ListX Compound.CompoundDefs Compound.CompoundTree.
Import ListNotations.

Definition pair_eq_dec (a b : tstate * state) : {a = b} + {a <> b}.
Proof. repeat decide equality. Defined.

(* membership; the histories are compared first, which tells most pairs apart at once *)
Definition mem (p : tstate * state) (l : list (tstate * state)) : bool :=
  existsb (fun q => if log_eqb (log (snd p)) (log (snd q)) then if pair_eq_dec p q then true else false else false) l.

Lemma mem_In p l : mem p l = true -> In p l.
Proof.
  intros H. apply existsb_exists in H. destruct H as [q [Hq H]].
  destruct (log_eqb _ _); [|discriminate]. destruct (pair_eq_dec p q); [subst; exact Hq|discriminate].
Qed.

(* whether an event has an effect: [step], [stepB] and [stepT] test the same conditions *)
Definition enabled (s : state) (e : event) : bool :=
  match e with
  | EAdd => negb (c_added s)
  | EStartup k => Nat.eqb (su_of s k) 1
  | EStartupDone k => Nat.eqb (su_of s k) 2
  | EBegin k i => match task_of s k i with Some TIdle => Nat.leb 2 (su_of s k) | _ => false end
  | EEnd k i => match task_of s k i with Some TRun => true | _ => false end
  end.

Lemma stepB_disabled bare s e : enabled s e = false -> stepB bare s e = s.
Proof.
  destruct e as [|k|k|k i|k i]; cbn [enabled stepB step]; intros H; try (rewrite H; reflexivity).
  - apply negb_false_iff in H. rewrite H. reflexivity.
  - destruct (task_of s k i) as [[| |]|]; try reflexivity. rewrite H. reflexivity.
  - destruct (task_of s k i) as [[| |]|]; try reflexivity. discriminate.
Qed.

Lemma stepT_disabled bare owners ts e : enabled (t_s ts) e = false -> stepT bare owners ts e = ts.
Proof.
  assert (Hcb : forall k, match nth_error (pools (t_s ts)) k, nth_error (pools (t_s ts)) k with
                          | Some p, Some p' => Nat.ltb (p_cb p) (p_cb p')
                          | _, _ => false
                          end = false).
  { intros k. destruct (nth_error _ k); [apply Nat.ltb_irrefl|reflexivity]. }
  destruct ts as [s ns]. cbn [t_s] in *.
  destruct e as [|k|k|k i|k i]; intros H; cbn [enabled stepT t_s t_nodes] in *.
  - apply negb_false_iff in H. rewrite H. reflexivity.
  - rewrite H, Hcb. reflexivity.
  - rewrite H, Hcb. reflexivity.
  - exact (f_equal (fun x => mkT x ns) (stepB_disabled bare s (EBegin k i) H)).
  - destruct (task_of s k i) as [[| |]|]; rewrite ?Hcb; try reflexivity. discriminate.
Qed.

Section Explore.
Variables (bare : list bool) (owners : list nat) (evs : list event).

Definition successor (p : tstate * state) (e : event) : tstate * state :=
  (stepT bare owners (fst p) e, stepB bare (snd p) e).

Definition effective (p : tstate * state) (e : event) : bool := enabled (t_s (fst p)) e || enabled (snd p) e.

Lemma successor_ineffective p e : effective p e = false -> successor p e = p.
Proof.
  intros H. apply orb_false_elim in H. unfold successor.
  rewrite stepT_disabled, stepB_disabled by apply H. destruct p; reflexivity.
Qed.

Lemma explore_invariant (I : tstate * state -> Prop) :
  (forall p, I p -> pair_ok (t_s (fst p)) (snd p) = true) ->
  (forall p e, I p -> In e evs -> I (successor p e)) ->
  forall fuel ts fl, I (ts, fl) -> explore fuel bare owners evs ts fl = true.
Proof.
  intros Hok Hstep. induction fuel as [|f IH]; intros ts fl H; cbn [explore]; [reflexivity|].
  rewrite (Hok (ts, fl) H : pair_ok (t_s ts) fl = true). apply forallb_forall. intros e He.
  destruct (_ && _); [reflexivity|]. exact (IH _ _ (Hstep (ts, fl) e H He)).
Qed.

(* [p] passes the comparison and [l] holds all its successors *)
Definition good (l : list (tstate * state)) (p : tstate * state) : Prop :=
  pair_ok (t_s (fst p)) (snd p) = true /\ forall e, In e evs -> In (successor p e) l.

Definition closed (l : list (tstate * state)) : Prop := forall p, In p l -> good l p.

Lemma closed_explore l : closed l ->
  forall fuel ts fl, In (ts, fl) l -> explore fuel bare owners evs ts fl = true.
Proof.
  intros H. apply (explore_invariant (fun p => In p l)).
  - intros p Hin. apply H, Hin.
  - intros p e Hin. apply H, Hin.
Qed.

(* Depth-first search along the events that have an effect.  A pair enters [seen] before its
   successors are visited; [None] reports a pair that fails [pair_ok], or a search cut short. *)
Definition visit_all (visit : list (tstate * state) -> tstate * state -> option (list (tstate * state)))
  (qs : list (tstate * state)) (seen : list (tstate * state)) : option (list (tstate * state)) :=
  fold_left (fun acc q => match acc with Some l => visit l q | None => None end) qs (Some seen).

Fixpoint visit (fuel : nat) (seen : list (tstate * state)) (p : tstate * state) : option (list (tstate * state)) :=
  match fuel with
  | O => None
  | S f =>
      if mem p seen then Some seen
      else if pair_ok (t_s (fst p)) (snd p)
           then visit_all (visit f) (map (successor p) (filter (effective p) evs)) (p :: seen)
           else None
  end.

(* what a visit from [seen] to [l] keeps true: [l] extends [seen], and the pairs it adds are good.
   The pair being visited is in [seen] and becomes good only when the visit of its successors is over. *)
Definition closed_but (seen l : list (tstate * state)) : Prop :=
  incl seen l /\ forall p, In p l -> In p seen \/ good l p.

Lemma closed_but_refl l : closed_but l l.
Proof. split; [apply incl_refl|intros p Hp; left; exact Hp]. Qed.

Lemma closed_but_trans a b c : closed_but a b -> closed_but b c -> closed_but a c.
Proof.
  intros [Hab Gab] [Hbc Gbc]. split; [exact (incl_tran Hab Hbc)|].
  intros p Hp. destruct (Gbc p Hp) as [Hb|Hg]; [|right; exact Hg].
  destruct (Gab p Hb) as [Ha|[Hok Hs]]; [left; exact Ha|right].
  split; [exact Hok|]. intros e He. apply Hbc, Hs, He.
Qed.

Lemma visit_all_sound visit :
  (forall seen q l, visit seen q = Some l -> closed_but seen l /\ In q l) ->
  forall qs seen l, visit_all visit qs seen = Some l -> closed_but seen l /\ forall q, In q qs -> In q l.
Proof.
  intros Hv. unfold visit_all. induction qs as [|q qs IH]; intros seen l H; cbn [fold_left] in H.
  - injection H as <-. split; [apply closed_but_refl|intros q []].
  - destruct (visit seen q) as [l1|] eqn:E.
    + destruct (Hv _ _ _ E) as [H1 Hq]. destruct (IH _ _ H) as [H2 Hqs].
      split; [exact (closed_but_trans _ _ _ H1 H2)|]. intros q' [<-|Hq']; [apply H2, Hq|apply Hqs, Hq'].
    + exfalso. clear -H. induction qs as [|q' qs IHq]; [discriminate|exact (IHq H)].
Qed.

Lemma visit_sound fuel : forall seen p l, visit fuel seen p = Some l -> closed_but seen l /\ In p l.
Proof.
  induction fuel as [|f IH]; intros seen p l H; cbn [visit] in H; [discriminate|].
  destruct (mem p seen) eqn:M.
  - injection H as <-. split; [apply closed_but_refl|exact (mem_In _ _ M)].
  - destruct (pair_ok _ _) eqn:Hok; [|discriminate].
    destruct (visit_all_sound _ IH _ _ _ H) as [[Hi Hg] Hs].
    assert (Hp : In p l) by (apply Hi; left; reflexivity).
    split; [split; [exact (fun q Hq => Hi q (or_intror Hq))|]|exact Hp].
    intros q Hq. destruct (Hg q Hq) as [[<-|Hin]|G]; [right|left; exact Hin|right; exact G].
    split; [exact Hok|]. intros e He. destruct (effective p e) eqn:E.
    + apply Hs, in_map, filter_In. exact (conj He E).
    + rewrite successor_ineffective; assumption.
Qed.
End Explore.

(* Along one schedule every event of [all_events] takes effect at most once, which bounds the depth
   of the search. *)
Definition nested_equals_flat_closed (t : ctree) : bool :=
  let '(ts, bare, owns) := initT true t in
  let ms := flatten t in
  let evs := all_events (map (fun m => match m with Some n => n | None => 0%nat end) ms) in
  match visit bare owns evs (S (length evs)) [] (ts, initB true ms) with Some _ => true | None => false end.

Lemma nested_equals_flat_closed_sound t :
  nested_equals_flat_closed t = true -> nested_equals_flat_everywhere t = true.
Proof.
  unfold nested_equals_flat_closed, nested_equals_flat_everywhere.
  destruct (initT true t) as [[ts bare] owns]. cbv zeta.
  destruct (visit _ _ _ _ _ _) as [l|] eqn:E; [intros _|discriminate].
  destruct (visit_sound _ _ _ _ _ _ _ E) as [[_ Hg] Hin].
  apply (closed_explore _ _ _ l); [|exact Hin].
  intros p Hp. destruct (Hg p Hp) as [[]|G]. exact G.
Qed.
