(* C15 — refinement: the model of compound.c (CompoundDefs.step) follows the abstract
   machine of CompoundAbs.v on every event:  step (conc a lg) e = conc (astep (a, lg) e). *)
From PV Require Import Base.Tac Base.ListX Compound.CompoundDefs Compound.CompoundAbs.
Local Open Scope nat_scope.

Section Ref.
Variable pre : bool.
Variable sizes : list nat.
Notation n := (length sizes).
Hypothesis Hn : 0 < n.
Notation sz := (sz sizes).
Notation poolF := (poolF sizes).
Notation mk d c c' a b e f g h := (mkState (map (CompoundAbs.poolF sizes d c c') (seq 0 (length sizes))) true a b e f g h).
Notation conc := (conc pre sizes).
Notation astep := (astep pre sizes).
Notation wf_a := (wf_a sizes).

Lemma poolF_d d c c' : poolF d c c' d = c.
Proof. unfold CompoundAbs.poolF. rewrite Nat.ltb_irrefl, Nat.eqb_refl. reflexivity. Qed.
Lemma poolF_Sd d c c' : poolF d c c' (S d) = c'.
Proof.
  unfold CompoundAbs.poolF. destruct (Nat.ltb_spec (S d) d); [lia|].
  destruct (Nat.eqb_spec (S d) d); [lia|]. rewrite Nat.eqb_refl. reflexivity.
Qed.
Lemma poolF_lt d c c' k : k < d -> poolF d c c' k = fin_pool (sz k).
Proof. intros H. unfold CompoundAbs.poolF. destruct (Nat.ltb_spec k d); [reflexivity|lia]. Qed.
Lemma poolF_gt d c c' k : S d < k -> poolF d c c' k = new_pool (sz k).
Proof.
  intros H. unfold CompoundAbs.poolF. destruct (Nat.ltb_spec k d); [lia|].
  destruct (Nat.eqb_spec k d); [lia|]. destruct (Nat.eqb_spec k (S d)); [lia|]. reflexivity.
Qed.

Lemma mk_nth d c c' a b e f g h k :
  nth_error (pools (mk d c c' a b e f g h)) k = if k <? n then Some (poolF d c c' k) else None.
Proof. cbn [pools]. apply nth_map_seq. Qed.

Lemma on_pool_mk_d d c c' a b e f g h F : d < n ->
  on_pool d F (mk d c c' a b e f g h) = mk d (F c) c' a b e f g h.
Proof.
  intros Hd. unfold on_pool. rewrite mk_nth. destruct (Nat.ltb_spec d n); [|lia].
  rewrite poolF_d. unfold set_pools; cbn [pools c_added c_pa c_st c_done c_cb active log]. f_equal.
  rewrite <- (poolF_d d (F c) c') at 1. apply upd_map_seq; [assumption|].
  intros k Hk. unfold CompoundAbs.poolF. destruct (k <? d); [reflexivity|].
  destruct (Nat.eqb_spec k d); [contradiction|reflexivity].
Qed.

Lemma on_pool_mk_Sd d c c' a b e f g h F : S d < n ->
  on_pool (S d) F (mk d c c' a b e f g h) = mk d c (F c') a b e f g h.
Proof.
  intros Hd. unfold on_pool. rewrite mk_nth. destruct (Nat.ltb_spec (S d) n); [|lia].
  rewrite poolF_Sd. unfold set_pools; cbn [pools c_added c_pa c_st c_done c_cb active log]. f_equal.
  rewrite <- (poolF_Sd d c (F c')) at 1. apply upd_map_seq; [assumption|].
  intros k Hk. unfold CompoundAbs.poolF. destruct (k <? d); [reflexivity|].
  destruct (k =? d); [reflexivity|]. destruct (Nat.eqb_spec k (S d)); [contradiction|reflexivity].
Qed.

(* finishing member d moves the window *)
Lemma mk_shift d c' a b e f g h : S d < n ->
  mk d (fin_pool (sz d)) c' a b e f g h = mk (S d) c' (new_pool (sz (S (S d)))) a b e f g h.
Proof.
  intros Hd. f_equal. apply map_ext_in. intros k _. unfold CompoundAbs.poolF.
  destruct (Nat.ltb_spec k d), (Nat.ltb_spec k (S d)); try lia; try reflexivity.
  - destruct (Nat.eqb_spec k d); [subst; reflexivity|lia].
  - destruct (Nat.eqb_spec k d); [lia|]. destruct (Nat.eqb_spec k (S d)); [reflexivity|].
    destruct (Nat.eqb_spec k (S (S d))); [subst; reflexivity|reflexivity].
Qed.

Lemma mk_last d c' : S d = n ->
  map (poolF d (fin_pool (sz d)) c') (seq 0 n) = map (fun k => fin_pool (sz k)) (seq 0 n).
Proof.
  intros Hd. apply map_ext_in. intros k Hk. apply in_seq in Hk. unfold CompoundAbs.poolF.
  destruct (Nat.ltb_spec k d); [reflexivity|]. destruct (Nat.eqb_spec k d); [subst; reflexivity|lia].
Qed.

Lemma init_pools : map new_pool sizes = map (poolF 0 (new_pool (sz 0)) (new_pool (sz 1))) (seq 0 n).
Proof.
  rewrite (map_as_seq new_pool sizes 0). apply map_ext. intros k. unfold CompoundAbs.poolF.
  destruct k as [|[|k]]; reflexivity.
Qed.
Lemma su_of_mk d c c' a b e f g h k :
  su_of (mk d c c' a b e f g h) k = if k <? n then p_su (poolF d c c' k) else 0.
Proof. unfold su_of. rewrite mk_nth. destruct (k <? n); reflexivity. Qed.

Lemma task_of_mk d c c' a b e f g h k i :
  task_of (mk d c c' a b e f g h) k i = if k <? n then nth_error (p_tasks (poolF d c c' k)) i else None.
Proof. unfold task_of. rewrite mk_nth. destruct (k <? n); reflexivity. Qed.

(* members other than the current one are finished or untouched: nothing is enabled *)
Lemma other_pool d c k : k <> d -> k < n ->
  poolF d c (new_pool (sz (S d))) k = fin_pool (sz k) \/ poolF d c (new_pool (sz (S d))) k = new_pool (sz k).
Proof.
  intros Hk Hkn. destruct (Nat.lt_ge_cases k d) as [H|H]; [left; apply poolF_lt; assumption|right].
  destruct (Nat.eq_dec k (S d)) as [->|H2]; [apply poolF_Sd|apply poolF_gt; lia].
Qed.

Lemma noop_other d su ts lg e k :
  k <> d ->
  match e with EStartup k' | EStartupDone k' | EBegin k' _ | EEnd k' _ => k' = k | EAdd => False end ->
  step (conc (AIn d su ts) lg) e = conc (AIn d su ts) lg.
Proof.
  intros Hk He. unfold CompoundAbs.conc, CompoundAbs.mk.
  destruct (Nat.ltb_spec k n) as [Hkn|Hkn].
  - destruct (other_pool d (cur_pool su ts) k Hk Hkn) as [Hp|Hp];
    destruct e as [|k'|k'|k' i|k' i]; try contradiction; subst k'; cbn [step];
    rewrite ?su_of_mk, ?task_of_mk; destruct (Nat.ltb_spec k n); try lia; rewrite Hp; try reflexivity.
    all: cbn [p_su p_tasks fin_pool new_pool]; destruct (nth_error _ i) as [t|] eqn:E; [|reflexivity]; rewrite (nth_repeat_inv _ _ _ _ E); reflexivity.
  - destruct e as [|k'|k'|k' i|k' i]; try contradiction; subst k'; cbn [step];
    rewrite ?su_of_mk, ?task_of_mk; destruct (Nat.ltb_spec k n); try lia; reflexivity.
Qed.

Ltac fields := unfold set_pools, set_added, set_cpa, set_cst, set_cdone, set_ccb, add_active, emit,
                    pset_tasks, pset_nt, pset_pa, pset_st, pset_su, pset_enq, pset_cb;
               cbn [pools c_added c_pa c_st c_done c_cb active log p_tasks p_nt p_pa p_st p_su p_enq p_cb].

Lemma ltb_t a b : a < b -> (a <? b) = true. Proof. intros; apply Nat.ltb_lt; assumption. Qed.
Lemma ltb_f a b : b <= a -> (a <? b) = false. Proof. intros; apply Nat.ltb_ge; assumption. Qed.

Lemma compound_check_mk P ad cpa cst cd ccb act lg :
  compound_check (mkState P ad cpa cst cd ccb act lg) =
  if is_busy cst && (cpa =? 0)%Z
  then mkState P ad cpa MTerminated cd (S ccb) (act + -1)%Z (LCompound :: lg)
  else mkState P ad cpa cst cd ccb act lg.
Proof. unfold compound_check, compound_detected. fields. destruct (is_busy cst && (cpa =? 0)%Z); reflexivity. Qed.

Lemma compound_dec_mk P cpa cst cd ccb act lg :
  compound_dec (mkState P true cpa cst cd ccb act lg) =
  if is_busy cst && (cpa - 1 =? 0)%Z
  then mkState P true (cpa - 1)%Z MTerminated cd (S ccb) (act + -1)%Z (LCompound :: lg)
  else mkState P true (cpa - 1)%Z cst cd ccb act lg.
Proof. unfold compound_dec. fields. apply compound_check_mk. Qed.

Lemma pool_cb_mk d c c' cpa cst ccb act lg : d < n ->
  pool_cb d (mk d c c' cpa cst d ccb act lg) =
  let s2 := compound_dec (mk d (pset_cb c (S (p_cb c))) c' cpa cst (S d) ccb act (LPoolCb d :: lg)) in
  if (0 <? c_pa s2)%Z then add_pool (S d) s2 else s2.
Proof.
  intros Hd. unfold pool_cb. fields. rewrite on_pool_mk_d by assumption. reflexivity.
Qed.

Lemma add_pool_mk_Sd d c c' cpa cst cd ccb act lg : S d < n ->
  add_pool (S d) (mk d c c' cpa cst cd ccb act lg) =
  mk d c (pset_su (pset_enq c' (S (p_enq c'))) 1) cpa cst cd ccb (act + 1)%Z (LEnq (S d) :: lg).
Proof.
  intros Hd. unfold add_pool. rewrite mk_nth, (ltb_t _ _ Hd). fields. rewrite on_pool_mk_Sd by assumption. reflexivity.
Qed.

(* termination of member d (all its tasks done, startup released) *)
Lemma detected_advance d ts lg : d < n -> length ts = sz d -> notdone ts = 0%Z ->
  pool_detected pool_cb d
    (mk d (mkPool ts 0 0 MBusy 3 1 0) (new_pool (sz (S d))) (Z.of_nat n - Z.of_nat d)%Z
        (if pre then MBusy else MTerminated) d (if pre then 0 else 1) (if pre then 2 else 1)%Z lg)
  = conc (fst (advance pre sizes d lg)) (snd (advance pre sizes d lg)).
Proof.
  intros Hd Hl Hz. unfold pool_detected. rewrite pool_cb_mk by assumption. cbv zeta.
  rewrite compound_dec_mk. unfold advance.
  destruct (Nat.ltb_spec (S d) n) as [Hlt|Hge].
  - assert (Hpa : ((Z.of_nat n - Z.of_nat d - 1 =? 0) = false)%Z) by lia. rewrite Hpa, andb_false_r.
    cbn [c_pa].
    assert (Hpos : ((0 <? Z.of_nat n - Z.of_nat d - 1) = true)%Z) by lia. rewrite Hpos.
    rewrite add_pool_mk_Sd by assumption. unfold add_active. cbn [pools c_added c_pa c_st c_done c_cb active log].
    rewrite on_pool_mk_d by assumption. unfold pset_st, pset_cb, pset_su, pset_enq. cbn [p_tasks p_nt p_pa p_st p_su p_enq p_cb new_pool].
    rewrite (notdone_zero_repeat _ Hz), Hl. change (mkPool (repeat TDone (sz d)) 0 0 MTerminated 3 1 1) with (fin_pool (sz d)).
    rewrite mk_shift by assumption. cbn [fst snd]. unfold CompoundAbs.conc, CompoundAbs.mk, cur_pool, cur_nt.
    cbn [Nat.eqb Nat.ltb Nat.leb]. change ((0 <? 0)%Z) with false. cbv iota. change (1 + 0)%Z with 1%Z.
    f_equal; destruct pre; lia.
  - assert (Hnd : S d = n) by lia.
    assert (Hpa : ((Z.of_nat n - Z.of_nat d - 1 =? 0) = true)%Z) by lia. rewrite Hpa, andb_true_r.
    assert (Hpos : ((0 <? Z.of_nat n - Z.of_nat d - 1) = false)%Z) by lia.
    destruct pre; [change (is_busy MBusy) with true | change (is_busy MTerminated) with false]; cbv iota;
      cbn [c_pa]; rewrite Hpos; unfold add_active; cbn [pools c_added c_pa c_st c_done c_cb active log];
      rewrite on_pool_mk_d by assumption; unfold pset_st, pset_cb; cbn [p_tasks p_nt p_pa p_st p_su p_enq p_cb];
      rewrite (notdone_zero_repeat _ Hz), Hl; change (mkPool (repeat TDone (sz d)) 0 0 MTerminated 3 1 1) with (fin_pool (sz d));
      rewrite mk_last by assumption; cbn [fst snd CompoundAbs.conc]; f_equal; lia.
Qed.

Lemma su_cur d su ts lg : d < n -> su_of (conc (AIn d su ts) lg) d = su.
Proof. intros Hd. unfold CompoundAbs.conc, CompoundAbs.mk. rewrite su_of_mk, (ltb_t _ _ Hd), poolF_d. reflexivity. Qed.
Lemma task_cur d su ts lg i : d < n -> task_of (conc (AIn d su ts) lg) d i = nth_error ts i.
Proof. intros Hd. unfold CompoundAbs.conc, CompoundAbs.mk. rewrite task_of_mk, (ltb_t _ _ Hd), poolF_d. reflexivity. Qed.

Lemma step_startup d lg : d < n ->
  pool_startup pool_cb d (conc (AIn d 1 (repeat TIdle (sz d))) lg) = conc (AIn d 2 (repeat TIdle (sz d))) lg.
Proof.
  intros Hd. unfold pool_startup, CompoundAbs.conc, CompoundAbs.mk. fields. rewrite nth_map_seq, (ltb_t _ _ Hd), poolF_d.
  rewrite !on_pool_mk_d by assumption. unfold pool_check. fields. rewrite nth_map_seq, (ltb_t _ _ Hd), poolF_d.
  unfold cur_pool, cur_nt. cbn [Nat.eqb Nat.ltb Nat.leb]. fields. rewrite repeat_length, notdone_repeat_idle.
  cbn [is_busy andb Z.eqb].
  destruct (0 <? Z.of_nat (sz d))%Z; reflexivity.
Qed.

Lemma notdone_nonneg ts : (0 <= notdone ts)%Z.
Proof. unfold notdone. apply cnt_nonneg. Qed.

Lemma step_startup_done d ts lg : d < n -> length ts = sz d ->
  pool_dec_pa pool_cb d (on_pool d (fun p => pset_su p 3) (conc (AIn d 2 ts) lg)) =
  if (notdone ts =? 0)%Z then conc (fst (advance pre sizes d lg)) (snd (advance pre sizes d lg))
  else conc (AIn d 3 ts) lg.
Proof.
  intros Hd Hl. unfold pool_dec_pa, CompoundAbs.conc, CompoundAbs.mk. rewrite !on_pool_mk_d by assumption.
  unfold pool_check. fields. rewrite nth_map_seq, (ltb_t _ _ Hd), poolF_d.
  unfold cur_pool, cur_nt. cbn [Nat.eqb Nat.ltb Nat.leb]. fields. cbn [is_busy andb].
  pose proof (notdone_nonneg ts) as Hnn.
  destruct (Z.eqb_spec (notdone ts) 0) as [Hz|Hz].
  - rewrite Hz. change ((0 <? 0)%Z) with false. cbv iota. change (1 + 0 - 1)%Z with 0%Z. change ((0 =? 0)%Z) with true. cbv iota.
    exact (detected_advance d ts lg Hd Hl Hz).
  - destruct (Z.ltb_spec 0 (notdone ts)); [reflexivity|lia].
Qed.

Lemma step_begin d su ts lg i : d < n -> 2 <= su -> nth_error ts i = Some TIdle ->
  emit (set_task d i TRun (conc (AIn d su ts) lg)) (LBegin d i) = conc (AIn d su (upd ts i TRun)) (LBegin d i :: lg).
Proof.
  intros Hd Hsu Hi. unfold set_task, CompoundAbs.conc, CompoundAbs.mk. rewrite on_pool_mk_d by assumption. fields.
  f_equal. f_equal. unfold cur_pool, cur_nt. fields.
  destruct (Nat.eqb_spec su 1); [lia|].
  rewrite (notdone_upd _ _ _ _ Hi). cbn [is_done]. replace (notdone ts - 1 + 1)%Z with (notdone ts) by lia. reflexivity.
Qed.

Lemma step_end d su ts lg i : d < n -> length ts = sz d -> (su = 2 \/ su = 3) -> nth_error ts i = Some TRun ->
  pool_dec_nt pool_cb d (emit (set_task d i TDone (conc (AIn d su ts) lg)) (LEnd d i)) =
  if (notdone (upd ts i TDone) =? 0)%Z && (su =? 3)
  then conc (fst (advance pre sizes d (LEnd d i :: lg))) (snd (advance pre sizes d (LEnd d i :: lg)))
  else conc (AIn d su (upd ts i TDone)) (LEnd d i :: lg).
Proof.
  intros Hd Hl Hsu Hi. unfold set_task, CompoundAbs.conc, CompoundAbs.mk. rewrite on_pool_mk_d by assumption. fields.
  unfold pool_dec_nt. fields. rewrite nth_map_seq, (ltb_t _ _ Hd), poolF_d.
  rewrite on_pool_mk_d by assumption. unfold cur_pool at 1 2 3. fields.
  pose proof (notdone_pos _ _ _ Hi eq_refl) as Hpos.
  pose proof (notdone_upd _ _ _ TDone Hi) as Hup. cbn [is_done] in Hup.
  assert (Hnt : cur_nt su ts = notdone ts). { unfold cur_nt. destruct Hsu; subst su; reflexivity. }
  rewrite Hnt. destruct (Z.ltb_spec 0 (notdone ts)); [|lia]. cbn [andb].
  assert (Hlen : length (upd ts i TDone) = sz d). { rewrite (len_upd _ _ _ _ Hi). exact Hl. }
  destruct (Z.eqb_spec (notdone ts - 1) 0) as [Hz|Hz].
  - assert (Hz' : notdone (upd ts i TDone) = 0%Z) by lia. rewrite Hz'. cbn [Z.eqb andb].
    unfold pool_dec_pa. rewrite on_pool_mk_d by assumption. unfold pool_check. fields.
    rewrite nth_map_seq, (ltb_t _ _ Hd), poolF_d. fields. cbn [is_busy andb]. unfold cur_pool. fields. rewrite Hnt.
    destruct (Z.ltb_spec 0 (notdone ts)); [|lia].
    destruct Hsu; subst su; cbn [Nat.ltb Nat.leb Nat.eqb].
    + replace ((1 + 1 - 1 =? 0)%Z) with false by reflexivity. unfold cur_nt. cbn [Nat.eqb]. rewrite Hz', Hz.
      cbn [Z.ltb Z.compare]. reflexivity.
    + replace ((0 + 1 - 1 =? 0)%Z) with true by reflexivity.
      rewrite Hz. change ((0 =? 0)%Z) with true. cbv iota. change (is_busy MBusy && true) with true. cbv iota. change (0 + 1 - 1)%Z with 0%Z.
      exact (detected_advance d (upd ts i TDone) (LEnd d i :: lg) Hd Hlen Hz').
  - assert (Hz' : notdone (upd ts i TDone) <> 0%Z) by lia.
    destruct (Z.eqb_spec (notdone (upd ts i TDone)) 0); [contradiction|]. cbn [andb].
    unfold cur_pool, cur_nt. fields.
    destruct Hsu; subst su; cbn [Nat.ltb Nat.leb Nat.eqb]; rewrite Hup, Z.add_0_r;
      destruct (Z.eqb_spec (notdone ts - 1) 0); try lia;
      destruct (Z.ltb_spec 0 (notdone ts)); try lia; destruct (Z.ltb_spec 0 (notdone ts - 1)); try lia; reflexivity.
Qed.

Lemma su_init lg k : su_of (conc ANot lg) k = 0.
Proof.
  unfold su_of, CompoundAbs.conc. cbn [pools]. rewrite nth_error_map. destruct (nth_error sizes k); reflexivity.
Qed.
Lemma task_init lg k i t : task_of (conc ANot lg) k i = Some t -> t = TIdle.
Proof.
  unfold task_of, CompoundAbs.conc. cbn [pools]. rewrite nth_error_map. destruct (nth_error sizes k); cbn; [|discriminate].
  intros H. eapply nth_repeat_inv; eauto.
Qed.

Lemma su_end lg k : su_of (conc AEnd lg) k = 3 \/ su_of (conc AEnd lg) k = 0.
Proof.
  unfold su_of, CompoundAbs.conc. cbn [pools]. rewrite nth_map_seq. destruct (k <? n); cbn; auto.
Qed.
Lemma task_end lg k i t : task_of (conc AEnd lg) k i = Some t -> t = TDone.
Proof.
  unfold task_of, CompoundAbs.conc. cbn [pools]. rewrite nth_map_seq. destruct (k <? n); cbn; [|discriminate].
  intros H. eapply nth_repeat_inv; eauto.
Qed.

Lemma step_add lg :
  step (conc ANot lg) EAdd = conc (AIn 0 1 (repeat TIdle (sz 0))) (LEnq 0 :: (if pre then lg else LCompound :: lg)).
Proof.
  unfold CompoundAbs.conc, CompoundAbs.mk. cbn [step c_added]. rewrite init_pools. unfold compound_add. cbv zeta.
  assert (Hz : (Z.of_nat n =? 0)%Z = false) by lia.
  set (s1 := compound_check (set_cst _ _)).
  assert (E1 : s1 = mk 0 (new_pool (sz 0)) (new_pool (sz 1)) (if pre then 1 else 0)%Z
                       (if pre then MBusy else MTerminated) 0 (if pre then 0 else 1) (if pre then 0 else -1)%Z
                       (if pre then lg else LCompound :: lg)).
  { subst s1. fields. rewrite compound_check_mk. destruct pre; reflexivity. }
  rewrite E1. clear s1 E1. fields. rewrite compound_check_mk, map_length, seq_length, Hz, andb_false_r.
  unfold add_pool. fields. rewrite nth_map_seq, (ltb_t _ _ Hn). fields. rewrite on_pool_mk_d by assumption.
  unfold cur_pool, cur_nt, new_pool. fields. cbn [Nat.eqb Nat.ltb Nat.leb]. change ((0 <? 0)%Z) with false. cbv iota.
  f_equal; destruct pre; lia.
Qed.

Theorem step_conc a lg e : wf_a a ->
  step (conc a lg) e = conc (fst (astep (a, lg) e)) (snd (astep (a, lg) e)).
Proof.
  intros Hwf. destruct a as [|d su ts|].
  - (* not added yet *)
    destruct e as [|k|k|k i|k i]; cbn [CompoundAbs.astep fst snd].
    + apply step_add.
    + cbn [step]. rewrite su_init. reflexivity.
    + cbn [step]. rewrite su_init. reflexivity.
    + cbn [step]. rewrite su_init. destruct (task_of (conc ANot lg) k i) as [[| |]|]; reflexivity.
    + cbn [step]. destruct (task_of (conc ANot lg) k i) as [t|] eqn:E; [|reflexivity].
      rewrite (task_init _ _ _ _ E). reflexivity.
  - (* member d is current *)
    destruct Hwf as (Hd & Hl & Hsu).
    destruct e as [|k|k|k i|k i]; cbn [CompoundAbs.astep].
    + reflexivity.
    + destruct (Nat.eqb_spec k d) as [->|Hk]; [|cbn [andb fst snd]; apply (noop_other d su ts lg (EStartup k) k Hk eq_refl)].
      cbn [andb step]. rewrite su_cur by assumption.
      destruct (Nat.eqb_spec su 1) as [->|Hs]; [|reflexivity].
      destruct Hsu as [[_ ->]|[H|[H _]]]; try discriminate. cbn [fst snd]. apply step_startup. assumption.
    + destruct (Nat.eqb_spec k d) as [->|Hk]; [|cbn [andb fst snd]; apply (noop_other d su ts lg (EStartupDone k) k Hk eq_refl)].
      cbn [andb step]. rewrite su_cur by assumption.
      destruct (Nat.eqb_spec su 2) as [->|Hs]; [|reflexivity].
      rewrite step_startup_done by assumption. destruct (notdone ts =? 0)%Z; reflexivity.
    + destruct (Nat.eqb_spec k d) as [->|Hk]; [|cbn [andb fst snd]; apply (noop_other d su ts lg (EBegin k i) k Hk eq_refl)].
      cbn [andb step]. rewrite su_cur, task_cur by assumption.
      destruct (nth_error ts i) as [[| |]|] eqn:E; destruct (Nat.leb_spec 2 su); try reflexivity.
      cbn [fst snd]. apply step_begin; assumption.
    + destruct (Nat.eqb_spec k d) as [->|Hk]; [|cbn [fst snd]; apply (noop_other d su ts lg (EEnd k i) k Hk eq_refl)].
      cbn [step]. rewrite task_cur by assumption.
      destruct (nth_error ts i) as [[| |]|] eqn:E; try reflexivity.
      assert (Hsu' : su = 2 \/ su = 3).
      { destruct Hsu as [[_ Hts]|[H|[H _]]]; auto. rewrite Hts in E. apply nth_repeat_inv in E. discriminate. }
      rewrite step_end by assumption.
      destruct ((notdone (upd ts i TDone) =? 0)%Z && (su =? 3)); reflexivity.
  - (* everything finished *)
    destruct e as [|k|k|k i|k i]; cbn [CompoundAbs.astep fst snd].
    + reflexivity.
    + cbn [step]. destruct (su_end lg k) as [H|H]; rewrite H; reflexivity.
    + cbn [step]. destruct (su_end lg k) as [H|H]; rewrite H; reflexivity.
    + cbn [step]. destruct (task_of (conc AEnd lg) k i) as [t|] eqn:E; [|reflexivity].
      rewrite (task_end _ _ _ _ E). reflexivity.
    + cbn [step]. destruct (task_of (conc AEnd lg) k i) as [t|] eqn:E; [|reflexivity].
      rewrite (task_end _ _ _ _ E). reflexivity.
Qed.
End Ref.
