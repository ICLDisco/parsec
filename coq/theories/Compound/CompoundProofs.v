(* C15 — properties of every run of the model, through the abstract machine. *)
From PV Require Import Base.Tac Base.ListX Compound.CompoundDefs Compound.CompoundAbs Compound.CompoundRefine.
Local Open Scope nat_scope.

Lemma lentry_eqb_spec a b : reflect (a = b) (lentry_eqb a b).
Proof.
  destruct a as [k|k i|k i|k|], b as [k'|k' i'|k' i'|k'|]; cbn [lentry_eqb]; try (constructor; congruence).
  - destruct (Nat.eqb_spec k k'); constructor; congruence.
  - destruct (Nat.eqb_spec k k'), (Nat.eqb_spec i i'); constructor; congruence.
  - destruct (Nat.eqb_spec k k'), (Nat.eqb_spec i i'); constructor; congruence.
  - destruct (Nat.eqb_spec k k'); constructor; congruence.
Qed.

Definition b2n (b : bool) : nat := if b then 1 else 0.

Lemma lcount_cons x e l : lcount x (e :: l) = b2n (lentry_eqb x e) + lcount x l.
Proof. unfold lcount. cbn [filter]. destruct (lentry_eqb x e); reflexivity. Qed.

Lemma lcount_in x l : 0 < lcount x l -> In x l.
Proof.
  induction l as [|e l IH]; [cbn; lia|]. rewrite lcount_cons. destruct (lentry_eqb_spec x e) as [->|Hne]; [left; reflexivity|].
  cbn [b2n]. intros H. right. apply IH. lia.
Qed.

Lemma in_lcount x l : In x l -> 0 < lcount x l.
Proof.
  induction l as [|e l IH]; [intros []|]. rewrite lcount_cons. intros [->|H]; [|specialize (IH H); lia].
  destruct (lentry_eqb_spec x x); [cbn; lia|contradiction].
Qed.

(* one more entry that was not expected so far *)
Lemma count_step (P : lentry -> bool) lg e :
  (forall x, lcount x lg = b2n (P x)) -> P e = false ->
  forall x, lcount x (e :: lg) = b2n (P x || lentry_eqb x e).
Proof.
  intros H He x. rewrite lcount_cons, H. destruct (lentry_eqb_spec x e) as [->|Hne].
  - rewrite He. reflexivity.
  - rewrite orb_false_r. reflexivity.
Qed.

Definition started (ts : list tst) (i : nat) : bool :=
  match nth_error ts i with Some TRun | Some TDone => true | _ => false end.
Definition ended (ts : list tst) (i : nat) : bool :=
  match nth_error ts i with Some TDone => true | _ => false end.

Lemma started_repeat_idle m i : started (repeat TIdle m) i = false.
Proof.
  unfold started. destruct (nth_error (repeat TIdle m) i) as [t|] eqn:E; [|reflexivity].
  apply nth_repeat_inv in E. subst. reflexivity.
Qed.
Lemma ended_repeat_idle m i : ended (repeat TIdle m) i = false.
Proof.
  unfold ended. destruct (nth_error (repeat TIdle m) i) as [t|] eqn:E; [|reflexivity].
  apply nth_repeat_inv in E. subst. reflexivity.
Qed.
Lemma ended_started ts i : ended ts i = true -> started ts i = true.
Proof. unfold ended, started. destruct (nth_error ts i) as [[| |]|]; congruence. Qed.

Lemma all_done_ended ts i : notdone ts = 0%Z -> ended ts i = (i <? length ts).
Proof.
  intros H. apply notdone_zero_repeat in H. unfold ended. destruct (Nat.ltb_spec i (length ts)) as [Hi|Hi].
  - rewrite H. rewrite (nth_error_nth' _ TDone) by (rewrite repeat_length; assumption).
    rewrite nth_repeat. reflexivity.
  - apply nth_error_None in Hi. rewrite Hi. reflexivity.
Qed.
Lemma all_done_started ts i : notdone ts = 0%Z -> started ts i = (i <? length ts).
Proof.
  intros H. pose proof (all_done_ended ts i H) as E. destruct (Nat.ltb_spec i (length ts)) as [Hi|Hi].
  - apply ended_started. exact E.
  - unfold started. apply nth_error_None in Hi. rewrite Hi. reflexivity.
Qed.

Section Props.
Variable pre : bool.
Variable sizes : list nat.
Notation n := (length sizes).
Hypothesis Hn : 0 < n.
Notation sz := (sz sizes).
Notation astep := (astep pre sizes).
Notation wf_a := (wf_a sizes).
Notation advance := (advance pre sizes).

(* which entries the log contains, as a function of the abstract state *)
Definition expb (a : astate) (x : lentry) : bool :=
  match a with
  | ANot => false
  | AIn d su ts =>
      match x with
      | LEnq k => k <=? d
      | LBegin k i => (k <? d) && (i <? sz k) || (k =? d) && started ts i
      | LEnd k i => (k <? d) && (i <? sz k) || (k =? d) && ended ts i
      | LPoolCb k => k <? d
      | LCompound => negb pre
      end
  | AEnd =>
      match x with
      | LEnq k | LPoolCb k => k <? n
      | LBegin k i | LEnd k i => (k <? n) && (i <? sz k)
      | LCompound => true
      end
  end.

(* what precedes an entry *)
Definition entry_ok (e : lentry) (r : list lentry) : Prop :=
  match e with
  | LEnq k => forall k' i', k' < k -> i' < sz k' -> In (LEnd k' i') r
  | LBegin k i => In (LEnq k) r /\ forall k' i', k' < k -> i' < sz k' -> In (LEnd k' i') r
  | LEnd k i => In (LBegin k i) r
  | LPoolCb k => In (LEnq k) r /\ forall i, i < sz k -> In (LEnd k i) r
  | LCompound => if pre then forall k, k < n -> In (LEnq k) r /\ In (LPoolCb k) r /\ forall i, i < sz k -> In (LEnd k i) r
                 else r = []
  end.

Fixpoint log_wf (l : list lentry) : Prop :=
  match l with
  | [] => True
  | e :: r => entry_ok e r /\ log_wf r
  end.

Definition AInv (al : astate * list lentry) : Prop :=
  wf_a (fst al) /\ (forall x, lcount x (snd al) = b2n (expb (fst al) x)) /\ log_wf (snd al) /\
  (fst al = ANot -> snd al = []).

Lemma exp_in a lg x : (forall y, lcount y lg = b2n (expb a y)) -> expb a x = true -> In x lg.
Proof. intros H Hx. apply lcount_in. rewrite H, Hx. cbn. lia. Qed.

(* the count clause says that the current member is enqueued and that its predecessors' tasks have ended *)
Lemma begin_ok d su ts lg i : (forall x, lcount x lg = b2n (expb (AIn d su ts) x)) -> entry_ok (LBegin d i) lg.
Proof.
  intros Hc. split.
  - apply (exp_in _ _ _ Hc). cbn [expb]. apply Nat.leb_refl.
  - intros k' i' Hk Hi. apply (exp_in _ _ _ Hc). cbn [expb]. apply Nat.ltb_lt in Hk, Hi. rewrite Hk, Hi. reflexivity.
Qed.

Lemma entry_ok_mono e r e' : entry_ok e r -> e <> LCompound \/ pre = true -> entry_ok e (e' :: r).
Proof.
  destruct e; cbn [entry_ok]; intros H Hc.
  - intros; right; auto.
  - destruct H; split; [right; auto|intros; right; auto].
  - right; auto.
  - destruct H; split; [right; auto|intros; right; auto].
  - destruct Hc as [Hc|Hc]; [congruence|]. rewrite Hc in *. intros k Hk. destruct (H k Hk) as (A & B & C).
    split; [right; auto|]. split; [right; auto|]. intros; right; auto.
Qed.

(* the entries present once member d has completed and its callback is recorded *)
Definition upto (d : nat) (x : lentry) : bool :=
  match x with
  | LEnq k | LPoolCb k => k <=? d
  | LBegin k i | LEnd k i => (k <=? d) && (i <? sz k)
  | LCompound => negb pre
  end.

Lemma expb_member_done d su ts x : length ts = sz d -> notdone ts = 0%Z ->
  expb (AIn d su ts) x || lentry_eqb x (LPoolCb d) = upto d x.
Proof.
  intros Hl Hz. destruct x as [k|k i|k i|k|]; cbn [expb lentry_eqb upto].
  - lia.
  - rewrite (all_done_started _ _ Hz), Hl. destruct (Nat.eqb_spec k d) as [->|Hk]; lia.
  - rewrite (all_done_ended _ _ Hz), Hl. destruct (Nat.eqb_spec k d) as [->|Hk]; lia.
  - lia.
  - apply orb_false_r.
Qed.

(* termination of member d *)
Lemma advance_inv d su ts lg : d < n -> length ts = sz d -> notdone ts = 0%Z ->
  (forall x, lcount x lg = b2n (expb (AIn d su ts) x)) -> log_wf lg ->
  AInv (advance d lg).
Proof.
  intros Hd Hl Hz Hc Hw. unfold CompoundAbs.advance.
  assert (Hend : forall i, i < sz d -> In (LEnd d i) lg).
  { intros i Hi. apply (exp_in _ _ _ Hc). cbn [expb]. rewrite (all_done_ended _ _ Hz), Hl, Nat.eqb_refl.
    apply Nat.ltb_lt in Hi. rewrite Hi. apply orb_true_r. }
  destruct (begin_ok d su ts lg 0 Hc) as [Henq Hprev].
  assert (Hcb : entry_ok (LPoolCb d) lg) by (split; assumption).
  assert (Hc1 : forall x, lcount x (LPoolCb d :: lg) = b2n (upto d x)).
  { intros x. rewrite <- (expb_member_done d su ts x Hl Hz). apply count_step; [assumption|]. cbn [expb]. apply Nat.ltb_irrefl. }
  destruct (Nat.ltb_spec (S d) n) as [Hlt|Hge].
  - (* next member *)
    split; [|split; [|split]]; cbn [fst snd].
    + split; [assumption|]. split; [apply repeat_length|]. left; auto.
    + intros x. rewrite (count_step _ _ _ Hc1) by (cbn [upto]; lia).
      f_equal. destruct x as [k|k i|k i|k|]; cbn [expb lentry_eqb upto];
        rewrite ?started_repeat_idle, ?ended_repeat_idle; lia.
    + cbn [log_wf]. split; [|split; [exact Hcb|exact Hw]].
      cbn [entry_ok]. intros k' i' Hk Hi. right. destruct (Nat.eq_dec k' d) as [->|Hne]; [auto|apply Hprev; [lia|assumption]].
    + discriminate.
  - (* last member *)
    assert (Hnd : S d = n) by lia.
    assert (Hall : forall k, k < n -> In (LEnq k) (LPoolCb d :: lg) /\ In (LPoolCb k) (LPoolCb d :: lg) /\
                                     forall i, i < sz k -> In (LEnd k i) (LPoolCb d :: lg)).
    { intros k Hk. split; [|split].
      - right. apply (exp_in _ _ _ Hc). cbn [expb]. apply Nat.leb_le. lia.
      - destruct (Nat.eq_dec k d) as [->|Hne]; [left; reflexivity|]. right. apply (exp_in _ _ _ Hc). cbn [expb]. apply Nat.ltb_lt. lia.
      - intros i Hi. right. destruct (Nat.eq_dec k d) as [->|Hne]; [auto|apply Hprev; [lia|assumption]]. }
    destruct pre eqn:Epre; (split; [|split; [|split]]); cbn [fst snd]; try exact I; try discriminate.
    + intros x. rewrite (count_step _ _ _ Hc1) by (cbn [upto]; rewrite Epre; reflexivity).
      f_equal. destruct x as [k|k i|k i|k|]; cbn [expb lentry_eqb upto]; lia.
    + cbn [log_wf]. split; [|split; [exact Hcb|exact Hw]]. cbn [entry_ok]. rewrite Epre. exact Hall.
    + intros x. rewrite Hc1. f_equal. destruct x as [k|k i|k i|k|]; cbn [upto expb]; rewrite ?Epre; lia.
    + cbn [log_wf]. split; [exact Hcb|exact Hw].
Qed.

Lemma started_upd ts i j a b : nth_error ts i = Some a ->
  started (upd ts i b) j = if j =? i then (match b with TIdle => false | _ => true end) else started ts j.
Proof. intros H. unfold started. rewrite (nth_upd _ _ _ _ _ H). destruct (j =? i); [destruct b|]; reflexivity. Qed.
Lemma ended_upd ts i j a b : nth_error ts i = Some a ->
  ended (upd ts i b) j = if j =? i then (match b with TDone => true | _ => false end) else ended ts j.
Proof. intros H. unfold ended. rewrite (nth_upd _ _ _ _ _ H). destruct (j =? i); [destruct b|]; reflexivity. Qed.

(* a task of the current member moves on: the entry recorded is the one that becomes expected *)
Lemma count_task d su ts i a b e lg : nth_error ts i = Some a ->
  (a, b, e) = (TIdle, TRun, LBegin d i) \/ (a, b, e) = (TRun, TDone, LEnd d i) ->
  (forall x, lcount x lg = b2n (expb (AIn d su ts) x)) ->
  forall x, lcount x (e :: lg) = b2n (expb (AIn d su (upd ts i b)) x).
Proof.
  intros Ei Hab Hc x. rewrite (count_step _ _ _ Hc).
  - f_equal. destruct Hab as [Hab|Hab]; inv Hab;
      (destruct x as [k|k j|k j|k|]; cbn [expb lentry_eqb]; try reflexivity; try (rewrite orb_false_r; reflexivity));
      rewrite ?(started_upd _ _ _ _ _ Ei), ?(ended_upd _ _ _ _ _ Ei);
      destruct (Nat.eqb_spec k d), (Nat.eqb_spec j i); subst; try lia; unfold started, ended; rewrite Ei; lia.
  - destruct Hab as [Hab|Hab]; inv Hab; cbn [expb]; unfold started, ended; rewrite Ei; lia.
Qed.

Lemma astep_inv al e : AInv al -> AInv (astep al e).
Proof.
  destruct al as [a lg]. intros Hal. pose proof Hal as (Hwf & Hc & Hw & Hnot). cbn [fst snd] in Hwf, Hc, Hw, Hnot.
  destruct a as [|d su ts|].
  - (* ANot *)
    destruct e; cbn [CompoundAbs.astep]; try exact Hal.
    rewrite (Hnot eq_refl) in *. clear Hnot.
    split; [|split; [|split]]; cbn [fst snd]; try discriminate.
    + split; [assumption|]. split; [apply repeat_length|]. left; auto.
    + assert (H0 : forall x, lcount x [] = b2n ((fun _ => false) x)) by reflexivity.
      destruct pre eqn:Epre.
      * intros x. rewrite (count_step _ _ (LEnq 0) H0 eq_refl). f_equal.
        destruct x as [k|k i|k i|k|]; cbn [expb lentry_eqb]; rewrite ?started_repeat_idle, ?ended_repeat_idle, ?Epre; try lia; reflexivity.
      * pose proof (count_step _ _ LCompound H0 eq_refl) as H1.
        intros x. rewrite (count_step _ _ (LEnq 0) H1 eq_refl). f_equal.
        destruct x as [k|k i|k i|k|]; cbn [expb lentry_eqb]; rewrite ?started_repeat_idle, ?ended_repeat_idle, ?Epre; try lia; reflexivity.
    + destruct pre eqn:Epre; cbn [log_wf entry_ok]; rewrite ?Epre; repeat split; auto; intros; lia.
  - (* AIn *)
    destruct Hwf as (Hd & Hl & Hsu).
    assert (Hnn := notdone_nonneg ts).
    destruct e as [|k|k|k i|k i]; cbn [CompoundAbs.astep].
    + exact Hal.
    + destruct ((k =? d) && (su =? 1)) eqn:E; [|exact Hal].
      split; [|split; [|split]]; cbn [fst snd]; try assumption; try discriminate. split; auto.
    + destruct ((k =? d) && (su =? 2)) eqn:E; [|exact Hal].
      destruct (Z.eqb_spec (notdone ts) 0) as [Hz|Hz].
      * apply (advance_inv d su ts); assumption.
      * split; [|split; [|split]]; cbn [fst snd]; try assumption; try discriminate.
        split; [assumption|]. split; [assumption|]. right; right. split; [reflexivity|lia].
    + destruct ((k =? d) && (2 <=? su)) eqn:E; [|exact Hal].
      destruct (nth_error ts i) as [[| |]|] eqn:Ei; try exact Hal.
      apply andb_prop in E. destruct E as [Ek Es]. apply Nat.eqb_eq in Ek. subst k. apply Nat.leb_le in Es.
      pose proof (notdone_upd _ _ _ TRun Ei) as Hup. cbn [is_done] in Hup.
      split; [|split; [|split]]; cbn [fst snd]; try discriminate.
      * split; [assumption|]. split; [rewrite (len_upd _ _ _ _ Ei); assumption|].
        destruct Hsu as [[H _]|[H|[H H']]]; [lia|auto|]. right; right. split; [assumption|lia].
      * exact (count_task d su ts i _ _ _ lg Ei (or_introl eq_refl) Hc).
      * cbn [log_wf]. split; [exact (begin_ok d su ts lg i Hc)|assumption].
    + destruct (Nat.eqb_spec k d) as [->|Hk]; [|exact Hal].
      destruct (nth_error ts i) as [[| |]|] eqn:Ei; try exact Hal.
      pose proof (notdone_upd _ _ _ TDone Ei) as Hup. cbn [is_done] in Hup.
      assert (Hsu' : su = 2 \/ su = 3).
      { destruct Hsu as [[_ Hts]|[H|[H _]]]; auto. rewrite Hts in Ei. apply nth_repeat_inv in Ei. discriminate. }
      assert (Hlen : length (upd ts i TDone) = sz d) by (rewrite (len_upd _ _ _ _ Ei); assumption).
      pose proof (count_task d su ts i _ _ _ lg Ei (or_intror eq_refl) Hc) as Hc'.
      assert (Hw' : log_wf (LEnd d i :: lg)).
      { cbn [log_wf]. split; [|assumption]. cbn [entry_ok]. apply (exp_in _ _ _ Hc). cbn [expb].
        unfold started. rewrite Ei, Nat.eqb_refl. apply orb_true_r. }
      destruct ((notdone (upd ts i TDone) =? 0)%Z && (su =? 3)) eqn:E.
      * apply andb_prop in E. destruct E as [Ez _]. apply Z.eqb_eq in Ez.
        apply (advance_inv d su (upd ts i TDone)); assumption.
      * split; [|split; [|split]]; cbn [fst snd]; try assumption; try discriminate.
        split; [assumption|]. split; [assumption|].
        destruct Hsu' as [-> | ->]; [auto|]. right; right. split; [reflexivity|].
        rewrite Nat.eqb_refl, andb_true_r in E. apply Z.eqb_neq in E. pose proof (notdone_nonneg (upd ts i TDone)). lia.
  - (* AEnd *)
    exact Hal.
Qed.

Notation arun := (arun pre sizes).
Notation conc := (conc pre sizes).

Lemma arun_inv evs : AInv (arun evs).
Proof.
  unfold CompoundAbs.arun. apply fold_left_inv.
  - intros al e H. apply astep_inv. exact H.
  - split; [exact I|]. split; [reflexivity|]. split; [exact I|reflexivity].
Qed.

Lemma run_conc evs : run pre sizes evs = conc (fst (arun evs)) (snd (arun evs)).
Proof.
  unfold run, CompoundAbs.arun.
  assert (G : forall evs al, AInv al ->
              fold_left step evs (conc (fst al) (snd al)) =
              conc (fst (fold_left astep evs al)) (snd (fold_left astep evs al))).
  { induction evs0 as [|e evs0 IH]; intros al Hal; [reflexivity|].
    cbn [fold_left]. destruct al as [a lg]. cbn [fst snd].
    rewrite (step_conc pre sizes Hn a lg e (proj1 Hal)). apply IH. apply astep_inv. exact Hal. }
  apply (G evs (ANot, [])). apply (arun_inv []).
Qed.

Lemma log_conc a lg : log (conc a lg) = lg.
Proof. destruct a; reflexivity. Qed.

Lemma log_run evs : log (run pre sizes evs) = snd (arun evs).
Proof. rewrite run_conc. apply log_conc. Qed.

Lemma log_wf_split l2 e l1 : log_wf (l2 ++ e :: l1) -> entry_ok e l1.
Proof. induction l2 as [|x l2 IH]; cbn [app log_wf]; intros [H1 H2]; auto. Qed.

(* every entry of the history of a run is preceded by what [entry_ok] asks for *)
Lemma run_entry_ok evs l1 l2 e : log (run pre sizes evs) = l2 ++ e :: l1 -> entry_ok e l1.
Proof.
  intros H. rewrite log_run in H. destruct (arun_inv evs) as (_ & _ & Hw & _). rewrite H in Hw.
  exact (log_wf_split _ _ _ Hw).
Qed.

Lemma P_end_after_begin evs l1 l2 k i :
  log (run pre sizes evs) = l2 ++ LEnd k i :: l1 -> In (LBegin k i) l1.
Proof. exact (run_entry_ok evs l1 l2 _). Qed.

(* nothing happens twice *)
Lemma P_at_most_once evs x : lcount x (log (run pre sizes evs)) <= 1.
Proof.
  rewrite log_run. destruct (arun_inv evs) as (_ & Hc & _). rewrite Hc. destruct (expb _ x); cbn; lia.
Qed.

Lemma done_is_end evs : c_done (run pre sizes evs) = n -> fst (arun evs) = AEnd.
Proof.
  rewrite run_conc. destruct (arun_inv evs) as (Hwf & _). destruct (fst (arun evs)) as [|d su ts|]; cbn.
  - lia.
  - destruct Hwf. lia.
  - reflexivity.
Qed.

(* when the last member's callback has run, everything happened exactly once *)
Lemma P_complete evs : c_done (run pre sizes evs) = n ->
  let lg := log (run pre sizes evs) in
  lcount LCompound lg = 1 /\
  (forall k, k < n -> lcount (LEnq k) lg = 1 /\ lcount (LPoolCb k) lg = 1 /\
                      (forall i, i < sz k -> lcount (LBegin k i) lg = 1 /\ lcount (LEnd k i) lg = 1)).
Proof.
  intros Hd. cbv zeta. rewrite log_run. pose proof (done_is_end evs Hd) as Ha.
  destruct (arun_inv evs) as (_ & Hc & _). rewrite Ha in Hc.
  split; [rewrite Hc; reflexivity|]. intros k Hk. apply Nat.ltb_lt in Hk.
  split; [rewrite Hc; cbn [expb]; rewrite Hk; reflexivity|]. split; [rewrite Hc; cbn [expb]; rewrite Hk; reflexivity|].
  intros i Hi. apply Nat.ltb_lt in Hi. split; rewrite Hc; cbn [expb]; rewrite Hk, Hi; reflexivity.
Qed.

(* state of the context counters *)
Lemma P_active evs : c_added (run pre sizes evs) = true ->
  (active (run pre sizes evs) = 0%Z <-> c_done (run pre sizes evs) = n) /\ (0 <= active (run pre sizes evs))%Z.
Proof.
  rewrite run_conc. destruct (arun_inv evs) as (Hwf & _). destruct (fst (arun evs)) as [|d su ts|]; cbn.
  - discriminate.
  - destruct Hwf as (Hd & _). intros _. destruct pre; split; try lia; split; intros; lia.
  - intros _. split; [tauto|lia].
Qed.

(* the code as it is: the report is the very first thing that happens *)
Lemma P_compound_at_add evs : pre = false -> c_added (run pre sizes evs) = true ->
  exists l, log (run pre sizes evs) = l ++ [LCompound].
Proof.
  intros Hp Ha. assert (Hin : In LCompound (log (run pre sizes evs))).
  { rewrite log_run. rewrite run_conc in Ha. destruct (arun_inv evs) as (_ & Hc & _).
    apply lcount_in. rewrite Hc. destruct (fst (arun evs)); cbn in *; try discriminate; rewrite ?Hp; cbn; lia. }
  apply in_split in Hin. destruct Hin as (l2 & l1 & H). exists l2.
  pose proof (run_entry_ok evs l1 l2 _ H) as He. cbn [entry_ok] in He. rewrite Hp in He. rewrite He in H. exact H.
Qed.

(* with the repaired constructor the compound is reported exactly when the last member completed *)
Lemma P_compound_iff_done evs : pre = true -> c_added (run pre sizes evs) = true ->
  (lcount LCompound (log (run pre sizes evs)) = 1 <-> c_done (run pre sizes evs) = n) /\
  (lcount LCompound (log (run pre sizes evs)) = 0 <-> c_done (run pre sizes evs) < n).
Proof.
  intros Hp. rewrite log_run, run_conc. destruct (arun_inv evs) as (Hwf & Hc & _). rewrite Hc.
  destruct (fst (arun evs)) as [|d su ts|]; cbn.
  - discriminate.
  - destruct Hwf as (Hd & _). rewrite Hp. cbn. intros _. split; split; intros; lia.
  - intros _. split; split; intros; lia.
Qed.

(* progress: a run that is not complete can always go on, and every event that has an effect
   increases the measure [pm] *)
Definition pm (s : state) : nat := 4 * length (log s) + su_of s (c_done s) + (if c_added s then 1 else 0).
Definition apm (al : astate * list lentry) : nat :=
  4 * length (snd al) + match fst al with ANot => 0 | AIn d su ts => su + 1 | AEnd => 1 end.

Lemma pm_conc a lg : wf_a a -> pm (conc a lg) = apm (a, lg).
Proof.
  intros Hwf. unfold pm, apm. rewrite log_conc. cbn [fst snd]. destruct a as [|d su ts|].
  - rewrite (su_init pre sizes). cbn. lia.
  - destruct Hwf as (Hd & _). change (c_done (conc (AIn d su ts) lg)) with d.
    rewrite (su_cur pre sizes) by assumption. cbn. lia.
  - change (c_done (conc AEnd lg)) with n. unfold su_of. cbn [CompoundAbs.conc pools].
    rewrite nth_map_seq, Nat.ltb_irrefl. cbn. lia.
Qed.

(* the completion of member d adds its callback to the history, and more: that outweighs any startup stage *)
Lemma advance_apm d su ts lg lg' : su <= 3 -> length lg' <= length lg -> apm (AIn d su ts, lg') < apm (advance d lg).
Proof. intros Hs Hl. unfold CompoundAbs.advance, apm. destruct (S d <? n); [|destruct pre]; cbn [fst snd length]; lia. Qed.

Lemma astep_mono al e : AInv al -> astep al e = al \/ apm al < apm (astep al e).
Proof.
  destruct al as [a lg]. intros (Hwf & _). cbn [fst] in Hwf. destruct a as [|d su ts|]; [| |left; reflexivity].
  - destruct e; cbn [CompoundAbs.astep]; auto. right. unfold apm. cbn [fst snd]. destruct pre; cbn [length]; lia.
  - destruct Hwf as (Hd & Hl & Hsu).
    destruct e as [|k|k|k i|k i]; cbn [CompoundAbs.astep]; auto.
    + destruct ((k =? d) && (su =? 1)) eqn:E; auto. right. apply andb_prop in E. destruct E as [_ E]. apply Nat.eqb_eq in E.
      unfold apm. cbn. lia.
    + destruct ((k =? d) && (su =? 2)) eqn:E; auto. right. apply andb_prop in E. destruct E as [_ E]. apply Nat.eqb_eq in E.
      destruct (notdone ts =? 0)%Z; [apply advance_apm; lia|]. unfold apm. cbn. lia.
    + destruct ((k =? d) && (2 <=? su)) eqn:E; auto. destruct (nth_error ts i) as [[| |]|]; auto.
      right. unfold apm. cbn [fst snd length]. lia.
    + destruct (k =? d); auto. destruct (nth_error ts i) as [[| |]|]; auto. right.
      destruct ((notdone (upd ts i TDone) =? 0)%Z && (su =? 3)).
      * apply advance_apm; [destruct Hsu as [[-> _]|[->|[-> _]]]; lia|cbn [length]; lia].
      * unfold apm. cbn [fst snd length]. lia.
Qed.

Lemma astep_progress a lg : wf_a a -> a = AEnd \/ exists e, apm (a, lg) < apm (astep (a, lg) e).
Proof.
  intros Hwf. destruct a as [|d su ts|]; [right|right|left; reflexivity].
  - exists EAdd. unfold apm. cbn [CompoundAbs.astep fst snd]. destruct pre; cbn [length]; lia.
  - destruct Hwf as (Hd & Hl & [[-> Hts]|[->|[-> Hpos]]]).
    + exists (EStartup d). cbn [CompoundAbs.astep]. rewrite Nat.eqb_refl. cbn. lia.
    + exists (EStartupDone d). cbn [CompoundAbs.astep]. rewrite Nat.eqb_refl. cbn [andb Nat.eqb].
      destruct (notdone ts =? 0)%Z; [apply advance_apm; lia|]. unfold apm. cbn. lia.
    + destruct (notdone_exists _ Hpos) as (i & t & Hi & Ht). destruct t; try discriminate.
      * exists (EBegin d i). cbn [CompoundAbs.astep]. rewrite Nat.eqb_refl, Hi. cbn. lia.
      * exists (EEnd d i). cbn [CompoundAbs.astep]. rewrite Nat.eqb_refl, Hi.
        destruct ((notdone (upd ts i TDone) =? 0)%Z && (3 =? 3)).
        -- apply advance_apm; [lia|cbn [length]; lia].
        -- unfold apm. cbn [fst snd length]. lia.
Qed.

Lemma run_snoc evs e : step (run pre sizes evs) e = run pre sizes (evs ++ [e]).
Proof. unfold run. rewrite fold_left_app. reflexivity. Qed.

Lemma arun_snoc evs e : arun (evs ++ [e]) = astep (arun evs) e.
Proof. unfold CompoundAbs.arun. rewrite fold_left_app. reflexivity. Qed.

Lemma pm_run evs : pm (run pre sizes evs) = apm (arun evs).
Proof. rewrite run_conc, pm_conc by apply arun_inv. destruct (arun evs); reflexivity. Qed.

Lemma P_step_monotone evs e :
  let s := run pre sizes evs in step s e = s \/ pm s < pm (step s e).
Proof.
  cbv zeta. rewrite run_snoc, !pm_run, arun_snoc.
  destruct (astep_mono (arun evs) e (arun_inv evs)) as [H|H]; [left|right; exact H].
  rewrite !run_conc, arun_snoc, H. reflexivity.
Qed.

Lemma P_progress evs :
  let s := run pre sizes evs in c_done s = n \/ exists e, pm s < pm (step s e).
Proof.
  cbv zeta. destruct (astep_progress _ (snd (arun evs)) (proj1 (arun_inv evs))) as [H|(e & He)].
  - left. rewrite run_conc, H. reflexivity.
  - right. exists e. rewrite run_snoc, !pm_run, arun_snoc, (surjective_pairing (arun evs)). exact He.
Qed.
End Props.
