(* C15 — the model extended with bare members (CompoundDefs.stepB / runB) is the model the
   theorems are about whenever no member is bare. *)
From PV Require Import Base.Tac Base.ListX Compound.CompoundDefs.
Local Open Scope nat_scope.

Section NoBare.
Variable bare : list bool.
Hypothesis Hnb : forall k, is_bare bare k = false.

Lemma add_member_nobare fuel k s : add_member bare fuel k s = add_pool k s.
Proof.
  destruct fuel; cbn [add_member]; unfold add_pool; destruct (nth_error (pools s) k) eqn:E; rewrite ?Hnb, ?E; reflexivity.
Qed.

Lemma add_any_nobare k s : add_any bare k s = add_pool k s.
Proof. apply add_member_nobare. Qed.

Lemma pool_cb_nobare k s : pool_cb_with (add_any bare) k s = pool_cb k s.
Proof. unfold pool_cb_with, pool_cb. cbv zeta. rewrite add_any_nobare. reflexivity. Qed.
End NoBare.

Section Ext.
Variables cb cb' : nat -> state -> state.
Hypothesis Hcb : forall k s, cb k s = cb' k s.

Lemma pool_detected_ext k s : pool_detected cb k s = pool_detected cb' k s.
Proof. unfold pool_detected. rewrite Hcb. reflexivity. Qed.
Lemma pool_check_ext k s : pool_check cb k s = pool_check cb' k s.
Proof. unfold pool_check. destruct (nth_error (pools s) k); [|reflexivity]. rewrite pool_detected_ext. reflexivity. Qed.
Lemma pool_dec_pa_ext k s : pool_dec_pa cb k s = pool_dec_pa cb' k s.
Proof. unfold pool_dec_pa. apply pool_check_ext. Qed.
Lemma pool_dec_nt_ext k s : pool_dec_nt cb k s = pool_dec_nt cb' k s.
Proof. unfold pool_dec_nt. destruct (nth_error (pools s) k); [|reflexivity]. cbv zeta. rewrite pool_dec_pa_ext. reflexivity. Qed.
Lemma pool_startup_ext k s : pool_startup cb k s = pool_startup cb' k s.
Proof. unfold pool_startup. destruct (nth_error (pools s) k); [|reflexivity]. cbv zeta. apply pool_check_ext. Qed.
End Ext.

Lemma stepB_nobare bare s e : (forall k, is_bare bare k = false) -> stepB bare s e = step s e.
Proof.
  intros H. pose proof (pool_cb_nobare bare H) as Hcb.
  destruct e as [|k|k|k i|k i]; cbn [stepB step].
  - destruct (c_added s); [reflexivity|]. unfold compound_add_with, compound_add. cbv zeta. apply add_any_nobare. assumption.
  - destruct (Nat.eqb (su_of s k) 1); [|reflexivity]. apply pool_startup_ext. assumption.
  - destruct (Nat.eqb (su_of s k) 2); [|reflexivity]. apply pool_dec_pa_ext. assumption.
  - reflexivity.
  - destruct (task_of s k i) as [[| |]|]; [reflexivity| |reflexivity|reflexivity]. apply pool_dec_nt_ext. assumption.
Qed.

Lemma bare_of_some sizes k : is_bare (bare_of (map Some sizes)) k = false.
Proof.
  unfold is_bare, bare_of. rewrite map_map. revert k. induction sizes as [|x l IH]; intros [|k]; cbn; auto.
Qed.
