(* C15 — list infrastructure and the abstract machine the model of compound.c is shown to follow.

   [astate] describes a reachable state of CompoundDefs.step by three numbers: which
   member is current (all members before it are finished, all after it untouched), how
   far its startup task got, and the status of its tasks.  [conc] rebuilds the full
   model state from it; CompoundRefine.step_conc proves  step (conc a) e = conc (astep a e). *)
From PV Require Import Base.Tac Base.ListX Compound.CompoundDefs.
Local Open Scope nat_scope.

Lemma nth_error_ext {A} (l l' : list A) : (forall i, nth_error l i = nth_error l' i) -> l = l'.
Proof.
  revert l'; induction l as [|x l IH]; intros [|y l'] H; auto.
  - specialize (H 0); discriminate.
  - specialize (H 0); discriminate.
  - f_equal. + specialize (H 0); simpl in H; congruence.
    + apply IH. intros i. apply (H (S i)).
Qed.

Lemma nth_error_seq0 n k : nth_error (seq 0 n) k = if k <? n then Some k else None.
Proof.
  destruct (Nat.ltb_spec k n) as [H|H].
  - rewrite (nth_error_nth' _ 0) by (rewrite seq_length; lia). rewrite seq_nth by lia. reflexivity.
  - apply nth_error_None. rewrite seq_length. lia.
Qed.

Lemma nth_map_seq {A} (F : nat -> A) n k : nth_error (map F (seq 0 n)) k = if k <? n then Some (F k) else None.
Proof. rewrite nth_error_map, nth_error_seq0. destruct (k <? n); reflexivity. Qed.

Lemma upd_map_seq {A} (F G : nat -> A) n d : d < n -> (forall k, k <> d -> G k = F k) ->
  upd (map F (seq 0 n)) d (G d) = map G (seq 0 n).
Proof.
  intros Hd HG. apply nth_error_ext. intros i.
  assert (Hn : nth_error (map F (seq 0 n)) d = Some (F d)).
  { rewrite nth_map_seq. destruct (Nat.ltb_spec d n); [reflexivity|lia]. }
  destruct (Nat.eq_dec i d) as [->|Hne].
  - rewrite (nth_upd_same _ _ _ _ Hn), nth_map_seq. destruct (Nat.ltb_spec d n); [reflexivity|lia].
  - rewrite (nth_upd_other _ _ _ _ _ Hn Hne), !nth_map_seq. destruct (i <? n); [|reflexivity]. now rewrite HG.
Qed.

Lemma map_as_seq {A B} (f : A -> B) (l : list A) (d : A) : map f l = map (fun k => f (nth k l d)) (seq 0 (length l)).
Proof.
  apply nth_error_ext. intros i. rewrite nth_map_seq, nth_error_map.
  destruct (Nat.ltb_spec i (length l)) as [H|H].
  - rewrite (nth_error_nth' _ d H). reflexivity.
  - apply nth_error_None in H. rewrite H. reflexivity.
Qed.

Definition notdone (ts : list tst) : Z := cnt (fun t => negb (is_done t)) ts.

Lemma notdone_cnt ts : notdone ts = cnt (fun t => negb (is_done t)) ts.
Proof. reflexivity. Qed.

Lemma notdone_repeat_idle n : notdone (repeat TIdle n) = Z.of_nat n.
Proof. unfold notdone. rewrite cnt_repeat. reflexivity. Qed.

Lemma notdone_upd ts i a b : nth_error ts i = Some a ->
  notdone (upd ts i b) = (notdone ts - (if is_done a then 0 else 1) + (if is_done b then 0 else 1))%Z.
Proof. intros H. unfold notdone. rewrite (cnt_upd _ _ _ _ _ H). cbv beta. destruct (is_done a), (is_done b); cbn [negb]; lia. Qed.

Lemma notdone_pos ts i a : nth_error ts i = Some a -> is_done a = false -> (0 < notdone ts)%Z.
Proof. intros H Ha. unfold notdone. apply (cnt_pos_of_nth _ _ _ _ H). now rewrite Ha. Qed.

Lemma notdone_zero_repeat ts : notdone ts = 0%Z -> ts = repeat TDone (length ts).
Proof.
  induction ts as [|t ts IH]; intros H; [reflexivity|].
  unfold notdone in *. rewrite cnt_cons in H. pose proof (cnt_nonneg (fun t => negb (is_done t)) ts).
  destruct t; cbn [is_done negb] in H; try lia.
  cbn [length repeat]. f_equal. apply IH. lia.
Qed.

Lemma notdone_exists ts : (0 < notdone ts)%Z -> exists i a, nth_error ts i = Some a /\ is_done a = false.
Proof.
  induction ts as [|t ts IH]; intros H.
  - unfold notdone in H. rewrite cnt_nil in H. lia.
  - destruct (is_done t) eqn:E.
    + unfold notdone in *. rewrite cnt_cons, E in H. cbn [negb] in H. destruct IH as (i & a & Hi & Ha). { lia. }
      exists (S i), a. auto.
    + exists 0, t. auto.
Qed.

Section Abs.
Variable pre : bool.
Variable sizes : list nat.
Notation n := (length sizes).
Definition sz (k : nat) : nat := nth k sizes 0.

Inductive astate := ANot | AIn (d su : nat) (ts : list tst) | AEnd.

Definition fin_pool (m : nat) : pool := mkPool (repeat TDone m) 0 0 MTerminated 3 1 1.
Definition cur_nt (su : nat) (ts : list tst) : Z := if su =? 1 then 0%Z else notdone ts.
Definition cur_pool (su : nat) (ts : list tst) : pool :=
  mkPool ts (cur_nt su ts)
         ((if Nat.ltb su 3 then 1 else 0) + (if 0 <? cur_nt su ts then 1 else 0))%Z
         (if su =? 1 then MNotReady else MBusy) su 1 0.

Definition poolF (d : nat) (c c' : pool) (k : nat) : pool :=
  if k <? d then fin_pool (sz k) else if k =? d then c else if k =? S d then c' else new_pool (sz k).

Definition mk (d : nat) (c c' : pool) (cpa : Z) (cst : monst) (cdone ccb : nat) (act : Z) (lg : list lentry) : state :=
  mkState (map (poolF d c c') (seq 0 n)) true cpa cst cdone ccb act lg.

Definition conc (a : astate) (lg : list lentry) : state :=
  match a with
  | ANot => mkState (map new_pool sizes) false (if pre then 1 else 0)%Z MNotReady 0 0 0%Z lg
  | AIn d su ts => mk d (cur_pool su ts) (new_pool (sz (S d))) (Z.of_nat n - Z.of_nat d)%Z
                      (if pre then MBusy else MTerminated) d (if pre then 0 else 1) (if pre then 2 else 1)%Z lg
  | AEnd => mkState (map (fun k => fin_pool (sz k)) (seq 0 n)) true 0%Z MTerminated n 1 0%Z lg
  end.

Definition advance (d : nat) (lg : list lentry) : astate * list lentry :=
  if S d <? n then (AIn (S d) 1 (repeat TIdle (sz (S d))), LEnq (S d) :: LPoolCb d :: lg)
  else (AEnd, if pre then LCompound :: LPoolCb d :: lg else LPoolCb d :: lg).

Definition astep (al : astate * list lentry) (e : event) : astate * list lentry :=
  let (a, lg) := al in
  match a with
  | ANot => match e with
            | EAdd => (AIn 0 1 (repeat TIdle (sz 0)), LEnq 0 :: (if pre then lg else LCompound :: lg))
            | _ => al
            end
  | AEnd => al
  | AIn d su ts =>
      match e with
      | EAdd => al
      | EStartup k => if (k =? d) && (su =? 1) then (AIn d 2 ts, lg) else al
      | EStartupDone k =>
          if (k =? d) && (su =? 2) then (if Z.eqb (notdone ts) 0 then advance d lg else (AIn d 3 ts, lg)) else al
      | EBegin k i =>
          if (k =? d) && (2 <=? su) then
            match nth_error ts i with
            | Some TIdle => (AIn d su (upd ts i TRun), LBegin d i :: lg)
            | _ => al
            end
          else al
      | EEnd k i =>
          if k =? d then
            match nth_error ts i with
            | Some TRun =>
                let ts' := upd ts i TDone in
                if Z.eqb (notdone ts') 0 && (su =? 3) then advance d (LEnd d i :: lg)
                else (AIn d su ts', LEnd d i :: lg)
            | _ => al
            end
          else al
      end
  end.

Definition wf_a (a : astate) : Prop :=
  match a with
  | ANot | AEnd => True
  | AIn d su ts => d < n /\ length ts = sz d /\
                   ((su = 1 /\ ts = repeat TIdle (sz d)) \/ su = 2 \/ (su = 3 /\ (0 < notdone ts)%Z))
  end.

Definition arun (evs : list event) : astate * list lentry := fold_left astep evs (ANot, []).

End Abs.
