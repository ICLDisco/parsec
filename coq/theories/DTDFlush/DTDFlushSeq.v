(* Sequential facts: flush tasks are transparent for the sequential reference (the run over
   all tasks restricted to the user tasks is the run of the user tasks alone), and the final
   value of a datum is the output of the last task that writes it. *)
From PV Require Import Base.Tac DTD.DTDDefs DTD.DTDSeq DTD.DTDChain DTDFlush.DTDFlushDefs.

Lemma exec_task_ext b k t m1 m2 : (forall d, m1 d = m2 d) -> forall d, exec_task b k t m1 d = exec_task b k t m2 d.
Proof.
  intros H d. unfold exec_task, write_back. rewrite (inputs_ext t m1 m2) by (intros; apply H).
  destruct (writes t d); [reflexivity|apply H].
Qed.

Lemma seq_run_ext b : forall p k m1 m2, (forall d, m1 d = m2 d) ->
  fst (seq_run b k p m1) = fst (seq_run b k p m2) /\ forall d, snd (seq_run b k p m1) d = snd (seq_run b k p m2) d.
Proof.
  induction p as [|t p IH]; intros k m1 m2 H; cbn [seq_run fst snd]; [split; [reflexivity|exact H]|].
  destruct (IH (S k) (exec_task b k t m1) (exec_task b k t m2) (exec_task_ext b k t m1 m2 H)) as [Ha Hb].
  split; [|exact Hb]. rewrite Ha. f_equal. apply inputs_ext. intros d _. apply H.
Qed.

Lemma writes_flush r d0 d : writes (acc_of (FFlush r d0)) d = Nat.eqb d0 d.
Proof. cbn [acc_of]. rewrite writes_one. apply andb_true_r. Qed.

Lemma uprog_app a b : uprog (a ++ b) = uprog a ++ uprog b.
Proof. unfold uprog. apply flat_map_app. Qed.

Section Erase.
Variable body : tid -> list value -> value.
Variable fp : fprog.
Notation body' := (fbody_of body fp).

Lemma ftask_at_mid pre f suf : fp = pre ++ f :: suf -> ftask_at fp (length pre) = f.
Proof. intros ->. unfold ftask_at. rewrite app_nth2 by lia. now rewrite Nat.sub_diag. Qed.
Lemma uid_mid pre suf : fp = pre ++ suf -> uid fp (length pre) = length (uprog pre).
Proof.
  intros ->. unfold uid. rewrite firstn_app, Nat.sub_diag, firstn_all. cbn [firstn]. now rewrite app_nil_r.
Qed.

Lemma flush_exec k r d m : ftask_at fp k = FFlush r d -> forall x, exec_task body' k [(d, RW)] m x = m x.
Proof.
  intros HF x. unfold exec_task, write_back, fbody_of. rewrite HF. rewrite writes_one. cbn [fst snd is_write inputs filter is_read map hd].
  rewrite andb_true_r. destruct (Nat.eqb d x) eqn:E; [|reflexivity]. apply Nat.eqb_eq in E. now subst.
Qed.

Lemma erase_run : forall suf pre m, fp = pre ++ suf ->
  users suf (fst (seq_run body' (length pre) (prog_of suf) m)) = fst (seq_run body (length (uprog pre)) (uprog suf) m) /\
  forall d, snd (seq_run body' (length pre) (prog_of suf) m) d = snd (seq_run body (length (uprog pre)) (uprog suf) m) d.
Proof.
  induction suf as [|f suf IH]; intros pre m Hfp; [split; reflexivity|].
  assert (Hfp' : fp = (pre ++ [f]) ++ suf) by (rewrite <- app_assoc; exact Hfp).
  specialize (IH (pre ++ [f])). rewrite app_length in IH. cbn [length] in IH. rewrite Nat.add_1_r in IH.
  pose proof (ftask_at_mid pre f suf Hfp) as HF.
  destruct f as [r t|r d0].
  - (* user task: same body, same number *)
    change (prog_of (FUser r t :: suf)) with (t :: prog_of suf).
    change (uprog (FUser r t :: suf)) with (t :: uprog suf).
    cbn [seq_run fst snd users].
    assert (He : exec_task body' (length pre) t m = exec_task body (length (uprog pre)) t m).
    { unfold exec_task, fbody_of. rewrite HF. now rewrite (uid_mid pre (FUser r t :: suf) Hfp). }
    rewrite He. rewrite uprog_app, app_length in IH. cbn [uprog flat_map app length] in IH. rewrite Nat.add_1_r in IH.
    destruct (IH (exec_task body (length (uprog pre)) t m) Hfp') as [Ha Hb].
    split; [now rewrite Ha|exact Hb].
  - (* flush task: the memory is unchanged *)
    change (prog_of (FFlush r d0 :: suf)) with ([(d0, RW)] :: prog_of suf).
    change (uprog (FFlush r d0 :: suf)) with (uprog suf).
    cbn [seq_run fst snd users].
    rewrite uprog_app in IH. cbn [uprog flat_map app] in IH. rewrite app_nil_r in IH.
    destruct (IH (exec_task body' (length pre) [(d0, RW)] m) Hfp') as [Ha Hb].
    destruct (seq_run_ext body (uprog suf) (length (uprog pre)) (exec_task body' (length pre) [(d0, RW)] m) m
                (flush_exec (length pre) r d0 m HF)) as [Hc Hd].
    split; [now rewrite Ha, Hc|]. intros d. now rewrite Hb, Hd.
Qed.
End Erase.

(* flushes (any number, anywhere, of any tile) change neither what the tasks observe nor the values *)
Theorem flush_transparent body fp m0 :
  users fp (fst (seq_dtd (fbody_of body fp) (prog_of fp) m0)) = fst (seq_dtd body (uprog fp) m0) /\
  forall d, snd (seq_dtd (fbody_of body fp) (prog_of fp) m0) d = snd (seq_dtd body (uprog fp) m0) d.
Proof. exact (erase_run body fp fp [] m0 eq_refl). Qed.

(* the final value of a datum: the output of the last task that writes it, or the initial value *)
Theorem seq_final_unwritten b p m0 d :
  (forall j, j < length p -> writes (task_at p j) d = false) -> snd (seq_dtd b p m0) d = m0 d.
Proof.
  intros H. rewrite seq_final. apply (prefix_mem_stable b p m0 d 0 (length p)); [lia|]. intros j Hj. apply H. lia.
Qed.
Theorem seq_final_last_writer b p m0 d j : j < length p -> writes (task_at p j) d = true ->
  (forall i, j < i < length p -> writes (task_at p i) d = false) ->
  snd (seq_dtd b p m0) d = b j (nth j (fst (seq_dtd b p m0)) []).
Proof.
  intros Hj Hw Hn. rewrite seq_final, seq_inputs_nth by exact Hj. now apply prefix_mem_last_writer.
Qed.

(* a task that only reads (whatever part of the tiles it looks at) changes no value, does not move the
   version of any tile and leaves the owner's storage alone: what a later flush returns does not depend on it *)
Lemma read_only_transparent owner b k r t : (forall d, writes t d = false) ->
  (forall m d, exec_task b k t m d = m d) /\
  (forall ip d, inpl_step owner ip (FUser r t) d = ip d) /\
  (forall fp j v h d, ftask_at fp j = FUser r t -> home_update owner fp j v h d = h d).
Proof.
  intros H. split; [|split].
  - intros m d. unfold exec_task, write_back. now rewrite H.
  - intros ip d. cbn [inpl_step]. now rewrite H.
  - intros fp j v h d HF. unfold home_update. rewrite HF. now rewrite H.
Qed.
