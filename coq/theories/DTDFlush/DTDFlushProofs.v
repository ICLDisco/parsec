(* The flush model: under the API contract ([wf]: a tile is not named again before a wait
   that follows its flush) the engine of DTDFlushDefs is an instance of the generic engine of
   DTD/DTDEngine.v, and the owner's storage of a tile holds the sequential value whenever
   the tile's current version is the owner's storage ([home_inv]). *)
From PV Require Import Base.Tac DTD.DTDDefs DTD.DTDSeq DTD.DTDChain DTD.DTDEngine DTD.DTDProofs
  DTDFlush.DTDFlushDefs DTDFlush.DTDFlushSeq.

Lemma firstn_snoc {A} (x0 : A) : forall (l : list A) k, k < length l -> firstn (S k) l = firstn k l ++ [nth k l x0].
Proof.
  induction l as [|a l IH]; intros k Hk; cbn [length] in Hk; [lia|].
  destruct k as [|k]; [reflexivity|].
  change (firstn (S (S k)) (a :: l)) with (a :: firstn (S k) l). rewrite (IH k) by lia. reflexivity.
Qed.

Lemma filter_full {A} (f : A -> bool) : forall l, length (filter f l) = length l -> forall x, In x l -> f x = true.
Proof.
  induction l as [|a l IH]; intros Hl x Hx; [destruct Hx|].
  assert (Hle : forall l', length (filter f l') <= length l').
  { induction l' as [|b l' IH']; cbn [filter length]; [lia|]. destruct (f b); cbn [length]; lia. }
  cbn [filter] in Hl. destruct (f a) eqn:Ea; cbn [length] in Hl.
  - destruct Hx as [<-|Hx]; [exact Ea|]. apply IH; [lia|exact Hx].
  - specialize (Hle l). lia.
Qed.

Lemma dpath_lt p i k : dpath (dep_fn p) i k -> i < k.
Proof.
  induction 1 as [i k Hi|i j k _ IH Hj].
  - exact (dtd_back p k i Hi).
  - pose proof (dtd_back p k j Hj). lia.
Qed.

Section Flush.
Variable owner : datum -> rank.
Variable body : tid -> list value -> value.
Variable fp : fprog.
Variable waits : list nat.
Variable g : nat -> nat -> bool.
Variable m0 : mem.

Notation p := (prog_of fp).
Notation body' := (fbody_of body fp).
Notation gate := (wait_gate waits g).
Notation dep := (rdep owner fp).
Notation T k := (task_at p k).
Notation F k := (ftask_at fp k).
Notation pm := (prefix_mem body' p m0).
Notation ip := (inpl owner fp).

Lemma task_at_prog k : T k = acc_of (F k).
Proof. exact (map_nth acc_of fp fnone k). Qed.
Lemma prog_length : length p = length fp.
Proof. apply map_length. Qed.

Definition wf : Prop := forall f k d, f < k -> k < length fp -> F f = FFlush (owner d) d ->
  touches (T k) d = true -> exists w, In w waits /\ f < w /\ w <= k.

Lemma wfb_wf : wfb owner fp waits = true -> wf.
Proof.
  intros H f k d Hfk Hk HF Ht. unfold wfb in H. rewrite forallb_forall in H.
  specialize (H f). rewrite HF in H. rewrite Nat.eqb_refl in H. cbn [negb orb] in H.
  assert (Hin : In f (seq 0 (length fp))) by (apply in_seq; lia).
  specialize (H Hin). rewrite forallb_forall in H. specialize (H k).
  assert (Hink : In k (seq (S f) (length fp - S f))) by (apply in_seq; lia).
  specialize (H Hink). rewrite <- task_at_prog, Ht in H. cbn [negb orb] in H.
  apply existsb_exists in H. destruct H as (w & Hw & Hc). apply andb_true_iff in Hc. destruct Hc as [Ha Hb].
  apply Nat.ltb_lt in Ha. apply Nat.leb_le in Hb. exists w. auto.
Qed.

(* the last wait point at or before k *)
Definition lastwait (k : nat) : nat := fold_right (fun w acc => if w <=? k then Nat.max w acc else acc) 0 waits.
Lemma lastwait_gen k : forall l, let r := fold_right (fun w acc => if w <=? k then Nat.max w acc else acc) 0 l in
  r <= k /\ (forall w, In w l -> w <= k -> w <= r) /\ (r = 0 \/ In r l).
Proof.
  induction l as [|a l (IH1 & IH2 & IH3)]; cbn [fold_right].
  - repeat split; [lia| |now left]. intros w [].
  - destruct (a <=? k) eqn:Ea.
    + apply Nat.leb_le in Ea. repeat split.
      * lia.
      * intros w [<-|Hw] Hle; [lia|]. specialize (IH2 w Hw Hle). lia.
      * destruct (Nat.max_spec a (fold_right (fun w acc => if w <=? k then Nat.max w acc else acc) 0 l)) as [[_ ->]|[_ ->]].
        -- destruct IH3 as [->|H]; [now left|right; now right].
        -- right. now left.
    + apply Nat.leb_gt in Ea. repeat split.
      * exact IH1.
      * intros w [<-|Hw] Hle; [lia|]. now apply IH2.
      * destruct IH3 as [->|H]; [now left|right; now right].
Qed.
Lemma lastwait_le k : lastwait k <= k.
Proof. apply (lastwait_gen k waits). Qed.
Lemma lastwait_ge k w : In w waits -> w <= k -> w <= lastwait k.
Proof. apply (lastwait_gen k waits). Qed.
Lemma lastwait_in k : lastwait k = 0 \/ In (lastwait k) waits.
Proof. apply (lastwait_gen k waits). Qed.

(* the dependencies of the proof: those of the model plus "everything before the last wait" *)
Definition dep' (k : tid) : list tid := dep k ++ seq 0 (lastwait k).

Lemma back' k j : In j (dep' k) -> j < k.
Proof.
  intros H. apply in_app_or in H. destruct H as [H|H].
  - unfold rdep in H. apply filter_In in H. exact (dtd_back p k j (proj1 H)).
  - apply in_seq in H. pose proof (lastwait_le k). lia.
Qed.

Lemma recv_shape j : is_recv owner (F j) = true -> exists d, F j = FFlush (owner d) d.
Proof.
  destruct (F j) as [r t|r d] eqn:E; cbn [is_recv]; intros H; [discriminate|].
  apply Nat.eqb_eq in H. subst r. now exists d.
Qed.

Lemma edge' : wf -> forall k j, k < length fp -> In j (dep_fn p k) -> In j (dep' k) \/ forall i, i <= j -> In i (dep' k).
Proof.
  intros Hwf k j Hk Hj. destruct (is_recv owner (F j)) eqn:Er.
  - right. destruct (recv_shape j Er) as (d & HF).
    pose proof (dtd_back p k j Hj) as Hlt.
    assert (Ht : touches (T k) d = true).
    { destruct (dtd_sound p k j Hj) as (d' & Ha & Hb & _). rewrite task_at_prog, HF in Ha. cbn [acc_of] in Ha.
      rewrite touches_one in Ha. cbn [fst] in Ha. apply Nat.eqb_eq in Ha. now subst d'. }
    destruct (Hwf j k d Hlt Hk HF Ht) as (w & Hw & Hjw & Hwk).
    pose proof (lastwait_ge k w Hw Hwk). intros i Hi. apply in_or_app. right. apply in_seq. lia.
  - left. apply in_or_app. left. unfold rdep. apply filter_In. split; [exact Hj|]. now rewrite Er.
Qed.

Lemma path' : wf -> forall i k, dpath (dep_fn p) i k -> k < length fp -> dpath dep' i k.
Proof.
  intros Hwf i k H. induction H as [i k Hi|i j k Hp IH Hj]; intros Hk.
  - destruct (edge' Hwf k i Hk Hi) as [H|H]; apply dp_edge; [exact H|apply H; lia].
  - pose proof (dtd_back p k j Hj) as Hjk. pose proof (dpath_lt p i j Hp) as Hij.
    destruct (edge' Hwf k j Hk Hj) as [H|H].
    + apply dp_trans with j; [apply IH; lia|exact H].
    + apply dp_edge. apply H. lia.
Qed.

Lemma cover' : wf -> forall k i, k < length p -> i < k -> conflict (T i) (T k) -> dpath dep' i k.
Proof.
  intros Hwf k i Hk Hi Hc. apply path'; [exact Hwf| |now rewrite <- prog_length].
  now apply chain_edges_complete.
Qed.

(* waits: everything before a passed wait point is done *)
Definition Wt (s : state) : Prop := forall w, In w waits -> w < ins s -> forall j, j < w -> st s j = Done.

Lemma count_done_full s : count_done s = ins s -> forall j, j < ins s -> st s j = Done.
Proof.
  unfold count_done. intros H j Hj. apply is_done_iff.
  apply (filter_full (fun j => is_done (st s j)) (seq 0 (ins s))); [now rewrite seq_length|apply in_seq; lia].
Qed.

(* at a wait point the gate opens only once every inserted task has ended *)
Lemma wait_gate_closed w e : In w waits -> gate w e = true -> e = w.
Proof.
  intros Hw Hg. unfold wait_gate in Hg. apply andb_true_iff in Hg. destruct Hg as [_ Hg].
  rewrite (proj2 (existsb_exists _ _)) in Hg by (exists w; split; [exact Hw|apply Nat.eqb_refl]).
  now apply Nat.eqb_eq in Hg.
Qed.

Lemma Wt_step dep0 s e : Wt s -> Wt (step body' p dep0 gate s e).
Proof.
  intros HW. destruct e as [|t|t]; unfold step.
  - destruct (can_insert p gate s) eqn:Eg; [|exact HW]. apply can_insert_iff in Eg. destruct Eg as [_ Eg].
    intros w Hw Hlt j Hj. cbn [ins st] in *.
    destruct (Nat.eq_dec w (ins s)) as [->|Hne]; [|apply (HW w Hw); lia].
    apply count_done_full; [exact (wait_gate_closed _ _ Hw Eg)|exact Hj].
  - destruct (can_begin dep0 s t) eqn:Eg; [|exact HW]. apply can_begin_iff in Eg. destruct Eg as (_ & Hidle & _).
    intros w Hw Hlt j Hj. cbn [ins st] in *. apply fupd_done; [congruence|now apply (HW w)].
  - destruct (can_end s t) eqn:Eg; [|exact HW]. apply is_running_iff in Eg.
    intros w Hw Hlt j Hj. cbn [ins st] in *. apply fupd_done; [congruence|now apply (HW w)].
Qed.

Lemma can_begin_eq s t : Wt s -> can_begin dep' s t = can_begin dep s t.
Proof.
  intros HW. unfold can_begin, dep'. rewrite forallb_app.
  destruct (t <? ins s) eqn:Et; [|reflexivity]. apply Nat.ltb_lt in Et.
  assert (H : forallb (fun j => is_done (st s j)) (seq 0 (lastwait t)) = true).
  { apply forallb_forall. intros j Hj. apply in_seq in Hj. apply is_done_iff.
    destruct (lastwait_in t) as [H0|Hin]; [lia|]. pose proof (lastwait_le t).
    apply (HW (lastwait t) Hin); lia. }
  now rewrite H, andb_true_r.
Qed.

Lemma step_eq s e : Wt s -> step body' p dep' gate s e = step body' p dep gate s e.
Proof. intros HW. destruct e as [|t|t]; unfold step; [reflexivity| |reflexivity]. now rewrite can_begin_eq. Qed.

Lemma fold_eq : forall es s, Wt s ->
  fold_left (step body' p dep' gate) es s = fold_left (step body' p dep gate) es s /\
  Wt (fold_left (step body' p dep gate) es s).
Proof.
  induction es as [|e es IH]; intros s HW; cbn [fold_left]; [now split|].
  rewrite step_eq by exact HW. apply IH. now apply Wt_step.
Qed.

Lemma Wt_init : Wt (init m0).
Proof. intros w _ H. cbn in H. lia. Qed.

Lemma run_eq es : run body' p dep gate m0 es = run body' p dep' gate m0 es.
Proof. unfold run. symmetry. apply fold_eq. apply Wt_init. Qed.
Lemma run_Wt es : Wt (run body' p dep gate m0 es).
Proof. unfold run. apply fold_eq. apply Wt_init. Qed.

Lemma eng_fold : forall es s, eng (fold_left (fstep owner body fp waits g) es s) =
  fold_left (step body' p dep gate) es (eng s).
Proof. induction es as [|e es IH]; intros s; cbn [fold_left]; [reflexivity|]. now rewrite IH. Qed.
Lemma eng_frun es : eng (frun owner body fp waits g m0 es) = run body' p dep gate m0 es.
Proof. unfold frun, run. now rewrite eng_fold. Qed.

Hypothesis Hwf : wf.

Lemma inv_eng es : Inv body' p dep' m0 (eng (frun owner body fp waits g m0 es)).
Proof. rewrite eng_frun, run_eq. apply inv_run; [apply back'|now apply cover']. Qed.

Lemma inpl_S k : k < length fp -> ip (S k) = inpl_step owner (ip k) (F k).
Proof.
  intros Hk. unfold inpl. rewrite (firstn_snoc fnone fp k Hk), fold_left_app. reflexivity.
Qed.
Lemma inpl_over k : length fp <= k -> ip (S k) = ip k.
Proof. intros Hk. unfold inpl. rewrite !firstn_all2 by lia. reflexivity. Qed.

Lemma inpl_step_other f d x : writes (acc_of f) d = false -> inpl_step owner x f d = x d.
Proof.
  destruct f as [r t|r d0]; cbn [inpl_step]; intros H.
  - cbn [acc_of] in H. now rewrite H.
  - rewrite writes_flush in H. now rewrite Nat.eqb_sym, H.
Qed.

Lemma inpl_stable d a : forall b, a <= b -> (forall j, a <= j < b -> writes (T j) d = false) -> ip b d = ip a d.
Proof.
  induction b as [|b IH]; intros Hle Hw.
  - now replace a with 0 by lia.
  - destruct (Nat.eq_dec a (S b)) as [->|Hne]; [reflexivity|].
    rewrite <- IH by (try lia; intros j Hj; apply Hw; lia).
    destruct (Nat.lt_ge_cases b (length fp)) as [Hb|Hb].
    + rewrite (inpl_S b Hb). apply inpl_step_other. rewrite <- task_at_prog. apply Hw. lia.
    + now rewrite (inpl_over b Hb).
Qed.

(* what the end of a task does to the owner's storage of d: nothing when the task does not write d; when it
   does and the version it leaves is the owner's storage, a user task has written there, and a flush task
   has copied its input unless that already was the owner's storage *)
Lemma home_update_other k v h d : writes (T k) d = false -> home_update owner fp k v h d = h d.
Proof.
  rewrite task_at_prog. unfold home_update. destruct (F k) as [r t|r d0]; intros Hw.
  - cbn [acc_of] in Hw. now rewrite Hw.
  - rewrite writes_flush in Hw. now rewrite Nat.eqb_sym, Hw.
Qed.
Lemma home_update_writer k v h d : k < length fp -> writes (T k) d = true -> ip (S k) d = true ->
  home_update owner fp k v h d = if is_user (F k) || negb (ip k d) then v else h d.
Proof.
  intros Hk Hw Hi. rewrite (inpl_S k Hk) in Hi. rewrite task_at_prog in Hw. unfold home_update.
  destruct (F k) as [r t|r d0]; cbn [inpl_step is_user orb] in *.
  - cbn [acc_of] in Hw. rewrite Hw in *. cbn [andb] in *.
    destruct (Nat.eqb r (owner d)); cbn [negb andb] in *; [now rewrite Hi|discriminate].
  - rewrite writes_flush in Hw. apply Nat.eqb_eq in Hw. subst d0. rewrite Nat.eqb_refl in *. now rewrite Hi.
Qed.

Lemma flush_value k r d0 d : F k = FFlush r d0 -> writes (T k) d = true ->
  body' k (inputs (T k) (pm k)) = pm k d.
Proof.
  intros HF Hw. rewrite task_at_prog, HF, writes_flush in Hw. apply Nat.eqb_eq in Hw. subst d0.
  unfold fbody_of. rewrite HF, task_at_prog, HF. reflexivity.
Qed.

(* the owner's storage of d holds the sequential value at every cut of the writers of d at which the
   version of d is the owner's storage *)
Definition HI (s : fstate) : Prop := forall d k,
  cut p (st (eng s)) d k -> ip k d = true -> home s d = pm k d.

Lemma HI_init : HI (finit m0).
Proof. intros d k Hc _. symmetry. now apply cut_init. Qed.

Lemma HI_step s e : Inv body' p dep' m0 (eng s) -> HI s -> HI (fstep owner body fp waits g s e).
Proof.
  intros HInv HH d k Hc Hi. pose proof HInv as [H0 H1 _ H3 _ _ _]. (* E0, E1, E3 of DTDEngine.Inv *)
  destruct e as [|t|t]; cbn [fstep fstep_with home eng] in *; unfold step in Hc.
  - destruct (can_insert p gate (eng s)); now apply HH.
  - destruct (can_begin dep (eng s) t) eqn:Eg; [|now apply HH]. apply can_begin_iff in Eg. destruct Eg as (_ & Hidle & _).
    apply HH; [|exact Hi]. apply (cut_fupd p _ t Running); [congruence|left; discriminate|exact Hc].
  - destruct (can_end (eng s) t) eqn:Eg; [|now apply HH]. apply is_running_iff in Eg. cbn [st] in Hc.
    assert (Hnid : st (eng s) t <> Idle) by congruence.
    rewrite (H3 t Hnid). destruct (writes (T t) d) eqn:Ew.
    + (* t is the latest finished writer of d *)
      destruct (cut_end_writer p _ t d k (begun_after body' p dep' m0 (cover' Hwf) (eng s) HInv) Eg Ew Hc)
        as (Htk & Hnone & Hct).
      assert (Hlen : t < length fp) by (specialize (H1 t Hnid); rewrite prog_length in H0; lia).
      rewrite (prefix_mem_last_writer body' p m0 d t k Htk Ew Hnone), home_update_writer; [|exact Hlen|exact Ew|].
      * destruct (is_user (F t)) eqn:Eu; [reflexivity|]. destruct (ip t d) eqn:Eit; [|reflexivity].
        (* a flush task whose input already is the owner's storage: nothing is copied *)
        destruct (F t) as [r tk|r d0] eqn:EF; [discriminate|].
        rewrite (flush_value t r d0 d EF Ew). now apply HH.
      * rewrite <- (inpl_stable d (S t) k); [exact Hi|lia|intros j Hj; apply Hnone; lia].
    + rewrite home_update_other by exact Ew. apply HH; [|exact Hi].
      apply (cut_fupd p _ t Done); [congruence|now right|exact Hc].
Qed.

Lemma frun_snoc es e : frun owner body fp waits g m0 (es ++ [e]) =
  fstep owner body fp waits g (frun owner body fp waits g m0 es) e.
Proof. unfold frun. now rewrite fold_left_app. Qed.

Theorem home_inv es : HI (frun owner body fp waits g m0 es).
Proof.
  induction es as [|e es IH] using rev_ind; [apply HI_init|].
  rewrite frun_snoc. apply HI_step; [apply inv_eng|exact IH].
Qed.

(* a quiescent state with w tasks inserted (what parsec_taskpool_wait returns in) *)
Definition quiescent (s : fstate) (w : nat) : Prop := ins (eng s) = w /\ forall j, j < w -> st (eng s) j = Done.

Theorem owner_copy_after_wait es w d :
  quiescent (frun owner body fp waits g m0 es) w -> ip w d = true ->
  home (frun owner body fp waits g m0 es) d = pm w d.
Proof.
  intros [Hins Hd] Hi. apply (home_inv es); [|exact Hi]. split; [intros i Hiw _; now apply Hd|].
  intros i Hiw _ Hdone. pose proof (inv_eng es) as [_ H1 _ _ _ _ _]. (* E1: a task that is not idle has been inserted *)
  assert (i < ins (eng (frun owner body fp waits g m0 es))) by (apply H1; congruence). lia.
Qed.

Theorem owner_copy_final es d :
  all_done p (eng (frun owner body fp waits g m0 es)) = true -> ip (length fp) d = true ->
  home (frun owner body fp waits g m0 es) d = snd (seq_dtd body (uprog fp) m0) d.
Proof.
  intros Hd Hi. rewrite <- (proj2 (flush_transparent body fp m0) d), seq_final, prog_length.
  apply owner_copy_after_wait; [|exact Hi]. apply all_done_iff in Hd. now rewrite prog_length in Hd.
Qed.

(* what every task observes, and the current versions at the end: the sequential values *)
Theorem flush_observations es :
  let s := eng (frun owner body fp waits g m0 es) in
  (forall t i, obs s t = Some i -> t < length fp /\ i = nth t (fst (seq_dtd body' p m0)) []) /\
  (all_done p s = true -> forall d, memo s d = snd (seq_dtd body (uprog fp) m0) d).
Proof.
  cbv zeta. rewrite eng_frun, run_eq, <- prog_length.
  destruct (dag_serialisable body' p dep' gate m0 back' (cover' Hwf) es) as [Ha Hb].
  split; [exact Ha|]. intros Hd d. rewrite <- (proj2 (flush_transparent body fp m0) d). now apply Hb.
Qed.

(* no reachable state is stuck before everything is done *)
Theorem flush_progress : (forall i, g i i = true) -> forall es,
  all_done p (eng (frun owner body fp waits g m0 es)) = false ->
  exists e, enabled p dep gate (eng (frun owner body fp waits g m0 es)) e = true.
Proof.
  intros Hg es Hnd. rewrite eng_frun in *. pose proof (run_Wt es) as HW. rewrite run_eq in *.
  assert (Hgate : forall i, gate i i = true).
  { intros i. unfold wait_gate. now rewrite Hg, Nat.eqb_refl, orb_true_r. }
  destruct (progress body' p dep' gate m0 back' (cover' Hwf) Hgate es Hnd) as (e & He).
  exists e. destruct e as [|t|t]; cbn [enabled] in *; [exact He| |exact He].
  now rewrite <- can_begin_eq.
Qed.
End Flush.

(* a receive-side flush makes the owner's storage current, and it stays so until a task placed
   on another rank writes the tile *)
Lemma inpl_after_flush owner fp f d : f < length fp -> ftask_at fp f = FFlush (owner d) d ->
  forall w, f < w ->
  (forall j r t, f < j < w -> ftask_at fp j = FUser r t -> writes t d = true -> r = owner d) ->
  (forall j r, f < j < w -> ftask_at fp j = FFlush r d -> r = owner d) ->
  inpl owner fp w d = true.
Proof.
  intros Hf HF. induction w as [|w IH]; intros Hw Hu Hfl; [lia|].
  destruct (Nat.lt_ge_cases w (length fp)) as [Hl|Hg].
  - rewrite (inpl_S owner fp w Hl). destruct (Nat.eq_dec w f) as [->|Hne].
    + rewrite HF. cbn [inpl_step]. now rewrite !Nat.eqb_refl.
    + assert (Hprev : inpl owner fp w d = true).
      { apply IH; [lia| |]; intros; [eapply Hu|eapply Hfl]; eauto; lia. }
      destruct (ftask_at fp w) as [r t|r d0] eqn:E; cbn [inpl_step].
      * destruct (writes t d) eqn:Ewr; cbn [andb]; [|exact Hprev].
        rewrite (Hu w r t) by (auto; lia). now rewrite Nat.eqb_refl.
      * destruct (Nat.eqb d d0) eqn:Ed; [|exact Hprev]. apply Nat.eqb_eq in Ed. subst d0.
        rewrite (Hfl w r) by (auto; lia). apply Nat.eqb_refl.
  - rewrite (inpl_over owner fp w Hg). apply IH; [lia| |]; intros; [eapply Hu|eapply Hfl]; eauto; lia.
Qed.
