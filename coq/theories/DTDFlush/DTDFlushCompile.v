(* What the API calls insert ([compile]): after parsec_dtd_data_flush of a tile, and for every tile
   after parsec_dtd_data_flush_all, the tile's current version is the owner's storage; the user
   tasks of the compiled sequence are the tasks the application inserted. *)
From PV Require Import Base.Tac DTD.DTDDefs DTD.DTDChain DTDFlush.DTDFlushDefs DTDFlush.DTDFlushSeq.

Section Compile.
Variable owner : datum -> rank.
Notation inpl_all l := (fold_left (inpl_step owner) l (fun _ => true)).

Lemma inpl_full fp : inpl owner fp (length fp) = inpl_all fp.
Proof. unfold inpl. now rewrite firstn_all. Qed.

Lemma lw_upd_same f d v : lw_upd f d v d = v.
Proof. unfold lw_upd. now rewrite Nat.eqb_refl. Qed.
Lemma lw_upd_other f d v x : x <> d -> lw_upd f d v x = f x.
Proof. unfold lw_upd. intros H. apply Nat.eqb_neq in H. now rewrite H. Qed.

Lemma live_add_in l d x : In x (live_add l d) <-> In x l \/ x = d.
Proof.
  unfold live_add. destruct (existsb (Nat.eqb d) l) eqn:E.
  - split; [tauto|]. intros [H| ->]; [exact H|]. apply existsb_exists in E. destruct E as (y & Hy & Hd).
    apply Nat.eqb_eq in Hd. now subst.
  - rewrite in_app_iff. cbn. split; intros [H|H]; auto; try tauto. destruct H as [<-|[]]. now right.
Qed.
Lemma live_del_in l d x : In x (live_del l d) <-> In x l /\ x <> d.
Proof.
  unfold live_del. rewrite filter_In. split; intros [H1 H2]; split; auto.
  - intros ->. now rewrite Nat.eqb_refl in H2.
  - apply negb_true_iff. now apply Nat.eqb_neq.
Qed.

(* the flows of one task: every tile it names gets a last writer and is in the hash table *)
Lemma touch_one r lw live a d : let st := touch owner r (lw, live) a in
  (fst st d = None <-> lw d = None /\ fst a <> d) /\ (In d (snd st) <-> In d live \/ fst a = d).
Proof.
  unfold touch. cbn [fst snd]. split; [|rewrite live_add_in; intuition congruence].
  destruct (Nat.eq_dec d (fst a)) as [->|Hne].
  - split; [|intros [_ H]; now elim H].
    destruct (snd a); [destruct (lw (fst a)) eqn:E|..]; rewrite ?lw_upd_same; congruence.
  - assert (Hd : fst a <> d) by congruence.
    destruct (snd a); [destruct (lw (fst a))|..]; rewrite ?lw_upd_other by exact Hne;
      (split; [intros H; now split|now intros [H _]]).
Qed.

Lemma touch_fold r : forall t lw live d, let st := fold_left (touch owner r) t (lw, live) in
  (fst st d = None <-> lw d = None /\ touches t d = false) /\ (In d (snd st) <-> In d live \/ touches t d = true).
Proof.
  induction t as [|a t IH]; intros lw live d; cbn [fold_left].
  - cbn. intuition discriminate.
  - rewrite (surjective_pairing (touch owner r (lw, live) a)).
    destruct (IH (fst (touch owner r (lw, live) a)) (snd (touch owner r (lw, live) a)) d) as [H1 H2].
    destruct (touch_one r lw live a d) as [T1 T2]. cbv zeta in *. rewrite H1, H2, T1, T2.
    change (touches (a :: t) d) with (Nat.eqb (fst a) d || touches t d).
    rewrite orb_false_iff, orb_true_iff, Nat.eqb_neq, Nat.eqb_eq. split; [apply and_assoc|apply or_assoc].
Qed.

Record CI (c : cst) : Prop := {
  J1 : forall d, c_lw c d = None -> inpl_all (c_out c) d = true;
  J2 : forall d, c_lw c d <> None -> In d (c_live c) }.

Lemma ci0 : CI cst0.
Proof. constructor; cbn; [reflexivity|congruence]. Qed.

Lemma inpl_step_flush_other x r d0 d : d <> d0 -> inpl_step owner x (FFlush r d0) d = x d.
Proof. intros H. cbn [inpl_step]. apply Nat.eqb_neq in H. now rewrite H. Qed.

Lemma ci_flush_one c d0 : CI c -> CI (flush_one owner c d0) /\ c_lw (flush_one owner c d0) d0 = None /\
  (forall d, c_lw (flush_one owner c d0) d <> None -> c_lw c d <> None /\ d <> d0) /\
  uprog (c_out (flush_one owner c d0)) = uprog (c_out c) /\ c_waits (flush_one owner c d0) = c_waits c.
Proof.
  intros [H1 H2]. unfold flush_one. destruct (c_lw c d0) as [r|] eqn:El.
  - split; [constructor|split; [|split; [|split]]]; cbn [c_out c_lw c_live c_waits].
    + intros d Hd. rewrite fold_left_app. destruct (Nat.eq_dec d d0) as [->|Hne].
      * rewrite fold_left_app. cbn [fold_left inpl_step]. now rewrite !Nat.eqb_refl.
      * rewrite lw_upd_other in Hd by exact Hne.
        destruct (Nat.eqb r (owner d0)); cbn [app fold_left]; rewrite !inpl_step_flush_other by exact Hne; now apply H1.
    + intros d Hd. destruct (Nat.eq_dec d d0) as [->|Hne]; [rewrite lw_upd_same in Hd; congruence|].
      rewrite lw_upd_other in Hd by exact Hne. apply live_del_in. split; [now apply H2|exact Hne].
    + apply lw_upd_same.
    + intros d Hd. destruct (Nat.eq_dec d d0) as [->|Hne]; [rewrite lw_upd_same in Hd; congruence|].
      rewrite lw_upd_other in Hd by exact Hne. now split.
    + rewrite uprog_app. destruct (Nat.eqb r (owner d0)); cbn; now rewrite app_nil_r.
    + reflexivity.
  - split; [constructor|split; [|split; [|split]]]; cbn [c_out c_lw c_live c_waits]; auto.
    + intros d Hd. apply live_del_in. split; [now apply H2|]. intros ->. congruence.
    + intros d Hd. split; [exact Hd|]. intros ->. congruence.
Qed.

Lemma ci_flush_all : forall l c, CI c -> (forall d, c_lw c d <> None -> In d l) ->
  let c' := fold_left (flush_one owner) l c in
  CI c' /\ (forall d, c_lw c' d = None) /\ uprog (c_out c') = uprog (c_out c) /\ c_waits c' = c_waits c.
Proof.
  induction l as [|a l IH]; intros c HC Hl; cbn [fold_left].
  - split; [exact HC|split; [|split; reflexivity]].
    intros d. destruct (c_lw c d) eqn:E; [|reflexivity]. exfalso. apply (Hl d). congruence.
  - destruct (ci_flush_one c a HC) as (HC' & Hn & Hk & Hu & Hw).
    destruct (IH (flush_one owner c a) HC') as (Ha & Hb & Hc & Hd).
    + intros d Hd. destruct (Hk d Hd) as [H1 H2]. destruct (Hl d H1) as [<-|H]; [congruence|exact H].
    + split; [exact Ha|split; [exact Hb|split; congruence]].
Qed.

Lemma ci_step c o : CI c -> CI (cstep owner c o) /\
  uprog (c_out (cstep owner c o)) = uprog (c_out c) ++ utasks [o].
Proof.
  intros HC. pose proof HC as [H1 H2]. destruct o as [r t|d| |]; cbn [cstep utasks flat_map app].
  - split; [|cbn [c_out]; now rewrite uprog_app].
    constructor; cbn [c_out c_lw c_live]; intros d Hd; destruct (touch_fold r t (c_lw c) (c_live c) d) as [Ha Hb].
    + apply Ha in Hd. destruct Hd as [Hl Ht]. rewrite fold_left_app. cbn [fold_left inpl_step].
      assert (Hw : writes t d = false).
      { destruct (writes t d) eqn:E; [|reflexivity]. apply writes_touches in E. congruence. }
      rewrite Hw. cbn [andb]. now apply H1.
    + apply Hb. destruct (touches t d) eqn:Et; [now right|left]. apply H2. intros Hl. apply Hd, Ha. now split.
  - destruct (ci_flush_one c d HC) as (HC' & _ & _ & Hu & _). split; [exact HC'|now rewrite Hu, app_nil_r].
  - destruct (ci_flush_all (c_live c) c HC H2) as (HC' & _ & Hu & _). split; [exact HC'|now rewrite Hu, app_nil_r].
  - split; [constructor; cbn [c_out c_lw c_live]; auto|cbn [c_out]; now rewrite app_nil_r].
Qed.

Lemma ci_compile_from : forall ops c, CI c ->
  CI (fold_left (cstep owner) ops c) /\ uprog (c_out (fold_left (cstep owner) ops c)) = uprog (c_out c) ++ utasks ops.
Proof.
  induction ops as [|o ops IH]; intros c HC; cbn [fold_left].
  - split; [exact HC|]. cbn. now rewrite app_nil_r.
  - destruct (ci_step c o HC) as [HC' Hu]. destruct (IH _ HC') as [Ha Hb]. split; [exact Ha|].
    rewrite Hb, Hu, <- app_assoc. f_equal. unfold utasks. cbn [flat_map]. now rewrite app_nil_r.
Qed.

Theorem compile_ci ops : CI (compile owner ops).
Proof. apply ci_compile_from. apply ci0. Qed.

(* the user tasks of what is inserted are the tasks of the application, in order *)
Theorem compile_uprog ops : uprog (c_out (compile owner ops)) = utasks ops.
Proof. unfold compile. destruct (ci_compile_from ops cst0 ci0) as [_ H]. exact H. Qed.

(* after parsec_dtd_data_flush(d): the version of d is the owner's storage *)
Theorem compile_flush_clean ops d :
  let c := compile owner (ops ++ [OFlush d]) in inpl owner (c_out c) (length (c_out c)) d = true.
Proof.
  cbv zeta. rewrite inpl_full. unfold compile. rewrite fold_left_app. cbn [fold_left cstep].
  destruct (ci_flush_one (fold_left (cstep owner) ops cst0) d (compile_ci ops)) as ([H1 _] & Hn & _).
  now apply H1.
Qed.

(* after parsec_dtd_data_flush_all (and a wait): every tile's version is the owner's storage *)
Theorem compile_flush_all_clean ops tail : (forall o, In o tail -> o = OWait) -> forall d,
  let c := compile owner (ops ++ OFlushAll :: tail) in inpl owner (c_out c) (length (c_out c)) d = true.
Proof.
  intros Ht d. cbv zeta. rewrite inpl_full. unfold compile. rewrite fold_left_app. cbn [fold_left cstep].
  pose proof (compile_ci ops) as HC. unfold compile in HC.
  destruct (ci_flush_all (c_live (fold_left (cstep owner) ops cst0)) _ HC (J2 _ HC)) as ([H1 _] & Hn & _).
  set (c1 := fold_left (flush_one owner) (c_live (fold_left (cstep owner) ops cst0)) (fold_left (cstep owner) ops cst0)) in *.
  assert (Hw : forall tl c, (forall o, In o tl -> o = OWait) -> c_out (fold_left (cstep owner) tl c) = c_out c).
  { induction tl as [|o tl IH]; intros c Hall; cbn [fold_left]; [reflexivity|].
    rewrite IH by (intros; apply Hall; now right). rewrite (Hall o (or_introl eq_refl)). reflexivity. }
  rewrite (Hw tail c1 Ht). apply H1. apply Hn.
Qed.
End Compile.
