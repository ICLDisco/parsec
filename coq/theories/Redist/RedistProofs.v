(* Two-dimensional decomposition (products of row and column intervals), the
   element-level result of running the copies, and its equality with the
   specification of parsec_redistribute. *)
From Coq Require Import ZArith List Bool Lia FinFun.
From PV Require Import Base.ListX Redist.RedistDefs Redist.RedistDim.
Import ListNotations.
Local Open Scope Z_scope.

Lemma wf_facts c : wf c ->
  wf1 (rd c) /\ wf1 (cd c) /\ 0 < num_cols c /\
  dY (rd c) + sz (rd c) <= lmtY c * bY (rd c) /\ dY (cd c) + sz (cd c) <= lntY c * bY (cd c) /\
  dT (rd c) + sz (rd c) <= lmtT c * bT (rd c) /\ dT (cd c) + sz (cd c) <= lntT c * bT (cd c).
Proof.
  intros (Ha & B1 & B2 & B3 & B4). unfold accept in Ha.
  repeat (apply andb_true_iff in Ha; destruct Ha as [Ha ?]).
  repeat match goal with H : negb _ = true |- _ => apply negb_true_iff in H end.
  repeat match goal with H : (_ || _) = false |- _ => apply orb_false_iff in H; destruct H end.
  repeat match goal with
         | H : (_ <? _) = false |- _ => apply Z.ltb_ge in H
         | H : (_ >? _) = false |- _ => rewrite Z.gtb_ltb in H; apply Z.ltb_ge in H
         | H : (_ <=? _) = false |- _ => apply Z.leb_gt in H end.
  unfold wf1. repeat split; lia.
Qed.

Lemma START_le_END d : wf1 d -> t_START d <= t_END d.
Proof.
  intros (_ & HbT & Hsz & _ & HdT). unfold t_START, t_END. apply Z.div_le_mono; lia.
Qed.

(* either path, over any enumeration of the target tile indices of one dimension; the optimized
   path is taken only for equal tile sizes and aligned displacements *)
Lemma segs_exact d ts (reshuffle : bool) :
  wf1 d -> NoDup ts -> (forall t, In t ts <-> t_START d <= t <= t_END d) ->
  (reshuffle = true -> bY d = bT d /\ dY d mod bY d = 0 /\ dT d mod bT d = 0) ->
  exact1 d (if reshuffle then rs_segs d ts else gen_segs d ts).
Proof.
  intros Hwf Hnd Hts Hrs. destruct reshuffle.
  - destruct (Hrs eq_refl) as (Eb & EY & ET). apply rs_exact1; assumption.
  - apply gen_exact1; assumption.
Qed.

Lemma use_reshuffle_true c : use_reshuffle c = true ->
  (bY (rd c) = bT (rd c) /\ dY (rd c) mod bY (rd c) = 0 /\ dT (rd c) mod bT (rd c) = 0) /\
  (bY (cd c) = bT (cd c) /\ dY (cd c) mod bY (cd c) = 0 /\ dT (cd c) mod bT (cd c) = 0).
Proof.
  unfold use_reshuffle. intros E. repeat (apply andb_true_iff in E; destruct E as [E ?]).
  repeat match goal with H : (_ =? _) = true |- _ => apply Z.eqb_eq in H end. tauto.
Qed.

Lemma row_exact c : wf c -> exact1 (rd c) (row_segs c).
Proof.
  intros Hwf. destruct (wf_facts c Hwf) as (W1 & _).
  apply segs_exact; [exact W1|apply NoDup_zrange|intros t; apply in_zrange|].
  intros E. apply (use_reshuffle_true c E).
Qed.

Lemma col_exact c : wf c -> exact1 (cd c) (col_segs c).
Proof.
  intros Hwf. destruct (wf_facts c Hwf) as (_ & W2 & Hnc & _).
  unfold col_segs, col_ts. rewrite batch_ts_eq by (try exact Hnc; apply START_le_END; exact W2).
  apply segs_exact; [exact W2|apply NoDup_zrange|intros t; apply in_zrange|].
  intros E. apply (use_reshuffle_true c E).
Qed.

Lemma in_rect_cells c r ti tj si sj :
  In ((ti, tj), (si, sj)) (rect_cells c r) <->
  In (ti, si) (seg_cells (rd c) (fst r)) /\ In (tj, sj) (seg_cells (cd c) (snd r)).
Proof.
  unfold rect_cells. rewrite in_map_iff. split.
  - intros ([[a b] [a' b']] & E & H). cbn in E. injection E as -> -> -> ->.
    apply in_prod_iff in H. exact H.
  - intros H. exists ((ti, si), (tj, sj)). split; [reflexivity|]. apply in_prod_iff. exact H.
Qed.

Lemma in_cells c ti tj si sj :
  In ((ti, tj), (si, sj)) (cells c) <->
  exists r s, In r (row_segs c) /\ In s (col_segs c) /\
              In (ti, si) (seg_cells (rd c) r) /\ In (tj, sj) (seg_cells (cd c) s).
Proof.
  unfold cells, copies. rewrite in_flat_map. split.
  - intros ([r s] & Hp & Hc). apply in_prod_iff in Hp. apply in_rect_cells in Hc. cbn in Hc.
    exists r, s. tauto.
  - intros (r & s & Hr & Hs & H1 & H2). exists (r, s). split; [apply in_prod_iff; auto|].
    apply in_rect_cells. auto.
Qed.

(* the element writes are exactly the window, each from the position the specification names *)
Lemma cells_exact c ti tj si sj :
  wf c ->
  (In ((ti, tj), (si, sj)) (cells c) <->
   dT (rd c) <= ti < dT (rd c) + sz (rd c) /\ dT (cd c) <= tj < dT (cd c) + sz (cd c) /\
   si = ti - dT (rd c) + dY (rd c) /\ sj = tj - dT (cd c) + dY (cd c)).
Proof.
  intros Hwf. destruct (row_exact c Hwf) as (_ & _ & RS & RC & _).
  destruct (col_exact c Hwf) as (_ & _ & CS & CC & _).
  rewrite in_cells. split.
  - intros (r & s & Hr & Hs & H1 & H2).
    destruct (RS r ti si Hr H1). destruct (CS s tj sj Hs H2). tauto.
  - intros (H1 & H2 & -> & ->).
    destruct (RC ti H1) as (r & Hr & Hc1). destruct (CC tj H2) as (s & Hs & Hc2).
    exists r, s. auto.
Qed.

Lemma list_prod_flat_map {A B} (X : list A) (Y : list B) :
  list_prod X Y = flat_map (fun x => map (pair x) Y) X.
Proof. induction X as [|x X IH]; [reflexivity|]. cbn. rewrite IH. reflexivity. Qed.

Lemma NoDup_list_prod {A B} (X : list A) (Y : list B) : NoDup X -> NoDup Y -> NoDup (list_prod X Y).
Proof.
  intros HX HY. rewrite list_prod_flat_map. apply NoDup_flat_map; [exact HX| |].
  - intros a _. apply Injective_map_NoDup; [|exact HY]. intros u v E. injection E. auto.
  - intros a b p _ _ Hne Ha Hb. apply in_map_iff in Ha. apply in_map_iff in Hb.
    destruct Ha as (u & <- & _). destruct Hb as (v & E & _). injection E as E _. auto.
Qed.

Lemma map_list_prod {A B KA KB} (ka : A -> KA) (kb : B -> KB) X Y :
  map (fun p => (ka (fst p), kb (snd p))) (list_prod X Y) = list_prod (map ka X) (map kb Y).
Proof.
  induction X as [|x X IH]; [reflexivity|].
  cbn [list_prod map]. rewrite map_app, IH, !map_map. reflexivity.
Qed.

Lemma NoDup_prod_key {A B KA KB} (ka : A -> KA) (kb : B -> KB) X Y :
  NoDup (map ka X) -> NoDup (map kb Y) ->
  NoDup (map (fun p => (ka (fst p), kb (snd p))) (list_prod X Y)).
Proof. intros HX HY. rewrite map_list_prod. apply NoDup_list_prod; assumption. Qed.

Lemma NoDup_copies c : wf c -> NoDup (copies c).
Proof.
  intros Hwf. apply NoDup_list_prod; [apply (row_exact c Hwf)|apply (col_exact c Hwf)].
Qed.

(* two different sub-blocks never write the same target entry *)
Lemma copies_disjoint c r1 r2 i j u v :
  wf c -> In r1 (copies c) -> In r2 (copies c) ->
  In ((i, j), u) (rect_cells c r1) -> In ((i, j), v) (rect_cells c r2) -> r1 = r2.
Proof.
  intros Hwf H1 H2 C1 C2. destruct r1 as [a1 b1], r2 as [a2 b2], u as [u1 u2], v as [v1 v2].
  unfold copies in *. apply in_prod_iff in H1. apply in_prod_iff in H2.
  apply in_rect_cells in C1. apply in_rect_cells in C2. cbn in C1, C2.
  destruct (row_exact c Hwf) as (_ & _ & _ & _ & RD). destruct (col_exact c Hwf) as (_ & _ & _ & _ & CD).
  f_equal; [eapply RD|eapply CD]; try tauto; [apply C1|apply C2|apply C1|apply C2].
Qed.

Definition hit (i j : Z) (w : (Z * Z) * (Z * Z)) : bool := (fst (fst w) =? i) && (snd (fst w) =? j).

Lemma hit_true i j w : hit i j w = true <-> fst w = (i, j).
Proof.
  unfold hit. destruct w as [[a b] u]. cbn. rewrite andb_true_iff, !Z.eqb_eq. split.
  - intros [-> ->]. reflexivity.
  - intros E. injection E. auto.
Qed.

Lemma exec_char ws src T i j v :
  (forall w, In w ws -> fst w = (i, j) -> src (fst (snd w)) (snd (snd w)) = v) ->
  exec ws src T i j = if existsb (hit i j) ws then v else T i j.
Proof.
  unfold exec. revert T. induction ws as [|w ws IH]; intros T H; [reflexivity|].
  cbn [fold_left existsb]. rewrite IH by (intros w' Hw'; apply H; right; exact Hw').
  destruct (existsb (hit i j) ws); [rewrite orb_true_r; reflexivity|]. rewrite orb_false_r.
  unfold write. fold (hit i j w). destruct (hit i j w) eqn:E; [|reflexivity].
  apply H; [left; reflexivity|apply hit_true; exact E].
Qed.

Lemma in_window_true c i j :
  in_window c i j = true <->
  dT (rd c) <= i < dT (rd c) + sz (rd c) /\ dT (cd c) <= j < dT (cd c) + sz (cd c).
Proof.
  unfold in_window. rewrite !andb_true_iff, !Z.leb_le, !Z.ltb_lt. tauto.
Qed.

(* the run of the element writes, in whatever order the sub-blocks are copied, is the
   specification: an entry of the window is written, from the position the specification names,
   and no other entry is *)
Lemma exec_any_order c ws src tgt i j :
  wf c -> (forall w, In w ws <-> In w (cells c)) -> exec ws src tgt i j = spec c src tgt i j.
Proof.
  intros Hwf Hperm. unfold spec.
  rewrite (exec_char ws src tgt i j
             (src (i - dT (rd c) + dY (rd c)) (j - dT (cd c) + dY (cd c)))).
  - destruct (in_window c i j) eqn:W.
    + apply in_window_true in W.
      replace (existsb (hit i j) ws) with true; [reflexivity|].
      symmetry. apply existsb_exists.
      exists ((i, j), (i - dT (rd c) + dY (rd c), j - dT (cd c) + dY (cd c))). split.
      * apply Hperm. apply cells_exact; [exact Hwf|tauto].
      * apply hit_true. reflexivity.
    + destruct (existsb (hit i j) ws) eqn:X; [|reflexivity]. exfalso.
      apply existsb_exists in X. destruct X as ([[a b] [u v]] & Hin & Hh).
      apply hit_true in Hh. cbn in Hh. injection Hh as -> ->.
      apply Hperm in Hin. apply cells_exact in Hin; [|exact Hwf].
      assert (in_window c i j = true) by (apply in_window_true; tauto). congruence.
  - intros [[a b] [u v]] Hin E. cbn in E. injection E as -> ->. cbn.
    apply Hperm in Hin. apply cells_exact in Hin; [|exact Hwf]. destruct Hin as (_ & _ & -> & ->). reflexivity.
Qed.

Lemma exec_spec c src tgt i j : wf c -> exec (cells c) src tgt i j = spec c src tgt i j.
Proof. intros Hwf. apply exec_any_order; [exact Hwf|tauto]. Qed.

Lemma lookup_exec ws src tgt i j : lookup ws src tgt i j = exec ws src tgt i j.
Proof.
  unfold lookup, exec. induction ws as [|w ws IH] using rev_ind; [reflexivity|].
  rewrite rev_app_distr, fold_left_app. cbn [rev app find fold_left].
  unfold write at 1. destruct ((fst (fst w) =? i) && (snd (fst w) =? j)); [reflexivity|exact IH].
Qed.

(* every copied sub-block lies inside one source tile and one target tile that exist *)
Lemma seg_in_matrix d l s nY nT :
  wf1 d -> exact1 d l -> dY d + sz d <= nY * bY d -> dT d + sz d <= nT * bT d -> In s l ->
  seg_in_tiles d s /\ 0 <= s_t s < nT /\ 0 <= s_y s < nY.
Proof.
  intros (HbY & HbT & Hsz & HdY & HdT) (_ & HB & HS & _) HY HT Hs.
  pose proof (HB s Hs) as B. split; [exact B|]. destruct B as (B1 & B2 & B3 & B4 & B5).
  destruct (HS s (s_t s * bT d + s_dst s + 0) (s_y s * bY d + s_src s + 0) Hs) as (G & E).
  { apply in_seg_cells. exists 0. lia. }
  nia.
Qed.

Lemma refused c src tgt : accept c = false -> redistribute c src tgt = (false, tgt).
Proof. intros H. unfold redistribute. rewrite H. reflexivity. Qed.
