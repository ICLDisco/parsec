(* Executable model of the matrix redistribution
   (parsec/data_dist/matrix/redistribute/redistribute_wrapper.c, redistribute.jdf,
   redistribute_reshuffle.jdf, redistribute_internal.h), NO proofs.

   The two JDFs treat rows and columns with the same integer arithmetic, so the
   model has a one-dimensional core ([dim], [seg]) and the two-dimensional
   decomposition is the product of the row segments and the column segments,
   exactly as CORE_redistribute_update nests its row case split and its column
   case split.  R (ghost radius) is 0 as in parsec_redistribute_New.

   All divisions of the C text have non-negative dividends and positive divisors
   once the wrapper has accepted the parameters (Properties_C21.C21_c_division_agrees), so
   C's truncating / and % coincide with Z.div and Z.modulo. *)
From Coq Require Import ZArith List Bool.
Import ListNotations.
Local Open Scope Z_scope.

(* lo .. hi, both inclusive (a JDF range); empty when hi < lo *)
Definition zrange (lo hi : Z) : list Z :=
  map (fun k => lo + Z.of_nat k) (seq 0 (Z.to_nat (hi - lo + 1))).

(* ---- one dimension ------------------------------------------------------ *)
Record dim := mkDim {
  bY : Z;   (* tile size of the source: descY->mb / nb            *)
  bT : Z;   (* tile size of the target: descT->mb / nb            *)
  sz : Z;   (* size_row / size_col                                 *)
  dY : Z;   (* disi_Y / disj_Y                                     *)
  dT : Z    (* disi_T / disj_T                                     *)
}.

(* one copied interval: tile indices, offsets inside the two tiles, length *)
Record seg := mkSeg { s_t : Z; s_y : Z; s_src : Z; s_dst : Z; s_len : Z }.

(* redistribute_internal.h: getsize *)
Definition getsize (index index_start index_end mb size dis : Z) : Z :=
  if index_start =? index_end then size
  else if index =? index_start then mb - dis
  else if index =? index_end then size + dis - (index_end - index_start) * mb
  else mb.

(* redistribute.jdf globals: m_T_START = disi_T/mb_T_INNER, m_T_END = (size_row+disi_T-1)/mb_T_INNER *)
Definition t_START (d : dim) : Z := dT d / bT d.
Definition t_END (d : dim) : Z := (sz d + dT d - 1) / bT d.

(* locals of Send / Update / Receive *)
Definition t_inner (d : dim) (t : Z) : Z :=               (* mb_T_inner *)
  getsize t (t_START d) (t_END d) (bT d) (sz d) (dT d mod bT d).
Definition size_T (d : dim) (t : Z) : Z :=                (* sizei_T *)
  (t - t_START d) * bT d - dT d mod bT d.
Definition i_start (d : dim) (t : Z) : Z :=
  if t =? t_START d then dY d mod bY d else (size_T d t + dY d) mod bY d.
Definition y_start (d : dim) (t : Z) : Z :=               (* m_Y_start *)
  if t =? t_START d then dY d / bY d else (size_T d t + dY d) / bY d.
Definition y_end (d : dim) (t : Z) : Z :=                 (* m_Y_end *)
  if t =? t_START d then (dY d + t_inner d t - 1) / bY d
  else (size_T d t + dY d + t_inner d t - 1) / bY d.
Definition TL (d : dim) (t : Z) : Z := Z.min (t_inner d t) (bY d - i_start d t).
Definition BR (d : dim) (t : Z) : Z := (i_start d t + t_inner d t - 1) mod bY d + 1.
(* body of Update: offset_row = (m_T == m_T_START)? disi_T % mb_T_INNER : 0 *)
Definition offset (d : dim) (t : Z) : Z := if t =? t_START d then dT d mod bT d else 0.

(* CORE_redistribute_update projected on one dimension: which interval of the
   source tile y goes where in the target tile.  Arguments in the order
   m_Y m_Y_start m_Y_end i_start TL_row BR_row mb_Y_INNER offset_row;
   result (offset in the source tile, offset in the target tile, length). *)
Definition upd_seg (y ys ye i0 tl br b off : Z) : option (Z * Z * Z) :=
  if y =? ys then Some (i0, off, tl)
  else if (ys <? y) && (y <? ye) then Some (0, off + tl + (y - ys - 1) * b, b)
  else if (y =? ye) && negb (ys =? ye) then Some (0, off + tl + (ye - ys - 1) * b, br)
  else None.

Definition seg_of (d : dim) (t y : Z) : list seg :=
  match upd_seg y (y_start d t) (y_end d t) (i_start d t) (TL d t) (BR d t) (bY d) (offset d t) with
  | Some (src, dst, len) => [mkSeg t y src dst len]
  | None => []
  end.
(* m_Y = m_Y_start .. m_Y_end *)
Definition tile_segs (d : dim) (t : Z) : list seg :=
  flat_map (seg_of d t) (zrange (y_start d t) (y_end d t)).
(* general path, over the target tile indices [ts] *)
Definition gen_segs (d : dim) (ts : list Z) : list seg := flat_map (tile_segs d) ts.

(* redistribute_reshuffle.jdf, Receive: m_Y = m_T - m_T_START + m_Y_START,
   mb = (m_T == m_T_END)? imin(descT->mb, size_row-(m_T_END-m_T_START)*descT->mb) : descT->mb,
   copy of the leading mb entries of the source tile onto the target tile *)
Definition rs_len (d : dim) (t : Z) : Z :=
  if t =? t_END d then Z.min (bT d) (sz d - (t_END d - t_START d) * bT d) else bT d.
Definition rs_seg (d : dim) (t : Z) : seg :=
  mkSeg t (t - t_START d + dY d / bY d) 0 0 (rs_len d t).
Definition rs_segs (d : dim) (ts : list Z) : list seg := map (rs_seg d) ts.

(* the JDF ranges of the target tile index: rows m_T = m_T_START .. m_T_END;
   columns by batches: batch_col = 0 .. NT,
   n_T = batch_col*num_col+n_T_START .. imin((batch_col+1)*num_col+n_T_START-1, n_T_END),
   with NT = (n_T_END-n_T_START)/num_col set by the wrapper *)
Definition row_ts (d : dim) : list Z := zrange (t_START d) (t_END d).
Definition batch_ts (tstart tend nc : Z) : list Z :=
  flat_map (fun b => zrange (b * nc + tstart) (Z.min ((b + 1) * nc + tstart - 1) tend))
           (zrange 0 ((tend - tstart) / nc)).
Definition col_ts (d : dim) (nc : Z) : list Z := batch_ts (t_START d) (t_END d) nc.

(* ---- two dimensions ----------------------------------------------------- *)
Record cfg := mkCfg {
  rd : dim;            (* rows    *)
  cd : dim;            (* columns *)
  lmtY : Z; lntY : Z;  (* tiles of the source descriptor: dcY->lmt, dcY->lnt *)
  lmtT : Z; lntT : Z;  (* tiles of the target descriptor *)
  ncY : Z; ncT : Z     (* redistribute_distribution_num_cols of source / target (block cyclic: grid.cols*grid.kcols) *)
}.

(* redistribute_pair_num_cols, block-cyclic pair *)
Definition num_cols (c : cfg) : Z :=
  if (ncY c <=? 0) || (ncT c <=? 0) then -1 else if ncY c >=? ncT c then ncY c else ncT c.

(* parameter checks of parsec_redistribute_New, in order (block-cyclic descriptors: every tile is stored) *)
Definition accept (c : cfg) : bool :=
  negb ((sz (rd c) <? 1) || (sz (cd c) <? 1))
  && negb ((dY (rd c) <? 0) || (dY (cd c) <? 0) || (dT (rd c) <? 0) || (dT (cd c) <? 0))
  && negb ((dY (rd c) + sz (rd c) >? lmtY c * bY (rd c)) || (dY (cd c) + sz (cd c) >? lntY c * bY (cd c)))
  && negb ((dT (rd c) + sz (rd c) >? lmtT c * bT (rd c)) || (dT (cd c) + sz (cd c) >? lntT c * bT (cd c)))
  && negb (num_cols c <=? 0).

(* the optimized version is chosen when tile sizes agree and all four displacements are tile aligned *)
Definition use_reshuffle (c : cfg) : bool :=
  (bY (rd c) =? bT (rd c)) && (bY (cd c) =? bT (cd c))
  && (dY (rd c) mod bY (rd c) =? 0) && (dY (cd c) mod bY (cd c) =? 0)
  && (dT (rd c) mod bT (rd c) =? 0) && (dT (cd c) mod bT (cd c) =? 0).

Definition row_segs (c : cfg) : list seg :=
  if use_reshuffle c then rs_segs (rd c) (row_ts (rd c)) else gen_segs (rd c) (row_ts (rd c)).
Definition col_segs (c : cfg) : list seg :=
  if use_reshuffle c then rs_segs (cd c) (col_ts (cd c) (num_cols c))
  else gen_segs (cd c) (col_ts (cd c) (num_cols c)).

(* the copied sub-blocks: (row interval, column interval) *)
Definition copies (c : cfg) : list (seg * seg) := list_prod (row_segs c) (col_segs c).

(* global (index in the target, index in the source) of every entry of one interval *)
Definition seg_cells (d : dim) (s : seg) : list (Z * Z) :=
  map (fun k => (s_t s * bT d + s_dst s + k, s_y s * bY d + s_src s + k)) (zrange 0 (s_len s - 1)).
Definition cells1 (d : dim) (l : list seg) : list (Z * Z) := flat_map (seg_cells d) l.

(* ((target i, target j), (source i, source j)) of every entry of one sub-block *)
Definition rect_cells (c : cfg) (r : seg * seg) : list ((Z * Z) * (Z * Z)) :=
  map (fun p => ((fst (fst p), fst (snd p)), (snd (fst p), snd (snd p))))
      (list_prod (seg_cells (rd c) (fst r)) (seg_cells (cd c) (snd r))).
Definition cells (c : cfg) : list ((Z * Z) * (Z * Z)) := flat_map (rect_cells c) (copies c).

(* ---- hypotheses of the theorems ----------------------------------------- *)
(* one dimension: positive tile sizes, and what the wrapper checks *)
Definition wf1 (d : dim) : Prop := 0 < bY d /\ 0 < bT d /\ 1 <= sz d /\ 0 <= dY d /\ 0 <= dT d.
(* two dimensions: the wrapper accepted the call; descriptors have positive tile sizes *)
Definition wf (c : cfg) : Prop :=
  accept c = true /\ 0 < bY (rd c) /\ 0 < bT (rd c) /\ 0 < bY (cd c) /\ 0 < bT (cd c).
(* an interval stays inside its source tile and its target tile, and is not empty *)
Definition seg_in_tiles (d : dim) (s : seg) : Prop :=
  1 <= s_len s /\ 0 <= s_src s /\ s_src s + s_len s <= bY d /\ 0 <= s_dst s /\ s_dst s + s_len s <= bT d.

(* ---- element level ------------------------------------------------------ *)
Definition mat := Z -> Z -> Z.

(* specification: the window of the source lands at the target displacement, the rest is unchanged *)
Definition in_window (c : cfg) (i j : Z) : bool :=
  (dT (rd c) <=? i) && (i <? dT (rd c) + sz (rd c)) && (dT (cd c) <=? j) && (j <? dT (cd c) + sz (cd c)).
Definition spec (c : cfg) (src tgt : mat) : mat :=
  fun i j => if in_window c i j then src (i - dT (rd c) + dY (rd c)) (j - dT (cd c) + dY (cd c)) else tgt i j.

(* implementation model: the element writes, one after the other (any order of the list) *)
Definition write (src : mat) (T : mat) (w : (Z * Z) * (Z * Z)) : mat :=
  fun i j => if (fst (fst w) =? i) && (snd (fst w) =? j) then src (fst (snd w)) (snd (snd w)) else T i j.
Definition exec (ws : list ((Z * Z) * (Z * Z))) (src tgt : mat) : mat := fold_left (write src) ws tgt.

(* parsec_redistribute: PARSEC_ERR_NOT_SUPPORTED and an untouched target when the wrapper refuses *)
Definition redistribute (c : cfg) (src tgt : mat) : bool * mat :=
  if accept c then (true, exec (cells c) src tgt) else (false, tgt).

(* the same element, read off the list of writes (last write wins), for the driver *)
Definition lookup (ws : list ((Z * Z) * (Z * Z))) (src tgt : mat) : mat :=
  fun i j => match find (fun w => (fst (fst w) =? i) && (snd (fst w) =? j)) (rev ws) with
             | Some w => src (fst (snd w)) (snd (snd w))
             | None => tgt i j
             end.

(* test patterns of the harness *)
Definition pat_src : mat := fun i j => (i + 1) * 1000 + j.
Definition pat_tgt : mat := fun i j => - ((i + 1) * 1000 + j).

(* observation of a run: acceptance and the target over its padded extent, row major *)
Definition observe (c : cfg) : bool * list Z :=
  let rows := lmtT c * bT (rd c) in
  let cols := lntT c * bT (cd c) in
  if accept c then
    let ws := rev (cells c) in
    (true, flat_map (fun i => map (fun j =>
              match find (fun w => (fst (fst w) =? i) && (snd (fst w) =? j)) ws with
              | Some w => pat_src (fst (snd w)) (snd (snd w))
              | None => pat_tgt i j
              end) (zrange 0 (cols - 1))) (zrange 0 (rows - 1)))
  else (false, flat_map (fun i => map (fun j => pat_tgt i j) (zrange 0 (cols - 1))) (zrange 0 (rows - 1))).
