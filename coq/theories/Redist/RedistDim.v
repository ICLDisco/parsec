(* One-dimensional core of the redistribution model: the intervals produced by
   redistribute.jdf (general path) and redistribute_reshuffle.jdf (optimized path)
   for one dimension partition the requested window, each interval stays inside
   one source tile and one target tile, and copies from the position the
   specification names.  Also: the column batches enumerate every target tile
   column exactly once. *)
From Coq Require Import ZArith List Bool Lia FinFun.
From PV Require Import Base.ListX Redist.RedistDefs.
Import ListNotations.
Local Open Scope Z_scope.

(* division facts with a variable positive divisor, in the form lia/nia can use *)
Lemma divmod_spec a b : 0 < b -> a = b * (a / b) + a mod b /\ 0 <= a mod b < b.
Proof. intros Hb. split. apply Z.div_mod; lia. apply Z.mod_pos_bound; lia. Qed.

Lemma div_between a b q : 0 < b -> b * q <= a < b * (q + 1) -> a / b = q.
Proof. intros Hb H. symmetry. apply Z.div_unique with (r := a - b * q); lia. Qed.

Lemma mod_between a b q : 0 < b -> b * q <= a < b * (q + 1) -> a mod b = a - b * q.
Proof. intros Hb H. symmetry. apply Z.mod_unique with (q := q); lia. Qed.

(* the split of the interval [p, p+L) at the multiples of b, as upd_seg performs it: the tile y
   meets the interval, and gets its part of it, max(p, y*b) .. min(p+L, (y+1)*b) - 1 *)
Lemma upd_seg_spec b p L off y :
  0 < b -> 0 <= p -> 1 <= L -> p / b <= y <= (p + L - 1) / b ->
  exists src dst len,
    upd_seg y (p / b) ((p + L - 1) / b) (p mod b) (Z.min L (b - p mod b))
            ((p mod b + L - 1) mod b + 1) b off = Some (src, dst, len) /\
    y * b <= p + L - 1 /\ p < (y + 1) * b /\
    y * b + src = Z.max p (y * b) /\ y * b + src + len = Z.min (p + L) ((y + 1) * b) /\
    dst = off + (y * b + src - p).
Proof.
  intros Hb Hp HL Hy.
  destruct (divmod_spec p b Hb) as [E1 R1].
  destruct (divmod_spec (p + L - 1) b Hb) as [E2 R2].
  assert (EBR : (p mod b + L - 1) mod b = (p + L - 1) mod b).
  { symmetry. apply Z.mod_unique with (q := (p + L - 1) / b - p / b); lia. }
  rewrite EBR. clear EBR.
  remember (p / b) as q1 eqn:Hq1. remember (p mod b) as r1 eqn:Hr1.
  remember ((p + L - 1) / b) as q2 eqn:Hq2. remember ((p + L - 1) mod b) as r2 eqn:Hr2.
  clear Hq1 Hr1 Hq2 Hr2.
  unfold upd_seg.
  destruct (y =? q1) eqn:Ey.
  - apply Z.eqb_eq in Ey. subst y. do 3 eexists. split; [reflexivity|]. nia.
  - apply Z.eqb_neq in Ey.
    assert (b * (q1 + 1) <= b * y) by nia.
    assert (Z.min L (b - r1) = b - r1) by nia.
    destruct ((q1 <? y) && (y <? q2)) eqn:Em.
    + do 3 eexists. split; [reflexivity|].
      assert (b * (y + 1) <= b * q2) by nia. nia.
    + assert (y = q2) by lia. subst y.
      replace ((q2 =? q2) && negb (q1 =? q2)) with true by lia.
      do 3 eexists. split; [reflexivity|]. nia.
Qed.

Lemma upd_seg_sound b p L off y src dst len :
  0 < b -> 0 <= p -> 1 <= L ->
  p / b <= y <= (p + L - 1) / b ->
  upd_seg y (p / b) ((p + L - 1) / b) (p mod b) (Z.min L (b - p mod b))
          ((p mod b + L - 1) mod b + 1) b off = Some (src, dst, len) ->
  1 <= len /\ 0 <= src /\ src + len <= b /\
  off <= dst /\ dst + len <= off + L /\
  y * b + src = p + (dst - off).
Proof.
  intros Hb Hp HL Hy H.
  destruct (upd_seg_spec b p L off y Hb Hp HL Hy) as (src' & dst' & len' & E & S).
  rewrite H in E. injection E as <- <- <-. lia.
Qed.

Lemma upd_seg_complete b p L off q :
  0 < b -> 0 <= p -> 1 <= L -> p <= q < p + L ->
  p / b <= q / b <= (p + L - 1) / b /\
  exists src dst len,
    upd_seg (q / b) (p / b) ((p + L - 1) / b) (p mod b) (Z.min L (b - p mod b))
            ((p mod b + L - 1) mod b + 1) b off = Some (src, dst, len) /\
    p + (dst - off) <= q < p + (dst - off) + len.
Proof.
  intros Hb Hp HL Hq.
  assert (Hy : p / b <= q / b <= (p + L - 1) / b) by (split; apply Z.div_le_mono; lia).
  split; [exact Hy|].
  destruct (upd_seg_spec b p L off (q / b) Hb Hp HL Hy) as (src & dst & len & E & S).
  exists src, dst, len. split; [exact E|].
  destruct (divmod_spec q b Hb). lia.
Qed.

(* offset of the tile's part inside the window *)
Definition lo (d : dim) (t : Z) : Z := if t =? t_START d then 0 else size_T d t.

(* the last two clauses say that the part is all of the tile that lies in the window: it begins
   where the window or the tile begins, and ends where the window or the tile ends *)
Lemma tile_part d t :
  wf1 d -> t_START d <= t <= t_END d ->
  0 <= lo d t /\ 1 <= t_inner d t /\ lo d t + t_inner d t <= sz d /\
  t * bT d + offset d t = dT d + lo d t /\ 0 <= offset d t /\ offset d t + t_inner d t <= bT d /\
  (lo d t = 0 \/ offset d t = 0) /\ (lo d t + t_inner d t = sz d \/ offset d t + t_inner d t = bT d).
Proof.
  intros (HbY & HbT & Hsz & HdY & HdT) Ht.
  unfold lo, t_inner, size_T, offset, getsize, t_START, t_END in *.
  destruct (divmod_spec (dT d) (bT d) HbT) as [E1 R1].
  destruct (divmod_spec (sz d + dT d - 1) (bT d) HbT) as [E2 R2].
  remember (dT d / bT d) as q1 eqn:Hq1. remember (dT d mod bT d) as r1 eqn:Hr1.
  remember ((sz d + dT d - 1) / bT d) as q2 eqn:Hq2. remember ((sz d + dT d - 1) mod bT d) as r2 eqn:Hr2.
  clear Hq1 Hr1 Hq2 Hr2.
  destruct (t =? q1) eqn:Et; destruct (q1 =? q2) eqn:E12; try destruct (t =? q2) eqn:Et2;
    repeat match goal with H : (_ =? _) = true |- _ => apply Z.eqb_eq in H
                         | H : (_ =? _) = false |- _ => apply Z.eqb_neq in H end; subst; try lia; nia.
Qed.

Lemma tile_part_complete d g :
  wf1 d -> dT d <= g < dT d + sz d ->
  t_START d <= g / bT d <= t_END d /\
  dT d + lo d (g / bT d) <= g < dT d + lo d (g / bT d) + t_inner d (g / bT d).
Proof.
  intros Hwf Hg. pose proof Hwf as (HbY & HbT & Hsz & HdY & HdT).
  assert (Ht : t_START d <= g / bT d <= t_END d)
    by (unfold t_START, t_END; split; apply Z.div_le_mono; lia).
  split; [exact Ht|].
  destruct (tile_part d (g / bT d) Hwf Ht) as (_ & _ & _ & P4 & _ & _ & P7 & P8).
  destruct (divmod_spec g (bT d) HbT). lia.
Qed.

Lemma in_zrange lo hi y : In y (zrange lo hi) <-> lo <= y <= hi.
Proof.
  unfold zrange. rewrite in_map_iff. split.
  - intros (k & <- & Hk). apply in_seq in Hk. lia.
  - intros H. exists (Z.to_nat (y - lo)). split; [lia|]. apply in_seq. lia.
Qed.

Lemma NoDup_zrange lo hi : NoDup (zrange lo hi).
Proof.
  unfold zrange. apply Injective_map_NoDup; [|apply seq_NoDup].
  intros a b H. lia.
Qed.

(* no duplicate keys in a flat_map when the pieces have none and a shared key names the piece *)
Lemma NoDup_flat_map_key {A B K} (key : B -> K) (f : A -> list B) (l : list A) :
  NoDup l ->
  (forall a, In a l -> NoDup (map key (f a))) ->
  (forall a b x y, In a l -> In b l -> In x (f a) -> In y (f b) -> key x = key y -> a = b) ->
  NoDup (map key (flat_map f l)).
Proof.
  intros Hl Hp Hx. rewrite map_flat_map. apply NoDup_flat_map; [exact Hl|exact Hp|].
  intros a b k Ha Hb Hne H1 H2. apply in_map_iff in H1, H2.
  destruct H1 as (x & <- & Hx1), H2 as (y & Hk & Hy). apply Hne, (Hx a b x y); auto.
Qed.

Lemma in_seg_cells d s g h :
  In (g, h) (seg_cells d s) <->
  exists k, 0 <= k < s_len s /\ g = s_t s * bT d + s_dst s + k /\ h = s_y s * bY d + s_src s + k.
Proof.
  unfold seg_cells. rewrite in_map_iff. split.
  - intros (k & E & Hk). apply in_zrange in Hk. injection E as <- <-. exists k. lia.
  - intros (k & Hk & -> & ->). exists k. split; [reflexivity|]. apply in_zrange. lia.
Qed.

Lemma NoDup_seg_cells_fst d s : NoDup (map fst (seg_cells d s)).
Proof.
  unfold seg_cells. rewrite map_map. cbn [fst].
  apply Injective_map_NoDup; [|apply NoDup_zrange]. intros a b H. lia.
Qed.

Definition exact1 (d : dim) (l : list seg) : Prop :=
  NoDup l /\
  (forall s, In s l -> seg_in_tiles d s) /\
  (forall s g h, In s l -> In (g, h) (seg_cells d s) -> dT d <= g < dT d + sz d /\ h = g - dT d + dY d) /\
  (forall g, dT d <= g < dT d + sz d -> exists s, In s l /\ In (g, g - dT d + dY d) (seg_cells d s)) /\
  (forall s1 s2 g h1 h2, In s1 l -> In s2 l -> In (g, h1) (seg_cells d s1) -> In (g, h2) (seg_cells d s2) -> s1 = s2).

(* the JDF expressions of a tile, in terms of the source position of its part *)
Lemma jdf_forms d t :
  i_start d t = (dY d + lo d t) mod bY d /\
  y_start d t = (dY d + lo d t) / bY d /\
  y_end d t = (dY d + lo d t + t_inner d t - 1) / bY d.
Proof.
  unfold i_start, y_start, y_end, lo. destruct (t =? t_START d).
  - rewrite Z.add_0_r. auto.
  - rewrite (Z.add_comm (size_T d t) (dY d)). auto.
Qed.

Lemma in_tile_segs d t s :
  In s (tile_segs d t) <->
  y_start d t <= s_y s <= y_end d t /\ s_t s = t /\
  upd_seg (s_y s) (y_start d t) (y_end d t) (i_start d t) (TL d t) (BR d t) (bY d) (offset d t)
    = Some (s_src s, s_dst s, s_len s).
Proof.
  unfold tile_segs. rewrite in_flat_map. split.
  - intros (y & Hy & Hs). apply in_zrange in Hy. unfold seg_of in Hs.
    destruct (upd_seg y _ _ _ _ _ _ _) as [[[src dst] len]|] eqn:E; [|contradiction].
    destruct Hs as [<-|[]]. cbn. auto.
  - intros (Hy & Ht & E). exists (s_y s). split; [apply in_zrange; exact Hy|].
    unfold seg_of. rewrite E. left. destruct s; cbn in *. subst; reflexivity.
Qed.

Lemma tile_seg_sound d t s :
  wf1 d -> t_START d <= t <= t_END d -> In s (tile_segs d t) ->
  seg_in_tiles d s /\
  forall k, 0 <= k < s_len s ->
    dT d <= t * bT d + s_dst s + k < dT d + sz d /\
    s_y s * bY d + s_src s + k = t * bT d + s_dst s + k - dT d + dY d.
Proof.
  intros Hwf Ht Hs. apply in_tile_segs in Hs. destruct Hs as (Hy & _ & E).
  destruct (tile_part d t Hwf Ht) as (P1 & P2 & P3 & P4 & P5 & P6 & _).
  destruct (jdf_forms d t) as (F1 & F2 & F3).
  unfold TL, BR in E. rewrite F1, F2, F3 in E. rewrite F2, F3 in Hy.
  destruct Hwf as (HbY & HbT & Hsz & HdY & HdT).
  apply upd_seg_sound in E; try lia.
  unfold seg_in_tiles. split; [lia|]. intros k Hk. lia.
Qed.

Lemma tile_seg_complete d g :
  wf1 d -> dT d <= g < dT d + sz d ->
  exists s, In s (tile_segs d (g / bT d)) /\ In (g, g - dT d + dY d) (seg_cells d s).
Proof.
  intros Hwf Hg.
  destruct (tile_part_complete d g Hwf Hg) as (Ht & Hlo).
  set (t := g / bT d) in *.
  destruct (tile_part d t Hwf Ht) as (P1 & P2 & P3 & P4 & P5 & P6 & _).
  destruct (jdf_forms d t) as (F1 & F2 & F3).
  pose proof Hwf as (HbY & HbT & Hsz & HdY & HdT).
  destruct (upd_seg_complete (bY d) (dY d + lo d t) (t_inner d t) (offset d t) (g - dT d + dY d))
    as (Hy & src & dst & len & E & Hq); try lia.
  exists (mkSeg t ((g - dT d + dY d) / bY d) src dst len). split.
  - apply in_tile_segs. cbn. unfold TL, BR. rewrite F1, F2, F3. auto.
  - apply in_seg_cells. cbn. exists (g - (t * bT d + dst)).
    apply upd_seg_sound in E; lia.
Qed.

Lemma seg_eq s1 s2 :
  s_t s1 = s_t s2 -> s_y s1 = s_y s2 -> s_src s1 = s_src s2 -> s_dst s1 = s_dst s2 -> s_len s1 = s_len s2 -> s1 = s2.
Proof. destruct s1, s2; cbn; intros; subst; reflexivity. Qed.

Lemma NoDup_tile_segs d t : NoDup (tile_segs d t).
Proof.
  unfold tile_segs. apply NoDup_flat_map.
  - apply NoDup_zrange.
  - intros y _. unfold seg_of.
    destruct (upd_seg _ _ _ _ _ _ _ _) as [[[? ?] ?]|]; repeat constructor; intros [].
  - intros a b x _ _ Hne Hx Hy. unfold seg_of in *.
    destruct (upd_seg a _ _ _ _ _ _ _) as [[[? ?] ?]|]; [|contradiction].
    destruct (upd_seg b _ _ _ _ _ _ _) as [[[? ?] ?]|]; [|contradiction].
    destruct Hx as [<-|[]]. destruct Hy as [E|[]]. congruence.
Qed.

Lemma in_gen_segs d ts s : In s (gen_segs d ts) <-> In (s_t s) ts /\ In s (tile_segs d (s_t s)).
Proof.
  unfold gen_segs. rewrite in_flat_map. split.
  - intros (t & Ht & Hs). pose proof Hs as Hs'. apply in_tile_segs in Hs'. destruct Hs' as (_ & E & _).
    rewrite E. auto.
  - intros (Ht & Hs). eauto.
Qed.

Lemma NoDup_gen_segs d ts : NoDup ts -> NoDup (gen_segs d ts).
Proof.
  intros Hts. unfold gen_segs. apply NoDup_flat_map; [exact Hts| |].
  - intros t _. apply NoDup_tile_segs.
  - intros a b x _ _ Hne Hx Hy. apply in_tile_segs in Hx. apply in_tile_segs in Hy. lia.
Qed.

(* a covered index names the tiles of the interval that covers it *)
Lemma cell_names_tiles d s g h :
  0 < bY d -> 0 < bT d -> seg_in_tiles d s -> In (g, h) (seg_cells d s) ->
  s_t s = g / bT d /\ s_y s = h / bY d.
Proof.
  intros HbY HbT (B1 & B2 & B3 & B4 & B5) Hc. apply in_seg_cells in Hc. destruct Hc as (k & Hk & -> & ->).
  split; symmetry; apply div_between; lia.
Qed.

(* exact1 from what is shown interval by interval, given that its two tiles determine an interval *)
Lemma exact1_intro d l :
  0 < bY d -> 0 < bT d -> NoDup l ->
  (forall s, In s l -> seg_in_tiles d s /\
     forall g h, In (g, h) (seg_cells d s) -> dT d <= g < dT d + sz d /\ h = g - dT d + dY d) ->
  (forall g, dT d <= g < dT d + sz d -> exists s, In s l /\ In (g, g - dT d + dY d) (seg_cells d s)) ->
  (forall s1 s2, In s1 l -> In s2 l -> s_t s1 = s_t s2 -> s_y s1 = s_y s2 -> s1 = s2) ->
  exact1 d l.
Proof.
  intros HbY HbT Hnd Hsound Hcov Hkey. unfold exact1.
  split; [exact Hnd|]. split; [intros s Hs; apply Hsound; exact Hs|].
  split; [intros s g h Hs; apply Hsound; exact Hs|]. split; [exact Hcov|].
  intros s1 s2 g h1 h2 H1 H2 C1 C2.
  destruct (Hsound s1 H1) as (B1 & S1). destruct (Hsound s2 H2) as (B2 & S2).
  destruct (S1 g h1 C1) as (_ & E1). destruct (S2 g h2 C2) as (_ & E2).
  destruct (cell_names_tiles d s1 g h1 HbY HbT B1 C1) as (T1 & Y1).
  destruct (cell_names_tiles d s2 g h2 HbY HbT B2 C2) as (T2 & Y2).
  apply Hkey; congruence.
Qed.

Lemma gen_exact1 d ts :
  wf1 d -> NoDup ts -> (forall t, In t ts <-> t_START d <= t <= t_END d) -> exact1 d (gen_segs d ts).
Proof.
  intros Hwf Hnd Hts. pose proof Hwf as (HbY & HbT & Hsz & HdY & HdT).
  apply exact1_intro; [exact HbY|exact HbT|apply NoDup_gen_segs; exact Hnd| | |].
  - intros s Hs. apply in_gen_segs in Hs. destruct Hs as (Ht & Hs). apply Hts in Ht.
    destruct (tile_seg_sound d (s_t s) s Hwf Ht Hs) as (Hb & Hk). split; [exact Hb|].
    intros g h Hc. apply in_seg_cells in Hc. destruct Hc as (k & Hk' & -> & ->).
    specialize (Hk k Hk'). lia.
  - intros g Hg. destruct (tile_seg_complete d g Hwf Hg) as (s & Hs & Hc).
    exists s. split; [|exact Hc]. apply in_gen_segs.
    pose proof Hs as Hs'. apply in_tile_segs in Hs'. destruct Hs' as (_ & E & _). rewrite E.
    split; [|exact Hs]. apply Hts. apply (tile_part_complete d g Hwf Hg).
  - intros s1 s2 H1 H2 ET EY.
    apply in_gen_segs in H1. apply in_gen_segs in H2. destruct H1 as (_ & H1). destruct H2 as (_ & H2).
    apply in_tile_segs in H1. apply in_tile_segs in H2.
    destruct H1 as (_ & _ & U1). destruct H2 as (_ & _ & U2).
    rewrite ET, EY in U1. rewrite U1 in U2. injection U2 as ? ? ?. apply seg_eq; assumption.
Qed.

Lemma rs_facts d t :
  wf1 d -> bY d = bT d -> dY d mod bY d = 0 -> dT d mod bT d = 0 -> t_START d <= t <= t_END d ->
  1 <= rs_len d t <= bT d /\
  dT d <= t * bT d /\ t * bT d + rs_len d t <= dT d + sz d /\
  (t - t_START d + dY d / bY d) * bY d = t * bT d - dT d + dY d /\
  (rs_len d t = bT d \/ t * bT d + rs_len d t = dT d + sz d).
Proof.
  intros (HbY & HbT & Hsz & HdY & HdT) Eb EY ET Ht.
  unfold rs_len, t_START, t_END in *.
  destruct (divmod_spec (dT d) (bT d) HbT) as [E1 R1].
  destruct (divmod_spec (sz d + dT d - 1) (bT d) HbT) as [E2 R2].
  destruct (divmod_spec (dY d) (bY d) HbY) as [E3 R3].
  rewrite ET in *. rewrite EY in *. rewrite Eb in *.
  remember (dT d / bT d) as q1 eqn:Hq1.
  remember ((sz d + dT d - 1) / bT d) as q2 eqn:Hq2. remember ((sz d + dT d - 1) mod bT d) as r2 eqn:Hr2.
  remember (dY d / bT d) as q3 eqn:Hq3.
  clear Hq1 Hq2 Hr2 Hq3.
  destruct (t =? q2) eqn:Et; [apply Z.eqb_eq in Et|apply Z.eqb_neq in Et].
  - subst t. assert (Z.min (bT d) (sz d - (q2 - q1) * bT d) = sz d - (q2 - q1) * bT d) by nia. nia.
  - assert (bT d * (t + 1) <= bT d * q2) by nia. nia.
Qed.

Lemma rs_exact1 d ts :
  wf1 d -> bY d = bT d -> dY d mod bY d = 0 -> dT d mod bT d = 0 ->
  NoDup ts -> (forall t, In t ts <-> t_START d <= t <= t_END d) -> exact1 d (rs_segs d ts).
Proof.
  intros Hwf Eb EY ET Hnd Hts. pose proof Hwf as (HbY & HbT & Hsz & HdY & HdT).
  assert (Hin : forall s, In s (rs_segs d ts) -> s = rs_seg d (s_t s) /\ t_START d <= s_t s <= t_END d).
  { intros s Hs. unfold rs_segs in Hs. apply in_map_iff in Hs. destruct Hs as (t & <- & Ht).
    cbn. split; [reflexivity|]. apply Hts; exact Ht. }
  apply exact1_intro; [exact HbY|exact HbT| | | |].
  - unfold rs_segs. apply Injective_map_NoDup; [|exact Hnd]. intros a b H. injection H. auto.
  - intros s Hs. destruct (Hin s Hs) as (E & Ht).
    destruct (rs_facts d (s_t s) Hwf Eb EY ET Ht) as (F1 & F2 & F3 & F4 & _).
    rewrite E. unfold seg_in_tiles. cbn. split; [lia|].
    intros g h Hc. apply in_seg_cells in Hc. cbn in Hc. destruct Hc as (k & Hk & -> & ->). lia.
  - intros g Hg. destruct (tile_part_complete d g Hwf Hg) as (Ht & _).
    set (t := g / bT d) in *.
    destruct (rs_facts d t Hwf Eb EY ET Ht) as (F1 & F2 & F3 & F4 & F5).
    destruct (divmod_spec g (bT d) HbT) as [E3 R3]. fold t in E3.
    exists (rs_seg d t). split; [unfold rs_segs; apply in_map; apply Hts; exact Ht|].
    apply in_seg_cells. cbn. exists (g mod bT d). lia.
  - intros s1 s2 H1 H2 T _. destruct (Hin s1 H1) as (E1 & _). destruct (Hin s2 H2) as (E2 & _).
    rewrite E1, E2. congruence.
Qed.

Lemma map_seq_shift {A} (f : nat -> A) n s m :
  map f (seq (n + s) m) = map (fun k => f (n + k)%nat) (seq s m).
Proof.
  revert s. induction m as [|m IH]; intros s; [reflexivity|].
  cbn [seq map]. f_equal. rewrite <- IH. f_equal. f_equal. lia.
Qed.

Lemma zrange_app a b c : a <= b + 1 -> b <= c -> zrange a b ++ zrange (b + 1) c = zrange a c.
Proof.
  intros H1 H2. unfold zrange.
  replace (Z.to_nat (c - a + 1)) with (Z.to_nat (b - a + 1) + Z.to_nat (c - (b + 1) + 1))%nat by lia.
  rewrite seq_app, map_app. f_equal.
  rewrite Nat.add_0_l. rewrite <- (Nat.add_0_r (Z.to_nat (b - a + 1))) at 1.
  rewrite map_seq_shift. apply map_ext_in. intros k _. lia.
Qed.

Lemma zrange_single a : zrange a a = [a].
Proof. unfold zrange. replace (Z.to_nat (a - a + 1)) with 1%nat by lia. cbn [seq map]. f_equal. lia. Qed.

Lemma batches_prefix S0 E0 nc (K : nat) :
  0 < nc -> S0 <= E0 -> Z.of_nat K * nc + S0 <= E0 ->
  flat_map (fun b => zrange (b * nc + S0) (Z.min ((b + 1) * nc + S0 - 1) E0)) (zrange 0 (Z.of_nat K))
  = zrange S0 (Z.min ((Z.of_nat K + 1) * nc + S0 - 1) E0).
Proof.
  intros Hnc HSE. induction K as [|K IH]; intros HK.
  - change (Z.of_nat 0) with 0. rewrite zrange_single. cbn [flat_map]. rewrite app_nil_r.
    f_equal; lia.
  - rewrite <- (zrange_app 0 (Z.of_nat K) (Z.of_nat (S K))) by lia.
    rewrite flat_map_app. rewrite IH by nia.
    replace (Z.of_nat K + 1) with (Z.of_nat (S K)) by lia. rewrite zrange_single.
    cbn [flat_map]. rewrite app_nil_r.
    set (m := Z.of_nat (S K) * nc + S0 - 1).
    replace (Z.min m E0) with m by (unfold m; lia).
    replace (Z.of_nat (S K) * nc + S0) with (m + 1) by (unfold m; lia).
    apply zrange_app; unfold m; nia.
Qed.

Lemma batch_ts_eq S0 E0 nc : 0 < nc -> S0 <= E0 -> batch_ts S0 E0 nc = zrange S0 E0.
Proof.
  intros Hnc HSE. unfold batch_ts.
  destruct (divmod_spec (E0 - S0) nc Hnc) as [E1 R1].
  assert (0 <= (E0 - S0) / nc) by (apply Z.div_pos; lia).
  rewrite <- (Z2Nat.id ((E0 - S0) / nc)) by assumption.
  rewrite batches_prefix; try lia.
  f_equal. rewrite Z2Nat.id by assumption. nia.
Qed.
