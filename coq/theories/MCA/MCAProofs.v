(* Proofs about the model of the MCA parameter system (MCADefs.v), state by state:
   the lookup as a formula ([resolve], [lookup_resolve]) over the sources in the order
   they are consulted ([sources]); a lookup can be repeated ([lookup_stable]); a change
   to one table entry, a lookup, or a change of the environment is not seen by a
   parameter it does not concern ([upd_other], [lookup_other], [env_other]); finding a
   parameter by name ([find_idx_none], [find_known]); the --mca join law
   ([collect_join], [add_to_env_get], [cmdline_other]).
   What holds for synonyms, read-only and unknown parameters is derived from these in
   Properties_C38.v.  The facts that quantify over histories are in MCAHistProofs.v. *)
From PV Require Import Base.Tac MCA.MCADefs.
From Coq Require Import Ascii.
Local Open Scope Z_scope.

Lemma str_eqb_eq : forall a b, str_eqb a b = true <-> a = b.
Proof.
  induction a as [|x a IH]; intros [|y b]; cbn; split; intros H; try reflexivity; try discriminate.
  - apply andb_true_iff in H as [Hx Hab]. apply Ascii.eqb_eq in Hx. apply IH in Hab. congruence.
  - inv H. rewrite Ascii.eqb_refl. cbn. apply IH. reflexivity.
Qed.

Lemma str_eqb_refl : forall a, str_eqb a a = true.
Proof. intro a. now apply str_eqb_eq. Qed.

Lemma str_eqb_neq : forall a b, str_eqb a b = false <-> a <> b.
Proof. intros a b. rewrite <- str_eqb_eq. now destruct (str_eqb a b). Qed.

Lemma str_eqb_sym : forall a b, str_eqb a b = str_eqb b a.
Proof.
  intros a b. destruct (str_eqb b a) eqn:E.
  - apply str_eqb_eq in E as ->. apply str_eqb_refl.
  - apply str_eqb_neq. apply str_eqb_neq in E. congruence.
Qed.

Lemma nth_error_upd_nth_same : forall {A} (l : list A) i f x,
  nth_error l i = Some x -> nth_error (upd_nth l i f) i = Some (f x).
Proof.
  induction l as [|y l IH]; intros [|i] f x H; cbn in *; try discriminate.
  - congruence.
  - apply IH. exact H.
Qed.

Lemma nth_error_upd_nth_other : forall {A} (l : list A) i j f,
  i <> j -> nth_error (upd_nth l i f) j = nth_error l j.
Proof.
  induction l as [|y l IH]; intros [|i] [|j] f H; cbn; try reflexivity.
  - contradiction.
  - apply IH. congruence.
Qed.

Lemma upd_nth_length : forall {A} (l : list A) i f, length (upd_nth l i f) = length l.
Proof. induction l as [|y l IH]; intros [|i] f; cbn; auto. Qed.

Lemma take_first_find : forall f l x r, take_first f l = Some (x, r) -> find f l = Some x.
Proof.
  induction l as [|y l IH]; intros x r H; cbn in *; [discriminate|].
  destruct (f y) eqn:Hf.
  - congruence.
  - destruct (take_first f l) as [[z q]|] eqn:Ht; [|discriminate]. inv H. eapply IH. reflexivity.
Qed.

Lemma take_first_none : forall f l, take_first f l = None -> find f l = None.
Proof.
  induction l as [|y l IH]; intros H; cbn in *; [reflexivity|].
  destruct (f y) eqn:Hf; [discriminate|].
  destruct (take_first f l) as [[z q]|] eqn:Ht; [discriminate|]. apply IH. reflexivity.
Qed.

Lemma find_take_first : forall f l x, find f l = Some x -> exists r, take_first f l = Some (x, r).
Proof.
  intros f l x H. destruct (take_first f l) as [[y r]|] eqn:Ht.
  - apply take_first_find in Ht. exists r. congruence.
  - apply take_first_none in Ht. congruence.
Qed.

(* removing an entry that g rejects does not change what g finds *)
Lemma take_first_find_other : forall f g l x r,
  take_first f l = Some (x, r) -> g x = false -> find g r = find g l.
Proof.
  induction l as [|y l IH]; intros x r H Hg; cbn in *; [discriminate|].
  destruct (f y) eqn:Hf.
  - inv H. rewrite Hg. reflexivity.
  - destruct (take_first f l) as [[z q]|] eqn:Ht; [|discriminate]. inv H. cbn.
    destruct (g y); [reflexivity|]. eapply IH; eauto.
Qed.

Lemma first_some_app : forall {A B} (f : A -> option B) l1 l2,
  first_some f (l1 ++ l2) = match first_some f l1 with Some y => Some y | None => first_some f l2 end.
Proof.
  induction l1 as [|x l1 IH]; intros l2; cbn; [reflexivity|].
  destruct (f x); [reflexivity|]. apply IH.
Qed.

Lemma first_some_none : forall {A B} (f : A -> option B) l,
  (forall x, In x l -> f x = None) -> first_some f l = None.
Proof.
  induction l as [|x l IH]; intros H; cbn; [reflexivity|].
  rewrite (H x (or_introl eq_refl)). apply IH. intros y Hy. apply H. right. exact Hy.
Qed.

Lemma first_some_ext : forall {A B} (f g : A -> option B) l,
  (forall x, In x l -> f x = g x) -> first_some f l = first_some g l.
Proof.
  induction l as [|x l IH]; intros H; cbn; [reflexivity|].
  rewrite (H x (or_introl eq_refl)). destruct (g x); [reflexivity|].
  apply IH. intros y Hy. apply H. right. exact Hy.
Qed.

Lemma env_get_unset_same : forall e n, env_get (env_unset e n) n = None.
Proof.
  induction e as [|[k v] e IH]; intros n; cbn; [reflexivity|].
  destruct (str_eqb n k) eqn:E; cbn; [apply IH|]. rewrite E. apply IH.
Qed.

Lemma env_get_unset_other : forall e n m, n <> m -> env_get (env_unset e n) m = env_get e m.
Proof.
  induction e as [|[k v] e IH]; intros n m H; cbn; [reflexivity|].
  destruct (str_eqb n k) eqn:E; cbn.
  - apply str_eqb_eq in E. subst k.
    assert (Hm : str_eqb m n = false) by (apply str_eqb_neq; congruence).
    rewrite Hm. apply IH. exact H.
  - destruct (str_eqb m k); [reflexivity|]. apply IH. exact H.
Qed.

Lemma env_get_set_same : forall e n v, env_get (env_set e n v) n = Some v.
Proof. intros. unfold env_set. cbn. rewrite str_eqb_refl. reflexivity. Qed.

Lemma env_get_set_other : forall e n v m, n <> m -> env_get (env_set e n v) m = env_get e m.
Proof.
  intros e n v m H. unfold env_set. cbn.
  assert (Hm : str_eqb m n = false) by (apply str_eqb_neq; congruence).
  rewrite Hm. apply env_get_unset_other. exact H.
Qed.

(* what the file stage yields in a state: the value cached on the parameter, else the
   first entry of the list of file values whose name is the real name or a synonym *)
Definition file_src (st : state) (p : param) : option (value * nat) :=
  match p_file p with
  | Some vf => Some vf
  | None => match find (fun fe => matches p (f_name fe)) (st_files st) with
            | Some fe => Some (conv (p_type p) (f_val fe), f_file fe)
            | None => None
            end
  end.

Definition resolve (st : state) (p : param) : lres :=
  match p_over p with
  | Some v => if p_ro p then LFound (p_default p) SDefault None else LFound v SOverride None
  | None =>
    if p_ro p then LFound (p_default p) SDefault None else
    match lookup_env (st_env st) p with
    | Some v => LFound v SEnv None
    | None => match file_src st p with
              | Some (v, fi) => LFound v SFile (Some fi)
              | None => LFound (p_default p) SDefault None
              end
    end
  end.

Lemma lookup_resolve : forall st idx,
  snd (param_lookup st idx) =
  match get_param (st_params st) idx with None => LNotFound | Some p => resolve st p end.
Proof.
  intros st idx. unfold param_lookup. destruct (get_param (st_params st) idx) as [p|]; [|reflexivity].
  unfold lookup_stages, resolve, file_src.
  destruct (p_over p) as [v|]; [cbn; now destruct (p_ro p)|].
  destruct (lookup_env (st_env st) p) as [v|]; [cbn; now destruct (p_ro p)|].
  destruct (p_file p) as [[v fi]|]; [cbn; now destruct (p_ro p)|].
  destruct (take_first (fun fe => matches p (f_name fe)) (st_files st)) as [[fe rest]|] eqn:Ht;
    [apply take_first_find in Ht | apply take_first_none in Ht]; rewrite Ht; cbn; now destruct (p_ro p).
Qed.

(* the sources in the order param_lookup consults them *)
Definition sources (st : state) (p : param) : list (option (value * source * option nat)) :=
  [ option_map (fun v => (v, SOverride, None)) (p_over p);
    option_map (fun s => (conv (p_type p) (Some s), SEnv, None)) (first_some (env_get (st_env st)) (names p));
    option_map (fun vf => (fst vf, SFile, Some (snd vf))) (file_src st p);
    Some (p_default p, SDefault, None) ].

Definition found (x : option (value * source * option nat)) : lres :=
  match x with Some (v, s, f) => LFound v s f | None => LNotFound end.

Lemma get_param_upd_same : forall ps idx f p,
  get_param ps idx = Some p -> get_param (upd_nth ps (Z.to_nat idx) f) idx = Some (f p).
Proof.
  intros ps idx f p H. unfold get_param in *. destruct (idx <? 0); [discriminate|].
  apply nth_error_upd_nth_same. exact H.
Qed.

Lemma get_param_upd_other : forall ps idx j f,
  0 <= idx -> 0 <= j -> idx <> j -> get_param (upd_nth ps (Z.to_nat idx) f) j = get_param ps j.
Proof.
  intros ps idx j f Hi Hj H. unfold get_param. destruct (j <? 0); [reflexivity|].
  apply nth_error_upd_nth_other. lia.
Qed.

Lemma get_param_nonneg : forall ps idx p, get_param ps idx = Some p -> 0 <= idx.
Proof. intros ps idx p H. unfold get_param in H. destruct (idx <? 0) eqn:E; [discriminate|lia]. Qed.

Lemma lookup_stable : forall st idx st' r,
  param_lookup st idx = (st', r) -> param_lookup st' idx = (st', r).
Proof.
  intros st idx st' r H. pose proof H as H0. unfold param_lookup, lookup_stages in H0.
  (* unless the lookup caches a file value the state is unchanged, and H is the claim *)
  destruct (get_param (st_params st) idx) as [p|] eqn:Hg; [|inv H0; exact H].
  destruct (p_over p) as [v|] eqn:Ho; [inv H0; exact H|].
  destruct (lookup_env (st_env st) p) as [v|] eqn:He; [inv H0; exact H|].
  destruct (p_file p) as [[v fi]|] eqn:Hf; [inv H0; exact H|].
  destruct (take_first (fun fe => matches p (f_name fe)) (st_files st)) as [[fe rest]|] eqn:Ht;
    [|inv H0; exact H].
  inv H0. unfold param_lookup, lookup_stages. cbn [st_params st_env].
  rewrite (get_param_upd_same _ _ _ _ Hg). cbn [set_file p_over p_file p_ro p_default]. rewrite Ho.
  change (lookup_env (st_env st) (set_file _ p)) with (lookup_env (st_env st) p). now rewrite He.
Qed.

Lemma resolve_same_files_env : forall st st' p,
  st_files st' = st_files st -> st_env st' = st_env st -> resolve st' p = resolve st p.
Proof. intros st st' p Hf He. unfold resolve, file_src. rewrite Hf, He. reflexivity. Qed.

(* a change made to one entry of the table is seen by that parameter alone *)
Lemma upd_other : forall st idx f j, 0 <= idx -> 0 <= j -> idx <> j ->
  snd (param_lookup (mkState (upd_nth (st_params st) (Z.to_nat idx) f) (st_files st) (st_env st)) j) =
  snd (param_lookup st j).
Proof.
  intros st idx f j Hi Hj H. rewrite !lookup_resolve. cbn [st_params].
  rewrite get_param_upd_other by assumption. destruct (get_param (st_params st) j); reflexivity.
Qed.
Lemma upd_same : forall st idx f p, get_param (st_params st) idx = Some p ->
  snd (param_lookup (mkState (upd_nth (st_params st) (Z.to_nat idx) f) (st_files st) (st_env st)) idx) =
  resolve st (f p).
Proof.
  intros st idx f p Hg. rewrite lookup_resolve. cbn [st_params].
  now rewrite (get_param_upd_same _ _ _ _ Hg).
Qed.

(* an override set or removed on one parameter is not seen by another *)
Lemma set_other : forall st idx v j, 0 <= idx -> 0 <= j -> idx <> j ->
  snd (param_lookup (fst (set_value st idx v)) j) = snd (param_lookup st j).
Proof.
  intros st idx v j Hi Hj H. unfold set_value.
  destruct (get_param (st_params st) idx) as [p|]; [|reflexivity].
  destruct (ptype_eqb (p_type p) (type_of v)); [now apply upd_other | reflexivity].
Qed.

(* what set / unset do to the parameter itself *)
Lemma set_then_lookup : forall st idx p v,
  get_param (st_params st) idx = Some p -> type_of v = p_type p ->
  snd (param_lookup (fst (set_value st idx v)) idx) =
    if p_ro p then LFound (p_default p) SDefault None else LFound v SOverride None.
Proof.
  intros st idx p v Hg Ht. unfold set_value. rewrite Hg, Ht.
  assert (E : ptype_eqb (p_type p) (p_type p) = true) by (destruct (p_type p); reflexivity).
  rewrite E. cbn [fst]. now rewrite (upd_same _ _ _ _ Hg).
Qed.

Lemma unset_then_lookup : forall st idx p,
  get_param (st_params st) idx = Some p ->
  snd (param_lookup (fst (unset st idx)) idx) = resolve st (set_over None p).
Proof. intros st idx p Hg. unfold unset. rewrite Hg. apply (upd_same _ _ _ _ Hg). Qed.

Definition pdisj (p q : param) : Prop := forall n, matches p n = true -> matches q n = true -> False.

(* a lookup of one parameter (which may consume an entry of the file-value list) does not
   change the value of a parameter that shares no name with it *)
Lemma lookup_other : forall st i j pi pj,
  get_param (st_params st) i = Some pi -> get_param (st_params st) j = Some pj -> i <> j ->
  pdisj pi pj ->
  snd (param_lookup (fst (param_lookup st i)) j) = snd (param_lookup st j).
Proof.
  intros st i j pi pj Hi Hj Hij Hd.
  pose proof (get_param_nonneg _ _ _ Hi) as Hi0. pose proof (get_param_nonneg _ _ _ Hj) as Hj0.
  rewrite !lookup_resolve, Hj. unfold param_lookup, lookup_stages. rewrite Hi.
  (* unless the first lookup caches a file value it leaves the state alone *)
  destruct (p_over pi); [cbn; now rewrite Hj|].
  destruct (lookup_env (st_env st) pi); [cbn; now rewrite Hj|].
  destruct (p_file pi) as [[v fi]|]; [cbn; now rewrite Hj|].
  destruct (take_first (fun fe => matches pi (f_name fe)) (st_files st)) as [[fe rest]|] eqn:Ht;
    [|cbn; now rewrite Hj].
  cbn [fst st_params]. rewrite get_param_upd_other by assumption. rewrite Hj.
  unfold resolve, file_src. cbn [st_env st_files].
  assert (Hm : matches pj (f_name fe) = false).
  { destruct (matches pj (f_name fe)) eqn:E; [|reflexivity]. exfalso. eapply Hd; [|exact E].
    apply take_first_find in Ht. apply find_some in Ht. apply Ht. }
  rewrite (take_first_find_other _ (fun fe0 => matches pj (f_name fe0)) _ _ _ Ht Hm). reflexivity.
Qed.

Lemma matches_false_names : forall p n, matches p n = false -> forall m, In m (names p) -> n <> m.
Proof.
  intros p n H m Hm E. subst m. unfold matches in H.
  assert (existsb (str_eqb n) (names p) = true).
  { apply existsb_exists. exists n. split; [exact Hm|apply str_eqb_refl]. }
  congruence.
Qed.

(* a parameter sees the environment through the variables that carry one of its names *)
Lemma env_other : forall st idx p e,
  get_param (st_params st) idx = Some p ->
  (forall m, In m (names p) -> env_get e m = env_get (st_env st) m) ->
  snd (param_lookup (mkState (st_params st) (st_files st) e) idx) = snd (param_lookup st idx).
Proof.
  intros st idx p e Hg He. rewrite !lookup_resolve. cbn [st_params]. rewrite Hg.
  unfold resolve, file_src, lookup_env. cbn [st_env st_files].
  now rewrite (first_some_ext (env_get e) (env_get (st_env st))).
Qed.

Lemma unsetenv_other : forall st idx p n,
  get_param (st_params st) idx = Some p -> matches p n = false ->
  snd (param_lookup (mkState (st_params st) (st_files st) (env_unset (st_env st) n)) idx)
  = snd (param_lookup st idx).
Proof.
  intros st idx p n Hg Hm. apply (env_other _ _ _ _ Hg).
  intros m Hin. apply env_get_unset_other. eapply matches_false_names; eauto.
Qed.

Lemma find_idx_none : forall {A} (f : A -> bool) l, (forall x, In x l -> f x = false) -> find_idx f l = None.
Proof.
  induction l as [|x l IH]; intros H; cbn; [reflexivity|].
  rewrite (H x (or_introl eq_refl)). rewrite IH; [reflexivity|]. intros y Hy. apply H. right. exact Hy.
Qed.

Lemma find_idx_some : forall {A} (f : A -> bool) l i,
  find_idx f l = Some i -> exists x, nth_error l i = Some x /\ f x = true.
Proof.
  induction l as [|x l IH]; intros i H; cbn in *; [discriminate|].
  destruct (f x) eqn:Hf.
  - inv H. exists x. split; [reflexivity|exact Hf].
  - destruct (find_idx f l) as [k|] eqn:Hk; [|discriminate]. inv H. cbn. apply IH. reflexivity.
Qed.

Lemma find_known : forall st tn pn idx,
  mca_find st tn pn = idx -> 0 <= idx ->
  exists p, get_param (st_params st) idx = Some p /\ ostr_eqb tn (p_tname p) = true /\ ostr_eqb pn (p_pname p) = true.
Proof.
  intros st tn pn idx H Hi. unfold mca_find in H.
  destruct (find_idx _ (st_params st)) as [i|] eqn:Hf; [|lia].
  apply find_idx_some in Hf as [p [Hn Hp]]. apply andb_true_iff in Hp as [H1 H2].
  exists p. subst idx. unfold get_param.
  assert (E : (Z.of_nat i <? 0) = false) by lia. rewrite E, Nat2Z.id. auto.
Qed.

Fixpoint assoc (n : list ascii) (l : list (list ascii * list ascii)) : option (list ascii) :=
  match l with
  | [] => None
  | (k, v) :: t => if str_eqb n k then Some v else assoc n t
  end.

(* v1,v2,...,vk *)
Fixpoint join (vs : list (list ascii)) : list ascii :=
  match vs with
  | [] => []
  | [v] => v
  | v :: t => v ++ comma :: join t
  end.

(* the values given for name n, in command-line order *)
Definition vals (n : list ascii) (args : list (list ascii * list ascii)) : list (list ascii) :=
  map snd (filter (fun a => str_eqb n (fst a)) args).

Lemma assoc_env_get : forall l n, assoc n l = env_get l n.
Proof. induction l as [|[k v] l IH]; intros n; cbn; [reflexivity|]. rewrite IH. reflexivity. Qed.

Lemma process_arg_assoc : forall acc n v m,
  assoc m (process_arg acc n v) =
    if str_eqb m n then Some (match assoc m acc with Some old => old ++ comma :: v | None => v end)
    else assoc m acc.
Proof.
  induction acc as [|[k w] acc IH]; intros n v m; cbn.
  - destruct (str_eqb m n); reflexivity.
  - destruct (str_eqb n k) eqn:Enk; cbn.
    + apply str_eqb_eq in Enk. subst k. destruct (str_eqb m n); reflexivity.
    + destruct (str_eqb m k) eqn:Emk.
      * apply str_eqb_eq in Emk. subst k.
        assert (E : str_eqb m n = false) by (rewrite str_eqb_sym; exact Enk). rewrite E. reflexivity.
      * apply IH.
Qed.

Lemma join_snoc : forall vs v, vs <> [] -> join (vs ++ [v]) = join vs ++ comma :: v.
Proof.
  induction vs as [|x vs IH]; intros v H; [contradiction|].
  destruct vs as [|y vs]; [reflexivity|].
  change (join ((x :: y :: vs) ++ [v])) with (x ++ comma :: join ((y :: vs) ++ [v])).
  rewrite IH by discriminate.
  change (join (x :: y :: vs)) with (x ++ comma :: join (y :: vs)).
  rewrite <- app_assoc. reflexivity.
Qed.

Lemma collect_gen : forall args acc m,
  assoc m (fold_left (fun acc a => process_arg acc (fst a) (snd a)) args acc) =
    match assoc m acc, vals m args with
    | None, [] => None
    | None, vs => Some (join vs)
    | Some old, vs => Some (join (old :: vs))
    end.
Proof.
  induction args as [|[n v] args IH]; intros acc m; cbn [fold_left].
  - unfold vals. cbn. destruct (assoc m acc); reflexivity.
  - rewrite IH, process_arg_assoc. unfold vals. cbn [filter fst snd].
    destruct (str_eqb m n) eqn:E; cbn [map].
    + fold (vals m args). destruct (assoc m acc) as [old|].
      * destruct (vals m args) as [|w ws]; [reflexivity|].
        change (join ((old ++ comma :: v) :: w :: ws)) with ((old ++ comma :: v) ++ comma :: join (w :: ws)).
        change (join (old :: v :: w :: ws)) with (old ++ comma :: (v ++ comma :: join (w :: ws))).
        rewrite <- app_assoc. reflexivity.
      * reflexivity.
    + fold (vals m args). reflexivity.
Qed.

(* the arrays built by process_arg: one entry per distinct name, holding all its values joined by commas *)
Lemma collect_join : forall args m,
  assoc m (collect args) = match vals m args with [] => None | vs => Some (join vs) end.
Proof. intros. unfold collect. rewrite collect_gen. reflexivity. Qed.

Lemma process_arg_keys : forall acc n v k,
  In k (map fst (process_arg acc n v)) <-> In k (map fst acc) \/ k = n.
Proof.
  induction acc as [|[a w] acc IH]; intros n v k; cbn.
  - split; [intros [H|[]]; right; congruence | intros [[]|H]; left; congruence].
  - destruct (str_eqb n a) eqn:E; cbn.
    + apply str_eqb_eq in E. subst a. split; [tauto|]. intros [[H|H]|H]; auto.
    + rewrite IH. tauto.
Qed.

Lemma process_arg_nodup : forall acc n v, NoDup (map fst acc) -> NoDup (map fst (process_arg acc n v)).
Proof.
  induction acc as [|[a w] acc IH]; intros n v H; cbn.
  - constructor; [intros []|constructor].
  - destruct (str_eqb n a) eqn:E; cbn.
    + exact H.
    + inv H. constructor; [|apply IH; assumption].
      intros Hin. apply process_arg_keys in Hin as [Hin|Hin]; [contradiction|].
      subst a. rewrite str_eqb_refl in E. discriminate.
Qed.

Lemma collect_nodup : forall args, NoDup (map fst (collect args)).
Proof.
  intros args. unfold collect.
  apply (fold_left_inv (fun acc a => process_arg acc (fst a) (snd a)) (fun acc => NoDup (map fst acc))).
  - intros a b H. apply process_arg_nodup. exact H.
  - constructor.
Qed.

Lemma assoc_not_in : forall l n, ~ In n (map fst l) -> assoc n l = None.
Proof.
  induction l as [|[k v] l IH]; intros n H; cbn; [reflexivity|].
  destruct (str_eqb n k) eqn:E.
  - apply str_eqb_eq in E. subst k. exfalso. apply H. left. reflexivity.
  - apply IH. intros Hin. apply H. right. exact Hin.
Qed.

Lemma add_to_env_get : forall kvs e n, NoDup (map fst kvs) ->
  env_get (add_to_env kvs e) n = match assoc n kvs with Some v => Some v | None => env_get e n end.
Proof.
  unfold add_to_env. induction kvs as [|[k v] kvs IH]; intros e n Hnd; cbn [fold_left]; [reflexivity|].
  inv Hnd. rewrite IH by assumption. cbn [assoc fst snd].
  destruct (str_eqb n k) eqn:E.
  - apply str_eqb_eq in E. subst k. rewrite (assoc_not_in _ _ H1). apply env_get_set_same.
  - destruct (assoc n kvs); [reflexivity|]. apply env_get_set_other.
    apply str_eqb_neq in E. congruence.
Qed.

(* a command line that does not name n leaves n alone *)
Lemma cmdline_other : forall args e n,
  (forall a, In a args -> fst (snd a) <> n) -> env_get (process_cmdline args e) n = env_get e n.
Proof.
  intros args e n H.
  assert (Hv : forall f, vals n (map snd (filter f args)) = []).
  { intros f. unfold vals. induction args as [|a args IH]; [reflexivity|]. cbn [filter].
    assert (Ha : str_eqb n (fst (snd a)) = false).
    { apply str_eqb_neq. intros E. apply (H a (or_introl eq_refl)). congruence. }
    assert (IH' : map snd (filter (fun a0 => str_eqb n (fst a0)) (map snd (filter f args))) = [])
      by (apply IH; intros b Hb; apply H; right; exact Hb).
    destruct (f a); [|exact IH']. cbn [map filter]. rewrite Ha. exact IH'. }
  unfold process_cmdline. rewrite !add_to_env_get by apply collect_nodup. rewrite !collect_join, !Hv. reflexivity.
Qed.

Definition mca_args (args : list (bool * (list ascii * list ascii))) := map snd (filter (fun a => negb (fst a)) args).
Definition gmca_args (args : list (bool * (list ascii * list ascii))) := map snd (filter (fun a => fst a) args).

