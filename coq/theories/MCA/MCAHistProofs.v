(* Facts about histories of the MCA parameter system: what the file stage of a lookup
   returns after any sequence of registrations, synonym registrations, set/unset,
   environment changes, command lines and lookups, in terms of the list of values read
   from the files at initialisation; and which value that list holds for a name. *)
From PV Require Import Base.Tac MCA.MCADefs MCA.MCAProofs.
From Coq Require Import Ascii Relations.
Local Open Scope Z_scope.

(* a parameter only grows *)
Definition pext (q q' : param) : Prop :=
  p_type q' = p_type q /\ (exists extra, names q' = names q ++ extra) /\ (p_file q <> None -> p_file q' = p_file q).

Lemma pext_refl : forall q, pext q q.
Proof. intros q. split; [reflexivity|]. split; [exists []; symmetry; apply app_nil_r|reflexivity]. Qed.

Lemma pext_matches : forall q q' n, pext q q' -> matches q n = true -> matches q' n = true.
Proof.
  intros q q' n [_ [[extra He] _]] H. unfold matches in *. rewrite He, existsb_app, H. reflexivity.
Qed.

(* the atomic state changes every operation is made of *)
Inductive prim : state -> state -> Prop :=
| prim_upd st i f :
    (forall q, pext q (f q) /\ p_file (f q) = p_file q) ->
    prim st (mkState (upd_nth (st_params st) i f) (st_files st) (st_env st))
| prim_new st p :
    p_file p = None ->
    prim st (mkState (st_params st ++ [p]) (st_files st) (st_env st))
| prim_cache st i p fe rest :
    nth_error (st_params st) i = Some p -> p_file p = None ->
    take_first (fun fe => matches p (f_name fe)) (st_files st) = Some (fe, rest) ->
    prim st (mkState (upd_nth (st_params st) i (set_file (Some (conv (p_type p) (f_val fe), f_file fe))))
                     rest (st_env st))
| prim_env st e : prim st (mkState (st_params st) (st_files st) e).

Notation prims := (clos_refl_trans state prim).

Lemma state_eta : forall st, mkState (st_params st) (st_files st) (st_env st) = st.
Proof. intros [a b c]. reflexivity. Qed.

Lemma get_param_nth : forall ps idx p, get_param ps idx = Some p -> nth_error ps (Z.to_nat idx) = Some p.
Proof. intros ps idx p H. unfold get_param in H. destruct (idx <? 0); [discriminate|exact H]. Qed.

Lemma lookup_prims : forall st idx, prims st (fst (param_lookup st idx)).
Proof.
  intros st idx. unfold param_lookup.
  destruct (get_param (st_params st) idx) as [p|] eqn:Hg; [|apply rt_refl].
  unfold lookup_stages.
  destruct (p_over p); [apply rt_refl|].
  destruct (lookup_env (st_env st) p); [apply rt_refl|].
  destruct (p_file p) as [[v fi]|] eqn:Hf; [apply rt_refl|].
  destruct (take_first (fun fe => matches p (f_name fe)) (st_files st)) as [[fe rest]|] eqn:Ht; [|apply rt_refl].
  cbn [fst]. apply rt_step, prim_cache; try assumption. now apply get_param_nth.
Qed.

Lemma upd_default_ok : forall d q, pext q (set_default d q) /\ p_file (set_default d q) = p_file q.
Proof. intros d q. split; [exact (pext_refl q)|reflexivity]. Qed.
Lemma upd_over_ok : forall o q, pext q (set_over o q) /\ p_file (set_over o q) = p_file q.
Proof. intros o q. split; [exact (pext_refl q)|reflexivity]. Qed.
Lemma upd_syn_ok : forall n q, pext q (add_syn n q) /\ p_file (add_syn n q) = p_file q.
Proof.
  intros n q. split; [|reflexivity]. split; [reflexivity|]. split; [|reflexivity].
  exists [n]. reflexivity.
Qed.

Lemma reg_prims : forall st ty tn pn internal ro d cur, prims st (fst (fst (reg st ty tn pn internal ro d cur))).
Proof.
  intros st ty tn pn internal ro d cur. unfold reg.
  (* the table entry is replaced or added, then the value may be looked up *)
  assert (Hcur : forall st1 i, prims st st1 ->
            prims st (fst (fst (if match ty with TString => cur | _ => true end
                                then let (st2, r) := param_lookup st1 i in (st2, i, Some r)
                                else (st1, i, None))))).
  { intros st1 i H1. destruct (match ty with TString => cur | _ => true end); [|exact H1].
    pose proof (lookup_prims st1 i) as H2. destruct (param_lookup st1 i) as [st2 r].
    exact (rt_trans _ _ _ _ _ H1 H2). }
  destruct (find_idx (fun p => str_eqb (full_name tn pn) (p_full p)) (st_params st)) as [i|].
  - destruct (nth_error (st_params st) i) as [p0|]; [|apply rt_refl].
    destruct (ptype_eqb (p_type p0) ty); [|apply rt_refl].
    apply Hcur, rt_step, prim_upd, upd_default_ok.
  - apply Hcur, rt_step, prim_new. reflexivity.
Qed.

Lemma step_prims : forall st o, is_recache o = false -> prims st (step st o).
Proof.
  intros st o Ho. destruct o; cbn [step]; try discriminate.
  - apply reg_prims.
  - unfold reg_syn. destruct (get_param (st_params st) idx); [|apply rt_refl].
    cbn [fst]. apply rt_step, prim_upd, upd_syn_ok.
  - unfold set_value. destruct (get_param (st_params st) idx) as [p|]; [|apply rt_refl].
    destruct (ptype_eqb (p_type p) (type_of v)); [|apply rt_refl].
    cbn [fst]. apply rt_step, prim_upd, upd_over_ok.
  - unfold unset. destruct (get_param (st_params st) idx); [|apply rt_refl].
    cbn [fst]. apply rt_step, prim_upd, upd_over_ok.
  - apply rt_step, prim_env.
  - apply rt_step, prim_env.
  - apply rt_step, prim_env.
  - apply lookup_prims.
Qed.

Definition no_recache (ops : list op) : bool := forallb (fun o => negb (is_recache o)) ops.

Lemma run_prims : forall ops st, no_recache ops = true -> prims st (run st ops).
Proof.
  induction ops as [|o ops IH]; intros st H; cbn in *; [apply rt_refl|].
  apply andb_true_iff in H as [Ho Hr].
  assert (Ho' : is_recache o = false) by (destruct (is_recache o); [discriminate|reflexivity]).
  eapply rt_trans; [apply step_prims; exact Ho'|].
  apply IH. exact Hr.
Qed.

(* the table only grows *)
Definition ext (st st' : state) : Prop :=
  forall j q, nth_error (st_params st) j = Some q ->
    exists q', nth_error (st_params st') j = Some q' /\ pext q q'.

Lemma nth_error_upd_nth_inv : forall {A} (l : list A) i f y,
  nth_error (upd_nth l i f) i = Some y -> exists x, nth_error l i = Some x /\ y = f x.
Proof.
  induction l as [|z l IH]; intros [|i] f y H; cbn in *; try discriminate.
  - inv H. exists z. auto.
  - apply IH. exact H.
Qed.

Lemma prim_ext : forall st st', prim st st' -> ext st st'.
Proof.
  intros st st' H. destruct H as [st i f Hf | st p Hp | st i p fe rest Hn Hf Ht | st e]; intros j q Hj; cbn [st_params].
  - destruct (Nat.eq_dec i j) as [E|E].
    + subst j. exists (f q). split; [apply nth_error_upd_nth_same; exact Hj|apply Hf].
    + exists q. split; [rewrite nth_error_upd_nth_other by exact E; exact Hj|apply pext_refl].
  - exists q. split; [|apply pext_refl]. rewrite nth_error_app1; [exact Hj|].
    apply nth_error_Some. congruence.
  - destruct (Nat.eq_dec i j) as [E|E].
    + subst j. assert (q = p) by congruence. subst q.
      eexists. split; [apply nth_error_upd_nth_same; exact Hn|].
      split; [reflexivity|]. split; [exists []; symmetry; apply app_nil_r|]. intros Hc. contradiction.
    + exists q. split; [rewrite nth_error_upd_nth_other by exact E; exact Hj|apply pext_refl].
  - exists q. split; [exact Hj|apply pext_refl].
Qed.

(* no two parameters share a name (real name or synonym) *)
Definition disjoint (st : state) : Prop :=
  forall i j p q, i <> j -> nth_error (st_params st) i = Some p -> nth_error (st_params st) j = Some q -> pdisj p q.

Lemma ext_disjoint : forall st st', ext st st' -> disjoint st' -> disjoint st.
Proof.
  intros st st' He Hd i j p q Hij Hi Hj n Hp Hq.
  destruct (He _ _ Hi) as [p' [Hi' Hpe]]. destruct (He _ _ Hj) as [q' [Hj' Hqe]].
  eapply (Hd i j p' q' Hij Hi' Hj' n); eapply pext_matches; eauto.
Qed.

(* entries of the file-value list that some parameter has taken *)
Definition consumed (st : state) (x : fentry) : Prop :=
  exists j q, nth_error (st_params st) j = Some q /\ p_file q <> None /\ matches q (f_name x) = true.

Lemma ext_consumed : forall st st' x, ext st st' -> consumed st x -> consumed st' x.
Proof.
  intros st st' x He [j [q [Hj [Hf Hm]]]]. destruct (He _ _ Hj) as [q' [Hj' Hpe]].
  exists j, q'. split; [exact Hj'|]. split.
  - destruct Hpe as [_ [_ Hk]]. rewrite (Hk Hf). exact Hf.
  - eapply pext_matches; eauto.
Qed.

(* l' is l without some entries that satisfy P *)
Inductive subl (P : fentry -> Prop) : list fentry -> list fentry -> Prop :=
| subl_nil : subl P [] []
| subl_keep x l l' : subl P l l' -> subl P (x :: l) (x :: l')
| subl_drop x l l' : P x -> subl P l l' -> subl P (x :: l) l'.

Lemma subl_refl : forall P l, subl P l l.
Proof. induction l; constructor; assumption. Qed.

Lemma subl_weaken : forall (P Q : fentry -> Prop) l l', (forall x, P x -> Q x) -> subl P l l' -> subl Q l l'.
Proof. intros P Q l l' H S. induction S; constructor; auto. Qed.

Lemma subl_take_first : forall P f l l' x rest,
  subl P l l' -> take_first f l' = Some (x, rest) -> P x -> subl P l rest.
Proof.
  intros P f l l' x rest S. revert x rest. induction S as [|y l l' S IH|y l l' Hy S IH]; intros x rest Ht Hx.
  - discriminate.
  - cbn in Ht. destruct (f y).
    + inv Ht. apply subl_drop; assumption.
    + destruct (take_first f l') as [[z r]|] eqn:E; [|discriminate]. inv Ht.
      apply subl_keep. eapply IH; eauto.
  - apply subl_drop; [exact Hy|]. eapply IH; eauto.
Qed.

Lemma subl_find : forall P g l l', subl P l l' -> (forall x, P x -> g x = false) -> find g l' = find g l.
Proof.
  intros P g l l' S Hg. induction S as [|y l l' S IH|y l l' Hy S IH]; cbn.
  - reflexivity.
  - destruct (g y); [reflexivity|exact IH].
  - rewrite (Hg y Hy). exact IH.
Qed.

(* a cached file value is the first entry of the initial list F0 that carries one of the names the
   parameter had when the value was cached (a prefix of the names it has now) *)
Definition cached_ok (F0 : list fentry) (p : param) : Prop :=
  forall v fi, p_file p = Some (v, fi) ->
    exists k fe, (k <= length (names p))%nat /\
      find (fun fe => existsb (str_eqb (f_name fe)) (firstn k (names p))) F0 = Some fe /\
      v = conv (p_type p) (f_val fe) /\ fi = f_file fe.

Record Inv (F0 : list fentry) (st : state) : Prop := {
  inv_files : subl (consumed st) F0 (st_files st);
  inv_cached : forall j p, nth_error (st_params st) j = Some p -> cached_ok F0 p
}.

Lemma cached_ok_pext : forall F0 q q', pext q q' -> p_file q' = p_file q -> cached_ok F0 q -> cached_ok F0 q'.
Proof.
  intros F0 q q' [Ht [[extra He] _]] Hf Hc v fi Hv. rewrite Hf in Hv.
  destruct (Hc v fi Hv) as [k [fe [Hk [Hfind [Hval Hfi]]]]].
  exists k, fe. rewrite He, Ht. split; [rewrite app_length; lia|].
  split; [|auto]. rewrite firstn_app. replace (k - length (names q))%nat with O by lia.
  cbn [firstn]. rewrite app_nil_r. exact Hfind.
Qed.

(* what an uncached parameter finds in the current list is what it finds in the initial list *)
Lemma uncached_find : forall F0 st i p,
  Inv F0 st -> disjoint st -> nth_error (st_params st) i = Some p -> p_file p = None ->
  find (fun fe => matches p (f_name fe)) (st_files st) = find (fun fe => matches p (f_name fe)) F0.
Proof.
  intros F0 st i p HI Hd Hn Hf. eapply subl_find; [apply (inv_files _ _ HI)|].
  intros x [j [q [Hj [Hq Hm]]]]. cbn beta.
  destruct (matches p (f_name x)) eqn:E; [|reflexivity]. exfalso.
  destruct (Nat.eq_dec j i) as [Eji|Eji].
  - subst j. assert (q = p) by congruence. subst q. contradiction.
  - exact (Hd j i q p Eji Hj Hn (f_name x) Hm E).
Qed.

Lemma prim_inv : forall F0 st st', Inv F0 st -> disjoint st -> prim st st' -> Inv F0 st'.
Proof.
  intros F0 st st' HI Hd Hp. pose proof (prim_ext _ _ Hp) as He.
  (* entries consumed before stay consumed *)
  assert (Hsub : subl (consumed st') F0 (st_files st)).
  { eapply subl_weaken; [|apply (inv_files _ _ HI)]. intros x. apply ext_consumed. exact He. }
  destruct Hp as [st i f Hf | st p Hp | st i p fe rest Hn Hf Ht | st e].
  - split; cbn [st_files st_params].
    + exact Hsub.
    + intros j p Hj. destruct (Nat.eq_dec i j) as [E|E].
      * subst j. apply nth_error_upd_nth_inv in Hj as [q [Hq Hp]]. subst p.
        destruct (Hf q) as [Hpe Hfile]. eapply cached_ok_pext; eauto. eapply (inv_cached _ _ HI); eauto.
      * rewrite nth_error_upd_nth_other in Hj by exact E. eapply (inv_cached _ _ HI); eauto.
  - split; cbn [st_files st_params].
    + exact Hsub.
    + intros j q Hj. destruct (Nat.lt_ge_cases j (length (st_params st))) as [Hl|Hl].
      * rewrite nth_error_app1 in Hj by exact Hl. eapply (inv_cached _ _ HI); eauto.
      * rewrite nth_error_app2 in Hj by exact Hl.
        destruct (j - length (st_params st))%nat as [|k]; cbn in Hj.
        -- inv Hj. intros v fi Hv. congruence.
        -- destruct k; discriminate.
  - pose proof (uncached_find _ _ _ _ HI Hd Hn Hf) as Hfind.
    split; cbn [st_files st_params].
    + eapply subl_take_first; [|exact Ht|].
      * exact Hsub.
      * exists i. eexists. split; [cbn [st_params]; apply nth_error_upd_nth_same; exact Hn|].
        split; [cbn; discriminate|].
        apply take_first_find in Ht. apply find_some in Ht. apply Ht.
    + intros j q Hj. destruct (Nat.eq_dec i j) as [E|E].
      * subst j. apply nth_error_upd_nth_inv in Hj as [q0 [Hq0 Hq]]. assert (q0 = p) by congruence. subst q0 q.
        intros v fi Hv. cbn in Hv. inv Hv.
        exists (length (names p)), fe. split; [cbn; lia|]. split; [|split; reflexivity].
        change (names (set_file (Some (conv (p_type p) (f_val fe), f_file fe)) p)) with (names p).
        rewrite firstn_all. apply take_first_find in Ht. rewrite Hfind in Ht. exact Ht.
      * rewrite nth_error_upd_nth_other in Hj by exact E. eapply (inv_cached _ _ HI); eauto.
  - split; cbn [st_files st_params].
    + exact Hsub.
    + apply (inv_cached _ _ HI).
Qed.

Lemma prims_inv : forall F0 st0 st, Inv F0 st0 -> prims st0 st -> disjoint st -> Inv F0 st.
Proof.
  intros F0 st0 st HI Hp. apply clos_rt_rtn1 in Hp.
  induction Hp as [|y z Hyz Hp IH]; intros Hd; [exact HI|].
  assert (Hdy : disjoint y) by (eapply ext_disjoint; [apply prim_ext; exact Hyz|exact Hd]).
  eapply prim_inv; [apply IH; exact Hdy|exact Hdy|exact Hyz].
Qed.

Lemma init_shape : forall env files,
  exists p, st_params (init env files) = [p] /\ p_file p = None /\
            st_files (init env files) = read_files [] files.
Proof.
  intros env files. unfold init, recache, reg. cbn [st_params find_idx].
  cbn [app length Z.of_nat]. unfold param_lookup. cbn [st_params get_param Z.ltb Z.compare Z.to_nat nth_error].
  unfold lookup_stages. cbn [p_over st_env].
  match goal with |- context[lookup_env env ?p] => destruct (lookup_env env p) end.
  - eexists. cbn. split; [reflexivity|]. split; reflexivity.
  - cbn [p_file st_files take_first]. eexists. cbn. split; [reflexivity|]. split; reflexivity.
Qed.

Lemma init_inv : forall env files, Inv (st_files (init env files)) (init env files).
Proof.
  intros env files. destruct (init_shape env files) as [p [Hp [Hf _]]]. split.
  - apply subl_refl.
  - intros j q Hj. rewrite Hp in Hj. destruct j as [|[|j]]; cbn in Hj; try discriminate.
    inv Hj. intros v fi Hv. congruence.
Qed.

Lemma run_inv : forall env files ops,
  no_recache ops = true -> disjoint (run (init env files) ops) ->
  Inv (st_files (init env files)) (run (init env files) ops).
Proof.
  intros env files ops Hn Hd. eapply prims_inv; [apply init_inv|apply run_prims; exact Hn|exact Hd].
Qed.

Lemma history_uncached : forall env files ops idx p,
  no_recache ops = true -> disjoint (run (init env files) ops) ->
  get_param (st_params (run (init env files) ops)) idx = Some p -> p_file p = None ->
  file_src (run (init env files) ops) p =
    match find (fun fe => matches p (f_name fe)) (read_files [] files) with
    | Some fe => Some (conv (p_type p) (f_val fe), f_file fe)
    | None => None
    end.
Proof.
  intros env files ops idx p Hn Hd Hg Hf. unfold file_src. rewrite Hf.
  rewrite (uncached_find _ _ _ _ (run_inv env files ops Hn Hd) Hd (get_param_nth _ _ _ Hg) Hf).
  destruct (init_shape env files) as [p0 [_ [_ HF]]]. rewrite HF. reflexivity.
Qed.

Lemma history_cached : forall env files ops idx p v fi,
  no_recache ops = true -> disjoint (run (init env files) ops) ->
  get_param (st_params (run (init env files) ops)) idx = Some p -> p_file p = Some (v, fi) ->
  exists k fe, (k <= length (names p))%nat /\
    find (fun fe => existsb (str_eqb (f_name fe)) (firstn k (names p))) (read_files [] files) = Some fe /\
    v = conv (p_type p) (f_val fe) /\ fi = f_file fe.
Proof.
  intros env files ops idx p v fi Hn Hd Hg Hf.
  pose proof (inv_cached _ _ (run_inv env files ops Hn Hd) _ _ (get_param_nth _ _ _ Hg) v fi Hf) as H.
  destruct (init_shape env files) as [p0 [_ [_ HF]]]. rewrite HF in H. exact H.
Qed.

Lemma find_ext : forall {A} (f g : A -> bool) l, (forall x, f x = g x) -> find f l = find g l.
Proof. intros A f g l H. induction l as [|x l IH]; cbn; [reflexivity|]. rewrite H, IH. reflexivity. Qed.

Lemma find_none_all : forall {A} (f : A -> bool) l, (forall x, f x = false) -> find f l = None.
Proof. intros A f l H. induction l as [|x l IH]; cbn; [reflexivity|]. rewrite H. exact IH. Qed.

(* a parameter without synonyms: the file stage is the entry of the initial list under its name,
   whatever happened before *)
Lemma history_no_synonyms : forall env files ops idx p,
  no_recache ops = true -> disjoint (run (init env files) ops) ->
  get_param (st_params (run (init env files) ops)) idx = Some p -> p_syns p = [] ->
  file_src (run (init env files) ops) p =
    match find (fun fe => str_eqb (f_name fe) (p_full p)) (read_files [] files) with
    | Some fe => Some (conv (p_type p) (f_val fe), f_file fe)
    | None => None
    end.
Proof.
  intros env files ops idx p Hn Hd Hg Hs.
  assert (Hm : forall fe : fentry, matches p (f_name fe) = str_eqb (f_name fe) (p_full p)).
  { intros fe. unfold matches, names. rewrite Hs. cbn. apply orb_false_r. }
  destruct (p_file p) as [[v fi]|] eqn:Hf.
  - destruct (history_cached env files ops idx p v fi Hn Hd Hg Hf) as [k [fe [Hk [Hfind [Hv Hfi]]]]].
    unfold file_src. rewrite Hf. unfold names in Hfind, Hk. rewrite Hs in Hfind, Hk. cbn in Hk.
    destruct k as [|k].
    + cbn in Hfind. rewrite find_none_all in Hfind by reflexivity. discriminate.
    + cbn [firstn] in Hfind. replace (firstn k []) with (@nil (list ascii)) in Hfind by (destruct k; reflexivity).
      rewrite (find_ext _ (fun fe => str_eqb (f_name fe) (p_full p))) in Hfind.
      * rewrite Hfind. subst. reflexivity.
      * intros x. cbn. apply orb_false_r.
  - rewrite (history_uncached env files ops idx p Hn Hd Hg Hf).
    rewrite (find_ext _ _ _ Hm). reflexivity.
Qed.

(* which value the initial list holds for a name *)
Definition fl_get (fl : list fentry) (n : list ascii) : option (option (list ascii) * nat) :=
  match find (fun fe => str_eqb (f_name fe) n) fl with
  | Some fe => Some (f_val fe, f_file fe)
  | None => None
  end.

Lemma save_value_get : forall fi fl n v m,
  fl_get (save_value fi fl n v) m = if str_eqb n m then Some (v, fi) else fl_get fl m.
Proof.
  unfold fl_get. induction fl as [|fe fl IH]; intros n v m; cbn.
  - destruct (str_eqb n m); reflexivity.
  - destruct (str_eqb n (f_name fe)) eqn:E; cbn.
    + apply str_eqb_eq in E. rewrite <- E. destruct (str_eqb n m); reflexivity.
    + destruct (str_eqb (f_name fe) m) eqn:E2.
      * apply str_eqb_eq in E2. rewrite <- E2, E. reflexivity.
      * apply IH.
Qed.

(* the last line of a file that sets name n *)
Fixpoint last_assoc (n : list ascii) (lines : list (list ascii * option (list ascii))) : option (option (list ascii)) :=
  match lines with
  | [] => None
  | (k, v) :: t => match last_assoc n t with
                   | Some x => Some x
                   | None => if str_eqb k n then Some v else None
                   end
  end.

Lemma read_file_get : forall lines fl fi m,
  fl_get (read_file fl fi lines) m =
    match last_assoc m lines with Some v => Some (v, fi) | None => fl_get fl m end.
Proof.
  unfold read_file. induction lines as [|[k v] lines IH]; intros fl fi m; cbn [fold_left last_assoc]; [reflexivity|].
  rewrite IH. cbn [fst snd]. destruct (last_assoc m lines); [reflexivity|].
  rewrite save_value_get. destruct (str_eqb k m); reflexivity.
Qed.

(* the first file of the path list that sets name n, and the value of its last such line *)
Fixpoint first_file (n : list ascii) (k : nat) (files : list (list (list ascii * option (list ascii))))
  : option (option (list ascii) * nat) :=
  match files with
  | [] => None
  | f :: t => match last_assoc n f with Some v => Some (v, k) | None => first_file n (S k) t end
  end.

Lemma read_files_get_gen : forall files k fl m,
  fl_get (fold_left (fun fl f => read_file fl (fst f) (snd f)) (rev (number_from k files)) fl) m =
    match first_file m k files with Some x => Some x | None => fl_get fl m end.
Proof.
  induction files as [|f files IH]; intros k fl m; cbn [number_from rev first_file fold_left]; [reflexivity|].
  rewrite fold_left_app. cbn [fold_left fst snd]. rewrite read_file_get.
  destruct (last_assoc m f); [reflexivity|]. apply IH.
Qed.

(* a decision procedure for [disjoint], used by the examples *)
Definition pdisjb (p q : param) : bool := negb (existsb (fun n => matches q n) (names p)).

Lemma pdisjb_ok : forall p q, pdisjb p q = true -> pdisj p q.
Proof.
  intros p q H n Hp Hq. unfold pdisjb in H. apply negb_true_iff in H.
  unfold matches in Hp. apply existsb_exists in Hp as [m [Hm E]]. apply str_eqb_eq in E. subst m.
  assert (existsb (fun n => matches q n) (names p) = true).
  { apply existsb_exists. exists n. split; assumption. }
  congruence.
Qed.

Lemma pdisj_sym : forall p q, pdisj p q -> pdisj q p.
Proof. intros p q H n Hq Hp. exact (H n Hp Hq). Qed.

Fixpoint all_pairs_disj (l : list param) : bool :=
  match l with
  | [] => true
  | p :: t => forallb (pdisjb p) t && all_pairs_disj t
  end.

Lemma all_pairs_disj_ok : forall l i j p q,
  all_pairs_disj l = true -> i <> j -> nth_error l i = Some p -> nth_error l j = Some q -> pdisj p q.
Proof.
  induction l as [|x l IH]; intros i j p q H Hij Hi Hj; [destruct i; discriminate|].
  cbn in H. apply andb_true_iff in H as [Hx Hl]. rewrite forallb_forall in Hx.
  destruct i as [|i]; destruct j as [|j]; cbn in Hi, Hj.
  - congruence.
  - inv Hi. apply pdisjb_ok, Hx. eapply nth_error_In; eauto.
  - inv Hj. apply pdisj_sym, pdisjb_ok, Hx. eapply nth_error_In; eauto.
  - eapply (IH i j); eauto.
Qed.

Lemma disjointb_ok : forall st, all_pairs_disj (st_params st) = true -> disjoint st.
Proof. intros st H i j p q Hij Hi Hj. eapply all_pairs_disj_ok; eauto. Qed.
