(* The interleaving invariant of the data repository model: for programs obeying the client
   protocol, every step of every thread preserves the accounting that ties the entry fields
   (usagecnt, usagelmt, retained) to the ghost client state (sessions held, grants, uses in
   flight).  Lifted to every schedule with fold_left_inv. *)
From PV Require Import Base.Tac Base.ListX Repo.RepoDefs Repo.RepoSum.
Local Open Scope Z_scope.

Definition ind (b : bool) (v : Z) : Z := if b then v else 0.
Lemma ind_same k v : ind (N.eqb k k) v = v.
Proof. rewrite N.eqb_refl. reflexivity. Qed.

(* measures of the ghost list of held sessions: how many sessions are open on key q, and what they promise *)
Fixpoint hcount (q : N) (l : list (N * Z)) : Z :=
  match l with [] => 0 | (k, _) :: r => ind (N.eqb q k) 1 + hcount q r end.
Fixpoint hsum (q : N) (l : list (N * Z)) : Z :=
  match l with [] => 0 | (k, p) :: r => ind (N.eqb q k) p + hsum q r end.
Definition hnonneg (l : list (N * Z)) : Prop := Forall (fun kp => 0 <= snd kp) l.

Lemma hcount_nonneg q l : 0 <= hcount q l.
Proof. induction l as [|[k p] l IH]; cbn [hcount]; [lia|]. unfold ind. destruct (N.eqb q k); lia. Qed.
Lemma hsum_nonneg q l : hnonneg l -> 0 <= hsum q l.
Proof. induction 1 as [|[k p] l Hp _ IH]; cbn [hsum]; [lia|]. cbn in Hp. unfold ind. destruct (N.eqb q k); lia. Qed.
Lemma hcount0_hsum0 q l : hcount q l = 0 -> hsum q l = 0.
Proof.
  induction l as [|[k p] l IH]; cbn [hcount hsum]; [reflexivity|].
  pose proof (hcount_nonneg q l). unfold ind. destruct (N.eqb q k); intros; [lia|]. rewrite IH; lia.
Qed.
Lemma hcount_in k n l : In (k, n) l -> 1 <= hcount k l.
Proof.
  induction l as [|[k' p] l IH]; [intros []|]. intros [H|H]; cbn [hcount].
  - inversion H; subst. rewrite N.eqb_refl. unfold ind. pose proof (hcount_nonneg k l). lia.
  - pose proof (IH H). unfold ind. destruct (N.eqb k k'); lia.
Qed.
Lemma pair_eqb_spec x y : pair_eqb x y = true <-> x = y.
Proof.
  destruct x as [a b], y as [c d]. unfold pair_eqb. cbn [fst snd].
  rewrite andb_true_iff, N.eqb_eq, Z.eqb_eq. split; [intros [-> ->]; reflexivity|intros H; inversion H; auto].
Qed.
Lemma rm1_measures q k n l : In (k, n) l ->
  hcount q (rm1 (k, n) l) = hcount q l - ind (N.eqb q k) 1 /\
  hsum q (rm1 (k, n) l) = hsum q l - ind (N.eqb q k) n.
Proof.
  induction l as [|[k' p] l IH]; [intros []|]. intros Hin. cbn [rm1].
  destruct (pair_eqb (k, n) (k', p)) eqn:E.
  - apply pair_eqb_spec in E. inversion E; subst. cbn [hcount hsum]. lia.
  - destruct Hin as [H|H]; [inversion H; subst; rewrite (proj2 (pair_eqb_spec _ _) eq_refl) in E; discriminate|].
    destruct (IH H) as [A B]. cbn [hcount hsum]. lia.
Qed.
Lemma rm1_nonneg x l : hnonneg l -> hnonneg (rm1 x l).
Proof.
  induction 1 as [|y l Hy Hl IH]; cbn [rm1]; [constructor|].
  destruct (pair_eqb x y); [exact Hl|constructor; assumption].
Qed.

(* measures of the remaining program: what it will still promise for key q, and how often it will use q *)
Fixpoint fprom (q : N) (ops : list op) : Z :=
  match ops with [] => 0 | OCreate k p :: r => ind (N.eqb q k) p + fprom q r | _ :: r => fprom q r end.
Fixpoint fuse (q : N) (ops : list op) : Z :=
  match ops with [] => 0 | OUse k :: r => ind (N.eqb q k) 1 + fuse q r | _ :: r => fuse q r end.

(* the client protocol of one thread: every addto closes a session this thread opened with the
   announced amount; promises are not negative; nothing stays open at the end *)
Fixpoint wf_prog (held : list (N * Z)) (ops : list op) : Prop :=
  match ops with
  | [] => held = []
  | OCreate k p :: r => 0 <= p /\ wf_prog ((k, p) :: held) r
  | OAddto k n :: r => In (k, n) held /\ wf_prog (rm1 (k, n) held) r
  | _ :: r => wf_prog held r
  end.

Definition wf_thread (th : thread) : Prop :=
  let held := t_held th in let ops := t_ops th in
  hnonneg held /\
  match t_pc th with
  | PUs2 _ f | PUs4 _ f => f = true /\ wf_prog held ops
  | PCr1 k p | PCr2m k p | PCr3 k p _ => 0 <= p /\ wf_prog ((k, p) :: held) ops
  | PCr2f k p _ | PCr4 k p _ _ => 0 <= p /\ In (k, p) held /\ wf_prog held ops
  | PAd1 k n | PAd2 k n _ => In (k, n) held /\ wf_prog (rm1 (k, n) held) ops
  | _ => wf_prog held ops
  end.

Definition m_hcnt (q : N) (th : thread) : Z := hcount q (t_held th).
Definition m_hsum (q : N) (th : thread) : Z := hsum q (t_held th).
(* a use that took its grant and has not incremented usagecnt yet *)
Definition m_uinf (q : N) (th : thread) : Z :=
  match t_pc th with PUs1 k | PUs2 k _ | PUs3 k | PUs4 k _ => ind (N.eqb q k) 1 | _ => 0 end.
(* a creator that retains the entry but has not returned (its grants are not out yet) *)
Definition m_gpend (q : N) (th : thread) : Z :=
  match t_pc th with PCr2f k p _ | PCr4 k p _ _ => ind (N.eqb q k) p | _ => 0 end.
Definition m_qpend (q : N) (th : thread) : Z :=
  match t_pc th with
  | PCr1 k p | PCr2f k p _ | PCr2m k p | PCr3 k p _ | PCr4 k p _ _ => ind (N.eqb q k) p
  | _ => 0 end.
Definition m_fprom (q : N) (th : thread) : Z := fprom q (t_ops th).
Definition m_fuse (q : N) (th : thread) : Z := fuse q (t_ops th).

Definition fld (f : entry -> Z) (o : option entry) : Z := match o with Some e => f e | None => 0 end.

Definition holders (c : cfg) (q : N) : Z := sumZ (m_hcnt q) (c_thr c).
Definition promised (c : cfg) (q : N) : Z := sumZ (m_hsum q) (c_thr c).
Definition inflight (c : cfg) (q : N) : Z := sumZ (m_uinf q) (c_thr c).
Definition ungranted (c : cfg) (q : N) : Z := sumZ (m_gpend q) (c_thr c).

Record Inv (D : N -> Z) (c : cfg) : Prop := {
  i_crash : c_crash c = false;
  i_bad   : bad c = false;
  i_wf    : Forall wf_thread (c_thr c);
  i_bud   : forall q, 0 <= c_bud c q;
  i_ret   : forall q, fld e_ret (c_tab c q) = holders c q;
  i_acc   : forall q, fld e_cnt (c_tab c q) + inflight c q + c_bud c q + ungranted c q
                      = fld e_lmt (c_tab c q) + promised c q;
  i_live  : forall q e, c_tab c q = Some e -> ~ (e_ret e = 0 /\ e_cnt e = e_lmt e);
  i_tot   : forall q, c_bud c q + sumZ (m_qpend q) (c_thr c) + sumZ (m_fprom q) (c_thr c)
                      - sumZ (m_fuse q) (c_thr c) = D q }.

Lemma m_hcnt_nonneg q th : 0 <= m_hcnt q th. Proof. apply hcount_nonneg. Qed.
Lemma m_hsum_nonneg q th : wf_thread th -> 0 <= m_hsum q th.
Proof. intros [H _]. apply hsum_nonneg, H. Qed.
Lemma m_uinf_nonneg q th : 0 <= m_uinf q th.
Proof. unfold m_uinf, ind. destruct (t_pc th); try lia; destruct (N.eqb q k); lia. Qed.
Lemma m_gpend_nonneg q th : wf_thread th -> 0 <= m_gpend q th.
Proof. unfold wf_thread, m_gpend, ind. intros [_ H]. destruct (t_pc th); try lia; destruct (N.eqb q k); lia. Qed.
Lemma m_gpend_held q th : wf_thread th -> m_hcnt q th = 0 -> m_gpend q th = 0.
Proof.
  unfold wf_thread, m_gpend, m_hcnt, ind. intros [_ H] H0.
  destruct (t_pc th); try reflexivity; destruct (N.eqb_spec q k) as [->|]; try reflexivity;
    destruct H as (_ & Hin & _); pose proof (hcount_in _ _ _ Hin); lia.
Qed.

Section Facts.
Variable D : N -> Z.
Variable c : cfg.
Hypothesis HI : Inv D c.

Lemma wf_in th : In th (c_thr c) -> wf_thread th.
Proof. pose proof (i_wf D c HI) as H. rewrite Forall_forall in H. apply H. Qed.

Lemma holders_nonneg q : 0 <= holders c q.
Proof. apply sumZ_nonneg. intros; apply m_hcnt_nonneg. Qed.
Lemma promised_nonneg q : 0 <= promised c q.
Proof. apply sumZ_nonneg. intros x Hx. apply m_hsum_nonneg, wf_in, Hx. Qed.
Lemma inflight_nonneg q : 0 <= inflight c q.
Proof. apply sumZ_nonneg. intros; apply m_uinf_nonneg. Qed.
Lemma ungranted_nonneg q : 0 <= ungranted c q.
Proof. apply sumZ_nonneg. intros x Hx. apply m_gpend_nonneg, wf_in, Hx. Qed.

Lemma ret_nonneg q e : c_tab c q = Some e -> 0 <= e_ret e.
Proof. intros E. pose proof (i_ret D c HI q) as H. rewrite E in H. cbn in H. pose proof (holders_nonneg q). lia. Qed.

Lemma no_holder_no_promise q : holders c q = 0 -> promised c q = 0.
Proof.
  apply sumZ_zero_transfer.
  - intros; apply m_hcnt_nonneg.
  - intros x _. apply hcount0_hsum0.
Qed.

(* an absent key has no holder, no use in flight, no grant *)
Lemma absent_unused q : c_tab c q = None ->
  holders c q = 0 /\ promised c q = 0 /\ inflight c q = 0 /\ c_bud c q = 0 /\ ungranted c q = 0.
Proof.
  intros Hn. pose proof (i_ret D c HI q) as Hr. pose proof (i_acc D c HI q) as Ha.
  rewrite Hn in Hr, Ha. cbn [fld] in Hr, Ha.
  assert (Hp : promised c q = 0) by (apply no_holder_no_promise; lia).
  pose proof (inflight_nonneg q). pose proof (ungranted_nonneg q). pose proof (i_bud D c HI q).
  repeat split; lia.
Qed.

Lemma present_of_holder q t th : nth_error (c_thr c) t = Some th -> 1 <= m_hcnt q th -> c_tab c q <> None.
Proof.
  intros Hn Hh Habs. destruct (absent_unused q Habs) as (H0 & _).
  pose proof (sumZ_ge_nth (m_hcnt q) (c_thr c) t th (fun x _ => m_hcnt_nonneg q x) Hn).
  unfold holders in H0. lia.
Qed.

Lemma present_of_user q t th : nth_error (c_thr c) t = Some th -> m_uinf q th = 1 -> is_some (c_tab c q) = true.
Proof.
  intros Hn Hh. destruct (c_tab c q) eqn:Habs; [reflexivity|exfalso]. destruct (absent_unused q Habs) as (_ & _ & H0 & _).
  pose proof (sumZ_ge_nth (m_uinf q) (c_thr c) t th (fun x _ => m_uinf_nonneg q x) Hn).
  unfold inflight in H0. lia.
Qed.
End Facts.

Lemma bad_reclaim t k fr log : existsb ev_bad (reclaim_ev t k fr ++ log) = existsb ev_bad log.
Proof. destruct fr; reflexivity. Qed.

(* what i_live asks of an entry in the table *)
Definition live (e : entry) : Prop := ~ (e_ret e = 0 /\ e_cnt e = e_lmt e).
Lemma live_retained e : 0 < e_ret e -> live e.
Proof. unfold live. lia. Qed.
Lemma live_fupd (tab : N -> option entry) k v :
  (forall q e, tab q = Some e -> live e) -> (forall e, v = Some e -> live e) ->
  forall q e, fupd tab k v q = Some e -> live e.
Proof. intros Ht Hv q e. unfold fupd. destruct (N.eqb q k); [apply Hv|apply Ht]. Qed.

(* [measures] computes the measures of the two thread records of a step; [keysplit q k] then separates
   the key k the step works on from every other key q *)
Ltac measures :=
  cbn [m_hcnt m_hsum m_uinf m_gpend m_qpend m_fprom m_fuse t_pc t_ops t_held mk hcount hsum fprom fuse].
Ltac keysplit q k :=
  unfold fupd, ind; destruct (N.eqb_spec q k) as [->|?]; cbv iota.

Section Step.
Variable D : N -> Z.
Variable nb : N.

(* The step of thread t seen from the accounts of a key q: the record th of t is replaced by th',
   table and budget may change, and each account moves by what th' adds to it less what th did. *)
Lemma inv_replace c t th th' tab bud next log :
  Inv D c -> nth_error (c_thr c) t = Some th ->
  existsb ev_bad log = existsb ev_bad (c_log c) -> wf_thread th' ->
  (forall q e, tab q = Some e -> live e) ->
  (forall q, 0 <= bud q /\
     fld e_ret (tab q) - m_hcnt q th' = fld e_ret (c_tab c q) - m_hcnt q th /\
     fld e_cnt (tab q) + m_uinf q th' + bud q + m_gpend q th' - fld e_lmt (tab q) - m_hsum q th'
       = fld e_cnt (c_tab c q) + m_uinf q th + c_bud c q + m_gpend q th - fld e_lmt (c_tab c q) - m_hsum q th /\
     bud q + m_qpend q th' + m_fprom q th' - m_fuse q th'
       = c_bud c q + m_qpend q th + m_fprom q th - m_fuse q th) ->
  Inv D {| c_tab := tab; c_bud := bud; c_next := next; c_log := log; c_crash := c_crash c;
           c_thr := set_thr c t th' |}.
Proof.
  intros HI Hn Hlog Hwf Hl Hq.
  constructor; unfold bad, holders, promised, inflight, ungranted, set_thr;
    cbn [c_crash c_log c_tab c_bud c_thr]; intros; rewrite ?(sumZ_upd _ _ _ _ _ Hn).
  - apply HI.
  - rewrite Hlog. apply HI.
  - apply Forall_upd; [apply HI|exact Hwf].
  - apply Hq.
  - pose proof (i_ret D c HI q) as H. unfold holders in H. destruct (Hq q) as (_ & E & _). lia.
  - pose proof (i_acc D c HI q) as H. unfold promised, inflight, ungranted in H.
    destruct (Hq q) as (_ & _ & E & _). lia.
  - eapply Hl; eassumption.
  - pose proof (i_tot D c HI q) as H. destruct (Hq q) as (_ & _ & _ & E). lia.
Qed.

(* a step that touches neither table nor budget and leaves every measure of its thread as it was *)
Lemma inv_same c t th th' next log :
  Inv D c -> nth_error (c_thr c) t = Some th ->
  existsb ev_bad log = existsb ev_bad (c_log c) -> wf_thread th' ->
  (forall q, (m_hcnt q th', m_hsum q th', m_uinf q th', m_gpend q th', m_qpend q th', m_fprom q th', m_fuse q th')
           = (m_hcnt q th, m_hsum q th, m_uinf q th, m_gpend q th, m_qpend q th, m_fprom q th, m_fuse q th)) ->
  Inv D {| c_tab := c_tab c; c_bud := c_bud c; c_next := next; c_log := log; c_crash := c_crash c;
           c_thr := set_thr c t th' |}.
Proof.
  intros HI Hn Hlog Hwf Hm. apply (inv_replace c t th); auto; [apply HI|].
  intros q. specialize (Hm q). inversion Hm as [[E1 E2 E3 E4 E5 E6 E7]].
  rewrite E1, E2, E3, E4, E5, E6, E7. pose proof (i_bud D c HI q). lia.
Qed.

Lemma inv_step c t : Inv D c -> Inv D (step nb c t).
Proof.
  intros HI. unfold step. rewrite (i_crash D c HI).
  destruct (nth_error (c_thr c) t) as [th|] eqn:Hn; [|exact HI].
  destruct (Forall_nth _ _ _ _ (i_wf D c HI) Hn) as [Hnn Hwf].
  pose proof (i_bud D c HI) as HB. pose proof (i_live D c HI) as HL.
  destruct th as [p ops held]. unfold step_thread. cbn [t_pc t_ops t_held] in *.
  destruct p.
  - (* PIdle: start the next operation *)
    destruct ops as [|o r]; [exact HI|].
    destruct o as [k|k p|k n|k]; cbn [wf_prog] in Hwf.
    + apply (inv_same c t _ _ _ _ HI Hn); [reflexivity|split; assumption|reflexivity].
    + apply (inv_replace c t _ _ _ _ _ _ HI Hn); [reflexivity|split; assumption|exact HL|].
      intros q. specialize (HB q). measures. lia.
    + apply (inv_same c t _ _ _ _ HI Hn); [reflexivity|split; assumption|reflexivity].
    + destruct (0 <? c_bud c k) eqn:Eg; [|exact HI].
      apply (inv_replace c t _ _ _ _ _ _ HI Hn); [reflexivity|split; assumption|exact HL|].
      intros q. specialize (HB q). measures. keysplit q k; lia.
  - (* PLk1 *)
    destruct (negb _); [|exact HI].
    apply (inv_same c t _ _ _ _ HI Hn); [reflexivity|split; assumption|reflexivity].
  - (* PLk2 *)
    apply (inv_same c t _ _ _ _ HI Hn); [reflexivity|split; assumption|reflexivity].
  - (* PCr1: lock, find *)
    destruct (negb _); [|exact HI]. destruct Hwf as [Hp Hwf].
    destruct (c_tab c k) as [e|] eqn:Ek.
    + apply (inv_replace c t _ _ _ _ _ _ HI Hn); [reflexivity| | |].
      * split; [constructor; assumption|]. repeat split; try assumption. left; reflexivity.
      * apply (live_fupd _ _ _ HL). intros e' [= <-]. apply live_retained. cbn.
        pose proof (ret_nonneg D c HI k e Ek). lia.
      * intros q. specialize (HB q). measures. keysplit q k; rewrite ?Ek; cbn [fld e_ret e_cnt e_lmt]; lia.
    + apply (inv_same c t _ _ _ _ HI Hn); [reflexivity|repeat split; assumption|reflexivity].
  - (* PCr2f: unlock, return, grant *)
    destruct Hwf as (Hp & Hin & Hwf).
    apply (inv_replace c t _ _ _ _ _ _ HI Hn); [reflexivity|split; assumption|exact HL|].
    intros q. specialize (HB q). measures. keysplit q k; lia.
  - (* PCr2m: unlock, allocate *)
    apply (inv_same c t _ _ _ _ HI Hn); [reflexivity|split; assumption|reflexivity].
  - (* PCr3: lock again, find again, insert or give own entry back *)
    destruct (negb _); [|exact HI]. destruct Hwf as [Hp Hwf].
    assert (Hwf' : wf_thread (mk (PCr4 k p id true) ops ((k, p) :: held))).
    { split; [constructor; assumption|]. repeat split; try assumption. left; reflexivity. }
    destruct (c_tab c k) as [e|] eqn:Ek.
    + apply (inv_replace c t _ _ _ _ _ _ HI Hn); [reflexivity|exact Hwf'| |].
      * apply (live_fupd _ _ _ HL). intros e' [= <-]. apply live_retained. cbn.
        pose proof (ret_nonneg D c HI k e Ek). lia.
      * intros q. specialize (HB q). measures. keysplit q k; rewrite ?Ek; cbn [fld e_ret e_cnt e_lmt]; lia.
    + apply (inv_replace c t _ _ _ _ _ _ HI Hn); [reflexivity|exact Hwf'| |].
      * apply (live_fupd _ _ _ HL). intros e' [= <-]. apply live_retained. cbn. lia.
      * destruct (absent_unused D c HI k Ek) as (A1 & A2 & A3 & A4 & A5).
        intros q. specialize (HB q). measures. keysplit q k; rewrite ?Ek; cbn [fld e_ret e_cnt e_lmt]; lia.
  - (* PCr4: unlock, return, grant *)
    destruct Hwf as (Hp & Hin & Hwf).
    apply (inv_replace c t _ _ _ _ _ _ HI Hn); [reflexivity|split; assumption|exact HL|].
    intros q. specialize (HB q). measures. keysplit q k; lia.
  - (* PAd1: lock, find, read usagelmt *)
    destruct (negb _); [|exact HI].
    destruct (c_tab c k) as [e|] eqn:Ek.
    + apply (inv_same c t _ _ _ _ HI Hn); [reflexivity|split; assumption|reflexivity].
    + destruct Hwf as [Hin _]. exfalso. apply (present_of_holder D c HI k t _ Hn); [|exact Ek].
      apply (hcount_in _ _ _ Hin).
  - (* PAd2: CAS, retained--, test, remove *)
    destruct (c_tab c k) as [e|] eqn:Ek.
    2:{ destruct Hwf as [Hin _]. exfalso. apply (present_of_holder D c HI k t _ Hn); [|exact Ek].
        apply (hcount_in _ _ _ Hin). }
    destruct (e_lmt e =? ov) eqn:Eov.
    + destruct Hwf as [Hin Hwf]. cbv zeta.
      apply (inv_replace c t _ _ _ _ _ _ HI Hn); [reflexivity| | |].
      * split; [apply rm1_nonneg|]; assumption.
      * apply (live_fupd _ _ _ HL). intros e'.
        destruct ((ov + n =? e_cnt e) && (e_ret e - 1 =? 0)) eqn:Eg; intros [= <-].
        unfold live. cbn [e_ret e_cnt e_lmt]. lia.
      * intros q. specialize (HB q). destruct (rm1_measures q k n held Hin) as [R1 R2].
        measures. rewrite R1, R2.
        destruct ((ov + n =? e_cnt e) && (e_ret e - 1 =? 0)) eqn:Eg;
          keysplit q k; rewrite ?Ek; cbn [fld e_ret e_cnt e_lmt]; lia.
    + apply (inv_same c t _ _ _ _ HI Hn); [reflexivity|split; assumption|reflexivity].
  - (* PAd3: unlock, free, return *)
    apply (inv_same c t _ _ _ _ HI Hn); [exact (bad_reclaim t k fr _)|split; assumption|reflexivity].
  - (* PUs1: lookup part, lock + find *)
    destruct (negb _); [|exact HI].
    apply (inv_same c t _ _ _ _ HI Hn); [reflexivity| |reflexivity].
    split; [assumption|]. split; [|assumption].
    apply (present_of_user D c HI k t _ Hn), (ind_same k 1).
  - (* PUs2: unlock of the lookup *)
    destruct Hwf as [-> Hwf].
    apply (inv_same c t _ _ _ _ HI Hn); [reflexivity|split; assumption|reflexivity].
  - (* PUs3: used_once lock + find *)
    destruct (negb _); [|exact HI].
    apply (inv_same c t _ _ _ _ HI Hn); [reflexivity| |reflexivity].
    split; [assumption|]. split; [|assumption].
    apply (present_of_user D c HI k t _ Hn), (ind_same k 1).
  - (* PUs4: fetch_inc, test, remove *)
    destruct Hwf as [-> Hwf].
    pose proof (present_of_user D c HI k t _ Hn (ind_same k 1)) as Hpres.
    destruct (c_tab c k) as [e|] eqn:Ek; [|discriminate].
    cbv zeta. apply (inv_replace c t _ _ _ _ _ _ HI Hn); [reflexivity|split; assumption| |].
    + apply (live_fupd _ _ _ HL). intros e'.
      destruct ((e_lmt e =? e_cnt e + 1) && (e_ret e =? 0)) eqn:Eg; intros [= <-].
      unfold live. cbn [e_ret e_cnt e_lmt]. lia.
    + intros q. specialize (HB q). measures.
      destruct ((e_lmt e =? e_cnt e + 1) && (e_ret e =? 0)) eqn:Eg;
        keysplit q k; rewrite ?Ek; cbn [fld e_ret e_cnt e_lmt]; lia.
  - (* PUs5: unlock, free, return *)
    apply (inv_same c t _ _ _ _ HI Hn); [exact (bad_reclaim t k fr _)|split; assumption|reflexivity].
Qed.
End Step.
