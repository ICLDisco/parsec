(* Consequences of the interleaving invariant (RepoInv.v) for every run of the model:
   any number of threads, any protocol-respecting programs, any schedule. *)
From PV Require Import Base.Tac Base.ListX Repo.RepoDefs Repo.RepoSum Repo.RepoInv.
Local Open Scope Z_scope.

(* announced-and-granted uses minus uses, over the whole programs *)
Definition total_promised (progs : list (list op)) (q : N) : Z := sumZ (fprom q) progs.
Definition total_uses (progs : list (list op)) (q : N) : Z := sumZ (fuse q) progs.
Definition surplus (progs : list (list op)) (q : N) : Z := total_promised progs q - total_uses progs q.

Definition protocol (progs : list (list op)) : Prop := Forall (wf_prog []) progs.

(* the client-level reason for an entry to exist: a creator holds it (between the retained++ of its
   create and the retained-- of its addto), or a use that was granted has not been counted yet *)
Definition needed (c : cfg) (q : N) : Prop := 0 < holders c q \/ 0 < inflight c q \/ 0 < c_bud c q.

Lemma inv_init progs : protocol progs -> Inv (surplus progs) (init progs).
Proof.
  intros Hp. unfold init.
  assert (Hz : forall (m : N -> thread -> Z) q, (forall o, m q (mk PIdle o []) = 0) ->
               sumZ (m q) (map (fun o => mk PIdle o []) progs) = 0).
  { intros m q Hm. apply sumZ_zero_all. intros x Hx. apply in_map_iff in Hx. destruct Hx as (o & <- & _). apply Hm. }
  constructor; cbn [c_crash c_log c_thr c_tab c_bud]; try reflexivity.
  - apply Forall_forall. intros x Hx. apply in_map_iff in Hx. destruct Hx as (o & <- & Ho).
    unfold protocol in Hp. rewrite Forall_forall in Hp. split; [constructor|]. cbn. apply Hp, Ho.
  - intros q. unfold holders. cbn [c_thr fld]. rewrite Hz; reflexivity.
  - intros q. unfold inflight, ungranted, promised. cbn [c_thr fld]. rewrite !Hz; reflexivity.
  - intros q e H; discriminate.
  - intros q. rewrite Hz by reflexivity. rewrite !sumZ_map. unfold surplus, total_promised, total_uses, sumZ.
    unfold m_fprom, m_fuse. cbn [t_ops mk]. lia.
Qed.

Theorem inv_run nb progs sched : protocol progs -> Inv (surplus progs) (run nb progs sched).
Proof.
  intros Hp. unfold run. apply fold_left_inv.
  - intros a b Ha. apply inv_step, Ha.
  - apply inv_init, Hp.
Qed.

Section Consequences.
Variable D : N -> Z.
Variable c : cfg.
Hypothesis HI : Inv D c.

Lemma no_holder_no_ungranted q : holders c q = 0 -> ungranted c q = 0.
Proof.
  apply sumZ_zero_transfer.
  - intros; apply m_hcnt_nonneg.
  - intros x Hx. apply m_gpend_held. apply (wf_in D c HI), Hx.
Qed.

Lemma present_iff_needed q : c_tab c q <> None <-> needed c q.
Proof.
  split.
  - intros Hp. destruct (c_tab c q) as [e|] eqn:Eq; [|congruence].
    pose proof (i_ret D c HI q) as Hr. pose proof (i_acc D c HI q) as Ha.
    pose proof (i_live D c HI q e Eq) as Hl. rewrite Eq in Hr, Ha. cbn [fld] in Hr, Ha.
    pose proof (holders_nonneg c q). pose proof (inflight_nonneg c q). pose proof (i_bud D c HI q).
    unfold needed.
    destruct (Z.eq_dec (holders c q) 0) as [Hz|Hz]; [|lia].
    pose proof (no_holder_no_promise c q Hz). pose proof (no_holder_no_ungranted q Hz). lia.
  - intros Hn Habs. destruct (absent_unused D c HI q Habs) as (A1 & _ & A3 & A4 & _).
    unfold needed in Hn. lia.
Qed.

(* retained counts the holders; usagecnt plus what is outstanding equals usagelmt plus what
   the holders still have to announce *)
Lemma fields_account q e : c_tab c q = Some e ->
  e_ret e = holders c q /\
  e_cnt e + inflight c q + c_bud c q + ungranted c q = e_lmt e + promised c q.
Proof.
  intros Eq. pose proof (i_ret D c HI q) as Hr. pose proof (i_acc D c HI q) as Ha.
  rewrite Eq in Hr, Ha. cbn [fld] in Hr, Ha. split; assumption.
Qed.

Lemma present_while q e : c_tab c q = Some e -> 0 < e_ret e \/ e_cnt e < e_lmt e.
Proof.
  intros Eq. destruct (fields_account q e Eq) as [Hr Ha]. pose proof (i_live D c HI q e Eq) as Hl.
  pose proof (holders_nonneg c q). pose proof (inflight_nonneg c q). pose proof (i_bud D c HI q).
  pose proof (ungranted_nonneg D c HI q).
  destruct (Z.eq_dec (holders c q) 0) as [Hz|Hz]; [|lia].
  pose proof (no_holder_no_promise c q Hz). lia.
Qed.

Lemma done_thread th : t_done th = true -> wf_thread th ->
  forall q, m_hcnt q th = 0 /\ m_uinf q th = 0 /\ m_qpend q th = 0 /\ m_fprom q th = 0 /\ m_fuse q th = 0.
Proof.
  destruct th as [p ops held]. unfold t_done, wf_thread. cbn [t_pc t_ops t_held].
  destruct p; try discriminate. destruct ops; try discriminate. intros _ [_ Hh] q. cbn in Hh. subst held.
  repeat split.
Qed.

Lemma quiescent q : all_done c = true -> (c_tab c q <> None <-> 0 < D q).
Proof.
  intros Hd. unfold all_done in Hd. rewrite forallb_forall in Hd.
  assert (Hz : forall m : N -> thread -> Z,
             (forall th, t_done th = true -> wf_thread th -> m q th = 0) -> sumZ (m q) (c_thr c) = 0).
  { intros m Hm. apply sumZ_zero_all. intros x Hx. apply Hm; [apply Hd, Hx|apply (wf_in D c HI), Hx]. }
  pose proof (i_tot D c HI q) as Ht.
  rewrite (Hz m_qpend), (Hz m_fprom), (Hz m_fuse) in Ht by (intros th H1 H2; apply (done_thread th H1 H2 q)).
  rewrite present_iff_needed. unfold needed, holders, inflight.
  rewrite (Hz m_hcnt), (Hz m_uinf) by (intros th H1 H2; apply (done_thread th H1 H2 q)).
  split; [intros [H|[H|H]]; lia|intros; right; right; lia].
Qed.
End Consequences.

(* whatever thread moves next: the entry disappears in that very step exactly when the step makes
   it unneeded (last holder gone and last granted use counted) *)
Lemma reclaimed_in_the_step D nb c t q : Inv D c ->
  (c_tab c q <> None -> ~ needed (step nb c t) q -> c_tab (step nb c t) q = None) /\
  (c_tab c q <> None -> c_tab (step nb c t) q = None -> needed c q /\ ~ needed (step nb c t) q).
Proof.
  intros H1. pose proof (present_iff_needed D c H1 q) as P1.
  pose proof (present_iff_needed D _ (inv_step D nb c t H1) q) as P2.
  split.
  - intros Hpre Hnn. destruct (c_tab (step nb c t) q) eqn:E; [|reflexivity].
    exfalso. apply Hnn, P2. congruence.
  - intros Hpre Habs. split; [apply P1, Hpre|]. intros Hn. apply P2 in Hn. congruence.
Qed.
