(* Sums of an integer measure over the thread list, and how one step (which replaces the
   record of the scheduled thread) changes them. *)
From PV Require Import Base.Tac Base.ListX.
Local Open Scope Z_scope.

Section Sum.
Context {A : Type}.

Definition sumZ (f : A -> Z) (l : list A) : Z := fold_right (fun x s => f x + s) 0 l.

Lemma sumZ_nil f : sumZ f [] = 0. Proof. reflexivity. Qed.
Lemma sumZ_cons f x l : sumZ f (x :: l) = f x + sumZ f l. Proof. reflexivity. Qed.
Lemma sumZ_app f a b : sumZ f (a ++ b) = sumZ f a + sumZ f b.
Proof. induction a as [|x a IH]; [reflexivity|]. cbn [app]. rewrite !sumZ_cons, IH. lia. Qed.

Lemma sumZ_upd f l t p q : nth_error l t = Some p ->
  sumZ f (upd l t q) = sumZ f l - f p + f q.
Proof.
  intros H. unfold upd. rewrite (split_nth l t p H) at 3.
  rewrite !sumZ_app, !sumZ_cons. lia.
Qed.

Lemma sumZ_nonneg f l : (forall x, In x l -> 0 <= f x) -> 0 <= sumZ f l.
Proof.
  induction l as [|x l IH]; intros H; [cbn; lia|]. rewrite sumZ_cons.
  pose proof (H x (or_introl eq_refl)). assert (0 <= sumZ f l) by (apply IH; intros; apply H; now right). lia.
Qed.

Lemma sumZ_ge_nth f l t p : (forall x, In x l -> 0 <= f x) -> nth_error l t = Some p -> f p <= sumZ f l.
Proof.
  intros Hn H. rewrite (split_nth l t p H), sumZ_app, sumZ_cons.
  assert (0 <= sumZ f (firstn t l)).
  { apply sumZ_nonneg. intros x Hx. apply Hn. rewrite <- (firstn_skipn t l). apply in_or_app. now left. }
  assert (0 <= sumZ f (skipn (S t) l)).
  { apply sumZ_nonneg. intros x Hx. apply Hn. rewrite <- (firstn_skipn (S t) l). apply in_or_app. now right. }
  lia.
Qed.

(* when a non-negative measure sums to 0, a measure that vanishes with it sums to 0 too *)
Lemma sumZ_zero_transfer f g l :
  (forall x, In x l -> 0 <= f x) -> (forall x, In x l -> f x = 0 -> g x = 0) ->
  sumZ f l = 0 -> sumZ g l = 0.
Proof.
  induction l as [|x l IH]; intros Hn Hz H; [reflexivity|].
  rewrite sumZ_cons in *.
  pose proof (Hn x (or_introl eq_refl)).
  assert (0 <= sumZ f l) by (apply sumZ_nonneg; intros; apply Hn; now right).
  rewrite (Hz x (or_introl eq_refl)) by lia.
  rewrite IH; [lia| | |lia]; intros; [apply Hn|apply Hz]; auto; now right.
Qed.

Lemma sumZ_zero_all f l : (forall x, In x l -> f x = 0) -> sumZ f l = 0.
Proof. induction l as [|x l IH]; intros H; [reflexivity|]. rewrite sumZ_cons, IH, (H x); [lia|now left|].
  intros; apply H; now right. Qed.

Lemma sumZ_map {B} (g : B -> A) f l : sumZ f (map g l) = fold_right (fun x s => f (g x) + s) 0 l.
Proof. induction l as [|x l IH]; [reflexivity|]. cbn [map]. rewrite sumZ_cons, IH. reflexivity. Qed.

Lemma upd_upd (l : list A) t (p q r : A) : nth_error l t = Some p -> upd (upd l t q) t r = upd l t r.
Proof.
  intros H. unfold upd.
  assert (Hl : length (firstn t l) = t).
  { apply firstn_length_le. apply Nat.lt_le_incl. apply nth_error_Some. congruence. }
  rewrite firstn_app, Hl, Nat.sub_diag. cbn [firstn]. rewrite app_nil_r, firstn_firstn, Nat.min_id.
  f_equal. f_equal.
  replace (S t) with (length (firstn t l) + 1)%nat at 1 by lia.
  rewrite skipn_app. rewrite skipn_all2 by lia. cbn [app].
  replace (length (firstn t l) + 1 - length (firstn t l))%nat with 1%nat by lia. reflexivity.
Qed.

(* A key that at most one entry of l carries is still carried by at most one after entry t is replaced,
   when the key of the new entry is carried by no other. *)
Lemma unique_upd {K} (key : A -> option K) l t p q : nth_error l t = Some p ->
  (forall u v x y i, nth_error l u = Some x -> nth_error l v = Some y -> key x = Some i -> key y = Some i -> u = v) ->
  (forall i v y, key q = Some i -> v <> t -> nth_error l v = Some y -> key y <> Some i) ->
  forall u v x y i, nth_error (upd l t q) u = Some x -> nth_error (upd l t q) v = Some y ->
    key x = Some i -> key y = Some i -> u = v.
Proof.
  intros Hn Hold Hnew u v x y i Hu Hv Hx Hy.
  destruct (nth_upd_inv _ _ _ _ _ _ Hn Hu) as [[-> ->]|[Hne Hu']];
    destruct (nth_upd_inv _ _ _ _ _ _ Hn Hv) as [[-> ->]|[Hne' Hv']]; auto.
  - destruct (Hnew i v y Hx Hne' Hv' Hy).
  - destruct (Hnew i u x Hy Hne Hu' Hx).
  - apply (Hold u v x y i Hu' Hv' Hx Hy).
Qed.
End Sum.
