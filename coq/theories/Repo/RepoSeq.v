(* Sequential refinement: one thread alone executes each operation, through its atomic steps,
   exactly as the sequential specification (seq_create / seq_addto / seq_use of RepoDefs.v)
   applied in one go, from any table contents. *)
From PV Require Import Base.Tac Base.ListX Repo.RepoDefs.
Local Open Scope Z_scope.

Definition solo_run (nb : N) (c : cfg) (n : nat) : cfg := fold_left (step nb) (repeat 0%nat n) c.

(* the configuration after operation o of the only thread, taken atomically *)
Definition seq_apply (c : cfg) (o : op) (r : list op) (held : list (N * Z)) : cfg :=
  match o with
  | OLook k =>
      {| c_tab := c_tab c; c_bud := c_bud c; c_next := c_next c;
         c_log := EvLook 0 k (c_tab c k) :: c_log c; c_crash := false; c_thr := [mk PIdle r held] |}
  | OCreate k p =>
      let '(tab, next, id, fresh) := seq_create (c_tab c) (c_next c) k in
      {| c_tab := tab; c_bud := fupd (c_bud c) k (c_bud c k + p); c_next := next;
         c_log := EvCreate 0 k id fresh :: c_log c; c_crash := false;
         c_thr := [mk PIdle r ((k, p) :: held)] |}
  | OAddto k n =>
      match seq_addto (c_tab c) k n with
      | Some (tab, fr) =>
          {| c_tab := tab; c_bud := c_bud c; c_next := c_next c;
             c_log := EvAddto 0 k n :: reclaim_ev 0 k fr ++ c_log c; c_crash := false;
             c_thr := [mk PIdle r (rm1 (k, n) held)] |}
      | None =>                                  (* NULL dereference *)
          {| c_tab := c_tab c; c_bud := c_bud c; c_next := c_next c; c_log := EvCrash 0 :: c_log c;
             c_crash := true; c_thr := [mk (PAd1 k n) r held] |}
      end
  | OUse k =>
      if 0 <? c_bud c k then
        match seq_use (c_tab c) k with
        | Some (tab, fr) =>
            {| c_tab := tab; c_bud := fupd (c_bud c) k (c_bud c k - 1); c_next := c_next c;
               c_log := EvUse 0 k :: reclaim_ev 0 k fr ++ c_log c; c_crash := false;
               c_thr := [mk PIdle r held] |}
        | None =>                                (* the lookup finds nothing: the use is skipped *)
            {| c_tab := c_tab c; c_bud := fupd (c_bud c) k (c_bud c k - 1); c_next := c_next c;
               c_log := EvMiss 0 k :: c_log c; c_crash := false; c_thr := [mk PIdle r held] |}
        end
      else c                                     (* no grant: the thread waits *)
  end.

Lemma step_solo nb c th : c_crash c = false -> c_thr c = [th] -> step nb c 0 = step_thread nb c 0 th.
Proof. intros Hc Ht. unfold step. rewrite Hc, Ht. reflexivity. Qed.

(* reduces the record projections and the one-element thread list of a solo configuration *)
Ltac simp_cfg :=
  cbn [t_pc t_ops t_held mk move set_thr c_thr c_tab c_bud c_next c_log c_crash upd firstn skipn app
       busy existsb holds_bucket cs_key negb orb is_some].
(* execute the innermost pending step of the only thread *)
Ltac adv Hc Ht :=
  match goal with
  | |- context [step ?nb ?x 0%nat] =>
      lazymatch x with step _ _ _ => fail | _ => idtac end;
      erewrite (step_solo nb x);
      [ | cbn [c_crash]; first [exact Hc | reflexivity]
        | cbn [c_thr]; first [exact Ht | reflexivity] ]
  end;
  unfold step_thread, move, set_thr; rewrite ?Ht; simp_cfg.

Theorem seq_refinement nb c o r held :
  c_crash c = false -> c_thr c = [mk PIdle (o :: r) held] ->
  exists n, (n <= 6)%nat /\ solo_run nb c n = seq_apply c o r held.
Proof.
  intros Hc Ht. destruct o as [k|k p|k n|k]; unfold seq_apply.
  - exists 3%nat. split; [lia|]. unfold solo_run. cbn [repeat fold_left].
    adv Hc Ht. adv Hc Ht. adv Hc Ht. rewrite Hc. reflexivity.
  - unfold seq_create. destruct (c_tab c k) as [e|] eqn:Ek.
    + exists 3%nat. split; [lia|]. unfold solo_run. cbn [repeat fold_left].
      adv Hc Ht. adv Hc Ht. rewrite Ek. simp_cfg. adv Hc Ht. rewrite Hc. reflexivity.
    + exists 5%nat. split; [lia|]. unfold solo_run. cbn [repeat fold_left].
      adv Hc Ht. adv Hc Ht. rewrite Ek. simp_cfg. adv Hc Ht. adv Hc Ht. rewrite Ek. simp_cfg. adv Hc Ht.
      rewrite Hc. reflexivity.
  - unfold seq_addto. destruct (c_tab c k) as [e|] eqn:Ek.
    + exists 4%nat. split; [lia|]. unfold solo_run. cbn [repeat fold_left].
      adv Hc Ht. adv Hc Ht. rewrite Ek. simp_cfg. adv Hc Ht. rewrite Ek, Z.eqb_refl.
      destruct ((e_lmt e + n =? e_cnt e) && (e_ret e - 1 =? 0)); simp_cfg; adv Hc Ht; rewrite Hc; reflexivity.
    + exists 2%nat. split; [lia|]. unfold solo_run. cbn [repeat fold_left].
      adv Hc Ht. adv Hc Ht. rewrite Ek. unfold crash. simp_cfg. reflexivity.
  - destruct (0 <? c_bud c k) eqn:Eg.
    2:{ exists 0%nat. split; [lia|]. reflexivity. }
    unfold seq_use. destruct (c_tab c k) as [e|] eqn:Ek.
    + exists 6%nat. split; [lia|]. unfold solo_run. cbn [repeat fold_left].
      adv Hc Ht. rewrite Eg. simp_cfg. adv Hc Ht. rewrite Ek. simp_cfg. adv Hc Ht. adv Hc Ht. rewrite Ek. simp_cfg.
      adv Hc Ht. rewrite Ek.
      destruct ((e_lmt e =? e_cnt e + 1) && (e_ret e =? 0)); simp_cfg; adv Hc Ht; rewrite Hc; reflexivity.
    + exists 3%nat. split; [lia|]. unfold solo_run. cbn [repeat fold_left].
      adv Hc Ht. rewrite Eg. simp_cfg. adv Hc Ht. rewrite Ek. simp_cfg. adv Hc Ht. rewrite Hc. reflexivity.
Qed.
