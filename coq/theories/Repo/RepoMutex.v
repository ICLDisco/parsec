(* The multi-access segments of the model are critical sections: at any time, for any programs and
   any schedule, at most one thread is inside a critical section of a given bucket.  (This is what
   makes "one step = the code between two scheduling points" an honest atomicity assumption: the
   plain accesses of a segment are protected by the bucket lock.) *)
From PV Require Import Base.Tac Base.ListX Repo.RepoDefs Repo.RepoSum.

Definition cs_bucket (nb : N) (th : thread) : option N := option_map (rehash nb) (cs_key (t_pc th)).

Definition Mutex (nb : N) (c : cfg) : Prop :=
  forall u v x y b, nth_error (c_thr c) u = Some x -> nth_error (c_thr c) v = Some y ->
    cs_bucket nb x = Some b -> cs_bucket nb y = Some b -> u = v.

Lemma busy_false nb thr b : busy nb thr b = false ->
  forall u x, nth_error thr u = Some x -> cs_bucket nb x <> Some b.
Proof.
  unfold busy. intros Hb u x Hu Hx.
  assert (Hin : In x thr) by (eapply nth_error_In; eauto).
  assert (Hh : holds_bucket nb b x = true).
  { unfold holds_bucket. unfold cs_bucket in Hx. destruct (cs_key (t_pc x)) as [k|]; cbn in Hx; [|discriminate].
    inversion Hx. apply N.eqb_refl. }
  assert (existsb (holds_bucket nb b) thr = true) by (apply existsb_exists; eauto). congruence.
Qed.

Lemma mutex_same nb c c' : c_thr c' = c_thr c -> Mutex nb c -> Mutex nb c'.
Proof. intros H HM. unfold Mutex. rewrite H. exact HM. Qed.

Lemma mutex_eff nb c c' t th th' :
  nth_error (c_thr c) t = Some th -> c_thr c' = upd (c_thr c) t th' -> Mutex nb c ->
  (cs_bucket nb th' = None \/ cs_bucket nb th' = cs_bucket nb th \/
   exists b, cs_bucket nb th' = Some b /\ busy nb (c_thr c) b = false) ->
  Mutex nb c'.
Proof.
  intros Hn Hthr HM Hk. unfold Mutex. rewrite Hthr. apply (unique_upd (cs_bucket nb) _ _ _ _ Hn HM).
  intros b v y Hx Hvt Hv Hy. destruct Hk as [Hk|[Hk|(b' & Hk & Hb)]].
  - congruence.
  - rewrite Hk in Hx. apply Hvt. symmetry. apply (HM t v th y b Hn Hv Hx Hy).
  - rewrite Hk in Hx. inversion Hx; subst b'. apply (busy_false _ _ _ Hb v y Hv Hy).
Qed.

(* the ways a step keeps [Mutex]: the threads are as they were; or ([mutex_eff]) the stepped thread is
   outside every critical section afterwards, or in the bucket it was in, or in one that no thread held *)
Ltac mtx Hn HM :=
  first [ exact HM
        | apply mutex_same with (2 := HM); reflexivity
        | eapply mutex_eff with (1 := Hn) (3 := HM);
          [ reflexivity
          | first [ left; reflexivity | right; left; reflexivity
                  | right; right; eexists; split; [reflexivity|assumption] ] ] ].

Lemma mutex_step nb c t : Mutex nb c -> Mutex nb (step nb c t).
Proof.
  intros HM. unfold step. destruct (c_crash c); [exact HM|].
  destruct (nth_error (c_thr c) t) as [th|] eqn:Hn; [|exact HM].
  destruct th as [p ops held]. unfold step_thread. cbn [t_pc t_ops t_held].
  destruct p.
  - destruct ops as [|o r]; [exact HM|]. destruct o as [k|k p|k n|k]; try mtx Hn HM.
    destruct (0 <? c_bud c k)%Z; mtx Hn HM.
  - destruct (busy nb (c_thr c) (rehash nb k)) eqn:Eb; cbn [negb]; mtx Hn HM.
  - mtx Hn HM.
  - destruct (busy nb (c_thr c) (rehash nb k)) eqn:Eb; cbn [negb]; [mtx Hn HM|].
    destruct (c_tab c k); mtx Hn HM.
  - mtx Hn HM.
  - mtx Hn HM.
  - destruct (busy nb (c_thr c) (rehash nb k)) eqn:Eb; cbn [negb]; [mtx Hn HM|].
    destruct (c_tab c k); mtx Hn HM.
  - mtx Hn HM.
  - destruct (busy nb (c_thr c) (rehash nb k)) eqn:Eb; cbn [negb]; [mtx Hn HM|].
    destruct (c_tab c k); mtx Hn HM.
  - destruct (c_tab c k) as [e|]; [|mtx Hn HM]. destruct (e_lmt e =? ov)%Z; mtx Hn HM.
  - mtx Hn HM.
  - destruct (busy nb (c_thr c) (rehash nb k)) eqn:Eb; cbn [negb]; mtx Hn HM.
  - destruct f; mtx Hn HM.
  - destruct (busy nb (c_thr c) (rehash nb k)) eqn:Eb; cbn [negb]; mtx Hn HM.
  - destruct f; [|mtx Hn HM]. destruct (c_tab c k); mtx Hn HM.
  - mtx Hn HM.
Qed.

Lemma mutex_init nb progs : Mutex nb (init progs).
Proof.
  intros u v x y b Hu _ Hx. cbn in Hu. apply nth_error_In, in_map_iff in Hu. destruct Hu as (o & <- & _). discriminate.
Qed.

Theorem mutex_run nb progs sched : Mutex nb (run nb progs sched).
Proof. unfold run. apply fold_left_inv; [intros a b; apply mutex_step|apply mutex_init]. Qed.
