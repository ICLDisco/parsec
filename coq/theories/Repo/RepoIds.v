(* Incarnations: every entry handed out by the mempool carries an id (allocation order).  For any
   programs and any schedule, an id is at any time at most one of: in the table (under one key),
   private to one thread (allocated and not yet published, or removed and not yet given back),
   or given back to the mempool - and it is given back at most once. *)
From PV Require Import Base.Tac Base.ListX Repo.RepoDefs Repo.RepoSum.

Definition t_priv (th : thread) : option nat :=
  match t_pc th with
  | PCr3 _ _ id => Some id
  | PAd3 _ _ fr => fr
  | PUs5 _ fr => fr
  | _ => None
  end.
Definition tid (o : option entry) : option nat := option_map e_id o.

(* where an id can be: in the table under a key, private to a thread, back in the mempool *)
Inductive loc := LTab (q : N) | LThr (u : nat) | LFree.
Definition id_at (c : cfg) (l : loc) (i : nat) : Prop :=
  match l with
  | LTab q => tid (c_tab c q) = Some i
  | LThr u => exists th, nth_error (c_thr c) u = Some th /\ t_priv th = Some i
  | LFree => In i (freed c)
  end.

Record IdInv (c : cfg) : Prop := {
  d_free : NoDup (freed c);
  d_one  : forall l l' i, id_at c l i -> id_at c l' i -> l = l';
  d_lt   : forall l i, id_at c l i -> (i < c_next c)%nat }.

Section Effects.
Variables (c c' : cfg) (t : nat) (th th' : thread).
Hypothesis Hn : nth_error (c_thr c) t = Some th.
Hypothesis Hthr : c_thr c' = upd (c_thr c) t th'.
Hypothesis HI : IdInv c.

Lemma own i : t_priv th = Some i -> id_at c (LThr t) i.
Proof. intros Hi. exists th. auto. Qed.

Lemma thr_cases u i : id_at c' (LThr u) i -> u = t /\ t_priv th' = Some i \/ u <> t /\ id_at c (LThr u) i.
Proof.
  intros (x & Hu & Hi). rewrite Hthr in Hu.
  destruct (nth_upd_inv _ _ _ _ _ _ Hn Hu) as [[-> ->]|[Hne Hu']]; [left|right]; split; auto. exists x. auto.
Qed.

(* One id i appears at dst (it is new, or it was elsewhere); every other id stays where it was or vanishes. *)
Lemma id_move i dst : (c_next c <= c_next c')%nat -> NoDup (freed c') -> (i < c_next c')%nat ->
  (forall l j, id_at c' l j -> j = i /\ l = dst \/ j <> i /\ id_at c l j) -> IdInv c'.
Proof.
  intros Hx Hf Hi H. constructor; [exact Hf| |].
  - intros l l' j A B. destruct (H l j A) as [[E ->]|[Hne A']], (H l' j B) as [[E' ->]|[Hne' B']]; try congruence.
    apply (d_one c HI l l' j A' B').
  - intros l j A. destruct (H l j A) as [[-> _]|[_ A']]; [exact Hi|]. pose proof (d_lt c HI l j A'). lia.
Qed.

(* while i is at src it is nowhere else: what is at another place is not i *)
Lemma elsewhere src dst i l j : id_at c src i -> l <> src -> id_at c l j ->
  j = i /\ l = dst \/ j <> i /\ id_at c l j.
Proof. intros Hs Hl A. right. split; [|exact A]. intros ->. apply Hl, (d_one c HI _ _ i A Hs). Qed.

(* nothing happens to the ids *)
Lemma eff_neutral : c_next c' = c_next c -> freed c' = freed c ->
  (forall q, tid (c_tab c' q) = tid (c_tab c q)) -> t_priv th' = t_priv th -> IdInv c'.
Proof.
  intros Hx Hf Ht Hp.
  assert (H : forall l j, id_at c' l j -> id_at c l j).
  { intros [q|u|] j; cbn [id_at]; rewrite ?Ht, ?Hf; auto.
    intros H. destruct (thr_cases u j H) as [[-> Hj]|[_ H']]; [|exact H']. rewrite Hp in Hj. apply (own j Hj). }
  constructor; rewrite ?Hx, ?Hf; [apply HI| |].
  - intros l l' i A B. apply (d_one c HI l l' i); apply H; assumption.
  - intros l i A. apply (d_lt c HI l i), H, A.
Qed.

(* allocation: the next id becomes private to t *)
Lemma eff_alloc : c_next c' = S (c_next c) -> freed c' = freed c -> c_tab c' = c_tab c ->
  t_priv th' = Some (c_next c) -> IdInv c'.
Proof.
  intros Hx Hf Ht Hp'. apply (id_move (c_next c) (LThr t)); [lia|rewrite Hf; apply HI|lia|].
  (* the ids there were are below c_next c *)
  assert (Hold : forall l j, id_at c l j -> j = c_next c /\ l = LThr t \/ j <> c_next c /\ id_at c l j).
  { intros l j A. right. pose proof (d_lt c HI l j A). split; [lia|exact A]. }
  intros [q|u|] j.
  - cbn [id_at]. rewrite Ht. apply (Hold (LTab q)).
  - intros H. destruct (thr_cases u j H) as [[-> Hj]|[_ H']]; [left|apply (Hold _ _ H')]. split; congruence.
  - cbn [id_at]. rewrite Hf. apply (Hold LFree).
Qed.

(* publication: the private id of t goes into the table under a key that had no entry *)
Lemma eff_publish k e i : c_next c' = c_next c -> freed c' = freed c ->
  c_tab c k = None -> c_tab c' = fupd (c_tab c) k (Some e) -> e_id e = i ->
  t_priv th = Some i -> t_priv th' = None -> IdInv c'.
Proof.
  intros Hx Hf Hk Ht He Hp Hp'. pose proof (own i Hp) as Hs.
  apply (id_move i (LTab k)); [lia|rewrite Hf; apply HI|rewrite Hx; apply (d_lt c HI _ i Hs)|].
  intros [q|u|] j.
  - cbn [id_at]. rewrite Ht. unfold fupd. destruct (N.eqb_spec q k) as [->|Hne].
    + cbn. rewrite He. intros [= <-]. auto.
    + intros A. apply (elsewhere _ _ _ (LTab q) j Hs); [discriminate|exact A].
  - intros H. destruct (thr_cases u j H) as [[-> Hj]|[Hne H']]; [congruence|].
    apply (elsewhere _ _ _ (LThr u) j Hs); [congruence|exact H'].
  - cbn [id_at]. rewrite Hf. intros A. apply (elsewhere _ _ _ LFree j Hs); [discriminate|exact A].
Qed.

(* the private id of t goes back to the mempool *)
Lemma eff_free i : c_next c' = c_next c -> freed c' = i :: freed c ->
  (forall q, tid (c_tab c' q) = tid (c_tab c q)) ->
  t_priv th = Some i -> t_priv th' = None -> IdInv c'.
Proof.
  intros Hx Hf Ht Hp Hp'. pose proof (own i Hp) as Hs.
  apply (id_move i LFree); [lia| |rewrite Hx; apply (d_lt c HI _ i Hs)|].
  { rewrite Hf. constructor; [|apply HI]. intros A. discriminate (d_one c HI LFree _ i A Hs). }
  intros [q|u|] j.
  - cbn [id_at]. rewrite Ht. intros A. apply (elsewhere _ _ _ (LTab q) j Hs); [discriminate|exact A].
  - intros H. destruct (thr_cases u j H) as [[-> Hj]|[Hne H']]; [congruence|].
    apply (elsewhere _ _ _ (LThr u) j Hs); [congruence|exact H'].
  - cbn [id_at]. rewrite Hf. intros [<-|A]; [auto|]. apply (elsewhere _ _ _ LFree j Hs); [discriminate|exact A].
Qed.

(* removal from the table: the id becomes private to t until the free *)
Lemma eff_remove k e : c_next c' = c_next c -> freed c' = freed c ->
  c_tab c k = Some e -> c_tab c' = fupd (c_tab c) k None -> t_priv th' = Some (e_id e) -> IdInv c'.
Proof.
  intros Hx Hf Hk Ht Hp'.
  assert (Hs : id_at c (LTab k) (e_id e)) by (cbn [id_at]; rewrite Hk; reflexivity).
  apply (id_move (e_id e) (LThr t)); [lia|rewrite Hf; apply HI|rewrite Hx; apply (d_lt c HI _ _ Hs)|].
  intros [q|u|] j.
  - cbn [id_at]. rewrite Ht. unfold fupd. destruct (N.eqb_spec q k) as [->|Hne]; [discriminate|].
    intros A. apply (elsewhere _ _ _ (LTab q) j Hs); [congruence|exact A].
  - intros H. destruct (thr_cases u j H) as [[-> Hj]|[_ H']]; [left; split; congruence|].
    apply (elsewhere _ _ _ (LThr u) j Hs); [discriminate|exact H'].
  - cbn [id_at]. rewrite Hf. intros A. apply (elsewhere _ _ _ LFree j Hs); [discriminate|exact A].
Qed.
End Effects.

Lemma tid_fupd_same (tab : N -> option entry) k e e' : tab k = Some e -> e_id e' = e_id e ->
  forall q, tid (fupd tab k (Some e') q) = tid (tab q).
Proof. intros Hk He q. unfold fupd. destruct (N.eqb_spec q k) as [->|]; [|reflexivity]. rewrite Hk. cbn. congruence. Qed.

Lemma freed_cons e log : flat_map ev_freed (e :: log) = ev_freed e ++ flat_map ev_freed log.
Proof. reflexivity. Qed.

Lemma id_crash c t : IdInv c -> IdInv (crash c t).
Proof. intros [A B C]. constructor; assumption. Qed.

(* the step of thread t, whose record Hn gives, has the effect described by lemma L *)
Ltac eff L Hn HI := eapply (L _ _ _ _ _ Hn); [reflexivity|exact HI|..].

Lemma id_step nb c t : IdInv c -> IdInv (step nb c t).
Proof.
  intros HI. unfold step. destruct (c_crash c); [exact HI|].
  destruct (nth_error (c_thr c) t) as [th|] eqn:Hn; [|exact HI].
  destruct th as [p ops held]. unfold step_thread. cbn [t_pc t_ops t_held].
  destruct p.
  - destruct ops as [|o r]; [exact HI|].
    destruct o as [k|k p|k n|k]; try (eff eff_neutral Hn HI; reflexivity).
    destruct (0 <? c_bud c k)%Z; [|exact HI].
    eff eff_neutral Hn HI; reflexivity.
  - destruct (negb _); [|exact HI]. eff eff_neutral Hn HI; reflexivity.
  - eff eff_neutral Hn HI; reflexivity.
  - destruct (negb _); [|exact HI]. destruct (c_tab c k) as [e|] eqn:Ek.
    + eff eff_neutral Hn HI; try reflexivity. cbn [c_tab]. apply (tid_fupd_same _ _ e _ Ek). reflexivity.
    + eff eff_neutral Hn HI; reflexivity.
  - eff eff_neutral Hn HI; reflexivity.
  - eff eff_alloc Hn HI; reflexivity.
  - destruct (negb _); [|exact HI]. destruct (c_tab c k) as [e|] eqn:Ek.
    + eff eff_free Hn HI; try reflexivity. cbn [c_tab]. apply (tid_fupd_same _ _ e _ Ek). reflexivity.
    + eff eff_publish Hn HI; try reflexivity. exact Ek.
  - eff eff_neutral Hn HI; reflexivity.
  - destruct (negb _); [|exact HI]. destruct (c_tab c k) as [e|] eqn:Ek.
    + eff eff_neutral Hn HI; reflexivity.
    + apply id_crash, HI.
  - destruct (c_tab c k) as [e|] eqn:Ek; [|apply id_crash, HI].
    destruct (e_lmt e =? ov)%Z.
    + destruct ((ov + n =? e_cnt e) && (e_ret e - 1 =? 0))%Z.
      * eff eff_remove Hn HI; try reflexivity. exact Ek.
      * eff eff_neutral Hn HI; try reflexivity. cbn [c_tab]. apply (tid_fupd_same _ _ e _ Ek). reflexivity.
    + eff eff_neutral Hn HI; reflexivity.
  - destruct fr as [i|].
    + eff eff_free Hn HI; reflexivity.
    + eff eff_neutral Hn HI; reflexivity.
  - destruct (negb _); [|exact HI]. eff eff_neutral Hn HI; reflexivity.
  - destruct f; (eff eff_neutral Hn HI; reflexivity).
  - destruct (negb _); [|exact HI]. eff eff_neutral Hn HI; reflexivity.
  - destruct f; [|apply id_crash, HI]. destruct (c_tab c k) as [e|] eqn:Ek; [|apply id_crash, HI].
    destruct ((e_lmt e =? e_cnt e + 1) && (e_ret e =? 0))%Z.
    + eff eff_remove Hn HI; try reflexivity. exact Ek.
    + eff eff_neutral Hn HI; try reflexivity. cbn [c_tab]. apply (tid_fupd_same _ _ e _ Ek). reflexivity.
  - destruct fr as [i|].
    + eff eff_free Hn HI; reflexivity.
    + eff eff_neutral Hn HI; reflexivity.
Qed.

Lemma id_init progs : IdInv (init progs).
Proof.
  assert (H : forall l i, ~ id_at (init progs) l i).
  { intros [q|u|] i; cbn; [discriminate| |auto].
    intros (th & Hu & Hi). apply nth_error_In, in_map_iff in Hu. destruct Hu as (o & <- & _). discriminate. }
  constructor; [constructor|intros l l' i A; destruct (H l i A)|intros l i A; destruct (H l i A)].
Qed.

Theorem id_run nb progs sched : IdInv (run nb progs sched).
Proof. unfold run. apply fold_left_inv; [intros a b; apply id_step|apply id_init]. Qed.

(* an incarnation that is in the table is not on the freed list: its id would be in two places *)
Lemma tab_not_freed c k e : IdInv c -> c_tab c k = Some e -> ~ In (e_id e) (freed c).
Proof.
  intros H He A. enough (E : LTab k = LFree) by discriminate E.
  apply (d_one _ H _ _ (e_id e)); [cbn [id_at]; rewrite He; reflexivity|exact A].
Qed.
