(* Proofs about the device-memory model of GPUDefs.v (C43): the reservation pass of
   parsec_device_data_reserve_space evicts only idle copies of the clean list, keeps every copy the
   running task already holds, and never over-commits the zone; the rest of a task attaches and
   detaches nothing, and writes device memory only where the stage-in enqueues a copy. *)
From PV Require Import Base.Tac Coherency.CoherencyDefs Coherency.CoherencyProofs GPU.GPUDefs.
Local Open Scope Z_scope.

Lemma length_upd {A} i (f : A -> A) l : length (upd i f l) = length l.
Proof. apply length_mapi_from. Qed.
Lemma nth_error_upd {A} i j (f : A -> A) l :
  nth_error (upd i f l) j = option_map (fun x => if Nat.eqb j i then f x else x) (nth_error l j).
Proof. unfold upd. now rewrite nth_error_mapi_from. Qed.
Lemma nth_upd {A} i j (f : A -> A) l d :
  nth j (upd i f l) d = if Nat.eqb j i && Nat.ltb j (length l) then f (nth j l d) else nth j l d.
Proof.
  destruct (Nat.ltb j (length l)) eqn:E.
  - apply Nat.ltb_lt in E. rewrite andb_true_r. apply nth_error_nth.
    now rewrite nth_error_upd, (nth_error_nth' l d E).
  - apply Nat.ltb_ge in E. rewrite andb_false_r, !nth_overflow; rewrite ?length_upd; auto.
Qed.

Lemma mapi_from_shift {A B} (F G : nat -> A -> B) l : forall n,
  (forall k x, F (S k) x = G k x) -> mapi_from F (S n) l = mapi_from G n l.
Proof. induction l as [|x l IH]; intros n H; cbn [mapi_from]; [reflexivity|]. rewrite H. f_equal. now apply IH. Qed.
Lemma mapi_from_id {A} l : forall n, mapi_from (fun _ (x : A) => x) n l = l.
Proof. induction l as [|x l IH]; intros n; cbn [mapi_from]; [reflexivity|]. f_equal. apply IH. Qed.
Lemma upd_nil {A} i (f : A -> A) : upd i f [] = []. Proof. reflexivity. Qed.
Lemma upd_cons_0 {A} (f : A -> A) x l : upd 0 f (x :: l) = f x :: l.
Proof.
  unfold upd; cbn [mapi_from Nat.eqb]. f_equal.
  rewrite (mapi_from_shift _ (fun _ y => y)) by reflexivity. apply mapi_from_id.
Qed.
Lemma upd_cons_S {A} i (f : A -> A) x l : upd (S i) f (x :: l) = x :: upd i f l.
Proof. unfold upd; cbn [mapi_from Nat.eqb]. f_equal. now apply mapi_from_shift. Qed.
Lemma upd_over {A} i (f : A -> A) l : (length l <= i)%nat -> upd i f l = l.
Proof.
  revert i. induction l as [|x l IH]; intros i Hi; [reflexivity|]. cbn [length] in Hi.
  destruct i; [lia|]. rewrite upd_cons_S. f_equal. apply IH. lia.
Qed.

(* how many elements satisfy [p] before and after the element at [i] is updated *)
Definition b2n (b : bool) : nat := if b then 1%nat else 0%nat.
Lemma count_upd {A} (p : A -> bool) (f : A -> A) (dflt : A) : forall l i,
  (length (filter p (upd i f l)) + b2n (p (nth i l dflt)) =
   length (filter p l) + b2n (p (nth i (upd i f l) dflt)))%nat.
Proof.
  induction l as [|x l IH]; intros i; [reflexivity|].
  destruct i.
  - rewrite upd_cons_0. cbn [filter nth]. destruct (p x), (p (f x)); cbn [length b2n]; lia.
  - rewrite upd_cons_S. cbn [filter nth]. specialize (IH i). destruct (p x); cbn [length]; lia.
Qed.
Lemma filter_len_ext {A} (p : A -> bool) (d0 : A) : forall l1 l2, length l1 = length l2 ->
  (forall i, (i < length l1)%nat -> p (nth i l1 d0) = p (nth i l2 d0)) -> length (filter p l1) = length (filter p l2).
Proof.
  induction l1 as [|x l1 IH]; intros [|y l2] Hl H; cbn [length] in Hl; try discriminate; [reflexivity|].
  cbn [filter]. pose proof (H 0%nat ltac:(cbn; lia)) as H0. cbn [nth] in H0. rewrite H0.
  assert (length (filter p l1) = length (filter p l2)) as IHl.
  { apply IH; [lia|]. intros i Hi. apply (H (S i)). cbn [length]. lia. }
  destruct (p y); cbn [length]; lia.
Qed.

Lemma dats_upd_dev st g f : dats (upd_dev st g f) = dats st. Proof. reflexivity. Qed.
Lemma copy_at_upd_dev st g f d i : copy_at (upd_dev st g f) d i = copy_at st d i. Proof. reflexivity. Qed.
Lemma cap_upd_dev st g f : cap (upd_dev st g f) = cap st. Proof. reflexivity. Qed.
Lemma cap_upd_dat st d f : cap (upd_dat st d f) = cap st. Proof. reflexivity. Qed.
Lemma get_dev_upd_dat st d f g : get_dev (upd_dat st d f) g = get_dev st g. Proof. reflexivity. Qed.
Lemma get_dev_set_slot st d g o t : get_dev (set_slot st d g o) t = get_dev st t. Proof. reflexivity. Qed.

Lemma get_dev_upd_dev_same st g f : (pred g < length (devs st))%nat ->
  get_dev (upd_dev st g f) g = f (get_dev st g).
Proof.
  intros H. apply Nat.ltb_lt in H. unfold get_dev, upd_dev; cbn [devs]. now rewrite nth_upd, Nat.eqb_refl, H.
Qed.
Lemma get_dev_in_range st g x r : lru (get_dev st g) = x :: r -> (pred g < length (devs st))%nat.
Proof.
  intros H. destruct (Nat.ltb (pred g) (length (devs st))) eqn:E; [now apply Nat.ltb_lt|].
  apply Nat.ltb_ge in E. unfold get_dev in H. rewrite nth_overflow in H by exact E. discriminate.
Qed.

Lemma get_dat_upd_dat st d f e :
  get_dat (upd_dat st d f) e = if Nat.eqb e d && Nat.ltb e (length (dats st)) then f (get_dat st e) else get_dat st e.
Proof. apply nth_upd. Qed.

Lemma copy_at_dats a b d i : dats a = dats b -> copy_at a d i = copy_at b d i.
Proof. unfold copy_at, get_dat. now intros ->. Qed.
Lemma ndev_dats a b d : dats a = dats b -> ndev a d = ndev b d.
Proof. unfold ndev, get_dat. now intros ->. Qed.

Definition slot_ok (st : gstate) (d g : nat) : Prop := (d < length (dats st))%nat /\ (g < ndev st d)%nat.
Lemma copy_at_in_range st d i c : copy_at st d i = Some c -> (d < length (dats st))%nat.
Proof.
  intros H. destruct (Nat.ltb d (length (dats st))) eqn:E; [now apply Nat.ltb_lt|]. apply Nat.ltb_ge in E.
  unfold copy_at, get_dat in H. rewrite nth_overflow in H by exact E. destruct i; discriminate.
Qed.
Lemma copy_at_slot_ok st d g c : copy_at st d g = Some c -> slot_ok st d g.
Proof. intros H. split; [exact (copy_at_in_range _ _ _ _ H)|exact (getc_lt _ _ _ H)]. Qed.

Lemma getc_upd_set i j o cs :
  getc (upd i (fun _ => o) cs) j = if Nat.eqb j i && Nat.ltb j (length cs) then match o with Some c => Some c | None => None end else getc cs j.
Proof.
  unfold getc. rewrite nth_error_upd. destruct (nth_error cs j) as [x|] eqn:E; cbn [option_map].
  - assert (j < length cs)%nat as Hl by (apply nth_error_Some; congruence).
    apply Nat.ltb_lt in Hl. rewrite Hl, andb_true_r. destruct (Nat.eqb j i); reflexivity.
  - assert (length cs <= j)%nat as Hl by (now apply nth_error_None).
    apply Nat.ltb_ge in Hl. rewrite Hl, andb_false_r. reflexivity.
Qed.

Lemma copy_at_set_slot st d g o e i :
  copy_at (set_slot st d g o) e i =
  if (Nat.eqb e d && Nat.ltb e (length (dats st))) && (Nat.eqb i g && Nat.ltb i (ndev st d)) then o else copy_at st e i.
Proof.
  unfold copy_at, set_slot, upd_coh. rewrite get_dat_upd_dat.
  destruct (Nat.eqb e d && Nat.ltb e (length (dats st))) eqn:E; cbn [andb]; [|reflexivity].
  cbn [coh copies]. rewrite getc_upd_set.
  apply andb_prop in E. destruct E as [E1 _]. apply Nat.eqb_eq in E1. subst e. unfold ndev.
  destruct (Nat.eqb i g && Nat.ltb i (length (copies (coh (get_dat st d))))); [destruct o|]; reflexivity.
Qed.
Lemma set_slot_hit st d g o : slot_ok st d g -> copy_at (set_slot st d g o) d g = o.
Proof.
  intros [H1 H2]. apply Nat.ltb_lt in H1, H2. now rewrite copy_at_set_slot, !Nat.eqb_refl, H1, H2.
Qed.
Lemma set_slot_other st d g o e i : (e <> d \/ i <> g) -> copy_at (set_slot st d g o) e i = copy_at st e i.
Proof.
  intros H. rewrite copy_at_set_slot.
  destruct H as [H|H]; apply Nat.eqb_neq in H; rewrite H; cbn [andb]; rewrite ?andb_false_r; reflexivity.
Qed.
Lemma set_slot_none_other st e g x i : (x <> e \/ i <> g) -> copy_at (set_slot st e g None) x i = copy_at st x i.
Proof. apply set_slot_other. Qed.
Lemma copy_at_set_val st d g v e i : copy_at (set_val st d g v) e i = copy_at st e i.
Proof.
  unfold copy_at, set_val. rewrite get_dat_upd_dat.
  destruct (Nat.eqb e d && Nat.ltb e (length (dats st))); reflexivity.
Qed.
Lemma val_at_set_val st d i v e j :
  val_at (set_val st d i v) e j =
  if Nat.eqb e d && (Nat.eqb j i && Nat.ltb j (length (vals (get_dat st d)))) then v else val_at st e j.
Proof.
  unfold val_at, set_val. rewrite get_dat_upd_dat.
  destruct (Nat.eqb e d) eqn:E; cbn [andb]; [apply Nat.eqb_eq in E; subst e|reflexivity].
  destruct (Nat.ltb d (length (dats st))) eqn:Ed; cbn [vals]; [apply nth_upd|].
  (* no such datum: it has no memory *)
  apply Nat.ltb_ge in Ed. unfold get_dat. rewrite (nth_overflow (dats st) dflt_datum Ed). now rewrite andb_false_r.
Qed.

Lemma length_dats_set_slot st d g o : length (dats (set_slot st d g o)) = length (dats st).
Proof. apply length_upd. Qed.
Lemma length_dats_set_val st d g v : length (dats (set_val st d g v)) = length (dats st).
Proof. apply length_upd. Qed.
Lemma ndev_set_slot st d g o e : ndev (set_slot st d g o) e = ndev st e.
Proof.
  unfold ndev, set_slot, upd_coh. rewrite get_dat_upd_dat.
  destruct (Nat.eqb e d && Nat.ltb e (length (dats st))) eqn:E; [|reflexivity].
  cbn [coh copies]. apply length_upd.
Qed.
Lemma ndev_set_val st d g v e : ndev (set_val st d g v) e = ndev st e.
Proof.
  unfold ndev, set_val. rewrite get_dat_upd_dat.
  destruct (Nat.eqb e d && Nat.ltb e (length (dats st))); reflexivity.
Qed.

(* attach_new = set_slot, then poison the tile *)
Lemma copy_at_attach_new st d g e i : copy_at (attach_new st d g) e i = copy_at (set_slot st d g (Some fresh_dev_copy)) e i.
Proof. apply copy_at_set_val. Qed.
Lemma attach_new_hit st d g : slot_ok st d g -> copy_at (attach_new st d g) d g = Some fresh_dev_copy.
Proof. intros H. rewrite copy_at_attach_new. now apply set_slot_hit. Qed.
Lemma attach_new_other st d g e i : (e <> d \/ i <> g) -> copy_at (attach_new st d g) e i = copy_at st e i.
Proof. intros H. rewrite copy_at_attach_new. now apply set_slot_other. Qed.
Lemma attach_new_keeps st d g e i c : copy_at st d g = None -> copy_at st e i = Some c ->
  copy_at (attach_new st d g) e i = Some c.
Proof.
  intros Hn Hc. rewrite attach_new_other; [exact Hc|].
  destruct (Nat.eq_dec e d) as [->|He]; [right; intros ->; congruence|now left].
Qed.
Lemma length_dats_attach_new st d g : length (dats (attach_new st d g)) = length (dats st).
Proof. unfold attach_new. now rewrite length_dats_set_val, length_dats_set_slot. Qed.
Lemma ndev_attach_new st d g e : ndev (attach_new st d g) e = ndev st e.
Proof. unfold attach_new. rewrite ndev_set_val. apply ndev_set_slot. Qed.

Definition isS {A} (o : option A) : bool := match o with Some _ => true | None => false end.
Lemma isS_option_map {A B} (f : A -> B) o : isS (option_map f o) = isS o. Proof. destruct o; reflexivity. Qed.
Definition same_shape (a b : gstate) : Prop :=
  cap a = cap b /\ length (dats a) = length (dats b) /\ forall d i, isS (copy_at a d i) = isS (copy_at b d i).
Lemma same_shape_refl a : same_shape a a. Proof. repeat split. Qed.
Lemma same_shape_trans a b c : same_shape a b -> same_shape b c -> same_shape a c.
Proof.
  intros (A1 & A2 & A3) (B1 & B2 & B3). split; [congruence|]. split; [congruence|].
  intros d i. now rewrite A3.
Qed.
Definition same_vals (a b : gstate) : Prop := forall e i, val_at a e i = val_at b e i.

(* [a] differs from [b] only in the fields of the copies that exist and in the lists of the devices:
   no copy was attached or detached and no memory was written.  Everything a task does apart from
   set_slot and set_val is of this kind, so the lemmas take the form "quiet st b -> quiet (op st) b"
   and a sequence of operations is discharged by [auto with quiet]. *)
Definition quiet (a b : gstate) : Prop := same_shape a b /\ forall e, vals (get_dat a e) = vals (get_dat b e).
Lemma quiet_refl a : quiet a a. Proof. split; [apply same_shape_refl|reflexivity]. Qed.
Lemma quiet_trans a b c : quiet a b -> quiet b c -> quiet a c.
Proof. intros [A1 A2] [B1 B2]. split; [exact (same_shape_trans _ _ _ A1 B1)|]. intros e. now rewrite A2. Qed.
Lemma quiet_vals a b : quiet a b -> same_vals a b.
Proof. intros [_ H] e i. unfold val_at. now rewrite H. Qed.

Lemma quiet_upd_dev st g f b : quiet st b -> quiet (upd_dev st g f) b.
Proof. intros H. exact H. Qed.
Lemma quiet_upd_coh st d f b :
  (forall dt i, isS (getc (copies (f dt)) i) = isS (getc (copies dt) i)) -> quiet st b -> quiet (upd_coh st d f) b.
Proof.
  intros Hf. apply quiet_trans. split; [split; [reflexivity|split]|].
  - apply length_upd.
  - intros e i. unfold copy_at, upd_coh. rewrite get_dat_upd_dat.
    destruct (Nat.eqb e d && Nat.ltb e (length (dats st))); [apply Hf|reflexivity].
  - intros e. unfold upd_coh. rewrite get_dat_upd_dat.
    destruct (Nat.eqb e d && Nat.ltb e (length (dats st))); reflexivity.
Qed.
Lemma upd_at_shape d h cs i : isS (getc (upd_at d h cs) i) = isS (getc cs i).
Proof. rewrite getc_upd_at. apply isS_option_map. Qed.
Lemma quiet_upd_copy st d i f b : quiet st b -> quiet (upd_copy st d i f) b.
Proof. apply quiet_upd_coh. intros dt j. apply upd_at_shape. Qed.
Lemma quiet_chop st g d b : quiet st b -> quiet (chop st g d) b. Proof. apply quiet_upd_dev. Qed.
Lemma quiet_push_lru st g d b : quiet st b -> quiet (push_lru st g d) b. Proof. apply quiet_upd_dev. Qed.
Lemma quiet_push_owned st g d b : quiet st b -> quiet (push_owned st g d) b. Proof. apply quiet_upd_dev. Qed.

Lemma start_shape dt g m i : isS (getc (copies (fst (start dt g m))) i) = isS (getc (copies dt) i).
Proof.
  destruct (getc (copies dt) g) as [c|] eqn:Eg.
  - destruct (start_spec_gen dt g m c Eg) as (cs' & Hs & _ & Hg). rewrite Hs. cbn [fst copies].
    rewrite Hg. apply isS_option_map.
  - unfold start. now rewrite Eg.
Qed.
Lemma endt_shape dt g m i : isS (getc (copies (endt dt g m)) i) = isS (getc (copies dt) i).
Proof. apply upd_at_shape. Qed.
Lemma setv_shape dt g v i : isS (getc (copies (setv dt g v)) i) = isS (getc (copies dt) i).
Proof. apply upd_at_shape. Qed.
Lemma incv_shape dt g i : isS (getc (copies (incv dt g)) i) = isS (getc (copies dt) i).
Proof. apply upd_at_shape. Qed.
Lemma transfer_shape dt g m i : isS (getc (copies (fst (transfer dt g m))) i) = isS (getc (copies dt) i).
Proof.
  unfold transfer. destruct (start dt g m) as [dt1 r] eqn:Es. cbn [fst].
  rewrite endt_shape. replace dt1 with (fst (start dt g m)) by now rewrite Es. apply start_shape.
Qed.

(* the *_shape lemmas are in the database for the premise of quiet_upd_coh *)
Create HintDb quiet.
#[export] Hint Resolve quiet_refl quiet_upd_dev quiet_upd_coh quiet_upd_copy quiet_chop quiet_push_lru quiet_push_owned
  start_shape endt_shape setv_shape incv_shape transfer_shape : quiet.

Lemma shape_set_val st d i v : same_shape (set_val st d i v) st.
Proof.
  split; [reflexivity|]. split; [apply length_dats_set_val|]. intros e j. now rewrite copy_at_set_val.
Qed.
Lemma shape_push_lru st g d : same_shape (push_lru st g d) st. Proof. repeat split. Qed.

Definition has_on (g : nat) (x : datum) : bool := isS (getc (copies (coh x)) g).
Lemma resident_dats a b g : dats a = dats b -> resident a g = resident b g.
Proof. unfold resident. now intros ->. Qed.
Lemma resident_ext a b g : length (dats a) = length (dats b) ->
  (forall d, isS (copy_at a d g) = isS (copy_at b d g)) -> resident a g = resident b g.
Proof. intros Hl H. apply (filter_len_ext (has_on g) dflt_datum); [exact Hl|]. intros d _. apply H. Qed.
Lemma resident_shape a b g : same_shape a b -> resident a g = resident b g.
Proof. intros (_ & Hl & Hs). apply resident_ext; auto. Qed.
Lemma resident_set_slot st d g o :
  (resident (set_slot st d g o) g + b2n (isS (copy_at st d g)) =
   resident st g + b2n (isS (copy_at (set_slot st d g o) d g)))%nat.
Proof. apply (count_upd (has_on g) _ dflt_datum). Qed.

Lemma resident_evict st e g c : copy_at st e g = Some c -> (resident (set_slot st e g None) g + 1 = resident st g)%nat.
Proof.
  intros Hc. pose proof (resident_set_slot st e g None) as H.
  rewrite set_slot_hit, Hc in H by exact (copy_at_slot_ok _ _ _ _ Hc). cbn [isS b2n] in H. lia.
Qed.
Lemma resident_attach st d g : (resident (attach_new st d g) g <= S (resident st g))%nat.
Proof.
  unfold attach_new. rewrite (resident_shape _ _ g (shape_set_val _ _ _ _)).
  pose proof (resident_set_slot st d g (Some fresh_dev_copy)) as H. revert H.
  destruct (isS (copy_at st d g)), (isS (copy_at (set_slot st d g (Some fresh_dev_copy)) d g)); cbn [b2n]; lia.
Qed.

(* what the loop returns: the victim was in the clean list, had no reader, is not named by an earlier flow of
   the task; only its slot changed; the dirty list is untouched and the clean list only lost elements *)
Lemma evict_loop_spec fuel : forall st g earlier st' e,
  evict_loop fuel st g earlier = Some (st', e) ->
  In e (lru (get_dev st g)) /\ ~ In e earlier /\
  (exists c, copy_at st e g = Some c /\ rdr c = 0) /\
  dats st' = dats (set_slot st e g None) /\ cap st' = cap st /\
  owned (get_dev st' g) = owned (get_dev st g) /\
  (forall x, In x (lru (get_dev st' g)) -> In x (lru (get_dev st g))).
Proof.
  induction fuel as [|f IH]; intros st g earlier st' e H; cbn [evict_loop] in H; [discriminate|].
  destruct (lru (get_dev st g)) as [|e0 rest] eqn:El; [discriminate|].
  pose proof (get_dev_in_range st g e0 rest El) as Hr.
  set (st1 := upd_dev st g (fun v => mkdev rest (owned v))) in *.
  assert (Hg1 : get_dev st1 g = mkdev rest (owned (get_dev st g))) by (unfold st1; now rewrite get_dev_upd_dev_same).
  (* unless e0 is the victim, the scan goes on in st1, whose clean list is [rest] *)
  assert (Hgo : evict_loop f st1 g earlier = Some (st', e) \/
                (set_slot st1 e0 g None, e0) = (st', e) /\ ~ In e0 earlier /\
                exists c, copy_at st e0 g = Some c /\ rdr c = 0).
  { destruct (copy_at st1 e0 g) as [c|] eqn:Ec; [|now left].
    destruct (negb (rdr c =? 0)) eqn:Er; [now left|].
    destruct (existsb (Nat.eqb e0) earlier) eqn:Ee; [now left|]. right.
    split; [now inversion H|]. split.
    - intros Hin. assert (existsb (Nat.eqb e0) earlier = true) as Hx; [|congruence].
      apply existsb_exists. exists e0. split; [exact Hin|apply Nat.eqb_refl].
    - exists c. split; [exact Ec|]. apply negb_false_iff in Er. lia. }
  clear H. destruct Hgo as [H|(E & Hn & Hc)].
  - destruct (IH _ _ _ _ _ H) as (Hi & Hn & Hc & Hd & Hcap & Ho & Hl).
    rewrite Hg1 in Hi, Ho, Hl. cbn [lru owned] in Hi, Ho, Hl.
    repeat split; auto.
    + now right.
    + intros x Hx. right. now apply Hl.
  - inversion E; subst st' e. rewrite get_dev_set_slot, Hg1. cbn [lru owned].
    repeat split; auto.
    + now left.
    + intros x Hx. now right.
Qed.

(* how the state [st] reached during the pass relates to the state [st0] it started from; transitive,
   so each step is described relative to its own start *)
Record Rinv (st0 st : gstate) (g : nat) : Prop := mkRinv {
  ri_cap : cap st = cap st0;
  ri_len : length (dats st) = length (dats st0);
  ri_ndev : forall d, ndev st d = ndev st0 d;
  ri_lru : forall x, In x (lru (get_dev st g)) -> In x (lru (get_dev st0 g));
  ri_owned : owned (get_dev st g) = owned (get_dev st0 g);
  ri_other : forall d i, i <> g -> copy_at st d i = copy_at st0 d i;
  ri_kept : forall d c, copy_at st0 d g = Some c -> rdr c <> 0 \/ ~ In d (lru (get_dev st0 g)) ->
            copy_at st d g = Some c }.

Lemma Rinv_refl st g : Rinv st st g.
Proof. constructor; auto. Qed.
Lemma Rinv_trans a b c g : Rinv a b g -> Rinv b c g -> Rinv a c g.
Proof.
  intros [A1 A2 A3 A4 A5 A6 A7] [B1 B2 B3 B4 B5 B6 B7]. constructor.
  - congruence.
  - congruence.
  - intros d. now rewrite B3.
  - auto.
  - congruence.
  - intros d i Hi. now rewrite B6, A6.
  - intros d x Hx Hk. apply B7; [now apply A7|]. destruct Hk as [Hk|Hk]; [now left|right; auto].
Qed.
Lemma slot_ok_Rinv st0 st g d : Rinv st0 st g -> slot_ok st0 d g -> slot_ok st d g.
Proof. intros HR [H1 H2]. split; [rewrite (ri_len _ _ _ HR)|rewrite (ri_ndev _ _ _ HR)]; assumption. Qed.

Lemma Rinv_attach st d g : copy_at st d g = None -> Rinv st (attach_new st d g) g.
Proof.
  intros Hn. constructor.
  - reflexivity.
  - apply length_dats_attach_new.
  - intros e. apply ndev_attach_new.
  - auto.
  - reflexivity.
  - intros e i Hi. apply attach_new_other. now right.
  - intros e c Hc _. now apply attach_new_keeps.
Qed.
Lemma Rinv_evict fuel st g earlier st' e : evict_loop fuel st g earlier = Some (st', e) -> Rinv st st' g.
Proof.
  intros H. destruct (evict_loop_spec _ _ _ _ _ _ H) as (Hi & _ & (c & Hc & Hr) & Hd & Hcap & Ho & Hl).
  constructor; auto.
  - rewrite Hd. apply length_dats_set_slot.
  - intros x. rewrite (ndev_dats _ _ x Hd). apply ndev_set_slot.
  - intros x i Hi'. rewrite (copy_at_dats _ _ x i Hd). apply set_slot_none_other. now right.
  - intros x cx Hx Hk. rewrite (copy_at_dats _ _ x g Hd), set_slot_none_other; [exact Hx|left].
    (* the victim was neither busy nor off the list *)
    intros ->. rewrite Hc in Hx. inversion Hx; subst cx. destruct Hk; contradiction.
Qed.

Lemma reserve_flow_spec st g earlier d ev st1 ev1 :
  reserve_flow st g earlier d ev = Some (st1, ev1) ->
  Rinv st st1 g /\
  (forall x c, In x earlier -> copy_at st x g = Some c -> copy_at st1 x g = Some c) /\
  (slot_ok st d g -> copy_at st1 d g <> None) /\
  (forall e, In e ev1 -> In e ev \/ In e (lru (get_dev st g))) /\
  ((resident st g <= cap st)%nat -> (resident st1 g <= cap st)%nat).
Proof.
  unfold reserve_flow. intros H.
  destruct (copy_at st d g) as [c0|] eqn:Ed.
  { inversion H; subst st1 ev1. split; [apply Rinv_refl|]. split; [auto|]. split; [congruence|]. auto. }
  destruct (Nat.ltb (resident st g) (cap st)) eqn:Ecap.
  { inversion H; subst st1 ev1. split; [now apply Rinv_attach|]. split; [|split; [|split]].
    - intros x c _. now apply attach_new_keeps.
    - intros Hs. now rewrite attach_new_hit.
    - auto.
    - intros _. apply Nat.ltb_lt in Ecap. pose proof (resident_attach st d g). lia. }
  (* the zone is full: a victim [e] leaves, then the new copy takes its tile *)
  destruct (evict_loop (S (length (lru (get_dev st g)))) st g earlier) as [[ste e]|] eqn:Eev; [|discriminate].
  inversion H; subst st1 ev1; clear H.
  pose proof (Rinv_evict _ _ _ _ _ _ Eev) as HRe.
  destruct (evict_loop_spec _ _ _ _ _ _ Eev) as (Hi & Hne & (c & Hc & _) & Hd & _).
  assert (Hx : forall x, x <> e -> copy_at ste x g = copy_at st x g).
  { intros x Hx. rewrite (copy_at_dats _ _ x g Hd). apply set_slot_none_other. now left. }
  assert (Hn : copy_at ste d g = None) by (rewrite Hx; [exact Ed|congruence]).
  split; [exact (Rinv_trans _ _ _ _ HRe (Rinv_attach _ _ _ Hn))|]. split; [|split; [|split]].
  - intros x cx Hin Hcx. apply attach_new_keeps; [exact Hn|]. rewrite Hx; [exact Hcx|]. now intros ->.
  - intros Hs. now rewrite attach_new_hit by exact (slot_ok_Rinv _ _ _ _ HRe Hs).
  - intros x Hx'. apply in_app_or in Hx'. destruct Hx' as [Hx'|[<-|[]]]; auto.
  - intros Hle. pose proof (resident_attach ste d g) as Ha. rewrite (resident_dats _ _ g Hd) in Ha.
    pose proof (resident_evict st e g c Hc). lia.
Qed.

Lemma reserve_from_spec g : forall fl st earlier ev st' ev',
  reserve_from st g earlier fl ev = Some (st', ev') ->
  Rinv st st' g /\
  (forall x c, In x earlier -> copy_at st x g = Some c -> copy_at st' x g = Some c) /\
  (forall f, In f fl -> slot_ok st (fd f) g -> copy_at st' (fd f) g <> None) /\
  (forall e, In e ev' -> In e ev \/ In e (lru (get_dev st g))) /\
  ((resident st g <= cap st)%nat -> (resident st' g <= cap st)%nat).
Proof.
  induction fl as [|f r IH]; intros st earlier ev st' ev' H; cbn [reserve_from] in H.
  - inversion H; subst st' ev'. split; [apply Rinv_refl|]. split; [auto|]. split; [intros f []|]. auto.
  - destruct (reserve_flow st g earlier (fd f) ev) as [[st1 ev1]|] eqn:Ef; [|discriminate].
    destruct (reserve_flow_spec _ _ _ _ _ _ _ Ef) as (HR1 & He1 & Hd1 & Hv1 & Hc1).
    destruct (IH _ _ _ _ _ H) as (HR2 & He2 & Hf2 & Hv2 & Hc2).
    split; [exact (Rinv_trans _ _ _ _ HR1 HR2)|]. split; [|split; [|split]].
    + intros x c Hx Ex. apply He2; [apply in_or_app; now left|]. now apply He1.
    + intros f0 [<-|Hin] Hs; [|exact (Hf2 f0 Hin (slot_ok_Rinv _ _ _ _ HR1 Hs))].
      (* the copy the flow got is named by an earlier flow from now on *)
      destruct (copy_at st1 (fd f) g) as [c1|] eqn:E1; [|now destruct (Hd1 Hs)].
      rewrite (He2 (fd f) c1); [discriminate|apply in_or_app; right; now left|exact E1].
    + intros e He. destruct (Hv2 e He) as [Hx|Hx]; [now apply Hv1|right; exact (ri_lru _ _ _ HR1 e Hx)].
    + rewrite (ri_cap _ _ _ HR1) in Hc2. auto.
Qed.

(* the reservation pass on device g never leaves more copies attached on a device than its zone has tiles *)
Theorem reserve_zone st g fl st' ev g' : reserve st g fl = Some (st', ev) ->
  (resident st g' <= cap st)%nat -> (resident st' g' <= cap st')%nat /\ cap st' = cap st.
Proof.
  intros H Hle. destruct (reserve_from_spec g fl st [] [] st' ev H) as (HR & _ & _ & _ & Hc).
  split; [rewrite (ri_cap _ _ _ HR)|exact (ri_cap _ _ _ HR)].
  destruct (Nat.eq_dec g' g) as [->|Hne]; [auto|].
  rewrite (resident_ext st' st g'); [exact Hle|exact (ri_len _ _ _ HR)|].
  intros d. now rewrite (ri_other _ _ _ HR).
Qed.

Lemma quiet_release_reader st t d a b : quiet st b -> quiet (release_reader st t d a) b.
Proof.
  intros H. unfold release_reader. destruct (copy_at st d t) as [c|]; [|exact H].
  destruct ((rdr c - 1 =? 0) && a); [destruct (is_owned (cst c))|]; auto with quiet.
Qed.
#[export] Hint Resolve quiet_release_reader : quiet.

Lemma quiet_pick_src n : forall t st d g inver pot b, quiet st b -> quiet (snd (pick_src n t st d g inver pot)) b.
Proof.
  induction n as [|n IH]; intros t st d g inver pot b H; cbn [pick_src]; [exact H|].
  destruct (Nat.eqb t g); [now apply IH|].
  destruct (copy_at st d t) as [c|]; [|now apply IH].
  destruct (negb (ver c =? inver)); [now apply IH|].
  destruct (is_invalid (cst c)); [now apply IH|].
  destruct (0 <=? rdr c); [cbn [snd]; auto with quiet|now apply IH].
Qed.

(* one flow of the stage-in pass is quiet, except that the device tile is written when a copy is enqueued *)
Lemma stage_in_cases st g f st' s cps : stage_in st g f = Some (st', s, cps) ->
  exists sta, quiet sta st /\
    ((cps = [] /\ st' = sta) \/
     (cps = [(fd f, s, g)] /\ st' = set_val sta (fd f) g (val_at sta (fd f) s))).
Proof.
  unfold stage_in. intros H.
  destruct (copy_at st (fd f) g) as [ge|]; [|discriminate].
  destruct (copy_at st (fd f) 0) as [cin|]; [|discriminate].
  set (sta := if writes (fm f) then chop st g (fd f) else st) in *.
  assert (Ha : quiet sta st) by (unfold sta; destruct (writes (fm f)); auto with quiet).
  destruct (reads (fm f) && (xfer ge =? 1)).
  { inversion H; subst. eexists. split; [|left; split; reflexivity]. auto with quiet. }
  destruct (if reads (fm f) && negb (writes (fm f))
            then pick_src (pred (ndev sta (fd f))) 1 sta (fd f) g (ver cin) false
            else (None, false, sta)) as [[sel pot] st1] eqn:Ep.
  assert (H1 : quiet st1 st).
  { destruct (reads (fm f) && negb (writes (fm f))); [|inversion Ep; subst; exact Ha].
    replace st1 with (snd (pick_src (pred (ndev sta (fd f))) 1 sta (fd f) g (ver cin) false)) by now rewrite Ep.
    now apply quiet_pick_src. }
  destruct (match sel with Some _ => false | None => pot && (is_invalid (cst cin) || (xfer cin =? 1)) end); [discriminate|].
  destruct (copy_at st1 (fd f) (match sel with Some t => t | None => 0%nat end)) as [sc|]; [|discriminate].
  destruct (snd (start (coh (get_dat st1 (fd f))) g (cmode (fm f))) =? -1);
    inversion H; subst st' s cps; clear H; eexists.
  - split; [|left; split; reflexivity]. destruct (writes (fm f)), sel; auto 7 with quiet.
  - split; [|right; split; reflexivity]. auto 7 with quiet.
Qed.

Lemma shape_stage_in st g f st' s c : stage_in st g f = Some (st', s, c) -> same_shape st' st.
Proof.
  intros H. destruct (stage_in_cases _ _ _ _ _ _ H) as (sta & [Hs _] & [[_ ->]|[_ ->]]); [exact Hs|].
  exact (same_shape_trans _ _ _ (shape_set_val _ _ _ _) Hs).
Qed.
Lemma shape_stage_all g : forall fl st srcs cps st' srcs' cps',
  stage_all st g fl srcs cps = Some (st', srcs', cps') -> same_shape st' st.
Proof.
  induction fl as [|f r IH]; intros st srcs cps st' srcs' cps' H; cbn [stage_all] in H.
  - inversion H; subst. apply same_shape_refl.
  - destruct (stage_in st g f) as [[[st1 s] c]|] eqn:Es; [|discriminate].
    eapply same_shape_trans; [eapply IH; exact H|]. eapply shape_stage_in; exact Es.
Qed.

Lemma quiet_complete_push g : forall fl st srcs b, quiet st b -> quiet (complete_push st g fl srcs) b.
Proof.
  induction fl as [|f r IH]; intros st srcs b H; cbn [complete_push]; [exact H|].
  destruct srcs as [|s sr]; [exact H|]. apply IH.
  destruct (copy_at st (fd f) g) as [c|]; [|exact H].
  destruct (xfer c =? 1); [|exact H]. destruct (Nat.eqb s 0); auto 6 with quiet.
Qed.
Lemma quiet_pop g : forall fl st cps b, quiet st b -> quiet (fst (pop st g fl cps)) b.
Proof.
  induction fl as [|f r IH]; intros st cps b H; cbn [pop]; [exact H|].
  destruct (writes (fm f) && fpo f); apply IH; destruct (reads (fm f)); auto with quiet.
Qed.
Lemma quiet_epilog g : forall fl st b, quiet st b -> quiet (epilog st g fl) b.
Proof.
  induction fl as [|f r IH]; intros st b H; cbn [epilog]; [exact H|].
  destruct (negb (writes (fm f))); [now apply IH|].
  destruct (fpo f); [destruct (copy_at st (fd f) g) as [gc|]|]; apply IH; auto 6 with quiet.
Qed.
Lemma quiet_cpu_prepare st f b : quiet st b -> quiet (cpu_prepare st f) b.
Proof.
  intros H. unfold cpu_prepare. destruct (writes (fm f)); [|exact H].
  destruct (1 <=? _); [destruct (reads (fm f))|]; auto 6 with quiet.
Qed.

Lemma shape_write_all st i fl v : same_shape (write_all st i fl v) st.
Proof.
  unfold write_all. apply fold_left_inv; [|apply same_shape_refl]. intros s f H.
  destruct (writes (fm f)); [exact (same_shape_trans _ _ _ (shape_set_val _ _ _ _) H)|exact H].
Qed.
Lemma shape_run_d2h st g fl : same_shape (run_d2h st g fl) st.
Proof.
  unfold run_d2h. apply fold_left_inv; [|apply same_shape_refl]. intros s f H.
  destruct (writes (fm f) && fpo f); [exact (same_shape_trans _ _ _ (shape_set_val _ _ _ _) H)|exact H].
Qed.
Lemma shape_cpu_task st direct tid fl : same_shape (tr_st (cpu_task st direct tid fl)) st.
Proof.
  unfold cpu_task; cbn [tr_st]. eapply same_shape_trans; [apply shape_write_all|].
  destruct direct; [apply same_shape_refl|].
  exact (proj1 (fold_left_inv cpu_prepare (fun s => quiet s st) (fun s f => quiet_cpu_prepare s f st) fl st (quiet_refl st))).
Qed.

(* after the reservation pass, a device task attaches and detaches nothing *)
Lemma dev_task_shape st tid g fl tr : dev_task st tid g fl = Some tr ->
  exists st1 ev, reserve st g fl = Some (st1, ev) /\ same_shape (tr_st tr) st1.
Proof.
  unfold dev_task. intros H.
  destruct (reserve st g fl) as [[st1 ev]|]; [|discriminate].
  destruct (stage_all st1 g fl [] []) as [[[st2 srcs] cps]|] eqn:Es; [|discriminate].
  set (st4 := write_all (complete_push st2 g fl srcs) g fl _) in H.
  pose proof (proj1 (quiet_pop g fl st4 cps st4 (quiet_refl st4))) as Hp.
  destruct (pop st4 g fl cps) as [st5 cps2]. cbn [fst] in Hp.
  inversion H; subst tr; clear H. exists st1, ev. split; [reflexivity|]. cbn [tr_st].
  eapply same_shape_trans; [exact (proj1 (quiet_epilog g fl _ _ (quiet_refl _)))|].
  eapply same_shape_trans; [apply shape_run_d2h|].
  eapply same_shape_trans; [exact Hp|].
  eapply same_shape_trans; [apply shape_write_all|].
  eapply same_shape_trans; [exact (proj1 (quiet_complete_push g fl st2 srcs _ (quiet_refl _)))|].
  eapply shape_stage_all; exact Es.
Qed.

Lemma zone_shape a b g : same_shape a b -> (resident b g <= cap b)%nat ->
  (resident a g <= cap a)%nat /\ cap a = cap b.
Proof. intros Hs H. rewrite (resident_shape a b g Hs). destruct Hs as (-> & _). auto. Qed.

Lemma run_task_zone st direct tid t tr g : run_task st direct tid t = Some tr ->
  (resident st g <= cap st)%nat -> (resident (tr_st tr) g <= cap (tr_st tr))%nat /\ cap (tr_st tr) = cap st.
Proof.
  unfold run_task. intros H Hle. destruct (place t) as [|g0].
  - inversion H; subst tr. exact (zone_shape _ _ g (shape_cpu_task _ _ _ _) Hle).
  - destruct (dev_task_shape _ _ _ _ _ H) as (st1 & ev & Hr & Hs).
    destruct (reserve_zone _ _ _ _ _ g Hr Hle) as (H1 & H2).
    destruct (zone_shape _ _ g Hs H1) as (H3 & H4). split; [exact H3|congruence].
Qed.
Lemma run_from_zone direct g : forall ts st tid, (resident st g <= cap st)%nat ->
  forall tr, In tr (fst (run_from st direct tid ts)) ->
  (resident (tr_st tr) g <= cap (tr_st tr))%nat /\ cap (tr_st tr) = cap st.
Proof.
  induction ts as [|t r IH]; intros st tid Hle tr Hin; cbn [run_from] in Hin; [destruct Hin|].
  destruct (run_task st direct tid t) as [tr0|] eqn:Et; [|destruct Hin].
  destruct (run_task_zone _ _ _ _ _ g Et Hle) as (H0 & Hc0).
  destruct (run_from (tr_st tr0) direct (S tid) r) as [l ok] eqn:Er. cbn [fst] in Hin.
  destruct Hin as [<-|Hin]; [auto|].
  rewrite <- Hc0. apply (IH (tr_st tr0) (S tid) H0). now rewrite Er.
Qed.

Definition cap_ok (st : gstate) : Prop := forall g, (resident st g <= cap st)%nat.
Lemma run_from_cap_ok direct : forall ts st tid, cap_ok st ->
  forall tr, In tr (fst (run_from st direct tid ts)) -> cap_ok (tr_st tr).
Proof. intros ts st tid Hok tr Hin g. exact (proj1 (run_from_zone direct g ts st tid (Hok g) tr Hin)). Qed.

Lemma resident_init nd ngpu c g : (1 <= g)%nat -> resident (init_state nd ngpu c) g = 0%nat.
Proof.
  intros Hg. unfold resident, init_state; cbn [dats].
  induction (init_vals nd) as [|v l IH]; [reflexivity|]. cbn [map filter].
  assert (getc (copies (coh (init_datum (S ngpu) v))) g = None) as ->; [|exact IH].
  unfold init_datum; cbn [coh copies]. unfold getc. destruct g; [lia|]. cbn [nth_error pred].
  destruct (nth_error (repeat (@None copy) ngpu) g) as [o|] eqn:E; [|reflexivity].
  apply nth_error_In in E. apply repeat_spec in E. now subst o.
Qed.
