(* Proofs about the post-kernel sequence of device_gpu.c (C43, remote successors):
   parsec_gpu_task_update_pushout sets the pushout bit of a written flow exactly when the upper layer asked for it or
   some successor lives on another rank, whatever the order in which iterate_successors enumerates the successors;
   kernel_pop + the device-to-host copies + kernel_epilog then leave the host copy of such a flow with the version and
   the content of the device copy. *)
From PV Require Import Base.Tac Coherency.CoherencyDefs Coherency.CoherencyProofs GPU.GPUDefs GPU.GPUProofs.
Local Open Scope Z_scope.

Lemma memb_cons i j l : memb i (j :: l) = Nat.eqb i j || memb i l.
Proof. reflexivity. Qed.
Lemma memb_remove i j l : memb i (remove_nat j l) = memb i l && negb (Nat.eqb i j).
Proof.
  unfold memb, remove_nat. induction l as [|x l IH]; cbn [filter existsb]; [reflexivity|].
  destruct (Nat.eqb x j) eqn:E; cbn [negb existsb].
  - apply Nat.eqb_eq in E. subst x. rewrite IH. destruct (Nat.eqb i j); cbn; [now rewrite andb_false_r|reflexivity].
  - rewrite IH. destruct (Nat.eqb i x) eqn:E2; cbn [orb]; [|reflexivity].
    apply Nat.eqb_eq in E2. subst x. now rewrite E.
Qed.
Definition remote_for (i : nat) (e : nat * nat) : bool := Nat.eqb (fst e) i && negb (Nat.eqb (snd e) 0).

Lemma remote_for_pair i j r : remote_for i (j, r) = Nat.eqb j i && negb (Nat.eqb r 0). Proof. reflexivity. Qed.

Lemma fold_visit evs : forall po rem stop, (stop = true -> rem = []) ->
  forall i, memb i (fst (fst (fold_left visit evs (po, rem, stop)))) = memb i po || (memb i rem && existsb (remote_for i) evs).
Proof.
  induction evs as [|[j r] evs IH]; intros po rem stop Hs i; cbn [fold_left].
  - cbn [fst existsb]. now rewrite andb_false_r, orb_false_r.
  - unfold visit at 2. destruct stop.
    + rewrite (Hs eq_refl). rewrite IH by auto. cbn [memb existsb andb]. reflexivity.
    + destruct (negb (memb j rem)) eqn:Em.
      * rewrite IH by (destruct rem; [auto|discriminate]).
        cbn [existsb]. rewrite remote_for_pair.
        destruct (Nat.eqb j i) eqn:Eji; cbn [andb orb]; [|reflexivity].
        apply Nat.eqb_eq in Eji. subst j. apply negb_true_iff in Em. rewrite Em. reflexivity.
      * apply negb_false_iff in Em. destruct (negb (Nat.eqb r 0)) eqn:Er.
        -- rewrite IH by (destruct (remove_nat j rem); [auto|discriminate]).
           rewrite memb_cons, memb_remove. cbn [existsb]. rewrite remote_for_pair, Er.
           destruct (Nat.eqb i j) eqn:Eij.
           ++ apply Nat.eqb_eq in Eij. subst i. rewrite Nat.eqb_refl, Em. cbn [andb orb]. now rewrite orb_true_r.
           ++ rewrite Nat.eqb_sym, Eij. cbn [negb andb orb]. now rewrite andb_true_r.
        -- rewrite IH by (destruct rem; [auto|discriminate]).
           cbn [existsb]. rewrite remote_for_pair, Er. now rewrite andb_false_r.
Qed.

(* the one place where the offset of [indexed_from] is reasoned about: the only element that can carry index i *)
Lemma existsb_indexed (Q : nat -> flow -> bool) : forall fl k i,
  existsb (fun p => Nat.eqb (fst p) i && Q (fst p) (snd p)) (indexed_from k fl) =
  Nat.leb k i && match nth_error fl (i - k) with Some f => Q i f | None => false end.
Proof.
  induction fl as [|f r IH]; intros k i; cbn [indexed_from existsb fst snd].
  - destruct (i - k)%nat; now rewrite andb_false_r.
  - rewrite IH. destruct (Nat.eq_dec i k) as [->|Hne].
    + rewrite Nat.eqb_refl, Nat.sub_diag, Nat.leb_refl. cbn [nth_error andb].
      assert (Nat.leb (S k) k = false) as -> by (apply Nat.leb_gt; lia). apply orb_false_r.
    + assert (Nat.eqb k i = false) as -> by (apply Nat.eqb_neq; lia). cbn [andb orb].
      destruct (Nat.leb k i) eqn:Ek.
      * apply Nat.leb_le in Ek. assert (Nat.leb (S k) i = true) as -> by (apply Nat.leb_le; lia).
        replace (i - k)%nat with (S (i - S k)) by lia. reflexivity.
      * apply Nat.leb_gt in Ek. assert (Nat.leb (S k) i = false) as -> by (apply Nat.leb_gt; lia). reflexivity.
Qed.
Lemma existsb_indexed_0 (Q : nat -> flow -> bool) fl i :
  existsb (fun p => Nat.eqb (fst p) i && Q (fst p) (snd p)) (indexed fl) =
  match nth_error fl i with Some f => Q i f | None => false end.
Proof. unfold indexed. rewrite existsb_indexed. cbn [Nat.leb andb]. now rewrite Nat.sub_0_r. Qed.

Lemma memb_indexed (P : flow -> bool) fl i :
  memb i (map fst (filter (fun p => P (snd p)) (indexed fl))) = match nth_error fl i with Some f => P f | None => false end.
Proof.
  rewrite <- (existsb_indexed_0 (fun _ => P)). induction (indexed fl) as [|p l IH]; cbn [filter existsb]; [reflexivity|].
  destruct (P (snd p)); cbn [map andb]; [|now rewrite andb_false_r].
  now rewrite memb_cons, IH, andb_true_r, Nat.eqb_sym.
Qed.

Lemma existsb_remote_map i k l : existsb (remote_for i) (map (fun r => (k, r)) l) = Nat.eqb k i && has_remote l.
Proof.
  unfold has_remote. induction l as [|r l IH]; cbn [map existsb]; [now rewrite andb_false_r|].
  rewrite IH. unfold remote_for; cbn [fst snd]. destruct (Nat.eqb k i); reflexivity.
Qed.
Lemma remote_events (rem : list nat) (succs : list (list nat)) fl i :
  existsb (remote_for i)
    (flat_map (fun p => if memb (fst p) rem then map (fun r => (fst p, r)) (nth (fst p) succs []) else []) (indexed fl)) =
  match nth_error fl i with Some _ => memb i rem && has_remote (nth i succs []) | None => false end.
Proof.
  rewrite <- (existsb_indexed_0 (fun j _ => memb j rem && has_remote (nth j succs []))).
  induction (indexed fl) as [|p l IH]; cbn [flat_map existsb]; [reflexivity|].
  rewrite existsb_app, IH. f_equal.
  destruct (memb (fst p) rem); [apply existsb_remote_map|]. cbn. now rewrite andb_false_r.
Qed.

(* parsec_gpu_task_update_pushout decides exactly what the property requires, for every successor list and order *)
Theorem pushout_bits_spec fl succs i : memb i (pushout_bits fl succs) = needs_pushout fl succs i.
Proof.
  unfold pushout_bits, needs_pushout.
  assert (Hpo : memb i (po_init fl) = match nth_error fl i with Some f => fpo f | None => false end)
    by apply (memb_indexed fpo).
  assert (Hrem : memb i (rem_init fl) = match nth_error fl i with Some f => writes (fm f) && negb (fpo f) | None => false end)
    by apply (memb_indexed (fun f => writes (fm f) && negb (fpo f))).
  destruct (rem_init fl) as [|x rem] eqn:Er.
  - cbn [fst]. rewrite Hpo. cbn [memb existsb] in Hrem.
    destruct (nth_error fl i) as [f|]; [|reflexivity].
    destruct (fpo f); [reflexivity|]. cbn [orb negb] in *. rewrite andb_true_r in Hrem. now rewrite <- Hrem.
  - pose proof (fold_visit (events fl succs) (po_init fl) (x :: rem) false ltac:(discriminate) i) as Hf.
    destruct (fold_left visit (events fl succs) (po_init fl, x :: rem, false)) as [[po' rem'] st'] eqn:Efold.
    cbn [fst] in Hf. rewrite Hf, Hpo, Hrem.
    unfold events. rewrite Er, remote_events, Hrem.
    destruct (nth_error fl i) as [f|]; [|reflexivity].
    destruct (fpo f), (writes (fm f)), (has_remote (nth i succs [])); reflexivity.
Qed.

Lemma indexed_from_mapi fl : forall k, indexed_from k fl = mapi_from pair k fl.
Proof. induction fl as [|f r IH]; intros k; cbn [indexed_from mapi_from]; [reflexivity|]. now rewrite IH. Qed.
Lemma with_pushout_nth fl succs i :
  nth_error (with_pushout fl succs) i =
  option_map (fun f => mkflow (fd f) (fm f) (needs_pushout fl succs i)) (nth_error fl i).
Proof.
  unfold with_pushout, indexed. rewrite nth_error_map, indexed_from_mapi, nth_error_mapi_from. cbn [Nat.add].
  destruct (nth_error fl i); cbn [option_map fst snd]; [|reflexivity]. now rewrite pushout_bits_spec.
Qed.
Lemma with_pushout_fd fl succs : map fd (with_pushout fl succs) = map fd fl.
Proof.
  unfold with_pushout, indexed. generalize 0%nat as k. generalize (pushout_bits fl succs) as po.
  induction fl as [|f r IH]; intros po k; cbn [indexed_from map]; [reflexivity|]. cbn [fd snd]. f_equal. apply IH.
Qed.

Lemma copy_at_upd_copy st d i h e j :
  copy_at (upd_copy st d i h) e j =
  if Nat.eqb e d && Nat.ltb e (length (dats st))
  then option_map (fun c => if Nat.eqb j i then h c else c) (copy_at st e j) else copy_at st e j.
Proof.
  unfold copy_at, upd_copy, upd_coh. rewrite get_dat_upd_dat.
  destruct (Nat.eqb e d && Nat.ltb e (length (dats st))); [|reflexivity].
  cbn [coh copies]. apply getc_upd_at.
Qed.

Lemma length_dats_upd_copy st d i h : length (dats (upd_copy st d i h)) = length (dats st).
Proof. unfold upd_copy, upd_coh, upd_dat; cbn [dats]. apply length_upd. Qed.

(* kernel_pop and the device-to-host copies change no version *)
Lemma ver_upd_copy st d i h e j : (forall c, ver (h c) = ver c) ->
  option_map ver (copy_at (upd_copy st d i h) e j) = option_map ver (copy_at st e j).
Proof.
  intros Hh. rewrite copy_at_upd_copy. destruct (Nat.eqb e d && Nat.ltb e (length (dats st))); [|reflexivity].
  destruct (copy_at st e j) as [c|]; [cbn [option_map]|reflexivity]. destruct (Nat.eqb j i); now rewrite ?Hh.
Qed.
Lemma ver_release_reader st t d a e j :
  option_map ver (copy_at (release_reader st t d a) e j) = option_map ver (copy_at st e j).
Proof.
  unfold release_reader. destruct (copy_at st d t) as [c|]; [|reflexivity].
  (* the lists of the device do not matter to copy_at *)
  destruct ((rdr c - 1 =? 0) && a); [destruct (is_owned (cst c))|]; apply (ver_upd_copy st d t); reflexivity.
Qed.
Lemma ver_pop g : forall fl st cps e j,
  option_map ver (copy_at (fst (pop st g fl cps)) e j) = option_map ver (copy_at st e j).
Proof.
  induction fl as [|f r IH]; intros st cps e j; cbn [pop]; [reflexivity|].
  destruct (writes (fm f) && fpo f); rewrite IH, ?ver_upd_copy by reflexivity;
    (destruct (reads (fm f)); [apply ver_release_reader|reflexivity]).
Qed.
Lemma copy_at_run_d2h st g fl e j : copy_at (run_d2h st g fl) e j = copy_at st e j.
Proof.
  unfold run_d2h. apply (fold_left_inv _ (fun s => copy_at s e j = copy_at st e j)); [|reflexivity].
  intros s f H. destruct (writes (fm f) && fpo f); [now rewrite copy_at_set_val|exact H].
Qed.

Section OneTile.
Variables (d g : nat).
Hypothesis Hg : (1 <= g)%nat.
(* the device tiles are never the target of a device-to-host copy *)
Lemma run_d2h_dev : forall fl st e, val_at (run_d2h st g fl) e g = val_at st e g.
Proof.
  unfold run_d2h. induction fl as [|f r IH]; intros st e; cbn [fold_left]; [reflexivity|].
  rewrite IH. destruct (writes (fm f) && fpo f); [|reflexivity].
  rewrite val_at_set_val. assert (Nat.eqb g 0 = false) as -> by (apply Nat.eqb_neq; lia).
  cbn [andb]. now rewrite andb_false_r.
Qed.
(* with no tile twice in the task, the flow on d stands between flows on other tiles *)
Lemma only_flow fl f : NoDup (map fd fl) -> In f fl -> fd f = d ->
  exists l1 l2, fl = l1 ++ f :: l2 /\ (forall f0, In f0 l1 -> fd f0 <> d) /\ (forall f0, In f0 l2 -> fd f0 <> d).
Proof.
  intros Hnd Hin Hfd. apply in_split in Hin as (l1 & l2 & ->). exists l1, l2. split; [reflexivity|].
  rewrite map_app in Hnd. apply NoDup_remove_2 in Hnd. rewrite in_app_iff in Hnd.
  split; intros f0 Hf0 E; apply Hnd; rewrite Hfd, <- E; [left|right]; now apply in_map.
Qed.

Lemma run_d2h_frame : forall fl st, (forall f, In f fl -> fd f <> d) -> vals (get_dat (run_d2h st g fl) d) = vals (get_dat st d).
Proof.
  unfold run_d2h. induction fl as [|f r IH]; intros st Hn; cbn [fold_left]; [reflexivity|].
  rewrite IH by (intros f0 Hf0; apply Hn; now right).
  destruct (writes (fm f) && fpo f); [|reflexivity].
  unfold set_val. rewrite get_dat_upd_dat. assert (Nat.eqb d (fd f) = false) as ->; [|reflexivity].
  apply Nat.eqb_neq. intros E. apply (Hn f); [now left|auto].
Qed.
Lemma run_d2h_effect fl st f : NoDup (map fd fl) -> In f fl -> fd f = d -> writes (fm f) && fpo f = true ->
  (0 < length (vals (get_dat st d)))%nat ->
  val_at (run_d2h st g fl) d 0 = val_at st d g.
Proof.
  intros Hnd Hin Hfd Hw Hl. destruct (only_flow fl f Hnd Hin Hfd) as (l1 & l2 & -> & Hn1 & Hn2).
  unfold run_d2h. rewrite fold_left_app. cbn [fold_left]. rewrite Hw, Hfd.
  fold (run_d2h st g l1). set (s1 := run_d2h st g l1).
  fold (run_d2h (set_val s1 d 0 (val_at s1 d g)) g l2).
  (* the flows after f leave the tile alone, those before it have not touched it *)
  unfold val_at at 1. rewrite (run_d2h_frame l2) by exact Hn2. fold (val_at (set_val s1 d 0 (val_at s1 d g)) d 0).
  pose proof (run_d2h_frame l1 st Hn1 : vals (get_dat s1 d) = _) as Hm.
  apply Nat.ltb_lt in Hl. rewrite val_at_set_val, !Nat.eqb_refl, Hm, Hl.
  apply run_d2h_dev.
Qed.

Lemma epilog_app : forall l1 st l2, epilog st g (l1 ++ l2) = epilog (epilog st g l1) g l2.
Proof.
  induction l1 as [|f r IH]; intros st l2; cbn [app epilog]; [reflexivity|].
  destruct (negb (writes (fm f))); [apply IH|]. destruct (fpo f); [destruct (copy_at st (fd f) g)|]; apply IH.
Qed.
Lemma epilog_frame : forall fl st j, (forall f, In f fl -> fd f <> d) -> copy_at (epilog st g fl) d j = copy_at st d j.
Proof.
  induction fl as [|f r IH]; intros st j Hn; cbn [epilog]; [reflexivity|].
  assert (Hr : forall f0, In f0 r -> fd f0 <> d) by (intros f0 Hf0; apply Hn; now right).
  assert (Hne : Nat.eqb d (fd f) = false) by (apply Nat.eqb_neq; intros E; apply (Hn f); [now left|auto]).
  destruct (negb (writes (fm f))); [now apply IH|].
  destruct (fpo f).
  - destruct (copy_at st (fd f) g) as [gc|]; [|now apply IH].
    rewrite IH by exact Hr. unfold push_lru, chop. rewrite !copy_at_upd_dev, !copy_at_upd_copy, Hne. reflexivity.
  - rewrite IH by exact Hr. unfold push_owned. now rewrite copy_at_upd_dev.
Qed.
Lemma epilog_effect fl st f c0 cg : NoDup (map fd fl) -> In f fl -> fd f = d -> writes (fm f) = true -> fpo f = true ->
  copy_at st d 0 = Some c0 -> copy_at st d g = Some cg ->
  exists c0' cg', copy_at (epilog st g fl) d 0 = Some c0' /\ copy_at (epilog st g fl) d g = Some cg' /\
                  ver c0' = ver cg /\ ver cg' = ver cg /\ cst c0' = SHARED /\ cst cg' = SHARED.
Proof.
  intros Hnd Hin Hfd Hw Hpo H0 Hgc. destruct (only_flow fl f Hnd Hin Hfd) as (l1 & l2 & -> & Hn1 & Hn2).
  rewrite epilog_app. set (s1 := epilog st g l1).
  assert (H0' : copy_at s1 d 0 = Some c0) by (unfold s1; now rewrite epilog_frame).
  assert (Hg' : copy_at s1 d g = Some cg) by (unfold s1; now rewrite epilog_frame).
  pose proof (copy_at_in_range _ _ _ _ H0') as Hd. apply Nat.ltb_lt in Hd.
  cbn [epilog]. rewrite Hw, Hpo, Hfd, Hg'. cbn [negb].
  rewrite !epilog_frame by exact Hn2. unfold push_lru, chop. rewrite !copy_at_upd_dev, !copy_at_upd_copy.
  rewrite !length_dats_upd_copy, Nat.eqb_refl, Hd. cbn [andb]. rewrite H0', Hg'. cbn [option_map].
  destruct g as [|g']; [lia|]. cbn [Nat.eqb]. rewrite Nat.eqb_refl.
  do 2 eexists. split; [reflexivity|]. split; [reflexivity|]. cbn. auto.
Qed.
End OneTile.

(* update_pushout -> kernel_pop -> device-to-host copies -> kernel_epilog: whatever the successor lists and the order in
   which they are enumerated, a written flow with a successor on another rank ends with a host copy that carries the
   version and the content of the device copy (the copy the communication engine will send) *)
Theorem remote_successor_served_from_newest st g fl succs i f c0 cg :
  (1 <= g)%nat -> NoDup (map fd fl) ->
  nth_error fl i = Some f -> writes (fm f) = true -> has_remote (nth i succs []) = true ->
  copy_at st (fd f) 0 = Some c0 -> copy_at st (fd f) g = Some cg ->
  (0 < length (vals (get_dat st (fd f))))%nat ->
  let st' := post_kernel st g fl succs in
  exists c0' cg', copy_at st' (fd f) 0 = Some c0' /\ copy_at st' (fd f) g = Some cg' /\
                  ver c0' = ver cg /\ ver cg' = ver cg /\ cst c0' = SHARED /\
                  val_at st' (fd f) 0 = val_at st (fd f) g /\ val_at st' (fd f) g = val_at st (fd f) g.
Proof.
  intros Hg Hnd Hnth Hw Hrem H0 Hgc Hl st'. unfold st', post_kernel.
  set (fl' := with_pushout fl succs).
  set (f' := mkflow (fd f) (fm f) (needs_pushout fl succs i)).
  assert (Hnth' : nth_error fl' i = Some f') by (unfold fl'; rewrite with_pushout_nth, Hnth; reflexivity).
  assert (Hin' : In f' fl') by (eapply nth_error_In; exact Hnth').
  assert (Hpo' : fpo f' = true).
  { unfold f'; cbn [fpo]. unfold needs_pushout. rewrite Hnth, Hw, Hrem. now rewrite orb_true_r. }
  assert (Hnd' : NoDup (map fd fl')) by (unfold fl'; now rewrite with_pushout_fd).
  set (d := fd f) in *.
  set (st1 := fst (pop st g fl' [])). set (st2 := run_d2h st1 g fl').
  (* the tile still has both copies, and its device copy has the version of cg *)
  assert (Hv2 : forall j, option_map ver (copy_at st2 d j) = option_map ver (copy_at st d j))
    by (intros j; unfold st2, st1; now rewrite copy_at_run_d2h, ver_pop).
  pose proof (Hv2 0%nat) as E02. pose proof (Hv2 g) as Eg2. rewrite H0 in E02. rewrite Hgc in Eg2.
  destruct (copy_at st2 d 0) as [c02|] eqn:H02; [|discriminate].
  destruct (copy_at st2 d g) as [cg2|] eqn:Hg2; [|discriminate]. inversion Eg2 as [Hv].
  destruct (epilog_effect d g Hg fl' st2 f' c02 cg2 Hnd' Hin' eq_refl Hw Hpo' H02 Hg2)
    as (c0' & cg' & E0 & Eg & Ev0 & Evg & Es0 & _).
  exists c0', cg'. split; [exact E0|]. split; [exact Eg|]. split; [congruence|]. split; [congruence|]. split; [exact Es0|].
  pose proof (quiet_pop g fl' st [] st (quiet_refl st)) as Hq1. fold st1 in Hq1.
  pose proof (quiet_vals _ _ Hq1) as Hv1. destruct Hq1 as [_ Hm1].
  assert (Hve : same_vals (epilog st2 g fl') st2) by (apply quiet_vals, quiet_epilog, quiet_refl).
  split; rewrite Hve; unfold st2.
  - rewrite (run_d2h_effect d g Hg fl' st1 f' Hnd' Hin' eq_refl); [apply Hv1| |now rewrite Hm1].
    rewrite Hpo'. unfold f'; cbn [fm]. now rewrite Hw.
  - rewrite run_d2h_dev by exact Hg. apply Hv1.
Qed.
