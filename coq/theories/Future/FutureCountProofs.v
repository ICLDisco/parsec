(* Countable future (parsec_countable_future_set): for any count >= 1, any number of
   threads, any operation lists and any schedule, the future is ready exactly when
   [count] decrements have completed, exactly the first count-1 sets return before
   readiness, and the completion callback runs once, at the count-th set. *)
From PV Require Import Base.Tac Base.ListX Future.FutureDefs Future.FutureLib.
Local Open Scope Z_scope.

Definition is_kset (r : kres) : bool := match r with KRSet _ => true | _ => false end.
Definition is_kset0 (r : kres) : bool := match r with KRSet false => true | _ => false end.
Definition nsets (th : kthr) : Z := cnt is_kset (k_res th).      (* sets completed by the thread *)
Definition nsets0 (th : kthr) : Z := cnt is_kset0 (k_res th).    (* those that returned with the future not ready *)

(* what a logged result says of COMPLETED [s] *)
Definition kres_ok (s : bool) (r : kres) : Prop :=
  match r with
  | KRGet x => x = 0 /\ s = true
  | KRReady b => b = true -> s = true
  | KRSet _ => True
  end.
Definition KThr_ok (s : bool) (th : kthr) : Prop :=
  (k_pc th = KGetRead -> s = true) /\ (forall r, In r (k_res th) -> kres_ok s r).

Definition KInv (h : bool) (n0 : Z) (c : kcfg) : Prop :=
  (forall u th, nth_error (k_thr c) u = Some th -> KThr_ok (k_stat c) th) /\
  k_count c = n0 - k_ndec c /\ 0 <= k_ndec c /\
  k_stat c = (n0 <=? k_ndec c) /\
  Z.of_nat (k_ncb c) = (if h && (n0 <=? k_ndec c) then 1 else 0) /\
  tot nsets (k_thr c) = k_ndec c /\
  tot nsets0 (k_thr c) = Z.min (k_ndec c) (n0 - 1).

Lemma KThr_ok_mono s s' th : KThr_ok s th -> (s = true -> s' = true) -> KThr_ok s' th.
Proof.
  intros (H1 & H2) Hs. split; [auto|].
  intros r Hr. specialize (H2 r Hr). destruct r as [w|x|b]; cbn [kres_ok] in *; [exact I|tauto|auto].
Qed.
Lemma KThr_ok_goto s th p : KThr_ok s th -> (p = KGetRead -> s = true) -> KThr_ok s (kgoto th p).
Proof. intros (H1 & H2) Hp. exact (conj Hp H2). Qed.
Lemma KThr_ok_finish s th r : KThr_ok s th -> kres_ok s r -> KThr_ok s (kfinish th r).
Proof. intros (H1 & H2) Hr. split; [discriminate|]. intros x [<-|Hx]; [exact Hr|apply H2; exact Hx]. Qed.
Lemma nsets_finish th r : nsets (kfinish th r) = (if is_kset r then 1 else 0) + nsets th.
Proof. unfold nsets, kfinish; cbn [k_res]. apply cnt_cons. Qed.
Lemma nsets0_finish th r : nsets0 (kfinish th r) = (if is_kset0 r then 1 else 0) + nsets0 th.
Proof. unfold nsets0, kfinish; cbn [k_res]. apply cnt_cons. Qed.

Ltac kinv_split := unfold KInv; cbn [k_count k_stat k_ncb k_ndec k_thr];
  split; [|split; [|split; [|split; [|split; [|split]]]]].

(* a step that touches only thread t and completes no set *)
Lemma kinv_local h n0 c t th : KInv h n0 c -> nth_error (k_thr c) t = Some th -> forall th',
  KThr_ok (k_stat c) th' -> nsets th' = nsets th -> nsets0 th' = nsets0 th ->
  KInv h n0 {| k_count := k_count c; k_stat := k_stat c; k_ncb := k_ncb c; k_ndec := k_ndec c;
               k_thr := upd (k_thr c) t th' |}.
Proof.
  intros (Hthr & Hcnt & Hnd & Hst & Hncb & Hns & Hns0) E th' Hth' H1 H0. kinv_split; try assumption.
  - exact (nth_upd_all _ _ _ _ _ E Hthr Hth').
  - rewrite (tot_upd _ _ _ _ _ E), H1. lia.
  - rewrite (tot_upd _ _ _ _ _ E), H0. lia.
Qed.

Lemma kinv_step h n0 c t : 1 <= n0 -> KInv h n0 c -> KInv h n0 (kstep h c t).
Proof.
  intros Hn Hinv. pose proof Hinv as (Hthr & Hcnt & Hnd & Hst & Hncb & Hns & Hns0). unfold kstep.
  destruct (nth_error (k_thr c) t) as [th|] eqn:E; [|exact Hinv].
  pose proof (Hthr t th E) as Hth. pose proof Hth as (Hgr & _).
  pose proof (kinv_local h n0 c t th Hinv E) as Hlocal.
  destruct (k_pc th).
  - destruct (k_ops th) as [|[| |] rest].
    + exact Hinv.
    + apply Hlocal; [|reflexivity|reflexivity]. apply KThr_ok_goto; [exact Hth|discriminate].
    + destruct (k_stat c) eqn:Es; [|exact Hinv].
      apply Hlocal; [|reflexivity|reflexivity]. apply KThr_ok_goto; [exact Hth|reflexivity].
    + apply Hlocal; [|apply nsets_finish|apply nsets0_finish].
      apply KThr_ok_finish; [exact Hth|]. exact (fun H => H).
  - (* KDec *)
    set (hit := k_count c - 1 =? 0).
    assert (Hhit : hit = (k_ndec c + 1 =? n0)). { unfold hit. rewrite Hcnt. lia. }
    assert (Hst' : (if hit then true else k_stat c) = (n0 <=? k_ndec c + 1)).
    { rewrite Hhit, Hst. destruct (k_ndec c + 1 =? n0) eqn:E1; lia. }
    assert (Hmono : forall u x, nth_error (k_thr c) u = Some x -> KThr_ok (if hit then true else k_stat c) x).
    { intros u x Hu. eapply KThr_ok_mono; [apply (Hthr u x Hu)|]. intros ->. destruct hit; reflexivity. }
    kinv_split.
    + apply (nth_upd_all _ _ _ _ _ E Hmono). apply KThr_ok_finish; [eapply Hmono; eauto|exact I].
    + lia.
    + lia.
    + exact Hst'.
    + rewrite Hhit. destruct h; cbn [andb] in *; rewrite ?andb_false_r, ?andb_true_r in *; iflia.
    + rewrite (tot_upd _ _ _ _ _ E), nsets_finish. cbn [is_kset]. lia.
    + rewrite (tot_upd _ _ _ _ _ E), nsets0_finish. rewrite Hst'.
      destruct (n0 <=? k_ndec c + 1) eqn:E3; cbn [is_kset0]; lia.
  - (* KGetRead *)
    specialize (Hgr eq_refl).
    apply Hlocal; [|apply nsets_finish|apply nsets0_finish].
    apply KThr_ok_finish; [exact Hth|]. split; [reflexivity|exact Hgr].
Qed.

Lemma kinv_init h n0 ops : 1 <= n0 -> KInv h n0 (kinit n0 ops).
Proof.
  intros Hn. unfold kinit. kinv_split; try lia.
  - intros u th Hu. destruct (nth_error_map_inv _ _ _ _ Hu) as (l & Hl & <-).
    split; [discriminate|intros r []].
  - assert (n0 <=? 0 = false) by lia. rewrite H. rewrite andb_false_r. reflexivity.
  - apply tot_zero. intros x Hx. apply in_map_iff in Hx. destruct Hx as (l & <- & _). reflexivity.
  - rewrite tot_zero; [lia|]. intros x Hx. apply in_map_iff in Hx. destruct Hx as (l & <- & _). reflexivity.
Qed.

Lemma kinv_run h n0 ops sched : 1 <= n0 -> KInv h n0 (krun h n0 ops sched).
Proof. intros Hn. unfold krun. apply fold_left_inv; [intros; apply kinv_step; assumption|apply kinv_init; assumption]. Qed.

(* count <= 0: the future never becomes ready and the callback never runs *)
Lemma knever_step h c t : k_count c <= 0 /\ k_stat c = false /\ k_ncb c = 0%nat ->
  let c' := kstep h c t in k_count c' <= 0 /\ k_stat c' = false /\ k_ncb c' = 0%nat.
Proof.
  intros (H1 & H2 & H3). unfold kstep. destruct (nth_error (k_thr c) t) as [th|]; [|auto].
  destruct (k_pc th); cbn [k_count k_stat k_ncb]; auto.
  - destruct (k_ops th) as [|[| |] r]; cbn [k_count k_stat k_ncb]; auto. rewrite H2. auto.
  - assert (Hh : (k_count c - 1 =? 0) = false) by lia. rewrite Hh. cbn [andb]. split; [lia|auto].
Qed.
