(* Data-copy future (parsec_datacopy_future_get_or_trigger(_internal), _set): for any
   number of threads, any operation lists, any callback behaviour (synchronous or
   deferred fulfilment per shape) and any schedule:
     - the fulfilment callback of a future runs at most once (exactly when TRIGGERED);
     - there is at most one future per shape, hence at most one fulfilment per shape;
     - every future lock is held by at most one thread;
     - as long as no set hits a COMPLETED future (the assert of parsec_datacopy_future_set),
       all non-NULL values returned for one shape are the value tracked by the future
       of that shape, which never changes, and a reader that starts after completion
       gets that value. *)
From PV Require Import Base.Tac Base.ListX Future.FutureDefs Future.FutureLib.
From Coq Require Import Permutation.

Definition specs (fs : list fut) : list nat := map f_spec fs.

(* What the steps of other threads leave in place.  [Val fs s v]: the future of shape s is COMPLETED
   with value v.  [fextS fs fs']: every position keeps its shape; [fextV fs fs']: a completed
   position keeps shape and value.  [SpecNeAt] and [GoodAt] are what a scan for shape r records of
   a position it has passed (another shape; completed with a non-NULL value); the first is
   monotone along fextS, the second and [Val] along fextV. *)
Definition Val (fs : list fut) (s : nat) (v : Z) : Prop :=
  exists i f, nth_error fs i = Some f /\ f_spec f = s /\ f_comp f = true /\ f_data f = v.
Definition SpecNeAt (fs : list fut) (r i : nat) : Prop :=
  exists f, nth_error fs i = Some f /\ f_spec f <> r.
Definition GoodAt (fs : list fut) (i : nat) : Prop :=
  exists f, nth_error fs i = Some f /\ f_comp f = true /\ f_data f <> 0%Z.

Definition fextS (fs fs' : list fut) : Prop :=
  forall i f, nth_error fs i = Some f -> exists f', nth_error fs' i = Some f' /\ f_spec f' = f_spec f.
Definition fextV (fs fs' : list fut) : Prop :=
  forall i f, nth_error fs i = Some f -> f_comp f = true ->
    exists f', nth_error fs' i = Some f' /\ f_spec f' = f_spec f /\ f_comp f' = true /\ f_data f' = f_data f.


Lemma fextV_refl fs : fextV fs fs. Proof. intros i f H Hc. eauto. Qed.
Lemma fextS_app fs l : fextS fs (fs ++ l).
Proof. intros i f H. exists f. split; [apply nth_error_app_old; exact H|reflexivity]. Qed.
Lemma fextV_app fs l : fextV fs (fs ++ l).
Proof. intros i f H Hc. exists f. split; [apply nth_error_app_old; exact H|auto]. Qed.
Lemma fextV_trans a b c : fextV a b -> fextV b c -> fextV a c.
Proof.
  intros H1 H2 i f Hi Hc. destruct (H1 i f Hi Hc) as (f' & Hi' & Hs' & Hc' & Hd').
  destruct (H2 i f' Hi' Hc') as (f'' & Hi'' & Hs'' & Hc'' & Hd''). exists f''. repeat split; congruence.
Qed.

Lemma specs_fextS fs fs' : specs fs' = specs fs -> fextS fs fs'.
Proof.
  intros Hsp i f Hi. apply (map_nth_error f_spec) in Hi. fold (specs fs) in Hi. rewrite <- Hsp in Hi.
  destruct (nth_error_map_inv _ _ _ _ Hi) as (f' & Hi' & Hs'). eauto.
Qed.
Lemma specs_length fs fs' : specs fs' = specs fs -> length fs' = length fs.
Proof. intros H. rewrite <- (map_length f_spec fs'), <- (map_length f_spec fs). exact (f_equal (@length nat) H). Qed.

Lemma Val_mono fs fs' s v : Val fs s v -> fextV fs fs' -> Val fs' s v.
Proof. intros (i & f & Hi & Hs & Hc & Hd) He. destruct (He i f Hi Hc) as (f' & Hi' & Hs' & Hc' & Hd'). exists i, f'. repeat split; congruence. Qed.
Lemma SpecNeAt_mono fs fs' r i : SpecNeAt fs r i -> fextS fs fs' -> SpecNeAt fs' r i.
Proof. intros (f & Hi & Hs) He. destruct (He i f Hi) as (f' & Hi' & Hs'). exists f'. split; [exact Hi'|congruence]. Qed.
Lemma GoodAt_mono fs fs' i : GoodAt fs i -> fextV fs fs' -> GoodAt fs' i.
Proof. intros (f & Hi & Hc & Hd) He. destruct (He i f Hi Hc) as (f' & Hi' & _ & Hc' & Hd'). exists f'. repeat split; congruence. Qed.

Definition TrigOK (fs : list fut) : Prop :=
  forall i f, nth_error fs i = Some f -> f_ncb f = if f_trig f then 1 else 0.

(* What such a step may do to the futures: the shapes stay, a callback count moves only together
   with its TRIGGERED bit, and completed values stay unless the assert of
   parsec_datacopy_future_set trips. *)
Definition Ext (fs : list fut) (bad : bool) (fs' : list fut) (bad' : bool) : Prop :=
  specs fs' = specs fs /\ (TrigOK fs -> TrigOK fs') /\ (bad' = false -> bad = false /\ fextV fs fs').

Lemma ext_refl fs bad : Ext fs bad fs bad.
Proof. split; [reflexivity|split; [auto|]]. intros Hb. split; [exact Hb|apply fextV_refl]. Qed.
Lemma ext_upd fs bad k fk f' bad' : nth_error fs k = Some fk -> f_spec f' = f_spec fk ->
  (f_ncb fk = (if f_trig fk then 1 else 0) -> f_ncb f' = if f_trig f' then 1 else 0) ->
  (bad' = false -> bad = false /\ (f_comp fk = true -> f_comp f' = true /\ f_data f' = f_data fk)) ->
  Ext fs bad (upd fs k f') bad'.
Proof.
  intros Hk Hs Ht Hv. split; [exact (map_upd f_spec _ _ _ _ Hk Hs)|split].
  - intros HT. exact (nth_upd_all (fun f => f_ncb f = if f_trig f then 1 else 0) _ _ _ _ Hk HT (Ht (HT k fk Hk))).
  - intros Hb. destruct (Hv Hb) as [Hb0 Hc]. split; [exact Hb0|]. intros i f Hi Hcf.
    rewrite (nth_upd _ _ _ _ _ Hk). destruct (Nat.eqb_spec i k) as [->|_]; [|eauto].
    exists f'. rewrite Hk in Hi. inv Hi. destruct (Hc Hcf). auto.
Qed.
Lemma ext_setlock fs bad k fk b : nth_error fs k = Some fk -> Ext fs bad (upd fs k (f_setlock fk b)) bad.
Proof. intros Hk. apply (ext_upd _ _ _ _ _ _ Hk); [reflexivity|exact (fun H => H)|auto]. Qed.
Lemma ext_trigger fs bad k fk : nth_error fs k = Some fk -> f_trig fk = false ->
  Ext fs bad (upd fs k (f_trigger fk)) bad.
Proof.
  intros Hk Ht. apply (ext_upd _ _ _ _ _ _ Hk); [reflexivity| |auto].
  cbn [f_trigger f_ncb f_trig]. rewrite Ht. intros ->. reflexivity.
Qed.
Lemma ext_set fs bad k fk v : nth_error fs k = Some fk -> Ext fs bad (upd fs k (f_set fk v)) (bad || f_comp fk).
Proof.
  intros Hk. apply (ext_upd _ _ _ _ _ _ Hk); [reflexivity|exact (fun H => H)|].
  intros Hb. apply orb_false_elim in Hb. destruct Hb as [Hb Hc]. split; [exact Hb|]. intros Hc'. congruence.
Qed.

(* [holds i p]: a thread at program counter p holds the lock of future i.  The root lock (0) is
   held from DLockRoot's success to DUnlockRet / DUnlockNew, hence through every _internal call
   made by the scan (context CScan); a direct _internal call (CDirect) holds only the lock of its
   item, from DILock's success to DIUnlock. *)
Definition holds (i : nat) (p : dpc) : bool :=
  match p with
  | DIdle | DLockRoot _ => false
  | DNewCb _ | DUnlockRet _ _ | DUnlockNew _ => Nat.eqb i 0
  | DILock CDirect _ => false
  | DILock (CScan _) _ => Nat.eqb i 0
  | DICb CDirect k | DIUnlock CDirect k => Nat.eqb i k
  | DICb (CScan _) k | DIUnlock (CScan _) k => Nat.eqb i 0 || Nat.eqb i k
  end.
Definition holder (i : nat) (th : dthr) : bool := holds i (d_pc th).
Definition lockval (fs : list fut) (i : nat) : Z :=
  match nth_error fs i with Some f => if f_lock f then 1%Z else 0%Z | None => 0%Z end.
Definition Mutex (c : dcfg) : Prop := forall i, cnt (holder i) (d_thr c) = lockval (d_futs c) i.

(* the configuration after a step of thread t: [mk] of dstep *)
Definition dnext (c : dcfg) (t : nat) (fs' : list fut) (bad' : bool) (th' : dthr) : dcfg :=
  {| d_futs := fs'; d_bad := bad'; d_thr := upd (d_thr c) t th' |}.

Lemma lockval_of fs k fk : nth_error fs k = Some fk -> lockval fs k = if f_lock fk then 1%Z else 0%Z.
Proof. intros H. unfold lockval. rewrite H. reflexivity. Qed.
Lemma lockval_upd fs k fk f' i : nth_error fs k = Some fk ->
  lockval (upd fs k f') i = if Nat.eqb i k then (if f_lock f' then 1%Z else 0%Z) else lockval fs i.
Proof.
  intros Hk. unfold lockval. destruct (Nat.eqb_spec i k) as [->|Hne].
  - rewrite (nth_upd_same _ _ _ _ Hk). reflexivity.
  - rewrite (nth_upd_other _ _ _ _ _ Hk Hne). reflexivity.
Qed.
Lemma lockval_snoc fs r i : lockval (fs ++ [f_new r]) i = lockval fs i.
Proof.
  unfold lockval. destruct (Nat.lt_ge_cases i (length fs)) as [Hlt|Hge].
  - rewrite nth_error_app1 by exact Hlt. reflexivity.
  - rewrite nth_error_app2 by exact Hge. rewrite (proj2 (nth_error_None fs i) Hge).
    destruct (i - length fs) as [|[|n]]; reflexivity.
Qed.
Lemma lockval_same_lock fs k fk f' i : nth_error fs k = Some fk -> f_lock f' = f_lock fk ->
  lockval (upd fs k f') i = lockval fs i.
Proof.
  intros Hk Hl. rewrite (lockval_upd _ _ _ _ _ Hk). destruct (Nat.eqb_spec i k) as [->|]; [|reflexivity].
  rewrite (lockval_of _ _ _ Hk), Hl. reflexivity.
Qed.
Lemma lockval_range fs i : (0 <= lockval fs i <= 1)%Z.
Proof. unfold lockval. destruct (nth_error fs i) as [f|]; [destruct (f_lock f)|]; lia. Qed.

(* two different threads cannot both hold lock i *)
Lemma mutex_excl c i t u th th2 : Mutex c -> t <> u ->
  nth_error (d_thr c) t = Some th -> holds i (d_pc th) = true ->
  nth_error (d_thr c) u = Some th2 -> holds i (d_pc th2) = true -> False.
Proof.
  intros Hm Hne Ht Hh Hu Hh2.
  pose proof (cnt_two_true (holder i) _ _ _ _ _ Hne Ht Hh Hu Hh2) as H2.
  rewrite (Hm i) in H2. pose proof (lockval_range (d_futs c) i). lia.
Qed.
Lemma mutex_held c i t th : Mutex c -> nth_error (d_thr c) t = Some th -> holds i (d_pc th) = true ->
  exists f, nth_error (d_futs c) i = Some f /\ f_lock f = true.
Proof.
  intros Hm Ht Hh. pose proof (cnt_pos_of_nth (holder i) _ _ _ Ht Hh) as Hp. rewrite (Hm i) in Hp.
  unfold lockval in Hp. destruct (nth_error (d_futs c) i) as [f|]; [|lia]. exists f. split; [reflexivity|].
  destruct (f_lock f); [reflexivity|lia].
Qed.

(* a step of thread t keeps the lock accounting if, for every lock, the change of the lock word
   is the change of what t holds.  The three ways this happens follow. *)
Lemma mutex_step c t th th' fs' bad' : nth_error (d_thr c) t = Some th -> Mutex c ->
  (forall i, ((if holds i (d_pc th') then 1 else 0) - (if holds i (d_pc th) then 1 else 0) = lockval fs' i - lockval (d_futs c) i)%Z) ->
  Mutex (dnext c t fs' bad' th').
Proof.
  intros E Hm Hd i. cbn [dnext d_futs d_thr]. rewrite (cnt_upd _ _ _ _ _ E). unfold holder at 2 3.
  specialize (Hm i). specialize (Hd i). lia.
Qed.
Lemma mutex_same c t th th' fs' bad' : nth_error (d_thr c) t = Some th -> Mutex c ->
  (forall i, lockval fs' i = lockval (d_futs c) i) -> (forall i, holds i (d_pc th') = holds i (d_pc th)) ->
  Mutex (dnext c t fs' bad' th').
Proof. intros E Hm Hl Hh. apply (mutex_step c t th _ _ _ E Hm). intros i. rewrite Hl, Hh. lia. Qed.
(* lock k is free, so by the accounting t does not hold it yet *)
Lemma mutex_acquire c t th th' k fk f' bad' : nth_error (d_thr c) t = Some th -> Mutex c ->
  nth_error (d_futs c) k = Some fk -> f_lock fk = false -> f_lock f' = true ->
  (forall i, holds i (d_pc th') = holds i (d_pc th) || Nat.eqb i k) ->
  Mutex (dnext c t (upd (d_futs c) k f') bad' th').
Proof.
  intros E Hm Hk Hl Hl' Hh.
  assert (Hfree : holder k th = false).
  { apply (cnt_zero_all (holder k) (d_thr c)) with (t := t); [|exact E]. rewrite (Hm k), (lockval_of _ _ _ Hk), Hl. reflexivity. }
  apply (mutex_step c t th _ _ _ E Hm). intros i. rewrite Hh, (lockval_upd _ _ _ _ _ Hk), Hl'.
  destruct (Nat.eqb_spec i k) as [->|_].
  - fold (holder k th). rewrite Hfree, (lockval_of _ _ _ Hk), Hl. reflexivity.
  - rewrite orb_false_r. lia.
Qed.
(* t holds lock k, so by the accounting the lock word is set *)
Lemma mutex_release c t th th' k fk f' bad' : nth_error (d_thr c) t = Some th -> Mutex c ->
  nth_error (d_futs c) k = Some fk -> f_lock f' = false ->
  (forall i, holds i (d_pc th) = holds i (d_pc th') || Nat.eqb i k) -> holds k (d_pc th') = false ->
  Mutex (dnext c t (upd (d_futs c) k f') bad' th').
Proof.
  intros E Hm Hk Hl' Hh Hfree.
  assert (Hl : f_lock fk = true).
  { destruct (mutex_held c k t th Hm E) as (f & Hf & Hl); [rewrite Hh, Nat.eqb_refl; apply orb_true_r|congruence]. }
  apply (mutex_step c t th _ _ _ E Hm). intros i. rewrite Hh, (lockval_upd _ _ _ _ _ Hk), Hl'.
  destruct (Nat.eqb_spec i k) as [->|_].
  - rewrite Hfree, (lockval_of _ _ _ Hk), Hl. reflexivity.
  - rewrite orb_false_r. lia.
Qed.

Definition ScanOK (fs : list fut) (bad : bool) (r k : nat) : Prop :=
  1 <= k /\ (forall i, i < k -> SpecNeAt fs r i) /\ (bad = false -> forall i, 1 <= i -> i < k -> GoodAt fs i).
Definition NewCbOK (fs : list fut) (bad : bool) (r : nat) : Prop :=
  ~ In r (specs fs) /\ (bad = false -> forall i, 1 <= i -> i < length fs -> GoodAt fs i).

Definition PcOK (fs : list fut) (bad : bool) (p : dpc) : Prop :=
  match p with
  | DLockRoot r => SpecNeAt fs r 0
  | DNewCb r => NewCbOK fs bad r
  | DILock (CScan r) k | DICb (CScan r) k | DIUnlock (CScan r) k => ScanOK fs bad r k
  | DUnlockRet r v => v <> 0%Z -> bad = false -> Val fs r v
  | _ => True
  end.
Definition ThrOK (fs : list fut) (bad : bool) (th : dthr) : Prop :=
  PcOK fs bad (d_pc th) /\
  (forall s v, In (DRGot s v) (d_res th) -> v <> 0%Z -> bad = false -> Val fs s v).

Definition DInv (c : dcfg) : Prop :=
  TrigOK (d_futs c) /\ NoDup (specs (d_futs c)) /\ Mutex c /\
  (forall u th, nth_error (d_thr c) u = Some th -> ThrOK (d_futs c) (d_bad c) th) /\
  (d_bad c = false -> forall i, 1 <= i -> S i < length (d_futs c) -> GoodAt (d_futs c) i).

(* what one step establishes: the invariant again and, unless the assert trips, every completed
   value still in place *)
Definition StepOK (c c' : dcfg) : Prop :=
  DInv c' /\ (d_bad c' = false -> d_bad c = false /\ fextV (d_futs c) (d_futs c')).

Lemma ScanOK_mono fs bad fs' bad' r k : ScanOK fs bad r k -> fextS fs fs' ->
  (bad' = false -> bad = false /\ fextV fs fs') -> ScanOK fs' bad' r k.
Proof.
  intros (H1 & H2 & H3) HS HV. split; [exact H1|split].
  - intros i Hi. eapply SpecNeAt_mono; eauto.
  - intros Hb i Hi1 Hi2. destruct (HV Hb) as [Hb0 HV']. eapply GoodAt_mono; eauto.
Qed.
(* Only [~ In r (specs fs)] at DNewCb is not monotone in the list of futures; that pc holds the root
   lock, and the list grows under the root lock only. *)
Lemma PcOK_mono fs bad fs' bad' p : PcOK fs bad p -> fextS fs fs' ->
  (bad' = false -> bad = false /\ fextV fs fs') -> (holds 0 p = true -> specs fs' = specs fs) ->
  PcOK fs' bad' p.
Proof.
  intros H HS HV Hsp. destruct p as [|r|r|[|r] k|[|r] k|[|r] k|r v|k]; cbn [PcOK] in *; auto;
    try (eapply ScanOK_mono; eauto; fail).
  - eapply SpecNeAt_mono; eauto.
  - destruct H as [H1 H2]. specialize (Hsp eq_refl). split; [rewrite Hsp; exact H1|].
    intros Hb i Hi1 Hi2. destruct (HV Hb) as [Hb0 HV']. rewrite (specs_length _ _ Hsp) in Hi2.
    eapply GoodAt_mono; [apply H2; assumption|exact HV'].
  - intros Hv Hb. destruct (HV Hb) as [Hb0 HV']. eapply Val_mono; eauto.
Qed.
Lemma ThrOK_mono fs bad fs' bad' th : ThrOK fs bad th -> fextS fs fs' ->
  (bad' = false -> bad = false /\ fextV fs fs') -> (holds 0 (d_pc th) = true -> specs fs' = specs fs) ->
  ThrOK fs' bad' th.
Proof.
  intros [H1 H2] HS HV Hsp. split; [eapply PcOK_mono; eauto|].
  intros s v Hin Hv Hb. destruct (HV Hb) as [Hb0 HV']. eapply Val_mono; eauto.
Qed.
Lemma ThrOK_goto fs bad th p : ThrOK fs bad th -> PcOK fs bad p -> ThrOK fs bad (dgoto th p).
Proof. intros [H1 H2] Hp. split; [exact Hp|exact H2]. Qed.
Lemma ThrOK_finish fs bad th r : ThrOK fs bad th ->
  (forall s v, r = DRGot s v -> v <> 0%Z -> bad = false -> Val fs s v) -> ThrOK fs bad (dfinish th r).
Proof.
  intros [H1 H2] Hr. split; [exact I|]. cbn [dfinish d_res]. intros s v [Hx|Hx]; [apply Hr; exact Hx|apply H2; exact Hx].
Qed.

Lemma ThrOK_enter_direct fs bad k fk th : ThrOK fs bad th -> nth_error fs k = Some fk ->
  ThrOK fs bad (enter_direct k fk th).
Proof.
  intros Hth Hk. unfold enter_direct. destruct (f_comp fk) eqn:Ec.
  - apply ThrOK_finish; [exact Hth|]. intros s v Hx _ _. inv Hx. exists k, fk. auto.
  - apply ThrOK_goto; [exact Hth|exact I].
Qed.
Lemma holds_enter_direct i k fk th : holds i (d_pc (enter_direct k fk th)) = false.
Proof. unfold enter_direct. destruct (f_comp fk); reflexivity. Qed.

Lemma holds_scan i r : forall l k, holds i (scan r k l) = Nat.eqb i 0.
Proof.
  induction l as [|f l IH]; intros k; cbn [scan]; [reflexivity|].
  destruct (f_comp f); [|reflexivity]. destruct (f_data f =? 0)%Z; [reflexivity|].
  destruct (Nat.eqb (f_spec f) r); [reflexivity|apply IH].
Qed.

Lemma not_in_specs fs r : (forall i, i < length fs -> SpecNeAt fs r i) -> ~ In r (specs fs).
Proof.
  intros H Hin. unfold specs in Hin. apply in_map_iff in Hin. destruct Hin as (f & Hs & Hf).
  destruct (In_nth_error _ _ Hf) as (i & Hi).
  assert (Hlt : i < length fs) by (apply nth_error_Some; congruence).
  destruct (H i Hlt) as (f' & Hi' & Hne). congruence.
Qed.

(* the scan passes a completed item of another shape with a non-NULL value *)
Lemma ScanOK_next fs bad r k f : ScanOK fs bad r k -> nth_error fs k = Some f ->
  f_spec f <> r -> f_comp f = true -> f_data f <> 0%Z -> ScanOK fs bad r (S k).
Proof.
  intros (H1 & H2 & H3) Hf Hs Hc Hd. split; [lia|split].
  - intros i Hi. destruct (Nat.eq_dec i k) as [->|Hne]; [exists f; auto|apply H2; lia].
  - intros Hb i Hi1 Hi2. destruct (Nat.eq_dec i k) as [->|Hne]; [exists f; auto|apply H3; auto; lia].
Qed.

(* wherever the scan stops, what it has passed is what the pc it stops at records *)
Lemma scan_ok fs bad r : forall l k, (forall j, nth_error l j = nth_error fs (k + j)) ->
  ScanOK fs bad r k -> PcOK fs bad (scan r k l).
Proof.
  induction l as [|f l IH]; intros k Hl Hk; cbn [scan].
  - apply suffix_nil in Hl. destruct Hk as (_ & Hk2 & Hk3). split.
    + apply not_in_specs. intros i Hi. apply Hk2. lia.
    + intros Hb i Hi1 Hi2. apply Hk3; auto. lia.
  - apply suffix_cons in Hl. destruct Hl as [Hf Hl].
    destruct (f_comp f) eqn:Ec; [|exact Hk].
    destruct (f_data f =? 0)%Z eqn:Ed; [intros Hx; contradiction|].
    destruct (Nat.eqb_spec (f_spec f) r) as [Es|Es].
    + intros _ _. exists k, f. auto.
    + apply (IH _ Hl). apply (ScanOK_next _ _ _ _ f Hk Hf Es Ec). lia.
Qed.

(* the return of _internal(item k) to its caller *)
Lemma holds_after_internal i cx fs k fk data th :
  holds i (d_pc (after_internal cx fs k fk data th)) = match cx with CDirect => false | CScan _ => Nat.eqb i 0 end.
Proof.
  destruct cx as [|r]; cbn [after_internal]; [reflexivity|].
  destruct (data =? 0)%Z; [reflexivity|]. destruct (Nat.eqb (f_spec fk) r); [reflexivity|apply holds_scan].
Qed.
Lemma ThrOK_after_internal fs bad cx k fk th : nth_error fs k = Some fk -> ThrOK fs bad th ->
  d_pc th = DIUnlock cx k ->
  ThrOK fs bad (after_internal cx fs k fk (if f_comp fk then f_data fk else 0%Z) th).
Proof.
  intros Hk Hth Epc. set (data := if f_comp fk then f_data fk else 0%Z).
  assert (Hval : data <> 0%Z -> Val fs (f_spec fk) data).
  { intros Hd. exists k, fk. unfold data in *. destruct (f_comp fk); [auto|contradiction]. }
  destruct cx as [|r]; cbn [after_internal].
  - apply ThrOK_finish; [exact Hth|]. intros s v Hx Hv _. inv Hx. apply Hval, Hv.
  - destruct (data =? 0)%Z eqn:Ed; [|destruct (Nat.eqb_spec (f_spec fk) r) as [Es|Es]];
      (apply ThrOK_goto; [exact Hth|]).
    + intros Hx; contradiction.
    + intros Hv _. rewrite <- Es. apply Hval, Hv.
    + destruct Hth as [Hpc _]. rewrite Epc in Hpc. apply scan_ok; [intros j; apply nth_error_skipn|].
      unfold data in Ed. destruct (f_comp fk) eqn:Ec; [|discriminate Ed].
      apply (ScanOK_next _ _ _ _ fk Hpc Hk Es Ec). lia.
Qed.

Lemma orb_false_l2 a b : a || b = false -> a = false /\ b = false.
Proof. apply orb_false_elim. Qed.

Section Step.
Variables (c : dcfg) (t : nat) (th : dthr).
Hypothesis Hinv : DInv c.
Hypothesis E : nth_error (d_thr c) t = Some th.

(* a step of t that creates no future: the other threads and the futures' part of the invariant are
   carried over by [Ext]; what is left is the lock accounting and the invariant of t itself *)
Lemma step_frame fs' bad' th' : Ext (d_futs c) (d_bad c) fs' bad' -> Mutex (dnext c t fs' bad' th') ->
  (ThrOK fs' bad' th -> ThrOK fs' bad' th') -> StepOK c (dnext c t fs' bad' th').
Proof.
  destruct Hinv as (HT & HN & HM & HTh & HP). intros (Hsp & HT' & HV) HM' Hth'.
  assert (Hmono : forall u x, nth_error (d_thr c) u = Some x -> ThrOK fs' bad' x).
  { intros u x Hu. apply (ThrOK_mono _ _ _ _ _ (HTh u x Hu)); [apply specs_fextS; exact Hsp|exact HV|intros _; exact Hsp]. }
  split; [|exact HV]. unfold DInv; cbn [dnext d_futs d_bad d_thr].
  split; [exact (HT' HT)|split; [rewrite Hsp; exact HN|split; [exact HM'|split]]].
  - apply (nth_upd_all _ _ _ _ _ E Hmono). apply Hth'. exact (Hmono t th E).
  - intros Hb i Hi1 Hi2. destruct (HV Hb) as [Hb0 HV']. rewrite (specs_length _ _ Hsp) in Hi2.
    eapply GoodAt_mono; [apply HP; assumption|exact HV'].
Qed.

Lemma step_nolock fs' bad' th' : Ext (d_futs c) (d_bad c) fs' bad' ->
  (forall i, lockval fs' i = lockval (d_futs c) i) -> (forall i, holds i (d_pc th') = holds i (d_pc th)) ->
  (ThrOK fs' bad' th -> ThrOK fs' bad' th') -> StepOK c (dnext c t fs' bad' th').
Proof.
  intros He Hl Hh Hth. apply (step_frame _ _ _ He); [|exact Hth].
  apply (mutex_same c t th _ _ _ E); [apply Hinv|exact Hl|exact Hh].
Qed.

(* cb_setup_nested: the one step that creates a future.  No other thread is at DNewCb or anywhere
   else under the root lock, so none relies on the list of shapes staying as it is. *)
Lemma step_new_cb r : d_pc th = DNewCb r ->
  StepOK c (dnext c t (d_futs c ++ [f_new r]) (d_bad c) (dgoto th (DUnlockNew (length (d_futs c))))).
Proof.
  intros Epc. destruct Hinv as (HT & HN & HM & HTh & HP).
  destruct (HTh t th E) as [Hpc Hres]. rewrite Epc in Hpc. destruct Hpc as [Hnin Hgood].
  split; [|intros Hb; split; [exact Hb|apply fextV_app]].
  unfold DInv; cbn [dnext d_futs d_bad d_thr]. split; [|split; [|split; [|split]]].
  - intros i f Hi. destruct (nth_error_snoc_inv _ _ _ _ Hi) as [Ho|[_ ->]]; [eauto|reflexivity].
  - unfold specs. rewrite map_app. apply (Permutation_NoDup (Permutation_cons_append _ r)). constructor; assumption.
  - apply (mutex_same c t th _ _ _ E HM); [intros i; apply lockval_snoc|intros i; rewrite Epc; reflexivity].
  - intros u x Hu. destruct (nth_upd_inv _ _ _ _ _ _ E Hu) as [[_ ->]|[Hne Hu']].
    + split; [exact I|].
      intros s v Hin Hv Hb. eapply Val_mono; [exact (Hres s v Hin Hv Hb)|apply fextV_app].
    + apply (ThrOK_mono _ _ _ _ _ (HTh u x Hu')); [apply fextS_app|intros Hb; split; [exact Hb|apply fextV_app]|].
      intros Hh. exfalso. apply (mutex_excl c 0 t u th x HM); auto. rewrite Epc. reflexivity.
  - intros Hb i Hi1 Hi2. rewrite app_length in Hi2. cbn [length] in Hi2.
    eapply GoodAt_mono; [apply Hgood; auto; lia|apply fextV_app].
Qed.
End Step.

Lemma dstep_ok cbv c t : DInv c -> StepOK c (dstep cbv c t).
Proof.
  intros Hinv. assert (Hstut : StepOK c c) by (split; [exact Hinv|intros Hb; split; [exact Hb|apply fextV_refl]]).
  pose proof Hinv as (_ & _ & HM & _). unfold dstep.
  destruct (nth_error (d_thr c) t) as [th|] eqn:E; [|exact Hstut].
  pose proof (step_frame c t th Hinv E) as Hframe. pose proof (step_nolock c t th Hinv E) as Hnolock.
  destruct (d_pc th) as [|r|r|cx k|cx k|cx k|r v|k] eqn:Epc.
  - (* a new operation starts: no lock is involved *)
    assert (Hfin : forall res, (forall s v, res <> DRGot s v) ->
              StepOK c (dnext c t (d_futs c) (d_bad c) (dfinish th res))).
    { intros res Hres. apply Hnolock; [apply ext_refl|reflexivity|intros i; reflexivity|].
      intros Hth. apply ThrOK_finish; [exact Hth|]. intros s v Hx. destruct (Hres s v Hx). }
    destruct (d_ops th) as [|[r|s v| |] rest]; [exact Hstut| | |apply Hfin; discriminate|apply Hfin; discriminate].
    + destruct (nth_error (d_futs c) 0) as [f0|] eqn:E0; [|exact Hstut].
      destruct (Nat.eqb r 0 || Nat.eqb (f_spec f0) r) eqn:Em.
      * apply Hnolock; [apply ext_refl|reflexivity|intros i; apply holds_enter_direct|].
        intros Hth. apply (ThrOK_enter_direct _ _ _ _ _ Hth E0).
      * apply Hnolock; [apply ext_refl|reflexivity|intros i; reflexivity|].
        intros Hth. apply ThrOK_goto; [exact Hth|]. exists f0. split; [exact E0|].
        apply Nat.eqb_neq. apply orb_false_elim in Em. apply Em.
    + destruct (find_spec s 0 (d_futs c)) as [k|]; [|apply Hfin; discriminate].
      destruct (nth_error (d_futs c) k) as [fk|] eqn:Ek; [|exact Hstut].
      apply Hnolock; [apply ext_set; exact Ek|intros i; apply (lockval_same_lock _ _ _ _ _ Ek); reflexivity
                     |intros i; reflexivity|].
      intros Hth. apply ThrOK_finish; [exact Hth|discriminate].
  - (* DLockRoot r: the scan starts at item 1 with nothing passed *)
    destruct (nth_error (d_futs c) 0) as [f0|] eqn:E0; [|exact Hstut].
    destruct (f_lock f0) eqn:El; [exact Hstut|].
    apply Hframe; [apply ext_setlock; exact E0| |].
    + apply (mutex_acquire c t th _ 0 f0 (f_setlock f0 true) _ E HM E0 El eq_refl). intros i. rewrite Epc. apply holds_scan.
    + intros [Hpc Hres]. split; [|exact Hres]. rewrite Epc in Hpc.
      apply scan_ok; [intros j; apply nth_error_skipn|]. split; [lia|split].
      * intros i Hi. replace i with 0 by lia. exact Hpc.
      * intros _ i Hi1 Hi2. lia.
  - apply (step_new_cb c t th Hinv E r Epc).
  - (* DILock cx k: take the lock of item k; the callback runs if TRIGGERED was clear *)
    destruct (nth_error (d_futs c) k) as [fk|] eqn:Ek; [|exact Hstut].
    destruct (f_lock fk) eqn:El; [exact Hstut|].
    (* either way t now holds the lock of item k and keeps what its scan has recorded *)
    destruct (f_trig fk) eqn:Et; (apply Hframe; [auto using ext_setlock, ext_trigger| |]).
    1, 3: apply (mutex_acquire c t th _ k fk _ _ E HM Ek El); [reflexivity|intros i; rewrite Epc; destruct cx; reflexivity].
    all: intros [Hpc Hres]; rewrite Epc in Hpc; exact (conj Hpc Hres).
  - (* DICb cx k: the rest of the fulfilment callback, under the lock of item k *)
    destruct (nth_error (d_futs c) k) as [fk|] eqn:Ek; [|exact Hstut].
    destruct (nth (f_spec fk) cbv 0 =? 0)%Z;
      (apply Hnolock; [| |intros i; reflexivity|intros [Hpc Hres]; rewrite Epc in Hpc; exact (conj Hpc Hres)]).
    + apply ext_refl.
    + reflexivity.
    + apply ext_set. exact Ek.
    + intros i. apply (lockval_same_lock _ _ _ _ _ Ek). reflexivity.
  - (* DIUnlock cx k *)
    destruct (nth_error (d_futs c) k) as [fk|] eqn:Ek; [|exact Hstut].
    apply Hframe; [apply ext_setlock; exact Ek| |].
    + apply (mutex_release c t th _ k fk (f_setlock fk false) _ E HM Ek eq_refl).
      * intros i. rewrite Epc, holds_after_internal. destruct cx; reflexivity.
      * rewrite holds_after_internal. destruct cx as [|r]; [reflexivity|].
        destruct Hinv as (_ & _ & _ & HTh & _). destruct (HTh t th E) as [Hpc _]. rewrite Epc in Hpc.
        destruct Hpc as [Hk1 _]. apply Nat.eqb_neq. lia.
    + intros Hth. apply (ThrOK_after_internal _ _ _ _ _ _ (nth_upd_same _ _ _ _ Ek) Hth Epc).
  - (* DUnlockRet r v *)
    destruct (nth_error (d_futs c) 0) as [f0|] eqn:E0; [|exact Hstut].
    apply Hframe; [apply ext_setlock; exact E0| |].
    + apply (mutex_release c t th _ 0 f0 (f_setlock f0 false) _ E HM E0 eq_refl); [|reflexivity]. intros i. rewrite Epc. reflexivity.
    + intros Hth. apply ThrOK_finish; [exact Hth|]. intros s v0 Hx. inv Hx.
      destruct Hth as [Hpc _]. rewrite Epc in Hpc. exact Hpc.
  - (* DUnlockNew k *)
    destruct (nth_error (d_futs c) 0) as [f0|] eqn:E0; [|exact Hstut].
    destruct (nth_error (upd (d_futs c) 0 (f_setlock f0 false)) k) as [fk|] eqn:Ek; [|exact Hstut].
    apply Hframe; [apply ext_setlock; exact E0| |].
    + apply (mutex_release c t th _ 0 f0 (f_setlock f0 false) _ E HM E0 eq_refl); [|apply holds_enter_direct].
      intros i. rewrite Epc, holds_enter_direct. reflexivity.
    + intros Hth. apply (ThrOK_enter_direct _ _ _ _ _ Hth Ek).
Qed.

Lemma dinv_init rootspec ops : DInv (dinit rootspec ops).
Proof.
  unfold DInv, dinit; cbn [d_futs d_bad d_thr].
  split; [|split; [|split; [|split]]].
  - intros i f Hi. destruct i as [|[|i]]; cbn in Hi; try discriminate. inv Hi. reflexivity.
  - cbn. constructor; [intros []|constructor].
  - intros i. cbn [d_futs d_thr]. rewrite cnt_map_false by reflexivity.
    unfold lockval. destruct i as [|[|i]]; reflexivity.
  - intros u th Hu. destruct (nth_error_map_inv _ _ _ _ Hu) as (l & _ & <-). split; [exact I|]. intros s v [].
  - intros _ i Hi1 Hi2. cbn in Hi2. lia.
Qed.

Lemma dinv_run cbv rootspec ops sched : DInv (drun cbv rootspec ops sched).
Proof. unfold drun. apply fold_left_inv; [intros; apply dstep_ok; assumption|apply dinv_init]. Qed.

Lemma drun_app cbv rs ops s1 s2 : drun cbv rs ops (s1 ++ s2) = fold_left (dstep cbv) s2 (drun cbv rs ops s1).
Proof. unfold drun. apply fold_left_app. Qed.

Lemma fulfil_le1 s : forall fs, NoDup (specs fs) -> (forall f, In f fs -> f_ncb f <= 1) -> fulfilments s fs <= 1.
Proof.
  unfold fulfilments. induction fs as [|f fs IH]; intros Hn Hle; cbn [filter map list_sum fold_right]; [lia|].
  cbn [specs map] in Hn. inversion Hn as [|x l Hx Hn' Heq]; subst.
  destruct (Nat.eqb_spec (f_spec f) s) as [Es|Es].
  - rewrite filter_none.
    + cbn. specialize (Hle f (or_introl eq_refl)). lia.
    + intros g Hg. apply Nat.eqb_neq. intros Eg. apply Hx. rewrite Es, <- Eg. apply in_map. exact Hg.
  - apply IH; [exact Hn'|]. intros g Hg. apply Hle. right. exact Hg.
Qed.

Lemma spec_index_unique fs i j f g : NoDup (specs fs) ->
  nth_error fs i = Some f -> nth_error fs j = Some g -> f_spec f = f_spec g -> i = j.
Proof.
  intros Hn Hi Hj Hs. apply (NoDup_nth_inj (specs fs) i j (f_spec f) Hn).
  - unfold specs. apply map_nth_error. exact Hi.
  - unfold specs. rewrite Hs. apply map_nth_error. exact Hj.
Qed.

Lemma Val_unique fs s x y : NoDup (specs fs) -> Val fs s x -> Val fs s y -> x = y.
Proof.
  intros Hn (i & f & Hi & Hs & _ & Hd) (j & g & Hj & Hs' & _ & Hd').
  assert (i = j) by (eapply spec_index_unique; eauto; congruence). subst j. congruence.
Qed.

(* a completed future keeps its value (no assert violation) *)
Lemma run_fextV cbv : forall sched c, DInv c -> d_bad (fold_left (dstep cbv) sched c) = false ->
  d_bad c = false /\ fextV (d_futs c) (d_futs (fold_left (dstep cbv) sched c)).
Proof.
  induction sched as [|t sched IH]; intros c Hinv Hb; cbn [fold_left] in *.
  - split; [exact Hb|apply fextV_refl].
  - destruct (dstep_ok cbv c t Hinv) as [Hinv1 Hstep]. destruct (IH _ Hinv1 Hb) as [Hb1 He1].
    destruct (Hstep Hb1) as [Hb0 He0]. split; [exact Hb0|exact (fextV_trans _ _ _ He0 He1)].
Qed.

(* shapes being distinct, the scan for the shape of item j passes everything before it *)
Lemma scan_finds fs j fj : NoDup (specs fs) -> nth_error fs j = Some fj -> f_comp fj = true -> f_data fj <> 0%Z ->
  forall l k, (forall j', nth_error l j' = nth_error fs (k + j')) -> k <= j ->
  (forall i, k <= i -> i < j -> GoodAt fs i) ->
  scan (f_spec fj) k l = DUnlockRet (f_spec fj) (f_data fj).
Proof.
  intros Hn Hj Hc Hd. induction l as [|f l IH]; intros k Hl Hk Hgood.
  - exfalso. apply suffix_nil in Hl.
    assert (j < length fs) by (apply nth_error_Some; congruence). lia.
  - apply suffix_cons in Hl. destruct Hl as [Hf Hl]. cbn [scan]. destruct (Nat.eq_dec k j) as [->|Hne].
    + rewrite Hj in Hf. inv Hf. rewrite Hc. assert (Ez : (f_data f =? 0)%Z = false) by lia. rewrite Ez, Nat.eqb_refl. reflexivity.
    + destruct (Hgood k) as (g & Hg & Hgc & Hgd); [lia|lia|]. rewrite Hf in Hg. inv Hg. rewrite Hgc.
      assert (Ez : (f_data g =? 0)%Z = false) by lia. rewrite Ez.
      destruct (Nat.eqb_spec (f_spec g) (f_spec fj)) as [Es|Es]; [destruct (Hne (spec_index_unique _ _ _ _ _ Hn Hf Hj Es))|].
      apply (IH _ Hl); [lia|intros i Hi1 Hi2; apply Hgood; lia].
Qed.

(* nested future: in a reachable state without assert violation, a reader of shape r that takes
   the root lock when the future of shape r is COMPLETED with a non-NULL value will return it *)
Theorem dc_later_reader_gets_value cbv rs ops sched t th r f0 j fj :
  let c := drun cbv rs ops sched in
  d_bad c = false ->
  nth_error (d_thr c) t = Some th -> d_pc th = DLockRoot r ->
  nth_error (d_futs c) 0 = Some f0 -> f_lock f0 = false ->
  nth_error (d_futs c) j = Some fj -> f_spec fj = r -> f_comp fj = true -> f_data fj <> 0%Z ->
  nth_error (d_thr (dstep cbv c t)) t = Some (dgoto th (DUnlockRet r (f_data fj))).
Proof.
  intros c Hb E Epc E0 El Hj Hs Hc Hd.
  destruct (dinv_run cbv rs ops sched) as (_ & HN & _ & HTh & HP). fold c in HN, HTh, HP.
  destruct (HTh t th E) as [Hpc _]. rewrite Epc in Hpc. cbn [PcOK] in Hpc. destruct Hpc as (g0 & Hg0 & Hg0s).
  rewrite E0 in Hg0. inv Hg0.
  assert (Hj1 : 1 <= j). { destruct j; [rewrite E0 in Hj; inv Hj; contradiction|lia]. }
  unfold dstep. rewrite E, Epc, E0, El. cbn [d_thr]. rewrite (nth_upd_same _ _ _ _ E). f_equal. f_equal.
  (* the scan starts behind the root, the only entry that taking the lock changed *)
  change (skipn 1 (upd (d_futs c) 0 (f_setlock g0 true))) with (skipn 1 (d_futs c)).
  apply (scan_finds (d_futs c) j fj HN Hj Hc Hd); [intros j'; apply nth_error_skipn|exact Hj1|].
  intros i Hi1 Hi2. apply HP; auto. assert (j < length (d_futs c)) by (apply nth_error_Some; congruence). lia.
Qed.

(* destruction: every registered cleanup callback runs exactly once *)
Lemma cleanup_perm fs : Permutation (d_cleanup fs) (specs fs).
Proof.
  unfold d_cleanup, specs. destruct fs as [|f fs]; [constructor|]. cbn [tl firstn map].
  apply Permutation_sym. apply Permutation_cons_append.
Qed.
