(* Small list lemmas used by the future proofs (per-thread lists updated with [upd]). *)
From PV Require Import Base.Tac Base.ListX.
Local Open Scope Z_scope.

Section Lib.
Context {A : Type}.

(* sum of an integer measure over the entries *)
Definition tot (f : A -> Z) (l : list A) : Z := fold_right (fun x a => f x + a) 0 l.
Lemma tot_nil f : tot f [] = 0. Proof. reflexivity. Qed.
Lemma tot_cons f x l : tot f (x :: l) = f x + tot f l. Proof. reflexivity. Qed.
Lemma tot_app f a b : tot f (a ++ b) = tot f a + tot f b.
Proof. induction a as [|x a IH]; cbn [app]; rewrite ?tot_cons, ?tot_nil; lia. Qed.
Lemma tot_upd f l t p q : nth_error l t = Some p -> tot f (upd l t q) = tot f l - f p + f q.
Proof.
  intros H. unfold upd. rewrite (split_nth l t p H) at 3.
  rewrite !tot_app, !tot_cons. lia.
Qed.
Lemma tot_nonneg f l : (forall x, 0 <= f x) -> 0 <= tot f l.
Proof. intros Hf. induction l as [|x l IH]; [rewrite tot_nil; lia|]. rewrite tot_cons. specialize (Hf x). lia. Qed.
Lemma tot_zero f l : (forall x, In x l -> f x = 0) -> tot f l = 0.
Proof. induction l as [|x l IH]; intros H; [reflexivity|]. rewrite tot_cons, IH, (H x); [lia|left; reflexivity|].
  intros y Hy. apply H. right. exact Hy. Qed.
Lemma tot_ge_nth f l t p : (forall x, 0 <= f x) -> nth_error l t = Some p -> f p <= tot f l.
Proof.
  intros Hf H. rewrite (split_nth l t p H), tot_app, tot_cons.
  pose proof (tot_nonneg f (firstn t l) Hf). pose proof (tot_nonneg f (skipn (S t) l) Hf). lia.
Qed.

Lemma cnt_negb (f : A -> bool) l : cnt (fun x => negb (f x)) l = Z.of_nat (length l) - cnt f l.
Proof. induction l as [|x l IH]; [reflexivity|]. rewrite !cnt_cons, IH. cbn [length]. destruct (f x); cbn [negb]; lia. Qed.
Lemma cnt_two_true (f : A -> bool) l t u p q : t <> u ->
  nth_error l t = Some p -> f p = true -> nth_error l u = Some q -> f q = true -> 2 <= cnt f l.
Proof.
  intros Hne Ht Hp Hu Hq.
  pose proof (cnt_two_false (fun x => negb (f x)) l t u p q Hne Ht (f_equal negb Hp) Hu (f_equal negb Hq)) as H.
  rewrite cnt_negb in H. lia.
Qed.

Lemma nth_error_skipn (l : list A) k j : nth_error (skipn k l) j = nth_error l (k + j).
Proof. revert l. induction k as [|k IH]; intros l; [reflexivity|]. destruct l as [|x l]; [destruct j; reflexivity|]. cbn. apply IH. Qed.

Lemma nth_error_snoc_inv (l : list A) x i y : nth_error (l ++ [x]) i = Some y ->
  nth_error l i = Some y \/ (i = length l /\ y = x).
Proof.
  intros H. destruct (Nat.lt_ge_cases i (length l)) as [Hlt|Hge].
  - rewrite nth_error_app1 in H by exact Hlt. left. exact H.
  - rewrite nth_error_app2 in H by exact Hge. destruct (i - length l)%nat as [|k] eqn:E.
    + cbn in H. inv H. right. split; [lia|reflexivity].
    + cbn in H. destruct k; discriminate.
Qed.
Lemma nth_error_app_old (l l' : list A) i y : nth_error l i = Some y -> nth_error (l ++ l') i = Some y.
Proof. intros H. rewrite nth_error_app1; [exact H|]. apply nth_error_Some. congruence. Qed.

(* a list s that is the part of l from position k on, taken apart *)
Lemma suffix_nil (l : list A) k : (forall j, nth_error (@nil A) j = nth_error l (k + j)) -> (length l <= k)%nat.
Proof. intros H. apply nth_error_None. rewrite <- (Nat.add_0_r k), <- H. reflexivity. Qed.
Lemma suffix_cons x (s l : list A) k : (forall j, nth_error (x :: s) j = nth_error l (k + j)) ->
  nth_error l k = Some x /\ (forall j, nth_error s j = nth_error l (S k + j)).
Proof.
  intros H. split; [rewrite <- (Nat.add_0_r k), <- H; reflexivity|].
  intros j. rewrite Nat.add_succ_comm. apply (H (S j)).
Qed.
End Lib.
