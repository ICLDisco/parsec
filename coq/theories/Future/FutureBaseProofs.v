(* Base future (parsec_base_future_set / get / is_ready): for any number of threads,
   any operation lists with non-NULL set values and any schedule, tracked_data is
   written once, every reader gets that value, exactly one set wins and the
   completion callback runs exactly once. *)
From PV Require Import Base.Tac Base.ListX Future.FutureDefs Future.FutureLib.
Local Open Scope Z_scope.

(* no hypothesis: a non-NULL tracked_data is never overwritten *)
Lemma bstep_data_stable h c t : b_data c <> 0 -> b_data (bstep h c t) = b_data c.
Proof.
  intros Hd. unfold bstep. destruct (nth_error (b_thr c) t) as [th|]; [|reflexivity].
  destruct (b_pc th); cbn [b_data]; try reflexivity.
  - destruct (b_ops th) as [|[v| |] r]; cbn [b_data]; try reflexivity. destruct (b_stat c); reflexivity.
  - destruct (b_data c =? 0) eqn:E; cbn [b_data]; [lia|reflexivity].
Qed.

Lemma brun_app h ops s1 s2 : brun h ops (s1 ++ s2) = fold_left (bstep h) s2 (brun h ops s1).
Proof. unfold brun. apply fold_left_app. Qed.

(* invariant under the protocol hypothesis "no set(NULL)" *)
Definition op_kind (o : bop) : nat := match o with BSet _ => 0 | BGet => 1 | BReady => 2 end%nat.
Definition res_kind (r : bres) : nat := match r with BRSet _ => 0 | BRGet _ => 1 | BRReady _ => 2 end%nat.
Definition is_won (r : bres) : bool := match r with BRSet true => true | _ => false end.
Definition is_set_res (r : bres) : bool := match r with BRSet _ => true | _ => false end.
Definition at_pub (th : bthr) : bool := match b_pc th with BSetPub => true | _ => false end.
Definition nwon (th : bthr) : Z := cnt is_won (b_res th).

(* the pc of a thread is inside the operation at the head of its list, and a get reads only once COMPLETED [s] is set *)
Definition pc_ok (s : bool) (th : bthr) : Prop :=
  match b_pc th with
  | BIdle => True
  | BSetCas v => exists r, b_ops th = BSet v :: r
  | BSetPub => exists v r, b_ops th = BSet v :: r
  | BGetRead => s = true /\ exists r, b_ops th = BGet :: r
  end.

(* what a logged result says of tracked_data [d] and COMPLETED [s] *)
Definition res_ok (d : Z) (s : bool) (r : bres) : Prop :=
  match r with
  | BRGet x => x = d /\ s = true
  | BRReady b => b = true -> s = true
  | BRSet _ => d <> 0
  end.

Definition Thr_ok (d : Z) (s : bool) (th : bthr) : Prop :=
  (forall v, In (BSet v) (b_ops th) -> v <> 0) /\ pc_ok s th /\ (forall r, In r (b_res th) -> res_ok d s r).

Definition Thr_cons (l0 : list bop) (th : bthr) : Prop :=
  map op_kind l0 = rev (map res_kind (b_res th)) ++ map op_kind (b_ops th).

Definition BInv (h : bool) (ops0 : list (list bop)) (c : bcfg) : Prop :=
  (forall u th, nth_error (b_thr c) u = Some th -> Thr_ok (b_data c) (b_stat c) th) /\
  (forall u l0, nth_error ops0 u = Some l0 -> exists th, nth_error (b_thr c) u = Some th /\ Thr_cons l0 th) /\
  (b_stat c = true -> b_data c <> 0) /\
  cnt at_pub (b_thr c) + (if b_stat c then 1 else 0) = (if b_data c =? 0 then 0 else 1) /\
  tot nwon (b_thr c) = (if b_stat c then 1 else 0) /\
  Z.of_nat (b_ncb c) = (if h && b_stat c then 1 else 0) /\
  b_seen c = (if h && b_stat c then [b_data c] else []).

Lemma Thr_ok_mono d s d' s' th : Thr_ok d s th ->
  (s = true -> d' = d /\ s' = true) -> (d <> 0 -> d' <> 0) -> Thr_ok d' s' th.
Proof.
  intros (H1 & H2 & H3) Hs Hd. split; [exact H1|split].
  - unfold pc_ok in *. destruct (b_pc th); auto. destruct H2 as [Hst H2]. split; [apply Hs; exact Hst|exact H2].
  - intros r Hr. specialize (H3 r Hr). destruct r as [w|x|b]; cbn [res_ok] in *.
    + auto.
    + destruct H3 as [-> Hst]. destruct (Hs Hst) as [-> ->]. auto.
    + intros Hb. apply Hs. auto.
Qed.

Lemma cons_finish th o r rest : b_ops th = o :: rest -> op_kind o = res_kind r ->
  forall l0, Thr_cons l0 th -> Thr_cons l0 (bfinish th r).
Proof.
  unfold Thr_cons, bfinish. cbn [b_ops b_res]. intros -> Hk l0 ->. cbn [map rev tl].
  rewrite <- app_assoc. cbn [app]. rewrite Hk. reflexivity.
Qed.

Lemma Thr_ok_goto d s th p : Thr_ok d s th -> pc_ok s (bgoto th p) -> Thr_ok d s (bgoto th p).
Proof. intros (H1 & H2 & H3) Hp. exact (conj H1 (conj Hp H3)). Qed.

Lemma Thr_ok_finish d s th r : Thr_ok d s th -> res_ok d s r -> Thr_ok d s (bfinish th r).
Proof.
  intros (H1 & H2 & H3) Hr. split; [|split; [exact I|]].
  - intros v Hv. apply H1. cbn [bfinish b_ops] in Hv. destruct (b_ops th); [contradiction|]. right. exact Hv.
  - intros x [<-|Hx]; [exact Hr|apply H3; exact Hx].
Qed.

Lemma nwon_goto th p : nwon (bgoto th p) = nwon th. Proof. reflexivity. Qed.
Lemma nwon_finish th r : nwon (bfinish th r) = (if is_won r then 1 else 0) + nwon th.
Proof. unfold nwon, bfinish; cbn [b_res]. apply cnt_cons. Qed.

Ltac binv_split := unfold BInv; cbn [b_data b_stat b_ncb b_seen b_thr];
  split; [|split; [|split; [|split; [|split; [|split]]]]].

Lemma cons_upd (ops0 : list (list bop)) thr t th th' : nth_error thr t = Some th ->
  (forall l0, Thr_cons l0 th -> Thr_cons l0 th') ->
  (forall u l0, nth_error ops0 u = Some l0 -> exists x, nth_error thr u = Some x /\ Thr_cons l0 x) ->
  forall u l0, nth_error ops0 u = Some l0 -> exists x, nth_error (upd thr t th') u = Some x /\ Thr_cons l0 x.
Proof.
  intros E Hc Hall u l0 Hu. destruct (Hall u l0 Hu) as (x & Hx & Hc0).
  rewrite (nth_upd _ _ _ _ _ E). destruct (Nat.eqb_spec u t) as [->|_]; [|eauto].
  rewrite E in Hx. inv Hx. eauto.
Qed.

(* a step that touches only thread t, away from the publication point and without a winning set *)
Lemma binv_local h ops0 c t th : BInv h ops0 c -> nth_error (b_thr c) t = Some th -> forall th',
  Thr_ok (b_data c) (b_stat c) th' -> (forall l0, Thr_cons l0 th -> Thr_cons l0 th') ->
  at_pub th' = at_pub th -> nwon th' = nwon th ->
  BInv h ops0 {| b_data := b_data c; b_stat := b_stat c; b_ncb := b_ncb c; b_seen := b_seen c;
                 b_thr := upd (b_thr c) t th' |}.
Proof.
  intros (Hthr & Hcons & Hsd & Hpub & Hwon & Hncb & Hseen) E th' Hth' Hc' Hp' Hw'. binv_split; try assumption.
  - exact (nth_upd_all _ _ _ _ _ E Hthr Hth').
  - exact (cons_upd _ _ _ _ _ E Hc' Hcons).
  - rewrite (cnt_upd _ _ _ _ _ E), Hp'. lia.
  - rewrite (tot_upd _ _ _ _ _ E), Hw'. lia.
Qed.

Lemma binv_step h ops0 c t : BInv h ops0 c -> BInv h ops0 (bstep h c t).
Proof.
  intros Hinv. pose proof Hinv as (Hthr & Hcons & Hsd & Hpub & Hwon & Hncb & Hseen). unfold bstep.
  destruct (nth_error (b_thr c) t) as [th|] eqn:E; [|exact Hinv].
  pose proof (Hthr t th E) as Hth. pose proof Hth as (Hset & Hpc & _). unfold pc_ok in Hpc.
  pose proof (binv_local h ops0 c t th Hinv E) as Hlocal.
  assert (Hgoto : forall p l0, Thr_cons l0 th -> Thr_cons l0 (bgoto th p)) by (intros p l0 H; exact H).
  assert (Hap : at_pub th = match b_pc th with BSetPub => true | _ => false end) by reflexivity.
  destruct (b_pc th).
  - (* BIdle *)
    destruct (b_ops th) as [|[v| |] rest] eqn:Eops.
    + exact Hinv.
    + (* call set *)
      apply Hlocal; [|apply Hgoto|rewrite Hap; reflexivity|reflexivity].
      apply Thr_ok_goto; [exact Hth|]. unfold pc_ok; cbn [bgoto b_pc b_ops]. eauto.
    + (* get poll *)
      destruct (b_stat c) eqn:Es; [|exact Hinv].
      apply Hlocal; [|apply Hgoto|rewrite Hap; reflexivity|reflexivity].
      apply Thr_ok_goto; [exact Hth|]. unfold pc_ok; cbn [bgoto b_pc b_ops]. eauto.
    + (* is_ready *)
      apply Hlocal; [|apply (cons_finish _ _ _ _ Eops); reflexivity|rewrite Hap; reflexivity|apply nwon_finish].
      apply Thr_ok_finish; [exact Hth|]. exact (fun H => H).
  - (* BSetCas v *)
    destruct Hpc as (rest & Eops).
    assert (Hv : v <> 0). { apply Hset. rewrite Eops. left. reflexivity. }
    destruct (b_data c =? 0) eqn:Ed.
    + (* CAS wins *)
      assert (Hs : b_stat c = false). { destruct (b_stat c) eqn:Es; [|reflexivity]. specialize (Hsd eq_refl). lia. }
      assert (Hmono : forall u x, nth_error (b_thr c) u = Some x -> Thr_ok v (b_stat c) x).
      { intros u x Hu. eapply Thr_ok_mono; [apply (Hthr u x Hu)|rewrite Hs; discriminate|lia]. }
      binv_split; try assumption.
      * apply (nth_upd_all _ _ _ _ _ E Hmono). apply Thr_ok_goto; [eapply Hmono; eauto|].
        unfold pc_ok; cbn [bgoto b_pc b_ops]. eauto.
      * exact (cons_upd _ _ _ _ _ E (Hgoto BSetPub) Hcons).
      * intros _. exact Hv.
      * rewrite (cnt_upd _ _ _ _ _ E), Hap. cbn [at_pub bgoto b_pc].
        rewrite Hs in *. assert (Ev : (v =? 0) = false) by lia. rewrite Ev. lia.
      * rewrite (tot_upd _ _ _ _ _ E), nwon_goto. lia.
      * rewrite Hs in *. rewrite andb_false_r in *. exact Hseen.
    + (* CAS fails *)
      apply Hlocal; [|apply (cons_finish _ _ _ _ Eops); reflexivity|rewrite Hap; reflexivity|apply nwon_finish].
      apply Thr_ok_finish; [exact Hth|]. cbn [res_ok]. lia.
  - (* BSetPub *)
    destruct Hpc as (v & rest & Eops).
    pose proof (cnt_pos_of_nth at_pub _ _ _ E Hap) as Hpos.
    assert (Hs : b_stat c = false).
    { destruct (b_stat c); [|reflexivity]. destruct (b_data c =? 0); lia. }
    assert (Hd : b_data c <> 0). { destruct (b_data c =? 0) eqn:Ed; [rewrite Hs in Hpub; lia|lia]. }
    assert (Hmono : forall u x, nth_error (b_thr c) u = Some x -> Thr_ok (b_data c) true x).
    { intros u x Hu. eapply Thr_ok_mono; [apply (Hthr u x Hu)|rewrite Hs; discriminate|auto]. }
    binv_split.
    + apply (nth_upd_all _ _ _ _ _ E Hmono). apply Thr_ok_finish; [eapply Hmono; eauto|exact Hd].
    + apply (cons_upd _ _ _ _ _ E); [apply (cons_finish _ _ _ _ Eops); reflexivity|exact Hcons].
    + intros _. exact Hd.
    + rewrite (cnt_upd _ _ _ _ _ E), Hap. cbn [at_pub bfinish b_pc].
      rewrite Hs in Hpub. destruct (b_data c =? 0) eqn:Ed; lia.
    + rewrite (tot_upd _ _ _ _ _ E), nwon_finish. cbn [is_won].
      rewrite Hs in Hwon. lia.
    + rewrite Hs in Hncb. rewrite andb_false_r in Hncb. rewrite andb_true_r. destruct h; lia.
    + rewrite Hs in Hseen. rewrite andb_false_r in Hseen. rewrite andb_true_r. destruct h; [rewrite Hseen; reflexivity|exact Hseen].
  - (* BGetRead *)
    destruct Hpc as (Hgr & rest & Eops).
    apply Hlocal; [|apply (cons_finish _ _ _ _ Eops); reflexivity|rewrite Hap; reflexivity|apply nwon_finish].
    apply Thr_ok_finish; [exact Hth|]. split; [reflexivity|exact Hgr].
Qed.

Definition nonnull_sets (ops : list (list bop)) : Prop :=
  forall l v, In l ops -> In (BSet v) l -> v <> 0.

Lemma binv_init h ops : nonnull_sets ops -> BInv h ops (binit ops).
Proof.
  intros Hn. unfold binit. binv_split.
  - intros u th Hu. destruct (nth_error_map_inv _ _ _ _ Hu) as (l & Hl & <-). split; [|split; [exact I|intros r []]].
    intros v Hv. apply (Hn l v); [eapply nth_error_In; eauto|exact Hv].
  - intros u l Hu. exists (bmk l). split; [apply map_nth_error; exact Hu|reflexivity].
  - discriminate.
  - rewrite cnt_map_false by reflexivity. reflexivity.
  - apply tot_zero. intros x Hx. apply in_map_iff in Hx. destruct Hx as (l & <- & _). reflexivity.
  - rewrite andb_false_r. reflexivity.
  - rewrite andb_false_r. reflexivity.
Qed.

Lemma binv_run h ops sched : nonnull_sets ops -> BInv h ops (brun h ops sched).
Proof. intros Hn. unfold brun. apply fold_left_inv; [intros; apply binv_step; assumption|apply binv_init; assumption]. Qed.

(* when every thread has finished and some thread had a set to run, the future is complete
   and the registered callback has run exactly once *)
Theorem base_callback_exactly_once ops sched l v : nonnull_sets ops ->
  In l ops -> In (BSet v) l ->
  let c := brun true ops sched in
  (forall u th, nth_error (b_thr c) u = Some th -> b_done th = true) ->
  b_stat c = true /\ b_ncb c = 1%nat /\ b_seen c = [b_data c] /\ b_data c <> 0.
Proof.
  intros Hn Hl Hv c Hdone. destruct (binv_run true ops sched Hn) as (Hthr & Hcons & Hsd & Hpub & Hw & Hc & Hs).
  fold c in Hthr, Hcons, Hsd, Hpub, Hw, Hc, Hs.
  destruct (In_nth_error _ _ Hl) as (u & Hu). destruct (Hcons u l Hu) as (th & Eth & Hc0).
  pose proof (Hdone u th Eth) as Hd. unfold b_done in Hd. destruct (b_ops th) eqn:Eops; [|discriminate].
  unfold Thr_cons in Hc0. rewrite Eops in Hc0. cbn [map] in Hc0. rewrite app_nil_r in Hc0.
  pose proof (in_map op_kind _ _ Hv) as Hin. cbn [op_kind] in Hin.
  rewrite Hc0 in Hin. apply in_rev in Hin. apply in_map_iff in Hin. destruct Hin as (r & Hr & Hin).
  destruct r as [w| |]; try discriminate.
  destruct (Hthr u th Eth) as (_ & _ & Hres). assert (Hdn : b_data c <> 0) by exact (Hres _ Hin).
  assert (Hp0 : cnt at_pub (b_thr c) = 0).
  { apply cnt_zero_of_all. intros k x Hk.
    pose proof (Hdone k x Hk) as Hdx. destruct (Hthr k x Hk) as (_ & Hpc & _).
    unfold at_pub, pc_ok, b_done in *. destruct (b_pc x); try reflexivity.
    destruct Hpc as (? & ? & Ho). rewrite Ho in Hdx. discriminate. }
  assert (Hst : b_stat c = true). { destruct (b_stat c); [reflexivity|]. destruct (b_data c =? 0) eqn:Ed; lia. }
  rewrite Hst in *. cbn in Hc, Hs. repeat split; auto. lia.
Qed.
