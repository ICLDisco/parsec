(* Every interleaving of the arrival protocol delivers the notification exactly once.
   The state space reachable from the three initial situations is finite; it is computed once
   (closure under both threads' steps, checked by the kernel) and every schedule stays in it. *)
From PV Require Import Base.Tac UserTrig.ArriveDefs.
From Coq Require Import List Arith Bool.
Import ListNotations.

Definition st_eqb (a b : st) : bool :=
  let '(a1, a2, a3, a4, a5, a6, a7) := a in let '(b1, b2, b3, b4, b5, b6, b7) := b in
  (a1 =? b1) && (a2 =? b2) && (a3 =? b3) && (a4 =? b4) && (a5 =? b5) && (a6 =? b6) && (a7 =? b7).

Lemma st_eqb_eq a b : st_eqb a b = true <-> a = b.
Proof.
  destruct a as [[[[[[a1 a2] a3] a4] a5] a6] a7], b as [[[[[[b1 b2] b3] b4] b5] b6] b7]. unfold st_eqb.
  rewrite !andb_true_iff, !Nat.eqb_eq. split.
  - intros [[[[[[-> ->] ->] ->] ->] ->] ->]. reflexivity.
  - intros H. inversion H. repeat split; reflexivity.
Qed.

Definition mem (s : st) (l : list st) : bool := existsb (st_eqb s) l.
Lemma mem_In s l : mem s l = true <-> In s l.
Proof. unfold mem. rewrite existsb_exists. split.
  - intros (x & Hx & He). apply st_eqb_eq in He. subst. assumption.
  - intros H. exists s. split; [assumption|]. apply st_eqb_eq. reflexivity. Qed.

Definition add (s : st) (l : list st) : list st := if mem s l then l else l ++ [s].
Fixpoint close (fuel : nat) (l : list st) : list st :=
  match fuel with
  | O => l
  | S f => close f (fold_left (fun acc s => add (main_step s) (add (comm_step s) acc)) l l)
  end.

Definition reach : list st := Eval vm_compute in close 16 [init 0; init 1; init 2].

Lemma reach_init ini : In (init ini) reach.
Proof. destruct ini as [|[|k]]; apply mem_In; vm_compute; reflexivity. Qed.

Lemma reach_closed : forallb (fun s => mem (comm_step s) reach && mem (main_step s) reach) reach = true.
Proof. vm_compute. reflexivity. Qed.

Lemma reach_step s t : In s reach -> In (step s t) reach.
Proof.
  intros H. pose proof reach_closed as C. rewrite forallb_forall in C. specialize (C s H).
  apply andb_true_iff in C. destruct C as [C0 C1].
  destruct t as [|[|t]]; cbn [step]; [apply mem_In, C0|apply mem_In, C1|exact H].
Qed.

Lemma reach_run sched : forall s, In s reach -> In (run sched s) reach.
Proof. induction sched as [|t sched IH]; intros s H; cbn [run fold_left]; [exact H|]. apply IH, reach_step, H. Qed.

Definition good (s : st) : bool :=
  (delivered s <=? 1) && (bad s =? 0) && (parked s + delivered s <=? 1) &&
  (if finished s then (delivered s =? 1) && (parked s =? 0) && (lock_of s =? 0) && (tp_of s =? 3) else true).

Lemma reach_good : forallb good reach = true.
Proof. vm_compute. reflexivity. Qed.

(* progress: from every reachable state, six rounds that schedule both threads finish both
   (nobody waits for ever on the list lock, no message stays parked) *)
Definition rounds (k : nat) : list nat := concat (repeat [0; 1] k).
Lemma reach_finishes : forallb (fun s => finished (run (rounds 6) s)) reach = true.
Proof. vm_compute. reflexivity. Qed.

(* the protocol without the second lookup under the lock: the communication thread re-tests
   what its first lookup returned *)
Definition step_stale (seen : nat) (s : st) (t : nat) : st :=
  match t with 0 => comm_step_stale seen s | _ => step s t end.
