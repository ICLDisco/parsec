(* The notification tree in shifted coordinates: rank r sits at position (r - root) mod n, and
   position s notifies the positions 2s+1 and 2s+2 that lie below n.  Every position other than 0
   therefore has exactly one parent, (s-1)/2, and induction on the position reaches every rank. *)
From PV Require Import Base.Tac UserTrig.UserTrigDefs.
Local Open Scope Z_scope.

Lemma mod_wrap x n : 0 < n -> 0 <= x < 2*n -> x mod n = if x <? n then x else x - n.
Proof.
  intros Hn Hx. destruct (x <? n) eqn:E.
  - apply Z.mod_small; lia.
  - symmetry; apply (Z.mod_unique_pos x n 1 (x - n)); lia.
Qed.

Lemma shifted_spec n root me : 0 < n -> 0 <= root < n -> 0 <= me < n ->
  shifted n root me = if root <=? me then me - root else me - root + n.
Proof. intros; unfold shifted; rewrite mod_wrap by lia.
  destruct (me - root + n <? n) eqn:E1, (root <=? me) eqn:E2; lia. Qed.

Lemma shifted_range n root me : 0 < n -> 0 <= root < n -> 0 <= me < n ->
  0 <= shifted n root me < n.
Proof. intros; rewrite shifted_spec by lia; destruct (root <=? me) eqn:E; lia. Qed.

Lemma shifted_root n root : 0 < n -> 0 <= root < n -> shifted n root root = 0.
Proof. intros; rewrite shifted_spec by lia. destruct (root <=? root) eqn:E; lia. Qed.

Lemma shifted_inj n root a b : 0 < n -> 0 <= root < n -> 0 <= a < n -> 0 <= b < n ->
  shifted n root a = shifted n root b -> a = b.
Proof. intros Hn Hr Ha Hb. rewrite !shifted_spec by lia.
  destruct (root <=? a) eqn:E1, (root <=? b) eqn:E2; lia. Qed.

(* position x is that of rank (x + root) mod n, and of no other *)
Lemma unshift_shifted n root r : 0 < n -> 0 <= root < n -> 0 <= r < n ->
  (shifted n root r + root) mod n = r.
Proof.
  intros Hn Hroot Hr. rewrite shifted_spec by lia.
  destruct (root <=? r) eqn:E; rewrite mod_wrap by lia; iflia.
Qed.

Lemma shifted_unshift n root x : 0 < n -> 0 <= root < n -> 0 <= x < n ->
  0 <= (x + root) mod n < n /\ shifted n root ((x + root) mod n) = x.
Proof.
  intros Hn Hroot Hx. rewrite mod_wrap by lia.
  destruct (x + root <? n) eqn:E; rewrite shifted_spec by lia; iflia.
Qed.

Lemma nb_children_spec n s i : 0 <= s -> (0 <= i < nb_children n s <-> 0 <= i < 2 /\ 2*s + i + 1 < n).
Proof. intros; unfold nb_children.
  destruct (2*s + 2 <? n) eqn:E1; [|destruct (2*s + 1 <? n) eqn:E2]; lia. Qed.

(* a notification goes to the rank whose shifted position is 2s+i+1 *)
Lemma sends_shifted n root me i r : 0 < n -> 0 <= root < n -> 0 <= me < n -> 0 <= r < n ->
  (sends n root me i r <-> 0 <= i < 2 /\ shifted n root r = 2 * shifted n root me + i + 1).
Proof.
  intros Hn Hroot Hme Hr. unfold sends, real_child.
  pose proof (shifted_range n root me Hn Hroot Hme) as Hs.
  pose proof (shifted_range n root r Hn Hroot Hr) as Hs'.
  rewrite nb_children_spec by lia. split.
  - intros [[Hi Hlt] <-]. split; [lia|]. apply shifted_unshift; lia.
  - intros [Hi Heq]. split; [lia|]. rewrite <- Heq. apply unshift_shifted; lia.
Qed.

Theorem exactly_one_sender n root r :
  0 < n -> 0 <= root < n -> 0 <= r < n -> r <> root ->
  exists me i, 0 <= me < n /\ sends n root me i r /\
    forall me' i', 0 <= me' < n -> sends n root me' i' r -> me' = me /\ i' = i.
Proof.
  intros Hn Hroot Hr Hne.
  pose proof (shifted_range n root r Hn Hroot Hr) as Hrr.
  assert (Hr1 : 1 <= shifted n root r).
  { destruct (Z.eq_dec (shifted n root r) 0) as [E|]; [|lia].
    exfalso; apply Hne. apply (shifted_inj n root); try lia.
    rewrite shifted_root by lia. exact E. }
  set (r' := shifted n root r) in *.
  set (p' := (r' - 1) / 2). set (i := (r' - 1) mod 2).
  assert (Hp : r' - 1 = 2 * p' + i /\ 0 <= i < 2 /\ 0 <= p').
  { unfold p', i. pose proof (Z.div_mod (r'-1) 2). pose proof (Z.mod_pos_bound (r'-1) 2).
    assert (0 <= (r'-1)/2) by (apply Z.div_pos; lia). lia. }
  set (me := (p' + root) mod n).
  destruct (shifted_unshift n root p' Hn Hroot) as [Hme Hs]; [lia|]. fold me in Hme, Hs.
  exists me, i. split; [exact Hme|]. split.
  - apply sends_shifted; try lia; fold r'; rewrite Hs; lia.
  - intros me' i' Hme' Hsd. apply sends_shifted in Hsd; try lia. fold r' in Hsd.
    pose proof (shifted_range n root me' Hn Hroot Hme').
    assert (shifted n root me' = p' /\ i' = i) as [E1 E2] by lia.
    split; [|exact E2]. apply (shifted_inj n root); try lia.
Qed.

(* every rank is triggered: strong induction on the shifted position *)
Theorem all_triggered n root r :
  0 < n -> 0 <= root < n -> 0 <= r < n -> Triggered n root r.
Proof.
  intros Hn Hroot. 
  assert (H : forall k, 0 <= k -> forall r, 0 <= r < n -> shifted n root r <= k -> Triggered n root r).
  { intros k Hk. pattern k. apply natlike_ind; [| |exact Hk].
    - intros r0 Hr0 Hle. pose proof (shifted_range n root r0 Hn Hroot Hr0).
      assert (r0 = root).
      { apply (shifted_inj n root); try lia. rewrite shifted_root by lia. lia. }
      subst; constructor.
    - intros k0 Hk0 IH r0 Hr0 Hle.
      destruct (Z.eq_dec r0 root) as [->|Hne]; [constructor|].
      destruct (exactly_one_sender n root r0 Hn Hroot Hr0 Hne) as (me & i & Hme & Hsd & _).
      apply (T_child n root me i r0); auto.
      apply IH; auto. apply sends_shifted in Hsd; [|lia..].
      pose proof (shifted_range n root me Hn Hroot Hme). lia. }
  intros Hr. apply (H n); try lia.
  pose proof (shifted_range n root r Hn Hroot Hr). lia.
Qed.

(* the executable child list is exactly the [sends] relation *)
Lemma children_spec n root me r : 0 <= shifted n root me ->
  In r (children n root me) <-> exists i, sends n root me i r.
Proof.
  intros Hs. unfold children, sends. rewrite in_map_iff. split.
  - intros (i & <- & Hi). apply in_map_iff in Hi. destruct Hi as (k & <- & Hk).
    apply in_seq in Hk. exists (Z.of_nat k). split; [|reflexivity].
    assert (0 <= nb_children n (shifted n root me)) by (unfold nb_children; iflia). lia.
  - intros (i & Hi & <-). exists i. split; [reflexivity|].
    apply in_map_iff. exists (Z.to_nat i). split; [lia|]. apply in_seq. lia.
Qed.

Lemma children_NoDup n root me : 0 < n -> 0 <= root < n -> 0 <= me < n ->
  NoDup (children n root me).
Proof.
  intros Hn Hroot Hme. unfold children.
  pose proof (shifted_range n root me Hn Hroot Hme) as Hs.
  set (s := shifted n root me) in *. unfold nb_children.
  assert (Hrc : forall i, 0 <= i < 2 -> 2*s+i+1 < n ->
     real_child n root s i = if 2*s+i+1+root <? n then 2*s+i+1+root else 2*s+i+1+root-n).
  { intros i Hi Hlt. unfold real_child. apply mod_wrap; lia. }
  destruct (2*s + 2 <? n) eqn:E1; [|destruct (2*s + 1 <? n) eqn:E2]; cbn.
  - constructor; [|constructor; [intros []|constructor]].
    change (Z.of_nat 0) with 0; change (Z.of_nat 1) with 1.
    intros [H|[]]. rewrite (Hrc 0), (Hrc 1) in H by lia. iflia.
  - constructor; [intros []|constructor].
  - constructor.
Qed.
