(* The counter protocol of one process: an invariant that ties the number of signals to the
   monitor state, kept by every allowed interface call, and the weaker guard that signals twice. *)
From PV Require Import Base.Tac UserTrig.CountDefs.
Local Open Scope Z_scope.

(* invariant of disciplined histories: termination has been signalled exactly when the monitor is
   TERMINATED, and then once; the pending-action count is 0 before ready, at least 1 while BUSY (the
   tasks count as one action until the trigger), never negative afterwards *)
Definition cinv (s : cst) : Prop :=
  match c_state s with
  | NotReady => c_sig s = 0%nat /\ c_pa s = 0
  | Busy => c_sig s = 0%nat /\ 1 <= c_pa s
  | Terminated => c_sig s = 1%nat /\ 0 <= c_pa s
  end.

Lemma cinv_init : cinv cinit.
Proof. unfold cinv, cinit; cbn. split; reflexivity. Qed.

Lemma add_actions_inv v s : cinv s -> c_state s <> NotReady -> 0 <= c_pa s + v -> cinv (add_actions v s).
Proof.
  destruct s as [st t0 pa sg]. unfold add_actions, cinv, is_busy. cbn [c_state c_pa c_sig]. intros H Hn Hp.
  destruct (Z.eqb_spec v 0) as [->|Hv]; [exact H|].
  destruct st; cbn [andb]; [congruence| |cbn; lia].
  destruct (Z.eqb_spec (pa + v) 0); cbn; lia.
Qed.

Lemma cstep_inv s o : cinv s -> allowed s o = true -> cinv (cstep s o).
Proof.
  destruct s as [st t0 pa sg]. intros H Ha.
  destruct o as [| |v|v|v|v]; cbn [cstep allowed c_state c_pa c_tasks0 c_sig is_busy] in *.
  - destruct st; try discriminate. unfold cinv in *. cbn in *. lia.
  - destruct st; try discriminate.
    apply add_actions_inv; cbn; [exact H|discriminate|unfold cinv in H; cbn in H; lia].
  - destruct (v =? 0); [discriminate|exact H].
  - exact H.
  - apply andb_true_iff in Ha. destruct Ha as [Hp Hs]. apply Z.leb_le in Hp.
    apply add_actions_inv; [exact H| |exact Hp]. destruct st; [discriminate Hs|discriminate|discriminate].
  - apply andb_true_iff in Ha. destruct Ha as [Hp Hs]. apply Z.leb_le in Hp.
    unfold cinv in *. destruct st; cbn in *; [discriminate Hs| |lia].
    destruct (Z.eqb_spec v 0); cbn; lia.
Qed.

Lemma crun_inv ops : forall s, cinv s -> disciplined s ops = true -> cinv (crun ops s).
Proof.
  induction ops as [|o ops IH]; intros s H D; cbn [crun fold_left disciplined] in *; [exact H|].
  apply andb_true_iff in D. destruct D as [Da Dr]. apply IH; [apply cstep_inv; assumption|exact Dr].
Qed.

(* the guard of the signalling calls must test the monitor state: with a guard that only tests
   "nb_tasks has been set to 0", an action added and retired after the termination signals again *)
Definition add_actions_tasks0 (v : Z) (s : cst) : cst :=
  if v =? 0 then s else
  let s' := {| c_state := c_state s; c_tasks0 := c_tasks0 s; c_pa := c_pa s + v; c_sig := c_sig s |} in
  if c_tasks0 s && (c_pa s + v =? 0) then signal s' else s'.
