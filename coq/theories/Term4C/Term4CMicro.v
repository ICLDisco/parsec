(* C11: every step of the model is a finite sequence of micro-steps with
   elementary effects.  The invariants are proved on micro-steps. *)
From PV Require Import Base.Tac Base.ListX Term4C.Term4CDefs Term4C.Term4CBase.
Local Open Scope Z_scope.

Definition NP (c : cfg) : nat := length (procs c).
Definition setp (c : cfg) (i : nat) (p : proc) : cfg := mkC (lset (procs c) i p) (net c) (dlyq c).

(* the busy branch of check_state_workload_changed *)
Definition busyfix (p : proc) : proc :=
  if idle0 p then p else match st p with IWC => set_st p BWC | IWP => set_st p BWP | _ => p end.
Definition rstart_p (p : proc) : proc :=
  let p1 := set_inproc (set_infl p (infl p - 1)) (inproc p + 1) in
  match st p1 with IWC => set_st p1 BWC | IWP => set_st p1 BWP | _ => p1 end.
Definition up_p (p : proc) (a b : Z) : proc := set_ncl (set_acc p (acc_s p + a) (acc_r p + b)) (ncl p - 1).
Definition down_p (b : bool) (p : proc) : proc :=
  if b then set_cbs (set_st p TERM) (cbs p + 1)
  else set_st (set_acc p 0 0) (match st p with IWP => IWC | _ => BWC end).
Definition fwd (N j : nat) (b : bool) : list pkt := map (fun k => (j, k, DOWN b)) (children N j).
(* nb_tasks ([w] = true) or nb_pending_actions *)
Definition set_wl (w : bool) (p : proc) (v : Z) : proc := if w then set_tasks p v else set_acts p v.

(* what the application and its workload do: nothing of it is enabled once every process is quiet *)
Inductive wstep (c : cfg) : cfg -> Prop :=
| M_ready i : (i < NP c)%nat -> st (P c i) = NR ->
    wstep c (setp c i (set_st (set_ncl (P c i) (nch (NP c) i)) BWC))
| M_load w i v (fx : bool) : (i < NP c)%nat -> may_load (P c i) = true -> 0 <= v ->
    (fx = false -> idle0 (P c i) = false) ->
    wstep c (setp c i (if fx then busyfix (set_wl w (P c i) v) else set_wl w (P c i) v))
| M_idle i : (i < NP c)%nat -> idle0 (P c i) = true -> (st (P c i) = BWP \/ st (P c i) = BWC) ->
    wstep c (setp c i (set_st (P c i) (match st (P c i) with BWP => IWP | _ => IWC end)))
| M_send i j : (i < NP c)%nat -> (j < NP c)%nat -> i <> j -> is_busy (P c i) = true ->
    wstep c (setp (setp c i (set_sent (P c i) (sent (P c i) + 1))) j (set_infl (P c j) (infl (P c j) + 1)))
| M_rstart i : (i < NP c)%nat -> 0 < infl (P c i) -> can_recv (P c i) = true ->
    wstep c (setp c i (rstart_p (P c i)))
| M_rend i : (i < NP c)%nat -> 0 < inproc (P c i) ->
    wstep c (setp c i (set_inproc (set_recv (P c i) (recv (P c i) + 1)) (inproc (P c i) - 1))).

(* what the wave does: a report, a control message handed to the module, a message handled *)
Inductive tstep (c : cfg) : cfg -> Prop :=
| M_contrib i : (i < NP c)%nat -> idle0 (P c i) = true -> st (P c i) = IWC -> ncl (P c i) = 0 ->
    tstep c (mkC (lset (procs c) i (fst (send_up (NP c) i (P c i))))
                 (net c ++ snd (send_up (NP c) i (P c i))) (dlyq c))
| M_delay l1 pk l2 : net c = l1 ++ pk :: l2 ->
    tstep c (mkC (procs c) (l1 ++ l2) (dlyq c ++ [pk]))
| M_up d1 d2 s j a b : dlyq c = d1 ++ (s, j, UP a b) :: d2 -> (j < NP c)%nat -> st (P c j) <> NR ->
    tstep c (mkC (lset (procs c) j (up_p (P c j) a b)) (net c) (d1 ++ d2))
| M_down d1 d2 s j b : dlyq c = d1 ++ (s, j, DOWN b) :: d2 -> (j < NP c)%nat -> st (P c j) <> NR ->
    tstep c (mkC (lset (procs c) j (down_p b (P c j))) (net c ++ fwd (NP c) j b) (d1 ++ d2)).

Definition mstep (c c' : cfg) : Prop := wstep c c' \/ tstep c c'.

Inductive msteps : cfg -> cfg -> Prop :=
| ms_refl c : msteps c c
| ms_step c c1 c2 : mstep c c1 -> msteps c1 c2 -> msteps c c2.

Lemma ms_trans c1 c2 c3 : msteps c1 c2 -> msteps c2 c3 -> msteps c1 c3.
Proof. induction 1; intros; auto. econstructor; eauto. Qed.
Lemma ms_one c c1 : mstep c c1 -> msteps c c1.
Proof. intros. econstructor; eauto. constructor. Qed.

Lemma lset_same {A} (l : list A) i d : (i < length l)%nat -> lset l i (nth i l d) = l.
Proof.
  revert i; induction l as [|x l IH]; intros [|i] H; cbn in H; try lia; [reflexivity|].
  unfold lset in *. cbn [firstn skipn app nth]. f_equal. apply IH. lia.
Qed.

Lemma NP_mstep c c' : mstep c c' -> NP c' = NP c.
Proof.
  destruct 1 as [[]|[]]; unfold NP, setp in *; cbn [procs]; try reflexivity;
    repeat rewrite lset_length; auto; rewrite lset_length; auto.
Qed.
Lemma NP_msteps c c' : msteps c c' -> NP c' = NP c.
Proof. induction 1; auto. rewrite IHmsteps. apply NP_mstep; auto. Qed.

Lemma send_up_not_nr N i p : st p <> NR -> st (fst (send_up N i p)) <> NR.
Proof.
  intros H. unfold send_up. destruct i; [|cbn; congruence].
  destruct (if nch N 0 =? 0 then true else _); cbn; congruence.
Qed.

Lemma contrib_ms ps nt dq i : (i < length ps)%nat ->
  (idle0 (nth i ps p0) && is_iwc (nth i ps p0) && (ncl (nth i ps p0) =? 0)) = true ->
  msteps (mkC ps nt dq) (mkC (lset ps i (fst (send_up (length ps) i (nth i ps p0))))
                             (nt ++ snd (send_up (length ps) i (nth i ps p0))) dq).
Proof.
  intros Hi Hc. rewrite !andb_true_iff in Hc. destruct Hc as [[H1 H2] H3].
  apply ms_one. right. apply (M_contrib (mkC ps nt dq) i); unfold NP, P; cbn [procs]; auto.
  - unfold is_iwc in H2. destruct (st (nth i ps p0)); congruence.
  - lia.
Qed.

Lemma check_recv_ms ps nt dq i : (i < length ps)%nat ->
  let r := check_recv (length ps) i (nth i ps p0) in
  msteps (mkC ps nt dq) (mkC (lset ps i (fst r)) (nt ++ snd r) dq).
Proof.
  intros Hi. unfold check_recv.
  destruct (idle0 (nth i ps p0) && is_iwc (nth i ps p0) && (ncl (nth i ps p0) =? 0)) eqn:E.
  - apply contrib_ms; auto.
  - cbn. rewrite lset_same, app_nil_r by auto. constructor.
Qed.

Lemma check_recv_not_nr N i p : st p <> NR -> st (fst (check_recv N i p)) <> NR.
Proof. intros H. unfold check_recv. destruct (_ && _ && _); [apply send_up_not_nr|]; auto. Qed.

Lemma dispatch_ms ps nt d1 d2 s j m : (j < length ps)%nat -> st (nth j ps p0) <> NR ->
  let r := dispatch_tp (length ps) j (nth j ps p0) m in
  msteps (mkC ps nt (d1 ++ (s, j, m) :: d2)) (mkC (lset ps j (fst r)) (nt ++ snd r) (d1 ++ d2))
  /\ st (fst r) <> NR.
Proof.
  intros Hj Hnr. set (p := nth j ps p0) in *. destruct m as [a b|[|]]; cbn [dispatch_tp].
  - (* UP *)
    unfold msg_up. fold (up_p p a b). split; [|apply check_recv_not_nr; cbn; auto].
    eapply ms_step.
    + right. apply (M_up (mkC ps nt (d1 ++ (s, j, UP a b) :: d2)) d1 d2 s j a b); unfold NP, P; cbn [procs dlyq]; auto.
    + unfold P, NP; cbn [procs net dlyq]. fold p.
      pose proof (check_recv_ms (lset ps j (up_p p a b)) nt (d1 ++ d2) j) as H. cbv zeta in H.
      rewrite lset_length, nth_lset_eq, lset_lset in H by auto. apply H; auto.
  - (* DOWN true *)
    unfold msg_down. cbn [fst snd]. split; [|cbn; congruence].
    apply ms_one. right.
    apply (M_down (mkC ps nt (d1 ++ (s, j, DOWN true) :: d2)) d1 d2 s j true); unfold NP, P; cbn [procs dlyq]; auto.
  - (* DOWN false *)
    unfold msg_down.
    assert (Hm : mstep (mkC ps nt (d1 ++ (s, j, DOWN false) :: d2))
                       (mkC (lset ps j (down_p false p)) (nt ++ fwd (length ps) j false) (d1 ++ d2))).
    { right. apply (M_down (mkC ps nt (d1 ++ (s, j, DOWN false) :: d2)) d1 d2 s j false); unfold NP, P; cbn [procs dlyq]; auto. }
    replace (st (set_acc p 0 0)) with (st p) by reflexivity.
    destruct (st p) eqn:Est; try (cbn [fst snd]; split; [|cbn; congruence]; apply ms_one;
      unfold down_p in Hm; rewrite Est in Hm; exact Hm).
    (* IWP: idle, becomes IWC, may report again *)
    destruct (check_recv (length ps) j (set_st (set_acc p 0 0) IWC)) as [p2 o] eqn:Ecr. cbn [fst snd].
    split.
    + eapply ms_step; [exact Hm|]. unfold down_p. rewrite Est.
      pose proof (check_recv_ms (lset ps j (set_st (set_acc p 0 0) IWC)) (nt ++ fwd (length ps) j false) (d1 ++ d2) j) as H. cbv zeta in H.
      rewrite lset_length, nth_lset_eq, lset_lset, Ecr in H by auto. cbn [fst snd] in H.
      rewrite app_assoc. apply H; auto.
    + replace p2 with (fst (check_recv (length ps) j (set_st (set_acc p 0 0) IWC))) by (rewrite Ecr; auto).
      apply check_recv_not_nr. cbn. congruence.
Qed.

Lemma ready_loop_ms i : forall q pre ps nt, (i < length ps)%nat -> st (nth i ps p0) <> NR ->
  let r := ready_loop (length ps) i (nth i ps p0) q in
  msteps (mkC ps nt (pre ++ q)) (mkC (lset ps i (fst (fst r))) (nt ++ snd r) (pre ++ snd (fst r))).
Proof.
  induction q as [|[[s d] m] q IH]; intros pre ps nt Hi Hnr; cbv zeta in *.
  - cbn. rewrite lset_same, !app_nil_r by auto. constructor.
  - cbn [ready_loop]. destruct (d =? i)%nat eqn:Ed.
    + apply Nat.eqb_eq in Ed. subst d.
      pose proof (dispatch_ms ps nt pre q s i m Hi Hnr) as Hdn. cbv zeta in Hdn. destruct Hdn as [Hd Hn].
      destruct (dispatch_tp (length ps) i (nth i ps p0) m) as [p1 o1] eqn:Edp. cbn [fst snd] in Hd, Hn.
      specialize (IH pre (lset ps i p1) (nt ++ o1)).
      rewrite lset_length, nth_lset_eq, lset_lset in IH by auto.
      specialize (IH Hi Hn).
      destruct (ready_loop (length ps) i p1 q) as [[p2 k] o2]. cbn [fst snd] in *.
      rewrite app_assoc. eapply ms_trans; eauto.
    + specialize (IH (pre ++ [(s, d, m)]) ps nt Hi Hnr).
      destruct (ready_loop (length ps) i (nth i ps p0) q) as [[p2 k] o2]. cbn [fst snd] in *.
      rewrite <- !app_assoc in IH. exact IH.
Qed.

Lemma wl_from_fixed ps nt dq i p1 : (i < length ps)%nat -> nth i ps p0 = busyfix p1 ->
  let r := wl_changed (length ps) i p1 in
  msteps (mkC ps nt dq) (mkC (lset ps i (fst r)) (nt ++ snd r) dq).
Proof.
  intros Hi Hp. unfold wl_changed, busyfix in *. destruct (idle0 p1) eqn:Eid.
  - destruct (st p1) eqn:Est; try (cbn [fst snd]; rewrite <- Hp, lset_same, app_nil_r by auto; constructor).
    + (* BWC *)
      assert (Hm : mstep (mkC ps nt dq) (mkC (lset ps i (set_st p1 IWC)) nt dq)).
      { left. pose proof (M_idle (mkC ps nt dq) i) as H. unfold NP, P, setp in H; cbn [procs net dlyq] in H.
        rewrite Hp, Est in H. apply H; auto. }
      replace (ncl (set_st p1 IWC)) with (ncl p1) by reflexivity.
      destruct (ncl p1 =? 0) eqn:En.
      * eapply ms_step; [exact Hm|].
        pose proof (contrib_ms (lset ps i (set_st p1 IWC)) nt dq i) as H.
        rewrite lset_length, nth_lset_eq, lset_lset in H by auto. apply H; auto.
        unfold idle0 in *. cbn. rewrite En. cbn in Eid. rewrite Eid. reflexivity.
      * cbn [fst snd]. rewrite app_nil_r. apply ms_one. exact Hm.
    + (* BWP *)
      cbn [fst snd]. rewrite app_nil_r. apply ms_one. left.
      pose proof (M_idle (mkC ps nt dq) i) as H. unfold NP, P, setp in H; cbn [procs net dlyq] in H.
      rewrite Hp, Est in H. apply H; auto.
  - destruct (st p1); cbn [fst snd]; rewrite <- Hp, lset_same, app_nil_r by auto; constructor.
Qed.

Lemma local_id c i : (i < NP c)%nat -> local c i (P c i, []) = c.
Proof. intros H. destruct c as [ps nt dq]. unfold local, P. cbn. rewrite lset_same, app_nil_r by auto. reflexivity. Qed.
Lemma local_setp c i q : local c i (q, []) = setp c i q.
Proof. unfold local, setp. cbn [fst snd]. rewrite app_nil_r. reflexivity. Qed.

Lemma P_lset ps nt dq i q j : (i < length ps)%nat ->
  P (mkC (lset ps i q) nt dq) j = if (j =? i)%nat then q else nth j ps p0.
Proof.
  intros H. unfold P. cbn [procs]. destruct (j =? i)%nat eqn:E.
  - apply Nat.eqb_eq in E. subst. apply nth_lset_eq; auto.
  - apply Nat.eqb_neq in E. apply nth_lset_ne; auto.
Qed.
Lemma P_setp c i q j : (i < NP c)%nat -> P (setp c i q) j = if (j =? i)%nat then q else P c j.
Proof. intros H. unfold setp. rewrite P_lset by auto. reflexivity. Qed.
Lemma P_local c i r k : (i < NP c)%nat -> P (local c i r) k = if (k =? i)%nat then fst r else P c k.
Proof. intros H. unfold local. rewrite P_lset by auto. reflexivity. Qed.
Lemma NP_setp c i q : (i < NP c)%nat -> NP (setp c i q) = NP c.
Proof. intros H. unfold NP, setp. cbn. apply lset_length; auto. Qed.

Definition wl (w : bool) (p : proc) : Z := if w then tasks p else acts p.
Definition load_rank (a : action) : option nat :=
  match a with ATasks i _ | AActs i _ | ASetTasks i _ | ASetActs i _ => Some i | _ => None end.

(* Nothing, or what the action does when its guard holds.  The four operations on the workload
   counters have one shape: a counter gets a new value that is not negative, and
   check_state_workload_changed runs ([chk]) whenever the counter may have reached or left zero. *)
Inductive step_of (c : cfg) : action -> cfg -> Prop :=
| S_none a : step_of c a c
| S_ready i : (i < NP c)%nat -> st (P c i) = NR ->
    step_of c (AReady i)
      (let '(p2, k, o) := ready_loop (NP c) i (set_st (set_ncl (P c i) (nch (NP c) i)) BWC) (dlyq c) in
       mkC (lset (procs c) i p2) (net c ++ o) k)
| S_load a w i v (chk : bool) : load_rank a = Some i ->
    (i < NP c)%nat -> may_load (P c i) = true -> 0 <= v -> v <> wl w (P c i) ->
    (chk = false -> idle0 (P c i) = false) ->
    step_of c a (local c i (if chk then wl_changed (NP c) i (set_wl w (P c i) v) else (set_wl w (P c i) v, [])))
| S_send i j : (i < NP c)%nat -> (j < NP c)%nat -> i <> j -> is_busy (P c i) = true ->
    step_of c (ASend i j) (setp (setp c i (set_sent (P c i) (sent (P c i) + 1))) j (set_infl (P c j) (infl (P c j) + 1)))
| S_rstart i : (i < NP c)%nat -> 0 < infl (P c i) -> can_recv (P c i) = true ->
    step_of c (ARecvStart i) (setp c i (rstart_p (P c i)))
| S_rend i : (i < NP c)%nat -> 0 < inproc (P c i) ->
    step_of c (ARecvEnd i) (setp c i (set_inproc (set_recv (P c i) (recv (P c i) + 1)) (inproc (P c i) - 1)))
| S_deliver i j m rest : (j < NP c)%nat -> take_first i j (net c) = Some (m, rest) ->
    step_of c (ADeliver i j)
      (match st (P c j) with
       | NR => mkC (procs c) rest (dlyq c ++ [(i, j, m)])
       | _ => let r := dispatch_tp (NP c) j (P c j) m in mkC (lset (procs c) j (fst r)) (rest ++ snd r) (dlyq c)
       end).

Lemma step_cases c a : step_of c a (step c a).
Proof.
  destruct a as [i|i v|i v|i v|i v|i j|i|i|i j]; cbn [step]; fold (NP c).
  2-5: (destruct ((i <? NP c)%nat && _ && _) eqn:E; [|constructor]);
    rewrite !andb_true_iff in E; destruct E as [[E1 E2] E3]; apply Nat.ltb_lt in E1; apply Z.leb_le in E3.
  - destruct ((i <? NP c)%nat && _) eqn:E; [|constructor]. apply andb_true_iff in E. destruct E as [E1 E2]. apply Nat.ltb_lt in E1.
    apply S_ready; auto. destruct (st (P c i)); congruence.
  - unfold addto_tasks. destruct (v =? 0) eqn:Ev; [rewrite local_id by auto; constructor|].
    apply (S_load c _ true i (tasks (P c i) + v) ((tasks (P c i) =? 0) || (tasks (P c i) + v =? 0))); auto; cbn [wl]; [lia|].
    intros Hc. apply orb_false_iff in Hc. unfold idle0. rewrite (proj1 Hc). reflexivity.
  - unfold addto_acts. destruct (v =? 0) eqn:Ev; [rewrite local_id by auto; constructor|].
    apply (S_load c _ false i (acts (P c i) + v) ((acts (P c i) =? 0) || (acts (P c i) + v =? 0))); auto; cbn [wl]; [lia|].
    intros Hc. apply orb_false_iff in Hc. unfold idle0. rewrite (proj1 Hc). apply andb_false_r.
  - unfold setto_tasks. destruct (tasks (P c i) =? v) eqn:Ev; [rewrite local_id by auto; constructor|].
    apply (S_load c _ true i v true); auto; [cbn [wl]; lia|discriminate].
  - unfold setto_acts. destruct (acts (P c i) =? v) eqn:Ev; [rewrite local_id by auto; constructor|].
    apply (S_load c _ false i v true); auto; [cbn [wl]; lia|discriminate].
  - destruct ((i <? NP c)%nat && _ && _ && _) eqn:E; [|constructor].
    rewrite !andb_true_iff in E. destruct E as [[[E1 E2] E3] E4].
    apply Nat.ltb_lt in E1, E2. apply negb_true_iff, Nat.eqb_neq in E3.
    rewrite !local_setp, P_setp by auto. apply Nat.eqb_neq in E3. rewrite Nat.eqb_sym, E3. apply Nat.eqb_neq in E3.
    apply S_send; auto.
  - destruct ((i <? NP c)%nat && _ && _) eqn:E; [|constructor].
    rewrite !andb_true_iff in E. destruct E as [[E1 E2] E3]. apply Nat.ltb_lt in E1. apply Z.ltb_lt in E2.
    rewrite local_setp. apply S_rstart; auto.
  - destruct ((i <? NP c)%nat && _) eqn:E; [|constructor].
    rewrite !andb_true_iff in E. destruct E as [E1 E2]. apply Nat.ltb_lt in E1. apply Z.ltb_lt in E2.
    rewrite local_setp. apply S_rend; auto.
  - destruct (j <? NP c)%nat eqn:Ej; [apply Nat.ltb_lt in Ej|constructor].
    destruct (take_first i j (net c)) as [[m rest]|] eqn:Et; [|constructor]. apply (S_deliver c i j m rest); auto.
Qed.

Lemma take_first_split i j : forall l m rest, take_first i j l = Some (m, rest) ->
  exists l1 l2, l = l1 ++ (i, j, m) :: l2 /\ rest = l1 ++ l2.
Proof.
  induction l as [|[[s d] m0] l IH]; intros m rest H; cbn in H; [discriminate|].
  destruct ((s =? i)%nat && (d =? j)%nat) eqn:E.
  - apply andb_true_iff in E. destruct E as [E1 E2]. apply Nat.eqb_eq in E1, E2. subst. inversion H; subst.
    exists [], rest. auto.
  - destruct (take_first i j l) as [[m' r']|] eqn:Et; [|discriminate]. inversion H; subst.
    destruct (IH _ _ eq_refl) as (l1 & l2 & -> & ->). exists ((s, d, m0) :: l1), l2. auto.
Qed.

Lemma step_deliver c i j m rest : (j < NP c)%nat -> take_first i j (net c) = Some (m, rest) ->
  step c (ADeliver i j) =
  match st (P c j) with
  | NR => mkC (procs c) rest (dlyq c ++ [(i, j, m)])
  | _ => let r := dispatch_tp (NP c) j (P c j) m in mkC (lset (procs c) j (fst r)) (rest ++ snd r) (dlyq c)
  end.
Proof. intros Hj Ht. apply Nat.ltb_lt in Hj. cbn [step]. fold (NP c). rewrite Hj, Ht. reflexivity. Qed.

(* an effective delivery takes at least one micro-step *)
Lemma deliver_first c i j m rest : (j < NP c)%nat -> take_first i j (net c) = Some (m, rest) ->
  exists c1, mstep c c1 /\ msteps c1 (step c (ADeliver i j)).
Proof.
  intros Hj Ht. rewrite (step_deliver c i j m rest Hj Ht). destruct c as [ps nt dq]. unfold NP, P in *. cbn [procs net dlyq] in *.
  destruct (take_first_split _ _ _ _ _ Ht) as (l1 & l2 & -> & ->).
  exists (mkC ps (l1 ++ l2) (dq ++ [(i, j, m)])). split.
  - right. apply (M_delay (mkC ps (l1 ++ (i, j, m) :: l2) dq) l1 (i, j, m) l2). reflexivity.
  - assert (Hnn : st (nth j ps p0) <> NR ->
                  msteps (mkC ps (l1 ++ l2) (dq ++ [(i, j, m)]))
                         (mkC (lset ps j (fst (dispatch_tp (length ps) j (nth j ps p0) m)))
                              ((l1 ++ l2) ++ snd (dispatch_tp (length ps) j (nth j ps p0) m)) dq)).
    { intros Hn. pose proof (dispatch_ms ps (l1 ++ l2) dq [] i j m Hj Hn) as Hdn. cbv zeta in Hdn. destruct Hdn as [H _]. rewrite app_nil_r in H. exact H. }
    destruct (st (nth j ps p0)) eqn:Est; try (apply Hnn; congruence). constructor.
Qed.

Theorem step_msteps c a : msteps c (step c a).
Proof.
  destruct (step_cases c a) as [a|i Hi Hst|a w i v chk _ Hi Hml Hv _ Hchk|i j Hi Hj Hne Hb|i Hi Hf Hc|i Hi Hp|i j m rest Hj Ht].
  - constructor.
  - destruct c as [ps nt dq]. unfold NP, P in *. cbn [procs net dlyq] in *.
    set (p1 := set_st (set_ncl (nth i ps p0) (nch (length ps) i)) BWC).
    eapply ms_step.
    + left. apply (M_ready (mkC ps nt dq) i); auto.
    + unfold setp, NP, P. cbn [procs net dlyq]. fold p1.
      pose proof (ready_loop_ms i dq [] (lset ps i p1) nt) as H. cbv zeta in H.
      rewrite lset_length, nth_lset_eq in H by auto. specialize (H Hi ltac:(cbn; congruence)).
      destruct (ready_loop (length ps) i p1 dq) as [[p2 k] o]. cbn [fst snd app] in H.
      rewrite lset_lset in H by auto. exact H.
  - destruct c as [ps nt dq]. unfold NP, P in *. cbn [procs] in *.
    set (q := set_wl w (nth i ps p0) v). destruct chk.
    + eapply ms_step.
      * left. apply (M_load (mkC ps nt dq) w i v true); unfold NP, P; cbn [procs]; auto.
      * unfold setp, P, local; cbn [procs net dlyq]. fold q.
        pose proof (wl_from_fixed (lset ps i (busyfix q)) nt dq i q) as H. cbv zeta in H.
        rewrite lset_length, nth_lset_eq, lset_lset in H by auto. apply H; auto.
    + rewrite local_setp. apply ms_one. left. apply (M_load (mkC ps nt dq) w i v false); unfold NP, P; cbn [procs]; auto.
  - apply ms_one. left. apply M_send; auto.
  - apply ms_one. left. apply M_rstart; auto.
  - apply ms_one. left. apply M_rend; auto.
  - rewrite <- (step_deliver c i j m rest Hj Ht). destruct (deliver_first c i j m rest Hj Ht) as (c1 & H1 & H2). eapply ms_step; eauto.
Qed.

Lemma run_msteps c sched : msteps c (run c sched).
Proof.
  revert c; induction sched as [|a l IH]; intros c; cbn; [constructor|].
  eapply ms_trans; [apply step_msteps|apply IH].
Qed.
