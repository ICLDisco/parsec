(* C11: the invariant is preserved when a process reports to its parent and
   when the root decides (Mattern's argument is [two_waves_quiet]). *)
From PV Require Import Base.Tac Base.ListX Term4C.Term4CDefs Term4C.Term4CBase Term4C.Term4CMicro Term4C.Term4CInv Term4C.Term4CStruct.
Local Open Scope Z_scope.

(* a process that is about to report has heard from all its children *)
Lemma children_reported c g i : Inv c g -> (i < NP c)%nat -> cls (P c i) = 1 -> ncl (P c i) = 0 ->
  forall k, In k (children (NP c) i) -> cls (P c k) = 2 /\ cnts c k 0 0 0 /\ gf g k = true.
Proof.
  intros HI Hi H1 Hn k Hk.
  destruct (I_ncl _ _ HI i Hi) as [Hnc _]. specialize (Hnc H1). rewrite Hn in Hnc. symmetry in Hnc.
  pose proof (cnt_zero_none _ _ Hnc k Hk) as Hab. cbn in Hab. apply negb_false_iff in Hab.
  unfold absb in Hab. rewrite !andb_true_iff, !Z.eqb_eq in Hab. destruct Hab as (((A & B) & C) & D).
  apply ch_spec in Hk. destruct Hk as (K0 & KN & KP).
  pose proof (I_edge _ _ HI k ltac:(lia)) as HE. rewrite <- KP in H1.
  destruct HE as [?|? (E&?&?)|?|?|? (?&?&E)|?|?]; try lia. repeat split; auto.
Qed.

Lemma send_up_nonroot N i p : i <> 0%nat ->
  send_up N i p = (set_st (set_ncl (set_acc p (acc_s p + sent p) (acc_r p + recv p)) (nch N i)) IWP,
                   [(i, parent i, UP (acc_s p + sent p) (acc_r p + recv p))]).
Proof. intros H. destruct i; [congruence|reflexivity]. Qed.

Lemma report_p_ok g j p a b n : loc_ok p -> st p = IWC -> Rnum g j p (set_st (set_ncl (set_acc p a b) n) IWP).
Proof. intros Hl Hs. rec_cases p. cbn in Hs. subst st0. unfold Rnum. proc_tac. Qed.

(* the ghost after process i, in state p, has reported to the wave in progress *)
Definition report_g (g : ghost) (i : nat) (p : proc) : ghost :=
  mkG (fun k => if (k =? i)%nat then sent p else cur_s g k) (fun k => if (k =? i)%nat then recv p else cur_r g k)
      (dc_s g) (dc_r g) (fun k => if (k =? i)%nat then true else gf g k) (gz g) (gd g).

Lemma inv_contrib_nonroot c g i : Inv c g -> (i < NP c)%nat -> i <> 0%nat ->
  idle0 (P c i) = true -> st (P c i) = IWC -> ncl (P c i) = 0 ->
  Inv (mkC (lset (procs c) i (fst (send_up (NP c) i (P c i))))
           (net c ++ snd (send_up (NP c) i (P c i))) (dlyq c)) (report_g g i (P c i)) /\
  gf g i = false.
Proof.
  intros HI Hi Hi0 Hidle Hst Hncl. rewrite (send_up_nonroot _ _ _ Hi0). cbn [fst snd].
  set (p := P c i) in *. set (s' := acc_s p + sent p). set (r' := acc_r p + recv p).
  set (q := set_st (set_ncl (set_acc p s' r') (nch (NP c) i)) IWP). set (x := (i, parent i, UP s' r')).
  set (c' := mkC (lset (procs c) i q) (net c ++ [x]) (dlyq c)).
  set (g' := report_g g i p).
  assert (Hgs : gstep g g' i).
  { unfold gstep, g', report_g. cbn [gf cur_s cur_r dc_s dc_r gz gd]. split; [|auto]. intros k Hk. apply Nat.eqb_neq in Hk. rewrite Hk. auto. }
  assert (HW : Wave c c' i q [] [x]) by (apply (wave_mk c i q [] [] (dlyq c)); auto).
  assert (Hc1 : cls p = 1) by (unfold cls; rewrite Hst; auto).
  assert (Hcls : forall k, cls (P c' k) = if (k =? i)%nat then 2 else cls (P c k)).
  { intros k. rewrite (W_P _ _ _ _ _ _ HW). destruct (k =? i)%nat; auto. }
  assert (HU : forall k, upc c' k = upc c k + (if (i =? k)%nat then 1 else 0) /\ dT c' k = dT c k /\ dF c' k = dF c k).
  { intros k. unfold upc, dT, dF. rewrite !(W_cnt _ _ _ _ _ _ HW). unfold x. autorewrite with wcnt. lia. }
  pose proof (parent_lt i Hi0) as Plt.
  (* the edge above i *)
  destruct (edge_collect_inv c g i (I_edge _ _ HI i ltac:(lia)) Hc1) as ((Iu & It & If) & Ig & Ipar).
  (* the edges below i *)
  pose proof (children_reported c g i HI Hi Hc1 Hncl) as Hch.
  pose proof (loc_ok_P c g i HI Hi) as Hl. fold p in Hl.
  destruct (I_g1 _ _ HI i Hi) as (G1a & G1b & G1c & G1d). fold p in G1b, G1d.
  split; [|exact Ig].
  apply (inv_wave c c' g g' i q [] [x]); auto.
  - repeat constructor; auto.
  - fold p. apply report_p_ok; auto.
  - intros ->. congruence.
  - intros k Hk Hki. destruct (HU k) as (U1 & U2 & U3). destruct Hki as [->|Hpk].
    + apply Ph_up; rewrite ?Hcls, ?Nat.eqb_refl; auto.
      * unfold cnts. rewrite U1, U2, U3, Nat.eqb_refl, Iu, It, If. auto.
      * cbn [gf g' report_g]. rewrite Nat.eqb_refl. auto.
      * destruct (parent i =? i)%nat eqn:E; [apply Nat.eqb_eq in E; clear - E Plt; lia|auto].
    + destruct (Hch k) as (A & (B1 & B2 & B3) & C); [apply ch_spec; clear - Hk Hpk; lia|].
      assert (Hne : (k =? i)%nat = false) by (apply Nat.eqb_neq; pose proof (parent_lt k); clear - Hk Hpk H; lia).
      apply Ph_abs2; rewrite ?Hcls; auto.
      * rewrite Hne. auto.
      * unfold cnts. rewrite U1, U2, U3, B1, B2, B3, Nat.eqb_sym, Hne. auto.
      * cbn [gf g' report_g]. rewrite Hpk, Nat.eqb_refl, Hne. auto.
      * rewrite Hpk, Nat.eqb_refl. auto.
  - intros _. unfold absb. destruct (HU i) as (-> & _ & _). rewrite Hcls, Nat.eqb_refl, Iu. fold p. rewrite Hc1. reflexivity.
  - split; [discriminate|reflexivity].
  - intros _. cbn [cur_s cur_r g' report_g]. rewrite Nat.eqb_refl. unfold q. cbn [sent recv set_st set_ncl set_acc]. clear - G1b G1d. lia.
  - intros sd. unfold cur_of, mass. cbn [gf cur_s cur_r g' report_g psum]. rewrite Nat.eqb_refl, Ig. fold p. rewrite Hc1.
    destruct sd; cbn; unfold s', r'; lia.
  - intros Hall. pose proof (Hall i Hi) as Hqi. fold p in Hqi. unfold q, quietw, busy_or_nr in *. rec_cases p. cbn in *. intuition.
  - discriminate.
Qed.

Lemma bsum_single n (f : nat -> Z) : (1 <= n)%nat -> (forall k, (0 < k < n)%nat -> f k = 0) -> bsum n f = f 0%nat.
Proof.
  intros Hn H. rewrite (bsum_upd n (fun _ => 0) f 0%nat) by (try lia; intros k Hk Hne; apply H; lia).
  rewrite bsum_zero. lia.
Qed.

Lemma all_reported c g : Inv c g -> cls (P c 0) = 1 -> ncl (P c 0) = 0 ->
  forall k, (0 < k < NP c)%nat -> cls (P c k) = 2 /\ cnts c k 0 0 0 /\ gf g k = true.
Proof.
  intros HI H1 Hn k. induction k as [k IH] using lt_wf_ind. intros Hk.
  destruct (Nat.eq_dec (parent k) 0) as [Hp|Hp].
  - apply (children_reported c g 0%nat HI ltac:(lia) H1 Hn). apply ch_spec. lia.
  - pose proof (parent_lt k ltac:(lia)) as Plt.
    destruct (IH (parent k) Plt ltac:(lia)) as (A & _ & C).
    destruct (edge_par2_inv c g k (I_edge _ _ HI k Hk) A) as (X & Y & Z). rewrite C in Z. auto.
Qed.

Lemma no_up_in_pool c g : Inv c g -> (forall k, (0 < k < NP c)%nat -> upc c k = 0) ->
  forall sd, psum (ups sd) (pool c) = 0.
Proof.
  intros HI H sd. apply psum_zero. intros y Hy.
  pose proof (I_pkt _ _ HI y Hy) as Hok. unfold pkt_ok, ups in *. destruct (msg y) eqn:Em; auto.
  destruct Hok as (A & B & _). exfalso.
  assert (1 <= upc c (src y)). { unfold upc. apply (in_pool_cnt _ c y); auto. unfold upfrom. rewrite Nat.eqb_refl, Em. auto. }
  rewrite H in H0; lia.
Qed.

(* what send_up_messages does at the root *)
Lemma send_up_root N p : loc_ok p -> st p = IWC ->
  let s' := acc_s p + sent p in let r' := acc_r p + recv p in
  let res := if nch N 0 =? 0 then true else (last_s p =? s') && (last_r p =? r') && (s' =? r') in
  let q := fst (send_up N 0 p) in
  snd (send_up N 0 p) = fwd N 0 res /\ loc_ok q /\ same_env p q /\ busy_or_nr q = false /\
  cls q = (if res then 3 else 1) /\ last_s q = s' /\ last_r q = r' /\ ncl q = nch N 0 /\
  (res = false -> acc_s q = 0 /\ acc_r q = 0).
Proof.
  intros Hl Hs. cbv zeta. unfold send_up, fwd. destruct (if nch N 0 =? 0 then true else _);
    rec_cases p; cbn in Hs; subst st0; unfold loc_ok, same_env, busy_or_nr, cls in *; cbn in *; repeat split; auto; try lia; discriminate.
Qed.

(* When the root has heard from all its children, every other process has reported to the wave
   in progress and waits; no report is on its way; the accumulators of the root, with its own
   counters, hold the sum of the reports; each report lies between the last snapshot and the present. *)
Lemma root_wave c g : Inv c g -> cls (P c 0) = 1 -> ncl (P c 0) = 0 ->
  let cs k := if (k =? 0)%nat then sent (P c 0) else cur_s g k in
  let cr k := if (k =? 0)%nat then recv (P c 0) else cur_r g k in
  (forall k, (0 < k < NP c)%nat -> cls (P c k) = 2 /\ cnts c k 0 0 0 /\ gf g k = true) /\
  (forall sd, psum (ups sd) (pool c) = 0) /\
  (bsum (NP c) cs = acc_s (P c 0) + sent (P c 0) /\ bsum (NP c) cr = acc_r (P c 0) + recv (P c 0)) /\
  forall k, (k < NP c)%nat ->
    0 <= dc_s g k <= sent (gz g k) /\ sent (gz g k) <= cs k <= sent (P c k) /\
    0 <= dc_r g k <= recv (gz g k) /\ recv (gz g k) <= cr k <= recv (P c k).
Proof.
  intros HI Hc1 Hncl cs cr. pose proof (I_N _ _ HI) as HN1. assert (H0N : (0 < NP c)%nat) by lia.
  pose proof (all_reported c g HI Hc1 Hncl) as Hall.
  assert (Hpool : forall sd, psum (ups sd) (pool c) = 0).
  { apply (no_up_in_pool c g HI). intros k Hk. apply (Hall k Hk). }
  destruct (I_root _ _ HI) as [_ Hgf0].
  split; [exact Hall|]. split; [exact Hpool|]. split.
  - (* the ghost holds the reports of all but the root, which has its own counter instead;
       the reports not yet absorbed are none, and only the root still accumulates *)
    assert (Hsd : forall sd own, bsum (NP c) (fun k => if (k =? 0)%nat then own else cur_of sd g k) = acc_of sd (P c 0) + own).
    { intros sd own. pose proof (I_g6 _ _ HI sd) as A.
      assert (Hm : bsum (NP c) (fun k => mass sd (P c k)) = mass sd (P c 0)).
      { apply (bsum_single (NP c) (fun k => mass sd (P c k))); auto. intros k Hk. unfold mass. destruct (Hall k Hk) as (-> & _). reflexivity. }
      rewrite Hpool, Hm in A. unfold mass in A. rewrite Hc1 in A. cbn [Z.leb Z.compare Pos.compare Pos.compare_cont] in A.
      rewrite (bsum_upd (NP c) (fun k => if gf g k then cur_of sd g k else 0) _ 0%nat H0N).
      - cbn [Nat.eqb]. rewrite Hgf0. lia.
      - intros k Hk Hne. destruct k; [lia|]. destruct (Hall (S k)) as (_ & _ & ->); [lia|reflexivity]. }
    split; [exact (Hsd true (sent (P c 0)))|exact (Hsd false (recv (P c 0)))].
  - intros k Hk. destruct (I_g1 _ _ HI k Hk) as (A & B & C & D). unfold cs, cr. destruct k; cbn [Nat.eqb]; [lia|].
    destruct (Hall (S k)) as (_ & _ & Hg); [lia|]. destruct (I_g2 _ _ HI (S k) Hk Hg). lia.
Qed.

(* Mattern's argument: the wave that closes and the last decided one counted the same sums, and
   as many receipts as sendings.  Each process reported to both between the snapshot and the
   present, so all four counts agree with the snapshot, nothing was in flight there, and whoever
   was busy there had still to receive a message -- which nobody sent. *)
Lemma two_waves_quiet c g cs cr : Inv c g ->
  (forall k, (k < NP c)%nat ->
     0 <= dc_s g k <= sent (gz g k) /\ sent (gz g k) <= cs k <= sent (P c k) /\
     0 <= dc_r g k <= recv (gz g k) /\ recv (gz g k) <= cr k <= recv (P c k)) ->
  last_s (P c 0) = bsum (NP c) cs -> last_r (P c 0) = bsum (NP c) cr -> bsum (NP c) cs = bsum (NP c) cr ->
  forall k, (k < NP c)%nat -> quietw (P c k).
Proof.
  intros HI Hbnd E1 E2 E3. destruct (I_g7 _ _ HI) as [G7a G7b].
  assert (Hgd : gd g = true).
  { destruct (gd g); auto. specialize (G7b eq_refl).
    assert (0 <= bsum (NP c) cs) by (apply bsum_nonneg; intros k Hk; destruct (Hbnd k Hk); lia). lia. }
  destruct (G7a Hgd) as [L1 L2]. clear G7a G7b.
  assert (Es : forall k, (k < NP c)%nat -> dc_s g k = cs k).
  { apply bsum_le_eq; [intros k Hk; destruct (Hbnd k Hk); lia|lia]. }
  assert (Er : forall k, (k < NP c)%nat -> dc_r g k = cr k).
  { apply bsum_le_eq; [intros k Hk; destruct (Hbnd k Hk); lia|lia]. }
  assert (Zs : bsum (NP c) (fun i => sent (gz g i)) = bsum (NP c) cs).
  { apply bsum_ext. intros k Hk. destruct (Hbnd k Hk). specialize (Es k Hk). lia. }
  assert (Zr : bsum (NP c) (fun i => recv (gz g i)) = bsum (NP c) cr).
  { apply bsum_ext. intros k Hk. destruct (Hbnd k Hk). specialize (Er k Hk). lia. }
  destruct (I_g3 _ _ HI) as [G3 G3n]. rewrite Zs, Zr in G3.
  assert (Zf : forall k, (k < NP c)%nat -> infl (gz g k) + inproc (gz g k) = 0).
  { apply bsum_zero_all; [intros k Hk; destruct (G3n k Hk); lia|]. rewrite bsum_add. lia. }
  apply (I_g9 _ _ HI). intros k Hk. destruct (G3n k Hk). specialize (Zf k Hk).
  unfold quietw. split; [|lia].
  destruct (busy_or_nr (gz g k)) eqn:Eb; auto.
  destruct (I_g4 _ _ HI Hgd k Hk Eb) as [X|X]; [lia|]. destruct (Hbnd k Hk). specialize (Er k Hk). lia.
Qed.

Lemma cls2_busy p : cls p = 2 -> busy_or_nr p = true -> st p = BWP.
Proof. unfold cls, busy_or_nr. destruct (st p); intros; try lia; try discriminate; reflexivity. Qed.

Lemma inv_contrib_root c g : Inv c g ->
  idle0 (P c 0) = true -> st (P c 0) = IWC -> ncl (P c 0) = 0 ->
  let c' := mkC (lset (procs c) 0 (fst (send_up (NP c) 0 (P c 0)))) (net c ++ snd (send_up (NP c) 0 (P c 0))) (dlyq c) in
  let cs k := if (k =? 0)%nat then sent (P c 0) else cur_s g k in
  let cr k := if (k =? 0)%nat then recv (P c 0) else cur_r g k in
  Inv c' (mkG cs cr cs cr (fun _ => false) (P c') true).
Proof.
  intros HI Hidle Hst Hncl. cbv zeta. pose proof (I_N _ _ HI) as HN1. assert (H0N : (0 < NP c)%nat) by lia.
  assert (Hc1 : cls (P c 0) = 1) by (unfold cls; rewrite Hst; auto).
  destruct (root_wave c g HI Hc1 Hncl) as (Hall & Hpool & Hsum & Hbnd).
  destruct (send_up_root (NP c) (P c 0) (loc_ok_P c g 0%nat HI H0N) Hst) as (Hout & Hlq & Henvq & Hbq & Hclsq & Hlsq & Hlrq & Hnclq & Haccq).
  rewrite Hout.
  set (p := P c 0) in *. set (s' := acc_s p + sent p) in *. set (r' := acc_r p + recv p) in *.
  set (res := if nch (NP c) 0 =? 0 then true else (last_s p =? s') && (last_r p =? r') && (s' =? r')) in *.
  set (q := fst (send_up (NP c) 0 p)) in *.
  set (c' := mkC (lset (procs c) 0 q) (net c ++ fwd (NP c) 0 res) (dlyq c)).
  set (cs := fun k => if (k =? 0)%nat then sent p else cur_s g k) in *.
  set (cr := fun k => if (k =? 0)%nat then recv p else cur_r g k) in *.
  set (g' := mkG cs cr cs cr (fun _ => false) (P c') true).
  assert (HW : Wave c c' 0 q [] (fwd (NP c) 0 res)) by (apply (wave_mk c 0%nat q [] [] (dlyq c)); auto).
  pose proof (W_N _ _ _ _ _ _ HW) as HN. pose proof (W_P _ _ _ _ _ _ HW) as HP.
  (* if the root says yes, everybody is quiet *)
  assert (HQ : res = true -> forall k, (k < NP c)%nat -> quietw (P c k)).
  { intros Hres. unfold res in Hres. destruct (nch (NP c) 0 =? 0) eqn:En.
    - (* a single process *)
      apply Z.eqb_eq in En. assert (NP c = 1)%nat.
      { destruct (Nat.eq_dec (NP c) 1); auto. pose proof (nch_root (NP c) ltac:(lia)). lia. }
      intros k Hk. assert (k = 0)%nat by lia. subst k. destruct (I_one _ _ HI H) as [A B]. fold p in A, B |- *.
      unfold quietw, busy_or_nr. rewrite Hst. auto.
    - rewrite !andb_true_iff, !Z.eqb_eq in Hres. destruct Hres as ((E1 & E2) & E3). destruct Hsum as [Ss Sr].
      apply (two_waves_quiet c g cs cr HI Hbnd); fold p; congruence. }
  clearbody res q s' r'.
  assert (Hcls : forall k, (0 < k < NP c)%nat -> cls (P c' k) = 2).
  { intros k Hk. rewrite HP. destruct k; [lia|apply (Hall _ Hk)]. }
  (* the answer is on its way to the children of the root *)
  destruct (answered c c' g' 0%nat q [] res HW) as (Hce & Hnabs); auto.
  { intros k Hk _. destruct (Hall k Hk) as (A & B & _). auto. }
  assert (HPr : Proto c' g').
  { apply (wave_proto c c' g g' 0%nat q [] (fwd (NP c) 0 res)); auto using fwd_wave; try congruence.
    - rewrite HP. cbn [Nat.eqb]. rewrite Hclsq. split; [destruct res; lia|reflexivity].
    - (* further down nothing moves *)
      intros k Hk. destruct (Nat.eq_dec (parent k) 0) as [KP|KP]; [auto|]. pose proof (parent_lt k ltac:(lia)) as Plt.
      destruct (wave_far c c' g 0%nat q [] (fwd (NP c) 0 res) k HI HW) as (U & T & F); auto using fwd_wave; [lia|].
      destruct (Hall k Hk) as (_ & (B1 & B2 & B3) & _).
      apply Ph_abs2; auto; [unfold cnts; rewrite U, T, F; auto|apply Hcls; lia].
    - rewrite Hclsq, Hnclq, Hnabs. split; auto.
    - intros Hqc. destruct (Hqc 0%nat H0N) as (_ & A & B). fold p in A, B. destruct Henvq as (_ & _ & E3 & E4).
      unfold quietw. rewrite E3, E4. auto.
    - intros H3. apply HQ. destruct res; [auto|rewrite Hclsq in H3; discriminate]. }
  constructor; [exact HPr|..]; rewrite ?HN.
  - intros k Hk. cbn [dc_s dc_r gz g']. destruct (Hbnd k Hk) as (A & B & C & D).
    assert (sent (P c' k) = sent (P c k) /\ recv (P c' k) = recv (P c k)) as [-> ->].
    { rewrite HP. destruct k; auto. destruct Henvq as (X & Y & _). auto. }
    unfold cs, cr. lia.
  - intros k Hk Hf. discriminate.
  - cbn [gz g']. rewrite <- HN. split; [apply (I_cons _ _ HPr)|]. intros k Hk. destruct (I_loc _ _ HPr k Hk) as (_ & _ & A & B & _). auto.
  - intros _ k Hk Hb. cbn [gz dc_r g'] in *. rewrite HP in *. destruct k; [cbn [Nat.eqb] in Hb; congruence|].
    destruct (Hall (S k)) as (K2 & _ & Kg); [lia|]. apply (I_g5 _ _ HI (S k) Hk Kg). apply cls2_busy; auto.
  - intros k Hk Hf. discriminate.
  - (* no report is left and nobody collects: the root has emptied its accumulators or terminated *)
    intros sd. rewrite (bsum_ext _ (fun i => if gf g' i then _ else 0) (fun _ => 0)) by reflexivity. rewrite bsum_zero.
    rewrite (W_psum _ _ _ _ _ _ HW), psum_fwd, Hpool. cbn [psum].
    rewrite (bsum_ext _ _ (fun _ => 0)); [rewrite bsum_zero; reflexivity|]. intros k Hk. unfold mass. destruct k; [|rewrite Hcls by lia; reflexivity].
    rewrite HP. cbn [Nat.eqb]. rewrite Hclsq. destruct res eqn:Er; [reflexivity|]. unfold acc_of. destruct sd; apply (Haccq eq_refl).
  - cbn [gd dc_s dc_r g']. rewrite HP. cbn [Nat.eqb]. rewrite Hlsq, Hlrq. destruct Hsum as [-> ->]. split; [auto|discriminate].
  - cbn [gz g']. auto.
Qed.
