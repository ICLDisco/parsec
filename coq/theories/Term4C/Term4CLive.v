(* C11, liveness side: a reachable configuration never holds a process that
   could report and has not; with that, a quiescent configuration whose control
   channels are empty has terminated everywhere. *)
From PV Require Import Base.Tac Base.ListX Term4C.Term4CDefs Term4C.Term4CBase Term4C.Term4CMicro Term4C.Term4CInv
  Term4C.Term4CStruct Term4C.Term4CContrib Term4C.Term4CProofs.
Local Open Scope Z_scope.

(* the condition of check_state_message_received *)
Definition pend (p : proc) : bool := idle0 p && is_iwc p && (ncl p =? 0).

Lemma pend_send_up N i p : pend (fst (send_up N i p)) = false.
Proof.
  unfold send_up, pend, is_iwc. destruct i; [|cbn; rewrite andb_false_r; auto].
  destruct (nch N 0 =? 0) eqn:E; [cbn; rewrite andb_false_r; auto|].
  destruct ((last_s p =? acc_s p + sent p) && (last_r p =? acc_r p + recv p) && (acc_s p + sent p =? acc_r p + recv p)).
  - cbn. rewrite andb_false_r. auto.
  - cbn [fst ncl set_acc set_last set_ncl]. rewrite E. apply andb_false_r.
Qed.
Lemma pend_check_recv N i p : pend (fst (check_recv N i p)) = false.
Proof. unfold check_recv. fold (pend p). destruct (pend p) eqn:E; [apply pend_send_up|auto]. Qed.
Lemma pend_wl N i p : pend p = false -> pend (fst (wl_changed N i p)) = false.
Proof.
  intros Hp. unfold wl_changed. destruct (idle0 p) eqn:Ei.
  - destruct (st p) eqn:Es; auto.
    + replace (ncl (set_st p IWC)) with (ncl p) by reflexivity. destruct (ncl p =? 0) eqn:En; [apply pend_send_up|].
      unfold pend. cbn. rewrite En. apply andb_false_r.
    + unfold pend, is_iwc. cbn. rewrite andb_false_r. auto.
  - destruct (st p); auto; unfold pend, idle0 in *; cbn; rewrite Ei; auto.
Qed.
Lemma pend_dispatch N i p m : pend (fst (dispatch_tp N i p m)) = false.
Proof.
  destruct m as [a b|[|]]; cbn [dispatch_tp].
  - apply pend_check_recv.
  - unfold msg_down, pend, is_iwc. cbn. rewrite andb_false_r. auto.
  - unfold msg_down. replace (st (set_acc p 0 0)) with (st p) by reflexivity.
    destruct (st p); try (unfold pend, is_iwc; cbn; rewrite andb_false_r; auto).
    pose proof (pend_check_recv N i (set_st (set_acc p 0 0) IWC)) as H.
    destruct (check_recv N i (set_st (set_acc p 0 0) IWC)). auto.
Qed.
Lemma pend_ready_loop N i : forall q p, pend p = false -> pend (fst (fst (ready_loop N i p q))) = false.
Proof.
  induction q as [|[[s d] m] q IH]; intros p Hp; cbn [ready_loop]; auto.
  destruct (d =? i)%nat.
  - pose proof (pend_dispatch N i p m) as Hd. destruct (dispatch_tp N i p m) as [p1 o1]. cbn in Hd.
    specialize (IH p1 Hd). destruct (ready_loop N i p1 q) as [[p2 k] o2]. auto.
  - specialize (IH p Hp). destruct (ready_loop N i p q) as [[p2 k] o2]. auto.
Qed.

Lemma idle_state_idle0 c g i : Inv c g -> (i < NP c)%nat -> st (P c i) = IWC -> tasks (P c i) = 0 /\ acts (P c i) = 0.
Proof.
  intros HI Hi Hs. destruct (I_loc _ _ HI i Hi) as (_ & _ & _ & _ & Hz & _). apply Hz. unfold busy_or_nr. rewrite Hs. auto.
Qed.

(* a counter that changes makes a process that waits for its children busy *)
Lemma pend_set_wl c g i w v : Inv c g -> (i < NP c)%nat -> v <> wl w (P c i) -> pend (set_wl w (P c i) v) = false.
Proof.
  intros HI Hi Hv. unfold pend. destruct (is_iwc (set_wl w (P c i) v)) eqn:Ei; [|rewrite andb_false_r; reflexivity].
  assert (Es : st (P c i) = IWC) by (unfold is_iwc in Ei; destruct w; cbn in Ei; destruct (st (P c i)); congruence).
  destruct (idle_state_idle0 c g i HI Hi Es) as [Ht Ha].
  assert (idle0 (set_wl w (P c i) v) = false) as ->; [|reflexivity].
  unfold idle0. destruct w; cbn [wl] in Hv; cbn; rewrite (proj2 (Z.eqb_neq v 0)) by congruence; auto using andb_false_r.
Qed.

Lemma no_pending_step c g a : Inv c g -> (forall i, (i < NP c)%nat -> pend (P c i) = false) ->
  forall i, (i < NP c)%nat -> pend (P (step c a) i) = false.
Proof.
  intros HI Hp k Hk.
  destruct (step_cases c a) as [a|i Hi _|a w i v chk _ Hi _ _ Hne _|i j Hi Hj _ _|i Hi _ Hc|i Hi _|i j m rest Hj _].
  - apply Hp; auto.
  - pose proof (pend_ready_loop (NP c) i (dlyq c) (set_st (set_ncl (P c i) (nch (NP c) i)) BWC)) as H.
    destruct (ready_loop _ _ _ _) as [[p2 kk] o]. rewrite P_lset by auto. destruct (k =? i)%nat; [|apply Hp; auto].
    apply H. unfold pend, is_iwc. cbn. rewrite andb_false_r. auto.
  - rewrite P_local by auto. destruct (k =? i)%nat; [|apply Hp; auto].
    pose proof (pend_set_wl c g i w v HI Hi Hne) as Hq. destruct chk; [apply pend_wl|]; exact Hq.
  - (* the counters of the environment are not looked at *)
    rewrite !P_setp by (rewrite ?NP_setp; auto). destruct (k =? j)%nat; [exact (Hp j Hj)|]. destruct (k =? i)%nat; [exact (Hp i Hi)|apply Hp; auto].
  - rewrite P_setp by auto. destruct (k =? i)%nat; [|apply Hp; auto].
    unfold can_recv in Hc. unfold pend, is_iwc, rstart_p. rec_cases (P c i). cbn in *. destruct st0; try discriminate; cbn; rewrite ?andb_false_r; auto.
  - rewrite P_setp by auto. destruct (k =? i)%nat; [exact (Hp i Hi)|apply Hp; auto].
  - destruct (st (P c j)) eqn:Es; try (rewrite P_lset by auto; destruct (k =? j)%nat; [apply pend_dispatch|apply Hp; auto]).
    apply Hp; auto.
Qed.

Definition good (N : nat) (c : cfg) : Prop :=
  NP c = N /\ (exists g, Inv c g) /\ forall i, (i < N)%nat -> pend (P c i) = false.

Lemma good_step N c a : good N c -> good N (step c a).
Proof.
  intros (HN & (g & HI) & Hp). pose proof (step_msteps c a) as Hms. split; [|split].
  - rewrite (NP_msteps _ _ Hms). auto.
  - apply (inv_msteps _ _ Hms g HI).
  - intros i Hi. apply (no_pending_step c g a HI); rewrite ?HN; auto.
Qed.
Lemma good_run N sched : forall c, good N c -> good N (run c sched).
Proof. induction sched as [|a l IH]; intros c H; cbn; auto. apply IH. apply good_step. auto. Qed.
Lemma good_init N : (1 <= N)%nat -> good N (init N).
Proof.
  intros HN. split; [apply NP_init|split; [exists g_init; apply inv_init; auto|]]. intros i _. rewrite P_init. reflexivity.
Qed.
Lemma reach_good N c : (1 <= N)%nat -> reach N c -> good N c.
Proof. intros HN (sched & ->). apply good_run. apply good_init; auto. Qed.

Theorem no_deadlock N c : (1 <= N)%nat -> reach N c ->
  (forall j, (j < N)%nat -> quiet_p (P c j)) -> net c = [] -> dlyq c = [] ->
  forall j, (j < N)%nat -> st (P c j) = TERM.
Proof.
  intros HN Hr Hq Hnet Hdl. destruct (reach_good N c HN Hr) as (HNP & (g & HI) & Hpend).
  assert (Hpool : pool c = []) by (unfold pool; rewrite Hnet, Hdl; reflexivity).
  assert (Hcnt : forall k, upc c k = 0 /\ dT c k = 0 /\ dF c k = 0) by (intros; unfold upc, dT, dF; rewrite Hpool; auto).
  assert (Hcls : forall k, (k < N)%nat -> 1 <= cls (P c k) <= 3 /\ (cls (P c k) = 1 -> st (P c k) = IWC)).
  { intros k Hk. destruct (Hq k Hk) as (Hs & _). unfold cls. destruct Hs as [-> | [-> | ->] ]; split; try lia; auto; intros; lia. }
  (* nobody is still collecting, by induction from the leaves: the children of k do not collect,
     so, no message being about, they have reported and been heard; k would then report itself *)
  assert (HA : forall m k, (N - k <= m)%nat -> (k < N)%nat -> cls (P c k) <> 1).
  { induction m as [|m IH]; intros k Hm Hk H1; [lia|].
    destruct (Hcls k Hk) as (_ & Hs). specialize (Hs H1).
    destruct (idle_state_idle0 c g k HI ltac:(lia) Hs) as [Ht Ha].
    pose proof (Hpend k Hk) as Hp. unfold pend, idle0, is_iwc in Hp. rewrite Ht, Ha, Hs in Hp. cbn in Hp.
    destruct (I_ncl _ _ HI k ltac:(lia)) as [Hn _]. specialize (Hn H1).
    assert (Hz : nabs c k = 0).
    { unfold nabs. apply cnt_all_false. intros j Hj. rewrite HNP in Hj. apply ch_spec in Hj. destruct Hj as (J0 & JN & JP).
      pose proof (parent_lt j J0) as Jlt. apply negb_false_iff.
      destruct (Hcnt j) as (U & T & F). pose proof (IH j ltac:(lia) JN) as Hj1. destruct (Hcls j JN) as (R & _).
      pose proof (I_edge _ _ HI j ltac:(lia)) as HE. rewrite JP in *.
      destruct HE as [X ? | X (? & ? & ?) | X ? | X ? ? Y | X (? & ? & ?) | X (? & ? & ?) | X ? ? Y]; rewrite ?JP in *; try lia.
      unfold absb. rewrite X, U, T, F. reflexivity. }
    apply Z.eqb_neq in Hp. lia. }
  assert (H0 : cls (P c 0) = 3).
  { destruct (Hcls 0%nat ltac:(lia)) as (R & _). destruct (I_root _ _ HI) as [R2 _]. pose proof (HA N 0%nat ltac:(lia) ltac:(lia)). lia. }
  assert (HC : forall k, (k < N)%nat -> cls (P c k) = 3).
  { induction k as [k IH] using lt_wf_ind. intros Hk. destruct (Nat.eq_dec k 0) as [->|Hne]; auto.
    pose proof (parent_lt k Hne) as Plt. specialize (IH (parent k) Plt ltac:(lia)).
    destruct (Hcnt k) as (U & T & F). pose proof (I_edge _ _ HI k ltac:(lia)) as HE.
    destruct HE as [? ? ? Y | ? ? ? Y | ? ? ? Y | ? ? ? Y | ? ? ? Y | ? (? & ? & ?) | ? ? ? Y]; try lia. }
  intros j Hj. specialize (HC j Hj). unfold cls in HC. destruct (st (P c j)); try lia; auto.
Qed.

(* global quiescence: stable under every schedule, and whenever the control
   channels are empty every process has terminated *)
Definition quiescent (N : nat) (c : cfg) : Prop := forall j, (j < N)%nat -> quiet_p (P c j).

Lemma reach_step N c a : reach N c -> reach N (step c a).
Proof. intros (s & ->). exists (s ++ [a]). unfold run. rewrite fold_left_app. reflexivity. Qed.
Lemma reach_run N c l : reach N c -> reach N (run c l).
Proof. intros (s & ->). exists (s ++ l). unfold run. rewrite fold_left_app. reflexivity. Qed.

Lemma quiescent_allq N c : NP c = N -> quiescent N c -> allq c.
Proof.
  intros HN Hq j Hj. destruct (Hq j ltac:(lia)) as (A & _ & _ & B & C). unfold quietw, busy_or_nr. destruct A as [-> | [-> | ->] ]; auto.
Qed.

Theorem quiescence_stable N c sched : (1 <= N)%nat -> reach N c -> quiescent N c -> quiescent N (run c sched).
Proof.
  intros HN Hr Hq. destruct (reach_good N c HN Hr) as (HNP & (g & HI) & _).
  pose proof (run_msteps c sched) as Hms.
  pose proof (quiescent_allq N c HNP Hq) as Hw.
  destruct (inv_msteps _ _ Hms g HI) as [g' HI']. pose proof (NP_msteps _ _ Hms) as HN'.
  intros j Hj. apply (quietw_quiet_p _ g'); auto; [lia|]. apply (quiet_msteps c _ Hms g HI Hw). lia.
Qed.
