(* C11: the inductive invariant ([Proto], the tree protocol, inside [Inv], which adds what the
   ghost wave snapshots counted) and the lemmas
   about configurations it is stated with; it is preserved by the steps of the
   application and when a control message goes to the delayed list. *)
From PV Require Import Base.Tac Base.ListX Term4C.Term4CDefs Term4C.Term4CBase Term4C.Term4CMicro.
Local Open Scope Z_scope.

Lemma P_mk ps nt dq j : P (mkC ps nt dq) j = nth j ps p0. Proof. reflexivity. Qed.

(* the messages that exist: network and delayed list together *)
Definition pool (c : cfg) : list pkt := net c ++ dlyq c.
Definition src (x : pkt) : nat := fst (fst x).
Definition dst (x : pkt) : nat := snd (fst x).
Definition msg (x : pkt) : cmsg := snd x.
Definition upfrom (k : nat) (x : pkt) : bool :=
  (src x =? k)%nat && match msg x with UP _ _ => true | _ => false end.
Definition downto (b : bool) (k : nat) (x : pkt) : bool :=
  (dst x =? k)%nat && match msg x with DOWN b' => Bool.eqb b' b | _ => false end.
Definition upc c k := cnt (upfrom k) (pool c).
Definition dT c k := cnt (downto true k) (pool c).
Definition dF c k := cnt (downto false k) (pool c).
(* what is said of the sums of messages is said twice, of those sent ([true]) and of those
   received: what a report carries, what the accumulators hold *)
Definition ups (sd : bool) (x : pkt) : Z := match msg x with UP s r => if sd then s else r | _ => 0 end.
Definition acc_of (sd : bool) (p : proc) : Z := if sd then acc_s p else acc_r p.

(* class of a monitor state: 0 not ready, 1 collecting from children, 2 waiting
   for the parent, 3 terminated *)
Definition cls (p : proc) : Z :=
  match st p with NR => 0 | BWC | IWC => 1 | BWP | IWP => 2 | TERM => 3 end.
Definition absb (c : cfg) (k : nat) : bool :=
  (cls (P c k) =? 2) && (upc c k =? 0) && (dT c k =? 0) && (dF c k =? 0).
Definition nabs (c : cfg) (i : nat) : Z := cnt (fun k => negb (absb c k)) (children (NP c) i).
Definition mass (sd : bool) (p : proc) : Z := if cls p <=? 1 then acc_of sd p else 0.
Definition quietw (p : proc) : Prop := busy_or_nr p = false /\ infl p = 0 /\ inproc p = 0.

Record ghost := mkG {
  cur_s : nat -> Z; cur_r : nat -> Z;   (* own counters at the latest report *)
  dc_s : nat -> Z; dc_r : nat -> Z;     (* own counters reported to the last decided wave *)
  gf : nat -> bool;                     (* has reported to the wave not yet decided *)
  gz : nat -> proc;                     (* the processes when the root last decided *)
  gd : bool                             (* the root has decided at least once *)
}.

Definition cur_of (sd : bool) (g : ghost) (i : nat) : Z := if sd then cur_s g i else cur_r g i.

Definition cnts c k (a b d : Z) : Prop := upc c k = a /\ dT c k = b /\ dF c k = d.

(* the phase of the edge between k and its parent *)
Inductive Edge (c : cfg) (g : ghost) (k : nat) : Prop :=
| Ph_collect : cls (P c k) <= 1 -> cnts c k 0 0 0 -> gf g k = false -> cls (P c (parent k)) <= 1 -> Edge c g k
| Ph_up : cls (P c k) = 2 -> cnts c k 1 0 0 -> gf g k = true -> cls (P c (parent k)) <= 1 -> Edge c g k
| Ph_abs1 : cls (P c k) = 2 -> cnts c k 0 0 0 -> gf g k = true -> cls (P c (parent k)) = 1 -> Edge c g k
| Ph_abs2 : cls (P c k) = 2 -> cnts c k 0 0 0 -> gf g k = gf g (parent k) -> cls (P c (parent k)) = 2 -> Edge c g k
| Ph_dF : cls (P c k) = 2 -> cnts c k 0 0 1 -> gf g k = false -> cls (P c (parent k)) <= 1 -> Edge c g k
| Ph_dT : cls (P c k) = 2 -> cnts c k 0 1 0 -> gf g k = false -> cls (P c (parent k)) = 3 -> Edge c g k
| Ph_term : cls (P c k) = 3 -> cnts c k 0 0 0 -> gf g k = false -> cls (P c (parent k)) = 3 -> Edge c g k.

Definition pkt_ok (N : nat) (x : pkt) : Prop :=
  match msg x with
  | UP _ _ => src x <> 0%nat /\ (src x < N)%nat /\ dst x = parent (src x)
  | DOWN _ => dst x <> 0%nat /\ (dst x < N)%nat /\ src x = parent (dst x)
  end.

Lemma pkt_ok_dst N x : pkt_ok N x -> (dst x < N)%nat.
Proof.
  unfold pkt_ok. destruct (msg x); intros (A & B & C); [|exact B]. rewrite C. pose proof (parent_lt (src x) A). lia.
Qed.

Definition loc_ok (p : proc) : Prop :=
  0 <= tasks p /\ 0 <= acts p /\ 0 <= infl p /\ 0 <= inproc p /\
  (busy_or_nr p = false -> tasks p = 0 /\ acts p = 0) /\
  cbs p = (if cls p =? 3 then 1 else 0).

(* the tree protocol and the environment: of the ghost state only the flags of the wave in
   progress are looked at, to tell the phases of the edges apart *)
Record Proto (c : cfg) (g : ghost) : Prop := {
  I_N : (1 <= NP c)%nat;
  I_loc : forall i, (i < NP c)%nat -> loc_ok (P c i);
  I_root : cls (P c 0) <> 2 /\ gf g 0%nat = false;
  I_pkt : forall x, In x (pool c) -> pkt_ok (NP c) x;
  I_edge : forall k, (0 < k < NP c)%nat -> Edge c g k;
  I_ncl : forall i, (i < NP c)%nat ->
            (cls (P c i) = 1 -> ncl (P c i) = nabs c i) /\ (cls (P c i) = 2 -> ncl (P c i) = nch (NP c) i);
  I_cons : bsum (NP c) (fun i => sent (P c i)) =
           bsum (NP c) (fun i => recv (P c i)) + bsum (NP c) (fun i => infl (P c i)) + bsum (NP c) (fun i => inproc (P c i));
  I_T : (exists i, (i < NP c)%nat /\ cls (P c i) = 3) -> forall i, (i < NP c)%nat -> quietw (P c i);
  I_one : NP c = 1%nat -> infl (P c 0) = 0 /\ inproc (P c 0) = 0
}.

(* with what the waves counted *)
Record Inv (c : cfg) (g : ghost) : Prop := {
  I_proto :> Proto c g;
  I_g1 : forall i, (i < NP c)%nat ->
           0 <= dc_s g i <= sent (gz g i) /\ sent (gz g i) <= sent (P c i) /\
           0 <= dc_r g i <= recv (gz g i) /\ recv (gz g i) <= recv (P c i);
  I_g2 : forall i, (i < NP c)%nat -> gf g i = true ->
           sent (gz g i) <= cur_s g i <= sent (P c i) /\ recv (gz g i) <= cur_r g i <= recv (P c i);
  I_g3 : bsum (NP c) (fun i => sent (gz g i)) =
           bsum (NP c) (fun i => recv (gz g i)) + bsum (NP c) (fun i => infl (gz g i)) + bsum (NP c) (fun i => inproc (gz g i))
         /\ forall i, (i < NP c)%nat -> 0 <= infl (gz g i) /\ 0 <= inproc (gz g i);
  I_g4 : gd g = true -> forall i, (i < NP c)%nat -> busy_or_nr (gz g i) = true ->
           0 < inproc (gz g i) \/ dc_r g i < recv (gz g i);
  I_g5 : forall i, (i < NP c)%nat -> gf g i = true -> st (P c i) = BWP ->
           0 < inproc (P c i) \/ cur_r g i < recv (P c i);
  I_g6 : forall sd, bsum (NP c) (fun i => mass sd (P c i)) + psum (ups sd) (pool c) =
                    bsum (NP c) (fun i => if gf g i then cur_of sd g i else 0);
  I_g7 : (gd g = true -> last_s (P c 0) = bsum (NP c) (dc_s g) /\ last_r (P c 0) = bsum (NP c) (dc_r g))
         /\ (gd g = false -> last_s (P c 0) = -1);
  I_g9 : (forall i, (i < NP c)%nat -> quietw (gz g i)) -> forall i, (i < NP c)%nat -> quietw (P c i)
}.

Lemma cls_range p : 0 <= cls p <= 3. Proof. unfold cls; destruct (st p); lia. Qed.
Lemma cls_busy_or_nr p : busy_or_nr p = false -> 2 <= cls p \/ st p = IWC.
Proof. unfold busy_or_nr, cls. destruct (st p); intros; try discriminate; auto; lia. Qed.

Lemma cnt_remove {A} (f : A -> bool) d1 x d2 : cnt f (d1 ++ x :: d2) = cnt f (d1 ++ d2) + (if f x then 1 else 0).
Proof. rewrite !cnt_app, cnt_cons. lia. Qed.
Lemma psum_remove w d1 x d2 : psum w (d1 ++ x :: d2) = psum w (d1 ++ d2) + w x.
Proof. rewrite !psum_app. cbn. lia. Qed.

Lemma in_dlyq_pool c d1 x d2 : dlyq c = d1 ++ x :: d2 -> In x (pool c).
Proof. intros H. unfold pool. rewrite H, !in_app_iff. cbn. tauto. Qed.

(* the DOWN messages forwarded by j *)
Lemma upfrom_fwd N j b k : cnt (upfrom k) (fwd N j b) = 0.
Proof. unfold fwd. rewrite (cnt_map_children _ _ (fun _ => false)); [apply cnt_const_false|]. intros x. unfold upfrom, msg. cbn. apply andb_false_r. Qed.
Lemma psum_fwd sd N j b : psum (ups sd) (fwd N j b) = 0.
Proof. apply psum_zero. intros x Hx. unfold fwd in Hx. apply in_map_iff in Hx. destruct Hx as (k & <- & _). reflexivity. Qed.
Lemma down_fwd N j b b' k : cnt (downto b' k) (fwd N j b) = if Bool.eqb b b' && is_child N j k then 1 else 0.
Proof.
  unfold fwd. destruct (Bool.eqb b b') eqn:E; cbn [andb].
  - rewrite (cnt_map_children _ _ (fun x => (x =? k)%nat)); [apply cnt_eqb_children|].
    intros x. unfold downto, dst, msg. cbn. rewrite E. apply andb_true_r.
  - rewrite (cnt_map_children _ _ (fun _ => false)); [apply cnt_const_false|].
    intros x. unfold downto, msg. cbn. rewrite E. apply andb_false_r.
Qed.
Lemma fwd_ok N j b x : (j < N)%nat -> In x (fwd N j b) -> pkt_ok N x.
Proof.
  intros Hj Hx. unfold fwd in Hx. apply in_map_iff in Hx. destruct Hx as (k & <- & Hk).
  apply ch_spec in Hk. unfold pkt_ok, msg, dst, src. cbn. intuition.
Qed.

(* steps that change only fields the tree protocol does not look at *)
Definition Rloc (g : ghost) (j : nat) (p q : proc) : Prop :=
  cls q = cls p /\ ncl q = ncl p /\ acc_s q = acc_s p /\ acc_r q = acc_r p /\
  last_s q = last_s p /\ last_r q = last_r p /\ loc_ok q /\ sent p <= sent q /\ recv p <= recv q /\
  (gf g j = true -> st q = BWP -> 0 < inproc q \/ cur_r g j < recv q).

Lemma Rloc_refl c g j : Inv c g -> (j < NP c)%nat -> Rloc g j (P c j) (P c j).
Proof.
  intros HI Hj. unfold Rloc. do 6 (split; [reflexivity|]). split; [apply (I_loc _ _ HI j Hj)|].
  split; [lia|]. split; [lia|]. intros. apply (I_g5 _ _ HI j); auto.
Qed.

Lemma absb_same c c' k : cls (P c' k) = cls (P c k) ->
  upc c' k = upc c k -> dT c' k = dT c k -> dF c' k = dF c k -> absb c' k = absb c k.
Proof. intros H U T F. unfold absb. rewrite H, U, T, F. reflexivity. Qed.

(* the phase of an edge depends on the classes of its two ends, its messages and its two flags *)
Lemma edge_same c c' g g' k : cls (P c' k) = cls (P c k) -> cls (P c' (parent k)) = cls (P c (parent k)) ->
  upc c' k = upc c k -> dT c' k = dT c k -> dF c' k = dF c k ->
  gf g' k = gf g k -> gf g' (parent k) = gf g (parent k) -> Edge c g k -> Edge c' g' k.
Proof.
  intros H1 H2 U T F G1 G2 HE.
  assert (Hc : forall a b d, cnts c k a b d -> cnts c' k a b d) by (unfold cnts; intros; rewrite U, T, F; auto).
  destruct HE; [apply Ph_collect|apply Ph_up|apply Ph_abs1|apply Ph_abs2|apply Ph_dF|apply Ph_dT|apply Ph_term]; auto; congruence.
Qed.

Lemma inv_fieldwise c c' g :
  Inv c g -> NP c' = NP c ->
  (forall f, cnt f (pool c') = cnt f (pool c)) ->
  (forall w, psum w (pool c') = psum w (pool c)) ->
  (forall x, In x (pool c') -> In x (pool c)) ->
  (forall j, (j < NP c)%nat -> Rloc g j (P c j) (P c' j)) ->
  bsum (NP c) (fun i => sent (P c' i)) =
    bsum (NP c) (fun i => recv (P c' i)) + bsum (NP c) (fun i => infl (P c' i)) + bsum (NP c) (fun i => inproc (P c' i)) ->
  ((forall j, (j < NP c)%nat -> quietw (P c j)) -> forall j, (j < NP c)%nat -> quietw (P c' j)) ->
  (NP c = 1%nat -> infl (P c' 0) = 0 /\ inproc (P c' 0) = 0) ->
  Inv c' g.
Proof.
  intros HI HN Hcnt Hps Hin HR Hcons Hq H1.
  pose proof (I_N _ _ HI) as HN1.
  assert (Hcls : forall j, (j < NP c)%nat -> cls (P c' j) = cls (P c j)) by (intros j Hj; apply (HR j Hj)).
  constructor; [constructor|..]; rewrite ?HN.
  - auto.
  - intros i Hi. apply (HR i Hi).
  - destruct (I_root _ _ HI). rewrite Hcls by lia. auto.
  - intros x Hx. apply (I_pkt _ _ HI). auto.
  - intros k Hk. apply (edge_same c c' g g); unfold upc, dT, dF; auto.
    + apply Hcls. lia.
    + apply Hcls. pose proof (parent_lt k). lia.
    + apply (I_edge _ _ HI); auto.
  - intros i Hi. destruct (HR i Hi) as (Hc & Hn & _). rewrite Hc, Hn.
    assert (nabs c' i = nabs c i) as ->.
    { unfold nabs. rewrite HN. apply cnt_ext_in. intros k Hk. apply ch_spec in Hk. f_equal. apply absb_same; unfold upc, dT, dF; auto. apply Hcls. lia. }
    apply (I_ncl _ _ HI); auto.
  - exact Hcons.
  - intros (i & Hi & Ht). apply Hq. apply (I_T _ _ HI). exists i. split; auto. rewrite <- Hcls; auto.
  - exact H1.
  - intros i Hi. destruct (I_g1 _ _ HI i Hi) as (A & B & C & D). destruct (HR i Hi) as (_ & _ & _ & _ & _ & _ & _ & Hs & Hr & _). lia.
  - intros i Hi Hf. destruct (I_g2 _ _ HI i Hi Hf) as (A & B). destruct (HR i Hi) as (_ & _ & _ & _ & _ & _ & _ & Hs & Hr & _). lia.
  - apply (I_g3 _ _ HI).
  - apply (I_g4 _ _ HI).
  - intros i Hi Hf Hs. apply (HR i Hi); auto.
  - intros sd. rewrite Hps, <- (I_g6 _ _ HI sd). f_equal. apply bsum_ext. intros i Hi.
    destruct (HR i Hi) as (Hc & _ & Ha & Hb & _). unfold mass, acc_of. rewrite Hc, Ha, Hb. reflexivity.
  - destruct (HR 0%nat ltac:(lia)) as (_ & _ & _ & _ & Hl1 & Hl2 & _). rewrite Hl1, Hl2. apply (I_g7 _ _ HI).
  - intros Hz. apply Hq. apply (I_g9 _ _ HI); auto.
Qed.

Lemma bsum_setp (f : proc -> Z) c i q : (i < NP c)%nat ->
  bsum (NP c) (fun k => f (P (setp c i q) k)) = bsum (NP c) (fun k => f (P c k)) - f (P c i) + f q.
Proof.
  intros Hi. rewrite (bsum_upd (NP c) (fun k => f (P c k)) (fun k => f (P (setp c i q) k)) i Hi).
  - rewrite P_setp, Nat.eqb_refl by auto. reflexivity.
  - intros k Hk Hne. rewrite P_setp by auto. apply Nat.eqb_neq in Hne. rewrite Hne. reflexivity.
Qed.

(* what a step of the application does to the process that takes it: the fields of the tree protocol
   stay, what is counted sent stays received, in flight or being received, a quiet process stays quiet *)
Definition Renv (g : ghost) (j : nat) (p q : proc) : Prop :=
  Rloc g j p q /\
  sent q - sent p = (recv q - recv p) + (infl q - infl p) + (inproc q - inproc p) /\
  (quietw p -> quietw q) /\ (infl p = 0 -> inproc p = 0 -> infl q = 0 /\ inproc q = 0).

Lemma inv_setp c g i q : Inv c g -> (i < NP c)%nat -> Renv g i (P c i) q -> Inv (setp c i q) g.
Proof.
  intros HI Hi (HR & Hd & Hq & H1).
  apply (inv_fieldwise c); auto.
  - apply NP_setp; auto.
  - intros j Hj. rewrite P_setp by auto. destruct (j =? i)%nat eqn:E; [apply Nat.eqb_eq in E; subst; auto|apply Rloc_refl; auto].
  - rewrite !bsum_setp by auto. pose proof (I_cons _ _ HI). lia.
  - intros Hall j Hj. rewrite P_setp by auto. destruct (j =? i)%nat eqn:E; [apply Hq; apply Hall; auto|apply Hall; auto].
  - intros HN. rewrite P_setp by auto. assert (i = 0)%nat by lia. subst. destruct (I_one _ _ HI HN). cbn. auto.
Qed.

(* opens the record of a process, so that [cbn] computes its fields after any setter *)
Ltac rec_cases p := destruct p as [st0 ta0 ac0 se0 re0 nc0 as0 ar0 ls0 lr0 cb0 if0 ip0].

Lemma loc_ok_P c g i : Inv c g -> (i < NP c)%nat -> loc_ok (P c i).
Proof. intros HI Hi. apply (I_loc _ _ HI); auto. Qed.
Lemma term_quiet c g i : Inv c g -> (i < NP c)%nat -> st (P c i) = TERM -> quietw (P c i).
Proof. intros HI Hi Hs. apply (I_T _ _ HI); auto. exists i. split; auto. unfold cls. rewrite Hs. reflexivity. Qed.

Definition same_env (p q : proc) : Prop :=
  sent q = sent p /\ recv q = recv p /\ infl q = infl p /\ inproc q = inproc p.
Definition Hyp5 (g : ghost) (j : nat) (p : proc) : Prop :=
  gf g j = true -> st p = BWP -> 0 < inproc p \/ cur_r g j < recv p.

(* for a statement about the fields of an opened process: unfolds the predicates on one process,
   splits on every test, and leaves each case to [discriminate] or [lia] *)
Ltac proc_tac :=
  unfold Renv, Rloc, same_env, Hyp5, loc_ok, quietw, busyfix, rstart_p, may_load, can_recv, is_busy, busy_or_nr, idle0, cls in *;
  cbn in *;
  repeat match goal with
         | |- context[if ?b then _ else _] => destruct b eqn:?
         | H : context[if ?b then _ else _] |- _ => destruct b eqn:? end;
  cbn in *; try discriminate; try lia;
  repeat split; intros; try discriminate; try lia; auto.

Lemma load_p g j p t a fx : loc_ok p -> (st p = TERM -> quietw p) -> Hyp5 g j p ->
  may_load p = true -> 0 <= t -> 0 <= a -> (fx = false -> idle0 p = false) ->
  let q0 := set_acts (set_tasks p t) a in Renv g j p (if fx then busyfix q0 else q0).
Proof.
  intros Hl Ht H5 Hml Ht0 Ha0 Hfx. rec_cases p. destruct fx; [|specialize (Hfx eq_refl)]; destruct st0;
    try (destruct Ht as (? & ? & ?); [reflexivity|]); proc_tac.
  (* left over: the clause about BWP, from H5; that a process which is not busy has no load, from Hl *)
  all: try (destruct H5; auto; lia). all: try (destruct Hl as (? & ? & ? & ? & Hz & ?); destruct Hz; auto; lia).
Qed.

Lemma idle_p g j p : loc_ok p -> idle0 p = true -> (st p = BWP \/ st p = BWC) ->
  Renv g j p (set_st p (match st p with BWP => IWP | _ => IWC end)).
Proof. intros Hl Hi Hs. rec_cases p. destruct Hs as [Hs|Hs]; cbn in Hs; subst st0; proc_tac. Qed.

Lemma rstart_p_ok g j p : loc_ok p -> Hyp5 g j p -> 0 < infl p -> can_recv p = true ->
  Renv g j p (rstart_p p).
Proof. intros Hl H5 Hi Hc. rec_cases p. destruct st0; proc_tac. Qed.

Lemma rend_p_ok g j p : loc_ok p -> Hyp5 g j p -> (gf g j = true -> cur_r g j <= recv p) -> 0 < inproc p ->
  Renv g j p (set_inproc (set_recv p (recv p + 1)) (inproc p - 1)).
Proof.
  intros Hl H5 H2 Hi. rec_cases p. destruct st0; proc_tac.
  (* left over: the clause about BWP; the report was made before this receipt (H2) *)
  all: try (specialize (H2 H); destruct H5; auto; lia). all: try (specialize (H2 H6); destruct H5; auto; lia).
Qed.

Lemma env_p_ok g j p s f : loc_ok p -> Hyp5 g j p -> sent p <= s -> infl p <= f ->
  Rloc g j p (set_infl (set_sent p s) f).
Proof. intros Hl H5 Hs Hf. rec_cases p. proc_tac. Qed.

Lemma hyp5_P c g i : Inv c g -> (i < NP c)%nat -> Hyp5 g i (P c i).
Proof. intros HI Hi. unfold Hyp5. apply (I_g5 _ _ HI); auto. Qed.

Lemma inv_load w c g i v fx : Inv c g -> (i < NP c)%nat -> may_load (P c i) = true -> 0 <= v ->
  (fx = false -> idle0 (P c i) = false) ->
  Inv (setp c i (if fx then busyfix (set_wl w (P c i) v) else set_wl w (P c i) v)) g.
Proof.
  intros HI Hi Hml Hv Hfx. pose proof (loc_ok_P c g i HI Hi) as Hl.
  assert (Hw : exists t a, 0 <= t /\ 0 <= a /\ set_wl w (P c i) v = set_acts (set_tasks (P c i) t) a).
  { destruct Hl as (Lt & La & _). destruct w; [exists v, (acts (P c i))|exists (tasks (P c i)), v]; auto. }
  destruct Hw as (t & a & Ht & Ha & ->).
  apply inv_setp; auto. apply load_p; auto; [apply (term_quiet c g)|apply (hyp5_P c)]; auto.
Qed.

Lemma inv_send c g i j : Inv c g -> (i < NP c)%nat -> (j < NP c)%nat -> i <> j -> is_busy (P c i) = true ->
  Inv (setp (setp c i (set_sent (P c i) (sent (P c i) + 1))) j (set_infl (P c j) (infl (P c j) + 1))) g.
Proof.
  intros HI Hi Hj Hne Hb.
  set (c1 := setp c i (set_sent (P c i) (sent (P c i) + 1))).
  assert (HN1 : NP c1 = NP c) by (apply NP_setp; auto).
  assert (HP : forall k, P (setp c1 j (set_infl (P c j) (infl (P c j) + 1))) k =
            if (k =? j)%nat then set_infl (P c j) (infl (P c j) + 1)
            else if (k =? i)%nat then set_sent (P c i) (sent (P c i) + 1) else P c k).
  { intros k. rewrite P_setp by lia. destruct (k =? j)%nat; auto. unfold c1. rewrite P_setp by auto. reflexivity. }
  apply (inv_fieldwise c); auto.
  - rewrite NP_setp; lia.
  - intros k Hk. rewrite HP. destruct (k =? j)%nat eqn:Ej; [|destruct (k =? i)%nat eqn:Ei].
    + apply Nat.eqb_eq in Ej; subst k.
      apply (env_p_ok g j (P c j) (sent (P c j))); [apply (loc_ok_P c g)|apply (hyp5_P c)| |]; auto; lia.
    + apply Nat.eqb_eq in Ei; subst k.
      apply (env_p_ok g i (P c i) (sent (P c i) + 1) (infl (P c i))); [apply (loc_ok_P c g)|apply (hyp5_P c)| |]; auto; lia.
    + apply Rloc_refl; auto.
  - rewrite <- HN1. rewrite !bsum_setp by lia. rewrite HN1. unfold c1. rewrite !bsum_setp by auto.
    rewrite !P_setp by auto. apply Nat.eqb_neq in Hne. rewrite Nat.eqb_sym in Hne. rewrite Hne.
    pose proof (I_cons _ _ HI). cbn [sent recv infl inproc set_sent set_infl]. lia.
  - intros Hall. destruct (Hall i Hi) as (Hq & _). unfold is_busy, busy_or_nr in *. destruct (st (P c i)); discriminate.
  - intros HN. lia.
Qed.

Lemma inv_delay c g l1 pk l2 : Inv c g -> net c = l1 ++ pk :: l2 ->
  Inv (mkC (procs c) (l1 ++ l2) (dlyq c ++ [pk])) g.
Proof.
  intros HI Hn. apply (inv_fieldwise c); auto.
  - intros f. unfold pool. cbn [net dlyq]. rewrite Hn, !cnt_app, !cnt_cons, cnt_nil. lia.
  - intros w. unfold pool. cbn [net dlyq]. rewrite Hn, !psum_app. cbn [psum]. lia.
  - intros x. unfold pool. cbn [net dlyq]. rewrite Hn, !in_app_iff. cbn [In]. tauto.
  - intros j Hj. change (P (mkC (procs c) (l1 ++ l2) (dlyq c ++ [pk])) j) with (P c j). apply Rloc_refl; auto.
  - apply (I_cons _ _ HI).
  - apply (I_one _ _ HI).
Qed.
