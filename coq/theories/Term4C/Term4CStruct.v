(* C11: what a step of the wave at one process keeps ([Wave], [wave_proto] for the tree
   protocol, [inv_wave] for the whole invariant, [answered] for an answer sent to the children);
   with it the invariant is preserved by the micro-steps that move the wave and leave the
   ghost state alone (ready, UP absorbed, DOWN handled). *)
From PV Require Import Base.Tac Base.ListX Term4C.Term4CDefs Term4C.Term4CBase Term4C.Term4CMicro Term4C.Term4CInv.
Local Open Scope Z_scope.

Definition Rnum (g : ghost) (j : nat) (p q : proc) : Prop :=
  loc_ok q /\ same_env p q /\ Hyp5 g j q /\ last_s q = last_s p /\ last_r q = last_r p.

(* reading the phase of an edge from what is known of one of its ends or of its messages *)
Lemma edge_collect_inv c g k : Edge c g k -> cls (P c k) = 1 ->
  cnts c k 0 0 0 /\ gf g k = false /\ cls (P c (parent k)) <= 1.
Proof. intros HE H1. destruct HE; try lia; auto. Qed.
Lemma edge_up_inv c g k : Edge c g k -> 1 <= upc c k ->
  cls (P c k) = 2 /\ cnts c k 1 0 0 /\ gf g k = true /\ cls (P c (parent k)) <= 1.
Proof. intros HE H. destruct HE as [? (E&?&?)|? (E&?&?)|? (E&?&?)|? (E&?&?)|? (E&?&?)|? (E&?&?)|? (E&?&?)]; try lia. repeat split; auto. Qed.
Lemma edge_par2_inv c g k : Edge c g k -> cls (P c (parent k)) = 2 ->
  cls (P c k) = 2 /\ cnts c k 0 0 0 /\ gf g k = gf g (parent k).
Proof. intros HE H. destruct HE; try lia. split; [auto|split; auto]. Qed.
Lemma edge_par0_noabs c g k : Edge c g k -> cls (P c (parent k)) = 0 -> absb c k = false.
Proof.
  intros HE H. unfold absb. destruct HE as [? (E1&E2&E3)|? (E1&E2&E3)|? (E1&E2&E3)|? (E1&E2&E3)|? (E1&E2&E3)|? (E1&E2&E3)|? (E1&E2&E3)]; try lia;
  rewrite ?E1, ?E2, ?E3; cbn; rewrite ?andb_false_r; auto.
  all: try (destruct (cls (P c k) =? 2) eqn:E; auto; lia).
Qed.

Lemma in_pool_cnt (f : pkt -> bool) c x : In x (pool c) -> f x = true -> 1 <= cnt f (pool c).
Proof. intros. eapply cnt_pos_in; eauto. Qed.

Lemma mass_bsum_upd (m : proc -> Z) c c' j : (j < NP c)%nat ->
  (forall k, (k < NP c)%nat -> k <> j -> P c' k = P c k) ->
  bsum (NP c) (fun i => m (P c' i)) = bsum (NP c) (fun i => m (P c i)) - m (P c j) + m (P c' j).
Proof.
  intros Hj H. apply (bsum_upd (NP c) (fun i => m (P c i)) (fun i => m (P c' i)) j Hj).
  intros k Hk Hne. rewrite H; auto.
Qed.

Lemma Rnum_refl c g j : Inv c g -> (j < NP c)%nat -> Rnum g j (P c j) (P c j).
Proof.
  intros HI Hj. unfold Rnum, same_env. split; [apply (I_loc _ _ HI j Hj)|]. split; [auto|]. split; [apply hyp5_P; auto|auto].
Qed.

(* a DOWN message that exists determines the phase of the edge above its destination *)
Lemma down_in_pool c g s j b : Inv c g -> In (s, j, DOWN b) (pool c) ->
  (0 < j < NP c)%nat /\ cls (P c j) = 2 /\ gf g j = false /\
  cnts c j 0 (if b then 1 else 0) (if b then 0 else 1) /\
  (if b then cls (P c (parent j)) = 3 else cls (P c (parent j)) <= 1).
Proof.
  intros HI Hin. destruct (I_pkt _ _ HI _ Hin) as (J0 & JN & _). cbn [dst fst snd] in J0, JN.
  assert (Hj : (0 < j < NP c)%nat) by lia. split; [exact Hj|].
  assert (H1 : 1 <= cnt (downto b j) (pool c)).
  { apply (in_pool_cnt _ c _ Hin). unfold downto, dst, msg. cbn. rewrite Nat.eqb_refl, eqb_reflx. reflexivity. }
  destruct b; destruct (I_edge _ _ HI j Hj) as [? (?&T&F)|? (?&T&F)|? (?&T&F)|? (?&T&F)|? (?&T&F)|? (?&T&F)|? (?&T&F)];
    unfold cnts, dT, dF in *; try lia; auto.
Qed.

Lemma ready_p_ok g j p n : loc_ok p -> st p = NR -> Rnum g j p (set_st (set_ncl p n) BWC).
Proof. intros Hl Hs. rec_cases p. cbn in Hs. subst st0. unfold Rnum. proc_tac. Qed.

Lemma up_p_ok g j p a b : loc_ok p -> Hyp5 g j p -> Rnum g j p (up_p p a b).
Proof. intros Hl H5. unfold up_p. rec_cases p. unfold Rnum. proc_tac. Qed.

Lemma down_p_ok g j b p : loc_ok p -> cls p = 2 -> (b = true -> quietw p) -> gf g j = false ->
  let q := down_p b p in
  Rnum g j p q /\ cls q = (if b then 3 else 1) /\ ncl q = ncl p /\ (quietw p -> quietw q) /\
  (b = false -> acc_s q = 0 /\ acc_r q = 0).
Proof.
  intros Hl H2 Hq Hg. unfold Rnum, Hyp5. rewrite Hg. rec_cases p.
  destruct b; [specialize (Hq eq_refl)|clear Hq]; destruct st0; try (cbn in H2; lia); proc_tac.
Qed.

Lemma fwd_wave N j b : (j < N)%nat -> Forall (fun x => src x = j /\ pkt_ok N x) (fwd N j b).
Proof.
  intros Hj. apply Forall_forall. intros y Hy. split; [|apply (fwd_ok N j b); auto].
  unfold fwd in Hy. apply in_map_iff in Hy. destruct Hy as (k & <- & _). reflexivity.
Qed.

Lemma cls_1_of c j : cls (P c j) <= 1 -> st (P c j) <> NR -> cls (P c j) = 1.
Proof. unfold cls. destruct (st (P c j)); intros; try lia; congruence. Qed.

Lemma nabs_same c c' i : NP c' = NP c ->
  (forall k, In k (children (NP c) i) -> absb c' k = absb c k) -> nabs c' i = nabs c i.
Proof. intros HN H. unfold nabs. rewrite HN. apply cnt_ext_in. intros k Hk. rewrite H; auto. Qed.

(* A step of the wave at j: the process j becomes q, the messages xs leave the delayed
   list, the messages outs enter the network.  Only the edge above j and the edges below it
   are touched: a message that j handles comes over one of them, and so does one it sends. *)
Record Wave (c c' : cfg) (j : nat) (q : proc) (xs outs : list pkt) : Prop := {
  W_N : NP c' = NP c;
  W_P : forall k, P c' k = if (k =? j)%nat then q else P c k;
  W_cnt : forall f, cnt f (pool c') = cnt f (pool c) - cnt f xs + cnt f outs;
  W_psum : forall w, psum w (pool c') = psum w (pool c) - psum w xs + psum w outs;
  W_in : forall x, In x (pool c') -> In x (pool c) \/ In x outs;
  W_xs : forall x, In x xs -> In x (pool c)
}.

Lemma wave_mk c j q d1 xs d2 outs : (j < NP c)%nat -> dlyq c = d1 ++ xs ++ d2 ->
  Wave c (mkC (lset (procs c) j q) (net c ++ outs) (d1 ++ d2)) j q xs outs.
Proof.
  intros Hj Hd. constructor; unfold pool; cbn [net dlyq]; try rewrite Hd.
  - apply lset_length; auto.
  - intros k. apply P_lset; auto.
  - intros f. rewrite !cnt_app. lia.
  - intros w. rewrite !psum_app. lia.
  - intros x. rewrite !in_app_iff. tauto.
  - intros x. rewrite !in_app_iff. tauto.
Qed.

(* the messages on the edge above k, when one message is looked at *)
Lemma cnt_up_one k s d a b : cnt (upfrom k) [(s, d, UP a b)] = if (s =? k)%nat then 1 else 0.
Proof. rewrite cnt_cons, cnt_nil. unfold upfrom, src, msg. cbn. rewrite andb_true_r. lia. Qed.
Lemma cnt_up_down k s d b : cnt (upfrom k) [(s, d, DOWN b)] = 0.
Proof. rewrite cnt_cons, cnt_nil. unfold upfrom, msg. cbn. rewrite andb_false_r. lia. Qed.
Lemma cnt_down_up b' k s d a b : cnt (downto b' k) [(s, d, UP a b)] = 0.
Proof. rewrite cnt_cons, cnt_nil. unfold downto, msg. cbn. rewrite andb_false_r. lia. Qed.
Lemma cnt_down_one b' k s d b : cnt (downto b' k) [(s, d, DOWN b)] = if Bool.eqb b b' && (d =? k)%nat then 1 else 0.
Proof. rewrite cnt_cons, cnt_nil. unfold downto, dst, msg. cbn. rewrite andb_comm. lia. Qed.
#[export] Hint Rewrite @cnt_nil cnt_up_one cnt_up_down cnt_down_up cnt_down_one upfrom_fwd down_fwd : wcnt.

Lemma off_edge N j k x : pkt_ok N x -> dst x = j \/ src x = j -> k <> j -> parent k <> j ->
  upfrom k x = false /\ forall b, downto b k x = false.
Proof.
  unfold pkt_ok, upfrom, downto. intros Hok Hx Hk Hp. destruct (msg x).
  - destruct Hok as (_ & _ & Hd). split; [|intros; apply andb_false_r].
    destruct (src x =? k)%nat eqn:E; auto. apply Nat.eqb_eq in E. exfalso. destruct Hx; congruence.
  - destruct Hok as (_ & _ & Hs). split; [apply andb_false_r|]. intros b'.
    destruct (dst x =? k)%nat eqn:E; auto. apply Nat.eqb_eq in E. exfalso. destruct Hx; congruence.
Qed.

Lemma wave_far c c' g j q xs outs k : Inv c g -> Wave c c' j q xs outs ->
  Forall (fun x => dst x = j) xs -> Forall (fun x => src x = j /\ pkt_ok (NP c) x) outs ->
  k <> j -> parent k <> j -> upc c' k = upc c k /\ dT c' k = dT c k /\ dF c' k = dF c k.
Proof.
  intros HI HW Hxs Houts Hk Hp. rewrite Forall_forall in Hxs, Houts.
  assert (Hoff : forall x, In x xs \/ In x outs -> upfrom k x = false /\ forall b, downto b k x = false).
  { intros x [Hx|Hx]; apply (off_edge (NP c) j); auto.
    - apply (I_pkt _ _ HI), (W_xs _ _ _ _ _ _ HW); auto.
    - apply (Houts x Hx).
    - right. apply (Houts x Hx). }
  assert (Hz : forall f, (forall x, In x xs \/ In x outs -> f x = false) -> cnt f (pool c') = cnt f (pool c)).
  { intros f Hf. rewrite (W_cnt _ _ _ _ _ _ HW), (cnt_ext_in f (fun _ => false) xs), (cnt_ext_in f (fun _ => false) outs), !cnt_const_false by auto. lia. }
  unfold upc, dT, dF. split; [|split]; apply Hz; intros x Hx; apply (Hoff x Hx).
Qed.

Lemma wave_quiet c c' j q xs outs : Wave c c' j q xs outs ->
  ((forall k, (k < NP c)%nat -> quietw (P c k)) -> quietw q) ->
  (forall k, (k < NP c)%nat -> quietw (P c k)) -> forall k, (k < NP c)%nat -> quietw (P c' k).
Proof. intros HW Hq Hall k Hk. rewrite (W_P _ _ _ _ _ _ HW). destruct (k =? j)%nat; auto. Qed.

(* What a step of the wave leaves of the tree protocol, whatever becomes of the ghost state
   (the root's decision replaces it): the edges are the caller's to classify. *)
Lemma wave_proto c c' g g' j q xs outs :
  Inv c g -> Wave c c' j q xs outs -> (j < NP c)%nat ->
  Forall (fun x => dst x = j) xs -> Forall (fun x => src x = j /\ pkt_ok (NP c) x) outs ->
  loc_ok q -> same_env (P c j) q ->
  cls (P c' 0) <> 2 /\ gf g' 0%nat = false ->
  (forall k, (0 < k < NP c)%nat -> Edge c' g' k) ->
  (j <> 0%nat -> absb c' j = absb c j) ->
  (cls q = 1 -> ncl q = nabs c' j) /\ (cls q = 2 -> ncl q = nch (NP c) j) ->
  ((forall k, (k < NP c)%nat -> quietw (P c k)) -> quietw q) ->
  (cls q = 3 -> forall k, (k < NP c)%nat -> quietw (P c k)) ->
  Proto c' g'.
Proof.
  intros HI HW Hj Hxs Houts Hlq Henvq Hroot Hedge Habs Hncl Hq HT.
  pose proof (W_N _ _ _ _ _ _ HW) as HN. pose proof (W_P _ _ _ _ _ _ HW) as HP.
  assert (HPo : forall k, k <> j -> P c' k = P c k) by (intros k Hk; rewrite HP; apply Nat.eqb_neq in Hk; rewrite Hk; auto).
  assert (HPj : P c' j = q) by (rewrite HP, Nat.eqb_refl; auto).
  pose proof (fun k => wave_far c c' g j q xs outs k HI HW Hxs Houts) as Hfar. rewrite Forall_forall in Houts.
  assert (Henv : forall (f : proc -> Z), (forall p q, same_env p q -> f q = f p) ->
                 bsum (NP c) (fun i => f (P c' i)) = bsum (NP c) (fun i => f (P c i))).
  { intros f Hf. apply bsum_ext. intros i Hi. apply Hf. rewrite HP. destruct (i =? j)%nat eqn:E; [apply Nat.eqb_eq in E; subst i; auto|unfold same_env; auto]. }
  constructor; rewrite ?HN; auto.
  - apply (I_N _ _ HI).
  - intros i Hi. rewrite HP. destruct (i =? j)%nat; [auto|apply (I_loc _ _ HI); auto].
  - intros x Hx. destruct (W_in _ _ _ _ _ _ HW x Hx) as [H|H]; [apply (I_pkt _ _ HI); auto|apply (Houts x H)].
  - intros i Hi. destruct (Nat.eq_dec i j) as [->|Hne]; [rewrite HPj; auto|]. rewrite HPo by auto.
    rewrite (nabs_same c c' i HN); [apply (I_ncl _ _ HI); auto|].
    intros k Hk. apply ch_spec in Hk. destruct Hk as (K0 & _ & KP). destruct (Nat.eq_dec k j) as [->|Hkj]; [auto|].
    destruct (Hfar k Hkj ltac:(congruence)) as (U & T & F). apply absb_same; auto. rewrite HPo; auto.
  - rewrite (Henv sent), (Henv recv), (Henv infl), (Henv inproc); try (intros p1 p2 (?&?&?&?); auto). apply (I_cons _ _ HI).
  - intros (k & Hk & H3). apply (wave_quiet c c' j q xs outs HW Hq).
    destruct (Nat.eq_dec k j) as [->|Hne]; [rewrite HPj in H3; auto|]. apply (I_T _ _ HI). exists k. rewrite HPo in H3; auto.
  - intros H1. assert (j = 0)%nat as -> by lia. rewrite HPj. destruct Henvq as (_ & _ & -> & ->). apply (I_one _ _ HI); auto.
Qed.

(* of the ghost state only the wave in progress changes, and only at j *)
Definition gstep (g g' : ghost) (j : nat) : Prop :=
  (forall k, k <> j -> gf g' k = gf g k /\ cur_s g' k = cur_s g k /\ cur_r g' k = cur_r g k) /\
  (forall k, dc_s g' k = dc_s g k) /\ (forall k, dc_r g' k = dc_r g k) /\ (forall k, gz g' k = gz g k) /\ gd g' = gd g.
Lemma gstep_refl g j : gstep g g j.
Proof. unfold gstep. auto. Qed.

Lemma inv_wave c c' g g' j q xs outs :
  Inv c g -> Wave c c' j q xs outs -> (j < NP c)%nat -> gstep g g' j ->
  Forall (fun x => dst x = j) xs -> Forall (fun x => src x = j /\ pkt_ok (NP c) x) outs ->
  Rnum g' j (P c j) q ->
  (j = 0%nat -> cls q <> 2 /\ gf g' 0%nat = false) ->
  (forall k, (0 < k < NP c)%nat -> k = j \/ parent k = j -> Edge c' g' k) ->
  (j <> 0%nat -> absb c' j = absb c j) ->
  (cls q = 1 -> ncl q = nabs c' j) /\ (cls q = 2 -> ncl q = nch (NP c) j) ->
  (gf g' j = true -> sent (gz g j) <= cur_s g' j <= sent q /\ recv (gz g j) <= cur_r g' j <= recv q) ->
  (forall sd, mass sd q + psum (ups sd) outs + (if gf g j then cur_of sd g j else 0) =
              mass sd (P c j) + psum (ups sd) xs + (if gf g' j then cur_of sd g' j else 0)) ->
  ((forall k, (k < NP c)%nat -> quietw (P c k)) -> quietw q) ->
  (cls q = 3 -> forall k, (k < NP c)%nat -> quietw (P c k)) ->
  Inv c' g'.
Proof.
  intros HI HW Hj (G1 & D1 & D2 & D3 & D4) Hxs Houts HRq Hroot Hedge Habs Hncl Hg2 Hms Hq HT.
  pose proof (I_N _ _ HI) as H0N. pose proof (W_N _ _ _ _ _ _ HW) as HN. pose proof (W_P _ _ _ _ _ _ HW) as HP.
  assert (HPo : forall k, k <> j -> P c' k = P c k) by (intros k Hk; rewrite HP; apply Nat.eqb_neq in Hk; rewrite Hk; auto).
  assert (HPj : P c' j = q) by (rewrite HP, Nat.eqb_refl; auto).
  assert (HR : forall k, (k < NP c)%nat -> Rnum g' k (P c k) (P c' k)).
  { intros k Hk. destruct (Nat.eq_dec k j) as [->|Hne]; [rewrite HPj; auto|]. rewrite HPo by auto.
    destruct (Rnum_refl c g k HI Hk) as (A & B & C & D). destruct (G1 k Hne) as (E1 & _ & E3). unfold Rnum, Hyp5 in *. rewrite E1, E3. auto. }
  constructor; rewrite ?HN.
  - apply (wave_proto c c' g g' j q xs outs); auto; try apply HRq.
    + destruct (Nat.eq_dec j 0) as [->|Hne]; [rewrite HPj; auto|]. rewrite HPo by auto. destruct (G1 0%nat) as (-> & _); auto. apply (I_root _ _ HI).
    + (* an edge away from j keeps its phase *)
      intros k Hk. destruct (Nat.eq_dec k j) as [Hkj|Hkj]; [auto|]. destruct (Nat.eq_dec (parent k) j) as [Hpj|Hpj]; [auto|].
      destruct (wave_far c c' g j q xs outs k HI HW Hxs Houts Hkj Hpj) as (U & T & F).
      apply (edge_same c c' g g'); auto; try (rewrite HPo; auto); try apply G1; auto. apply (I_edge _ _ HI); auto.
  - intros i Hi. destruct (HR i Hi) as (_ & (E1 & E2 & _) & _). rewrite E1, E2, D1, D2, D3. apply (I_g1 _ _ HI); auto.
  - intros i Hi Hf. rewrite D3. destruct (Nat.eq_dec i j) as [->|Hne]; [rewrite HPj; auto|]. rewrite HPo by auto.
    destruct (G1 i Hne) as (E1 & E2 & E3). rewrite E2, E3. apply (I_g2 _ _ HI); auto. congruence.
  - destruct (I_g3 _ _ HI) as [A B]. split.
    + rewrite (bsum_ext _ (fun i => sent (gz g' i)) (fun i => sent (gz g i))), (bsum_ext _ (fun i => recv (gz g' i)) (fun i => recv (gz g i))),
        (bsum_ext _ (fun i => infl (gz g' i)) (fun i => infl (gz g i))), (bsum_ext _ (fun i => inproc (gz g' i)) (fun i => inproc (gz g i)));
        auto; intros; rewrite D3; auto.
    + intros i Hi. rewrite D3. auto.
  - rewrite D4. intros Hd i Hi. rewrite D3, D2. apply (I_g4 _ _ HI); auto.
  - intros i Hi Hf Hs. destruct (HR i Hi) as (_ & _ & H5 & _). apply H5; auto.
  - intros sd. rewrite (mass_bsum_upd (mass sd) c c' j Hj) by (intros; apply HPo; auto).
    rewrite (bsum_upd (NP c) (fun k => if gf g k then cur_of sd g k else 0) (fun k => if gf g' k then cur_of sd g' k else 0) j Hj).
    2:{ intros k Hk Hne. destruct (G1 k Hne) as (E1 & E2 & E3). unfold cur_of. rewrite E1, E2, E3. auto. }
    rewrite (W_psum _ _ _ _ _ _ HW), HPj. pose proof (I_g6 _ _ HI sd) as A. specialize (Hms sd). clear - A Hms. lia.
  - destruct (HR 0%nat H0N) as (_ & _ & _ & L1 & L2). rewrite L1, L2, D4.
    rewrite (bsum_ext _ (dc_s g') (dc_s g)), (bsum_ext _ (dc_r g') (dc_r g)) by (intros; auto). apply (I_g7 _ _ HI).
  - intros Hz. apply (wave_quiet c c' j q xs outs HW Hq). apply (I_g9 _ _ HI). intros i Hi. rewrite <- D3. auto.
Qed.

Lemma inv_ready c g i : Inv c g -> (i < NP c)%nat -> st (P c i) = NR ->
  Inv (setp c i (set_st (set_ncl (P c i) (nch (NP c) i)) BWC)) g.
Proof.
  intros HI Hi Hst. set (q := set_st (set_ncl (P c i) (nch (NP c) i)) BWC). set (c' := setp c i q).
  assert (Hc0 : cls (P c i) = 0) by (unfold cls; rewrite Hst; auto).
  assert (HW : Wave c c' i q [] []).
  { unfold c', setp. rewrite <- (app_nil_r (net c)). apply (wave_mk c i q [] [] (dlyq c)); auto. }
  pose proof (W_P _ _ _ _ _ _ HW) as HP.
  (* no message moves; i and the parent of i stay collecting, so every edge keeps its phase *)
  assert (Hcls : forall k, cls (P c' k) = if (k =? i)%nat then 1 else cls (P c k)).
  { intros k. rewrite HP. destruct (k =? i)%nat; auto. }
  assert (Habs : forall k, absb c' k = absb c k).
  { intros k. unfold absb. change (upc c' k) with (upc c k). change (dT c' k) with (dT c k). change (dF c' k) with (dF c k).
    rewrite Hcls. destruct (k =? i)%nat eqn:E; auto. apply Nat.eqb_eq in E; subst. rewrite Hc0. reflexivity. }
  apply (inv_wave c c' g g i q [] []); auto using gstep_refl.
  - apply ready_p_ok; auto. apply (loc_ok_P c g); auto.
  - intros _. split; [discriminate|apply (I_root _ _ HI)].
  - intros k Hk _. pose proof (parent_lt k ltac:(lia)).
    destruct (I_edge _ _ HI k Hk); [apply Ph_collect|apply Ph_up|apply Ph_abs1|apply Ph_abs2|apply Ph_dF|apply Ph_dT|apply Ph_term]; auto;
      (* an end of the edge changes class only if it is i, and then from 0 to 1 *)
      rewrite ?Hcls; repeat match goal with |- context[(?a =? ?b)%nat] => destruct (a =? b)%nat eqn:? end;
      repeat match goal with H : (_ =? _)%nat = true |- _ => apply Nat.eqb_eq in H; subst end; try lia.
  - split; [|discriminate]. intros _. unfold nabs. rewrite (W_N _ _ _ _ _ _ HW).
    rewrite (cnt_ext_in _ (fun _ => true)); [rewrite cnt_const_true; reflexivity|].
    intros k Hk. apply ch_spec in Hk. destruct Hk as (K0 & KN & KP).
    rewrite Habs, (edge_par0_noabs c g k); auto. apply (I_edge _ _ HI); lia. rewrite KP. auto.
  - intros Hf. apply (I_g2 _ _ HI); auto.
  - intros sd. unfold mass. rewrite Hc0. reflexivity.
  - intros Hall. destruct (Hall i Hi) as (Hb & _). unfold busy_or_nr in Hb. rewrite Hst in Hb. discriminate.
  - discriminate.
Qed.

Lemma inv_up c g d1 d2 s j a b : Inv c g -> dlyq c = d1 ++ (s, j, UP a b) :: d2 -> (j < NP c)%nat ->
  st (P c j) <> NR ->
  Inv (mkC (lset (procs c) j (up_p (P c j) a b)) (net c) (d1 ++ d2)) g.
Proof.
  intros HI Hd Hj Hnr. set (x := (s, j, UP a b)) in *. set (q := up_p (P c j) a b).
  rewrite <- (app_nil_r (net c)). set (c' := mkC (lset (procs c) j q) (net c ++ []) (d1 ++ d2)).
  assert (HW : Wave c c' j q [x] []) by (apply (wave_mk c j q d1 [x] d2 []); auto).
  pose proof (in_dlyq_pool c _ _ _ Hd) as Hin.
  pose proof (I_pkt _ _ HI x Hin) as Hok. unfold pkt_ok, msg, src, dst, x in Hok. cbn [fst snd] in Hok. destruct Hok as (S0 & SN & SP).
  (* the report of s is on its way: s waits, j collects *)
  assert (Hs1 : 1 <= upc c s).
  { unfold upc. apply (in_pool_cnt _ c x); auto. unfold upfrom, x, src, msg. cbn. rewrite Nat.eqb_refl. auto. }
  destruct (edge_up_inv c g s (I_edge _ _ HI s ltac:(lia)) Hs1) as (Hs2 & (Su & St & Sf) & Sg & Spar).
  rewrite <- SP in Spar. pose proof (cls_1_of c j Spar Hnr) as Hj1.
  assert (HU : forall k, upc c' k = upc c k - (if (s =? k)%nat then 1 else 0) /\ dT c' k = dT c k /\ dF c' k = dF c k).
  { intros k. unfold upc, dT, dF. rewrite !(W_cnt _ _ _ _ _ _ HW). unfold x. autorewrite with wcnt. lia. }
  assert (Hcls : forall k, cls (P c' k) = cls (P c k)).
  { intros k. rewrite (W_P _ _ _ _ _ _ HW). destruct (k =? j)%nat eqn:E; auto. apply Nat.eqb_eq in E; subst. reflexivity. }
  assert (Habs : forall k, k <> s -> absb c' k = absb c k).
  { intros k Hk. destruct (HU k) as (U1 & U2 & U3). apply absb_same; auto. rewrite U1. apply Nat.eqb_neq in Hk. rewrite Nat.eqb_sym, Hk. lia. }
  apply (inv_wave c c' g g j q [x] []); auto using gstep_refl.
  - apply up_p_ok; [apply (loc_ok_P c g)|apply (hyp5_P c)]; auto.
  - intros ->. change (cls q) with (cls (P c 0)). apply (I_root _ _ HI).
  - intros k Hk _. destruct (HU k) as (U1 & U2 & U3). destruct (Nat.eq_dec k s) as [->|Hne].
    + apply Ph_abs1; rewrite ?Hcls; auto; [|rewrite <- SP; auto].
      unfold cnts. rewrite U1, U2, U3, Nat.eqb_refl. lia.
    + apply (edge_same c c' g g); auto; [|apply (I_edge _ _ HI); auto].
      rewrite U1. apply Nat.eqb_neq in Hne. rewrite Nat.eqb_sym, Hne. lia.
  - intros J0. apply Habs. intros ->. pose proof (parent_lt s S0). lia.
  - change (cls q) with (cls (P c j)). split; [|lia]. intros _.
    change (ncl q) with (ncl (P c j) - 1). destruct (I_ncl _ _ HI j Hj) as [Hn _]. rewrite (Hn Hj1).
    unfold nabs. rewrite (W_N _ _ _ _ _ _ HW).
    rewrite (cnt_change (fun k => negb (absb c k)) (fun k => negb (absb c' k)) (children (NP c) j) s).
    + assert (absb c s = false) as -> by (unfold absb; rewrite Su; cbn; rewrite andb_false_r; auto).
      assert (absb c' s = true) as -> by (unfold absb; destruct (HU s) as (-> & -> & ->); rewrite Hcls, Hs2, Su, St, Sf, Nat.eqb_refl; reflexivity).
      cbn. lia.
    + apply ch_nodup.
    + apply ch_spec. auto.
    + intros y _ Hy. rewrite Habs; auto.
  - intros Hf. apply (I_g2 _ _ HI); auto.
  - intros sd. unfold mass. change (cls q) with (cls (P c j)). rewrite Hj1. destruct sd; cbn; lia.
  - intros Hall. apply (Hall j Hj).
  - intros H3. apply (I_T _ _ HI). exists j. auto.
Qed.

Lemma is_child_self N j : is_child N j j = false.
Proof.
  destruct (is_child N j j) eqn:E; auto. apply is_child_spec in E. destruct E as (H0 & _ & HP). pose proof (parent_lt j H0). lia.
Qed.

(* j answers b to its children, which wait for it with nothing on their edges *)
Lemma answered c c' g' j q xs b :
  Wave c c' j q xs (fwd (NP c) j b) -> Forall (fun x => dst x = j) xs -> (forall k, cnt (upfrom k) xs = 0) ->
  cls q = (if b then 3 else 1) ->
  (forall k, (0 < k < NP c)%nat -> parent k = j -> cls (P c k) = 2 /\ cnts c k 0 0 0 /\ gf g' k = false) ->
  (forall k, (0 < k < NP c)%nat -> parent k = j -> Edge c' g' k) /\ nabs c' j = nch (NP c) j.
Proof.
  intros HW Hxs Hup Hq Hch. rewrite Forall_forall in Hxs.
  assert (Hc : forall k, (0 < k < NP c)%nat -> parent k = j ->
            cls (P c' k) = 2 /\ cnts c' k 0 (if b then 1 else 0) (if b then 0 else 1)).
  { intros k Hk KP. destruct (Hch k Hk KP) as (A & (B1 & B2 & B3) & _).
    assert (Hne : (k =? j)%nat = false) by (apply Nat.eqb_neq; pose proof (parent_lt k); lia).
    assert (Ec : is_child (NP c) j k = true) by (apply is_child_spec; lia).
    assert (Hd : forall b', cnt (downto b' k) xs = 0).
    { intros b'. apply cnt_all_false. intros x Hx. unfold downto. rewrite (Hxs x Hx), Nat.eqb_sym, Hne. reflexivity. }
    split; [rewrite (W_P _ _ _ _ _ _ HW), Hne; exact A|].
    unfold cnts, upc, dT, dF in *. rewrite !(W_cnt _ _ _ _ _ _ HW), Hup, !Hd, B1, B2, B3, upfrom_fwd, !down_fwd, Ec. destruct b; cbn; auto. }
  split.
  - intros k Hk KP. destruct (Hc k Hk KP) as (A & B). destruct (Hch k Hk KP) as (_ & _ & C).
    assert (Hpk : cls (P c' (parent k)) = if b then 3 else 1) by (rewrite KP, (W_P _ _ _ _ _ _ HW), Nat.eqb_refl; auto).
    destruct b; [apply Ph_dT|apply Ph_dF]; auto; lia.
  - unfold nabs. rewrite (W_N _ _ _ _ _ _ HW), (cnt_ext_in _ (fun _ => true)); [rewrite cnt_const_true; reflexivity|].
    intros k Hk. apply ch_spec in Hk. destruct (Hc k) as (_ & (_ & T & F)); [lia|tauto|].
    unfold absb. rewrite T, F. destruct b; cbn; rewrite ?andb_false_r; auto.
Qed.

(* A DOWN message is handled: j leaves the wait for its parent (terminated, or collecting
   for the next wave), and the same answer is on its way to each of its children. *)
Lemma inv_down c g d1 d2 s j b : Inv c g -> dlyq c = d1 ++ (s, j, DOWN b) :: d2 -> (j < NP c)%nat ->
  st (P c j) <> NR ->
  Inv (mkC (lset (procs c) j (down_p b (P c j))) (net c ++ fwd (NP c) j b) (d1 ++ d2)) g.
Proof.
  intros HI Hd Hj Hnr. set (x := (s, j, DOWN b)) in *. set (q := down_p b (P c j)).
  set (c' := mkC (lset (procs c) j q) (net c ++ fwd (NP c) j b) (d1 ++ d2)).
  assert (HW : Wave c c' j q [x] (fwd (NP c) j b)) by (apply (wave_mk c j q d1 [x] d2); auto).
  pose proof (in_dlyq_pool c _ _ _ Hd) as Hin.
  destruct (down_in_pool c g s j b HI Hin) as (J0 & Hj2 & Jg & (Ju & Jt & Jf) & Jpar).
  pose proof (parent_lt j ltac:(lia)) as Jlt.
  assert (Hquiet : b = true -> forall k, (k < NP c)%nat -> quietw (P c k)).
  { intros ->. apply (I_T _ _ HI). exists (parent j). split; [lia|auto]. }
  destruct (down_p_ok g j b (P c j) (loc_ok_P c g j HI Hj) Hj2 (fun Hb => Hquiet Hb j Hj) Jg) as (HRq & Hclq & Hnclq & Hqq & Haccq).
  fold q in HRq, Hclq, Hnclq, Hqq, Haccq. clearbody q.
  assert (Hcls : forall k, cls (P c' k) = if (k =? j)%nat then (if b then 3 else 1) else cls (P c k)).
  { intros k. rewrite (W_P _ _ _ _ _ _ HW). destruct (k =? j)%nat; auto. }
  (* x has gone from the edge above j *)
  assert (Hcj : cnts c' j 0 0 0).
  { unfold cnts, upc, dT, dF in *. rewrite !(W_cnt _ _ _ _ _ _ HW). unfold x. autorewrite with wcnt.
    rewrite Ju, Jt, Jf, is_child_self, Nat.eqb_refl. destruct b; cbn; auto. }
  (* the children of j wait for this answer *)
  destruct (answered c c' g j q [x] b HW) as (Hce & Hnabs); auto.
  { intros k. apply cnt_up_down. }
  { intros k Hk KP. destruct (edge_par2_inv c g k (I_edge _ _ HI k Hk)) as (A & B & C); [rewrite KP; auto|]. rewrite KP, Jg in C. auto. }
  apply (inv_wave c c' g g j q [x] (fwd (NP c) j b)); auto using gstep_refl, fwd_wave.
  - intros ->. lia.
  - intros k Hk [->|KP]; [|auto].
    assert (Hpj : cls (P c' (parent j)) = cls (P c (parent j))).
    { rewrite Hcls. destruct (parent j =? j)%nat eqn:E; [apply Nat.eqb_eq in E; clear - E Jlt; lia|auto]. }
    destruct b; [apply Ph_term|apply Ph_collect]; rewrite ?Hpj, ?Hcls, ?Nat.eqb_refl; auto; lia.
  - intros _. unfold absb. rewrite Hcls, Nat.eqb_refl, Hj2, Ju, Jt, Jf. destruct b; reflexivity.
  - rewrite Hclq, Hnclq, Hnabs. split; [|destruct b; discriminate]. intros _. apply (I_ncl _ _ HI j Hj). auto.
  - intros Hf. congruence.
  - intros sd. rewrite psum_fwd. unfold mass. rewrite Hclq, Hj2. destruct b; cbn; [lia|].
    destruct (Haccq eq_refl) as [A B]. destruct sd; cbn; lia.
  - intros H3. rewrite Hclq in H3. destruct b; [auto|discriminate].
Qed.
