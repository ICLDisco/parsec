(* C11: the obligation on the CALL SITES of the detector.  The theorems of
   Term4CProofs / Term4CBound are about the disciplined environment of
   Term4CDefs.step: every application message is counted sent exactly once
   (outgoing_message_start) and received exactly once (incoming_message_end once
   per incoming_message_start).  The module cannot enforce this; the
   communication layer must.  Here, the lemmas for C11_double_count_refuted
   (Properties_C11.v): if ONE message is counted received twice, a system that
   is idle for ever never declares termination (liveness is lost;
   parsec/remote_dep_mpi.c, remote_dep_release_incoming is the call site). *)
From PV Require Import Base.Tac Base.ListX Term4C.Term4CDefs Term4C.Term4CBase Term4C.Term4CMicro Term4C.Term4CInv
  Term4C.Term4CProofs Term4C.Term4CLive Term4C.Term4CBound.
Local Open Scope Z_scope.

(* the communication layer calls incoming_message_end at i once more for a message that is already counted *)
Definition dup_end (c : cfg) (i : nat) : cfg :=
  mkC (lset (procs c) i (set_recv (P c i) (recv (P c i) + 1))) (net c) (dlyq c).

(* two processes, one message from 0 to 1, everybody finishes *)
Definition one_message : list action :=
  [AActs 0 1; AActs 1 1; AReady 0; AReady 1; ASend 0 1; ARecvStart 1; ARecvEnd 1; AActs 1 (-1); AActs 0 (-1)].
Definition c_ok : cfg := run (init 2) one_message.
Definition c_dup : cfg := dup_end c_ok 1.

(* the configurations the overcounted system can be in *)
Definition dup_states : list cfg :=
  [c_dup;
   run c_dup [ADeliver 1 0];
   run c_dup [ADeliver 1 0; ADeliver 0 1];
   run c_dup [ADeliver 1 0; ADeliver 0 1; ADeliver 1 0];
   run c_dup [ADeliver 1 0; ADeliver 0 1; ADeliver 1 0; ADeliver 0 1]].

Lemma dup_states_quiescent c : In c dup_states -> NP c = 2%nat /\ quiescent 2 c.
Proof.
  intros H. unfold dup_states in H. cbn [In] in H.
  repeat (destruct H as [<-|H]; [split; [reflexivity|intros [|[|j]] Hj; try lia; vm_compute; repeat split; auto]|]).
  destruct H.
Qed.

(* i and j are ranks 0 or 1: a pair that is out of range, or whose channel is empty, is refuted by
   evaluating its guard; for the others the next configuration is computed and looked up in [dup_states] *)
Ltac deliver_cases i j Hj Ht :=
  destruct i as [|[|i]]; destruct j as [|[|j]]; try (vm_compute in Hj; lia); try (vm_compute in Ht; discriminate);
  vm_compute; repeat (try (left; reflexivity); right).

Lemma dup_states_deliver c i j m rest : In c dup_states -> (j < NP c)%nat -> take_first i j (net c) = Some (m, rest) ->
  In (step c (ADeliver i j)) dup_states.
Proof.
  intros Hin Hj Ht. unfold dup_states in Hin. cbn [In] in Hin.
  destruct Hin as [<-|[<-|[<-|[<-|[<-|[]]]]]].
  - deliver_cases i j Hj Ht.
  - deliver_cases i j Hj Ht.
  - deliver_cases i j Hj Ht.
  - deliver_cases i j Hj Ht.
  - deliver_cases i j Hj Ht.
Qed.

Lemma dup_states_closed c a : In c dup_states -> In (step c a) dup_states.
Proof.
  intros Hin. destruct (dup_states_quiescent c Hin) as [HN Hq].
  destruct (quiescent_only_deliveries 2 c a HN Hq) as [E|(i & j & m & rest & E & Hj & Ht)]; [rewrite E; auto|].
  subst a. eapply dup_states_deliver; eauto.
Qed.

Lemma dup_run sched : forall c, In c dup_states -> In (run c sched) dup_states.
Proof. induction sched as [|a l IH]; intros c H; unfold run in *; cbn [fold_left]; auto. apply IH. apply dup_states_closed. auto. Qed.

Lemma dup_states_not_term c j : In c dup_states -> st (P c j) <> TERM.
Proof.
  intros H. unfold dup_states in H. cbn [In] in H.
  repeat (destruct H as [<-|H]; [destruct j as [|[|[|j]]]; vm_compute; discriminate|]).
  destruct H.
Qed.
