(* Lists, bounded sums, the binary tree of ranks: lemmas shared by the C11 proofs. *)
From PV Require Import Base.Tac Base.ListX Term4C.Term4CDefs.
Local Open Scope Z_scope.

Lemma lset_length {A} (l : list A) i q : (i < length l)%nat -> length (lset l i q) = length l.
Proof.
  intros H. unfold lset. rewrite app_length, firstn_length_le by lia. cbn [length].
  rewrite skipn_length. lia.
Qed.
Lemma nth_lset_eq {A} (l : list A) i q d : (i < length l)%nat -> nth i (lset l i q) d = q.
Proof.
  intros H. unfold lset. rewrite app_nth2; rewrite firstn_length_le by lia; [|lia].
  rewrite Nat.sub_diag. reflexivity.
Qed.
Lemma nth_lset_ne {A} (l : list A) i j q d : (i < length l)%nat -> j <> i -> nth j (lset l i q) d = nth j l d.
Proof.
  intros H Hne. unfold lset.
  destruct (Nat.lt_ge_cases j i) as [Hlt|Hge].
  - rewrite app_nth1 by (rewrite firstn_length_le; lia).
    rewrite <- (firstn_skipn i l) at 2. rewrite app_nth1 by (rewrite firstn_length_le; lia). reflexivity.
  - rewrite app_nth2; rewrite firstn_length_le by lia; [|lia].
    destruct (j - i)%nat as [|k] eqn:E; [lia|]. cbn [nth].
    rewrite <- (firstn_skipn (S i) l) at 2.
    rewrite app_nth2; rewrite firstn_length_le by lia; [|lia].
    f_equal. lia.
Qed.
Lemma lset_lset {A} (l : list A) i q r : (i < length l)%nat -> lset (lset l i q) i r = lset l i r.
Proof.
  revert i; induction l as [|x l IH]; intros [|i] H; cbn in H; try lia; [reflexivity|].
  specialize (IH i ltac:(lia)). unfold lset in *. cbn [firstn skipn app] in *.
  change (x :: firstn i l ++ q :: skipn (S i) l) with (x :: (firstn i l ++ q :: skipn (S i) l)).
  cbn [firstn skipn app]. f_equal. exact IH.
Qed.
Lemma nth_repeat_p0 n i : nth i (repeat p0 n) p0 = p0.
Proof. revert i; induction n; intros [|i]; cbn; auto. Qed.

Fixpoint bsum (n : nat) (f : nat -> Z) : Z :=
  match n with O => 0 | S k => bsum k f + f k end.

Lemma bsum_ext n f g : (forall i, (i < n)%nat -> f i = g i) -> bsum n f = bsum n g.
Proof. induction n; intros H; cbn; [reflexivity|]. rewrite IHn, H by (intros; auto with arith); auto. Qed.
Lemma bsum_add n f g : bsum n (fun i => f i + g i) = bsum n f + bsum n g.
Proof. induction n; cbn; lia. Qed.
Lemma bsum_sub n f g : bsum n (fun i => f i - g i) = bsum n f - bsum n g.
Proof. induction n; cbn; lia. Qed.
Lemma bsum_zero n : bsum n (fun _ => 0) = 0.
Proof. induction n; cbn; lia. Qed.
Lemma bsum_le n f g : (forall i, (i < n)%nat -> f i <= g i) -> bsum n f <= bsum n g.
Proof. induction n; intros H; cbn; [lia|]. pose proof (H n ltac:(lia)). assert (bsum n f <= bsum n g) by (apply IHn; intros; apply H; lia). lia. Qed.
Lemma bsum_nonneg n f : (forall i, (i < n)%nat -> 0 <= f i) -> 0 <= bsum n f.
Proof. intros H. rewrite <- (bsum_zero n). apply bsum_le. auto. Qed.
Lemma bsum_le_eq n f g : (forall i, (i < n)%nat -> f i <= g i) -> bsum n f = bsum n g ->
  forall i, (i < n)%nat -> f i = g i.
Proof.
  induction n; intros Hle Heq i Hi; [lia|]. cbn in Heq.
  assert (H1 : bsum n f <= bsum n g) by (apply bsum_le; intros; apply Hle; lia).
  pose proof (Hle n ltac:(lia)).
  destruct (Nat.eq_dec i n) as [->|Hne]; [lia|].
  apply IHn; [intros; apply Hle; lia|lia|lia].
Qed.
Lemma bsum_zero_all n f : (forall i, (i < n)%nat -> 0 <= f i) -> bsum n f = 0 -> forall i, (i < n)%nat -> f i = 0.
Proof.
  intros Hnn H0 i Hi. symmetry. apply (bsum_le_eq n (fun _ => 0) f); auto. rewrite bsum_zero. lia.
Qed.
Lemma bsum_upd n f g i : (i < n)%nat -> (forall k, (k < n)%nat -> k <> i -> g k = f k) ->
  bsum n g = bsum n f - f i + g i.
Proof.
  induction n; intros Hi H; [lia|]. cbn.
  destruct (Nat.eq_dec i n) as [->|Hne].
  - rewrite (bsum_ext n g f) by (intros; apply H; lia). lia.
  - rewrite IHn by (try lia; intros; apply H; lia). rewrite (H n) by lia. lia.
Qed.
Lemma sumf_bsum f l : sumf f l = bsum (length l) (fun i => f (nth i l p0)).
Proof.
  induction l as [|p l IH] using rev_ind; [reflexivity|].
  assert (Hs : forall l1 l2, sumf f (l1 ++ l2) = sumf f l1 + sumf f l2).
  { induction l1; intros; cbn; [lia|]. rewrite IHl1. lia. }
  rewrite Hs, app_length, Nat.add_1_r. cbn [bsum sumf length].
  rewrite app_nth2, Nat.sub_diag by lia. cbn [nth].
  rewrite IH. rewrite (bsum_ext (length l) (fun i => f (nth i (l ++ [p]) p0)) (fun i => f (nth i l p0))); [lia|].
  intros i Hi. rewrite app_nth1 by lia. reflexivity.
Qed.

Fixpoint psum (w : pkt -> Z) (l : list pkt) : Z :=
  match l with [] => 0 | x :: r => w x + psum w r end.
Lemma psum_app w a b : psum w (a ++ b) = psum w a + psum w b.
Proof. induction a; cbn; lia. Qed.
Lemma psum_zero w l : (forall x, In x l -> w x = 0) -> psum w l = 0.
Proof. induction l; intros H; cbn; [reflexivity|]. rewrite H, IHl by (try left; auto; intros; apply H; right; auto). lia. Qed.

Lemma cnt_zero_none {A} (f : A -> bool) l : cnt f l = 0 -> forall x, In x l -> f x = false.
Proof.
  induction l as [|y l IH]; intros H x Hin; [destruct Hin|]. rewrite cnt_cons in H.
  pose proof (cnt_nonneg f l). destruct Hin as [->|Hin].
  - destruct (f x); [lia|reflexivity].
  - apply IH; auto. destruct (f y); lia.
Qed.
Lemma cnt_pos_in {A} (f : A -> bool) l x : In x l -> f x = true -> 1 <= cnt f l.
Proof.
  intros Hin Hf. destruct (Z_le_gt_dec 1 (cnt f l)); auto.
  pose proof (cnt_nonneg f l). assert (cnt f l = 0) by lia.
  rewrite (cnt_zero_none f l H0 x Hin) in Hf. discriminate.
Qed.
Lemma cnt_ext_in {A} (f g : A -> bool) l : (forall x, In x l -> f x = g x) -> cnt f l = cnt g l.
Proof.
  induction l as [|y l IH]; intros H; [reflexivity|]. rewrite !cnt_cons, IH, (H y) by (try left; auto; intros; apply H; right; auto). reflexivity.
Qed.
Lemma cnt_const_true {A} (l : list A) : cnt (fun _ => true) l = Z.of_nat (length l).
Proof. induction l; [reflexivity|]. rewrite cnt_cons. cbn [length]. lia. Qed.
Lemma cnt_const_false {A} (l : list A) : cnt (fun _ => false) l = 0.
Proof. induction l; [reflexivity|]. rewrite cnt_cons. lia. Qed.
Lemma cnt_change {A} (f g : A -> bool) l x : NoDup l -> In x l ->
  (forall y, In y l -> y <> x -> g y = f y) ->
  cnt g l = cnt f l - (if f x then 1 else 0) + (if g x then 1 else 0).
Proof.
  induction l as [|y l IH]; intros Hnd Hin H; [destruct Hin|].
  inversion Hnd as [|? ? Hni Hnd']; subst. rewrite !cnt_cons. destruct Hin as [->|Hin].
  - rewrite (cnt_ext_in g f l); [lia|]. intros z Hz. apply H; [right; auto|]. intros ->. contradiction.
  - rewrite IH by (auto; intros; apply H; auto; right; auto).
    rewrite (H y) by (try left; auto; intros ->; contradiction). lia.
Qed.

Lemma parent_iff k i : (k <> 0 -> parent k = i <-> k = 2*i+1 \/ k = 2*i+2)%nat.
Proof.
  intros H0. unfold parent. split.
  - intros Hp. pose proof (Nat.div_mod (k-1) 2 ltac:(lia)) as Hd.
    pose proof (Nat.mod_upper_bound (k-1) 2 ltac:(lia)). rewrite Hp in Hd. lia.
  - intros [->| ->].
    + replace (2*i+1-1)%nat with (i*2)%nat by lia. apply Nat.div_mul. lia.
    + replace (2*i+2-1)%nat with (1 + i*2)%nat by lia. rewrite Nat.div_add by lia. reflexivity.
Qed.
Lemma ch_spec N i k : In k (children N i) <-> (k <> 0 /\ k < N /\ parent k = i)%nat.
Proof.
  assert (Hin : In k (children N i) <-> (k < N /\ (k = 2*i+1 \/ k = 2*i+2))%nat).
  { unfold children. destruct (2*i+2 <? N)%nat eqn:E2; [|destruct (2*i+1 <? N)%nat eqn:E1]; cbn [In];
      rewrite ?Nat.ltb_lt, ?Nat.ltb_ge in *; lia. }
  rewrite Hin. split.
  - intros (Hn & Hk). split; [lia|split; [lia|apply parent_iff; [lia|exact Hk]]].
  - intros (H0 & Hn & Hp). apply (parent_iff k i H0) in Hp. tauto.
Qed.
Lemma ch_nodup N i : NoDup (children N i).
Proof.
  unfold children. destruct (2*i+2 <? N)%nat; [|destruct (2*i+1 <? N)%nat]; repeat constructor; cbn; try tauto; lia.
Qed.
Lemma parent_lt k : (k <> 0 -> parent k < k)%nat.
Proof. intros H. unfold parent. apply Nat.div_lt_upper_bound; lia. Qed.
Lemma nch_nonneg N i : 0 <= nch N i. Proof. unfold nch. lia. Qed.
Lemma nch_root N : (2 <= N)%nat -> 1 <= nch N 0.
Proof. intros H. destruct N as [|[|[|N]]]; try lia; unfold nch, children; cbn; lia. Qed.
Lemma nch_zero_no_children N i : nch N i = 0 -> children N i = [].
Proof. unfold nch. destruct (children N i); cbn; [auto|lia]. Qed.
Lemma children_root1 : children 1 0 = []. Proof. reflexivity. Qed.

(* counting over the forwarded DOWN messages *)
Lemma cnt_map_children {B} (g : nat -> B) (f : B -> bool) (h : nat -> bool) N i :
  (forall k, f (g k) = h k) -> cnt f (map g (children N i)) = cnt h (children N i).
Proof. intros H. induction (children N i) as [|k l IH]; [reflexivity|]. cbn [map]. rewrite !cnt_cons, IH, H. reflexivity. Qed.
Definition is_child (N j k : nat) : bool := negb (k =? 0)%nat && (k <? N)%nat && (parent k =? j)%nat.
Lemma is_child_spec N j k : is_child N j k = true <-> (k <> 0 /\ k < N /\ parent k = j)%nat.
Proof. unfold is_child. rewrite !andb_true_iff, negb_true_iff, Nat.eqb_neq, Nat.ltb_lt, Nat.eqb_eq. tauto. Qed.
Lemma cnt_eqb_children N i k : cnt (fun x => (x =? k)%nat) (children N i) = if is_child N i k then 1 else 0.
Proof.
  destruct (is_child N i k) eqn:E.
  - rewrite (cnt_change (fun _ => false) _ _ k (ch_nodup N i)).
    + rewrite cnt_const_false, Nat.eqb_refl. reflexivity.
    + apply ch_spec, is_child_spec, E.
    + intros y _ Hy. apply Nat.eqb_neq. exact Hy.
  - rewrite (cnt_ext_in _ (fun _ => false)); [apply cnt_const_false|].
    intros x Hx. apply Nat.eqb_neq. intros ->. apply ch_spec, is_child_spec in Hx. congruence.
Qed.
