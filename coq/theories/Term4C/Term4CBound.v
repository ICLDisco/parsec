(* C11, liveness: in a globally quiescent configuration every micro-step
   decreases a potential bounded by three waves plus the pending messages. *)
From PV Require Import Base.Tac Base.ListX Term4C.Term4CDefs Term4C.Term4CBase Term4C.Term4CMicro Term4C.Term4CInv
  Term4C.Term4CStruct Term4C.Term4CContrib Term4C.Term4CProofs Term4C.Term4CLive.
Local Open Scope Z_scope.

(* the reports of the wave in progress / of the last decided wave equal the present counters *)
Definition fresh_cur (c : cfg) (g : ghost) : bool :=
  forallb (fun k => implb (gf g k) ((cur_s g k =? sent (P c k)) && (cur_r g k =? recv (P c k)))) (seq 0 (NP c)).
Definition fresh_dc (c : cfg) (g : ghost) : bool :=
  gd g && forallb (fun k => (dc_s g k =? sent (P c k)) && (dc_r g k =? recv (P c k))) (seq 0 (NP c)).
(* decisions the root still has to take *)
Definition W (c : cfg) (g : ghost) : Z :=
  if cls (P c 0) =? 3 then 0 else if fresh_cur c g then (if fresh_dc c g then 1 else 2) else 3.
Definition edgepot (c : cfg) (g : ghost) (k : nat) : Z :=
  if (k =? 0)%nat then 0 else (if gf g k then 0 else 7) + (if cls (P c k) =? 2 then 4 else 0).
(* A message in the network weighs 2 and a delayed one 1: handing it to the module moves it from
   the one to the other.  An edge whose lower end has not reported weighs 7, one whose lower end
   waits for the answer 4: a report turns 7 into 4 and one message, an answer that is handled
   gives up the 4 and the delayed message for at most two copies.  A decision of the root opens
   every edge and sends at most two messages, which one unit of W, 7 N + 5, outweighs. *)
Definition Phi (c : cfg) (g : ghost) : Z :=
  (7 * Z.of_nat (NP c) + 5) * W c g + bsum (NP c) (edgepot c g)
  + 2 * Z.of_nat (length (net c)) + Z.of_nat (length (dlyq c)).

Lemma W_range c g : 0 <= W c g <= 3.
Proof. unfold W. destruct (cls (P c 0) =? 3), (fresh_cur c g), (fresh_dc c g); lia. Qed.
Lemma edgepot_range c g k : 0 <= edgepot c g k <= 11.
Proof. unfold edgepot. destruct (k =? 0)%nat, (gf g k), (cls (P c k) =? 2); lia. Qed.
Lemma Phi_nonneg c g : 0 <= Phi c g.
Proof.
  unfold Phi. pose proof (W_range c g). assert (0 <= bsum (NP c) (edgepot c g)) by (apply bsum_nonneg; intros; apply edgepot_range). nia.
Qed.
Lemma bsum_const_le n f b : (forall k, (k < n)%nat -> f k <= b) -> bsum n f <= b * Z.of_nat n.
Proof. induction n; intros H; cbn [bsum]; [lia|]. pose proof (H n ltac:(lia)). assert (bsum n f <= b * Z.of_nat n) by (apply IHn; intros; apply H; lia). lia. Qed.
Lemma Phi_bound c g : Phi c g <= 32 * Z.of_nat (NP c) + 15 + 2 * Z.of_nat (length (net c)) + Z.of_nat (length (dlyq c)).
Proof.
  unfold Phi. pose proof (W_range c g).
  assert (bsum (NP c) (edgepot c g) <= 11 * Z.of_nat (NP c)) by (apply bsum_const_le; intros; apply edgepot_range). nia.
Qed.

Lemma forallb_seq_ext f h n : (forall k, (k < n)%nat -> f k = h k) -> forallb f (seq 0 n) = forallb h (seq 0 n).
Proof.
  intros H. assert (forall l, (forall k, In k l -> f k = h k) -> forallb f l = forallb h l).
  { induction l; intros Hl; cbn; auto. rewrite Hl, IHl by (try left; auto; intros; apply Hl; right; auto). auto. }
  apply H0. intros k Hk. apply in_seq in Hk. apply H. lia.
Qed.
Lemma forallb_seq_true f n : forallb f (seq 0 n) = true <-> forall k, (k < n)%nat -> f k = true.
Proof. rewrite forallb_forall. split; intros H k Hk; apply H; [apply in_seq; lia|apply in_seq in Hk; lia]. Qed.

(* W only looks at the class of the root, the message counters and the ghost *)
Lemma W_same c c' g : NP c' = NP c -> cls (P c' 0) = cls (P c 0) ->
  (forall k, (k < NP c)%nat -> sent (P c' k) = sent (P c k) /\ recv (P c' k) = recv (P c k)) -> W c' g = W c g.
Proof.
  intros HN H0 Hs. unfold W, fresh_cur, fresh_dc. rewrite HN, H0.
  rewrite (forallb_seq_ext _ (fun k => implb (gf g k) ((cur_s g k =? sent (P c k)) && (cur_r g k =? recv (P c k))))) by (intros k Hk; destruct (Hs k Hk) as [-> ->]; auto).
  rewrite (forallb_seq_ext (fun k => (dc_s g k =? sent (P c' k)) && _) (fun k => (dc_s g k =? sent (P c k)) && (dc_r g k =? recv (P c k)))) by (intros k Hk; destruct (Hs k Hk) as [-> ->]; auto).
  reflexivity.
Qed.

Lemma children_len N i : (length (children N i) <= 2)%nat.
Proof. unfold children. destruct (2*i+2 <? N)%nat; [|destruct (2*i+1 <? N)%nat]; cbn; lia. Qed.
Lemma fwd_len N j b : (length (fwd N j b) <= 2)%nat.
Proof. unfold fwd. rewrite map_length. apply children_len. Qed.

Lemma W_le c c' g g' : cls (P c' 0) = cls (P c 0) ->
  (fresh_cur c g = true -> fresh_cur c' g' = true) -> fresh_dc c' g' = fresh_dc c g -> W c' g' <= W c g.
Proof.
  intros H0 H1 H2. unfold W. rewrite H0, H2. destruct (cls (P c 0) =? 3); [lia|].
  destruct (fresh_cur c g); [rewrite H1 by auto; lia|]. destruct (fresh_cur c' g'), (fresh_dc c g); lia.
Qed.

(* one process takes a step that leaves its message counters, and the class of the root, as they are *)
Lemma W_local c g j q nt dq : (j < NP c)%nat -> sent q = sent (P c j) -> recv q = recv (P c j) ->
  (j = 0%nat -> cls q = cls (P c 0)) -> W (mkC (lset (procs c) j q) nt dq) g = W c g.
Proof.
  intros Hj Hs Hr H0. apply W_same.
  - apply lset_length; auto.
  - rewrite P_lset by auto. destruct (0 =? j)%nat eqn:E; [apply Nat.eqb_eq in E; auto|reflexivity].
  - intros k _. rewrite P_lset by auto. destruct (k =? j)%nat eqn:E; [apply Nat.eqb_eq in E; subst k; auto|auto].
Qed.

Lemma Phi_local c g g' j q nt dq : (j < NP c)%nat ->
  let c' := mkC (lset (procs c) j q) nt dq in
  W c' g' <= W c g -> (forall k, k <> j -> gf g' k = gf g k) ->
  edgepot c' g' j + 2 * Z.of_nat (length nt) + Z.of_nat (length dq) + 1
    <= edgepot c g j + 2 * Z.of_nat (length (net c)) + Z.of_nat (length (dlyq c)) ->
  Phi c' g' + 1 <= Phi c g.
Proof.
  intros Hj c' HW Hg Hd.
  assert (HN : NP c' = NP c) by (apply lset_length; auto).
  assert (HE : bsum (NP c) (edgepot c' g') = bsum (NP c) (edgepot c g) - edgepot c g j + edgepot c' g' j).
  { apply (bsum_upd (NP c) (edgepot c g) (edgepot c' g') j Hj). intros k Hk Hne. unfold edgepot, c'. rewrite P_lset, Hg by auto.
    apply Nat.eqb_neq in Hne. rewrite Hne. reflexivity. }
  unfold Phi. rewrite HN, HE. change (net c') with nt. change (dlyq c') with dq.
  assert ((7 * Z.of_nat (NP c) + 5) * W c' g' <= (7 * Z.of_nat (NP c) + 5) * W c g) by (apply Z.mul_le_mono_nonneg_l; lia).
  lia.
Qed.

Lemma bsum_nonroot_const n (v : Z) : (1 <= n)%nat -> bsum n (fun k => if (k =? 0)%nat then 0 else v) = v * (Z.of_nat n - 1).
Proof.
  intros H. induction n as [|n IH]; [lia|]. cbn [bsum]. destruct n as [|n]; [cbn; lia|].
  rewrite IH by lia. cbn [Nat.eqb]. lia.
Qed.

(* The root decides.  If it says no, one decision fewer remains: the wave just closed becomes the
   last decided one; had both waves already agreed with the present counters, their sums would
   be equal to each other and to sent = received, and the root would have said yes. *)
Lemma W_decide c c' g g' (res : bool) : NP c' = NP c ->
  cls (P c 0) = 1 -> cls (P c' 0) = (if res then 3 else 1) ->
  (forall k, gf g' k = false) -> gd g' = true ->
  (forall k, (k < NP c)%nat -> sent (P c' k) = sent (P c k) /\ recv (P c' k) = recv (P c k)) ->
  (fresh_cur c g = true -> forall k, (k < NP c)%nat -> dc_s g' k = sent (P c k) /\ dc_r g' k = recv (P c k)) ->
  (fresh_cur c g = true -> fresh_dc c g = true -> res = true) ->
  W c' g' + 1 <= W c g.
Proof.
  intros HN H1 H1' Hgf Hgd Hsr Hdc Hres. unfold W. rewrite H1, H1'.
  destruct res; [cbn; destruct (fresh_cur c g), (fresh_dc c g); lia|]. cbn [Z.eqb Pos.eqb].
  assert (fresh_cur c' g' = true) as ->.
  { unfold fresh_cur. apply forallb_seq_true. intros k Hk. rewrite Hgf. reflexivity. }
  destruct (fresh_cur c g); [|destruct (fresh_dc c' g'); lia].
  assert (fresh_dc c' g' = true) as ->.
  { unfold fresh_dc. rewrite Hgd, HN. cbn [andb]. apply forallb_seq_true. intros k Hk.
    destruct (Hdc eq_refl k Hk) as [-> ->]. destruct (Hsr k Hk) as [-> ->]. rewrite !Z.eqb_refl. reflexivity. }
  destruct (fresh_dc c g); [|lia]. discriminate (Hres eq_refl eq_refl).
Qed.

(* nothing in flight: as many messages counted received as sent *)
Lemma allq_sent_recv c g : Inv c g -> allq c ->
  bsum (NP c) (fun k => sent (P c k)) = bsum (NP c) (fun k => recv (P c k)).
Proof.
  intros HI Hq. pose proof (I_cons _ _ HI) as Hc.
  rewrite (bsum_ext (NP c) (fun i => infl (P c i)) (fun _ => 0)), (bsum_ext (NP c) (fun i => inproc (P c i)) (fun _ => 0)), bsum_zero in Hc;
    try (intros k Hk; apply (Hq k Hk)). lia.
Qed.

Lemma phi_root c g : Inv c g -> allq c -> idle0 (P c 0) = true -> st (P c 0) = IWC -> ncl (P c 0) = 0 ->
  let c' := mkC (lset (procs c) 0 (fst (send_up (NP c) 0 (P c 0)))) (net c ++ snd (send_up (NP c) 0 (P c 0))) (dlyq c) in
  exists g', Inv c' g' /\ Phi c' g' + 1 <= Phi c g.
Proof.
  intros HI Hq Hid Hs Hn c'. pose proof (I_N _ _ HI) as HN1.
  eexists. split; [exact (inv_contrib_root c g HI Hid Hs Hn)|]. set (g' := mkG _ _ _ _ _ _ _).
  assert (H0N : (0 < NP c)%nat) by lia.
  assert (Hc1 : cls (P c 0) = 1) by (unfold cls; rewrite Hs; reflexivity).
  destruct (root_wave c g HI Hc1 Hn) as (Hall & _ & (G5 & G6) & _).
  assert (G4 : forall k, (0 < k < NP c)%nat -> gf g k = true) by (intros k Hk; apply (Hall k Hk)).
  destruct (send_up_root (NP c) (P c 0) (loc_ok_P c g 0%nat HI H0N) Hs) as (Hout & _ & (Q1 & Q2 & _) & _ & Q3 & _).
  set (s' := acc_s (P c 0) + sent (P c 0)) in *. set (r' := acc_r (P c 0) + recv (P c 0)) in *.
  set (res := if nch (NP c) 0 =? 0 then true else (last_s (P c 0) =? s') && (last_r (P c 0) =? r') && (s' =? r')) in *.
  assert (HN : NP c' = NP c) by (apply lset_length; exact H0N).
  assert (HP : forall k, P c' k = if (k =? 0)%nat then fst (send_up (NP c) 0 (P c 0)) else P c k)
    by (intros; unfold c'; rewrite P_lset by exact H0N; reflexivity).
  assert (Hsr : forall k, (k < NP c)%nat -> sent (P c' k) = sent (P c k) /\ recv (P c' k) = recv (P c k)).
  { intros k Hk. rewrite HP. destruct k; auto. }
  (* if the wave in progress agrees with the present counters, so does the decided wave it becomes *)
  assert (Hdc : fresh_cur c g = true -> forall k, (k < NP c)%nat -> dc_s g' k = sent (P c k) /\ dc_r g' k = recv (P c k)).
  { intros Hfc k Hk. unfold g'. cbn [dc_s dc_r]. destruct k; [auto|].
    pose proof (proj1 (forallb_seq_true _ _) Hfc (S k) Hk) as Hf. cbv beta in Hf. rewrite (G4 (S k) (conj (Nat.lt_0_succ k) Hk)) in Hf.
    apply andb_true_iff in Hf. destruct Hf as [A B]. apply Z.eqb_eq in A, B. auto. }
  assert (HW : W c' g' + 1 <= W c g).
  { refine (W_decide c c' g g' res HN Hc1 _ (fun _ => eq_refl) eq_refl Hsr Hdc _); [rewrite HP; exact Q3|].
    intros Hfc Hfd. apply andb_true_iff in Hfd. destruct Hfd as [Egd Hfd].
    destruct (I_g7 _ _ HI) as [G7 _]. destruct (G7 Egd) as [L1 L2]. clear G7.
    assert (S1 : bsum (NP c) (dc_s g) = bsum (NP c) (fun k => sent (P c k)) /\ bsum (NP c) (dc_r g) = bsum (NP c) (fun k => recv (P c k))).
    { split; apply bsum_ext; intros k Hk; pose proof (proj1 (forallb_seq_true _ _) Hfd k Hk) as Hf; cbv beta in Hf;
        apply andb_true_iff in Hf; destruct Hf as [A B]; apply Z.eqb_eq in A, B; auto. }
    assert (S3 : bsum (NP c) (dc_s g') = bsum (NP c) (fun k => sent (P c k)) /\ bsum (NP c) (dc_r g') = bsum (NP c) (fun k => recv (P c k))).
    { split; apply bsum_ext; intros k Hk; apply (Hdc Hfc k Hk). }
    pose proof (allq_sent_recv c g HI Hq) as Hcons.
    destruct S1 as [S1 S2]. destruct S3 as [S3 S4].
    assert (E1 : last_s (P c 0) = s') by (rewrite L1, S1, <- S3; exact G5).
    assert (E2 : last_r (P c 0) = r') by (rewrite L2, S2, <- S4; exact G6).
    assert (E3 : s' = r') by (rewrite <- E1, <- E2, L1, L2, S1, S2; exact Hcons).
    unfold res. destruct (nch (NP c) 0 =? 0); [reflexivity|]. rewrite E1, E2, <- E3, !Z.eqb_refl. reflexivity. }
  (* every edge is open again: the rest of the potential grows by 7 (N - 1), and by the messages sent *)
  clearbody res s' r'.
  assert (HE : bsum (NP c) (edgepot c' g') = bsum (NP c) (edgepot c g) + 7 * (Z.of_nat (NP c) - 1)).
  { rewrite <- (bsum_nonroot_const (NP c) 7) by exact HN1. rewrite <- bsum_add. apply bsum_ext. intros k Hk.
    unfold edgepot. destruct k; [reflexivity|]. cbn [Nat.eqb]. change (gf g' (S k)) with false. rewrite (G4 (S k) (conj (Nat.lt_0_succ k) Hk)), HP. cbn [Nat.eqb]. lia. }
  assert (Hnet : net c' = net c ++ fwd (NP c) 0 res) by (unfold c'; cbn [net]; rewrite Hout; reflexivity).
  unfold Phi. rewrite HN, HE, Hnet, app_length. change (dlyq c') with (dlyq c).
  pose proof (fwd_len (NP c) 0 res).
  assert ((7 * Z.of_nat (NP c) + 5) * (W c' g' + 1) <= (7 * Z.of_nat (NP c) + 5) * W c g) by (apply Z.mul_le_mono_nonneg_l; lia).
  lia.
Qed.

Lemma phi_mstep c c' g : Inv c g -> allq c -> mstep c c' -> exists g', Inv c' g' /\ Phi c' g' + 1 <= Phi c g.
Proof.
  intros HI Hq [Hw|Ht]; [destruct (allq_no_wstep c c' Hq Hw)|]. pose proof (I_N _ _ HI) as HN1.
  destruct Ht as [i Hi Hid Hs Hn|l1 pk l2 Hnet|d1 d2 s j a b Hd Hj Hnr|d1 d2 s j b Hd Hj Hnr].
  - (* a report *)
    destruct (Nat.eq_dec i 0) as [->|Hne]; [apply phi_root; auto|].
    destruct (inv_contrib_nonroot c g i HI Hi Hne Hid Hs Hn) as [HI' G0].
    exists (report_g g i (P c i)). split; [exact HI'|]. clear HI'. rewrite (send_up_nonroot _ _ _ Hne). cbn [fst snd].
    set (q := set_st _ IWP).
    assert (HN : forall nt dq, NP (mkC (lset (procs c) i q) nt dq) = NP c) by (intros; apply lset_length; auto).
    apply (Phi_local c g _ i q); auto.
    + apply W_le.
      * rewrite P_lset by auto. apply Nat.eqb_neq in Hne. rewrite Nat.eqb_sym, Hne. reflexivity.
      * unfold fresh_cur. rewrite HN, !forallb_seq_true. intros Hf k Hk. specialize (Hf k Hk).
        rewrite P_lset by auto. cbn [gf cur_s cur_r report_g]. destruct (k =? i)%nat; [|exact Hf].
        cbn. rewrite !Z.eqb_refl. reflexivity.
      * unfold fresh_dc. rewrite HN. cbn [gd dc_s dc_r report_g]. f_equal. apply forallb_seq_ext. intros k Hk.
        rewrite P_lset by auto. destruct (k =? i)%nat eqn:E; [apply Nat.eqb_eq in E; subst k|]; reflexivity.
    + intros k Hk. apply Nat.eqb_neq in Hk. cbn [gf report_g]. rewrite Hk. reflexivity.
    + unfold edgepot. rewrite P_lset, Nat.eqb_refl by auto. cbn [gf report_g]. rewrite Nat.eqb_refl.
      apply Nat.eqb_neq in Hne. rewrite Hne, G0.
      unfold cls at 2. rewrite Hs. change (cls q) with 2. cbn [Z.eqb Pos.eqb]. rewrite app_length. cbn [length]. lia.
  - (* a message is handed to the module *)
    exists g. split; [apply inv_delay; auto|].
    assert (E1 : W (mkC (procs c) (l1 ++ l2) (dlyq c ++ [pk])) g = W c g) by (apply W_same; auto).
    unfold Phi. rewrite E1. change (NP (mkC (procs c) (l1 ++ l2) (dlyq c ++ [pk]))) with (NP c).
    change (bsum (NP c) (edgepot (mkC (procs c) (l1 ++ l2) (dlyq c ++ [pk])) g)) with (bsum (NP c) (edgepot c g)).
    cbn [net dlyq]. rewrite Hnet, !app_length. cbn [length]. lia.
  - (* UP absorbed: one message fewer *)
    exists g. split; [eapply inv_up; eauto|].
    apply (Phi_local c g g j); auto.
    + rewrite W_local; [lia|auto|reflexivity|reflexivity|intros ->; reflexivity].
    + unfold edgepot. rewrite P_lset, Nat.eqb_refl by auto. change (cls (up_p (P c j) a b)) with (cls (P c j)).
      rewrite Hd, !app_length. cbn [length]. lia.
  - (* DOWN handled: j stops waiting for its parent; at most two messages for the one that goes *)
    exists g. split; [eapply inv_down; eauto|].
    pose proof (in_dlyq_pool c _ _ _ Hd) as Hin.
    destruct (down_in_pool c g s j b HI Hin) as (J0 & Hj2 & Hg & _).
    destruct (down_p_ok g j b (P c j) (loc_ok_P c g j HI Hj) Hj2 (fun _ => Hq j Hj) Hg) as ((_ & (E1 & E2 & _) & _) & Hcl & _).
    apply (Phi_local c g g j); auto.
    + rewrite W_local; [lia|auto|exact E1|exact E2|intros ->; lia].
    + unfold edgepot. rewrite P_lset, Nat.eqb_refl by auto. rewrite Hcl, Hj2.
      rewrite Hd, !app_length. cbn [length]. pose proof (fwd_len (NP c) j b).
      destruct (j =? 0)%nat eqn:E0; [apply Nat.eqb_eq in E0; lia|]. destruct b; cbn [Z.eqb Pos.eqb]; lia.
Qed.

Lemma allq_mstep c c' g : Inv c g -> allq c -> mstep c c' -> allq c'.
Proof. intros HI Hq Hm j Hj. rewrite (NP_mstep _ _ Hm) in Hj. apply (quiet_mstep c c' g); auto. Qed.

Lemma phi_msteps c c' : msteps c c' -> forall g, Inv c g -> allq c ->
  exists g', Inv c' g' /\ allq c' /\ Phi c' g' <= Phi c g.
Proof.
  induction 1; intros g HI Hq; [exists g; split; [exact HI|split; [exact Hq|lia]]|].
  destruct (phi_mstep _ _ _ HI Hq H) as (g1 & HI1 & Hp1). pose proof (allq_mstep _ _ _ HI Hq H) as Hq1.
  destruct (IHmsteps g1 HI1 Hq1) as (g2 & HI2 & Hq2 & Hp2). exists g2. split; [exact HI2|split; [exact Hq2|lia]].
Qed.

(* a sequence of deliveries of messages that are in the network *)
Inductive deliveries : cfg -> list action -> Prop :=
| D_nil c : deliveries c []
| D_cons c i j m rest l : (j < NP c)%nat -> take_first i j (net c) = Some (m, rest) ->
    deliveries (step c (ADeliver i j)) l -> deliveries c (ADeliver i j :: l).

Lemma deliveries_len c l : deliveries c l -> forall g, Inv c g -> allq c -> Z.of_nat (length l) <= Phi c g.
Proof.
  induction 1; intros g HI Hq; [cbn; apply Phi_nonneg|].
  destruct (deliver_first c i j m rest H H0) as (c1 & Hm & Hms).
  destruct (phi_mstep _ _ _ HI Hq Hm) as (g1 & HI1 & Hp1). pose proof (allq_mstep _ _ _ HI Hq Hm) as Hq1.
  destruct (phi_msteps _ _ Hms g1 HI1 Hq1) as (g2 & HI2 & Hq2 & Hp2).
  specialize (IHdeliveries g2 HI2 Hq2). cbn [length]. lia.
Qed.

(* the delayed list only holds messages for processes that are not ready *)
Definition dly_ok (c : cfg) : Prop := forall x, In x (dlyq c) -> st (P c (dst x)) = NR.

Lemma ready_loop_kept N i : forall q p x, In x (snd (fst (ready_loop N i p q))) -> In x q /\ dst x <> i.
Proof.
  induction q as [|[[s d] m] q IH]; intros p x Hx; cbn [ready_loop] in Hx; [destruct Hx|].
  destruct (d =? i)%nat eqn:E.
  - destruct (dispatch_tp N i p m) as [p1 o1]. specialize (IH p1 x).
    destruct (ready_loop N i p1 q) as [[p2 k] o2]. cbn [fst snd] in *. destruct (IH Hx). split; [right|]; auto.
  - specialize (IH p x). destruct (ready_loop N i p q) as [[p2 k] o2]. cbn [fst snd] in *.
    destruct Hx as [<-|Hx]; [split; [left; auto|unfold dst; cbn; apply Nat.eqb_neq; auto]|]. destruct (IH Hx). split; [right|]; auto.
Qed.

Lemma wl_keeps_nr N i p : st p = NR -> st (fst (wl_changed N i p)) = NR.
Proof. intros H. unfold wl_changed. rewrite H. destruct (idle0 p); auto. Qed.

Lemma nr_stable c a k : st (P c k) = NR -> a <> AReady k -> st (P (step c a) k) = NR.
Proof.
  intros Hs.
  destruct (step_cases c a) as [a|i Hi _|a w i v chk _ Hi _ _ _ _|i j Hi Hj _ _|i Hi _ Hc|i Hi _|i j m rest Hj _]; intros Ha; auto.
  - destruct (ready_loop _ _ _ _) as [[p2 kk] o]. rewrite P_lset by auto. destruct (k =? i)%nat eqn:Ek; auto. apply Nat.eqb_eq in Ek. congruence.
  - rewrite P_local by auto. destruct (k =? i)%nat eqn:Ek; auto. apply Nat.eqb_eq in Ek. subst k.
    destruct chk; [apply wl_keeps_nr|]; destruct w; exact Hs.
  - rewrite !P_setp by (rewrite ?NP_setp; auto).
    destruct (k =? j)%nat eqn:Ekj; [apply Nat.eqb_eq in Ekj; subst k; exact Hs|].
    destruct (k =? i)%nat eqn:Eki; [apply Nat.eqb_eq in Eki; subst k; exact Hs|auto].
  - rewrite P_setp by auto. destruct (k =? i)%nat eqn:Ek; auto. apply Nat.eqb_eq in Ek. subst k. unfold can_recv in Hc. rewrite Hs in Hc. discriminate.
  - rewrite P_setp by auto. destruct (k =? i)%nat eqn:Ek; auto. apply Nat.eqb_eq in Ek. subst k. exact Hs.
  - destruct (st (P c j)) eqn:Es; auto; rewrite P_lset by auto; destruct (k =? j)%nat eqn:Ek; auto; apply Nat.eqb_eq in Ek; subst k; congruence.
Qed.

Lemma dly_ok_step c a : dly_ok c -> dly_ok (step c a).
Proof.
  intros Hd x. pose proof (fun k => nr_stable c a k) as Hgen. revert Hgen.
  destruct (step_cases c a) as [a|i Hi _|a w i v chk El _ _ _ _ _|i j _ _ _ _|i _ _ _|i _ _|i j m rest Hj _]; intros Hgen Hx;
    try (apply Hgen; [apply Hd; exact Hx|try (intros ->); discriminate]).
  - apply Hd; exact Hx.
  - (* ready: what stays in the list is for the others *)
    pose proof (ready_loop_kept (NP c) i (dlyq c) (set_st (set_ncl (P c i) (nch (NP c) i)) BWC) x) as Hk.
    destruct (ready_loop _ _ _ _) as [[p2 kk] o]. cbn [fst snd dlyq] in *. destruct (Hk Hx) as [Hin Hne].
    rewrite P_lset by auto. apply Nat.eqb_neq in Hne. rewrite Hne. apply Hd. auto.
  - (* deliver: what joins the list is for a process that is not ready *)
    destruct (st (P c j)) eqn:Es; try (apply Hgen; [apply Hd; exact Hx|discriminate]).
    cbn [dlyq] in Hx. apply in_app_iff in Hx. destruct Hx as [Hx|[<-|[]]]; [apply Hd; exact Hx|exact Es].
Qed.

Lemma reach_dly_ok N c : reach N c -> dly_ok c.
Proof.
  intros (sched & ->). assert (H : forall l c0, dly_ok c0 -> dly_ok (run c0 l)).
  { induction l; intros c0 H0; cbn; auto. apply IHl. apply dly_ok_step. auto. }
  apply H. intros x Hx. destruct Hx.
Qed.

Definition lbound (N : nat) (c : cfg) : nat := (32 * N + 15 + 2 * length (net c) + length (dlyq c))%nat.

Lemma quiescent_no_delayed N c : (1 <= N)%nat -> reach N c -> quiescent N c -> dlyq c = [].
Proof.
  intros HN Hr Hq. destruct (reach_inv N c HN Hr) as (HNP & g & HI). pose proof (reach_dly_ok N c Hr) as Hd.
  destruct (dlyq c) as [|x r] eqn:E; auto. exfalso.
  assert (Hin : In x (pool c)) by (unfold pool; rewrite E; apply in_or_app; right; left; auto).
  assert (Hx : In x (dlyq c)) by (rewrite E; left; auto). specialize (Hd x Hx).
  pose proof (pkt_ok_dst _ _ (I_pkt _ _ HI x Hin)) as Hlt. rewrite HNP in Hlt.
  destruct (Hq (dst x) Hlt) as ([A|[A|A]] & _); congruence.
Qed.

Theorem liveness N c l : (1 <= N)%nat -> reach N c -> quiescent N c -> deliveries c l ->
  (length l <= lbound N c)%nat /\ quiescent N (run c l) /\
  (net (run c l) = [] -> forall j, (j < N)%nat -> st (P (run c l) j) = TERM).
Proof.
  intros HN Hr Hq Hd. destruct (reach_inv N c HN Hr) as (HNP & g & HI).
  pose proof (quiescent_allq N c HNP Hq) as Ha.
  pose proof (deliveries_len c l Hd g HI Ha) as Hlen. pose proof (Phi_bound c g) as Hb. rewrite HNP in Hb.
  pose proof (quiescence_stable N c l HN Hr Hq) as Hq'. pose proof (reach_run N c l Hr) as Hr'.
  split; [unfold lbound; lia|]. split; [exact Hq'|].
  intros Hnet. apply (no_deadlock N); auto. apply (quiescent_no_delayed N); auto.
Qed.

(* the schedule that always delivers the oldest control message *)
Lemma drain_spec N : (1 <= N)%nat -> forall fuel c, reach N c ->
  exists l, deliveries c l /\ drain fuel c = run c l /\ (length l = fuel \/ net (run c l) = []).
Proof.
  intros HN. induction fuel as [|f IH]; intros c Hr; [exists []; repeat split; auto; constructor|].
  cbn [drain]. destruct (net c) as [|[[s d] m] r] eqn:En; [exists []; repeat split; auto; constructor|].
  destruct (reach_inv N c HN Hr) as (HNP & g & HI).
  assert (Hin : In (s, d, m) (pool c)) by (unfold pool; rewrite En; left; auto).
  pose proof (pkt_ok_dst _ _ (I_pkt _ _ HI _ Hin)) as Hlt. change (d < NP c)%nat in Hlt.
  destruct (IH (step c (ADeliver s d)) (reach_step N c _ Hr)) as (l & Hd & He & Hl).
  exists (ADeliver s d :: l). split; [|split].
  - apply (D_cons c s d m r); auto. rewrite En. cbn. rewrite !Nat.eqb_refl. reflexivity.
  - exact He.
  - cbn [length run fold_left] in *. destruct Hl; [left; lia|right; auto].
Qed.

(* in a quiescent configuration the only choices that change anything are deliveries of pending control messages *)
Lemma quiescent_only_deliveries N c a : NP c = N -> quiescent N c ->
  step c a = c \/ exists i j m rest, a = ADeliver i j /\ (j < NP c)%nat /\ take_first i j (net c) = Some (m, rest).
Proof.
  intros HN Hq. pose proof (allq_no_wstep c) as Hno. specialize (fun c' => Hno c' (quiescent_allq N c HN Hq)).
  destruct (step_cases c a) as [a|i Hi Hs|a w i v chk _ Hi Hml Hv _ Hchk|i j Hi Hj Hne Hb|i Hi Hf Hc|i Hi Hp|i j m rest Hj Ht];
    [left; reflexivity| | | | | |right; exists i, j, m, rest; auto]; exfalso.
  - exact (Hno _ (M_ready c i Hi Hs)).
  - exact (Hno _ (M_load c w i v true Hi Hml Hv ltac:(discriminate))).
  - exact (Hno _ (M_send c i j Hi Hj Hne Hb)).
  - exact (Hno _ (M_rstart c i Hi Hf Hc)).
  - exact (Hno _ (M_rend c i Hi Hp)).
Qed.

Lemma run_as_deliveries N : (1 <= N)%nat -> forall sched c, reach N c -> quiescent N c ->
  exists l, deliveries c l /\ run c sched = run c l /\ (length l <= length sched)%nat.
Proof.
  intros HN. induction sched as [|a s IH]; intros c Hr Hq; [exists []; repeat split; auto; constructor|].
  destruct (reach_inv N c HN Hr) as (HNP & _).
  destruct (quiescent_only_deliveries N c a HNP Hq) as [Hno|(i & j & m & rest & -> & Hj & Ht)].
  - destruct (IH c Hr Hq) as (l & Hd & He & Hl). exists l. cbn [run fold_left length]. rewrite Hno. repeat split; auto.
  - assert (Hq1 : quiescent N (step c (ADeliver i j))) by (apply (quiescence_stable N c [ADeliver i j]); auto).
    destruct (IH _ (reach_step N c _ Hr) Hq1) as (l & Hd & He & Hl).
    exists (ADeliver i j :: l). split; [apply (D_cons c i j m rest); auto|]. cbn [run fold_left length] in *. split; [auto|lia].
Qed.
