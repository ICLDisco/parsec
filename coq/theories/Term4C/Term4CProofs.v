(* C11: the invariant holds in every reachable configuration; from it conservation,
   safety and where DOWN messages go; the counters only grow; global quiescence is
   kept by every micro-step.  Properties_C11.v derives the remaining statements. *)
From PV Require Import Base.Tac Base.ListX Term4C.Term4CDefs Term4C.Term4CBase Term4C.Term4CMicro Term4C.Term4CInv
  Term4C.Term4CStruct Term4C.Term4CContrib.
Local Open Scope Z_scope.

Lemma inv_mstep c c' g : Inv c g -> mstep c c' -> exists g', Inv c' g'.
Proof.
  intros HI [Hw|Ht].
  - exists g. pose proof (loc_ok_P c g) as Hl. pose proof (hyp5_P c g) as H5.
    destruct Hw as [| |i Hi Hid Hs| |i Hi Hf Hc|i Hi Hp]; [apply inv_ready|apply inv_load| |apply inv_send| |]; auto; apply inv_setp; auto.
    + apply idle_p; auto.
    + apply rstart_p_ok; auto.
    + apply rend_p_ok; auto. intros Hg. destruct (I_g2 _ _ HI i Hi Hg). lia.
  - destruct Ht as [i Hi Hid Hs Hn| | |].
    + destruct (Nat.eq_dec i 0) as [->|Hne].
      * eexists. exact (inv_contrib_root c g HI Hid Hs Hn).
      * exists (report_g g i (P c i)). apply (inv_contrib_nonroot c g i HI Hi Hne Hid Hs Hn).
    + exists g. apply inv_delay; auto.
    + exists g. eapply inv_up; eauto.
    + exists g. eapply inv_down; eauto.
Qed.

Lemma inv_msteps c c' : msteps c c' -> forall g, Inv c g -> exists g', Inv c' g'.
Proof.
  induction 1; intros g HI; [eauto|]. destruct (inv_mstep _ _ _ HI H) as [g1 H1]. eauto.
Qed.

Definition g_init : ghost := mkG (fun _ => 0) (fun _ => 0) (fun _ => 0) (fun _ => 0) (fun _ => false) (fun _ => p0) false.

Lemma P_init N i : P (init N) i = p0.
Proof. unfold P, init. cbn. apply nth_repeat_p0. Qed.
Lemma NP_init N : NP (init N) = N.
Proof. unfold NP, init. cbn. apply repeat_length. Qed.

Lemma inv_init N : (1 <= N)%nat -> Inv (init N) g_init.
Proof.
  intros HN.
  assert (Hz : forall f : proc -> Z, f p0 = 0 -> bsum N (fun i => f (P (init N) i)) = 0).
  { intros f Hf. rewrite (bsum_ext _ _ (fun _ => 0)); [apply bsum_zero|]. intros. rewrite P_init. auto. }
  constructor; [constructor|..]; rewrite ?NP_init.
  - auto.
  - intros i Hi. rewrite P_init. unfold loc_ok. cbn. repeat split; try lia; intros; discriminate.
  - rewrite P_init. cbn. split; [lia|auto].
  - intros x Hx. destruct Hx.
  - intros k Hk. apply Ph_collect; rewrite ?P_init; cbn; try lia; auto. unfold cnts, upc, dT, dF, pool. cbn. auto.
  - intros i Hi. rewrite P_init. cbn. split; intros; lia.
  - rewrite !Hz; auto.
  - intros (i & Hi & H3). rewrite P_init in H3. cbn in H3. lia.
  - intros _. rewrite P_init. cbn. auto.
  - intros i Hi. rewrite P_init. cbn. lia.
  - intros i Hi Hf. discriminate.
  - cbn. split; [rewrite !bsum_zero; lia|intros; cbn; lia].
  - intros Hf. discriminate.
  - intros i Hi Hf. discriminate.
  - intros sd. rewrite Hz by (destruct sd; reflexivity). unfold pool. cbn. rewrite bsum_zero. reflexivity.
  - rewrite P_init. cbn. split; [discriminate|auto].
  - intros Hq. destruct (Hq 0%nat ltac:(lia)) as (Hb & _). discriminate.
Qed.

Theorem reach_inv N c : (1 <= N)%nat -> reach N c -> NP c = N /\ exists g, Inv c g.
Proof.
  intros HN (sched & ->). pose proof (run_msteps (init N) sched) as Hms. split.
  - rewrite (NP_msteps _ _ Hms). apply NP_init.
  - apply (inv_msteps _ _ Hms g_init). apply inv_init; auto.
Qed.

Lemma quietw_quiet_p c g i : Inv c g -> (i < NP c)%nat -> quietw (P c i) -> quiet_p (P c i).
Proof.
  intros HI Hi (Hb & Hf & Hp). destruct (I_loc _ _ HI i Hi) as (_ & _ & _ & _ & Hz & _). destruct (Hz Hb).
  unfold quiet_p. repeat split; auto. unfold busy_or_nr in Hb. destruct (st (P c i)); try discriminate; auto.
Qed.

Theorem conservation N sched : (1 <= N)%nat ->
  let c := run (init N) sched in total_sent c = total_recv c + total_flight c.
Proof.
  intros HN c. destruct (reach_inv N c HN) as (HNP & g & HI); [exists sched; reflexivity|].
  pose proof (I_cons _ _ HI) as Hc. unfold total_sent, total_recv, total_flight. rewrite !sumf_bsum. fold (NP c). unfold P in Hc. lia.
Qed.

Theorem safety N sched : (1 <= N)%nat ->
  let c := run (init N) sched in
  (exists i, (i < N)%nat /\ st (P c i) = TERM) ->
  (forall j, (j < N)%nat -> quiet_p (P c j)) /\ total_sent c = total_recv c /\ total_flight c = 0.
Proof.
  intros HN c (i & Hi & Ht).
  destruct (reach_inv N c HN) as (HNP & g & HI); [exists sched; reflexivity|].
  assert (Hq : forall j, (j < NP c)%nat -> quietw (P c j)).
  { apply (I_T _ _ HI). exists i. rewrite HNP. split; auto. unfold cls. rewrite Ht. reflexivity. }
  assert (Hfl : total_flight c = 0).
  { unfold total_flight. rewrite !sumf_bsum. fold (NP c).
    rewrite (bsum_ext _ _ (fun _ => 0)), (bsum_ext _ (fun i => inproc _) (fun _ => 0)); [rewrite bsum_zero; lia| |];
      intros j Hj; apply (Hq j Hj). }
  split; [|split; auto].
  - intros j Hj. apply (quietw_quiet_p c g); auto; rewrite ?HNP; auto. apply Hq. lia.
  - pose proof (conservation N sched HN) as Hc. cbv zeta in Hc. fold c in Hc. lia.
Qed.

(* a DOWN message exists only for a process that waits for its parent; DOWN(true) only for an idle one *)
Theorem down_only_to_waiting N sched s j b : (1 <= N)%nat ->
  let c := run (init N) sched in
  In (s, j, DOWN b) (net c ++ dlyq c) ->
  (j < N)%nat /\ (st (P c j) = BWP \/ st (P c j) = IWP) /\ (b = true -> st (P c j) = IWP).
Proof.
  intros HN c Hin. destruct (reach_inv N c HN) as (HNP & g & HI); [exists sched; reflexivity|].
  destruct (down_in_pool c g s j b HI Hin) as ((J0 & JN) & H2 & _ & _ & H3). split; [lia|]. split.
  - unfold cls in H2. destruct (st (P c j)); try lia; auto.
  - intros ->. pose proof (parent_lt j ltac:(lia)).
    assert (Hq : quietw (P c j)).
    { apply (I_T _ _ HI); [|lia]. exists (parent j). split; [lia|auto]. }
    destruct Hq as (Hq & _). unfold cls in H2. unfold busy_or_nr in Hq. destruct (st (P c j)); try lia; try discriminate; auto.
Qed.

(* the module itself never touches the two counters: only a sending and the end of a receipt do *)
Lemma busyfix_counters q : sent (busyfix q) = sent q /\ recv (busyfix q) = recv q.
Proof. unfold busyfix. destruct (idle0 q), (st q); auto. Qed.
Lemma send_up_counters N i p : sent (fst (send_up N i p)) = sent p /\ recv (fst (send_up N i p)) = recv p.
Proof. unfold send_up. destruct i; [destruct (if nch N 0 =? 0 then true else _)|]; auto. Qed.

Lemma mstep_monotone c c' : mstep c c' -> forall j, sent (P c j) <= sent (P c' j) /\ recv (P c j) <= recv (P c' j).
Proof.
  assert (Hone : forall c i q nt dq j, (i < NP c)%nat -> sent (P c i) <= sent q /\ recv (P c i) <= recv q ->
            sent (P c j) <= sent (P (mkC (lset (procs c) i q) nt dq) j) /\ recv (P c j) <= recv (P (mkC (lset (procs c) i q) nt dq) j)).
  { intros c0 i q nt dq j Hi Hq. rewrite P_lset by auto. destruct (j =? i)%nat eqn:E; [apply Nat.eqb_eq in E; subst j; exact Hq|unfold P; lia]. }
  intros [Hw|Ht] j.
  - destruct Hw as [i Hi _|w i v fx Hi _ _ _|i Hi _ _|i k Hi Hk Hne _|i Hi _ _|i Hi _]; try apply (Hone c i _ (net c) (dlyq c) j Hi).
    + cbn. lia.
    + destruct (busyfix_counters (set_wl w (P c i) v)) as [E1 E2]. destruct fx; rewrite ?E1, ?E2; destruct w; cbn; lia.
    + cbn. lia.
    + destruct (Hone c i (set_sent (P c i) (sent (P c i) + 1)) (net c) (dlyq c) j Hi) as [A B]; [cbn; lia|].
      destruct (Hone (setp c i (set_sent (P c i) (sent (P c i) + 1))) k (set_infl (P c k) (infl (P c k) + 1)) (net c) (dlyq c) j) as [A' B'].
      * rewrite NP_setp; auto.
      * rewrite P_setp by auto. apply Nat.eqb_neq in Hne. rewrite Nat.eqb_sym, Hne. cbn. lia.
      * unfold setp in *. cbn [procs net dlyq] in *. lia.
    + unfold rstart_p. destruct (st _); cbn; lia.
    + cbn. lia.
  - destruct Ht as [i Hi _ _ _| |d1 d2 s i a b _ Hi _|d1 d2 s i b _ Hi _]; try apply (Hone c i _ _ _ j Hi).
    + destruct (send_up_counters (NP c) i (P c i)) as [-> ->]. lia.
    + unfold P. cbn [procs]. lia.
    + cbn. lia.
    + destruct b; cbn; lia.
Qed.

Lemma msteps_monotone c c' : msteps c c' -> forall j, sent (P c j) <= sent (P c' j) /\ recv (P c j) <= recv (P c' j).
Proof.
  induction 1; intros j; [lia|]. destruct (mstep_monotone _ _ H j). destruct (IHmsteps j). lia.
Qed.

Definition allq (c : cfg) : Prop := forall j, (j < NP c)%nat -> quietw (P c j).

Lemma allq_no_wstep c c' : allq c -> wstep c c' -> False.
Proof.
  intros Hq Hw.
  destruct Hw as [i Hi Hs|w i v fx Hi Hml|i Hi _ Hs|i j Hi _ _ Hb|i Hi Hf|i Hi Hp]; destruct (Hq i Hi) as (Hb' & Hf' & Hp').
  - unfold busy_or_nr in Hb'. rewrite Hs in Hb'. discriminate.
  - unfold may_load in Hml. rewrite Hb', Hp' in Hml. discriminate.
  - unfold busy_or_nr in Hb'. destruct Hs as [Hs|Hs]; rewrite Hs in Hb'; discriminate.
  - unfold is_busy, busy_or_nr in *. destruct (st (P c i)); discriminate.
  - lia.
  - lia.
Qed.

Lemma quiet_mstep c c' g : Inv c g -> allq c -> mstep c c' -> forall j, (j < NP c)%nat -> quietw (P c' j).
Proof.
  intros HI Hq [Hw|Ht] j Hj; [destruct (allq_no_wstep c c' Hq Hw)|].
  destruct Ht as [i Hi _ Hs _| |d1 d2 s j0 a b _ Hj0 _|d1 d2 s j0 b Hd Hj0 _]; try (apply Hq; exact Hj);
    rewrite P_lset by (unfold NP in *; auto); destruct (j =? _)%nat eqn:E; try (apply Hq; exact Hj); apply Nat.eqb_eq in E; subst j.
  - destruct (Hq i Hi) as (Hb & Hf & Hp). unfold quietw, send_up, busy_or_nr in *.
    destruct i; cbn; repeat match goal with |- context[if ?b then _ else _] => destruct b eqn:? end; cbn; rewrite ?Hs; auto.
  - apply (Hq j0 Hj).
  - pose proof (in_dlyq_pool c _ _ _ Hd) as Hin.
    destruct (down_in_pool c g s j0 b HI Hin) as (_ & H2 & Hg & _).
    apply (down_p_ok g j0 b (P c j0) (loc_ok_P c g j0 HI Hj) H2 (fun _ => Hq j0 Hj) Hg). apply (Hq j0 Hj).
Qed.

Lemma quiet_msteps c c' : msteps c c' -> forall g, Inv c g -> (forall j, (j < NP c)%nat -> quietw (P c j)) ->
  forall j, (j < NP c)%nat -> quietw (P c' j).
Proof.
  induction 1; intros g HI Hq; auto.
  destruct (inv_mstep _ _ _ HI H) as [g1 H1]. pose proof (NP_mstep _ _ H) as HN.
  intros j Hj. rewrite <- HN in Hj. apply (IHmsteps g1 H1); auto. intros k Hk. rewrite HN in Hk. apply (quiet_mstep c c1 g); auto.
Qed.
