(* Bounded waiting of the read-write lock model under fair rounds.

   rho c t ranks how far writer t (holding a ticket, not yet inside) is from
   entering: (3N+8) per ticket before its own, plus the progress of the writer
   whose ticket is being served (the "gate"): not yet past the ticket wait,
   about to set its bits, draining the readers counted in its ticket (3 steps
   each at most), inside, clearing its bits, incrementing wout.  No step of any
   thread increases rho, and there is always a thread that can move and whose
   step decreases it; that thread stays so until it moves.  Hence every round
   that schedules each thread at least once decreases rho. *)
From PV Require Import Base.Tac Base.ListX RWLock.RWLockDefs RWLock.RWLockBase RWLock.RWLockInv
  RWLock.RWLockSafety RWLock.RWLockProgress RWLock.RWLockFair.
Local Open Scope Z_scope.

(* [lia] on [/] and [mod]: the lock words are residues mod 2^32 *)
Ltac Zify.zify_post_hook ::= Z.div_mod_to_equations.

Definition is_pwx (th : thr) : bool := match t_pc th with PWx => true | _ => false end.

(* steps an early reader still needs before it is counted in rout *)
Definition erem (wo : Z) (th : thr) : Z :=
  match t_pc th with PRw w => if w =? cur wo then 0 else 3 | PRcs => 2 | PRx => 1 | _ => 0 end.

Definition NN (c : cfg) : Z := Z.of_nat (length (thrs c)).

Definition gaten (n : Z) (c : cfg) : Z :=
  if 0 <? cnt is_wy (thrs c) then 1
  else if 0 <? cnt is_pwx (thrs c) then 2
  else if 0 <? cnt is_win (thrs c) then 3
  else if 0 <? cnt is_wr (thrs c) then 4 + sumz (erem (wout c)) (thrs c)
  else if 0 <? cnt is_w1 (thrs c) then 3 * n + 6
  else 3 * n + 7.
Definition gate (c : cfg) : Z := gaten (NN c) c.

Definition toff (c : cfg) (t : nat) : Z :=
  match nth_error (thrs c) t with Some th => off (wout c) th | None => 0 end.

Definition rho (c : cfg) (t : nat) : Z := (3 * NN c + 8) * toff c t + gate c.

(* writer t holds a ticket and has not entered yet *)
Definition is_ww (th : thr) : bool := match t_pc th with PWw _ | PW1 _ | PWr _ => true | _ => false end.
Definition waitingW (t : nat) (c : cfg) : Prop :=
  exists th, nth_error (thrs c) t = Some th /\ is_ww th = true.

(* the thread whose step moves the gate *)
Definition desig (c : cfg) (th : thr) : bool :=
  (is_A th && (off (wout c) th =? 0)) || ((0 <? cnt is_wr (thrs c)) && (0 <? erem (wout c) th)).

Lemma wset_partition l : cnt is_wset l = cnt is_wr l + cnt is_win l + cnt is_pwx l.
Proof.
  induction l as [|x l IH]; [reflexivity|]. rewrite !cnt_cons, IH.
  unfold is_wset, is_wr, is_win, is_pwx. destruct (t_pc x); lia.
Qed.

Lemma erem_bounds wo th : 0 <= erem wo th <= 3 /\ (0 < erem wo th <-> early wo th = true).
Proof.
  unfold erem, early. destruct (t_pc th); try (split; [lia|split; [lia|discriminate]]).
  - destruct (w =? cur wo); cbn [negb]; split; try lia; split; try lia; try discriminate; auto.
  - split; [lia|]. split; auto. lia.
  - split; [lia|]. split; auto. lia.
Qed.

Lemma erem_sum_le wo l : 0 <= sumz (erem wo) l <= 3 * cnt is_rfl l.
Proof.
  induction l as [|x l IH]; cbn [sumz]; [rewrite cnt_nil; lia|]. rewrite cnt_cons.
  pose proof (erem_bounds wo x) as [Hb _]. unfold erem, is_rfl in *. destruct (t_pc x); lia.
Qed.

Lemma erem_sum_zero wo l : cnt (early wo) l = 0 -> sumz (erem wo) l = 0.
Proof.
  induction l as [|x l IH]; cbn [sumz]; [reflexivity|]. rewrite cnt_cons. intros H.
  pose proof (cnt_nonneg (early wo) l). pose proof (erem_bounds wo x) as [Hb Hi].
  destruct (early wo x) eqn:E; [lia|]. rewrite IH by lia.
  destruct (Z.eq_dec (erem wo x) 0); [lia|]. assert (0 < erem wo x) by lia. apply Hi in H1. congruence.
Qed.

Lemma pwx_hold th : is_pwx th = true -> is_hold th = true.
Proof. unfold is_pwx, is_hold. destruct (t_pc th); auto. Qed.
Lemma win_hold th : is_win th = true -> is_hold th = true.
Proof. intros H. apply wset_hold, wcs_wset, win_wcs, H. Qed.

(* the gate is decided by the program counter of the writer past the ticket wait;
   s = steps the early readers still need *)
Definition gval (n s : Z) (p : pc) : Z :=
  match p with
  | PWy => 1 | PWx => 2 | PWcs => 3 | PWr _ => 4 + s | PW1 _ => 3 * n + 6 | _ => 3 * n + 7
  end.

Lemma gate_holder n c h hh : TInv c -> nth_error (thrs c) h = Some hh -> is_hold hh = true ->
  gaten n c = gval n (sumz (erem (wout c)) (thrs c)) (t_pc hh).
Proof.
  intros HT Hh Hhh. unfold gaten.
  rewrite (cnt_only_holder c h hh is_wy HT Hh Hhh wy_hold), (cnt_only_holder c h hh is_pwx HT Hh Hhh pwx_hold),
    (cnt_only_holder c h hh is_win HT Hh Hhh win_hold), (cnt_only_holder c h hh is_wr HT Hh Hhh wr_hold),
    (cnt_only_holder c h hh is_w1 HT Hh Hhh w1_hold).
  unfold is_hold in Hhh. unfold is_wy, is_pwx, is_win, is_wr, is_w1.
  destruct (t_pc hh); try discriminate; reflexivity.
Qed.

Lemma gate_free n c : cnt is_hold (thrs c) = 0 -> gaten n c = 3 * n + 7.
Proof.
  intros H0. unfold gaten.
  rewrite (cnt_zero_mono _ _ _ wy_hold H0), (cnt_zero_mono _ _ _ pwx_hold H0), (cnt_zero_mono _ _ _ win_hold H0),
    (cnt_zero_mono _ _ _ wr_hold H0), (cnt_zero_mono _ _ _ w1_hold H0).
  reflexivity.
Qed.

(* a step of a thread that is not past the ticket wait, and does not get past it, moves the gate
   only through the steps that thread still needs, and only while a writer is draining readers *)
Lemma gate_frame n c c' u uh q : TInv c -> TInv c' -> nth_error (thrs c) u = Some uh ->
  thrs c' = upd (thrs c) u q -> wout c' = wout c -> is_hold uh = false -> is_hold q = false ->
  gaten n c' = gaten n c +
    (if 0 <? cnt is_wr (thrs c) then erem (wout c) q - erem (wout c) uh else 0).
Proof.
  intros HT HT' Hu Hth Hwo Hnu Hnq. pose proof (cnt_nonneg is_hold (thrs c)) as Hnn.
  destruct (Z.eq_dec (cnt is_hold (thrs c)) 0) as [H0|Hpos].
  - rewrite (cnt_zero_mono _ _ _ wr_hold H0), (gate_free n c H0), (gate_free n c'); [apply Zplus_0_r_reverse|].
    rewrite Hth, (cnt_upd _ _ _ _ _ Hu), Hnu, Hnq. lia.
  - destruct (cnt_pos_ex is_hold (thrs c)) as (h & hh & Hh & Hhh); [lia|].
    assert (Hne : h <> u) by (intros ->; congruence).
    rewrite (cnt_only_holder c h hh is_wr HT Hh Hhh wr_hold), (gate_holder n c h hh HT Hh Hhh),
      (gate_holder n c' h hh HT'), Hwo, Hth, (sumz_upd _ _ _ _ _ Hu);
      [|rewrite Hth; rewrite (nth_upd_other _ _ _ _ _ Hu Hne); exact Hh|exact Hhh].
    unfold is_wr. destruct (t_pc hh); cbn [gval Z.ltb Z.compare]; lia.
Qed.

Lemma NN_step c u : NN (step c u) = NN c.
Proof. unfold NN. rewrite step_len. reflexivity. Qed.

(* the distance of t's ticket only changes when wout is incremented *)
Lemma toff_step c t u : Inv c -> waitingW t c ->
  (forall uh, nth_error (thrs c) u = Some uh -> t_pc uh <> PWy) -> toff (step c u) t = toff c t.
Proof.
  intros [Hlen HT HR] (th & Hn & Hw) Hny. unfold toff. rewrite Hn.
  destruct (Nat.eq_dec u t) as [->|Hne].
  - unfold step. rewrite Hn. unfold is_ww in Hw. unfold off.
    destruct (t_pc th) eqn:Hpc; try discriminate.
    + destruct (wout c =? tk); cbn [thrs wout]; [|rewrite Hn, Hpc; reflexivity].
      rewrite (nth_upd_same _ _ _ _ Hn). reflexivity.
    + pose proof (ti_thr c HT t th _ Hn Hpc) as W. cbn in W. subst tk. rewrite Z.sub_diag.
      destruct (rout c =? rin c); cbn [thrs wout]; rewrite (nth_upd_same _ _ _ _ Hn); reflexivity.
    + destruct (rout c =? tk); cbn [thrs wout]; [|rewrite Hn, Hpc; reflexivity].
      rewrite (nth_upd_same _ _ _ _ Hn). reflexivity.
  - rewrite (step_other c u t Hne), Hn.
    destruct (step_words c u (Build_Inv c Hlen HT HR)) as (_ & [E|(uh & Hu & Hpc)] & _).
    + rewrite E. reflexivity.
    + exfalso. apply (Hny uh Hu Hpc).
Qed.

Lemma toff_step_wy c t u uh : Inv c -> waitingW t c ->
  nth_error (thrs c) u = Some uh -> t_pc uh = PWy -> toff (step c u) t = toff c t - 1.
Proof.
  intros [Hlen HT HR] (th & Hn & Hw) Hu Hpc.
  assert (Hhu : is_hold uh = true) by (unfold is_hold; rewrite Hpc; reflexivity).
  assert (Hne : u <> t).
  { intros ->. rewrite Hn in Hu. inversion Hu; subst uh. unfold is_ww in Hw. rewrite Hpc in Hw. discriminate. }
  assert (HA : is_A th = true) by (unfold is_ww in Hw; unfold is_A; destruct (t_pc th); auto; discriminate).
  assert (H1 : 1 <= off (wout c) th).
  { pose proof (off_nonneg (wout c) th). destruct (Z.eq_dec (off (wout c) th) 0) as [E|E]; [|lia].
    exfalso. apply Hne. apply (ti_inj c HT u t uh th Hu Hn (hold_A _ Hhu) HA).
    rewrite (hold_off c u uh HT Hu Hhu). lia. }
  unfold toff. rewrite (step_other c u t Hne), Hn.
  assert (Hwo : wout (step c u) = wrap (wout c + 1)).
  { unfold step. rewrite Hu, Hpc. reflexivity. }
  rewrite Hwo. apply (off_dec (wout c) th HA H1).
Qed.

Lemma waiting_A t c : waitingW t c -> 0 < cnt is_A (thrs c).
Proof.
  intros (th & Hn & Hw). apply (cnt_pos_of_nth _ _ t th Hn).
  unfold is_ww in Hw. unfold is_A. destruct (t_pc th); auto; discriminate.
Qed.

(* while a writer is draining readers, rin's low bits are its bits *)
Lemma wr_bits c : RInv c -> 0 < cnt is_wr (thrs c) ->
  Z.land (rin c) WBITS = cur (wout c) /\ cur (wout c) <> 0 /\
  Z.land (wrap (rin c + RINC)) WBITS = cur (wout c).
Proof.
  intros HR Hpos. pose proof (ri_rng c HR) as [Hrin _]. pose proof (wrap_range (rin c + RINC)).
  pose proof (wset_partition (thrs c)). pose proof (cnt_nonneg is_win (thrs c)).
  pose proof (cnt_nonneg is_pwx (thrs c)). pose proof (cur_23 (wout c)).
  rewrite !land_wbits by lia.
  destruct (low_bits c HR) as [(E & _)|(_ & _ & E4)]; [lia|].
  repeat split; try lia. unfold wrap, RINC. lia.
Qed.

Lemma rho_step c t u : Inv c -> waitingW t c ->
  rho (step c u) t <= rho c t /\
  (forall uh, nth_error (thrs c) u = Some uh -> enabled c uh = true -> desig c uh = true ->
     rho (step c u) t < rho c t).
Proof.
  intros HI Hw. pose proof HI as [Hlen HT HR]. pose proof (step_inv c u HI) as [_ HT' _].
  destruct (nth_error (thrs c) u) as [uh|] eqn:Hu.
  2:{ unfold step. rewrite Hu. split; [lia|intros; discriminate]. }
  destruct (enabled c uh) eqn:He.
  2:{ rewrite (step_disabled c u uh Hu He). split; [lia|]. intros uh0 E. inversion E; subst uh0. congruence. }
  unfold rho, gate. rewrite NN_step.
  pose proof (waiting_A t c Hw) as HApos.
  assert (HN : 1 <= NN c).
  { unfold NN. assert (u < length (thrs c))%nat; [|lia]. apply (proj1 (nth_error_Some (thrs c) u)). congruence. }
  pose proof (erem_sum_le (wout c) (thrs c)) as Hsum.
  assert (HT'' : toff (step c u) t = if is_wy uh then toff c t - 1 else toff c t).
  { destruct (is_wy uh) eqn:Ey.
    - apply (toff_step_wy c t u _ HI Hw Hu). unfold is_wy in Ey. destruct (t_pc uh); try discriminate. reflexivity.
    - apply (toff_step c t u HI Hw). intros uh0 E0. rewrite Hu in E0. inversion E0; subst uh0.
      unfold is_wy in Ey. intros E. rewrite E in Ey. discriminate. }
  rewrite HT''. clear HT''.
  set (K := 3 * NN c + 8) in *. set (T := toff c t) in *.
  assert (Hgoal : forall X Y, X <= Y -> (desig c uh = true -> X < Y) ->
            X <= Y /\ (forall uh0, Some uh = Some uh0 -> enabled c uh0 = true -> desig c uh0 = true -> X < Y)).
  { intros X Y H1 H2. split; [exact H1|]. intros uh0 E _ Hd. inversion E; subst uh0. exact (H2 Hd). }
  (* u is not past the ticket wait and stays so *)
  assert (Hfr : forall c' q, TInv c' -> thrs c' = upd (thrs c) u q -> wout c' = wout c ->
            is_hold uh = false -> is_hold q = false -> is_A uh = false ->
            (0 < cnt is_wr (thrs c) -> erem (wout c) q <= erem (wout c) uh /\
               (0 < erem (wout c) uh -> erem (wout c) q < erem (wout c) uh)) ->
            K * T + gaten (NN c) c' <= K * T + gaten (NN c) c /\
            (forall uh0, Some uh = Some uh0 -> enabled c uh0 = true -> desig c uh0 = true ->
               K * T + gaten (NN c) c' < K * T + gaten (NN c) c)).
  { intros c' q HTc Hth Hwo Hnu Hnq HA Her.
    rewrite (gate_frame (NN c) c c' u uh q HT HTc Hu Hth Hwo Hnu Hnq). apply Hgoal.
    - destruct (0 <? cnt is_wr (thrs c)) eqn:E; [|lia]. destruct Her; lia.
    - unfold desig. rewrite HA. cbn [andb orb]. intros Hd. apply andb_true_iff in Hd.
      destruct Hd as [D1 D2]. rewrite D1. destruct Her; lia. }
  revert HT'. unfold step. rewrite Hu. unfold enabled in He.
  destruct uh as [p r]. cbn [t_pc t_rest] in *.
  destruct p; try discriminate He; cbn [is_wy t_pc].
  (* PWr (its readers have left), PWcs, PWx: the writer past the ticket wait moves one place on *)
  9-11: rewrite ?He; intros HT';
    rewrite (gate_holder _ c u _ HT Hu eq_refl), (gate_holder _ _ u _ HT' (nth_upd_same _ _ _ _ Hu) eq_refl);
    cbn [gval t_pc at_pc]; apply Hgoal; [|intros _]; lia.
  - (* PStart *)
    intros HT'. destruct r as [|[|] r]; eapply (Hfr _ _ HT'); try reflexivity; cbn [erem t_pc begin]; lia.
  - (* PR0 *)
    destruct (Z_lt_le_dec 0 (cnt is_wr (thrs c))) as [Hwr|Hwr].
    + destruct (wr_bits c HR Hwr) as (B1 & B2 & B3). rewrite B1, B3, Z.eqb_refl.
      destruct (cur (wout c) =? 0) eqn:E0; [lia|]. cbn [orb negb].
      intros HT'. eapply (Hfr _ _ HT'); try reflexivity. cbn [erem t_pc at_pc]. rewrite Z.eqb_refl. lia.
    + destruct (_ || _); intros HT'; eapply (Hfr _ _ HT'); try reflexivity; lia.
  - (* PRw *)
    apply negb_true_iff in He. rewrite He. intros HT'. eapply (Hfr _ _ HT'); try reflexivity.
    intros Hwr. destruct (wr_bits c HR Hwr) as (B1 & _). rewrite B1 in He.
    cbn [erem t_pc at_pc]. rewrite He. lia.
  - (* PRcs *)
    intros HT'. eapply (Hfr _ _ HT'); try reflexivity. cbn [erem t_pc at_pc]. lia.
  - (* PRx *)
    intros HT'. destruct r as [|[|] r]; eapply (Hfr _ _ HT'); try reflexivity; cbn [erem t_pc begin]; lia.
  - (* PW0: a writer is waiting, so the ticket taken is not the one served *)
    pose proof (ti_rng c HT) as [Hwin Hwout]. pose proof (ti_cnt c HT) as Hcnt.
    assert (E : (wout c =? win c) = false) by lia. rewrite E.
    intros HT'. eapply (Hfr _ _ HT'); try reflexivity. cbn [erem t_pc at_pc]. lia.
  - (* PWw: its ticket comes up, nobody is past the ticket wait *)
    rewrite He. intros HT'.
    assert (H0 : cnt is_hold (thrs c) = 0).
    { apply cnt_zero_of_all. intros v vh Hv. destruct (is_hold vh) eqn:Eh; [|reflexivity]. exfalso.
      assert (v = u).
      { apply (ti_inj c HT v u vh _ Hv Hu (hold_A _ Eh) eq_refl).
        rewrite (hold_off c v vh HT Hv Eh). unfold off. cbn [t_pc]. lia. }
      subst v. rewrite Hu in Hv. inversion Hv; subst vh. discriminate. }
    rewrite (gate_free _ c H0), (gate_holder _ _ u _ HT' (nth_upd_same _ _ _ _ Hu) eq_refl).
    cbn [gval t_pc at_pc]. apply Hgoal; [|intros _]; lia.
  - (* PW1: at most N-1 readers to drain *)
    pose proof (cnt_lt_len is_rfl _ u _ Hu eq_refl) as Hfl. fold (NN c) in Hfl.
    rewrite (gate_holder _ c u _ HT Hu eq_refl).
    destruct (rout c =? rin c); intros HT';
      rewrite (gate_holder _ _ u _ HT' (nth_upd_same _ _ _ _ Hu) eq_refl);
      cbn [gval t_pc at_pc wout thrs]; rewrite ?(sumz_upd _ _ _ _ _ Hu); cbn [erem t_pc at_pc];
      (apply Hgoal; [|intros _]; lia).
  - (* PWy: the next ticket is served and its owner has not moved yet *)
    intros _. rewrite (gate_holder _ c u _ HT Hu eq_refl), gate_free.
    + cbn [gval t_pc]. apply Hgoal; [|intros _]; unfold K; lia.
    + cbn [thrs]. rewrite (cnt_upd _ _ _ _ _ Hu), (cnt_only_holder c u _ is_hold HT Hu eq_refl (fun x H => H)).
      destruct r as [|[|] r]; reflexivity.
Qed.

Lemma gate_bounds c : 1 <= gate c <= 3 * NN c + 7.
Proof.
  unfold gate, gaten. pose proof (erem_sum_le (wout c) (thrs c)). pose proof (cnt_le_len is_rfl (thrs c)).
  assert (0 <= NN c) by (unfold NN; lia). fold (NN c) in H0. iflia.
Qed.

(* there is always a thread that can move and whose step moves the gate *)
Lemma desig_exists c t : Inv c -> waitingW t c ->
  exists d th, nth_error (thrs c) d = Some th /\ enabled c th = true /\ desig c th = true.
Proof.
  intros [Hlen HT HR] Hw. pose proof (waiting_A t c Hw) as HApos.
  pose proof (ti_rng c HT) as [_ Hwout]. pose proof (ri_rng c HR) as [_ Hrout].
  destruct (ti_sur c HT 0 ltac:(lia)) as (d & th & Hn & HA & Ho).
  assert (Hd1 : desig c th = true) by (unfold desig; rewrite HA, Ho; reflexivity).
  destruct (enabled c th) eqn:Hen; [exists d, th; auto|].
  (* the writer whose ticket is served cannot move: it is draining readers, and one of them can *)
  unfold is_A in HA. unfold off in Ho. unfold enabled in Hen.
  destruct (t_pc th) eqn:Hpc; try discriminate.
  - pose proof (ti_thr c HT d th _ Hn Hpc) as W. cbn in W. lia.
  - destruct (ri_pc c HR d th (PWr tk) Hn Hpc) as [Htk Hd].
    destruct (cnt_pos_ex (early (wout c)) (thrs c)) as (u & uh & Hu & He); [lia|].
    assert (Hwr : 0 < cnt is_wr (thrs c)).
    { apply (cnt_pos_of_nth _ _ d th Hn). unfold is_wr. rewrite Hpc. reflexivity. }
    destruct (wr_bits c HR Hwr) as (B1 & B2 & B3).
    exists u, uh. split; [exact Hu|]. split.
    + unfold early in He. unfold enabled. destruct (t_pc uh); try discriminate; try reflexivity.
      rewrite B1. exact He.
    + unfold desig. apply orb_true_iff. right. apply andb_true_iff. split; [lia|].
      pose proof (erem_bounds (wout c) uh) as [_ Hi]. apply Hi in He. lia.
Qed.

(* that thread keeps its role until it moves *)
Lemma desig_stable c d u th : Inv c ->
  nth_error (thrs c) d = Some th -> enabled c th = true -> desig c th = true -> u <> d ->
  nth_error (thrs (step c u)) d = Some th /\ enabled (step c u) th = true /\ desig (step c u) th = true.
Proof.
  intros HI Hn He Hd Hne. destruct (enabled_stable c d u th HI Hn He Hne) as [Hn' He'].
  split; [exact Hn'|]. split; [exact He'|].
  destruct (step_words c u HI) as (_ & Hwo & _). destruct HI as [Hlen HT HR].
  unfold desig in *. apply orb_true_iff in Hd. apply orb_true_iff. destruct Hd as [Hd|Hd].
  - left. apply andb_true_iff in Hd. destruct Hd as [HA Ho].
    destruct Hwo as [E|(uh & Hu & Hpc)]; [rewrite E, HA, Ho; reflexivity|].
    exfalso. apply Hne. assert (Hh : is_hold uh = true) by (unfold is_hold; rewrite Hpc; reflexivity).
    apply (ti_inj c HT u d uh th Hu Hn (hold_A _ Hh) HA). rewrite (hold_off c u uh HT Hu Hh). lia.
  - right. apply andb_true_iff in Hd. destruct Hd as [Hwr Her].
    destruct (cnt_pos_ex is_wr (thrs c)) as (h & hh & Hh & Hhw); [lia|].
    assert (Hhh : is_hold hh = true) by (apply wr_hold, Hhw).
    assert (Hwo' : wout (step c u) = wout c).
    { destruct Hwo as [E|(uh & Hu & Hpc)]; [exact E|]. exfalso.
      assert (Hh2 : is_hold uh = true) by (unfold is_hold; rewrite Hpc; reflexivity).
      assert (u = h) by (apply (hold_unique c u h uh hh HT Hu Hh2 Hh Hhh)). subst u.
      rewrite Hh in Hu. inversion Hu; subst uh. unfold is_wr in Hhw. rewrite Hpc in Hhw. discriminate. }
    rewrite Hwo'. apply andb_true_iff. split; [|exact Her].
    assert (0 < cnt is_wr (thrs (step c u))); [|lia].
    destruct (Nat.eq_dec u h) as [->|Hne2].
    + (* the draining writer cannot leave its loop: th is still counted *)
      assert (Hst : step c h = c); [|rewrite Hst; lia].
      apply (step_disabled c h hh Hh). unfold is_wr in Hhw. unfold enabled.
      destruct (t_pc hh) eqn:Hpc; try discriminate.
      destruct (ri_pc c HR h hh (PWr tk) Hh Hpc) as [Htk Hdf]. pose proof (ri_rng c HR) as [_ Hrout].
      assert (0 < cnt (early (wout c)) (thrs c)); [|lia].
      apply (cnt_pos_of_nth _ _ d th Hn). apply (erem_bounds (wout c) th). lia.
    + apply (cnt_pos_of_nth _ _ h hh); [|exact Hhw]. rewrite (step_other c u h Hne2). exact Hh.
Qed.

Definition ents (t : nat) (l : list ev) : Z :=
  sumz (fun e => match e with Enter t' KW => if Nat.eqb t' t then 1 else 0 | _ => 0 end) l.

Lemma log_step c u : log (step c u) = log c \/ exists e, log (step c u) = e :: log c.
Proof.
  unfold step. destruct (nth_error (thrs c) u) as [uh|]; [|auto].
  destruct (t_pc uh); repeat match goal with |- context[if ?b then _ else _] => destruct b end;
    cbn [log]; eauto.
Qed.

Lemma ents_step t c u : ents t (log c) <= ents t (log (step c u)).
Proof.
  destruct (log_step c u) as [E|(e & E)]; rewrite E; [lia|]. unfold ents. cbn [sumz].
  destruct e as [t' [|]|]; try lia. destruct (Nat.eqb t' t); lia.
Qed.
Lemma ents_run t s : forall c, ents t (log c) <= ents t (log (run c s)).
Proof.
  induction s as [|u s IH]; intros c; unfold run in *; cbn [fold_left]; [lia|].
  pose proof (IH (step c u)). pose proof (ents_step t c u). lia.
Qed.

Lemma wait_or_enter t c u : waitingW t c ->
  waitingW t (step c u) \/ ents t (log (step c u)) = ents t (log c) + 1.
Proof.
  intros (th & Hn & Hw). destruct (Nat.eq_dec u t) as [->|Hne].
  2:{ left. exists th. rewrite (step_other c u t Hne). auto. }
  unfold step, ents, waitingW. rewrite Hn. unfold is_ww in Hw.
  destruct (t_pc th) eqn:Hpc; try discriminate.
  - left. destruct (wout c =? tk); [|exists th; unfold is_ww; rewrite Hpc; auto].
    exists (at_pc (PW1 tk) (t_rest th)). cbn [thrs]. rewrite (nth_upd_same _ _ _ _ Hn). auto.
  - destruct (rout c =? rin c); cbn [thrs log sumz].
    + right. rewrite Nat.eqb_refl. lia.
    + left. exists (at_pc (PWr (rin c)) (t_rest th)). rewrite (nth_upd_same _ _ _ _ Hn). auto.
  - destruct (rout c =? tk); cbn [thrs log sumz].
    + right. rewrite Nat.eqb_refl. lia.
    + left. exists th. unfold is_ww. rewrite Hpc. auto.
Qed.

Lemma wait_run_le t s : forall c, Inv c -> waitingW t c ->
  ents t (log c) < ents t (log (run c s)) \/ (waitingW t (run c s) /\ rho (run c s) t <= rho c t).
Proof.
  induction s as [|u s IH]; intros c HI Hw; unfold run in *; cbn [fold_left]; [right; split; [exact Hw|lia]|].
  destruct (wait_or_enter t c u Hw) as [Hw'|He].
  - destruct (rho_step c t u HI Hw) as [Hle _].
    destruct (IH (step c u) (step_inv c u HI) Hw') as [H|[H1 H2]].
    + left. pose proof (ents_step t c u). lia.
    + right. split; [exact H1|lia].
  - left. pose proof (ents_run t s (step c u)). unfold run in *. lia.
Qed.

Lemma wait_run_lt t s : forall c d th, Inv c -> waitingW t c ->
  nth_error (thrs c) d = Some th -> enabled c th = true -> desig c th = true -> In d s ->
  ents t (log c) < ents t (log (run c s)) \/ (waitingW t (run c s) /\ rho (run c s) t < rho c t).
Proof.
  induction s as [|u s IH]; intros c d th HI Hw Hn He Hd Hin; [destruct Hin|].
  unfold run in *. cbn [fold_left].
  destruct (wait_or_enter t c u Hw) as [Hw'|Hent].
  2:{ left. pose proof (ents_run t s (step c u)). unfold run in *. lia. }
  destruct (rho_step c t u HI Hw) as [Hle Hlt].
  destruct (Nat.eq_dec u d) as [->|Hne].
  - specialize (Hlt th Hn He Hd).
    destruct (wait_run_le t s (step c d) (step_inv c d HI) Hw') as [H|[H1 H2]]; unfold run in *.
    + left. pose proof (ents_step t c d). lia.
    + right. split; [exact H1|lia].
  - destruct Hin as [E|Hin]; [congruence|].
    destruct (desig_stable c d u th HI Hn He Hd Hne) as (Hn' & He' & Hd').
    destruct (IH (step c u) d th (step_inv c u HI) Hw' Hn' He' Hd' Hin) as [H|[H1 H2]].
    + left. pose proof (ents_step t c u). lia.
    + right. split; [exact H1|lia].
Qed.

(* a writer that holds a ticket enters within rho rounds, whatever the other threads run *)
Theorem writer_wait_rounds t rounds : forall c, Inv c -> waitingW t c ->
  (forall s, In s rounds -> covers (length (thrs c)) s) ->
  rho c t <= Z.of_nat (length rounds) ->
  ents t (log c) < ents t (log (run c (concat rounds))).
Proof.
  induction rounds as [|s rs IH]; intros c HI Hw Hcov Hr.
  - exfalso. pose proof (gate_bounds c). unfold rho in Hr. cbn [length] in Hr.
    assert (0 <= toff c t) by (unfold toff; destruct (nth_error (thrs c) t); [apply off_nonneg|lia]).
    assert (0 <= NN c) by (unfold NN; lia). nia.
  - cbn [concat]. unfold run. rewrite fold_left_app. fold (run c s). fold (run (run c s) (concat rs)).
    destruct (desig_exists c t HI Hw) as (d & th & Hn & He & Hd).
    assert (Hin : In d s).
    { apply (Hcov s (or_introl eq_refl)). apply nth_error_Some. congruence. }
    destruct (wait_run_lt t s c d th HI Hw Hn He Hd Hin) as [H|[H1 H2]].
    + pose proof (ents_run t (concat rs) (run c s)). lia.
    + assert (ents t (log (run c s)) < ents t (log (run (run c s) (concat rs)))).
      { apply IH; [apply run_inv, HI|exact H1| |cbn [length] in Hr; lia].
        intros s' Hs'. rewrite run_len. apply Hcov. right. exact Hs'. }
      pose proof (ents_run t s c). lia.
Qed.

Lemma rho_bound c t : rho c t <= (3 * NN c + 8) * (toff c t + 1) - 1.
Proof. unfold rho. pose proof (gate_bounds c). lia. Qed.
