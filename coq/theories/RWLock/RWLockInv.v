(* The inductive invariant of the phase-fair ticket read-write lock model and
   its preservation by every step (any thread, any number of threads below
   2^24, any schedule). *)
From PV Require Import Base.Tac Base.ListX RWLock.RWLockDefs RWLock.RWLockBase.
Local Open Scope Z_scope.

(* [lia] on [/] and [mod]: the lock words are residues mod 2^32 *)
Ltac Zify.zify_post_hook ::= Z.div_mod_to_equations.

(* holds a writer ticket that wout has not passed yet *)
Definition is_A (th : thr) : bool :=
  match t_pc th with PWw _ | PW1 _ | PWr _ | PWcs | PWx | PWy => true | _ => false end.
(* its ticket is the one being served *)
Definition is_hold (th : thr) : bool :=
  match t_pc th with PW1 _ | PWr _ | PWcs | PWx | PWy => true | _ => false end.
(* its PRES/PHID bits are in the low byte of rin *)
Definition is_wset (th : thr) : bool :=
  match t_pc th with PWr _ | PWcs | PWx => true | _ => false end.
Definition is_w1 (th : thr) : bool := match t_pc th with PW1 _ => true | _ => false end.
Definition is_wy (th : thr) : bool := match t_pc th with PWy => true | _ => false end.
(* holds the lock for writing: from the acquisition to the first atomic of wrunlock *)
Definition is_wcs (th : thr) : bool := match t_pc th with PWcs | PWx => true | _ => false end.
(* counted in rin but not yet in rout *)
Definition is_rfl (th : thr) : bool := match t_pc th with PRw _ | PRcs | PRx => true | _ => false end.
(* holds the lock for reading: from the acquisition to the atomic of rdunlock *)
Definition is_rcs (th : thr) : bool := match t_pc th with PRcs | PRx => true | _ => false end.

(* distance of a writer's ticket from the ticket being served *)
Definition off (wo : Z) (th : thr) : Z :=
  match t_pc th with PWw tk | PW1 tk => (tk - wo) mod M32 | _ => 0 end.
(* low bits of rin while the writer with ticket wo is present *)
Definition cur (wo : Z) : Z := 2 + wo mod 2.
(* readers the present writer (ticket wo) has to wait for: inside, or blocked by the previous writer only *)
Definition early (wo : Z) (th : thr) : bool :=
  match t_pc th with PRcs | PRx => true | PRw w => negb (w =? cur wo) | _ => false end.

Definition NB : Z := 16777216.   (* 2^24: rin counts readers in its 3 high bytes *)

(* what a writer at program counter p relies on while ticket wo is served *)
Definition wpc (wo : Z) (p : pc) : Prop :=
  match p with PW1 tk => tk = wo | PWw tk => 0 <= tk < M32 | _ => True end.

(* the writers' ticket dispenser (win / wout) *)
Record TInv (c : cfg) : Prop := {
  ti_rng : 0 <= win c < M32 /\ 0 <= wout c < M32;
  ti_cnt : (win c - wout c) mod M32 = cnt is_A (thrs c);
  ti_lt  : forall t th, nth_error (thrs c) t = Some th -> is_A th = true ->
             off (wout c) th < cnt is_A (thrs c);
  ti_inj : forall t u th uh, nth_error (thrs c) t = Some th -> nth_error (thrs c) u = Some uh ->
             is_A th = true -> is_A uh = true -> off (wout c) th = off (wout c) uh -> t = u;
  ti_sur : forall k, 0 <= k < cnt is_A (thrs c) ->
             exists t th, nth_error (thrs c) t = Some th /\ is_A th = true /\ off (wout c) th = k;
  ti_thr : forall t th p, nth_error (thrs c) t = Some th -> t_pc th = p -> wpc (wout c) p }.

Lemma off_nonneg wo th : 0 <= off wo th.
Proof. unfold off. destruct (t_pc th); lia. Qed.

Lemma hold_off c t th : TInv c -> nth_error (thrs c) t = Some th -> is_hold th = true ->
  off (wout c) th = 0.
Proof.
  intros HT Hn Hh. unfold off. destruct (t_pc th) eqn:E; try reflexivity; try discriminate.
  - unfold is_hold in Hh. rewrite E in Hh. discriminate.
  - rewrite (ti_thr c HT t th _ Hn E). rewrite Z.sub_diag. reflexivity.
Qed.

Lemma hold_A th : is_hold th = true -> is_A th = true.
Proof. unfold is_hold, is_A. destruct (t_pc th); auto. Qed.

(* at most one thread is past the ticket wait *)
Lemma hold_unique c t u th uh : TInv c ->
  nth_error (thrs c) t = Some th -> is_hold th = true ->
  nth_error (thrs c) u = Some uh -> is_hold uh = true -> t = u.
Proof.
  intros HT Ht Hth Hu Huh.
  apply (ti_inj c HT t u th uh Ht Hu (hold_A _ Hth) (hold_A _ Huh)).
  rewrite (hold_off c t th HT Ht Hth), (hold_off c u uh HT Hu Huh). reflexivity.
Qed.

Lemma cnt_hold_le1 c : TInv c -> cnt is_hold (thrs c) <= 1.
Proof. intros HT. apply cnt_le_1. intros t u p q Ht Hp Hu Hq. eapply hold_unique; eauto. Qed.

(* a step of thread t that neither takes nor retires a ticket *)
Lemma tinv_same c c' t th q : TInv c -> nth_error (thrs c) t = Some th ->
  win c' = win c -> wout c' = wout c -> thrs c' = upd (thrs c) t q ->
  is_A q = is_A th -> off (wout c) q = off (wout c) th ->
  wpc (wout c) (t_pc q) ->
  TInv c'.
Proof.
  intros HT Hn Hwi Hwo Hth HA Hoff Hq.
  assert (Hc : cnt is_A (thrs c') = cnt is_A (thrs c)).
  { rewrite Hth, (cnt_upd _ _ _ _ _ Hn), HA. lia. }
  constructor; rewrite ?Hwi, ?Hwo, ?Hc.
  - apply (ti_rng c HT).
  - apply (ti_cnt c HT).
  - intros u uh Hu HAu. rewrite Hth in Hu.
    destruct (nth_upd_inv _ _ _ _ _ _ Hn Hu) as [[-> ->]|[Hne Hu']].
    + rewrite Hoff. apply (ti_lt c HT t th Hn). congruence.
    + apply (ti_lt c HT u uh Hu' HAu).
  - intros u v uh vh Hu Hv HAu HAv Ho. rewrite Hth in Hu, Hv.
    destruct (nth_upd_inv _ _ _ _ _ _ Hn Hu) as [[-> ->]|[Hne Hu']];
    destruct (nth_upd_inv _ _ _ _ _ _ Hn Hv) as [[-> ->]|[Hne2 Hv']].
    + reflexivity.
    + rewrite Hoff in Ho. apply (ti_inj c HT t v th vh Hn Hv'); congruence.
    + rewrite Hoff in Ho. apply (ti_inj c HT u t uh th Hu' Hn); congruence.
    + apply (ti_inj c HT u v uh vh Hu' Hv'); congruence.
  - intros k Hk. destruct (ti_sur c HT k Hk) as (u & uh & Hu & HAu & Ho).
    destruct (Nat.eq_dec u t) as [->|Hne].
    + exists t, q. rewrite Hth, (nth_upd_same _ _ _ _ Hn).
      rewrite Hn in Hu. inversion Hu; subst uh. repeat split; congruence.
    + exists u, uh. rewrite Hth, (nth_upd_other _ _ _ _ _ Hn Hne). auto.
  - intros u uh p Hu Hpc. rewrite Hth in Hu.
    destruct (nth_upd_inv _ _ _ _ _ _ Hn Hu) as [[-> ->]|[Hne Hu']].
    + rewrite <- Hpc. exact Hq.
    + apply (ti_thr c HT u uh p Hu' Hpc).
Qed.

(* fetch_inc(&L->win): thread t takes the next ticket *)
Lemma tinv_take c c' t th q : TInv c -> nth_error (thrs c) t = Some th ->
  Z.of_nat (length (thrs c)) < NB ->
  win c' = wrap (win c + 1) -> wout c' = wout c -> thrs c' = upd (thrs c) t q ->
  is_A th = false -> is_A q = true -> off (wout c) q = (win c - wout c) mod M32 ->
  wpc (wout c) (t_pc q) ->
  TInv c'.
Proof.
  intros HT Hn Hlen Hwi Hwo Hth HA HAq Hoff Hq.
  assert (Hc : cnt is_A (thrs c') = cnt is_A (thrs c) + 1).
  { rewrite Hth, (cnt_upd _ _ _ _ _ Hn), HA, HAq. lia. }
  pose proof (cnt_lt_len is_A (thrs c) t th Hn HA) as Hroom.
  pose proof (cnt_nonneg is_A (thrs c)) as Hnn.
  pose proof (ti_cnt c HT) as Hcnt.
  constructor; rewrite ?Hwi, ?Hwo, ?Hc.
  - split; [apply wrap_range|apply (ti_rng c HT)].
  - apply diff_inc_l; [exact Hcnt|unfold NB in Hlen; lia].
  - intros u uh Hu HAu. rewrite Hth in Hu.
    destruct (nth_upd_inv _ _ _ _ _ _ Hn Hu) as [[-> ->]|[Hne Hu']].
    + rewrite Hoff, Hcnt. lia.
    + pose proof (ti_lt c HT u uh Hu' HAu). lia.
  - intros u v uh vh Hu Hv HAu HAv Ho. rewrite Hth in Hu, Hv.
    destruct (nth_upd_inv _ _ _ _ _ _ Hn Hu) as [[-> ->]|[Hne Hu']];
    destruct (nth_upd_inv _ _ _ _ _ _ Hn Hv) as [[-> ->]|[Hne2 Hv']].
    + reflexivity.
    + pose proof (ti_lt c HT v vh Hv' HAv). rewrite Hoff, Hcnt in Ho. lia.
    + pose proof (ti_lt c HT u uh Hu' HAu). rewrite Hoff, Hcnt in Ho. lia.
    + apply (ti_inj c HT u v uh vh Hu' Hv'); congruence.
  - intros k Hk. destruct (Z.eq_dec k (cnt is_A (thrs c))) as [->|Hne].
    + exists t, q. rewrite Hth, (nth_upd_same _ _ _ _ Hn). repeat split; [exact HAq|congruence].
    + destruct (ti_sur c HT k ltac:(lia)) as (u & uh & Hu & HAu & Ho).
      assert (u <> t) by (intros ->; congruence).
      exists u, uh. rewrite Hth, (nth_upd_other _ _ _ _ _ Hn H). auto.
  - intros u uh p Hu Hpc. rewrite Hth in Hu.
    destruct (nth_upd_inv _ _ _ _ _ _ Hn Hu) as [[-> ->]|[Hne Hu']].
    + rewrite <- Hpc. exact Hq.
    + apply (ti_thr c HT u uh p Hu' Hpc).
Qed.

Lemma off_dec wo th : is_A th = true -> 1 <= off wo th ->
  off (wrap (wo + 1)) th = off wo th - 1.
Proof.
  unfold is_A, off. destruct (t_pc th); intros HA Ho; try discriminate; try lia;
    (apply diff_inc_r; [reflexivity|exact Ho]).
Qed.

(* L->wout = L->wout+1: the served ticket is retired by its holder t *)
Lemma tinv_release c c' t th q : TInv c -> nth_error (thrs c) t = Some th ->
  win c' = win c -> wout c' = wrap (wout c + 1) -> thrs c' = upd (thrs c) t q ->
  is_hold th = true -> is_A q = false ->
  TInv c'.
Proof.
  intros HT Hn Hwi Hwo Hth Hh HAq.
  pose proof (hold_A _ Hh) as HA.
  pose proof (hold_off c t th HT Hn Hh) as Hoff0.
  assert (Hc : cnt is_A (thrs c') = cnt is_A (thrs c) - 1).
  { rewrite Hth, (cnt_upd _ _ _ _ _ Hn), HA, HAq. lia. }
  pose proof (cnt_pos_of_nth is_A (thrs c) t th Hn HA) as Hpos.
  pose proof (ti_cnt c HT) as Hcnt.
  (* every other ticket holder is at distance >= 1 *)
  assert (Hoth : forall u uh, u <> t -> nth_error (thrs c) u = Some uh -> is_A uh = true ->
                 1 <= off (wout c) uh).
  { intros u uh Hne Hu HAu. pose proof (off_nonneg (wout c) uh).
    destruct (Z.eq_dec (off (wout c) uh) 0) as [E|E]; [|lia].
    exfalso. apply Hne. apply (ti_inj c HT u t uh th Hu Hn HAu HA). congruence. }
  constructor; rewrite ?Hwi, ?Hwo, ?Hc.
  - split; [apply (ti_rng c HT)|apply wrap_range].
  - apply diff_inc_r; [exact Hcnt|lia].
  - intros u uh Hu HAu. rewrite Hth in Hu.
    destruct (nth_upd_inv _ _ _ _ _ _ Hn Hu) as [[-> ->]|[Hne Hu']]; [congruence|].
    rewrite (off_dec _ _ HAu (Hoth u uh Hne Hu' HAu)).
    pose proof (ti_lt c HT u uh Hu' HAu). lia.
  - intros u v uh vh Hu Hv HAu HAv Ho. rewrite Hth in Hu, Hv.
    destruct (nth_upd_inv _ _ _ _ _ _ Hn Hu) as [[-> ->]|[Hne Hu']]; [congruence|].
    destruct (nth_upd_inv _ _ _ _ _ _ Hn Hv) as [[-> ->]|[Hne2 Hv']]; [congruence|].
    rewrite (off_dec _ _ HAu (Hoth u uh Hne Hu' HAu)) in Ho.
    rewrite (off_dec _ _ HAv (Hoth v vh Hne2 Hv' HAv)) in Ho.
    apply (ti_inj c HT u v uh vh Hu' Hv' HAu HAv). lia.
  - intros k Hk. destruct (ti_sur c HT (k + 1) ltac:(lia)) as (u & uh & Hu & HAu & Ho).
    assert (Hne : u <> t).
    { intros ->. rewrite Hn in Hu. inversion Hu; subst uh. lia. }
    exists u, uh. rewrite Hth, (nth_upd_other _ _ _ _ _ Hn Hne). repeat split; auto.
    rewrite (off_dec (wout c) uh HAu) by lia. lia.
  - intros u uh p Hu Hpc. rewrite Hth in Hu.
    destruct (nth_upd_inv _ _ _ _ _ _ Hn Hu) as [[-> ->]|[Hne Hu']].
    + unfold is_A in HAq. rewrite Hpc in HAq. destruct p; try exact I; discriminate.
    + pose proof (ti_thr c HT u uh p Hu' Hpc) as W. destruct p; try exact W.
      (* another thread at PW1 would hold the ticket t retires *)
      exfalso. apply Hne. apply (hold_unique c u t uh th HT Hu'); auto.
      unfold is_hold. rewrite Hpc. reflexivity.
Qed.

(* the readers and the present writer (rin / rout) *)
(* what a thread at program counter p, with the cycles r still to run, relies on *)
Definition rpc (c : cfg) (p : pc) (r : list kind) : Prop :=
  match p with
  | PRw w => (w = 2 \/ w = 3) /\
             (cnt is_wset (thrs c) = 0 ->
              w = if 0 <? cnt is_wy (thrs c) then cur (wout c) else cur (wout c + 1))
  | PWr tk => 0 <= tk < M32 /\ (tk - rout c) mod M32 = 256 * cnt (early (wout c)) (thrs c)
  | PWcs | PWx => cnt (early (wout c)) (thrs c) = 0
  | PDone => r = []
  | _ => True
  end.

Record RInv (c : cfg) : Prop := {
  ri_rng : 0 <= rin c < M32 /\ 0 <= rout c < M32;
  ri_rout : rout c mod 256 = 0;
  ri_low : rin c mod 256 = if 0 <? cnt is_wset (thrs c) then cur (wout c) else 0;
  ri_dif : (rin c - rin c mod 256 - rout c) mod M32 = 256 * cnt is_rfl (thrs c);
  ri_thr : forall t th, nth_error (thrs c) t = Some th -> rpc c (t_pc th) (t_rest th) }.

Record Inv (c : cfg) : Prop := {
  inv_len : Z.of_nat (length (thrs c)) < NB;
  inv_t : TInv c;
  inv_r : RInv c }.

Lemma ri_pc c : RInv c -> forall t th p, nth_error (thrs c) t = Some th -> t_pc th = p ->
  rpc c p (t_rest th).
Proof. intros HR t th p Hn <-. apply (ri_thr c HR t th Hn). Qed.

Lemma ri_wcs c : RInv c -> forall t th, nth_error (thrs c) t = Some th -> is_wcs th = true ->
  cnt (early (wout c)) (thrs c) = 0.
Proof.
  intros HR t th Hn Hw. pose proof (ri_thr c HR t th Hn) as H. unfold is_wcs in Hw.
  destruct (t_pc th); try discriminate; exact H.
Qed.

Lemma wcs_wset th : is_wcs th = true -> is_wset th = true.
Proof. unfold is_wcs, is_wset. destruct (t_pc th); auto. Qed.
Lemma wset_hold th : is_wset th = true -> is_hold th = true.
Proof. unfold is_hold, is_wset. destruct (t_pc th); auto. Qed.
Lemma wy_hold th : is_wy th = true -> is_hold th = true.
Proof. unfold is_hold, is_wy. destruct (t_pc th); auto. Qed.
Lemma w1_hold th : is_w1 th = true -> is_hold th = true.
Proof. unfold is_hold, is_w1. destruct (t_pc th); auto. Qed.

Lemma cur_23 wo : cur wo = 2 \/ cur wo = 3.
Proof. unfold cur. lia. Qed.
Lemma cur_next wo : cur (wo + 1) <> cur wo /\ cur (wo + 1 + 1) = cur wo /\ cur (wrap (wo + 1)) = cur (wo + 1).
Proof. unfold cur, wrap. lia. Qed.

(* when thread t is the holder, nobody else is *)
Lemma only_holder c t th u uh (f : thr -> bool) : TInv c ->
  nth_error (thrs c) t = Some th -> is_hold th = true ->
  (forall x, f x = true -> is_hold x = true) ->
  u <> t -> nth_error (thrs c) u = Some uh -> f uh = false.
Proof.
  intros HT Hn Hh Hf Hne Hu. destruct (f uh) eqn:E; [|reflexivity].
  exfalso. apply Hne. apply (hold_unique c u t uh th HT Hu (Hf _ E) Hn Hh).
Qed.

Lemma cnt_only_holder c t th (f : thr -> bool) : TInv c ->
  nth_error (thrs c) t = Some th -> is_hold th = true ->
  (forall x, f x = true -> is_hold x = true) ->
  cnt f (thrs c) = if f th then 1 else 0.
Proof.
  intros HT Hn Hh Hf.
  pose proof (cnt_hold_le1 c HT) as H1. pose proof (cnt_mono f is_hold (thrs c) Hf) as H2.
  pose proof (cnt_nonneg f (thrs c)) as H3.
  destruct (f th) eqn:E.
  - pose proof (cnt_pos_of_nth f (thrs c) t th Hn E). lia.
  - apply cnt_zero_of_all. intros u uh Hu.
    destruct (Nat.eq_dec u t) as [->|Hne]; [congruence|].
    apply (only_holder c t th u uh f HT Hn Hh Hf Hne Hu).
Qed.

(* a writer at PW1 has not set its bits yet, and nobody else's are there *)
Lemma w1_alone c u uh tk : TInv c -> nth_error (thrs c) u = Some uh -> t_pc uh = PW1 tk ->
  cnt is_wset (thrs c) = 0 /\ cnt is_wy (thrs c) = 0.
Proof.
  intros HT Hu Hpc. assert (Hh : is_hold uh = true) by (unfold is_hold; rewrite Hpc; reflexivity).
  rewrite (cnt_only_holder c u uh is_wset HT Hu Hh wset_hold), (cnt_only_holder c u uh is_wy HT Hu Hh wy_hold).
  unfold is_wset, is_wy. rewrite Hpc. split; reflexivity.
Qed.

(* while a writer is at PW1, the readers that wait, wait for the bits of the writer before it *)
Lemma w1_readers c u uh tk t th w : TInv c -> RInv c ->
  nth_error (thrs c) u = Some uh -> t_pc uh = PW1 tk ->
  nth_error (thrs c) t = Some th -> t_pc th = PRw w -> w = cur (wout c + 1).
Proof.
  intros HT HR Hu Hpc Hn Hpcr. destruct (w1_alone c u uh tk HT Hu Hpc) as [Hw0 Hy0].
  destruct (ri_pc c HR t th (PRw w) Hn Hpcr) as [_ Hw]. specialize (Hw Hw0). rewrite Hy0 in Hw. exact Hw.
Qed.

(* a promise carries over to a state with the same rout, wout and writer regions; one that
   counts the early readers, as long as that count stays *)
Lemma rpc_frame c c' p r :
  rout c' = rout c -> wout c' = wout c ->
  cnt is_wset (thrs c') = cnt is_wset (thrs c) -> cnt is_wy (thrs c') = cnt is_wy (thrs c) ->
  (is_wset (at_pc p r) = true -> cnt (early (wout c)) (thrs c') = cnt (early (wout c)) (thrs c)) ->
  rpc c p r -> rpc c' p r.
Proof.
  intros Hro Hwo Hcw Hcy He H. unfold rpc. rewrite Hro, Hwo, Hcw, Hcy.
  destruct p; try exact H; rewrite (He eq_refl); exact H.
Qed.

(* while t is past the ticket wait no other thread is, so of the others only the waiting
   readers rely on anything that t's step can change *)
Lemma rpc_others c c' t th u uh : TInv c -> RInv c ->
  nth_error (thrs c) t = Some th -> is_hold th = true -> u <> t -> nth_error (thrs c) u = Some uh ->
  (forall w, t_pc uh = PRw w -> rpc c (PRw w) (t_rest uh) -> rpc c' (PRw w) (t_rest uh)) ->
  rpc c' (t_pc uh) (t_rest uh).
Proof.
  intros HT HR Hn Hh Hne Hu Hrw.
  pose proof (only_holder c t th u uh is_hold HT Hn Hh (fun x H => H) Hne Hu) as Hnh.
  pose proof (ri_thr c HR u uh Hu) as H. unfold is_hold in Hnh.
  destruct (t_pc uh) eqn:E; try discriminate Hnh; try exact H. apply (Hrw w eq_refl), H.
Qed.

(* a step that touches neither rin, rout, wout nor the reader/writer regions *)
Lemma rinv_frame c c' t th q : RInv c -> nth_error (thrs c) t = Some th ->
  rin c' = rin c -> rout c' = rout c -> wout c' = wout c -> thrs c' = upd (thrs c) t q ->
  is_wset q = is_wset th -> is_wy q = is_wy th -> is_rfl q = is_rfl th ->
  (early (wout c) q = early (wout c) th \/ cnt is_wset (thrs c) = 0) ->
  rpc c (t_pc q) (t_rest q) ->
  RInv c'.
Proof.
  intros HR Hn Hri Hro Hwo Hth Hws Hwy Hrf Hea Hq.
  assert (Hcw : cnt is_wset (thrs c') = cnt is_wset (thrs c)).
  { rewrite Hth, (cnt_upd _ _ _ _ _ Hn), Hws. lia. }
  assert (Hcy : cnt is_wy (thrs c') = cnt is_wy (thrs c)).
  { rewrite Hth, (cnt_upd _ _ _ _ _ Hn), Hwy. lia. }
  assert (Hcf : cnt is_rfl (thrs c') = cnt is_rfl (thrs c)).
  { rewrite Hth, (cnt_upd _ _ _ _ _ Hn), Hrf. lia. }
  assert (Hce : forall u uh, nth_error (thrs c) u = Some uh -> is_wset uh = true ->
                cnt (early (wout c)) (thrs c') = cnt (early (wout c)) (thrs c)).
  { intros u uh Hu Hs. pose proof (cnt_pos_of_nth is_wset (thrs c) u uh Hu Hs).
    destruct Hea as [E|E]; [|lia]. rewrite Hth, (cnt_upd _ _ _ _ _ Hn), E. lia. }
  constructor; rewrite ?Hri, ?Hro, ?Hwo, ?Hcw, ?Hcf.
  - apply (ri_rng c HR).
  - apply (ri_rout c HR).
  - apply (ri_low c HR).
  - apply (ri_dif c HR).
  - intros u uh Hu. rewrite Hth in Hu.
    destruct (nth_upd_inv _ _ _ _ _ _ Hn Hu) as [[-> ->]|[Hne Hu']];
      apply (rpc_frame c c' _ _ Hro Hwo Hcw Hcy).
    + intros Hs. apply (Hce t th Hn). rewrite <- Hws. exact Hs.
    + exact Hq.
    + apply (Hce u uh Hu').
    + apply (ri_thr c HR u uh Hu').
Qed.

(* with a writer's bits present, the low byte of rin is cur; without, zero *)
Lemma low_bits c : RInv c ->
  (cnt is_wset (thrs c) = 0 /\ rin c mod 256 = 0 /\ rin c mod 4 = 0) \/
  (0 < cnt is_wset (thrs c) /\ rin c mod 256 = cur (wout c) /\ rin c mod 4 = cur (wout c)).
Proof.
  intros HR. pose proof (ri_low c HR) as Hl. pose proof (cnt_nonneg is_wset (thrs c)) as Hn.
  pose proof (cur_23 (wout c)) as H23.
  destruct (0 <? cnt is_wset (thrs c)) eqn:E; [right|left]; lia.
Qed.

(* rdlock: w = fetch_add(&L->rin, RINC) & WBITS and the first test of the wait loop *)
Lemma rinv_R0 c c' t th q : RInv c -> Z.of_nat (length (thrs c)) < NB ->
  nth_error (thrs c) t = Some th -> t_pc th = PR0 ->
  rin c' = wrap (rin c + RINC) -> rout c' = rout c -> wout c' = wout c ->
  thrs c' = upd (thrs c) t q ->
  t_pc q = (if (Z.land (rin c) WBITS =? 0) || negb (Z.land (rin c) WBITS =? Z.land (rin c') WBITS)
            then PRcs else PRw (Z.land (rin c) WBITS)) ->
  RInv c'.
Proof.
  intros HR Hlen Hn Hpc Hri Hro Hwo Hth Hq.
  pose proof (ri_rng c HR) as [Hrin Hrout].
  pose proof (wrap_range (rin c + RINC)) as Hrin'.
  rewrite Hri in Hq. rewrite !land_wbits in Hq by lia.
  assert (Hm4 : wrap (rin c + RINC) mod 4 = rin c mod 4) by (clear; unfold wrap, RINC; lia).
  rewrite Hm4, Z.eqb_refl in Hq. cbn [negb] in Hq. rewrite orb_false_r in Hq.
  assert (Hws : is_wset th = false) by (unfold is_wset; rewrite Hpc; reflexivity).
  assert (Hwsq : is_wset q = false) by (unfold is_wset; rewrite Hq; destruct (_ =? _); reflexivity).
  assert (Hcw : cnt is_wset (thrs c') = cnt is_wset (thrs c)).
  { rewrite Hth, (cnt_upd _ _ _ _ _ Hn), Hws, Hwsq. lia. }
  assert (Hcy : cnt is_wy (thrs c') = cnt is_wy (thrs c)).
  { rewrite Hth, (cnt_upd _ _ _ _ _ Hn). unfold is_wy. rewrite Hpc, Hq. destruct (_ =? _); lia. }
  assert (Hcf : cnt is_rfl (thrs c') = cnt is_rfl (thrs c) + 1).
  { rewrite Hth, (cnt_upd _ _ _ _ _ Hn). unfold is_rfl. rewrite Hpc, Hq. destruct (_ =? _); lia. }
  assert (Hroom : cnt is_rfl (thrs c) <= Z.of_nat (length (thrs c)) - 1).
  { apply (cnt_lt_len is_rfl (thrs c) t th Hn). unfold is_rfl. rewrite Hpc. reflexivity. }
  (* while a writer's bits are present the newcomer is not early *)
  assert (Hce : 0 < cnt is_wset (thrs c) ->
                t_pc q = PRw (cur (wout c)) /\
                cnt (early (wout c)) (thrs c') = cnt (early (wout c)) (thrs c)).
  { intros Hpos. destruct (low_bits c HR) as [(E & _)|(_ & _ & E4)]; [lia|].
    rewrite E4 in Hq. pose proof (cur_23 (wout c)) as H23.
    destruct (cur (wout c) =? 0) eqn:E0; [lia|]. split; [exact Hq|].
    rewrite Hth, (cnt_upd _ _ _ _ _ Hn). unfold early. rewrite Hpc, Hq, Z.eqb_refl. cbn [negb]. lia. }
  constructor; rewrite ?Hri, ?Hro, ?Hwo, ?Hcf.
  - split; [exact Hrin'|exact Hrout].
  - apply (ri_rout c HR).
  - unfold RINC. rewrite Hcw, wrap_rinc_low. apply (ri_low c HR).
  - apply diff_rinc_l; [apply (ri_dif c HR)|unfold NB in Hlen; clear - Hlen Hroom; lia].
  - intros u uh Hu. rewrite Hth in Hu.
    destruct (nth_upd_inv _ _ _ _ _ _ Hn Hu) as [[-> ->]|[Hne Hu']].
    + (* the newcomer enters unless a writer's bits are there, and then it has read them *)
      destruct (low_bits c HR) as [(_ & _ & E4)|(Hpos & _ & _)].
      * rewrite Hq, E4. exact I.
      * destruct (Hce Hpos) as [-> _]. split; [apply cur_23|lia].
    + apply (rpc_frame c c' _ _ Hro Hwo Hcw Hcy); [|apply (ri_thr c HR u uh Hu')].
      intros Hs. apply Hce, (cnt_pos_of_nth is_wset _ u uh Hu' Hs).
Qed.

Definition is_begin (q : thr) : Prop :=
  (t_pc q = PDone /\ t_rest q = []) \/ t_pc q = PR0 \/ t_pc q = PW0.
Lemma begin_is_begin r : is_begin (begin r).
Proof. unfold is_begin. destruct r as [|[|] r]; cbn; auto. Qed.

(* the cases of [is_begin]: the thread is done, or at PR0, or at PW0 *)
Ltac begin_pc Hb := destruct Hb as [[Hb _]|[Hb|Hb]].

Lemma begin_rpc c q : is_begin q -> rpc c (t_pc q) (t_rest q).
Proof. intros [[-> E]|[-> | ->]]; [exact E|exact I|exact I]. Qed.

(* rdunlock: fetch_add(&L->rout, RINC) *)
Lemma rinv_Rx c c' t th q : RInv c ->
  nth_error (thrs c) t = Some th -> t_pc th = PRx ->
  rin c' = rin c -> rout c' = wrap (rout c + RINC) -> wout c' = wout c ->
  thrs c' = upd (thrs c) t q -> is_begin q ->
  RInv c'.
Proof.
  intros HR Hn Hpc Hri Hro Hwo Hth Hb.
  pose proof (ri_rng c HR) as [Hrin Hrout]. pose proof (begin_rpc c' q Hb) as Hq.
  assert (Hcw : cnt is_wset (thrs c') = cnt is_wset (thrs c)).
  { rewrite Hth, (cnt_upd _ _ _ _ _ Hn). unfold is_wset. rewrite Hpc. begin_pc Hb; rewrite Hb; lia. }
  assert (Hcy : cnt is_wy (thrs c') = cnt is_wy (thrs c)).
  { rewrite Hth, (cnt_upd _ _ _ _ _ Hn). unfold is_wy. rewrite Hpc. begin_pc Hb; rewrite Hb; lia. }
  assert (Hcf : cnt is_rfl (thrs c') = cnt is_rfl (thrs c) - 1).
  { rewrite Hth, (cnt_upd _ _ _ _ _ Hn). unfold is_rfl. rewrite Hpc. begin_pc Hb; rewrite Hb; lia. }
  assert (Hce : cnt (early (wout c)) (thrs c') = cnt (early (wout c)) (thrs c) - 1).
  { rewrite Hth, (cnt_upd _ _ _ _ _ Hn). unfold early. rewrite Hpc. begin_pc Hb; rewrite Hb; lia. }
  assert (Hf1 : 0 < cnt is_rfl (thrs c)).
  { apply (cnt_pos_of_nth _ _ t th Hn). unfold is_rfl. rewrite Hpc. reflexivity. }
  assert (He1 : 0 < cnt (early (wout c)) (thrs c)).
  { apply (cnt_pos_of_nth _ _ t th Hn). unfold early. rewrite Hpc. reflexivity. }
  constructor; rewrite ?Hri, ?Hro, ?Hwo, ?Hcw, ?Hcf.
  - split; [exact Hrin|apply wrap_range].
  - unfold RINC. rewrite wrap_rinc_low. apply (ri_rout c HR).
  - apply (ri_low c HR).
  - apply diff_rinc_r; [apply (ri_dif c HR)|lia].
  - intros u uh Hu. rewrite Hth in Hu.
    destruct (nth_upd_inv _ _ _ _ _ _ Hn Hu) as [[-> ->]|[Hne Hu']]; [exact Hq|].
    pose proof (ri_thr c HR u uh Hu') as H. unfold rpc in *. rewrite Hro, Hwo, Hcw, Hcy, Hce.
    destruct (t_pc uh); try exact H; [|lia|lia].
    (* a writer draining readers: one fewer to wait for *)
    destruct H as [Hr Hd]. split; [exact Hr|]. apply diff_rinc_r; [exact Hd|lia].
Qed.

(* wrlock: ticket = fetch_add(&L->rin, PRES | (ticket & PHID)) and the first test of the wait loop *)
Lemma rinv_W1 c c' t th q tk : TInv c -> RInv c ->
  nth_error (thrs c) t = Some th -> t_pc th = PW1 tk ->
  rin c' = wrap (rin c + Z.lor PRES (Z.land tk PHID)) -> rout c' = rout c -> wout c' = wout c ->
  thrs c' = upd (thrs c) t q ->
  t_pc q = (if rout c =? rin c then PWcs else PWr (rin c)) ->
  RInv c'.
Proof.
  intros HT HR Hn Hpc Hri Hro Hwo Hth Hq.
  pose proof (ri_rng c HR) as [Hrin Hrout].
  pose proof (ti_rng c HT) as [_ Hwout].
  assert (Hh : is_hold th = true) by (unfold is_hold; rewrite Hpc; reflexivity).
  pose proof (ti_thr c HT t th _ Hn Hpc) as Htk. cbn in Htk. subst tk.
  rewrite lor_pres in Hri by lia. fold (cur (wout c)) in Hri.
  pose proof (cur_23 (wout c)) as H23.
  destruct (w1_alone c t th _ HT Hn Hpc) as [Hw0 Hy0].
  destruct (low_bits c HR) as [(_ & Hlo & _)|(Hpos & _)]; [|lia].
  assert (Hri' : rin c' = rin c + cur (wout c)) by (rewrite Hri; clear - Hrin Hlo H23; unfold wrap; lia).
  assert (Hcw : cnt is_wset (thrs c') = 1).
  { rewrite Hth, (cnt_upd _ _ _ _ _ Hn), Hw0. unfold is_wset. rewrite Hpc, Hq. destruct (_ =? _); lia. }
  assert (Hcf : cnt is_rfl (thrs c') = cnt is_rfl (thrs c)).
  { rewrite Hth, (cnt_upd _ _ _ _ _ Hn). unfold is_rfl. rewrite Hpc, Hq. destruct (_ =? _); lia. }
  assert (Hce : cnt (early (wout c)) (thrs c') = cnt is_rfl (thrs c)).
  { transitivity (cnt (early (wout c)) (thrs c)).
    { rewrite Hth, (cnt_upd _ _ _ _ _ Hn). unfold early at 2 3. rewrite Hpc, Hq.
      destruct (_ =? _); cbv iota; lia. }
    apply cnt_ext_in. intros u uh Hu.
    unfold early, is_rfl. destruct (t_pc uh) eqn:E; try reflexivity.
    pose proof (w1_readers c t th _ u uh w HT HR Hn Hpc Hu E) as Hw.
    pose proof (cur_next (wout c)) as [Hne _]. subst w.
    destruct (cur (wout c + 1) =? cur (wout c)) eqn:E2; [lia|reflexivity]. }
  pose proof (ri_dif c HR) as Hd. rewrite Hlo, Z.sub_0_r in Hd.
  pose proof (cnt_nonneg is_rfl (thrs c)) as Hnn.
  constructor; rewrite ?Hro, ?Hwo, ?Hcw, ?Hcf.
  - split; [rewrite Hri; apply wrap_range|exact Hrout].
  - apply (ri_rout c HR).
  - rewrite Hri'. change (0 <? 1) with true. cbv iota. lia.
  - rewrite Hri'. replace ((rin c + cur (wout c)) mod 256) with (cur (wout c)) by (clear - Hlo H23; lia).
    rewrite Z.add_simpl_r. exact Hd.
  - intros u uh Hu. rewrite Hth in Hu.
    destruct (nth_upd_inv _ _ _ _ _ _ Hn Hu) as [[-> ->]|[Hne Hu']].
    + (* it enters at once exactly when no reader is in flight *)
      rewrite Hq. destruct (rout c =? rin c) eqn:E; cbn [rpc]; rewrite ?Hro, Hwo, Hce.
      * assert (rout c = rin c) by lia. rewrite H, Z.sub_diag in Hd. change (0 mod 4294967296) with 0 in Hd. lia.
      * split; [exact Hrin|exact Hd].
    + apply (rpc_others c c' t th u uh HT HR Hn Hh Hne Hu'). intros w _ [Hw _]. split; [exact Hw|clear - Hcw; lia].
Qed.

(* wrunlock: fetch_and(&L->rin, 0xFFFFFF00) *)
Lemma rinv_Wx c c' t th q : TInv c -> RInv c ->
  nth_error (thrs c) t = Some th -> t_pc th = PWx ->
  rin c' = Z.land (rin c) RMASK -> rout c' = rout c -> wout c' = wout c ->
  thrs c' = upd (thrs c) t q -> t_pc q = PWy ->
  RInv c'.
Proof.
  intros HT HR Hn Hpc Hri Hro Hwo Hth Hq.
  pose proof (ri_rng c HR) as [Hrin Hrout].
  rewrite land_rmask in Hri by exact Hrin.
  assert (Hh : is_hold th = true) by (unfold is_hold; rewrite Hpc; reflexivity).
  assert (Hw1 : cnt is_wset (thrs c) = 1).
  { rewrite (cnt_only_holder c t th is_wset HT Hn Hh wset_hold). unfold is_wset. rewrite Hpc. reflexivity. }
  assert (Hy0 : cnt is_wy (thrs c) = 0).
  { rewrite (cnt_only_holder c t th is_wy HT Hn Hh wy_hold). unfold is_wy. rewrite Hpc. reflexivity. }
  assert (He0 : cnt (early (wout c)) (thrs c) = 0).
  { apply (ri_wcs c HR t th Hn). unfold is_wcs. rewrite Hpc. reflexivity. }
  assert (Hcw : cnt is_wset (thrs c') = 0).
  { rewrite Hth, (cnt_upd _ _ _ _ _ Hn), Hw1. unfold is_wset. rewrite Hpc, Hq. lia. }
  assert (Hcy : cnt is_wy (thrs c') = 1).
  { rewrite Hth, (cnt_upd _ _ _ _ _ Hn), Hy0. unfold is_wy. rewrite Hpc, Hq. lia. }
  assert (Hcf : cnt is_rfl (thrs c') = cnt is_rfl (thrs c)).
  { rewrite Hth, (cnt_upd _ _ _ _ _ Hn). unfold is_rfl. rewrite Hpc, Hq. lia. }
  constructor; rewrite ?Hro, ?Hwo, ?Hcw, ?Hcf.
  - split; [rewrite Hri; lia|exact Hrout].
  - apply (ri_rout c HR).
  - rewrite Hri. change (0 <? 0) with false. cbv iota. lia.
  - rewrite Hri. replace ((rin c - rin c mod 256) mod 256) with 0 by (clear; lia).
    rewrite Z.sub_0_r. apply (ri_dif c HR).
  - intros u uh Hu. rewrite Hth in Hu.
    destruct (nth_upd_inv _ _ _ _ _ _ Hn Hu) as [[-> ->]|[Hne Hu']]; [rewrite Hq; exact I|].
    apply (rpc_others c c' t th u uh HT HR Hn Hh Hne Hu').
    (* no reader was early, so all that wait have read this writer's bits *)
    intros w E [Hw _]. split; [exact Hw|]. intros _. rewrite Hcy, Hwo. change (0 <? 1) with true. cbv iota.
    pose proof (cnt_zero_all _ _ He0 u uh Hu') as He. unfold early in He. rewrite E in He.
    destruct (w =? cur (wout c)) eqn:E2; [lia|discriminate].
Qed.

(* wrunlock: L->wout = L->wout + 1 *)
Lemma rinv_Wy c c' t th q : TInv c -> RInv c ->
  nth_error (thrs c) t = Some th -> t_pc th = PWy ->
  rin c' = rin c -> rout c' = rout c -> wout c' = wrap (wout c + 1) ->
  thrs c' = upd (thrs c) t q -> is_begin q ->
  RInv c'.
Proof.
  intros HT HR Hn Hpc Hri Hro Hwo Hth Hb. pose proof (begin_rpc c' q Hb) as Hq.
  assert (Hh : is_hold th = true) by (unfold is_hold; rewrite Hpc; reflexivity).
  assert (Hw0 : cnt is_wset (thrs c) = 0).
  { rewrite (cnt_only_holder c t th is_wset HT Hn Hh wset_hold). unfold is_wset. rewrite Hpc. reflexivity. }
  assert (Hy1 : cnt is_wy (thrs c) = 1).
  { rewrite (cnt_only_holder c t th is_wy HT Hn Hh wy_hold). unfold is_wy. rewrite Hpc. reflexivity. }
  assert (Hcw : cnt is_wset (thrs c') = 0).
  { rewrite Hth, (cnt_upd _ _ _ _ _ Hn), Hw0. unfold is_wset. rewrite Hpc. begin_pc Hb; rewrite Hb; lia. }
  assert (Hcy : cnt is_wy (thrs c') = 0).
  { rewrite Hth, (cnt_upd _ _ _ _ _ Hn), Hy1. unfold is_wy. rewrite Hpc. begin_pc Hb; rewrite Hb; lia. }
  assert (Hcf : cnt is_rfl (thrs c') = cnt is_rfl (thrs c)).
  { rewrite Hth, (cnt_upd _ _ _ _ _ Hn). unfold is_rfl. rewrite Hpc. begin_pc Hb; rewrite Hb; lia. }
  constructor; rewrite ?Hri, ?Hro, ?Hwo, ?Hcw, ?Hcf.
  - apply (ri_rng c HR).
  - apply (ri_rout c HR).
  - pose proof (ri_low c HR) as Hl. rewrite Hw0 in Hl. exact Hl.
  - apply (ri_dif c HR).
  - intros u uh Hu. rewrite Hth in Hu.
    destruct (nth_upd_inv _ _ _ _ _ _ Hn Hu) as [[-> ->]|[Hne Hu']]; [exact Hq|].
    apply (rpc_others c c' t th u uh HT HR Hn Hh Hne Hu').
    (* the waiting readers have read the bits of the writer that leaves *)
    intros w _ [H23 Hw]. split; [exact H23|]. intros _. rewrite Hcy, Hwo.
    specialize (Hw Hw0). rewrite Hy1 in Hw. change (0 <? 1) with true in Hw. cbv iota in Hw.
    change (0 <? 0) with false. cbv iota. subst w. clear. unfold cur, wrap. lia.
Qed.

(* unfolds the region predicates and [rpc] at the program counter recorded in [Hpc], so that the
   side conditions of the frame lemmas compute *)
Ltac prd Hpc :=
  unfold is_A, is_hold, is_wset, is_w1, is_wy, is_wcs, is_rfl, is_rcs, early, off, rpc;
  cbn [t_pc t_rest at_pc begin]; rewrite ?Hpc.

Lemma step_len c t : length (thrs (step c t)) = length (thrs c).
Proof.
  unfold step. destruct (nth_error (thrs c) t) as [th|] eqn:Hn; [|reflexivity].
  destruct (t_pc th); repeat match goal with |- context[if ?b then _ else _] => destruct b end;
    cbn [thrs]; try reflexivity; apply (len_upd _ _ _ _ Hn).
Qed.

Lemma step_tinv c t : TInv c -> Z.of_nat (length (thrs c)) < NB -> TInv (step c t).
Proof.
  intros HT Hlen. unfold step.
  destruct (nth_error (thrs c) t) as [th|] eqn:Hn; [|exact HT].
  (* a ticket is taken at PW0 and retired at PWy, and PWw, PW1 rely on its being the served one;
     at the other program counters (PStart and PRx apart, where the next cycle is looked up)
     the tickets are not involved *)
  destruct (t_pc th) eqn:Hpc;
    try (repeat match goal with |- context[if ?b then _ else _] => destruct b end; try exact HT;
         eapply (tinv_same c _ t th _ HT Hn); try reflexivity; prd Hpc; try reflexivity;
         exact I).
  (* PStart, PRx *)
  1-2: eapply (tinv_same c _ t th _ HT Hn); try reflexivity;
    destruct (t_rest th) as [|[|] r]; prd Hpc; try reflexivity; exact I.
  - (* PW0 *)
    pose proof (ti_rng c HT) as [Hwin Hwout].
    eapply (tinv_take c _ t th _ HT Hn Hlen); try reflexivity; prd Hpc; try reflexivity;
      destruct (wout c =? win c) eqn:E; try reflexivity; cbn [wpc]; lia.
  - (* PWw *)
    destruct (wout c =? tk) eqn:Hcond; [|exact HT].
    eapply (tinv_same c _ t th _ HT Hn); try reflexivity; prd Hpc; try reflexivity. cbn [wpc]. lia.
  - (* PW1: its ticket is the served one *)
    assert (Hoff : off (wout c) th = 0).
    { apply (hold_off c t th HT Hn). prd Hpc. reflexivity. }
    unfold off in Hoff. rewrite Hpc in Hoff.
    destruct (rout c =? rin c);
      eapply (tinv_same c _ t th _ HT Hn); try reflexivity; prd Hpc; try reflexivity;
      try exact I; symmetry; exact Hoff.
  - (* PWy *)
    eapply (tinv_release c _ t th _ HT Hn); try reflexivity.
    + prd Hpc. reflexivity.
    + destruct (t_rest th) as [|[|] r]; reflexivity.
Qed.

Lemma step_rinv c t : TInv c -> RInv c -> Z.of_nat (length (thrs c)) < NB -> RInv (step c t).
Proof.
  intros HT HR Hlen. unfold step.
  destruct (nth_error (thrs c) t) as [th|] eqn:Hn; [|exact HR].
  destruct (t_pc th) eqn:Hpc.
  - (* PStart *)
    eapply (rinv_frame c _ t th _ HR Hn); try reflexivity;
      destruct (t_rest th) as [|[|] r]; prd Hpc; auto.
  - (* PR0: the same argument whether or not the reader enters at once *)
    destruct ((Z.land (rin c) WBITS =? 0)
              || negb (Z.land (rin c) WBITS =? Z.land (wrap (rin c + RINC)) WBITS)) eqn:Hcond;
      eapply (rinv_R0 c _ t th _ HR Hlen Hn Hpc); try reflexivity;
      cbn [rin t_pc at_pc]; rewrite Hcond; reflexivity.
  - (* PRw *)
    destruct (w =? Z.land (rin c) WBITS) eqn:Hcond; [exact HR|].
    eapply (rinv_frame c _ t th _ HR Hn); try reflexivity; prd Hpc; try reflexivity.
    pose proof (ri_rng c HR) as [Hrin _]. rewrite land_wbits in Hcond by lia.
    destruct (low_bits c HR) as [(E & _)|(_ & _ & E4)]; [right; exact E|left].
    rewrite E4 in Hcond. rewrite Hcond. reflexivity.
  - (* PRcs *)
    eapply (rinv_frame c _ t th _ HR Hn); try reflexivity; prd Hpc; auto.
  - (* PRx *)
    eapply (rinv_Rx c _ t th _ HR Hn Hpc); try reflexivity. apply begin_is_begin.
  - (* PW0 *)
    eapply (rinv_frame c _ t th _ HR Hn); try reflexivity; prd Hpc;
      destruct (wout c =? win c); auto.
  - (* PWw *)
    destruct (wout c =? tk); [|exact HR].
    eapply (rinv_frame c _ t th _ HR Hn); try reflexivity; prd Hpc; auto.
  - (* PW1: the same argument whether or not the writer enters at once *)
    destruct (rout c =? rin c) eqn:Hcond;
      eapply (rinv_W1 c _ t th _ tk HT HR Hn Hpc); try reflexivity;
      cbn [t_pc at_pc]; rewrite Hcond; reflexivity.
  - (* PWr: the readers it waited for have left *)
    destruct (rout c =? tk) eqn:Hcond; [|exact HR].
    eapply (rinv_frame c _ t th _ HR Hn); try reflexivity; prd Hpc; auto.
    destruct (ri_pc c HR t th (PWr tk) Hn Hpc) as [Hr Hd].
    assert (rout c = tk) by lia. subst tk. rewrite Z.sub_diag in Hd.
    change (0 mod 4294967296) with 0 in Hd. lia.
  - (* PWcs *)
    eapply (rinv_frame c _ t th _ HR Hn); try reflexivity; prd Hpc; auto.
    apply (ri_pc c HR t th PWcs Hn Hpc).
  - (* PWx *)
    eapply (rinv_Wx c _ t th _ HT HR Hn Hpc); reflexivity.
  - (* PWy *)
    eapply (rinv_Wy c _ t th _ HT HR Hn Hpc); try reflexivity. apply begin_is_begin.
  - (* PDone *) exact HR.
Qed.

Theorem step_inv c t : Inv c -> Inv (step c t).
Proof.
  intros [Hlen HT HR]. constructor.
  - rewrite step_len. exact Hlen.
  - apply (step_tinv c t HT Hlen).
  - apply (step_rinv c t HT HR Hlen).
Qed.

Lemma run_inv sched c : Inv c -> Inv (run c sched).
Proof. unfold run. apply fold_left_inv. intros a b. apply step_inv. Qed.

(* a quiescent lock (a read cycles and b write cycles served) with fewer than 2^24 threads about to start *)
Lemma init_inv a b progs : Z.of_nat (length progs) < NB -> Inv (init_at a b progs).
Proof.
  intros Hlen.
  (* before any thread has started, no region is occupied *)
  pose proof (fun f => cnt_map_false (at_pc PStart) f progs) as Hno.
  assert (Hst : forall t th, nth_error (map (at_pc PStart) progs) t = Some th -> t_pc th = PStart).
  { intros t th Hp. destruct (nth_error_map_inv _ _ _ _ Hp) as (x & _ & <-). reflexivity. }
  constructor; unfold init_at; cbn [thrs rin rout win wout].
  - rewrite map_length. exact Hlen.
  - constructor; cbn [thrs rin rout win wout]; rewrite ?(Hno is_A) by reflexivity.
    + split; apply wrap_range.
    + rewrite Z.sub_diag. reflexivity.
    + intros t th Hp HA. unfold is_A in HA. rewrite (Hst t th Hp) in HA. discriminate.
    + intros t u th uh Hp _ HA. unfold is_A in HA. rewrite (Hst t th Hp) in HA. discriminate.
    + intros k Hk. lia.
    + intros t th p Hp <-. rewrite (Hst t th Hp). exact I.
  - constructor; cbn [thrs rin rout win wout];
      rewrite ?(Hno is_wset), ?(Hno is_rfl) by reflexivity.
    + split; apply wrap_range.
    + unfold wrap, RINC. lia.
    + change (0 <? 0) with false. cbv iota. unfold wrap, RINC. lia.
    + unfold wrap, RINC. lia.
    + intros t th Hp. rewrite (Hst t th Hp). exact I.
Qed.

Theorem reachable_inv a b progs sched : Z.of_nat (length progs) < NB ->
  Inv (run (init_at a b progs) sched).
Proof. intros H. apply run_inv, init_inv, H. Qed.
