(* Safety of the read-write lock model: mutual exclusion (on states and on the
   recorded enter/exit log), single writer of wout, counters at quiescence. *)
From PV Require Import Base.Tac Base.ListX RWLock.RWLockDefs RWLock.RWLockBase RWLock.RWLockInv.
Local Open Scope Z_scope.

(* [lia] on [/] and [mod]: the lock words are residues mod 2^32 *)
Ltac Zify.zify_post_hook ::= Z.div_mod_to_equations.

Lemma rcs_early wo th : is_rcs th = true -> early wo th = true.
Proof. unfold is_rcs, early. destruct (t_pc th); auto; discriminate. Qed.

Theorem excl c : Inv c ->
  cnt is_wcs (thrs c) <= 1 /\ (0 < cnt is_wcs (thrs c) -> cnt is_rcs (thrs c) = 0).
Proof.
  intros [Hlen HT HR]. split.
  - pose proof (cnt_hold_le1 c HT).
    pose proof (cnt_mono is_wcs is_hold (thrs c) (fun p H => wset_hold p (wcs_wset p H))). lia.
  - intros Hpos. destruct (cnt_pos_ex _ _ Hpos) as (t & th & Hn & Hw).
    apply (cnt_zero_mono _ _ _ (rcs_early (wout c))), (ri_wcs c HR t th Hn Hw).
Qed.

(* the plain (non-atomic) update L->wout = L->wout+1 is never concurrent with another one,
   nor with any other thread that is past the ticket wait *)
Theorem wout_single_writer c t u th uh : Inv c ->
  nth_error (thrs c) t = Some th -> t_pc th = PWy ->
  nth_error (thrs c) u = Some uh -> is_hold uh = true -> u = t.
Proof.
  intros [_ HT _] Hn Hpc Hu Hh. apply (hold_unique c u t uh th HT Hu Hh Hn).
  unfold is_hold. rewrite Hpc. reflexivity.
Qed.

Definition is_rin (th : thr) : bool := match t_pc th with PRcs => true | _ => false end.
Definition is_win (th : thr) : bool := match t_pc th with PWcs => true | _ => false end.
Definition LInv (c : cfg) : Prop :=
  occ (log c) = Some (cnt is_rin (thrs c), cnt is_win (thrs c)).

Lemma rin_rcs th : is_rin th = true -> is_rcs th = true.
Proof. unfold is_rin, is_rcs. destruct (t_pc th); auto. Qed.
Lemma win_wcs th : is_win th = true -> is_wcs th = true.
Proof. unfold is_win, is_wcs. destruct (t_pc th); auto. Qed.

(* the effect of a step on the log and on the two counts, for thread [Hn] *)
Ltac cnts Hn HL :=
  cbn [log thrs occ]; rewrite !(cnt_upd _ _ _ _ _ Hn), HL;
  cbn [is_rin is_win t_pc t_rest at_pc begin].

Theorem step_linv c t : Inv c -> LInv c -> LInv (step c t).
Proof.
  intros HI HL.
  (* an "enter" is recorded only where mutual exclusion holds in the new state *)
  assert (Hx : 0 < cnt is_win (thrs (step c t)) ->
               cnt is_win (thrs (step c t)) <= 1 /\ cnt is_rin (thrs (step c t)) <= 0).
  { pose proof (excl _ (step_inv c t HI)) as [Hx1 Hx2].
    pose proof (cnt_mono is_rin is_rcs (thrs (step c t)) rin_rcs).
    pose proof (cnt_mono is_win is_wcs (thrs (step c t)) win_wcs). lia. }
  pose proof (cnt_nonneg is_rin (thrs c)) as Hn1. pose proof (cnt_nonneg is_win (thrs c)) as Hn2.
  clear HI. revert Hx. unfold LInv in *. unfold step.
  destruct (nth_error (thrs c) t) as [th|] eqn:Hn; [|intros _; exact HL].
  destruct th as [p r]. cbn [t_pc t_rest].
  destruct p.
  - destruct r as [|[|] r]; cnts Hn HL; intros _; f_equal; f_equal; lia.
  - destruct (_ || _); cnts Hn HL; intros Hx.
    + destruct (cnt is_win (thrs c) =? 0) eqn:E; [f_equal; f_equal; lia|lia].
    + f_equal; f_equal; lia.
  - destruct (_ =? _); [intros _; exact HL|]. cnts Hn HL. intros Hx.
    destruct (cnt is_win (thrs c) =? 0) eqn:E; [f_equal; f_equal; lia|lia].
  - cnts Hn HL. intros _. f_equal; f_equal; lia.
  - destruct r as [|[|] r]; cnts Hn HL; intros _; f_equal; f_equal; lia.
  - destruct (_ =? _); cnts Hn HL; intros _; f_equal; f_equal; lia.
  - destruct (_ =? _); [|intros _; exact HL]. cnts Hn HL. intros _. f_equal; f_equal; lia.
  - destruct (_ =? _); cnts Hn HL; intros Hx.
    + destruct ((cnt is_win (thrs c) =? 0) && (cnt is_rin (thrs c) =? 0)) eqn:E;
        [f_equal; f_equal; lia|lia].
    + f_equal; f_equal; lia.
  - destruct (_ =? _); [|intros _; exact HL]. cnts Hn HL. intros Hx.
    destruct ((cnt is_win (thrs c) =? 0) && (cnt is_rin (thrs c) =? 0)) eqn:E;
      [f_equal; f_equal; lia|lia].
  - cnts Hn HL. intros _. f_equal; f_equal; lia.
  - cnts Hn HL. intros _. f_equal; f_equal; lia.
  - destruct r as [|[|] r]; cnts Hn HL; intros _; f_equal; f_equal; lia.
  - intros _. exact HL.
Qed.

Lemma init_linv a b progs : LInv (init_at a b progs).
Proof.
  unfold LInv, init_at. cbn [log thrs occ].
  rewrite !cnt_map_false by reflexivity. reflexivity.
Qed.

Lemma run_both sched : forall c, Inv c /\ LInv c -> Inv (run c sched) /\ LInv (run c sched).
Proof.
  unfold run. apply (fold_left_inv step (fun c => Inv c /\ LInv c)). intros x t [HI HL].
  split; [apply step_inv, HI|apply step_linv; assumption].
Qed.

Definition kcount (k : kind) (p : list kind) : Z :=
  sumz (fun x => match x, k with KR, KR | KW, KW => 1 | _, _ => 0 end) p.
(* read (write) cycles a thread has not completed yet *)
Definition pendR (th : thr) : Z :=
  kcount KR (t_rest th) + match t_pc th with PR0 | PRw _ | PRcs | PRx => 1 | _ => 0 end.
Definition pendW (th : thr) : Z :=
  kcount KW (t_rest th) +
  match t_pc th with PW0 | PWw _ | PW1 _ | PWr _ | PWcs | PWx | PWy => 1 | _ => 0 end.
Definition totalR (progs : list (list kind)) : Z := sumz (kcount KR) progs.
Definition totalW (progs : list (list kind)) : Z := sumz (kcount KW) progs.

Definition QInv (nr nw : Z) (c : cfg) : Prop :=
  rout c = wrap (RINC * (nr - sumz pendR (thrs c))) /\ wout c = wrap (nw - sumz pendW (thrs c)).

Lemma pend_begin r : pendR (begin r) = kcount KR r /\ pendW (begin r) = kcount KW r.
Proof. destruct r as [|[|] r]; unfold pendR, pendW, kcount; cbn [begin t_pc t_rest sumz]; lia. Qed.

Lemma step_qinv nr nw c t : QInv nr nw c -> QInv nr nw (step c t).
Proof.
  intros [Hr Hw]. unfold QInv, step.
  destruct (nth_error (thrs c) t) as [th|] eqn:Hn; [|split; assumption].
  destruct th as [p r]. cbn [t_pc t_rest].
  pose proof (pend_begin r) as [Hb1 Hb2].
  set (S1 := sumz pendR (thrs c)) in *. set (S2 := sumz pendW (thrs c)) in *.
  destruct p; repeat match goal with |- context[if ?b then _ else _] => destruct b end;
    cbn [rout wout thrs]; rewrite ?(sumz_upd _ _ _ _ _ Hn), ?Hb1, ?Hb2;
    fold S1; fold S2; clearbody S1 S2; unfold pendR, pendW; cbn [t_pc t_rest at_pc]; try (split; assumption);
    rewrite Hr, Hw, ?wrap_add_l; split; f_equal; unfold RINC; lia.
Qed.

Lemma all_done_pcs c : all_done c = true ->
  forall t th, nth_error (thrs c) t = Some th -> t_pc th = PDone.
Proof.
  unfold all_done. intros H t th Hn. rewrite forallb_forall in H.
  specialize (H th (nth_error_In _ _ Hn)). unfold is_done in H. destruct (t_pc th); congruence.
Qed.

Theorem quiescent_counters a b progs sched : Z.of_nat (length progs) < NB ->
  let c := run (init_at a b progs) sched in
  all_done c = true ->
  rin c = wrap (RINC * (a + totalR progs)) /\ rout c = rin c /\
  win c = wrap (b + totalW progs) /\ wout c = win c.
Proof.
  intros Hlen c Hd.
  assert (HI : Inv c) by (apply reachable_inv, Hlen).
  assert (HQ : QInv (a + totalR progs) (b + totalW progs) c).
  { unfold c, run. apply fold_left_inv; [intros x t; apply step_qinv|].
    unfold QInv, init_at. cbn [rout wout thrs]. rewrite !sumz_map.
    unfold pendR, pendW, totalR, totalW. cbn [t_pc t_rest at_pc].
    rewrite (sumz_ext (fun x => kcount KR x + 0) (kcount KR)), (sumz_ext (fun x => kcount KW x + 0) (kcount KW))
      by (intros; lia).
    split; f_equal; [f_equal|]; lia. }
  destruct HI as [_ HT HR]. destruct HQ as [Hr Hw].
  pose proof (all_done_pcs c Hd) as Hpcs.
  assert (Hz : forall f : thr -> bool, (forall th, t_pc th = PDone -> f th = false) -> cnt f (thrs c) = 0).
  { intros f Hf. apply cnt_zero_of_all. intros t th Hn. apply Hf, (Hpcs t th Hn). }
  assert (HA : cnt is_A (thrs c) = 0) by (apply Hz; intros th E; unfold is_A; rewrite E; reflexivity).
  assert (HS : cnt is_wset (thrs c) = 0) by (apply Hz; intros th E; unfold is_wset; rewrite E; reflexivity).
  assert (HF : cnt is_rfl (thrs c) = 0) by (apply Hz; intros th E; unfold is_rfl; rewrite E; reflexivity).
  assert (HpR : sumz pendR (thrs c) = 0 /\ sumz pendW (thrs c) = 0).
  { assert (G : forall l : list thr, (forall t th, nth_error l t = Some th -> t_pc th = PDone /\ t_rest th = []) ->
              sumz pendR l = 0 /\ sumz pendW l = 0).
    { induction l as [|x l IH]; intros H; cbn [sumz]; [split; reflexivity|].
      destruct (H 0%nat x eq_refl) as [E1 E2]. destruct IH as [I1 I2].
      { intros t th Hn. apply (H (S t) th Hn). }
      rewrite I1, I2. unfold pendR, pendW. rewrite E1, E2. split; reflexivity. }
    apply G. intros t th Hn. split; [apply (Hpcs t th Hn)|apply (ri_pc c HR t th PDone Hn (Hpcs t th Hn))]. }
  destruct HpR as [HpR HpW]. rewrite HpR in Hr. rewrite HpW in Hw. rewrite Z.sub_0_r in Hr, Hw.
  pose proof (ti_rng c HT) as [Hwin Hwout]. pose proof (ri_rng c HR) as [Hrin Hrout].
  pose proof (ti_cnt c HT) as Hc. rewrite HA in Hc.
  pose proof (ri_low c HR) as Hl. rewrite HS in Hl. change (0 <? 0) with false in Hl. cbv iota in Hl.
  pose proof (ri_dif c HR) as Hdif. rewrite HF, Hl in Hdif.
  rewrite Z.sub_0_r in Hdif.
  apply (diff_zero_iff _ _ Hwin Hwout) in Hc. apply (diff_zero_iff _ _ Hrin Hrout) in Hdif.
  repeat split; congruence.
Qed.
