(* Bounded bypass (phase-fairness) of the read-write lock model:
   - a waiting reader is overtaken by at most one writer;
   - a writer whose bits are in rin is overtaken by no writer and only by the
     readers that were already counted when it set its bits (the current read phase);
   - writers enter in ticket order: a writer waiting for wout is overtaken by at
     most as many writers as there are tickets before its own. *)
From PV Require Import Base.Tac Base.ListX RWLock.RWLockDefs RWLock.RWLockBase RWLock.RWLockInv.
Local Open Scope Z_scope.

(* [lia] on [/] and [mod]: the lock words are residues mod 2^32 *)
Ltac Zify.zify_post_hook ::= Z.div_mod_to_equations.

(* entries into the critical section recorded so far *)
Definition wents (l : list ev) : Z := sumz (fun e => match e with Enter _ KW => 1 | _ => 0 end) l.
Definition rents (l : list ev) : Z := sumz (fun e => match e with Enter _ KR => 1 | _ => 0 end) l.

(* [P] holds after every step of the schedule *)
Fixpoint stays (P : cfg -> Prop) (c : cfg) (s : list nat) : Prop :=
  match s with [] => True | u :: s' => P (step c u) /\ stays P (step c u) s' end.

Definition is_wr (th : thr) : bool := match t_pc th with PWr _ => true | _ => false end.
Lemma wr_hold th : is_wr th = true -> is_hold th = true.
Proof. unfold is_wr, is_hold. destruct (t_pc th); auto. Qed.

Definition rd_waits (t : nat) (w : Z) (c : cfg) : Prop :=
  exists th, nth_error (thrs c) t = Some th /\ t_pc th = PRw w.

(* writer entries that can still happen before the reader (blocked on bits w) gets in *)
Definition wbudget (c : cfg) (w : Z) : Z :=
  if (0 <? cnt is_wset (thrs c)) && (w =? cur (wout c)) then cnt is_wr (thrs c) else 0.

Lemma wbudget_le1 c w : Inv c -> 0 <= wbudget c w <= 1.
Proof.
  intros [_ HT _]. unfold wbudget. pose proof (cnt_hold_le1 c HT).
  pose proof (cnt_mono is_wr is_hold (thrs c) wr_hold). pose proof (cnt_nonneg is_wr (thrs c)).
  destruct (_ && _); lia.
Qed.

Lemma wbudget_zero c w : cnt is_wset (thrs c) = 0 \/ w <> cur (wout c) -> wbudget c w = 0.
Proof.
  unfold wbudget. intros [H|H]; [rewrite H; reflexivity|].
  replace (w =? cur (wout c)) with false by lia. rewrite andb_false_r. reflexivity.
Qed.
Lemma wbudget_wr c w : 0 < cnt is_wset (thrs c) -> w = cur (wout c) -> wbudget c w = cnt is_wr (thrs c).
Proof.
  unfold wbudget. intros H ->. replace (0 <? cnt is_wset (thrs c)) with true by lia.
  rewrite Z.eqb_refl. reflexivity.
Qed.
Lemma wbudget_frame c c' u uh q w : nth_error (thrs c) u = Some uh ->
  thrs c' = upd (thrs c) u q -> wout c' = wout c -> is_wset q = is_wset uh -> is_wr q = is_wr uh ->
  wbudget c' w = wbudget c w.
Proof.
  intros Hu Hth Hwo H1 H2. unfold wbudget. rewrite Hth, Hwo, !(cnt_upd _ _ _ _ _ Hu), H1, H2.
  replace (cnt is_wset (thrs c) - _ + _) with (cnt is_wset (thrs c)) by lia.
  replace (cnt is_wr (thrs c) - _ + _) with (cnt is_wr (thrs c)) by lia. reflexivity.
Qed.

Lemma reader_bypass_step c t u w : Inv c -> rd_waits t w c -> rd_waits t w (step c u) ->
  wents (log (step c u)) + wbudget (step c u) w <= wents (log c) + wbudget c w.
Proof.
  intros HI (th & Hn & Hpc) (th' & Hn' & Hpc').
  destruct (Nat.eq_dec u t) as [->|Hne].
  { (* the reader itself: a stutter step *)
    unfold step in *. rewrite Hn, Hpc in *.
    destruct (w =? Z.land (rin c) WBITS); [lia|].
    cbn [thrs] in Hn'. rewrite (nth_upd_same _ _ _ _ Hn) in Hn'. inversion Hn'; subst th'. discriminate. }
  clear th' Hn' Hpc'. pose proof (wbudget_le1 c w HI) as [Hb0 _]. destruct HI as [Hlen HT HR].
  unfold step, wents. destruct (nth_error (thrs c) u) as [[p r]|] eqn:Hu; [|lia]. cbn [t_pc t_rest].
  (* only a writer past the ticket wait changes the budget or enters *)
  destruct p;
    try (repeat match goal with |- context[if ?b then _ else _] => destruct b end; try lia;
         erewrite (wbudget_frame c _ u _ _ w Hu) by reflexivity; cbn [log sumz]; lia).
  (* PStart, PRx *)
  1-2: destruct r as [|[|] r]; erewrite (wbudget_frame c _ u _ _ w Hu) by reflexivity; cbn [log]; lia.
  - (* PW1: the reader waits for the previous writer's bits, not for this one's, and is still
       in flight, so the writer does not enter *)
    destruct (w1_alone c u _ tk HT Hu eq_refl) as [Hw0 _].
    pose proof (w1_readers c u _ tk t th w HT HR Hu eq_refl Hn Hpc) as Hw.
    pose proof (cur_next (wout c)) as [Hx _].
    rewrite (wbudget_zero c w (or_introl Hw0)).
    destruct (rout c =? rin c) eqn:E.
    + exfalso. assert (Hfl : 0 < cnt is_rfl (thrs c)).
      { apply (cnt_pos_of_nth _ _ t th Hn). unfold is_rfl. rewrite Hpc. reflexivity. }
      pose proof (ri_rng c HR) as [Hrin Hrout].
      destruct (low_bits c HR) as [(_ & Hlo & _)|(Hpos & _)]; [|lia].
      pose proof (ri_dif c HR) as Hd. rewrite Hlo in Hd. lia.
    + rewrite wbudget_zero; [cbn [log]; lia|right; cbn [wout]; congruence].
  - (* PWr: when the writer enters, the reader was not early, so it waits for this writer's bits *)
    destruct (rout c =? tk) eqn:E; [|lia].
    destruct (ri_pc c HR u _ (PWr tk) Hu eq_refl) as [_ Hd].
    assert (rout c = tk) by lia. subst tk. rewrite Z.sub_diag in Hd. change (0 mod 4294967296) with 0 in Hd.
    assert (He0 : cnt (early (wout c)) (thrs c) = 0) by lia.
    pose proof (cnt_zero_all _ _ He0 t th Hn) as He. unfold early in He. rewrite Hpc in He.
    assert (Hcur : w = cur (wout c)) by (destruct (w =? cur (wout c)) eqn:Ew; [lia|discriminate]).
    pose proof (cnt_pos_of_nth is_wset _ u _ Hu eq_refl) as Hpos.
    rewrite (wbudget_wr c w Hpos Hcur), wbudget_wr; cbn [thrs wout log sumz];
      rewrite ?(cnt_upd _ _ _ _ _ Hu); cbn [is_wset is_wr t_pc at_pc]; [lia|lia|exact Hcur].
  - (* PWx *)
    pose proof (cnt_only_holder c u _ is_wset HT Hu eq_refl wset_hold) as Hw1. cbn [is_wset t_pc] in Hw1.
    rewrite wbudget_zero; [cbn [log]; lia|left; cbn [thrs]].
    rewrite (cnt_upd _ _ _ _ _ Hu), Hw1. reflexivity.
  - (* PWy *)
    pose proof (cnt_only_holder c u _ is_wset HT Hu eq_refl wset_hold) as Hw0. cbn [is_wset t_pc] in Hw0.
    rewrite wbudget_zero; [cbn [log]; lia|left; cbn [thrs]].
    rewrite (cnt_upd _ _ _ _ _ Hu), Hw0. destruct r as [|[|] r]; reflexivity.
Qed.

(* a quantity [F] that every step between two states of [P] moves along the preorder [R] has moved
   along [R] over a whole run that stays in [P], and [P] holds at its end *)
Lemma stays_run {A} (R : A -> A -> Prop) (P : cfg -> Prop) (F : cfg -> A) :
  (forall x, R x x) -> (forall x y z, R x y -> R y z -> R x z) ->
  (forall c u, Inv c -> P c -> P (step c u) -> R (F (step c u)) (F c)) ->
  forall s c, Inv c -> P c -> stays P c s -> R (F (run c s)) (F c) /\ P (run c s).
Proof.
  intros Hrefl Htrans Hstep. induction s as [|u s IH]; intros c HI HP Hs; unfold run in *; cbn [fold_left]; [auto|].
  destruct Hs as [HP' Hs]. destruct (IH (step c u) (step_inv c u HI) HP' Hs) as [H1 H2].
  split; [|exact H2]. exact (Htrans _ _ _ H1 (Hstep c u HI HP HP')).
Qed.

(* while reader t keeps waiting, at most one writer enters the critical section *)
Theorem reader_bypass c s t w : Inv c -> rd_waits t w c -> stays (rd_waits t w) c s ->
  wents (log (run c s)) <= wents (log c) + 1.
Proof.
  intros HI HP Hs.
  pose proof (stays_run Z.le (rd_waits t w) (fun c => wents (log c) + wbudget c w) Z.le_refl Z.le_trans
                (fun c u HI HP HP' => reader_bypass_step c t u w HI HP HP') s c HI HP Hs) as [H _].
  cbv beta in H. pose proof (wbudget_le1 c w HI). pose proof (wbudget_le1 _ w (run_inv s c HI)). lia.
Qed.

Definition wr_waits (t : nat) (tk : Z) (c : cfg) : Prop :=
  exists th, nth_error (thrs c) t = Some th /\ t_pc th = PWr tk.
(* readers that were blocked by the previous writer and have not yet noticed that it left *)
Definition is_erw (wo : Z) (th : thr) : bool :=
  match t_pc th with PRw w => negb (w =? cur wo) | _ => false end.

Lemma writer_bypass_step c t u tk : Inv c -> wr_waits t tk c -> wr_waits t tk (step c u) ->
  wout (step c u) = wout c /\
  wents (log (step c u)) = wents (log c) /\
  rents (log (step c u)) + cnt (is_erw (wout c)) (thrs (step c u)) =
  rents (log c) + cnt (is_erw (wout c)) (thrs c).
Proof.
  intros HI (th & Hn & Hpc) (th' & Hn' & Hpc').
  destruct (Nat.eq_dec u t) as [->|Hne].
  { unfold step in *. rewrite Hn, Hpc in *.
    destruct (rout c =? tk); [|auto].
    cbn [thrs] in Hn'. rewrite (nth_upd_same _ _ _ _ Hn) in Hn'. inversion Hn'; subst th'. discriminate. }
  clear th' Hn' Hpc'. destruct HI as [Hlen HT HR].
  pose proof (ri_rng c HR) as [Hrin Hrout].
  assert (Hh : is_hold th = true) by (unfold is_hold; rewrite Hpc; reflexivity).
  assert (Hpos : 0 < cnt is_wset (thrs c)).
  { apply (cnt_pos_of_nth _ _ t th Hn). unfold is_wset. rewrite Hpc. reflexivity. }
  destruct (low_bits c HR) as [(E & _)|(_ & _ & E4)]; [lia|].
  pose proof (cur_23 (wout c)) as H23.
  assert (G : forall uh, nth_error (thrs c) u = Some uh -> is_hold uh = true -> False).
  { intros uh Hu Hhu. apply Hne. apply (hold_unique c u t uh th HT Hu Hhu Hn Hh). }
  unfold step, wents, rents. destruct (nth_error (thrs c) u) as [uh|] eqn:Hu; [|auto].
  destruct uh as [p r]. cbn [t_pc t_rest].
  destruct p; try (exfalso; apply (G _ eq_refl eq_refl)).
  (* PStart, PRx *)
  1,5: destruct r as [|[|] r]; cbn [log thrs wout sumz begin]; rewrite (cnt_upd _ _ _ _ _ Hu);
    cbn [is_erw t_pc]; repeat split; lia.
  - rewrite !land_wbits by (try apply wrap_range; lia).
    assert (Hm4 : wrap (rin c + RINC) mod 4 = rin c mod 4) by (unfold wrap, RINC; lia).
    rewrite Hm4, E4, Z.eqb_refl. destruct (cur (wout c) =? 0) eqn:E0; [lia|].
    cbn [orb negb log thrs wout sumz]. rewrite (cnt_upd _ _ _ _ _ Hu).
    cbn [is_erw t_pc at_pc]. rewrite Z.eqb_refl. cbn [negb]. repeat split; lia.
  - rewrite land_wbits by lia. rewrite E4.
    destruct (w =? cur (wout c)) eqn:Ew; [auto|].
    cbn [log thrs wout sumz]. rewrite (cnt_upd _ _ _ _ _ Hu).
    cbn [is_erw t_pc at_pc]. rewrite Ew. cbn [negb]. repeat split; lia.
  - cbn [log thrs wout sumz]. rewrite (cnt_upd _ _ _ _ _ Hu). cbn [is_erw t_pc at_pc]. repeat split; lia.
  - destruct (wout c =? win c); cbn [log thrs wout sumz]; rewrite (cnt_upd _ _ _ _ _ Hu);
      cbn [is_erw t_pc at_pc]; repeat split; lia.
  - destruct (wout c =? tk0); [|auto]. cbn [log thrs wout sumz]. rewrite (cnt_upd _ _ _ _ _ Hu).
    cbn [is_erw t_pc at_pc]. repeat split; lia.
  - auto.
Qed.

(* while writer t waits with its bits set: no other writer enters, and the readers that
   enter are taken from those that were waiting on the previous writer's bits (none of the
   readers that arrive later); their number is bounded by the readers counted in its ticket *)
Theorem writer_bypass c s t tk : Inv c -> wr_waits t tk c -> stays (wr_waits t tk) c s ->
  wents (log (run c s)) = wents (log c) /\
  rents (log (run c s)) + cnt (is_erw (wout c)) (thrs (run c s)) =
    rents (log c) + cnt (is_erw (wout c)) (thrs c) /\
  256 * cnt (is_erw (wout c)) (thrs c) <= (tk - rout c) mod M32.
Proof.
  intros HI HP Hs.
  destruct (stays_run eq (wr_waits t tk)
              (fun c => (wout c, wents (log c), rents (log c) + cnt (is_erw (wout c)) (thrs c)))
              (@eq_refl _) (@eq_trans _)) with (s := s) (c := c) as [H _]; auto.
  { intros c' u HI' H1 H2. destruct (writer_bypass_step c' t u tk HI' H1 H2) as (E1 & E2 & E3).
    rewrite E1, E2, E3. reflexivity. }
  injection H as Hwo Hwe Hre. rewrite Hwo in Hre. repeat split; [exact Hwe|exact Hre|].
  destruct HP as (th & Hn & Hpc). destruct HI as [_ _ HR].
  destruct (ri_pc c HR t th (PWr tk) Hn Hpc) as [_ Hd]. rewrite Hd.
  assert (cnt (is_erw (wout c)) (thrs c) <= cnt (early (wout c)) (thrs c)); [|lia].
  apply cnt_mono. intros p. unfold is_erw, early. destruct (t_pc p); auto; discriminate.
Qed.

Definition ww_waits (t : nat) (tk : Z) (c : cfg) : Prop :=
  exists th, nth_error (thrs c) t = Some th /\ t_pc th = PWw tk.
(* the served ticket's owner is already past its entry *)
Definition is_ent (th : thr) : bool := match t_pc th with PWcs | PWx | PWy => true | _ => false end.
Lemma ent_hold th : is_ent th = true -> is_hold th = true.
Proof. unfold is_ent, is_hold. destruct (t_pc th); auto. Qed.
(* writer entries that can still precede the owner of ticket tk *)
Definition ahead (c : cfg) (tk : Z) : Z := (tk - wout c) mod M32 - cnt is_ent (thrs c).

Lemma ahead_bounds c t tk : Inv c -> ww_waits t tk c ->
  0 <= ahead c tk <= (tk - wout c) mod M32 /\ (tk - wout c) mod M32 < cnt is_A (thrs c).
Proof.
  intros [_ HT _] (th & Hn & Hpc). unfold ahead.
  assert (HA : is_A th = true) by (unfold is_A; rewrite Hpc; reflexivity).
  pose proof (ti_lt c HT t th Hn HA) as Hlt. unfold off in Hlt. rewrite Hpc in Hlt.
  pose proof (cnt_nonneg is_ent (thrs c)). pose proof (cnt_hold_le1 c HT).
  pose proof (cnt_mono is_ent is_hold (thrs c) ent_hold).
  split; [|exact Hlt]. split; [|lia].
  destruct (Z.eq_dec ((tk - wout c) mod M32) 0) as [E|E]; [|lia].
  assert (cnt is_ent (thrs c) = 0); [|lia].
  apply cnt_zero_of_all. intros u uh Hu. destruct (is_ent uh) eqn:Ee; [|reflexivity]. exfalso.
  assert (u = t).
  { apply (ti_inj c HT u t uh th Hu Hn (hold_A _ (ent_hold _ Ee)) HA).
    rewrite (hold_off c u uh HT Hu (ent_hold _ Ee)). unfold off. rewrite Hpc. lia. }
  subst u. rewrite Hn in Hu. inversion Hu; subst uh. unfold is_ent in Ee. rewrite Hpc in Ee. discriminate.
Qed.

Lemma fifo_step c t u tk : Inv c -> ww_waits t tk c -> ww_waits t tk (step c u) ->
  wents (log (step c u)) + ahead (step c u) tk = wents (log c) + ahead c tk.
Proof.
  intros HI (th & Hn & Hpc) (th' & Hn' & Hpc').
  destruct (Nat.eq_dec u t) as [->|Hne].
  { unfold step in *. rewrite Hn, Hpc in *.
    destruct (wout c =? tk); [|auto].
    cbn [thrs] in Hn'. rewrite (nth_upd_same _ _ _ _ Hn) in Hn'. inversion Hn'; subst th'. discriminate. }
  clear th' Hn' Hpc'. destruct HI as [Hlen HT HR].
  assert (HA : is_A th = true) by (unfold is_A; rewrite Hpc; reflexivity).
  (* if u is past the ticket wait, t's ticket is not the served one *)
  assert (G : forall uh, nth_error (thrs c) u = Some uh -> is_hold uh = true ->
              1 <= (tk - wout c) mod M32).
  { intros uh Hu Hh. destruct (Z.eq_dec ((tk - wout c) mod M32) 0) as [E|E]; [|lia].
    exfalso. apply Hne. apply (ti_inj c HT u t uh th Hu Hn (hold_A _ Hh) HA).
    rewrite (hold_off c u uh HT Hu Hh). unfold off. rewrite Hpc. lia. }
  unfold step, wents, ahead. destruct (nth_error (thrs c) u) as [uh|] eqn:Hu; [|auto].
  specialize (G uh eq_refl). clear - Hu G.
  destruct uh as [p r]. cbn [t_pc t_rest].
  assert (Hb : is_ent (begin r) = false) by (destruct r as [|[|] r]; reflexivity).
  destruct p; repeat match goal with |- context[if ?b then _ else _] => destruct b end;
    cbn [log thrs wout sumz]; rewrite ?(cnt_upd _ _ _ _ _ Hu), ?Hb; cbn [is_ent t_pc at_pc]; try lia.
  (* PWy: wout moves on *)
  rewrite (diff_inc_r tk (wout c) _ eq_refl (G eq_refl)). lia.
Qed.

(* while writer t waits for its ticket, at most as many writers enter as there are
   tickets before its own (minus the served one if its owner is already inside) *)
Theorem writer_fifo c s t tk : Inv c -> ww_waits t tk c -> stays (ww_waits t tk) c s ->
  wents (log (run c s)) <= wents (log c) + ahead c tk /\
  ahead c tk <= (tk - wout c) mod M32 < cnt is_A (thrs c).
Proof.
  intros HI HP Hs.
  destruct (stays_run eq (ww_waits t tk) (fun c => wents (log c) + ahead c tk) (@eq_refl _) (@eq_trans _)
              (fun c u HI HP HP' => fifo_step c t u tk HI HP HP') s c HI HP Hs) as [H HP'].
  cbv beta in H.
  pose proof (ahead_bounds _ t tk (run_inv s c HI) HP') as [[H0 _] _].
  pose proof (ahead_bounds c t tk HI HP) as [[_ H1] H2]. lia.
Qed.
