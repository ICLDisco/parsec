(* Reachable states: a lock that has served a read and b write cycles, any
   number (< 2^24) of threads with arbitrary programs of lock/unlock cycles,
   any schedule. *)
From PV Require Import Base.Tac Base.ListX RWLock.RWLockDefs RWLock.RWLockBase RWLock.RWLockInv
  RWLock.RWLockSafety RWLock.RWLockProgress RWLock.RWLockFair RWLock.RWLockWait.
Local Open Scope Z_scope.

Definition reach (a b : Z) (progs : list (list kind)) (sched : list nat) : cfg :=
  run (init_at a b progs) sched.

Lemma reach_inv a b progs sched : Z.of_nat (length progs) < NB -> Inv (reach a b progs sched).
Proof. apply reachable_inv. Qed.

Lemma reach_len a b progs sched : length (thrs (reach a b progs sched)) = length progs.
Proof. unfold reach. rewrite run_len. unfold init_at. cbn [thrs]. apply map_length. Qed.

Theorem quiescent a b progs sched : Z.of_nat (length progs) < NB ->
  let c := reach a b progs sched in
  all_done c = true ->
  rin c = wrap (RINC * (a + totalR progs)) /\ rout c = rin c /\
  win c = wrap (b + totalW progs) /\ wout c = win c.
Proof. apply quiescent_counters. Qed.

Theorem stable a b progs sched t u th : Z.of_nat (length progs) < NB ->
  let c := reach a b progs sched in
  nth_error (thrs c) t = Some th -> enabled c th = true -> u <> t ->
  nth_error (thrs (step c u)) t = Some th /\ enabled (step c u) th = true.
Proof. intros H c. apply enabled_stable, reach_inv, H. Qed.
