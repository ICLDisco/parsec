(* Arithmetic (mod 2^32, bit masks) and list-counting lemmas used by the
   read-write lock proofs. *)
From PV Require Import Base.Tac Base.ListX RWLock.RWLockDefs.
Local Open Scope Z_scope.

(* [lia] on [/] and [mod]: the lock words are residues mod 2^32 *)
Ltac Zify.zify_post_hook ::= Z.div_mod_to_equations.

Lemma land_wbits x : 0 <= x -> Z.land x WBITS = x mod 4.
Proof.
  intros Hx. unfold WBITS. change 3 with (Z.ones 2). rewrite Z.land_ones by lia. reflexivity.
Qed.

Lemma lor_pres tk : 0 <= tk -> Z.lor PRES (Z.land tk PHID) = 2 + tk mod 2.
Proof.
  intros Hx. unfold PRES, PHID. change 1 with (Z.ones 1). rewrite Z.land_ones by lia.
  change (2 ^ 1) with 2.
  assert (H : tk mod 2 = 0 \/ tk mod 2 = 1) by lia.
  destruct H as [H|H]; rewrite H; reflexivity.
Qed.

Lemma testbit_above x n : 0 <= x < 2 ^ n -> forall m, n <= m -> Z.testbit x m = false.
Proof.
  intros Hx m Hm. destruct (Z.eq_dec x 0) as [->|Hne]; [apply Z.bits_0|].
  apply Z.bits_above_log2; [lia|].
  assert (Z.log2 x < n); [|lia].
  apply Z.log2_lt_pow2; lia.
Qed.

Lemma land_rmask x : 0 <= x < M32 -> Z.land x RMASK = x - x mod 256.
Proof.
  intros Hx.
  assert (Hr : x - x mod 256 = Z.shiftl (Z.shiftr x 8) 8).
  { rewrite Z.shiftr_div_pow2, Z.shiftl_mul_pow2 by lia. change (2 ^ 8) with 256. lia. }
  rewrite Hr. apply Z.bits_inj'. intros n Hn.
  rewrite Z.land_spec.
  change RMASK with (Z.shiftl (Z.ones 24) 8).
  destruct (Z.lt_ge_cases n 8) as [Hlt|Hge].
  - rewrite !Z.shiftl_spec_low by lia. apply andb_false_r.
  - rewrite !Z.shiftl_spec_high by lia. rewrite Z.shiftr_spec by lia.
    replace (n - 8 + 8) with n by lia.
    destruct (Z.lt_ge_cases n 32) as [Hlt|Hge2].
    + rewrite Z.ones_spec_low by lia. apply andb_true_r.
    + rewrite Z.ones_spec_high by lia. rewrite andb_false_r.
      symmetry. apply (testbit_above x 32); [exact Hx|lia].
Qed.

Lemma wrap_range x : 0 <= wrap x < M32.
Proof. unfold wrap. lia. Qed.

Lemma wrap_add_l x y : wrap (wrap x + y) = wrap (x + y).
Proof. apply Zplus_mod_idemp_l. Qed.

Lemma diff_zero_iff a b : 0 <= a < M32 -> 0 <= b < M32 -> ((a - b) mod M32 = 0 <-> a = b).
Proof. intros Ha Hb. lia. Qed.

Lemma diff_inc_l a b d : (a - b) mod M32 = d -> d + 1 < M32 -> (wrap (a + 1) - b) mod M32 = d + 1.
Proof. unfold wrap. intros H Hd. lia. Qed.

Lemma diff_inc_r a b d : (a - b) mod M32 = d -> 1 <= d -> (a - wrap (b + 1)) mod M32 = d - 1.
Proof. unfold wrap. intros H Hd. lia. Qed.

Lemma wrap_rinc_low x : wrap (x + 256) mod 256 = x mod 256.
Proof. unfold wrap. lia. Qed.

(* one more reader counted in the high bytes of a; the low byte stays *)
Lemma diff_rinc_l a b n : (a - a mod 256 - b) mod M32 = 256 * n -> 256 * (n + 1) < M32 ->
  (wrap (a + RINC) - wrap (a + RINC) mod 256 - b) mod M32 = 256 * (n + 1).
Proof. unfold RINC. rewrite wrap_rinc_low. unfold wrap. intros H Hd. lia. Qed.

Lemma diff_rinc_r a b n : (a - b) mod M32 = 256 * n -> 1 <= n -> (a - wrap (b + RINC)) mod M32 = 256 * (n - 1).
Proof. unfold wrap, RINC. intros H Hd. lia. Qed.

Lemma wrap_inc_parity x : wrap (x + 1) mod 2 = (x + 1) mod 2.
Proof. unfold wrap. lia. Qed.

Section Cnt.
Context {A : Type}.
Implicit Types (f g : A -> bool) (l : list A).

Lemma cnt_pos_ex f l : 0 < cnt f l -> exists t p, nth_error l t = Some p /\ f p = true.
Proof.
  induction l as [|x l IH]; intros H.
  - rewrite cnt_nil in H. lia.
  - destruct (f x) eqn:E.
    + exists 0%nat, x. auto.
    + rewrite cnt_cons, E in H. destruct IH as (t & p & Ht & Hp); [lia|].
      exists (S t), p. auto.
Qed.

Lemma cnt_ge2_ex f l : 2 <= cnt f l ->
  exists t u p q, t <> u /\ nth_error l t = Some p /\ f p = true /\ nth_error l u = Some q /\ f q = true.
Proof.
  induction l as [|x l IH]; intros H.
  - rewrite cnt_nil in H. lia.
  - rewrite cnt_cons in H. destruct (f x) eqn:E.
    + destruct (cnt_pos_ex f l) as (u & q & Hu & Hq); [lia|].
      exists 0%nat, (S u), x, q. repeat split; auto.
    + destruct IH as (t & u & p & q & Hne & Ht & Hp & Hu & Hq); [lia|].
      exists (S t), (S u), p, q. repeat split; auto.
Qed.

Lemma cnt_le_1 f l :
  (forall t u p q, nth_error l t = Some p -> f p = true -> nth_error l u = Some q -> f q = true -> t = u) ->
  cnt f l <= 1.
Proof.
  intros H. destruct (Z_le_gt_dec (cnt f l) 1) as [Hle|Hgt]; [exact Hle|].
  destruct (cnt_ge2_ex f l) as (t & u & p & q & Hne & Ht & Hp & Hu & Hq); [lia|].
  exfalso. apply Hne. eapply H; eauto.
Qed.

Lemma cnt_ext_in f g l :
  (forall t p, nth_error l t = Some p -> f p = g p) -> cnt f l = cnt g l.
Proof.
  induction l as [|x l IH]; intros H; [reflexivity|].
  rewrite !cnt_cons, (H 0%nat x eq_refl), IH; [reflexivity|].
  intros t p Hp. apply (H (S t) p Hp).
Qed.

Lemma cnt_mono f g l : (forall p, f p = true -> g p = true) -> cnt f l <= cnt g l.
Proof.
  intros H. induction l as [|x l IH]; [rewrite !cnt_nil; lia|].
  rewrite !cnt_cons. specialize (H x). destruct (f x), (g x); try lia.
Qed.
Lemma cnt_zero_mono f g l : (forall p, f p = true -> g p = true) -> cnt g l = 0 -> cnt f l = 0.
Proof. intros H H0. pose proof (cnt_mono f g l H). pose proof (cnt_nonneg f l). lia. Qed.

(* sums over the thread list *)
Fixpoint sumz (f : A -> Z) (l : list A) : Z :=
  match l with [] => 0 | x :: r => f x + sumz f r end.
Lemma sumz_app h a b : sumz h (a ++ b) = sumz h a + sumz h b.
Proof. induction a as [|x a IH]; cbn [app sumz]; lia. Qed.
Lemma sumz_ext (h k : A -> Z) l : (forall x, h x = k x) -> sumz h l = sumz k l.
Proof. intros H. induction l as [|x l IH]; cbn [sumz]; [reflexivity|]. rewrite H, IH. reflexivity. Qed.
Lemma sumz_upd h l t p q : nth_error l t = Some p -> sumz h (upd l t q) = sumz h l - h p + h q.
Proof.
  intros H. unfold upd. rewrite (split_nth l t p H) at 3.
  rewrite !sumz_app. cbn [sumz]. lia.
Qed.
Lemma sumz_nonneg h l : (forall x, 0 <= h x) -> 0 <= sumz h l.
Proof. intros H. induction l as [|x l IH]; cbn [sumz]; [lia|]. specialize (H x). lia. Qed.
Lemma sumz_zero_all h l : (forall x, 0 <= h x) -> sumz h l = 0 ->
  forall t p, nth_error l t = Some p -> h p = 0.
Proof.
  intros Hn. induction l as [|x l IH]; intros H t p Hp; [destruct t; discriminate|].
  cbn [sumz] in H. pose proof (Hn x). pose proof (sumz_nonneg h l Hn).
  destruct t as [|t]; cbn in Hp.
  - inversion Hp; subst. lia.
  - apply (IH ltac:(lia) t p Hp).
Qed.
End Cnt.
Lemma sumz_map {A B} (h : A -> Z) (g : B -> A) (l : list B) : sumz h (map g l) = sumz (fun x => h (g x)) l.
Proof. induction l as [|x l IH]; cbn [map sumz]; [reflexivity|]. rewrite IH. reflexivity. Qed.
