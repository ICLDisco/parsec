(* Progress of the read-write lock model: no reachable state is stuck, an
   enabled thread stays enabled until it moves, and every fair schedule
   completes every thread's program. *)
From PV Require Import Base.Tac Base.ListX RWLock.RWLockDefs RWLock.RWLockBase RWLock.RWLockInv.
Local Open Scope Z_scope.

(* [lia] on [/] and [mod]: the lock words are residues mod 2^32 *)
Ltac Zify.zify_post_hook ::= Z.div_mod_to_equations.

Lemma step_disabled c t th : nth_error (thrs c) t = Some th -> enabled c th = false -> step c t = c.
Proof.
  intros Hn He. unfold step. rewrite Hn. unfold enabled in He.
  destruct (t_pc th); try discriminate; try reflexivity.
  - destruct (w =? Z.land (rin c) WBITS); [reflexivity|discriminate].
  - rewrite He. reflexivity.
  - rewrite He. reflexivity.
Qed.

Lemma step_other c u t : u <> t -> nth_error (thrs (step c u)) t = nth_error (thrs c) t.
Proof.
  intros Hne. unfold step. destruct (nth_error (thrs c) u) as [uh|] eqn:Hu; [|reflexivity].
  destruct (t_pc uh); repeat match goal with |- context[if ?b then _ else _] => destruct b end;
    cbn [thrs]; try reflexivity; apply (nth_upd_other _ _ _ _ _ Hu); auto.
Qed.

Lemma run_len s : forall c, length (thrs (run c s)) = length (thrs c).
Proof. induction s as [|t s IH]; intros c; [reflexivity|]. unfold run in *. cbn [fold_left]. rewrite (IH (step c t)). apply step_len. Qed.

Definition is_run (th : thr) : bool :=
  match t_pc th with PDone | PRw _ | PWw _ | PWr _ => false | _ => true end.

Lemma forallb_false_ex {A} (f : A -> bool) l : forallb f l = false ->
  exists t x, nth_error l t = Some x /\ f x = false.
Proof.
  induction l as [|x l IH]; cbn [forallb]; intros H; [discriminate|].
  destruct (f x) eqn:E.
  - destruct (IH H) as (t & y & Ht & Hy). exists (S t), y. auto.
  - exists 0%nat, x. auto.
Qed.

Theorem deadlock_free c : Inv c ->
  all_done c = true \/ exists t th, nth_error (thrs c) t = Some th /\ enabled c th = true.
Proof.
  intros [Hlen HT HR]. destruct (all_done c) eqn:Hall; [left; reflexivity|right].
  destruct (forallb_false_ex _ _ Hall) as (t0 & th0 & Hn0 & Hd0).
  pose proof (cnt_nonneg is_run (thrs c)) as Hrn.
  destruct (Z.eq_dec (cnt is_run (thrs c)) 0) as [Hr0|Hrpos].
  2:{ destruct (cnt_pos_ex is_run (thrs c) ltac:(lia)) as (t & th & Hn & Hr).
      exists t, th. split; [exact Hn|]. unfold is_run in Hr. unfold enabled.
      destruct (t_pc th); try discriminate; reflexivity. }
  pose proof (cnt_zero_all _ _ Hr0) as Hnorun.
  pose proof (ti_rng c HT) as [Hwin Hwout]. pose proof (ri_rng c HR) as [Hrin Hrout].
  pose proof (cnt_nonneg is_A (thrs c)) as HAn.
  destruct (Z.eq_dec (cnt is_A (thrs c)) 0) as [HA0|HApos].
  - (* no writer anywhere: the non-finished thread is a waiting reader and the bits are clear *)
    pose proof (cnt_zero_all _ _ HA0 t0 th0 Hn0) as HA. pose proof (Hnorun t0 th0 Hn0) as Hr.
    exists t0, th0. split; [exact Hn0|].
    unfold is_A in HA. unfold is_run in Hr. unfold is_done in Hd0. unfold enabled.
    destruct (t_pc th0) eqn:Hpc; try discriminate.
    pose proof (cnt_zero_mono is_wset is_A (thrs c) (fun p H => hold_A p (wset_hold p H)) HA0) as Hm.
    destruct (low_bits c HR) as [(_ & _ & E4)|(Hpos & _)]; [|lia].
    destruct (ri_pc c HR t0 th0 (PRw w) Hn0 Hpc) as [H23 _].
    rewrite land_wbits by lia. rewrite E4. destruct (w =? 0) eqn:E; [lia|reflexivity].
  - (* some writer holds a ticket: look at the one being served *)
    destruct (ti_sur c HT 0 ltac:(lia)) as (t & th & Hn & HA & Ho).
    pose proof (Hnorun t th Hn) as Hr.
    unfold is_A in HA. unfold is_run in Hr. unfold off in Ho.
    destruct (t_pc th) eqn:Hpc; try discriminate.
    + (* waiting for wout, and wout is its ticket *)
      exists t, th. split; [exact Hn|]. unfold enabled. rewrite Hpc.
      pose proof (ti_thr c HT t th _ Hn Hpc) as W. cbn in W. lia.
    + (* waiting for the readers of the previous phase *)
      destruct (ri_pc c HR t th (PWr tk) Hn Hpc) as [Htk Hd].
      pose proof (cnt_nonneg (early (wout c)) (thrs c)) as Hen.
      destruct (Z.eq_dec (cnt (early (wout c)) (thrs c)) 0) as [He0|Hepos].
      * exists t, th. split; [exact Hn|]. unfold enabled. rewrite Hpc. rewrite He0 in Hd. lia.
      * destruct (cnt_pos_ex (early (wout c)) (thrs c)) as (u & uh & Hu & He); [lia|].
        exists u, uh. split; [exact Hu|]. pose proof (Hnorun u uh Hu) as Hru.
        unfold early in He. unfold is_run in Hru. unfold enabled.
        destruct (t_pc uh) eqn:Hpcu; try discriminate.
        assert (Hpos : 0 < cnt is_wset (thrs c)).
        { apply (cnt_pos_of_nth _ _ t th Hn). unfold is_wset. rewrite Hpc. reflexivity. }
        destruct (low_bits c HR) as [(E & _)|(_ & _ & E4)]; [lia|].
        rewrite land_wbits by lia. rewrite E4. exact He.
Qed.

(* the writer whose ticket is served finds no writer bits in rin and sets its own *)
Lemma w1_bits c u uh tk : TInv c -> RInv c -> nth_error (thrs c) u = Some uh -> t_pc uh = PW1 tk ->
  wrap (rin c + Z.lor PRES (Z.land tk PHID)) mod 4 = cur (wout c).
Proof.
  intros HT HR Hu Hpc. pose proof (ri_rng c HR) as [Hrin _].
  pose proof (ti_rng c HT) as [_ Hwout]. pose proof (ti_thr c HT u uh _ Hu Hpc) as W. cbn in W. subst tk.
  rewrite lor_pres by lia. fold (cur (wout c)). pose proof (cur_23 (wout c)).
  destruct (w1_alone c u uh _ HT Hu Hpc) as [Hw0 _].
  destruct (low_bits c HR) as [(_ & Hlo & _)|(Hpos & _)]; [|lia]. unfold wrap. lia.
Qed.

(* which words a step can change, and how *)
Lemma step_words c u : Inv c ->
  (rin (step c u) mod 4 = rin c mod 4
   \/ (exists uh tk, nth_error (thrs c) u = Some uh /\ t_pc uh = PW1 tk /\
                     rin (step c u) mod 4 = cur (wout c))
   \/ (exists uh, nth_error (thrs c) u = Some uh /\ t_pc uh = PWx /\ rin (step c u) mod 4 = 0))
  /\ (wout (step c u) = wout c \/ exists uh, nth_error (thrs c) u = Some uh /\ t_pc uh = PWy)
  /\ (rout (step c u) = rout c \/ exists uh, nth_error (thrs c) u = Some uh /\ t_pc uh = PRx).
Proof.
  intros [Hlen HT HR]. pose proof (ri_rng c HR) as [Hrin Hrout].
  unfold step. destruct (nth_error (thrs c) u) as [uh|] eqn:Hu; [|auto].
  destruct (t_pc uh) eqn:Hpc;
    repeat match goal with |- context[if ?b then _ else _] => destruct b end;
    cbn [rin rout wout]; auto.
  - split; [left; unfold wrap, RINC; lia|auto].
  - split; [left; unfold wrap, RINC; lia|auto].
  - split; [auto|split; [auto|right; eauto]].
  - split; [|auto]. right. left. exists uh, tk. repeat split; auto. apply (w1_bits c u uh tk HT HR Hu Hpc).
  - split; [|auto]. right. left. exists uh, tk. repeat split; auto. apply (w1_bits c u uh tk HT HR Hu Hpc).
  - split; [|auto]. right. right. exists uh. repeat split; auto. rewrite land_rmask by lia. lia.
  - split; [auto|split; [right; eauto|auto]].
Qed.

Theorem enabled_stable c t u th : Inv c ->
  nth_error (thrs c) t = Some th -> enabled c th = true -> u <> t ->
  nth_error (thrs (step c u)) t = Some th /\ enabled (step c u) th = true.
Proof.
  intros HI Hn He Hne. split; [rewrite (step_other c u t Hne); exact Hn|].
  pose proof (step_inv c u HI) as HI'.
  destruct (step_words c u HI) as (Hri & Hwo & Hro).
  destruct HI as [Hlen HT HR]. destruct HI' as [_ HT' HR'].
  pose proof (ri_rng c HR) as [Hrin Hrout]. pose proof (ri_rng _ HR') as [Hrin' Hrout'].
  unfold enabled in *. destruct (t_pc th) eqn:Hpc; try reflexivity; try discriminate.
  - (* waiting reader whose bits differ from rin's *)
    rewrite land_wbits in * by lia.
    destruct (ri_pc c HR t th (PRw w) Hn Hpc) as [H23 _].
    destruct Hri as [E|[(uh & tk & Hu & Hpcu & E)|(uh & Hu & Hpcu & E)]]; rewrite E.
    + exact He.
    + pose proof (w1_readers c u uh tk t th w HT HR Hu Hpcu Hn Hpc) as Hw1.
      pose proof (cur_next (wout c)) as [Hx _]. subst w.
      destruct (cur (wout c + 1) =? cur (wout c)) eqn:E2; [lia|reflexivity].
    + destruct (w =? 0) eqn:E2; [lia|reflexivity].
  - (* writer whose ticket is being served *)
    destruct Hwo as [E|(uh & Hu & Hpcu)]; [rewrite E; exact He|].
    exfalso. apply Hne. pose proof (ti_rng c HT) as [_ Hwout].
    assert (wout c = tk) by lia. subst tk.
    apply (ti_inj c HT u t uh th Hu Hn).
    + unfold is_A. rewrite Hpcu. reflexivity.
    + unfold is_A. rewrite Hpc. reflexivity.
    + unfold off. rewrite Hpcu, Hpc, Z.sub_diag. reflexivity.
  - (* writer whose readers have all left *)
    destruct Hro as [E|(uh & Hu & Hpcu)]; [rewrite E; exact He|].
    exfalso. destruct (ri_pc c HR t th (PWr tk) Hn Hpc) as [Htk Hd].
    assert (rout c = tk) by lia. subst tk. rewrite Z.sub_diag in Hd.
    change (0 mod 4294967296) with 0 in Hd.
    assert (0 < cnt (early (wout c)) (thrs c)); [|lia].
    apply (cnt_pos_of_nth _ _ u uh Hu). unfold early. rewrite Hpcu. reflexivity.
Qed.

Definition wt_pc (p : pc) : Z :=
  match p with
  | PStart => 1 | PR0 => 4 | PRw _ => 3 | PRcs => 2 | PRx => 1
  | PW0 => 7 | PWw _ => 6 | PW1 _ => 5 | PWr _ => 4 | PWcs => 3 | PWx => 2 | PWy => 1
  | PDone => 0
  end.
Definition wt_k (k : kind) : Z := match k with KR => 4 | KW => 7 end.
Definition mu_th (th : thr) : Z := wt_pc (t_pc th) + sumz wt_k (t_rest th).
Definition mu (c : cfg) : Z := sumz mu_th (thrs c).

Lemma mu_th_nonneg th : 0 <= mu_th th.
Proof.
  unfold mu_th. assert (0 <= sumz wt_k (t_rest th)) by (apply sumz_nonneg; intros []; cbn; lia).
  destruct (t_pc th); cbn [wt_pc]; lia.
Qed.
Lemma mu_nonneg c : 0 <= mu c.
Proof. apply sumz_nonneg, mu_th_nonneg. Qed.
Lemma mu_begin r : mu_th (begin r) = sumz wt_k r.
Proof. destruct r as [|[|] r]; unfold mu_th; cbn [begin t_pc t_rest wt_pc sumz wt_k]; lia. Qed.

Lemma step_mu c t :
  mu (step c t) <= mu c /\
  (forall th, nth_error (thrs c) t = Some th -> enabled c th = true -> mu (step c t) < mu c).
Proof.
  unfold step. destruct (nth_error (thrs c) t) as [th|] eqn:Hn.
  2:{ split; [lia|intros th H; discriminate]. }
  assert (G : forall q, mu_th q < mu_th th ->
              sumz mu_th (upd (thrs c) t q) <= mu c /\
              (forall th0, Some th = Some th0 -> enabled c th0 = true -> sumz mu_th (upd (thrs c) t q) < mu c)).
  { intros q Hq. rewrite (sumz_upd _ _ _ _ _ Hn). unfold mu. split; [lia|intros; lia]. }
  unfold mu at 1 3. unfold enabled.
  destruct th as [p r]. cbn [t_pc t_rest] in *.
  destruct p; repeat match goal with |- context[if ?b then _ else _] => destruct b eqn:? end;
    cbn [thrs];
    try (apply G; rewrite ?mu_begin; unfold mu_th; cbn [t_pc t_rest at_pc wt_pc]; lia);
    (split; [fold (mu c); lia|intros th0 H0 He; inversion H0; subst th0; cbn [t_pc] in He; try discriminate;
             match goal with H : ?b = _ |- _ => rewrite H in He; discriminate end]).
Qed.

Lemma run_mu_le s : forall c, mu (run c s) <= mu c.
Proof.
  induction s as [|t s IH]; intros c; unfold run in *; cbn [fold_left]; [lia|].
  pose proof (IH (step c t)). pose proof (step_mu c t) as [H1 _]. lia.
Qed.

Lemma mu_zero_done c : mu c = 0 -> all_done c = true.
Proof.
  intros H. unfold all_done. apply forallb_forall. intros th Hin.
  destruct (In_nth_error _ _ Hin) as (t & Hn).
  pose proof (sumz_zero_all mu_th (thrs c) mu_th_nonneg H t th Hn) as Hz.
  unfold mu_th in Hz. assert (0 <= sumz wt_k (t_rest th)) by (apply sumz_nonneg; intros []; cbn; lia).
  unfold is_done. destruct (t_pc th); cbn [wt_pc] in Hz; try lia; reflexivity.
Qed.

Lemma done_stays c t : all_done c = true -> step c t = c.
Proof.
  intros H. destruct (nth_error (thrs c) t) as [th|] eqn:Hn.
  - apply (step_disabled c t th Hn). unfold all_done in H. rewrite forallb_forall in H.
    specialize (H th (nth_error_In _ _ Hn)). unfold is_done in H. unfold enabled.
    destruct (t_pc th); try discriminate. reflexivity.
  - unfold step. rewrite Hn. reflexivity.
Qed.
Lemma done_stays_run s : forall c, all_done c = true -> run c s = c.
Proof.
  induction s as [|t s IH]; intros c H; [reflexivity|]. unfold run in *. cbn [fold_left].
  rewrite (done_stays c t H). apply IH, H.
Qed.

(* an enabled thread that is scheduled somewhere in s makes the measure drop *)
Lemma enabled_run_lt s : forall c t th, Inv c ->
  nth_error (thrs c) t = Some th -> enabled c th = true -> In t s -> mu (run c s) < mu c.
Proof.
  induction s as [|u s IH]; intros c t th HI Hn He Hin; [destruct Hin|].
  unfold run in *. cbn [fold_left].
  destruct (Nat.eq_dec u t) as [->|Hne].
  - pose proof (step_mu c t) as [_ Hlt]. specialize (Hlt th Hn He).
    pose proof (run_mu_le s (step c t)). unfold run in *. lia.
  - destruct Hin as [E|Hin]; [congruence|].
    destruct (enabled_stable c t u th HI Hn He Hne) as [Hn' He'].
    pose proof (IH (step c u) t th (step_inv c u HI) Hn' He' Hin).
    pose proof (step_mu c u) as [Hle _]. lia.
Qed.

(* a round: every thread id is scheduled at least once (in any order, any number of times) *)
Definition covers (n : nat) (s : list nat) : Prop := forall t, (t < n)%nat -> In t s.

Lemma round_progress c s : Inv c -> all_done c = false -> covers (length (thrs c)) s ->
  mu (run c s) < mu c.
Proof.
  intros HI Hnd Hcov. destruct (deadlock_free c HI) as [E|(t & th & Hn & He)]; [congruence|].
  apply (enabled_run_lt s c t th HI Hn He). apply Hcov. apply nth_error_Some. congruence.
Qed.

Theorem fair_termination rounds : forall c, Inv c ->
  (forall s, In s rounds -> covers (length (thrs c)) s) ->
  mu c <= Z.of_nat (length rounds) ->
  all_done (run c (concat rounds)) = true.
Proof.
  induction rounds as [|s rs IH]; intros c HI Hcov Hmu.
  - unfold run. cbn [concat fold_left]. apply mu_zero_done. pose proof (mu_nonneg c). cbn [length] in Hmu. lia.
  - cbn [concat]. unfold run. rewrite fold_left_app. fold (run c s). fold (run (run c s) (concat rs)).
    destruct (all_done c) eqn:Hd.
    + rewrite (done_stays_run s c Hd), (done_stays_run (concat rs) c Hd). exact Hd.
    + apply IH.
      * apply run_inv, HI.
      * intros s' Hs'. rewrite run_len. apply Hcov. right. exact Hs'.
      * pose proof (round_progress c s HI Hd (Hcov s (or_introl eq_refl))).
        cbn [length] in Hmu. lia.
Qed.
