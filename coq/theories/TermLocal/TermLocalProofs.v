(* The invariant lifted to every schedule, and the statements of C10. *)
From PV Require Import Base.Tac Base.ListX TermLocal.TermLocalDefs TermLocal.TermLocalAux TermLocal.TermLocalCore TermLocal.TermLocalSafe.
Local Open Scope Z_scope.

Record Inv (c : cfg) : Prop := mkInv {
  i_core : Core (shd c) (thrs c);
  i_safe : Safe (shd c) (thrs c);
  i_oper : Oper (shd c) (clk c) (thrs c) }.

Lemma inv_step c t : Inv c -> Inv (step c t).
Proof.
  intros [HC HS HO]. unfold step.
  destruct (nth_error (thrs c) t) as [th|] eqn:Ht; [|constructor; assumption].
  destruct (is_done th); [constructor; assumption|].
  destruct (tstep (shd c) (clk c + 1) th) as [s' th'] eqn:E.
  constructor; cbn [shd clk thrs].
  - eapply core_step; eassumption.
  - eapply safe_step; eassumption.
  - eapply oper_step; eassumption.
Qed.

Lemma inv_run c sched : Inv c -> Inv (run c sched).
Proof. unfold run. apply fold_left_inv. intros a b. apply inv_step. Qed.

Lemma sumZ_map0 {B} (g : B -> thr) f l : (forall x, f (g x) = 0) -> sumZ f (map g l) = 0.
Proof. intros H. induction l as [|x l IH]; [reflexivity|]. cbn [map]. rewrite sumZ_cons, H, IH. reflexivity. Qed.

Lemma inv_init rc0 prog : wf_prog prog = true -> Inv (init rc0 prog).
Proof.
  unfold wf_prog. intros H. apply andb_prop in H. destruct H as [Hall Hone].
  rewrite forallb_forall in Hall.
  constructor; cbn [init shd clk thrs].
  - constructor; cbn [init_sh nt pa mon gt gp]; rewrite ?sumZ_map0 by reflexivity; try (cbn; lia).
    + intros u q Hu. apply nth_error_map_inv in Hu. destruct Hu as (l & Hl & <-).
      unfold TOK, pc_ok, pre, soloP, todo. cbn [init_thr pc ops ht hp pending app].
      repeat split; try lia. apply (wf_norm (has_ready l) (has_ready l)).
      apply Hall. eapply nth_error_In; eassumption.
    + rewrite cnt_map. change (cnt has_ready prog = 1). lia.
    + right. repeat split. intros u q Hu _. apply nth_error_map_inv in Hu. destruct Hu as (l & _ & <-).
      reflexivity.
  - constructor; cbn [init_sh mon cbs cbd cb_bad is_notready is_terminating is_terminated orb Z.b2z];
      rewrite ?cnt_map_false by reflexivity; try reflexivity.
    intros [H|[H _]]; discriminate.
  - constructor; cbn [init_sh pa mon cbs cb_at rdy_at is_notready is_busy];
      rewrite ?cnt_map_false by reflexivity; try lia; try (intros; discriminate).
Qed.

Theorem inv_reach rc0 prog sched : wf_prog prog = true -> Inv (run (init rc0 prog) sched).
Proof. intros H. apply inv_run, inv_init, H. Qed.

Lemma inv_quiet_when_started c : Inv c -> 1 <= cbs (shd c) -> Quiet (shd c) (thrs c) /\ is_notready (mon (shd c)) = false.
Proof.
  intros [HC HS HO] H. rewrite (s_cbs _ _ HS) in H.
  destruct (is_terminating (mon (shd c)) || is_terminated (mon (shd c))) eqn:E; [|cbn in H; lia].
  split; [apply (s_quiet _ _ HS); left; exact E|].
  destruct (mon (shd c)); try discriminate; reflexivity.
Qed.

(* the callback counts are read off the monitor: started once TERMINATING is entered, and
   the threads inside the callback are among those between the two CASes *)
Lemma cb_counts s L : Safe s L ->
  cbs s = Z.b2z (is_terminating (mon s) || is_terminated (mon s)) /\
  0 <= cbs s - cbd s <= Z.b2z (is_terminating (mon s)).
Proof.
  intros HS. rewrite <- (s_incb _ _ HS), <- (s_interm _ _ HS). pose proof (cnt_nonneg in_cb L).
  assert (cnt in_cb L <= cnt in_term L).
  { apply cnt_le_imp. intros u q _. unfold in_cb, in_term. destruct (pc q); auto. }
  split; [apply (s_cbs _ _ HS)|lia].
Qed.

Theorem callback_at_most_once c : Inv c ->
  0 <= cbd (shd c) <= cbs (shd c) /\ cbs (shd c) <= 1.
Proof.
  intros [HC HS HO]. destruct (cb_counts _ _ HS). destruct (mon (shd c)); cbn in *; lia.
Qed.

Definition no_refs (c : cfg) : Prop :=
  gt (shd c) = 0 /\ gp (shd c) = 0 /\ AllT (fun q => ht q = 0 /\ hp q = 0) (thrs c).

Theorem callback_only_when_ready_and_zero c : Inv c -> 1 <= cbs (shd c) ->
  is_notready (mon (shd c)) = false /\
  0 < rdy_at (shd c) /\ rdy_at (shd c) < cb_at (shd c) /\ cb_at (shd c) <= clk c /\
  nt (shd c) = 0 /\ pa (shd c) = 0 /\ no_refs c /\ cb_bad (shd c) = 0.
Proof.
  intros HI H. destruct (inv_quiet_when_started c HI H) as ((Q1 & Q2 & Q3 & Q4 & Q5) & Hnr).
  destruct HI as [HC HS HO]. destruct (o_cb _ _ _ HO H) as (R1 & R2 & R3).
  assert (Hn : no_refs c).
  { (* no thread is active, so none holds a reference *)
    refine (conj Q1 (conj Q2 _)). intros u q Hu.
    destruct (inactive_inv q (cnt_zero_all activeP _ Q5 u q Hu)) as (Ha & Hb & _). split; assumption. }
  exact (conj Hnr (conj R1 (conj R2 (conj R3 (conj Q3 (conj Q4 (conj Hn (s_bad _ _ HS)))))))).
Qed.

Lemma cbs_mono_step c t : cbs (shd c) <= cbs (shd (step c t)).
Proof.
  unfold step. destruct (nth_error (thrs c) t) as [th|]; [|lia].
  destruct (is_done th); [lia|].
  destruct (tstep (shd c) (clk c + 1) th) as [s' th'] eqn:E. cbn [shd].
  destruct (step_cb _ _ _ _ _ E) as [(-> & _)|(_ & -> & _)]; lia.
Qed.
Lemma cbs_mono_run sched : forall c, cbs (shd c) <= cbs (shd (run c sched)).
Proof.
  induction sched as [|t l IH]; intros c; [cbn; lia|]. cbn [run fold_left].
  pose proof (cbs_mono_step c t). specialize (IH (step c t)). unfold run in IH. lia.
Qed.

Theorem terminated_implies_callback_returned c : Inv c -> is_terminated (mon (shd c)) = true ->
  cbs (shd c) = 1 /\ cbd (shd c) = 1 /\ state_ret (shd c) = 4.
Proof.
  intros HI Ht. pose proof HI as [HC HS HO]. destruct (cb_counts _ _ HS) as (K1 & K2).
  destruct (mon (shd c)) eqn:Em; try discriminate. cbn in K1, K2.
  destruct (inv_quiet_when_started c HI) as ((_ & _ & Q3 & Q4 & _) & _); [lia|].
  assert (Hd : cbd (shd c) = 1) by lia.
  repeat split; try assumption. unfold state_ret, nonzero. rewrite Em, Q3, Q4, Hd. reflexivity.
Qed.

Definition all_done (c : cfg) : bool := forallb is_done (thrs c).
Definition refs_held (c : cfg) : Z := gt (shd c) + gp (shd c) + sumZ ht (thrs c) + sumZ hp (thrs c).

(* when every thread has finished nothing is in flight *)
Lemma done_counts s L : Core s L -> forallb is_done L = true ->
  cnt at_cas L = 0 /\ cnt at_r2 L = 0 /\ cnt in_term L = 0 /\ cnt pre L = 0 /\
  AllT (fun q => acc q = hp q) L.
Proof.
  intros HC Hd. rewrite forallb_forall in Hd.
  assert (HD : forall u q, nth_error L u = Some q -> pc q = Done /\ ops q = []).
  { intros u q Hu. specialize (Hd q (nth_error_In _ _ Hu)). unfold is_done in Hd.
    destruct (c_tok _ _ HC u q Hu) as (_ & _ & _ & Hpq). unfold pc_ok in Hpq.
    destruct (pc q); try discriminate. auto. }
  repeat split; try apply cnt_zero_of_all; intros u q Hu; destruct (HD u q Hu) as (Hpc & Hops);
    unfold at_cas, at_r2, in_term, pre, todo, acc, is_inc, is_dec; rewrite Hpc; try rewrite Hops;
    cbn; try reflexivity; lia.
Qed.

Theorem termination_reported c : Inv c -> all_done c = true -> refs_held c = 0 ->
  cbs (shd c) = 1 /\ cbd (shd c) = 1 /\ is_terminated (mon (shd c)) = true.
Proof.
  intros HI Hd Hr. pose proof HI as [HC HS HO]. unfold all_done, refs_held in *.
  destruct (done_counts _ _ HC Hd) as (Z1 & Z2 & Z3 & Z4 & Hacc).
  pose proof (hp_nonneg _ _ HC) as Hnn. pose proof (sumZ_nonneg hp _ Hnn).
  pose proof (sumZ_nonneg ht _ (ht_nonneg _ _ HC)). pose proof (c_gt _ _ HC). pose proof (c_gp _ _ HC).
  assert (Hp0 : sumZ hp (thrs c) = 0) by lia.
  assert (Ha0 : sumZ acc (thrs c) = 0).
  { apply sumZ_zero. intros u q Hu. rewrite (Hacc u q Hu). exact (sumZ_zero_all hp _ Hnn Hp0 u q Hu). }
  pose proof (c_nt _ _ HC) as Cnt. pose proof (c_pa _ _ HC) as Cpa. pose proof (c_pre _ _ HC) as Cpre.
  unfold XX in Cpa. rewrite Ha0 in Cpa. rewrite Z4 in Cpre.
  assert (Hpa : pa (shd c) = 0) by lia.
  pose proof (o_live _ _ _ HO) as Hl. rewrite Z1, Z2 in Hl.
  pose proof (s_interm _ _ HS) as K3. rewrite Z3 in K3.
  destruct (cb_counts _ _ HS). destruct (mon (shd c)); cbn in *; try discriminate; try lia.
Qed.
