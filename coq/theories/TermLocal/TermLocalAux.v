(* Sums / counts over the per-thread list, and the static-discipline lemmas. *)
From PV Require Import Base.Tac Base.ListX TermLocal.TermLocalDefs.
Local Open Scope Z_scope.

Section Sum.
Context {A : Type}.
Definition sumZ (f : A -> Z) (l : list A) : Z := fold_right (fun x a => f x + a) 0 l.

Lemma sumZ_cons f x l : sumZ f (x :: l) = f x + sumZ f l. Proof. reflexivity. Qed.
Lemma sumZ_app f a b : sumZ f (a ++ b) = sumZ f a + sumZ f b.
Proof. induction a as [|x a IH]; [reflexivity|]. cbn [app]. rewrite !sumZ_cons, IH. lia. Qed.

Lemma sumZ_upd f (l : list A) t p q : nth_error l t = Some p ->
  sumZ f (upd l t q) = sumZ f l - f p + f q.
Proof.
  intros H. unfold upd. rewrite (split_nth l t p H) at 3.
  rewrite !sumZ_app, !sumZ_cons. lia.
Qed.

Definition AllT (P : A -> Prop) (l : list A) : Prop := forall u q, nth_error l u = Some q -> P q.

Lemma AllT_cons P x l : AllT P (x :: l) -> P x /\ AllT P l.
Proof. intros H. split; [apply (H 0%nat); reflexivity|]. intros u q Hu. apply (H (S u)). exact Hu. Qed.

Lemma AllT_upd P (l : list A) t p q : nth_error l t = Some p -> AllT P l -> P q -> AllT P (upd l t q).
Proof. exact (nth_upd_all P l t p q). Qed.

Lemma AllT_imp (P Q : A -> Prop) l : (forall q, P q -> Q q) -> AllT P l -> AllT Q l.
Proof. intros H Hl u q Hu. apply H. eapply Hl; eassumption. Qed.

Lemma sumZ_nonneg f l : AllT (fun q => 0 <= f q) l -> 0 <= sumZ f l.
Proof.
  induction l as [|x l IH]; intros H; [cbn; lia|].
  apply AllT_cons in H. destruct H as [Hx Hl]. rewrite sumZ_cons. specialize (IH Hl). lia.
Qed.

Lemma sumZ_ge_nth f l t p : AllT (fun q => 0 <= f q) l -> nth_error l t = Some p -> f p <= sumZ f l.
Proof.
  revert t; induction l as [|x l IH]; intros t H Ht; [destruct t; discriminate|].
  apply AllT_cons in H. destruct H as [Hx Hl]. rewrite sumZ_cons.
  destruct t as [|t]; cbn in Ht.
  - inversion Ht; subst. pose proof (sumZ_nonneg f l Hl). lia.
  - specialize (IH t Hl Ht). lia.
Qed.

Lemma sumZ_zero_all f l : AllT (fun q => 0 <= f q) l -> sumZ f l = 0 -> AllT (fun q => f q = 0) l.
Proof.
  intros Hnn Hs u q Hu. pose proof (sumZ_ge_nth f l u q Hnn Hu). pose proof (Hnn u q Hu). cbn in *. lia.
Qed.

Lemma sumZ_zero f l : AllT (fun q => f q = 0) l -> sumZ f l = 0.
Proof.
  induction l as [|x l IH]; intros H; [reflexivity|].
  apply AllT_cons in H. rewrite sumZ_cons, (proj1 H), (IH (proj2 H)). reflexivity.
Qed.

Lemma cnt_le_imp (f g : A -> bool) l : AllT (fun q => f q = true -> g q = true) l -> cnt f l <= cnt g l.
Proof.
  induction l as [|x l IH]; intros H; [rewrite !cnt_nil; lia|].
  apply AllT_cons in H. destruct H as [Hx Hl]. rewrite !cnt_cons. specialize (IH Hl).
  destruct (f x) eqn:E; [rewrite (Hx eq_refl); lia|]. destruct (g x); lia.
Qed.

(* where [g] holds at most once, a sum to which only [g] elements contribute is its value there *)
Lemma sumZ_one f (g : A -> bool) l t p : cnt g l <= 1 -> nth_error l t = Some p -> g p = true ->
  AllT (fun q => g q = false -> f q = 0) l -> sumZ f l = f p.
Proof.
  revert t; induction l as [|x l IH]; intros t Hc Ht Hp H; [destruct t; discriminate|].
  apply AllT_cons in H. destruct H as [Hx Hl]. rewrite cnt_cons in Hc. rewrite sumZ_cons.
  pose proof (cnt_nonneg g l). destruct t as [|t]; cbn in Ht.
  - inversion Ht; subst x. rewrite Hp in Hc. rewrite (sumZ_zero f l); [lia|].
    intros u q Hu. apply (Hl u q Hu), (cnt_zero_all g l) with u; [lia|exact Hu].
  - pose proof (cnt_pos_of_nth g l t p Ht Hp). destruct (g x); [lia|].
    rewrite (Hx eq_refl), (IH t); auto.
Qed.

Lemma cnt_upd2 (f : A -> bool) l t p q : nth_error l t = Some p ->
  cnt f (upd l t q) = cnt f l - Z.b2z (f p) + Z.b2z (f q).
Proof. intros H. rewrite (cnt_upd f l t p q H). destruct (f p), (f q); reflexivity. Qed.

Lemma cnt_ge_nth (f : A -> bool) l t p : nth_error l t = Some p -> Z.b2z (f p) <= cnt f l.
Proof.
  intros H. destruct (f p) eqn:E; [pose proof (cnt_pos_of_nth f l t p H E)|pose proof (cnt_nonneg f l)]; cbn; lia.
Qed.

(* where [f] implies [g], the surplus of [g] is at least the surplus at any one position *)
Lemma cnt_diff_ge (f g : A -> bool) l t p : AllT (fun q => f q = true -> g q = true) l ->
  nth_error l t = Some p -> Z.b2z (g p) - Z.b2z (f p) <= cnt g l - cnt f l.
Proof.
  revert t; induction l as [|x l IH]; intros t H Ht; [destruct t; discriminate|].
  apply AllT_cons in H. destruct H as [Hx Hl]. rewrite !cnt_cons. destruct t as [|t]; cbn in Ht.
  - inversion Ht; subst x. pose proof (cnt_le_imp f g l Hl). cbn beta in Hx.
    destruct (f p); [rewrite (Hx eq_refl)|destruct (g p)]; cbn [Z.b2z]; lia.
  - specialize (IH t Hl Ht). destruct (f x); [rewrite (Hx eq_refl)|destruct (g x)]; lia.
Qed.
End Sum.

(* splits every hypothesis [a && b = true] into its two halves *)
Ltac andbs := repeat match goal with H : _ && _ = true |- _ => apply andb_prop in H; destruct H end.

Lemma wf_fr fr so a b l : wf_from fr so a b l = true -> fr = has_ready l.
Proof.
  revert fr so a b; induction l as [|o l IH]; intros fr so a b H; cbn [wf_from] in H.
  - destruct fr; [discriminate|reflexivity].
  - destruct o as [| | |v|v|v|v|k|k]; cbn [has_ready existsb is_ready_op orb];
      try discriminate; try destruct k; andbs;
      try (eapply IH; eassumption).
    all: destruct fr; [reflexivity|discriminate].
Qed.

(* set_* is allowed only before ready and before a reference is handed over *)
Lemma wf_set fr so a b l : wf_from fr so a b l = true -> has_set l = true -> fr = true /\ so = true.
Proof.
  revert fr so a b; induction l as [|o l IH]; intros fr so a b H Hs; cbn [wf_from] in H;
    cbn [has_set existsb is_set_op orb] in Hs; [discriminate|].
  destruct o as [| | |v|v|v|v|k|k]; try discriminate; try destruct k; andbs; auto;
    match goal with Hw : wf_from _ _ _ _ l = true |- _ => destruct (IH _ _ _ _ Hw Hs) end;
    auto; discriminate.
Qed.

Lemma wf_so_irrel fr so so' a b l : has_set l = false -> wf_from fr so a b l = wf_from fr so' a b l.
Proof.
  revert fr so so' a b; induction l as [|o l IH]; intros fr so so' a b Hs; [reflexivity|].
  cbn [has_set existsb is_set_op] in Hs.
  destruct o as [| | |v|v|v|v|k|k]; cbn [wf_from]; cbn [orb] in Hs; try discriminate; try reflexivity;
    try destruct k; try (f_equal; apply IH; exact Hs); try (apply IH; exact Hs).
Qed.

(* the parameters are determined by the remaining list *)
Lemma wf_norm fr so a b l : wf_from fr so a b l = true ->
  wf_from (has_ready l) (has_set l) a b l = true.
Proof.
  intros H. rewrite <- (wf_fr _ _ _ _ _ H).
  destruct (has_set l) eqn:E.
  - destruct (wf_set _ _ _ _ _ H E) as (_ & ->). exact H.
  - rewrite (wf_so_irrel fr false so a b l E). exact H.
Qed.
