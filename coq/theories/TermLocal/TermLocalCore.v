(* Core invariant of the atomic-step model of the local termination detector under the
   client discipline: reference accounting (nb_tasks = task references held or in transit;
   nb_pending_actions = pending-action references + [nb_tasks > 0] - pending increments +
   pending decrements), exactly one thread before its ready while the monitor is NOT_READY,
   and the solo phase of set_*. *)
From PV Require Import Base.Tac Base.ListX TermLocal.TermLocalDefs TermLocal.TermLocalAux.
Local Open Scope Z_scope.

Definition pending (p : pcT) : list op :=
  match p with R1 => [OReady] | AT1 v => [OAddT v] | AP1 v => [OAddP v]
             | ST1 v _ => [OSetT v] | SP1 v _ => [OSetP v] | _ => [] end.
Definition todo th := pending (pc th) ++ ops th.
Definition pre th := has_ready (todo th).
Definition soloP th := has_set (todo th).
Definition is_inc th := match pc th with AInc _ => true | _ => false end.
Definition is_dec th := match pc th with ADec _ => true | _ => false end.
Definition busy_pc p := match p with Idle | Done => false | _ => true end.
Definition quietP th := (ht th =? 0) && (hp th =? 0) && negb (busy_pc (pc th)).
(* the share of a thread in nb_pending_actions: the pending-action references it holds, less an
   increment it has yet to make, plus a decrement it has yet to make *)
Definition acc th := hp th - Z.b2z (is_inc th) + Z.b2z (is_dec th).
Definition calm p := match p with AT1 _ | AInc _ | ADec _ | AP1 _ | ST1 _ _ | SP1 _ _ => false | _ => true end.
Definition activeP th := negb ((ht th =? 0) && (hp th =? 0) && calm (pc th)).
Definition at_cas th := match pc th with TCas _ => true | _ => false end.
Definition at_r1 th := match pc th with R1 => true | _ => false end.
Definition at_r2 th := match pc th with R2 => true | _ => false end.
Definition in_cb th := match pc th with TCb _ => true | _ => false end.
Definition in_term th := match pc th with TCb _ | TFin _ => true | _ => false end.

Definition pc_ok th : Prop :=
  match pc th with
  | AInc _ => 1 <= ht th /\ (1 <= hp th \/ pre th = true)
  | AT1 v | AP1 v => v <> 0
  | Done => ops th = []
  | _ => True end.

Definition TOK th : Prop :=
  0 <= ht th /\ 0 <= hp th /\
  wf_from (pre th) (soloP th) (ht th) (hp th) (todo th) = true /\ pc_ok th.

Definition XX n := Z.b2z (0 <? n).

Record Core (s : sh) (L : list thr) : Prop := mkCore {
  c_tok : AllT TOK L;
  c_gt : 0 <= gt s; c_gp : 0 <= gp s;
  c_nt : nt s = gt s + sumZ ht L;
  c_pa : pa s = gp s + XX (nt s) + sumZ acc L;
  c_pre : cnt pre L = Z.b2z (is_notready (mon s));
  c_solo : cnt soloP L = 0 \/
           (gt s = 0 /\ gp s = 0 /\ AllT (fun q => soloP q = false -> quietP q = true) L) }.

Lemma solo_pre s L : Core s L -> AllT (fun q => soloP q = true -> pre q = true) L.
Proof.
  intros HC u q Hu Hs. destruct (c_tok _ _ HC u q Hu) as (_ & _ & Hw & _).
  exact (proj1 (wf_set _ _ _ _ _ Hw Hs)).
Qed.

Lemma b2z_le1 b : 0 <= Z.b2z b <= 1. Proof. destruct b; cbn; lia. Qed.

Lemma solo_le1 s L : Core s L -> cnt soloP L <= 1.
Proof.
  intros HC. pose proof (cnt_le_imp soloP pre L (solo_pre _ _ HC)).
  pose proof (b2z_le1 (is_notready (mon s))). rewrite <- (c_pre _ _ HC) in *. lia.
Qed.

Lemma quiet_inv q : quietP q = true -> ht q = 0 /\ hp q = 0 /\ busy_pc (pc q) = false.
Proof. unfold quietP. intros H. andbs. destruct (busy_pc (pc q)); [discriminate|]. lia. Qed.

(* a thread still allowed to set_* is alone: the counters are its own references *)
Lemma solo_alone s L t th : Core s L -> nth_error L t = Some th -> soloP th = true ->
  gt s = 0 /\ gp s = 0 /\ nt s = ht th /\ pa s = XX (ht th) + acc th.
Proof.
  intros HC Ht Hs. pose proof (cnt_pos_of_nth soloP L t th Ht Hs).
  destruct (c_solo _ _ HC) as [Hz|(Hg & Hp & Hq)]; [lia|].
  assert (Hone : forall f, (forall q, quietP q = true -> f q = 0) -> sumZ f L = f th).
  { intros f Hf. apply (sumZ_one f soloP L t th (solo_le1 _ _ HC) Ht Hs).
    intros u q Hu Hn. exact (Hf q (Hq u q Hu Hn)). }
  assert (Ht1 : sumZ ht L = ht th).
  { apply Hone. intros q Hq'. apply (quiet_inv q Hq'). }
  assert (Ha1 : sumZ acc L = acc th).
  { apply Hone. intros q Hq'. destruct (quiet_inv q Hq') as (_ & Hb & Hpc).
    unfold acc, is_inc, is_dec. destruct (pc q); try discriminate; cbn; lia. }
  rewrite (c_pa _ _ HC), (c_nt _ _ HC), Hg, Hp, Ht1, Ha1. repeat split.
Qed.

Lemma has_ready_cons o l : has_ready (o :: l) = is_ready_op o || has_ready l. Proof. reflexivity. Qed.
Lemma has_set_cons o l : has_set (o :: l) = is_set_op o || has_set l. Proof. reflexivity. Qed.

(* One step, seen from the thread that takes it.
   Each conjunct of [Core] is an account kept by the shared state and the threads together;
   the lemmas below say what one step of [th] does to that account, using of the other
   threads only what is named in the hypotheses. *)
Ltac simp2 :=
    cbn [pc_ok is_inc is_dec XX goto ret_to add_ht add_hp calm at_cas at_r1 at_r2 in_cb in_term
         pending pc ops ht hp rets app is_ready_op is_set_op orb andb negb wf_from busy_pc Z.b2z
         nt pa mon gt gp cbs cbd cb_at cb_bad rdy_at rc dead
         set_nt set_pa set_mon set_rc set_rdy set_gt set_gp cb_start cb_end
         is_notready is_busy is_terminating is_terminated] in *.

(* the cases of [tstep s k th = (s', th')]: the pc, the next operation of an idle thread,
   the tests of the segment *)
Ltac tcases th s' th' E :=
  destruct th as [p o r a b]; unfold tstep in E; cbn [pc ops rets ht hp] in *;
  destruct p; [destruct o as [|[| | |v|v|v|v|[|]|[|]] o]|..]; unfold chk in E;
  repeat match type of E with context [if ?b then _ else _] => destruct b eqn:? end;
  injection E as <- <-.

(* unfolds the predicates on a thread and computes them on the known pc and head of the list *)
Ltac norm := unfold TOK, pc_ok, acc, quietP, activeP, pre, soloP, todo, XX, nonzero in *; simp2;
  try change (has_ready (?x :: ?l)) with (is_ready_op x || has_ready l) in *;
  try change (has_set (?x :: ?l)) with (is_set_op x || has_set l) in *; simp2.
(* splits the hypotheses along their tests and conjunctions *)
Ltac hsplit := repeat match goal with H : context [if ?b then _ else _] |- _ => destruct b eqn:? end;
  try discriminate; andbs.

(* arithmetic on what the tests say: [lia] is slow with boolean facts it cannot use, so those
   about the rest of the list go first *)
Ltac zlia := repeat match goal with H : wf_from _ _ _ _ _ = true |- _ => clear H end; lia.

Section Step.
Variables (s : sh) (k : Z) (th : thr) (s' : sh) (th' : thr).
Hypothesis E : tstep s k th = (s', th').

Lemma step_transit : 0 <= gt s -> 0 <= gp s -> 0 <= gt s' /\ 0 <= gp s'.
Proof. intros. tcases th s' th' E; simp2; try (split; assumption); lia. Qed.

Lemma step_nt : nt s' - gt s' - ht th' = nt s - gt s - ht th.
Proof. tcases th s' th' E; simp2; try reflexivity; lia. Qed.

(* the discipline holds of what is left to do, with the parameters the rest determines;
   [a], [b] may be written differently *)
Ltac wf_same :=
  match goal with H : wf_from _ _ ?x ?y ?l = true |- wf_from ?f ?g ?x' ?y' ?l = true =>
    apply wf_norm in H;
    replace (wf_from f g x' y' l) with (wf_from f g x y l) by (f_equal; clear H; lia); exact H end.

Lemma step_tok : TOK th -> (nt s = 0 -> ht th = 0) ->
  (soloP th = true -> nt s = ht th /\ pa s = XX (ht th) + acc th) -> TOK th'.
Proof.
  (* the first side condition serves AT1 moving to AInc: the discipline gives [pre th] or
     [0 < ht th + hp th], and a thread that sees nb_tasks = 0 holds no task reference, so
     [1 <= hp th]; the second serves ST1 and SP1: the value that set_* overwrites is the
     thread's own count, so what it holds afterwards is what [wf_from] continues with *)
  intros (Hht & Hhp & Hw & Hpc) H0 Hs. tcases th s' th' E; norm.
  (* a step that leaves [todo], [ht] or [hp] alone leaves the conjuncts about them alone *)
  all: repeat apply conj; try assumption; try reflexivity.
  (* the others consume the head of [todo]: [Hw] is the tests on the head, which give the signs,
     and the discipline of the tail *)
  all: first [specialize (Hs eq_refl)|clear Hs]; hsplit; try wf_same; zlia.
Qed.

(* [XX (nt s)] moves only together with a pending increment or decrement: an update of nb_tasks
   that neither starts at 0 nor arrives there stays positive, the thread's own references being
   part of nb_tasks before and after *)
Lemma step_pa : 0 <= ht th <= nt s -> 0 <= ht th' ->
  pa s' - gp s' - XX (nt s') - acc th' = pa s - gp s - XX (nt s) - acc th.
Proof. intros Hle Hht'. tcases th s' th' E; norm; try reflexivity; lia. Qed.

(* only the CAS of ready changes [pre] and NOT_READY: both become false *)
Lemma step_pre : TOK th ->
  (pre th' = pre th /\ is_notready (mon s') = is_notready (mon s)) \/
  (pre th = true /\ pre th' = false /\ is_notready (mon s') = false).
Proof.
  intros (_ & _ & Hw & _). tcases th s' th' E; norm; try (left; split; reflexivity); try discriminate.
  (* after its one ready the thread has none ahead *)
  all: pose proof (wf_fr _ _ _ _ _ Hw); destruct (mon s); try discriminate; auto.
Qed.

Lemma step_solo_mono : soloP th' = true -> soloP th = true.
Proof. tcases th s' th' E; norm; auto. Qed.

(* a thread that may still set_* has not given a reference away *)
Lemma step_solo_keeps : TOK th -> soloP th' = true -> gt s = 0 -> gp s = 0 -> gt s' = 0 /\ gp s' = 0.
Proof.
  intros (_ & _ & Hw & _) Hs' Hg Hp. tcases th s' th' E; norm; auto; try lia.
  (* OGive: the rest of the list is checked with [so = false] *)
  all: andbs; match goal with H : wf_from _ false _ _ _ = true |- _ =>
    destruct (wf_set _ _ _ _ _ H Hs') as (_ & [=]) end.
Qed.

(* outside the solo thread nothing can start while it is alone *)
Lemma step_quiet : TOK th -> pre th = false -> quietP th = true -> gt s = 0 -> gp s = 0 ->
  quietP th' = true /\ gt s' = 0 /\ gp s' = 0.
Proof.
  intros (Hht & Hhp & Hw & Hpc) Hpre Hq Hg Hp. apply quiet_inv in Hq. destruct Hq as (Ha & Hb & Hpc0).
  tcases th s' th' E; try discriminate; subst a b; norm; try discriminate; try (repeat split; assumption).
  (* the operations that remain need a reference or a ready ahead *)
  all: hsplit; zlia.
Qed.
End Step.

Lemma ht_nonneg s L : Core s L -> AllT (fun q => 0 <= ht q) L.
Proof. intros HC u q Hu. apply (c_tok _ _ HC u q Hu). Qed.
Lemma hp_nonneg s L : Core s L -> AllT (fun q => 0 <= hp q) L.
Proof. intros HC u q Hu. apply (c_tok _ _ HC u q Hu). Qed.

Lemma core_step s k L t th s' th' : nth_error L t = Some th -> Core s L ->
  tstep s k th = (s', th') -> Core s' (upd L t th').
Proof.
  intros Ht HC E.
  pose proof (c_tok _ _ HC t th Ht) as Htok. pose proof Htok as (Hht & Hhp & _).
  pose proof (sumZ_ge_nth ht L t th (ht_nonneg _ _ HC) Ht) as Hle_t.
  pose proof (c_gt _ _ HC) as Cgt. pose proof (c_gp _ _ HC) as Cgp.
  pose proof (c_nt _ _ HC) as Cnt. pose proof (c_pa _ _ HC) as Cpa.
  assert (Htok' : TOK th').
  { apply (step_tok s k th s' th' E Htok); [lia|]. intros Hs. apply (solo_alone s L t th HC Ht Hs). }
  constructor; rewrite ?(sumZ_upd _ _ _ _ _ Ht), ?(cnt_upd2 _ _ _ _ _ Ht).
  - exact (AllT_upd _ _ _ _ _ Ht (c_tok _ _ HC) Htok').
  - exact (proj1 (step_transit _ _ _ _ _ E Cgt Cgp)).
  - exact (proj2 (step_transit _ _ _ _ _ E Cgt Cgp)).
  - pose proof (step_nt _ _ _ _ _ E). lia.
  - assert (Hle : 0 <= ht th <= nt s) by lia. pose proof (step_pa _ _ _ _ _ E Hle (proj1 Htok')). lia.
  - pose proof (c_pre _ _ HC) as Cpre. pose proof (cnt_ge_nth pre L t th Ht).
    destruct (step_pre _ _ _ _ _ E Htok) as [(-> & ->)|(Hp & -> & ->)]; [lia|].
    rewrite Hp in *. destruct (is_notready (mon s)); cbn in *; lia.
  - pose proof (cnt_ge_nth soloP L t th Ht) as Hs1. pose proof (solo_le1 _ _ HC).
    destruct (c_solo _ _ HC) as [Hz|(Hg & Hp & Hall)]; destruct (soloP th') eqn:Es'.
    + rewrite (step_solo_mono _ _ _ _ _ E Es') in Hs1. cbn in Hs1. lia.
    + left. destruct (soloP th); cbn in *; lia.
    + destruct (step_solo_keeps _ _ _ _ _ E Htok Es' Hg Hp). right. repeat split; try assumption.
      apply (AllT_upd _ _ _ _ _ Ht Hall). congruence.
    + destruct (soloP th) eqn:Es; [left; cbn; lia|].
      destruct (pre th) eqn:Hpre.
      * (* [th] is the thread before its ready and will not set_*: nobody will *)
        left. pose proof (cnt_diff_ge soloP pre L t th (solo_pre _ _ HC) Ht) as Hps.
        pose proof (c_pre _ _ HC). pose proof (b2z_le1 (is_notready (mon s))).
        rewrite Es, Hpre in Hps. cbn in *. lia.
      * destruct (step_quiet _ _ _ _ _ E Htok Hpre (Hall t th Ht Es) Hg Hp) as (Hq' & Hg' & Hp'). right.
        repeat split; try assumption. apply (AllT_upd _ _ _ _ _ Ht Hall). intros _. exact Hq'.
Qed.
