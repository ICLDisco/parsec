(* Safety and operational invariants of the local termination detector model:
   - Quiet: nobody holds a reference, both counters are 0, no counter update in flight;
     once the monitor has left NOT_READY a quiet state stays quiet (quiet_step), and a BUSY
     state with nb_pending_actions = 0 is quiet (quiet_of_core);
   - Safe: TERMINATING/TERMINATED, or BUSY with a thread about to CAS, implies Quiet;
     callback bookkeeping;
   - Oper: a detection is never missed; clocks of ready and of the callback. *)
From PV Require Import Base.Tac Base.ListX TermLocal.TermLocalDefs TermLocal.TermLocalAux TermLocal.TermLocalCore.
Local Open Scope Z_scope.

Definition Quiet s L := gt s = 0 /\ gp s = 0 /\ nt s = 0 /\ pa s = 0 /\ cnt activeP L = 0.

(* a thread with no ready ahead, no task reference and no share in nb_pending_actions holds
   nothing and is not about to update a counter: the discipline leaves it no such operation *)
Lemma tok_inactive q : TOK q -> pre q = false -> ht q = 0 -> acc q = 0 -> activeP q = false.
Proof.
  intros (_ & Hhp & Hw & Hpq) Hqp Ha Hb. destruct q as [p o r a b]. norm. subst a. rewrite Hqp in Hw.
  destruct p; norm; try discriminate; hsplit; zlia.
Qed.

(* a state with the monitor BUSY and no pending action is quiescent: nobody holds a
   reference, no counter update is in flight *)
Lemma quiet_of_core s L : Core s L -> pa s = 0 -> is_busy (mon s) = true -> Quiet s L.
Proof.
  intros HC Hpa Hb. pose proof (c_pre _ _ HC) as Cpre.
  replace (is_notready (mon s)) with false in Cpre by (destruct (mon s); try discriminate; reflexivity).
  (* nobody is before ready, so a pending increment holds a pending-action reference:
     no share of nb_pending_actions is negative, and they add up to 0 *)
  assert (Hacc : AllT (fun q => 0 <= acc q) L).
  { intros u q Hu. destruct (c_tok _ _ HC u q Hu) as (_ & Hhp & _ & Hpq).
    pose proof (cnt_zero_all pre L Cpre u q Hu) as Hqp. clear - Hhp Hpq Hqp.
    unfold acc, pc_ok, is_inc, is_dec in *. destruct (pc q); cbn; lia. }
  pose proof (ht_nonneg _ _ HC) as Hnn. pose proof (sumZ_nonneg acc L Hacc). pose proof (sumZ_nonneg ht L Hnn).
  pose proof (c_gt _ _ HC). pose proof (c_gp _ _ HC). pose proof (c_nt _ _ HC). pose proof (c_pa _ _ HC) as Cpa.
  unfold XX in Cpa.
  assert (Hs : gt s = 0 /\ gp s = 0 /\ nt s = 0 /\ sumZ ht L = 0 /\ sumZ acc L = 0) by lia.
  destruct Hs as (Q1 & Q2 & Q3 & Q4 & Q5).
  repeat split; try assumption.
  apply cnt_zero_of_all. intros u q Hu. apply (tok_inactive q (c_tok _ _ HC u q Hu)).
  - exact (cnt_zero_all pre L Cpre u q Hu).
  - exact (sumZ_zero_all ht L Hnn Q4 u q Hu).
  - exact (sumZ_zero_all acc L Hacc Q5 u q Hu).
Qed.

Lemma inactive_inv q : activeP q = false -> ht q = 0 /\ hp q = 0 /\ calm (pc q) = true.
Proof. unfold activeP. intros H. apply negb_false_iff in H. andbs. lia. Qed.

(* in a quiet state past NOT_READY a step starts nothing: the thread holds no reference and has
   no ready ahead, so the discipline leaves it no operation that touches a counter *)
Lemma quiet_step s k L t th s' th' : Core s L -> Quiet s L -> is_notready (mon s) = false ->
  nth_error L t = Some th -> tstep s k th = (s', th') -> Quiet s' (upd L t th').
Proof.
  intros HC (Q1 & Q2 & Q3 & Q4 & Q5) Hnr Ht E.
  pose proof (c_tok _ _ HC t th Ht) as (_ & _ & Hw & _).
  pose proof (cnt_zero_all activeP L Q5 t th Ht) as Hact.
  pose proof (c_pre _ _ HC) as Cpre. rewrite Hnr in Cpre. cbn in Cpre.
  pose proof (cnt_zero_all pre L Cpre t th Ht) as Hpre.
  unfold Quiet. rewrite (cnt_upd2 _ _ _ _ _ Ht), Q5, Hact. cbn [Z.b2z].
  destruct (inactive_inv _ Hact) as (Ha & Hb & Hcalm).
  clear HC Q5 Cpre Ht Hact Hnr.
  tcases th s' th' E; simp2; try discriminate; subst a b; norm; try discriminate.
  all: repeat apply conj; try assumption; try reflexivity; hsplit; zlia.
Qed.

Definition trig s L : Prop :=
  is_terminating (mon s) || is_terminated (mon s) = true \/ (is_busy (mon s) = true /\ 0 < cnt at_cas L).

Record Safe (s : sh) (L : list thr) : Prop := mkSafe {
  s_quiet : trig s L -> Quiet s L;
  s_cbs : cbs s = Z.b2z (is_terminating (mon s) || is_terminated (mon s));
  s_incb : cnt in_cb L = cbs s - cbd s;
  s_interm : cnt in_term L = Z.b2z (is_terminating (mon s));
  s_bad : cb_bad s = 0;
  s_nr : is_notready (mon s) = true -> cnt at_cas L + cnt at_r2 L = 0 }.

(* one step and the callback bookkeeping, seen from the thread that takes it *)
Section Step.
Variables (s : sh) (k : Z) (th : thr) (s' : sh) (th' : thr).
Hypothesis E : tstep s k th = (s', th').
Hypothesis Htok : TOK th.

Lemma step_cbs : cbs s = Z.b2z (is_terminating (mon s) || is_terminated (mon s)) ->
  cbs s' = Z.b2z (is_terminating (mon s') || is_terminated (mon s')).
Proof.
  destruct Htok as (_ & _ & Hw & _). unfold pre, soloP, todo in Hw. intros K.
  tcases th s' th' E; simp2; try discriminate; try assumption.
  all: destruct (mon s); try discriminate; cbn in *; lia.
Qed.

Lemma step_incb : Z.b2z (in_cb th') - Z.b2z (in_cb th) = (cbs s' - cbd s') - (cbs s - cbd s).
Proof. clear Htok. tcases th s' th' E; simp2; lia. Qed.

Lemma step_interm : (in_term th = true -> is_terminating (mon s) = true) ->
  Z.b2z (in_term th') - Z.b2z (in_term th)
  = Z.b2z (is_terminating (mon s')) - Z.b2z (is_terminating (mon s)).
Proof.
  destruct Htok as (_ & _ & Hw & _). unfold pre, soloP, todo in Hw. intros Hin.
  tcases th s' th' E; simp2; try discriminate; try reflexivity.
  all: try specialize (Hin eq_refl); destruct (mon s); try discriminate; reflexivity.
Qed.

(* the callback looks at the counters when it starts and when it returns *)
Lemma step_bad : (is_busy (mon s) = true -> at_cas th = true -> nt s = 0 /\ pa s = 0) ->
  (in_cb th = true -> nt s = 0 /\ pa s = 0) -> cb_bad s' = cb_bad s.
Proof.
  clear Htok. intros H1 H2. tcases th s' th' E; simp2; try reflexivity; unfold nonzero.
  - destruct H1 as (-> & ->); auto. cbn. lia.
  - destruct H2 as (-> & ->); auto. cbn. lia.
Qed.

(* NOT_READY is never re-entered; while it lasts no step leads to the retain or the CAS *)
Lemma step_nr : is_notready (mon s') = true ->
  is_notready (mon s) = true /\
  Z.b2z (at_cas th') + Z.b2z (at_r2 th') <= Z.b2z (at_cas th) + Z.b2z (at_r2 th).
Proof.
  destruct Htok as (_ & _ & Hw & _). unfold pre, soloP, todo in Hw. intros Hnr.
  tcases th s' th' E; simp2; try discriminate; try (split; [assumption|clear; lia]).
  all: destruct (mon s); try discriminate; split; try reflexivity; clear; lia.
Qed.

(* how a state comes to announce termination: TERMINATING is entered by the CAS of a BUSY state;
   a thread newly before that CAS has just seen nb_pending_actions = 0; BUSY is entered from NOT_READY *)
Lemma step_trig :
  (is_terminating (mon s') || is_terminated (mon s') = true ->
     is_terminating (mon s) || is_terminated (mon s) = true \/ (is_busy (mon s) = true /\ at_cas th = true)) /\
  (is_busy (mon s') = true -> at_cas th' = true -> at_cas th = true \/ pa s' = 0) /\
  (is_busy (mon s') = true -> is_busy (mon s) = true \/ is_notready (mon s) = true).
Proof.
  destruct Htok as (_ & _ & Hw & _). unfold pre, soloP, todo in Hw.
  tcases th s' th' E; simp2; try discriminate; repeat apply conj; intros; auto; try discriminate.
  all: destruct (mon s); try discriminate; auto; andbs; right; apply Z.eqb_eq; assumption.
Qed.
End Step.

(* a state that newly announces termination is BUSY with no pending action *)
Lemma trig_origin s k L t th s' th' : TOK th -> nth_error L t = Some th -> tstep s k th = (s', th') ->
  (is_notready (mon s) = true -> cnt at_cas L + cnt at_r2 L = 0) ->
  trig s' (upd L t th') -> trig s L \/ (pa s' = 0 /\ is_busy (mon s') = true).
Proof.
  intros Htok Ht E K5 Htr.
  destruct (step_trig _ _ _ _ _ E Htok) as (T1 & T2 & T3).
  pose proof (cnt_ge_nth at_cas L t th Ht) as Hc1. pose proof (cnt_nonneg at_r2 L) as Hn2.
  pose proof (cnt_nonneg at_cas L) as Hn1.
  unfold trig in *. rewrite (cnt_upd2 _ _ _ _ _ Ht) in Htr. clear Htok Ht E.
  destruct Htr as [H|[Hb Hpos]].
  - destruct (T1 H) as [H'|(Hb & Hc)]; left; [left; exact H'|right].
    rewrite Hc in Hc1. split; [assumption|clear - Hc1; cbn in Hc1; lia].
  - assert (Hnew : (at_cas th' = true /\ at_cas th = false) \/ 0 < cnt at_cas L).
    { clear - Hpos Hc1. destruct (at_cas th'), (at_cas th); cbn in *; auto; right; lia. }
    destruct Hnew as [(Hc' & Hc)|Hold].
    + destruct (T2 Hb Hc') as [Hc0|Hpa]; [congruence|right; auto].
    + left. right. destruct (T3 Hb) as [Hb0|Hnr]; [auto|]. specialize (K5 Hnr). clear - K5 Hold Hn1 Hn2. lia.
Qed.

Lemma safe_step s k L t th s' th' : Core s L -> Safe s L ->
  nth_error L t = Some th -> tstep s k th = (s', th') -> Safe s' (upd L t th').
Proof.
  intros HC HS Ht E.
  pose proof (c_tok _ _ HC t th Ht) as Htok.
  pose proof (s_cbs _ _ HS) as K1. pose proof (s_incb _ _ HS) as K2.
  pose proof (s_interm _ _ HS) as K3. pose proof (s_bad _ _ HS) as K4. pose proof (s_nr _ _ HS) as K5.
  pose proof (cnt_ge_nth at_cas L t th Ht) as Hc1. pose proof (cnt_ge_nth in_term L t th Ht) as Hc4.
  assert (Hq : trig s L -> nt s = 0 /\ pa s = 0).
  { intros H. destruct (s_quiet _ _ HS H) as (_ & _ & H3 & H4 & _). auto. }
  assert (Hin : in_term th = true -> is_terminating (mon s) = true).
  { intros H. rewrite H in Hc4. destruct (is_terminating (mon s)); [reflexivity|cbn in *; lia]. }
  constructor; rewrite ?(cnt_upd2 _ _ _ _ _ Ht).
  - intros Htr. destruct (trig_origin _ _ _ _ _ _ _ Htok Ht E K5 Htr) as [Hold|(Hpa & Hb)].
    + assert (Hnr : is_notready (mon s) = false).
      { destruct Hold as [H|[H _]]; destruct (mon s); cbn in *; try discriminate; reflexivity. }
      exact (quiet_step _ _ _ _ _ _ _ HC (s_quiet _ _ HS Hold) Hnr Ht E).
    + exact (quiet_of_core _ _ (core_step _ _ _ _ _ _ _ Ht HC E) Hpa Hb).
  - exact (step_cbs _ _ _ _ _ E Htok K1).
  - pose proof (step_incb _ _ _ _ _ E) as H. clear - H K2. lia.
  - pose proof (step_interm _ _ _ _ _ E Htok Hin) as H. clear - H K3. lia.
  - rewrite (step_bad _ _ _ _ _ E); [assumption| |].
    + intros Hb Hc. apply Hq. right. rewrite Hc in Hc1. cbn in Hc1. split; [assumption|clear - Hc1; lia].
    + intros Hc. apply Hq. left. rewrite Hin; [reflexivity|].
      unfold in_cb, in_term in *. destruct (pc th); auto.
  - intros Hnr. destruct (step_nr _ _ _ _ _ E Htok Hnr) as (Hnr0 & Hle). specialize (K5 Hnr0).
    pose proof (cnt_nonneg at_cas L). pose proof (cnt_nonneg at_r2 L).
    pose proof (cnt_ge_nth at_r2 L t th Ht). clear - Hle K5 Hc1 H H0 H1. lia.
Qed.

(* facts that hold of every run, disciplined or not: a detection is never missed, and the
   clocks of ready / callback are ordered *)
Record Oper (s : sh) (k : Z) (L : list thr) : Prop := mkOper {
  o_live : is_busy (mon s) = true -> pa s = 0 -> 0 < cnt at_cas L + cnt at_r2 L;
  o_clk : 0 <= k;
  o_rdy : 0 <= rdy_at s <= k;
  o_rdypos : is_notready (mon s) = false \/ 0 < cnt at_r1 L -> 0 < rdy_at s;
  o_cb : 1 <= cbs s -> 0 < rdy_at s /\ rdy_at s < cb_at s <= k;
  o_cbs0 : 0 <= cbs s }.

Section StepAny.
Variables (s : sh) (k : Z) (th : thr) (s' : sh) (th' : thr).
Hypothesis E : tstep s k th = (s', th').

(* a BUSY state with no pending action is new only if this step brought its thread to the
   retain or to the CAS; otherwise the thread stays where it was *)
Lemma step_live : is_busy (mon s') = true -> pa s' = 0 ->
  0 < Z.b2z (at_cas th') + Z.b2z (at_r2 th') \/
  (is_busy (mon s) = true /\ pa s = 0 /\ at_cas th' = at_cas th /\ at_r2 th' = at_r2 th).
Proof.
  intros Hb Hp. tcases th s' th' E; simp2; auto; try (left; lia); try discriminate.
  all: destruct (mon s); discriminate.
Qed.

(* ready stamps its clock once; a thread is before the CAS of ready only after the stamp *)
Lemma step_rdy : 0 <= rdy_at s -> 0 < k ->
  (0 < rdy_at s -> rdy_at s' = rdy_at s) /\ (rdy_at s' = rdy_at s \/ rdy_at s' = k) /\
  (at_r1 th' = true -> at_r1 th = true \/ 0 < rdy_at s').
Proof.
  intros H0 Hk. tcases th s' th' E; simp2; repeat apply conj; intros; auto; try discriminate; lia.
Qed.

Lemma step_mon_nr : is_notready (mon s') = false -> is_notready (mon s) = false \/ at_r1 th = true.
Proof. tcases th s' th' E; simp2; intros; try discriminate; auto; destruct (mon s); try discriminate; auto. Qed.

(* the callback count moves only at the CAS of a BUSY state, which stamps the first start *)
Lemma step_cb : (cbs s' = cbs s /\ cb_at s' = cb_at s) \/
  (is_busy (mon s) = true /\ cbs s' = cbs s + 1 /\ cb_at s' = if cbs s =? 0 then k else cb_at s).
Proof. tcases th s' th' E; simp2; auto. Qed.
End StepAny.

Lemma oper_step s k L t th s' th' : Oper s k L ->
  nth_error L t = Some th -> tstep s (k + 1) th = (s', th') -> Oper s' (k + 1) (upd L t th').
Proof.
  intros [O1 O2 O3 O4 O5 O6] Ht E.
  pose proof (cnt_ge_nth at_cas L t th Ht) as Hc1. pose proof (cnt_ge_nth at_r2 L t th Ht) as Hc2.
  pose proof (cnt_ge_nth at_r1 L t th Ht) as Hc3.
  pose proof (cnt_nonneg at_cas L) as Hn1. pose proof (cnt_nonneg at_r2 L) as Hn2.
  pose proof (cnt_nonneg at_r1 L) as Hn3.
  destruct (step_rdy _ _ _ _ _ E (proj1 O3)) as (R1 & R2 & R3); [lia|].
  pose proof (step_cb _ _ _ _ _ E) as Hcb.
  assert (Hkeep : 0 < rdy_at s -> 0 < rdy_at s') by (intros H; rewrite (R1 H); exact H).
  constructor; rewrite ?(cnt_upd2 _ _ _ _ _ Ht).
  - intros Hb Hp. destruct (step_live _ _ _ _ _ E Hb Hp) as [H|(Hb0 & Hp0 & -> & ->)].
    + clear - H Hc1 Hc2. lia.
    + specialize (O1 Hb0 Hp0). clear - O1. lia.
  - clear - O2. lia.
  - clear - O2 O3 R2. lia.
  - intros [H|H].
    + apply Hkeep, O4. destruct (step_mon_nr _ _ _ _ _ E H) as [H'|H']; [left; exact H'|right].
      exact (cnt_pos_of_nth _ _ _ _ Ht H').
    + destruct (at_r1 th') eqn:E1; [destruct (R3 eq_refl) as [H'|H']; [|exact H']|]; apply Hkeep, O4; right.
      * exact (cnt_pos_of_nth _ _ _ _ Ht H').
      * clear - H Hc3. destruct (at_r1 th); cbn in *; lia.
  - intros Hc. destruct Hcb as [(Hs & Ha)|(Hb & Hs & Ha)].
    + rewrite Hs in Hc. rewrite Ha. specialize (O5 Hc). rewrite (R1 (proj1 O5)). clear - O5. lia.
    + assert (Hr : 0 < rdy_at s) by (apply O4; left; destruct (mon s); try discriminate; reflexivity).
      rewrite Ha, (R1 Hr). destruct (Z.eqb_spec (cbs s) 0) as [E0|E0]; [clear - Hr O3; lia|].
      assert (H1 : 1 <= cbs s) by (clear - E0 O6; lia). specialize (O5 H1). clear - O5. lia.
  - destruct Hcb as [(Hs & _)|(_ & Hs & _)]; clear - Hs O6; lia.
Qed.
