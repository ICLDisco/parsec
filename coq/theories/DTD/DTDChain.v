(* The dependencies built by insertion ([deps_of]) are exactly the conflicts of
   the insertion order: every edge points backwards to a conflicting task
   ([deps_sound]) and every pair of conflicting tasks is connected by a path of
   edges ([chain_edges_complete]). *)
From PV Require Import Base.Tac DTD.DTDDefs.

(* i must have ended before k may begin, through a chain of dependencies *)
Inductive dpath (dep : tid -> list tid) : tid -> tid -> Prop :=
| dp_edge i k : In i (dep k) -> dpath dep i k
| dp_trans i j k : dpath dep i j -> In j (dep k) -> dpath dep i k.

Lemma writes_touches t d : writes t d = true -> touches t d = true.
Proof.
  unfold writes, touches. rewrite !existsb_exists. intros (a & Ha & Hb).
  exists a. split; [exact Ha|]. now apply andb_true_iff in Hb.
Qed.
Lemma conflict_wt t1 t2 d : writes t1 d = true -> touches t2 d = true -> conflict t1 t2.
Proof. intros Hw Ht. exists d. split; [now apply writes_touches|]. split; [exact Ht|now left]. Qed.
Lemma conflict_tw t1 t2 d : touches t1 d = true -> writes t2 d = true -> conflict t1 t2.
Proof. intros Ht Hw. exists d. split; [exact Ht|]. split; [now apply writes_touches|now right]. Qed.
Lemma touches_app t1 t2 d : touches (t1 ++ t2) d = touches t1 d || touches t2 d.
Proof. apply existsb_app. Qed.
Lemma writes_app t1 t2 d : writes (t1 ++ t2) d = writes t1 d || writes t2 d.
Proof. apply existsb_app. Qed.
Lemma touches_one a d : touches [a] d = Nat.eqb (fst a) d.
Proof. unfold touches. cbn. now rewrite orb_false_r. Qed.
Lemma writes_one a d : writes [a] d = Nat.eqb (fst a) d && is_write (snd a).
Proof. unfold writes. cbn. now rewrite orb_false_r. Qed.
Lemma in_others k l j : In j (others k l) <-> In j l /\ j <> k.
Proof.
  unfold others. rewrite filter_In. split; intros [H1 H2]; split; auto.
  - intros ->. now rewrite Nat.eqb_refl in H2.
  - apply negb_true_iff. now apply Nat.eqb_neq.
Qed.
Lemma in_opt_list o j : In j (opt_list o) <-> o = Some j.
Proof. destruct o as [x|]; cbn; split; intros H; try congruence; try tauto.
  - destruct H as [->|[]]. reflexivity.
  - left. congruence. Qed.

Section Flows.
Variable k : tid.
Variable cs0 : cstate.

(* what the flows [done] of task k, inserted on the chains cs0, have made of the chains (cs) and
   which tasks they wait for (ds) *)
Record Mid (done : task) (cs : cstate) (ds : list tid) : Prop := {
  M1 : forall d, writes done d = true -> lw (cs d) = Some k /\ (forall j, In j (rds (cs d)) -> j = k);
  M2 : forall d, writes done d = false -> lw (cs d) = lw (cs0 d) /\
         (forall j, In j (rds (cs d)) <-> (j = k /\ touches done d = true) \/ In j (rds (cs0 d)));
  M3 : forall j, In j ds -> j <> k /\ exists d, touches done d = true /\
         ((In j (rds (cs0 d)) /\ writes done d = true) \/ lw (cs0 d) = Some j);
  M4 : forall d, touches done d = true -> forall w, lw (cs0 d) = Some w -> w <> k -> In w ds;
  M5 : forall d, writes done d = true -> forall j, In j (rds (cs0 d)) -> j <> k -> In j ds }.

Lemma mid_nil : Mid [] cs0 [].
Proof.
  constructor; cbn; try discriminate; try tauto.
  intros d _. split; [reflexivity|]. intros j. split; [tauto|]. intros [[_ H]|H]; [discriminate|exact H].
Qed.

Lemma cupd_same cs d c : cupd cs d c d = c.
Proof. unfold cupd. now rewrite Nat.eqb_refl. Qed.
Lemma cupd_other cs d c x : x <> d -> cupd cs d c x = cs x.
Proof. unfold cupd. intros H. apply Nat.eqb_neq in H. now rewrite H. Qed.

Lemma mid_step done cs ds a : Mid done cs ds ->
  Mid (done ++ [a]) (fst (acc_step k (cs, ds) a)) (snd (acc_step k (cs, ds) a)).
Proof.
  intros [H1 H2 H3 H4 H5]. destruct a as [d0 m].
  (* a write flow becomes the last writer and waits for the readers too; a read flow joins the readers *)
  assert (Hstep : acc_step k (cs, ds) (d0, m) =
            (cupd cs d0 (if is_write m then {| lw := Some k; rds := [] |}
                         else {| lw := lw (cs d0); rds := k :: rds (cs d0) |}),
             ds ++ others k ((if is_write m then rds (cs d0) else []) ++ opt_list (lw (cs d0))))).
  { unfold acc_step. cbn [fst snd]. destruct m; reflexivity. }
  rewrite Hstep. cbn [fst snd]. clear Hstep.
  assert (Hto : forall d, touches (done ++ [(d0, m)]) d = touches done d || Nat.eqb d0 d).
  { intros d. now rewrite touches_app, touches_one. }
  assert (Hwr : forall d, writes (done ++ [(d0, m)]) d = writes done d || (Nat.eqb d0 d && is_write m)).
  { intros d. now rewrite writes_app, writes_one. }
  constructor.
  - intros d Hd. rewrite Hwr in Hd. destruct (Nat.eqb_spec d0 d) as [E|Hne]; [subst d|]; cbn [andb] in Hd.
    + rewrite cupd_same. destruct (is_write m); [cbn; split; [reflexivity|tauto]|].
      rewrite orb_false_r in Hd. destruct (H1 d0 Hd) as [Hl Hr]. cbn. split; [exact Hl|].
      intros j [<-|Hj]; [reflexivity|now apply Hr].
    + rewrite cupd_other by congruence. rewrite orb_false_r in Hd. now apply H1.
  - intros d Hd. rewrite Hwr in Hd. apply orb_false_iff in Hd. destruct Hd as [Hd Hd2].
    destruct (H2 d Hd) as [Hl Hr]. rewrite Hto. destruct (Nat.eqb_spec d0 d) as [E|Hne]; [subst d|]; cbn [andb] in Hd2.
    + rewrite Hd2, cupd_same, orb_true_r. cbn. split; [exact Hl|]. intros j. rewrite Hr. intuition.
    + rewrite cupd_other by congruence. rewrite orb_false_r. now split.
  - intros j Hj. apply in_app_or in Hj. destruct Hj as [Hj|Hj].
    + destruct (H3 j Hj) as (Hne & d & Hd & Hc). split; [exact Hne|]. exists d. rewrite Hto, Hwr, Hd.
      split; [reflexivity|]. destruct Hc as [[Hc1 Hc2]|Hc]; [left|right; exact Hc]. now rewrite Hc2.
    + apply in_others in Hj. destruct Hj as [Hj Hne]. split; [exact Hne|].
      exists d0. rewrite Hto, Hwr, !Nat.eqb_refl, !orb_true_r. split; [reflexivity|].
      apply in_app_or in Hj. destruct (writes done d0) eqn:Ew.
      * (* the task itself is the last writer and the only reader of d0: nothing to wait for *)
        destruct (H1 d0 Ew) as [Hl Hr]. exfalso. apply Hne. destruct Hj as [Hj|Hj].
        -- destruct (is_write m); [now apply Hr|destruct Hj].
        -- apply in_opt_list in Hj. congruence.
      * destruct (H2 d0 Ew) as [Hl Hr]. destruct Hj as [Hj|Hj].
        -- destruct (is_write m); [|destruct Hj]. apply Hr in Hj. destruct Hj as [[Hj _]|Hj]; [congruence|].
           left. split; [exact Hj|reflexivity].
        -- apply in_opt_list in Hj. right. congruence.
  - intros d Hd w Hw Hne. rewrite Hto in Hd. apply in_or_app.
    destruct (touches done d) eqn:Et; [left; eapply H4; eauto|].
    cbn in Hd. apply Nat.eqb_eq in Hd. subst d0. right.
    assert (Ew : writes done d = false).
    { destruct (writes done d) eqn:E; [|reflexivity]. apply writes_touches in E. congruence. }
    destruct (H2 d Ew) as [Hl _]. apply in_others. split; [|exact Hne].
    apply in_or_app. right. apply in_opt_list. congruence.
  - intros d Hd j Hj Hne. rewrite Hwr in Hd. apply in_or_app.
    destruct (writes done d) eqn:Ew; [left; eapply H5; eauto|].
    cbn in Hd. apply andb_true_iff in Hd. destruct Hd as [Hd Hm]. apply Nat.eqb_eq in Hd. subst d0. right.
    destruct (H2 d Ew) as [_ Hr]. apply in_others. split; [|exact Hne]. rewrite Hm.
    apply in_or_app. left. apply Hr. now right.
Qed.

Lemma mid_fold : forall rest done cs ds, Mid done cs ds ->
  Mid (done ++ rest) (fst (fold_left (acc_step k) rest (cs, ds))) (snd (fold_left (acc_step k) rest (cs, ds))).
Proof.
  induction rest as [|a rest IH]; intros done cs ds H; cbn [fold_left].
  - now rewrite app_nil_r.
  - replace (done ++ a :: rest) with ((done ++ [a]) ++ rest) by now rewrite <- app_assoc.
    pose proof (mid_step done cs ds a H) as Hs.
    destruct (acc_step k (cs, ds) a) as [cs' ds'] eqn:E. cbn [fst snd] in Hs. now apply IH.
Qed.

Lemma mid_insert t : Mid t (fst (insert_task k t cs0)) (snd (insert_task k t cs0)).
Proof. unfold insert_task. exact (mid_fold t [] cs0 [] mid_nil). Qed.
End Flows.

Section Chains.
Variable p : prog.
Notation accs j d := (touches (task_at p j) d = true).
Notation wr j d := (writes (task_at p j) d = true).

(* invariant of the chains after the insertion of tasks 0 .. k-1 *)
Record CI (k : nat) (cs : cstate) : Prop := {
  I1 : forall d w, lw (cs d) = Some w -> w < k /\ wr w d /\ (forall j, w < j < k -> writes (task_at p j) d = false);
  I2 : forall d, lw (cs d) = None -> forall j, j < k -> writes (task_at p j) d = false;
  I3 : forall d j, In j (rds (cs d)) -> j < k /\ accs j d;
  I4 : forall d j, j < k -> accs j d -> In j (rds (cs d)) \/ (exists w, lw (cs d) = Some w /\ j <= w) }.

Lemma ci_init : CI 0 chain0.
Proof. constructor; cbn; intros; try discriminate; try lia; tauto. Qed.

Lemma ci_step k cs : CI k cs -> CI (S k) (fst (insert_task k (task_at p k) cs)).
Proof.
  intros [J1 J2 J3 J4]. pose proof (mid_insert k cs (task_at p k)) as [H1 H2 _ _ _].
  set (t := task_at p k) in *. set (cs' := fst (insert_task k t cs)) in *.
  constructor.
  - intros d w Hw. destruct (writes t d) eqn:Ew.
    + destruct (H1 d Ew) as [Hl _]. assert (w = k) by congruence. subst w.
      split; [lia|]. split; [exact Ew|]. intros j Hj. lia.
    + destruct (H2 d Ew) as [Hl _]. rewrite Hl in Hw. destruct (J1 d w Hw) as (Hlt & Hww & Hno).
      split; [lia|]. split; [exact Hww|]. intros j Hj. destruct (Nat.eq_dec j k) as [->|Hne]; [exact Ew|].
      apply Hno. lia.
  - intros d Hn j Hj. destruct (writes t d) eqn:Ew.
    + destruct (H1 d Ew) as [Hl _]. congruence.
    + destruct (H2 d Ew) as [Hl _]. rewrite Hl in Hn. destruct (Nat.eq_dec j k) as [->|Hne]; [exact Ew|].
      apply J2; [exact Hn|lia].
  - intros d j Hj. destruct (writes t d) eqn:Ew.
    + destruct (H1 d Ew) as [Hl Hr]. apply Hr in Hj. subst j. split; [lia|now apply writes_touches].
    + destruct (H2 d Ew) as [Hl Hr]. apply Hr in Hj. destruct Hj as [[-> Ht]|Hj]; [split; [lia|exact Ht]|].
      destruct (J3 d j Hj) as (Hlt & Ha). split; [lia|exact Ha].
  - intros d j Hj Ha. destruct (writes t d) eqn:Ew.
    + destruct (H1 d Ew) as [Hl _]. right. exists k. split; [exact Hl|lia].
    + destruct (H2 d Ew) as [Hl Hr]. destruct (Nat.eq_dec j k) as [->|Hne].
      * left. apply Hr. left. split; [reflexivity|exact Ha].
      * destruct (J4 d j) as [Hin|(w & Hw & Hle)]; [lia|exact Ha| |].
        -- left. apply Hr. now right.
        -- right. exists w. split; [congruence|exact Hle].
Qed.

(* the k-th dependency list is what insert_task computes from the chains of tasks 0..k-1 *)
Lemma build_nth : forall p' pre cs, p = pre ++ p' -> CI (length pre) cs ->
  forall i, i < length p' ->
  exists cs0, CI (length pre + i) cs0 /\
    nth i (build (length pre) p' cs) [] = snd (insert_task (length pre + i) (task_at p (length pre + i)) cs0).
Proof.
  induction p' as [|t p' IH]; intros pre cs Hp Hci i Hi; [cbn in Hi; lia|].
  assert (Ht : task_at p (length pre) = t).
  { rewrite Hp. unfold task_at. rewrite app_nth2 by lia. now rewrite Nat.sub_diag. }
  cbn [build]. destruct i as [|i].
  - exists cs. rewrite Nat.add_0_r. split; [exact Hci|]. cbn [nth]. now rewrite Ht.
  - cbn [nth]. cbn [length] in Hi.
    destruct (IH (pre ++ [t]) (fst (insert_task (length pre) t cs))) with (i := i) as (cs0 & Hc & Hn).
    + now rewrite <- app_assoc.
    + rewrite app_length. cbn [length]. rewrite Nat.add_1_r. rewrite <- Ht. now apply ci_step.
    + lia.
    + rewrite app_length in Hc, Hn. cbn [length] in Hc, Hn.
      replace (length pre + 1 + i) with (length pre + S i) in Hc, Hn by lia.
      replace (length pre + 1) with (S (length pre)) in Hn by lia.
      exists cs0. split; [exact Hc|exact Hn].
Qed.

Lemma dep_fn_spec k : k < length p ->
  exists cs0, CI k cs0 /\ dep_fn p k = snd (insert_task k (task_at p k) cs0).
Proof.
  intros Hk. unfold dep_fn, deps_of.
  destruct (build_nth p [] chain0 eq_refl ci_init k Hk) as (cs0 & Hc & Hn).
  cbn [length] in Hc, Hn. rewrite Nat.add_0_l in Hc, Hn. eauto.
Qed.

Lemma build_length : forall p' k cs, length (build k p' cs) = length p'.
Proof. induction p' as [|t p' IH]; intros; cbn [build length]; [reflexivity|]. now rewrite IH. Qed.

Lemma dep_fn_out k : length p <= k -> dep_fn p k = [].
Proof. intros H. unfold dep_fn, deps_of. apply nth_overflow. now rewrite build_length. Qed.

Theorem deps_sound k j : In j (dep_fn p k) -> j < k /\ conflict (task_at p j) (task_at p k).
Proof.
  intros Hj. destruct (Nat.lt_ge_cases k (length p)) as [Hk|Hk]; [|rewrite dep_fn_out in Hj by exact Hk; destruct Hj].
  destruct (dep_fn_spec k Hk) as (cs0 & [J1 _ J3 _] & Hd). rewrite Hd in Hj.
  pose proof (mid_insert k cs0 (task_at p k)) as [_ _ H3 _ _].
  destruct (H3 j Hj) as (Hne & d & Ht & [[Hr Hw]|Hl]).
  - destruct (J3 d j Hr) as (Hlt & Ha). split; [exact Hlt|]. exists d. repeat split; auto.
  - destruct (J1 d j Hl) as (Hlt & Hw & _). split; [exact Hlt|]. exists d. repeat split; auto.
    now apply writes_touches.
Qed.

Theorem chain_edges_complete : forall k i, k < length p -> i < k ->
  conflict (task_at p i) (task_at p k) -> dpath (dep_fn p) i k.
Proof.
  induction k as [k IH] using lt_wf_ind. intros i Hk Hi (d & Hti & Htk & Hw).
  destruct (dep_fn_spec k Hk) as (cs0 & [J1 J2 J3 J4] & Hd).
  pose proof (mid_insert k cs0 (task_at p k)) as [_ _ _ H4 H5]. rewrite <- Hd in H4, H5.
  (* through the last writer w of d before k *)
  assert (Hvia : forall w, lw (cs0 d) = Some w -> i <= w -> dpath (dep_fn p) i k).
  { intros w Hw0 Hle. destruct (J1 d w Hw0) as (Hwk & Hww & _).
    assert (Hin : In w (dep_fn p k)) by (apply (H4 d Htk w Hw0); lia).
    destruct (Nat.eq_dec i w) as [->|Hne]; [now apply dp_edge|].
    apply dp_trans with w; [|exact Hin]. apply IH; [exact Hwk|exact (Nat.lt_trans _ _ _ Hwk Hk)|lia|].
    exists d. repeat split; auto. now apply writes_touches. }
  destruct (writes (task_at p k) d) eqn:Ewk.
  - destruct (J4 d i Hi Hti) as [Hin|(w & Hw0 & Hle)]; [|now apply Hvia with w].
    apply dp_edge. apply (H5 d Ewk i Hin). lia.
  - destruct Hw as [Hwi|Hwk]; [|congruence].
    destruct (lw (cs0 d)) as [w|] eqn:El.
    + apply Hvia with w; [reflexivity|]. destruct (J1 d w El) as (_ & _ & Hno).
      destruct (Nat.le_gt_cases i w) as [Hle|Hgt]; [exact Hle|]. rewrite Hno in Hwi by lia. discriminate.
    + rewrite (J2 d El i Hi) in Hwi. discriminate.
Qed.
End Chains.
