(* The flow-level gate model with the guard of notes/findings/C03-stale-last-user.patch
   ([stale_fix = true]) refines the protocol engine: for every sequence in which no task
   names a tile twice and EVERY event list, a task begins only when every earlier
   conflicting task is done; hence every run of the gate model is a run of the engine of
   DTDDefs.v with "all earlier conflicting tasks" as dependencies, and the theorems of
   C03 / C04 transfer to the mechanism (reader counts, alive flag, chain walk).  Without the
   guard the witness of DTDGate.v has a writer and a reader of one tile running together
   ([gate_unguarded_refuted]). *)
From PV Require Import Base.Tac Base.ListX DTD.DTDDefs DTD.DTDSeq DTD.DTDChain DTD.DTDEngine DTD.DTDGate.
Local Open Scope nat_scope.

Definition cnt (f : nat -> bool) (n : nat) : nat := length (filter f (seq 0 n)).
Lemma cnt_S f n : cnt f (S n) = cnt f n + (if f n then 1 else 0).
Proof. unfold cnt. rewrite seq_S, filter_app, app_length. cbn. destruct (f n); reflexivity. Qed.
Lemma cnt_ext f g n : (forall t, t < n -> f t = g t) -> cnt f n = cnt g n.
Proof.
  intros H. unfold cnt. f_equal. apply filter_ext_in. intros t Ht. apply in_seq in Ht. apply H. lia.
Qed.
Lemma cnt_flip_on f g n t : t < n -> f t = false -> g t = true -> (forall x, x <> t -> g x = f x) ->
  cnt g n = S (cnt f n).
Proof.
  induction n as [|n IH]; intros Ht Hf Hg Ho; [lia|]. rewrite !cnt_S.
  destruct (Nat.eq_dec t n) as [->|Hne].
  - rewrite Hf, Hg. rewrite (cnt_ext g f n); [lia|]. intros x Hx. apply Ho. lia.
  - rewrite (Ho n) by congruence. rewrite IH by (auto; lia). lia.
Qed.
Lemma cnt_flip_many : forall rs f g n, NoDup rs -> (forall x, In x rs -> x < n /\ f x = false /\ g x = true) ->
  (forall x, ~ In x rs -> g x = f x) -> cnt g n = cnt f n + length rs.
Proof.
  induction rs as [|r rs IH]; intros f g n Hnd Hin Hout.
  - cbn. rewrite Nat.add_0_r. apply cnt_ext. intros t _. apply Hout. tauto.
  - inversion Hnd as [|? ? Hnr Hnd']; subst. cbn [length].
    set (h := fun x => if Nat.eqb x r then true else f x).
    destruct (Hin r (or_introl eq_refl)) as (Hrn & Hfr & Hgr).
    assert (Hh : cnt h n = S (cnt f n)).
    { apply cnt_flip_on with r; auto; unfold h.
      - now rewrite Nat.eqb_refl.
      - intros x Hx. apply Nat.eqb_neq in Hx. now rewrite Hx. }
    rewrite (IH h g n Hnd').
    + lia.
    + intros x Hx. destruct (Hin x (or_intror Hx)) as (Ha & Hb & Hc). repeat split; auto.
      unfold h. destruct (Nat.eqb x r) eqn:E; [apply Nat.eqb_eq in E; subst; contradiction|exact Hb].
    + intros x Hx. unfold h. destruct (Nat.eqb x r) eqn:E.
      * apply Nat.eqb_eq in E. subst. exact Hgr.
      * apply Hout. intros [->|Hi]; [now rewrite Nat.eqb_refl in E|contradiction].
Qed.

(* a filter of seq is increasing *)
Lemma filter_seq_split f n l1 l2 a b : filter f (seq 0 n) = l1 ++ l2 -> In a l1 -> In b l2 -> a < b.
Proof.
  revert l1 l2. induction n as [|n IH]; intros l1 l2 H Ha Hb.
  - cbn in H. destruct l1; [destruct Ha|discriminate].
  - rewrite seq_S, filter_app in H. cbn in H. destruct (f n) eqn:E.
    + destruct (exists_last (l := l2)) as (l2' & x & ->).
      { intros ->. destruct Hb. }
      rewrite app_assoc in H. apply app_inj_tail in H. destruct H as [H <-].
      apply in_app_or in Hb. destruct Hb as [Hb|[<-|[]]].
      * now apply (IH l1 l2').
      * assert (In a (filter f (seq 0 n))) by (rewrite H; apply in_or_app; now left).
        apply filter_In in H0. destruct H0 as [H0 _]. apply in_seq in H0. lia.
    + rewrite app_nil_r in H. now apply (IH l1 l2).
Qed.
Lemma filter_filter {A} (f g : A -> bool) l : filter g (filter f l) = filter (fun x => f x && g x) l.
Proof. induction l as [|x l IH]; [reflexivity|]. cbn. destruct (f x); cbn; [destruct (g x)|]; now rewrite IH. Qed.
Lemma filter_nil_all {A} (f : A -> bool) l : filter f l = [] -> forall x, In x l -> f x = false.
Proof.
  induction l as [|y l IH]; intros H x Hx; [destruct Hx|]. cbn in H. destruct (f y) eqn:E; [discriminate|].
  destruct Hx as [<-|Hx]; auto.
Qed.

Lemma cnt_zero f n : cnt f n = 0 -> forall t, t < n -> f t = false.
Proof.
  unfold cnt. intros H t Ht. apply length_zero_iff_nil in H.
  apply (filter_nil_all f _ H). apply in_seq. lia.
Qed.

Lemma filter_seq_S f n : filter f (seq 0 (S n)) = filter f (seq 0 n) ++ (if f n then [n] else []).
Proof. rewrite seq_S, filter_app. cbn. now destruct (f n). Qed.

(* a fold whose steps act on distinct keys, seen at one key *)
Section KeyedFold.
Context {S X V : Type} (key : X -> nat) (view : nat -> S -> V) (step : S -> X -> S) (g : X -> V -> V).
Lemma fold_left_keyed l :
  (forall s x, In x l -> view (key x) (step s x) = g x (view (key x) s)) ->
  (forall s x d, In x l -> d <> key x -> view d (step s x) = view d s) ->
  NoDup (map key l) -> forall s d,
  (~ In d (map key l) -> view d (fold_left step l s) = view d s) /\
  (forall x, In x l -> key x = d -> view d (fold_left step l s) = g x (view d s)).
Proof.
  induction l as [|a l IH]; intros Hat Hoff Hnd s d; cbn [fold_left map].
  - split; [reflexivity|intros x []].
  - inversion Hnd as [|? ? Hna Hnd']; subst.
    destruct (IH (fun s x Hx => Hat s x (or_intror Hx)) (fun s x d Hx => Hoff s x d (or_intror Hx))
                 Hnd' (step s a) d) as [J1 J2].
    split.
    + intros Hn. rewrite J1 by (intros H; apply Hn; now right).
      apply Hoff; [now left|]. intros ->. apply Hn. now left.
    + intros x [<-|Hx] <-.
      * rewrite J1 by exact Hna. apply Hat. now left.
      * rewrite (J2 x Hx eq_refl). f_equal. apply Hoff; [now left|].
        intros E. apply Hna. rewrite <- E. now apply in_map.
Qed.
End KeyedFold.

(* no task names a tile twice *)
Definition norep (p : prog) : Prop := forall k, NoDup (map fst (task_at p k)).
Lemma mem_nat_iff x l : mem_nat x l = true <-> In x l.
Proof. unfold mem_nat. rewrite existsb_exists. split.
  - intros (y & Hy & E). apply Nat.eqb_eq in E. now subst.
  - intros H. exists x. split; [exact H|apply Nat.eqb_refl]. Qed.
Lemma filter_remove_prefix (A B : list nat) : NoDup (A ++ B) ->
  filter (fun x => negb (mem_nat x A)) (A ++ B) = B.
Proof.
  intros Hnd. rewrite filter_app.
  rewrite (filter_none (fun x => negb (mem_nat x A)) A).
  2:{ intros x Hx. apply negb_false_iff. now apply mem_nat_iff. }
  cbn. apply filter_all_true. intros x Hx. apply negb_true_iff. apply not_true_is_false.
  intros Hm. apply mem_nat_iff in Hm. revert Hnd. clear - Hx Hm. induction A as [|a A IH]; [destruct Hm|].
  intros Hnd. inversion Hnd as [|? ? Hn Hnd']; subst. destruct Hm as [->|Hm].
  - apply Hn. apply in_or_app. now right.
  - now apply IH.
Qed.

Lemma NoDup_app_remove_r {A} (l1 l2 : list A) : NoDup (l1 ++ l2) -> NoDup l1.
Proof. intros H. now apply NoDup_app_iff in H. Qed.

Lemma touches_iff t d : touches t d = true <-> In d (map fst t).
Proof. unfold touches. rewrite existsb_exists, in_map_iff. split.
  - intros (a & Ha & E). apply Nat.eqb_eq in E. eauto.
  - intros (a & E & Ha). exists a. split; [exact Ha|]. now apply Nat.eqb_eq. Qed.
Lemma mode_on_in t d m : NoDup (map fst t) -> In (d, m) t -> mode_on t d = m.
Proof.
  unfold mode_on. induction t as [|a t IH]; intros Hnd Hin; [destruct Hin|].
  cbn [find]. cbv beta. inversion Hnd as [|? ? Hn Hnd']; subst. destruct Hin as [->|Hin].
  - cbn. now rewrite Nat.eqb_refl.
  - match goal with |- context[if ?b then _ else _] => destruct b eqn:E end.
    + apply Nat.eqb_eq in E. exfalso. apply Hn. apply in_map_iff. exists (d, m). split; [cbn; symmetry; exact E|exact Hin].
    + now apply IH.
Qed.
Lemma writes_mode t d : NoDup (map fst t) -> writes t d = touches t d && negb (is_R (mode_on t d)).
Proof.
  intros Hnd. destruct (touches t d) eqn:Et; cbn.
  - apply touches_iff in Et. apply in_map_iff in Et. destruct Et as ((d', m) & E & Hin). cbn in E. subst d'.
    rewrite (mode_on_in t d m Hnd Hin). unfold writes. destruct m; cbn.
    + apply not_true_is_false. intros H. apply existsb_exists in H. destruct H as ((d2, m2) & H2 & E2).
      apply andb_true_iff in E2. destruct E2 as [E2 E3]. apply Nat.eqb_eq in E2. cbn in E2. subst d2.
      rewrite <- (mode_on_in t d m2 Hnd H2), (mode_on_in t d R Hnd Hin) in E3. discriminate.
    + apply existsb_exists. exists (d, W). split; [exact Hin|]. cbn. now rewrite Nat.eqb_refl.
    + apply existsb_exists. exists (d, RW). split; [exact Hin|]. cbn. now rewrite Nat.eqb_refl.
  - destruct (writes t d) eqn:Ew; [|reflexivity]. apply writes_touches in Ew. congruence.
Qed.

(* one flow at insertion, with the guard: the branch of the stale last user is dead ([ins_flow_fixed]) *)
Local Open Scope Z_scope.
Definition flowF (k a j : nat) (m : mode) (T : tile) : tile * bool :=
  match t_lu T with
  | None => ({| t_lu := Some (a, j, is_R m); t_alive := negb (is_R m); t_chain := [];
                t_rc := t_rc T + (if is_R m then 1 else 0) |}, true)
  | Some _ =>
      if t_alive T
      then ({| t_lu := Some (a, j, is_R m); t_alive := true; t_chain := t_chain T ++ [k]; t_rc := t_rc T |}, false)
      else ({| t_lu := Some (a, j, is_R m); t_alive := negb (is_R m); t_chain := t_chain T;
               t_rc := t_rc T + (if is_R m then 1 else 0) |}, true)
  end.
Local Open Scope nat_scope.

Definition activates (T : tile) : bool := match t_lu T with None => true | Some _ => negb (t_alive T) end.
Lemma snd_flowF k a j m T : snd (flowF k a j m T) = activates T.
Proof. unfold flowF, activates. destruct (t_lu T); [destruct (t_alive T)|]; reflexivity. Qed.

Lemma tupd_same f d t : tupd f d t d = t.
Proof. unfold tupd. now rewrite Nat.eqb_refl. Qed.
Lemma tupd_other f d t x : x <> d -> tupd f d t x = f x.
Proof. unfold tupd. intros H. apply Nat.eqb_neq in H. now rewrite H. Qed.

Lemma nth_error_datum tk j d m : nth_error tk j = Some (d, m) -> datum_of tk j = d /\ j < length tk.
Proof.
  intros H. split.
  - unfold datum_of. rewrite (nth_error_nth tk j _ H). reflexivity.
  - apply nth_error_Some. congruence.
Qed.

Lemma ins_flow_fixed k a tk tiles act j d m : NoDup (map fst tk) -> nth_error tk j = Some (d, m) ->
  ins_flow true k a tk (tiles, act) (j, (d, m)) =
  (tupd tiles d (fst (flowF k a j m (tiles d))), if snd (flowF k a j m (tiles d)) then d :: act else act).
Proof.
  intros Hnd Hj. unfold ins_flow, flowF. cbn [fst snd].
  destruct (t_lu (tiles d)) as [[[a' j'] r']|]; [|reflexivity].
  destruct (t_alive (tiles d)); [reflexivity|].
  assert (Hs : Nat.eqb a' a && ((j' <? j) && Nat.eqb (datum_of tk j') d) = false).
  { destruct (Nat.eqb a' a); [|reflexivity]. rewrite andb_true_l. destruct (j' <? j) eqn:Elt; [|reflexivity].
    rewrite andb_true_l. apply Nat.ltb_lt in Elt. apply Nat.eqb_neq. intros Hd.
    destruct (nth_error_datum tk j d m Hj) as [Hdj Hlt].
    assert (Hnth : nth j' (map fst tk) 0 = nth j (map fst tk) 0).
    { change 0 with (fst (0, R)). rewrite !map_nth. unfold datum_of in Hd, Hdj.
      transitivity d; [exact Hd|symmetry; exact Hdj]. }
    rewrite NoDup_nth in Hnd. specialize (Hnd j' j). rewrite map_length in Hnd.
    specialize (Hnd ltac:(lia) Hlt Hnth). lia. }
  rewrite Hs. cbn. reflexivity.
Qed.

Lemma index_from_nth {A} (l : list A) : forall i0 i x, nth_error l i = Some x -> In (i0 + i, x) (index_from i0 l).
Proof.
  induction l as [|y l IH]; intros i0 i x H; [destruct i; discriminate|].
  destruct i as [|i]; cbn in H.
  - inversion H; subst. cbn. left. f_equal. lia.
  - cbn. right. replace (i0 + S i) with (S i0 + i) by lia. now apply IH.
Qed.

Lemma index_from_in {A} (l : list A) : forall i0 j x, In (j, x) (index_from i0 l) ->
  i0 <= j /\ nth_error l (j - i0) = Some x.
Proof.
  induction l as [|y l IH]; intros i0 j x H; [destruct H|]. destruct H as [E|H].
  - inversion E; subst. now rewrite Nat.sub_diag.
  - apply IH in H. destruct H as [Hle H]. split; [lia|]. now replace (j - i0) with (S (j - S i0)) by lia.
Qed.
Lemma index_from_snd {A} (l : list A) : forall i0, map snd (index_from i0 l) = l.
Proof. induction l as [|y l IH]; intros i0; cbn; [reflexivity|]. now rewrite IH. Qed.

(* the whole insertion of task k, seen at datum d: its tile and how many times it is recorded as activated *)
Lemma ins_fold k a (tk : task) tiles act : NoDup (map fst tk) -> forall d,
  let r := fold_left (ins_flow true k a tk) (index_from 0 tk) (tiles, act) in
  if touches tk d
  then exists i, fst r d = fst (flowF k a i (mode_on tk d) (tiles d)) /\
         count_occ Nat.eq_dec (snd r) d = count_occ Nat.eq_dec act d + (if activates (tiles d) then 1 else 0)
  else fst r d = tiles d /\ count_occ Nat.eq_dec (snd r) d = count_occ Nat.eq_dec act d.
Proof.
  intros Hnd d.
  destruct (fold_left_keyed (fun x : nat * (datum * mode) => fst (snd x))
              (fun d (s : (datum -> tile) * list datum) => (fst s d, count_occ Nat.eq_dec (snd s) d))
              (ins_flow true k a tk)
              (fun x v => (fst (flowF k a (fst x) (snd (snd x)) (fst v)),
                           snd v + (if activates (fst v) then 1 else 0)))
              (index_from 0 tk)) with (s := (tiles, act)) (d := d) as [J1 J2].
  - intros [tl ac] [j [d0 m]] Hx. apply index_from_in in Hx. destruct Hx as [_ Hx]. rewrite Nat.sub_0_r in Hx.
    rewrite (ins_flow_fixed k a tk tl ac j d0 m Hnd Hx), snd_flowF. cbn [fst snd]. rewrite tupd_same. f_equal.
    destruct (activates (tl d0)); cbn [count_occ]; [destruct (Nat.eq_dec d0 d0); [lia|congruence]|lia].
  - intros [tl ac] [j [d0 m]] d' Hx Hne. apply index_from_in in Hx. destruct Hx as [_ Hx]. rewrite Nat.sub_0_r in Hx.
    rewrite (ins_flow_fixed k a tk tl ac j d0 m Hnd Hx), snd_flowF. cbn [fst snd] in *. rewrite tupd_other by exact Hne.
    f_equal. destruct (activates (tl d0)); [|reflexivity]. cbn [count_occ].
    destruct (Nat.eq_dec d0 d'); [congruence|reflexivity].
  - now rewrite <- (map_map snd fst), index_from_snd.
  - rewrite <- (map_map snd fst), index_from_snd in J1. cbn [fst snd] in J1, J2.
    destruct (touches tk d) eqn:Et.
    + apply touches_iff, in_map_iff in Et. destruct Et as ((d', m) & E & Hin). cbn in E. subst d'.
      destruct (In_nth_error _ _ Hin) as (i & Hi). exists i. rewrite (mode_on_in tk d m Hnd Hin).
      pose proof (J2 (i, (d, m)) (index_from_nth tk 0 i _ Hi) eq_refl) as H.
      split; [exact (f_equal fst H)|exact (f_equal snd H)].
    + assert (H : ~ In d (map fst tk)) by (rewrite <- touches_iff; congruence).
      split; [exact (f_equal fst (J1 H))|exact (f_equal snd (J1 H))].
Qed.

Section Walk.
Variable p : prog.
Lemma walk_spec d : forall ch rest rs w tail, walk p d ch = (rest, rs, w, tail) ->
  ch = rs ++ opt_list w ++ rest /\
  (forall x, In x rs -> is_R (mode_on (task_at p x) d) = true) /\
  (forall x, w = Some x -> is_R (mode_on (task_at p x) d) = false) /\
  (tail = true <-> w = None) /\ (w = None -> rest = []).
Proof.
  induction ch as [|t ch IH]; intros rest rs w tail H; cbn [walk] in H.
  - inversion H; subst. cbn. repeat split; auto; try discriminate; tauto.
  - destruct (is_R (mode_on (task_at p t) d)) eqn:E.
    + destruct (walk p d ch) as [[[rest' rs'] w'] tail'] eqn:Ew. inversion H; subst.
      destruct (IH rest rs' w tail eq_refl) as (H1 & H2 & H3 & H4 & H5).
      repeat split; auto.
      * cbn. now rewrite H1.
      * intros x [<-|Hx]; auto.
      * apply H4.
      * apply H4.
    + inversion H; subst. cbn. repeat split; auto; try discriminate; try tauto.
      * intros x Hx. inversion Hx; subst. exact E.
Qed.
End Walk.

(* how many times d is recorded as activated for x *)
Lemma add_act_count d : forall l act x d',
  count_occ Nat.eq_dec (add_act act d l x) d' =
  count_occ Nat.eq_dec (act x) d' + (if Nat.eqb d d' then count_occ Nat.eq_dec l x else 0).
Proof.
  induction l as [|t l IH]; intros act x d'; unfold add_act; cbn [fold_left].
  - cbn. destruct (Nat.eqb d d'); lia.
  - fold (add_act (fupd act t (d :: act t)) d l). rewrite IH. unfold fupd. cbn [count_occ].
    destruct (Nat.eqb_spec x t) as [->|Hne]; [|destruct (Nat.eq_dec t x); [congruence|reflexivity]].
    cbn [count_occ]. destruct (Nat.eq_dec t t); [|congruence].
    destruct (Nat.eq_dec d d') as [->|Hd]; [rewrite Nat.eqb_refl; lia|].
    apply Nat.eqb_neq in Hd. rewrite Hd. lia.
Qed.
Lemma mem_nat_count x l : mem_nat x l = (0 <? count_occ Nat.eq_dec l x).
Proof. apply eq_true_iff_eq. rewrite mem_nat_iff, Nat.ltb_lt. apply count_occ_In. Qed.

Local Open Scope Z_scope.
Definition walked (p : prog) (d : datum) (T : tile) : tile * list tid :=
  let '(rst, rs, w, tail) := walk p d (t_chain T) in
  ({| t_lu := t_lu T; t_alive := if tail then false else t_alive T; t_chain := rst;
      t_rc := t_rc T + Z.of_nat (length rs) |}, rs ++ opt_list w).
Definition unread (T : tile) : tile :=
  {| t_lu := t_lu T; t_alive := t_alive T; t_chain := t_chain T; t_rc := t_rc T + (-1) |}.
Local Open Scope nat_scope.

Lemma if_unread (b : bool) T :
  t_lu (if b then unread T else T) = t_lu T /\ t_alive (if b then unread T else T) = t_alive T /\
  t_chain (if b then unread T else T) = t_chain T.
Proof. now destruct b. Qed.

Lemma end_flow_eq p tiles act d m :
  end_flow p (tiles, act) (d, m) =
  if is_R m then (tupd tiles d (unread (tiles d)), act)
  else (tupd tiles d (fst (walked p d (tiles d))), add_act act d (snd (walked p d (tiles d)))).
Proof.
  unfold end_flow, walked, add_rc, unread. cbn [fst snd]. destruct (is_R m); [reflexivity|].
  destruct (walk p d (t_chain (tiles d))) as [[[rst rs] w] tail]. reflexivity.
Qed.

(* a flow of mode m on d, seen from task x: the tile of d and the number of activations of d for x *)
Definition endF (p : prog) (x : tid) (d : datum) (m : mode) (v : tile * nat) : tile * nat :=
  if is_R m then (unread (fst v), snd v)
  else (fst (walked p d (fst v)), snd v + count_occ Nat.eq_dec (snd (walked p d (fst v))) x).

Lemma end_fold p tk tiles act : NoDup (map fst tk) -> forall d x,
  let r := fold_left (end_flow p) tk (tiles, act) in
  (fst r d, count_occ Nat.eq_dec (snd r x) d) =
  (if touches tk d then endF p x d (mode_on tk d) else id) (tiles d, count_occ Nat.eq_dec (act x) d).
Proof.
  intros Hnd d x.
  destruct (fold_left_keyed fst (fun d s => (fst s d, count_occ Nat.eq_dec (snd s x) d)) (end_flow p)
              (fun a => endF p x (fst a) (snd a)) tk) with (s := (tiles, act)) (d := d) as [J1 J2].
  - intros [tl ac] [d0 m] _. rewrite end_flow_eq. unfold endF. cbn [fst snd].
    destruct (is_R m); cbn [fst snd]; rewrite tupd_same; [reflexivity|].
    now rewrite add_act_count, Nat.eqb_refl.
  - intros [tl ac] [d0 m] d' _ Hne. rewrite end_flow_eq. cbn [fst snd] in *.
    destruct (is_R m); cbn [fst snd]; rewrite tupd_other by exact Hne; [reflexivity|].
    rewrite add_act_count. apply not_eq_sym, Nat.eqb_neq in Hne. now rewrite Hne, Nat.add_0_r.
  - exact Hnd.
  - destruct (touches tk d) eqn:Et.
    + apply touches_iff, in_map_iff in Et. destruct Et as ((d', m) & E & Hin). cbn in E. subst d'.
      rewrite (mode_on_in tk d m Hnd Hin). exact (J2 (d, m) Hin eq_refl).
    + apply J1. rewrite <- touches_iff. congruence.
Qed.

Section Inv.
Variable p : prog.
Hypothesis Hnr : norep p.
Notation T t := (task_at p t).
Definition tch (t : nat) (d : datum) : bool := touches (T t) d.
Definition rdo (t : nat) (d : datum) : bool := tch t d && is_R (mode_on (T t) d).
Definition wrt (t : nat) (d : datum) : bool := tch t d && negb (is_R (mode_on (T t) d)).
Definition actd (s : gstate) (t : nat) (d : datum) : bool := mem_nat d (g_act s t).
Definition rcf (s : gstate) (d : datum) (t : nat) : bool :=
  rdo t d && actd s t d && negb (is_done (g_st s t)).
Definition chf (s : gstate) (d : datum) (t : nat) : bool := tch t d && negb (actd s t d).

Record GI (s : gstate) : Prop := {
  I1 : forall t, g_st s t <> Idle -> t < g_ins s;
  I2 : forall t d, actd s t d = true -> tch t d = true;
  I2n : forall t, NoDup (g_act s t);
  I3 : forall t, g_st s t <> Idle -> forall d, tch t d = true -> actd s t d = true;
  IP : forall d t1 t2, t1 < t2 -> t2 < g_ins s -> tch t1 d = true -> tch t2 d = true ->
         actd s t2 d = true -> actd s t1 d = true;
  IAFT : forall d w x, w < x -> wrt w d = true -> tch x d = true -> actd s x d = true -> g_st s w = Done;
  IRC : forall d, t_rc (g_tile s d) = Z.of_nat (cnt (rcf s d) (g_ins s));
  ICH : forall d, t_chain (g_tile s d) = filter (chf s d) (seq 0 (g_ins s));
  IAL : forall d, t_alive (g_tile s d) = false ->
          t_chain (g_tile s d) = [] /\ forall w, w < g_ins s -> wrt w d = true -> g_st s w = Done;
  ILU : forall d, t_lu (g_tile s d) = None -> forall t, t < g_ins s -> tch t d = false;
  ISAFE : forall t i, g_st s t <> Idle -> i < t -> conflict (T i) (T t) -> g_st s i = Done }.

Lemma writes_wrt t d : writes (T t) d = wrt t d.
Proof. unfold wrt, tch. apply writes_mode. apply Hnr. Qed.
Lemma tch_not_wrt_rdo t d : tch t d = true -> wrt t d = false -> rdo t d = true.
Proof. unfold wrt, rdo. intros ->. cbn. now destruct (is_R (mode_on (T t) d)). Qed.

Lemma rdo_not_wrt t d : rdo t d = true -> wrt t d = false.
Proof. unfold wrt, rdo. destruct (tch t d); [cbn; now intros ->|discriminate]. Qed.

Lemma gi_init : GI ginit.
Proof.
  constructor; cbn; intros; try congruence; try lia; try discriminate.
  - constructor.
  - reflexivity.
  - split; [reflexivity|intros; lia].
Qed.

(* all flows activated <- the count of activated data equals the number of flows *)
Lemma all_activated s t : GI s -> length (g_act s t) = length (T t) ->
  forall d, tch t d = true -> actd s t d = true.
Proof.
  intros G Hl d Hd. apply mem_nat_iff. apply touches_iff in Hd.
  assert (Hincl : incl (map fst (T t)) (g_act s t)); [|now apply Hincl].
  apply NoDup_length_incl; [apply (I2n s G t)|rewrite map_length, Hl; apply le_n|].
  intros x Hx. apply mem_nat_iff in Hx. now apply touches_iff, (I2 s G t).
Qed.

(* the test of data_lookup_of_dtd_task: all flows activated, no reader counted on a datum written *)
Lemma can_begin_safe s t : GI s -> g_can_begin p s t = true ->
  t < g_ins s /\ g_st s t = Idle /\ (forall d, tch t d = true -> actd s t d = true) /\
  forall i, i < t -> conflict (T i) (T t) -> g_st s i = Done.
Proof.
  intros G Hb. unfold g_can_begin in Hb.
  apply andb_true_iff in Hb. destruct Hb as [Hb Hrc]. apply andb_true_iff in Hb. destruct Hb as [Hb Hlen].
  apply andb_true_iff in Hb. destruct Hb as [Hlt Hidle].
  apply Nat.ltb_lt in Hlt. apply is_idle_iff in Hidle. apply Nat.eqb_eq in Hlen.
  pose proof (all_activated s t G Hlen) as Hall.
  split; [exact Hlt|]. split; [exact Hidle|]. split; [exact Hall|].
  intros i Hi (d & Hti & Htt & Hw).
  destruct (wrt i d) eqn:Ewi.
  - apply (IAFT s G d i t Hi Ewi Htt). now apply Hall.
  - destruct Hw as [Hw|Hw]; [rewrite writes_wrt in Hw; congruence|].
    (* t writes d: no reader is counted on d *)
    assert (Hrd : rdo i d = true) by (now apply tch_not_wrt_rdo).
    assert (Hz : (t_rc (g_tile s d) <= 0)%Z).
    { unfold writes in Hw. apply existsb_exists in Hw. destruct Hw as ([da ma] & Ha & Hw).
      apply andb_true_iff in Hw. destruct Hw as [Hw1 Hw2]. apply Nat.eqb_eq in Hw1. cbn in Hw1, Hw2. subst da.
      rewrite forallb_forall in Hrc. specialize (Hrc (d, ma) Ha). cbn in Hrc. rewrite Hw2 in Hrc. cbn in Hrc.
      now apply Z.leb_le. }
    rewrite (IRC s G d) in Hz. assert (Hc0 : cnt (rcf s d) (g_ins s) = 0) by (clear - Hz; lia).
    pose proof (cnt_zero _ _ Hc0 i (Nat.lt_trans _ _ _ Hi Hlt)) as Hf. unfold rcf in Hf. rewrite Hrd in Hf.
    rewrite (IP s G d i t Hi Hlt Hti Htt (Hall d Htt)) in Hf. cbn in Hf.
    apply negb_false_iff in Hf. now apply is_done_iff.
Qed.

Lemma gi_begin s t : GI s -> g_can_begin p s t = true ->
  GI {| g_ins := g_ins s; g_st := fupd (g_st s) t Running; g_act := g_act s; g_tile := g_tile s;
        g_addr := g_addr s; g_free := g_free s; g_next := g_next s |}.
Proof.
  intros G Hb. destruct (can_begin_safe s t G Hb) as (Hlt & Hidle & Hall & Hsafe).
  assert (Hst : forall x, x <> t -> fupd (g_st s) t Running x = g_st s x) by (intros; now apply fupd_other).
  assert (Hdone : forall x, is_done (fupd (g_st s) t Running x) = is_done (g_st s x)).
  { intros x. destruct (Nat.eq_dec x t) as [->|Hne]; [rewrite fupd_same, Hidle; reflexivity|now rewrite Hst]. }
  assert (HD : forall x, g_st s x = Done -> fupd (g_st s) t Running x = Done).
  { intros x. apply fupd_done. congruence. }
  constructor; cbn [g_ins g_st g_act g_tile].
  - intros x Hx. destruct (Nat.eq_dec x t) as [->|Hne]; [exact Hlt|]. rewrite Hst in Hx by exact Hne. now apply (I1 s G).
  - apply (I2 s G).
  - apply (I2n s G).
  - intros x Hx d Hd. destruct (Nat.eq_dec x t) as [->|Hne]; [now apply Hall|].
    rewrite Hst in Hx by exact Hne. now apply (I3 s G x Hx).
  - apply (IP s G).
  - intros d w x Hwx Hw Hx Ha. apply HD. now apply (IAFT s G d w x).
  - intros d. rewrite (IRC s G d). f_equal. apply cnt_ext. intros x _. unfold rcf, actd. cbn [g_act g_st].
    now rewrite Hdone.
  - apply (ICH s G).
  - intros d Hd. destruct (IAL s G d Hd) as [H1 H2]. split; [exact H1|]. intros w Hw Hww. apply HD. now apply H2.
  - apply (ILU s G).
  - intros x i Hx Hi Hc. apply HD. destruct (Nat.eq_dec x t) as [->|Hne]; [now apply Hsafe|].
    rewrite Hst in Hx by exact Hne. now apply (ISAFE s G x i).
Qed.

Lemma nodup_fst_unique (tk : task) d m1 m2 : NoDup (map fst tk) -> In (d, m1) tk -> In (d, m2) tk -> m1 = m2.
Proof. intros Hnd H1 H2. rewrite <- (mode_on_in tk d m1 Hnd H1). now apply mode_on_in. Qed.

(* the tile after a flow of mode m of task k, on a tile whose chain is empty when it activates *)
Lemma flowF_spec k a j m T : (activates T = true -> t_chain T = []) ->
  let T' := fst (flowF k a j m T) in
  t_lu T' <> None /\ t_alive T' = (if activates T then negb (is_R m) else true) /\
  t_chain T' = t_chain T ++ (if activates T then [] else [k]) /\
  t_rc T' = (t_rc T + (if activates T && is_R m then 1 else 0))%Z.
Proof.
  unfold flowF, activates. intros Hch.
  destruct (t_lu T); [destruct (t_alive T)|]; cbn in *; rewrite ?Hch by reflexivity;
    (split; [discriminate|]); (split; [reflexivity|]); (split; [reflexivity|]); destruct (is_R m); lia.
Qed.

(* a flow is activated at insertion only on a tile where nothing waits and no writer is pending *)
Lemma activates_old s d : GI s -> activates (g_tile s d) = true ->
  t_chain (g_tile s d) = [] /\
  (forall t, t < g_ins s -> tch t d = true -> actd s t d = true) /\
  (forall w, w < g_ins s -> wrt w d = true -> g_st s w = Done).
Proof.
  intros G Hav. unfold activates in Hav.
  assert (Hch : t_chain (g_tile s d) = [] -> forall t, t < g_ins s -> tch t d = true -> actd s t d = true).
  { intros Hch t Ht Hc. rewrite (ICH s G d) in Hch.
    pose proof (filter_nil_all _ _ Hch t ltac:(apply in_seq; lia)) as Hf.
    unfold chf in Hf. rewrite Hc in Hf. now apply negb_false_iff in Hf. }
  destruct (t_lu (g_tile s d)) eqn:El.
  - apply negb_true_iff in Hav. destruct (IAL s G d Hav) as [H1 H2]. auto.
  - pose proof (ILU s G d El) as Hno.
    assert (H1 : t_chain (g_tile s d) = []).
    { rewrite (ICH s G d). apply filter_none. intros t Ht. apply in_seq in Ht. unfold chf. now rewrite Hno by lia. }
    split; [exact H1|]. split; [now apply Hch|].
    intros w Hw Hww. apply andb_true_iff in Hww. rewrite Hno in Hww by exact Hw. now destruct Hww.
Qed.

Lemma gi_insert s : GI s -> g_ins s < length p -> GI (gstep true p s Insert).
Proof.
  intros G Hlt. unfold gstep. apply Nat.ltb_lt in Hlt. rewrite Hlt. apply Nat.ltb_lt in Hlt.
  set (k := g_ins s). set (tk := T k).
  assert (Hold : forall x, x < S k -> x <> k -> x < g_ins s) by (unfold k; lia).
  set (afn := match g_free s (length tk) with
              | x :: r => (x, fupd (g_free s) (length tk) r, g_next s)
              | [] => (g_next s, g_free s, S (g_next s)) end).
  set (a := fst (fst afn)).
  pose proof (ins_fold k a tk (g_tile s) [] (Hnr k)) as F. cbn [count_occ] in F.
  set (r := fold_left (ins_flow true k a tk) (index_from 0 tk) (g_tile s, [])) in *.
  set (s' := {| g_ins := S k; g_st := g_st s; g_act := fupd (g_act s) k (snd r); g_tile := fst r;
                g_addr := fupd (g_addr s) k a; g_free := snd (fst afn); g_next := snd afn |}).
  (* k is new: idle, nothing activated before *)
  assert (Hkidle : g_st s k = Idle).
  { destruct (stat_dec (g_st s k) Idle) as [H|H]; [exact H|]. pose proof (I1 s G k H). unfold k in *. lia. }
  assert (Hact_old : forall x d, x <> k -> actd s' x d = actd s x d).
  { intros x d Hx. unfold actd, s'. cbn [g_act]. now rewrite fupd_other. }
  assert (Hact_k : forall d, actd s' k d = tch k d && activates (g_tile s d)).
  { intros d. unfold actd, s', tch. cbn [g_act]. fold tk. rewrite fupd_same, mem_nat_count. specialize (F d).
    destruct (touches tk d); [destruct F as (i & _ & ->); now destruct (activates (g_tile s d))|].
    destruct F as (_ & ->). reflexivity. }
  (* per datum: the tile after the insertion *)
  assert (Htile : forall d,
     (tch k d = false /\ g_tile s' d = g_tile s d) \/
     (tch k d = true /\ exists i, g_tile s' d = fst (flowF k a i (mode_on tk d) (g_tile s d)))).
  { intros d. specialize (F d). unfold tch. fold tk.
    destruct (touches tk d); [right|left]; (split; [reflexivity|]); [|apply F].
    destruct F as (i & F & _). now exists i. }
  assert (Hspec := fun d i => flowF_spec k a i (mode_on tk d) (g_tile s d)
                                (fun H => proj1 (activates_old s d G H))).
  constructor.
  - intros t Ht. cbn in Ht |- *. pose proof (I1 s G t Ht). unfold k. lia.
  - intros t d Ha. destruct (Nat.eq_dec t k) as [->|Hne].
    + rewrite Hact_k in Ha. now apply andb_true_iff in Ha.
    + rewrite Hact_old in Ha by exact Hne. now apply (I2 s G t).
  - intros t. cbn [g_act s']. destruct (Nat.eq_dec t k) as [->|Hne]; [|rewrite fupd_other by exact Hne; apply (I2n s G)].
    rewrite fupd_same. apply (NoDup_count_occ Nat.eq_dec). intros d. specialize (F d).
    destruct (touches tk d); [destruct F as (i & _ & ->); destruct (activates (g_tile s d)); lia|].
    destruct F as (_ & ->). lia.
  - intros t Ht d Hd. cbn [g_st s'] in Ht. assert (t <> k) by (intros ->; congruence).
    rewrite Hact_old by assumption. now apply (I3 s G t Ht).
  - (* prefix *)
    intros d t1 t2 H12 H2 Hc1 Hc2 Ha2. cbn [g_ins s'] in H2.
    assert (Ht1 : t1 <> k) by lia. rewrite Hact_old by exact Ht1.
    destruct (Nat.eq_dec t2 k) as [->|Hne].
    + rewrite Hact_k in Ha2. apply andb_true_iff in Ha2. now apply (activates_old s d G (proj2 Ha2)).
    + rewrite Hact_old in Ha2 by exact Hne. apply (IP s G d t1 t2); auto.
  - (* after a writer *)
    intros d w x Hwx Hw Hx Ha. cbn [g_st s'].
    destruct (Nat.eq_dec x k) as [->|Hne].
    + rewrite Hact_k in Ha. apply andb_true_iff in Ha. now apply (activates_old s d G (proj2 Ha)).
    + rewrite Hact_old in Ha by exact Hne. now apply (IAFT s G d w x).
  - (* reader count *)
    intros d. change (g_ins s') with (S k). rewrite cnt_S.
    rewrite (cnt_ext (rcf s' d) (rcf s d) k).
    2:{ intros t Ht. unfold rcf. change (g_st s' t) with (g_st s t). rewrite Hact_old by lia. reflexivity. }
    unfold rcf at 2. change (g_st s' k) with (g_st s k). rewrite Hkidle, Hact_k. unfold rdo.
    destruct (Htile d) as [[Hc Ht]|[Hc (i & Ht)]]; rewrite Ht, Hc.
    + cbn. rewrite (IRC s G d). fold k. lia.
    + destruct (Hspec d i) as (_ & _ & _ & F4). rewrite F4, (IRC s G d). fold k tk.
      destruct (activates (g_tile s d)), (is_R (mode_on tk d)); cbn; lia.
  - (* chain *)
    intros d. change (g_ins s') with (S k). rewrite filter_seq_S.
    rewrite (filter_ext_in (chf s' d) (chf s d) (seq 0 k)).
    2:{ intros t Ht. apply in_seq in Ht. unfold chf. rewrite Hact_old by lia. reflexivity. }
    unfold chf at 2. rewrite Hact_k. pose proof (ICH s G d) as Hch. fold k in Hch. rewrite <- Hch.
    destruct (Htile d) as [[Hc Ht]|[Hc (i & Ht)]]; rewrite Ht, Hc.
    + cbn. now rewrite app_nil_r.
    + destruct (Hspec d i) as (_ & _ & F3 & _). rewrite F3. now destruct (activates (g_tile s d)).
  - (* alive *)
    intros d Hal. cbn [g_ins s' g_st]. destruct (Htile d) as [[Hc Ht]|[Hc (i & Ht)]]; rewrite Ht in Hal |- *.
    + destruct (IAL s G d Hal) as [H1 H2]. split; [exact H1|]. intros w Hw Hww.
      destruct (Nat.eq_dec w k) as [->|Hne]; [unfold wrt in Hww; rewrite Hc in Hww; discriminate|].
      apply H2; [now apply Hold|exact Hww].
    + (* the new last user is a reader that was activated at once *)
      destruct (Hspec d i) as (_ & F2 & F3 & _). rewrite F2 in Hal. rewrite F3.
      destruct (activates (g_tile s d)) eqn:Hav; [|discriminate]. apply negb_false_iff in Hal.
      destruct (activates_old s d G Hav) as (H1 & _ & H3). split; [now rewrite H1|].
      intros w Hw Hww. destruct (Nat.eq_dec w k) as [->|Hne].
      * unfold wrt in Hww. fold tk in Hww. rewrite Hal, andb_false_r in Hww. discriminate.
      * apply H3; [now apply Hold|exact Hww].
  - (* last user *)
    intros d Hlu t Ht. cbn [g_ins s'] in Ht. destruct (Htile d) as [[Hc Htl]|[Hc (i & Htl)]]; rewrite Htl in Hlu.
    + destruct (Nat.eq_dec t k) as [->|Hne]; [exact Hc|]. apply (ILU s G d Hlu). now apply Hold.
    + now destruct (Hspec d i) as (F1 & _).
  - intros t i Ht Hi Hc. cbn [g_st s'] in *. now apply (ISAFE s G t i).
Qed.

(* The walk of a completing writer over the chain of d, which lists in insertion order the
   inserted tasks that touch d and are not activated: it activates a prefix N of the chain,
   readers and then at most one writer. *)
Lemma end_write s d : GI s ->
  let N := snd (walked p d (g_tile s d)) in let T' := fst (walked p d (g_tile s d)) in
  (forall x, In x N -> x < g_ins s /\ chf s d x = true) /\
  (forall x y, In x N -> chf s d y = true -> y < x -> In y N /\ rdo y d = true) /\
  NoDup N /\
  t_chain T' = filter (fun x => chf s d x && negb (mem_nat x N)) (seq 0 (g_ins s)) /\
  t_rc T' = (t_rc (g_tile s d) + Z.of_nat (length (filter (fun x => rdo x d) N)))%Z /\
  t_lu T' = t_lu (g_tile s d) /\
  (t_alive T' = false ->
   t_chain T' = [] /\ forall y, y < g_ins s -> chf s d y = true -> rdo y d = true).
Proof.
  intros G. unfold walked.
  destruct (walk p d (t_chain (g_tile s d))) as [[[rst rs] w] tail] eqn:Ew. cbn [fst snd].
  destruct (walk_spec p d _ _ _ _ _ Ew) as (W1 & W2 & W3 & W4 & W5).
  rewrite (ICH s G d) in W1. pose proof W1 as W1'. rewrite app_assoc in W1'.
  pose proof (NoDup_filter (chf s d) (seq_NoDup (g_ins s) 0)) as Hnd. rewrite W1' in Hnd.
  assert (Hin : forall x, In x ((rs ++ opt_list w) ++ rst) <-> x < g_ins s /\ chf s d x = true).
  { intros x. rewrite <- W1', filter_In, in_seq. intuition lia. }
  assert (Hrs : forall x, In x rs -> rdo x d = true).
  { intros x Hx. unfold rdo. rewrite (W2 x Hx), andb_true_r.
    assert (Hc : chf s d x = true) by (apply Hin, in_or_app; left; apply in_or_app; now left).
    unfold chf in Hc. now apply andb_true_iff in Hc. }
  split; [|split; [|split; [|split; [|split; [|split]]]]].
  - intros x Hx. apply Hin, in_or_app. now left.
  - intros x y Hx Hy Hyx.
    assert (Hiy : In y ((rs ++ opt_list w) ++ rst)).
    { apply Hin. split; [|exact Hy]. assert (x < g_ins s) by (apply Hin, in_or_app; now left). lia. }
    apply in_app_or in Hiy. destruct Hiy as [Hiy|Hiy].
    + split; [exact Hiy|]. apply in_app_or in Hiy. destruct Hiy as [Hiy|Hiy]; [now apply Hrs|].
      (* y is the writer that ends the walk: nothing of N lies behind it *)
      apply in_app_or in Hx. destruct Hx as [Hx|Hx].
      * pose proof (filter_seq_split _ _ _ _ x y W1 Hx ltac:(apply in_or_app; now left)). lia.
      * destruct w as [w|]; [|destruct Hx]. destruct Hx as [<-|[]], Hiy as [<-|[]]. lia.
    + pose proof (filter_seq_split _ _ _ _ x y W1' Hx Hiy). lia.
  - now apply NoDup_app_remove_r in Hnd.
  - cbn [t_chain]. rewrite <- filter_filter, W1'. symmetry. now apply filter_remove_prefix.
  - cbn [t_rc]. rewrite filter_app, filter_all_true by exact Hrs. rewrite filter_none, app_nil_r; [reflexivity|].
    intros x Hx. apply in_opt_list in Hx. unfold rdo. now rewrite (W3 x Hx), andb_false_r.
  - reflexivity.
  - cbn [t_alive t_chain]. destruct tail.
    + intros _. rewrite (proj1 W4 eq_refl) in *. rewrite (W5 eq_refl) in *. split; [reflexivity|].
      intros y Hy Hc. apply Hrs. cbn [opt_list] in Hin. rewrite !app_nil_r in Hin. now apply Hin.
    + intros Hal. destruct (IAL s G d Hal) as [H1 _]. rewrite H1 in Ew. discriminate Ew.
Qed.

Lemma gi_end s t : GI s -> g_st s t = Running -> GI (gstep true p s (End t)).
Proof.
  intros G Hrun. unfold gstep. rewrite Hrun. cbn [is_running].
  set (tk := T t). set (r := fold_left (end_flow p) tk (g_tile s, g_act s)).
  set (s' := {| g_ins := g_ins s; g_st := fupd (g_st s) t Done; g_act := snd r; g_tile := fst r;
                g_addr := g_addr s;
                g_free := if has_write tk then g_free s
                          else fupd (g_free s) (length tk) (g_addr s t :: g_free s (length tk));
                g_next := g_next s |}).
  pose proof (end_fold p tk (g_tile s) (g_act s) (Hnr t)) as E. fold r in E.
  assert (Htn : g_st s t <> Idle) by congruence.
  assert (Htact : forall d, tch t d = true -> actd s t d = true) by (intros d Hd; now apply (I3 s G t Htn)).
  assert (Hst_o : forall x, x <> t -> g_st s' x = g_st s x) by (intros; cbn [g_st s']; now apply fupd_other).
  assert (Hst_t : g_st s' t = Done) by (cbn [g_st s']; apply fupd_same).
  assert (HD : forall x, g_st s x = Done -> g_st s' x = Done).
  { intros x. apply fupd_done. congruence. }
  assert (Hni : forall x, g_st s' x <> Idle -> g_st s x <> Idle).
  { intros x Hx. destruct (Nat.eq_dec x t) as [->|Hne]; [exact Htn|now rewrite Hst_o in Hx]. }
  (* a datum that t does not write keeps its activations; one that t writes is walked *)
  assert (Hcase : forall d,
    ((wrt t d = false /\ (forall x, actd s' x d = actd s x d) /\
      g_tile s' d = if rdo t d then unread (g_tile s d) else g_tile s d) \/
     (wrt t d = true /\ g_tile s' d = fst (walked p d (g_tile s d)) /\
      forall x, actd s' x d = true <-> actd s x d = true \/ In x (snd (walked p d (g_tile s d))))) /\
    forall x, count_occ Nat.eq_dec (g_act s' x) d <= 1).
  { intros d. pose proof (f_equal fst (E d 0)) as Htl. pose proof (fun x => f_equal snd (E d x)) as Hc.
    pose proof (fun x => proj1 (NoDup_count_occ Nat.eq_dec _) (I2n s G x) d) as Hold.
    unfold endF in Htl, Hc. unfold wrt, rdo, tch, actd. fold tk. cbn [g_tile g_act s'].
    destruct (touches tk d), (is_R (mode_on tk d)); cbn [fst snd id andb negb] in Htl, Hc |- *.
    2:{ (* d is written by t *)
      split; [right; split; [reflexivity|]; split; [exact Htl|]|]; intros x; rewrite ?mem_nat_count, Hc.
      - rewrite <- (mem_nat_iff x), <- orb_true_iff, mem_nat_count.
        now destruct (count_occ Nat.eq_dec (g_act s x) d), (count_occ Nat.eq_dec (snd (walked p d (g_tile s d))) x).
      - (* a walked flow was not activated before *)
        destruct (end_write s d G) as (N1 & _ & N3 & _).
        pose proof (proj1 (NoDup_count_occ Nat.eq_dec _) N3 x) as Hn.
        destruct (count_occ Nat.eq_dec (snd (walked p d (g_tile s d))) x) eqn:En; [rewrite Nat.add_0_r; apply Hold|].
        assert (Hin : In x (snd (walked p d (g_tile s d)))) by (apply (count_occ_In Nat.eq_dec); lia).
        destruct (N1 x Hin) as [_ Hcx]. apply andb_true_iff in Hcx. destruct Hcx as [_ Hcx].
        apply negb_true_iff in Hcx. unfold actd in Hcx. rewrite mem_nat_count in Hcx. apply Nat.ltb_ge in Hcx. lia. }
    (* d is read by t or not touched: the counts are those of s *)
    all: split; [left; split; [reflexivity|]; split; [intros x; now rewrite !mem_nat_count, Hc|exact Htl]
                |intros x; rewrite Hc; apply Hold]. }
  (* an activated writer of a datum that t writes is t or earlier than t *)
  assert (Hactw : forall d w, wrt t d = true -> wrt w d = true -> actd s w d = true -> g_st s' w = Done).
  { intros d w Hw Hww Ha. apply andb_true_iff in Hw as Htd. apply andb_true_iff in Hww as Hwd.
    destruct (Nat.lt_total w t) as [Hl|[->|Hg]]; [|exact Hst_t|].
    - apply HD, (IAFT s G d w t Hl Hww (proj1 Htd)), Htact, Htd.
    - pose proof (IAFT s G d t w Hg Hw (proj1 Hwd) Ha). congruence. }
  assert (Hchf : forall d x, chf s d x = true -> tch x d = true /\ actd s x d = false).
  { intros d x H. apply andb_true_iff in H. now rewrite negb_true_iff in H. }
  constructor.
  - intros x Hx. apply (I1 s G). now apply Hni.
  - intros x d Ha.
    destruct (proj1 (Hcase d)) as [(_ & Hc & _)|(_ & _ & Hc)]; [rewrite Hc in Ha; now apply (I2 s G x)|].
    apply Hc in Ha. destruct Ha as [Ha|Ha]; [now apply (I2 s G x)|].
    destruct (end_write s d G) as (N1 & _). now apply Hchf, N1.
  - intros x. apply (NoDup_count_occ Nat.eq_dec). intros d. apply (proj2 (Hcase d)).
  - intros x Hx d Hd. pose proof (I3 s G x (Hni x Hx) d Hd) as Ha.
    destruct (proj1 (Hcase d)) as [(_ & Hc & _)|(_ & _ & Hc)]; [now rewrite Hc|]. apply Hc. now left.
  - (* prefix: what lies before a walked flow on the chain is walked with it *)
    intros d t1 t2 H12 H2 Hc1 Hc2 Ha2. cbn [g_ins s'] in H2.
    destruct (proj1 (Hcase d)) as [(_ & Hc & _)|(_ & _ & Hc)]; [rewrite Hc in *; now apply (IP s G d t1 t2)|].
    apply Hc. apply Hc in Ha2. destruct Ha2 as [Ha2|Ha2]; [left; now apply (IP s G d t1 t2)|].
    destruct (actd s t1 d) eqn:E1; [now left|]. right.
    destruct (end_write s d G) as (_ & N2 & _). apply (N2 t2 t1 Ha2); [|exact H12].
    unfold chf. now rewrite Hc1, E1.
  - (* after a writer: a writer before a walked flow is activated, since only readers are walked over *)
    intros d w0 x Hwx Hw0 Hx Ha.
    destruct (proj1 (Hcase d)) as [(_ & Hc & _)|(Hw & _ & Hc)]; [rewrite Hc in Ha; apply HD; now apply (IAFT s G d w0 x)|].
    apply Hc in Ha. destruct Ha as [Ha|Ha]; [apply HD; now apply (IAFT s G d w0 x)|].
    apply (Hactw d w0 Hw Hw0). destruct (actd s w0 d) eqn:E0; [reflexivity|].
    destruct (end_write s d G) as (_ & N2 & _). destruct (N2 x w0 Ha) as [_ Hr]; [|exact Hwx|].
    + unfold chf. rewrite E0. apply andb_true_iff in Hw0. now rewrite (proj1 Hw0).
    + rewrite (rdo_not_wrt w0 d Hr) in Hw0. discriminate.
  - (* reader count *)
    intros d. cbn [g_ins s'].
    destruct (proj1 (Hcase d)) as [(Hw & Hc & Htl)|(Hw & Htl & Hc)]; rewrite Htl.
    + destruct (rdo t d) eqn:Hr.
      * unfold unread. cbn [t_rc]. rewrite (IRC s G d).
        assert (Htl' : t < g_ins s) by (now apply (I1 s G)).
        assert (Htd : tch t d = true) by (now apply andb_true_iff in Hr).
        rewrite (cnt_flip_on (rcf s' d) (rcf s d) (g_ins s) t Htl').
        -- lia.
        -- unfold rcf. rewrite Hst_t. cbn. now rewrite andb_false_r.
        -- unfold rcf. rewrite Hr, (Htact d Htd), Hrun. reflexivity.
        -- intros x Hx. unfold rcf. now rewrite Hc, Hst_o.
      * rewrite (IRC s G d). f_equal. apply cnt_ext. intros x _. unfold rcf. rewrite Hc.
        destruct (Nat.eq_dec x t) as [->|Hne]; [now rewrite Hr|now rewrite Hst_o].
    + destruct (end_write s d G) as (N1 & _ & N3 & _ & N5 & _). rewrite N5, (IRC s G d).
      rewrite (cnt_flip_many (filter (fun x => rdo x d) (snd (walked p d (g_tile s d)))) (rcf s d) (rcf s' d) (g_ins s)).
      * now rewrite Nat2Z.inj_add.
      * now apply NoDup_filter.
      * (* a walked reader was not activated, so it is idle *)
        intros x Hx. apply filter_In in Hx. destruct Hx as [Hx Hr]. destruct (N1 x Hx) as [Hxn Hcx].
        apply Hchf in Hcx. destruct Hcx as [Hxt Hxa]. split; [exact Hxn|]. unfold rcf. rewrite Hr, Hxa.
        split; [reflexivity|]. rewrite (proj2 (Hc x)) by now right. cbn [andb]. apply negb_true_iff.
        assert (Hxi : g_st s x = Idle).
        { destruct (stat_dec (g_st s x) Idle) as [Hi|Hi]; [exact Hi|]. rewrite (I3 s G x Hi d Hxt) in Hxa. discriminate. }
        rewrite Hst_o, Hxi; [reflexivity|]. intros ->. congruence.
      * intros x Hx. unfold rcf. destruct (rdo x d) eqn:Hr; [|reflexivity]. cbn [andb].
        assert (Hxt : x <> t) by (intros ->; rewrite (rdo_not_wrt t d Hr) in Hw; discriminate).
        rewrite (Hst_o x Hxt). f_equal. apply eq_true_iff_eq. rewrite Hc. split; [|tauto].
        intros [H|H]; [exact H|]. elim Hx. apply filter_In. now split.
  - (* chain *)
    intros d. cbn [g_ins s'].
    destruct (proj1 (Hcase d)) as [(_ & Hc & Htl)|(_ & Htl & Hc)]; rewrite Htl.
    + rewrite (proj2 (proj2 (if_unread (rdo t d) (g_tile s d)))), (ICH s G d). apply filter_ext. intros x. unfold chf. now rewrite Hc.
    + destruct (end_write s d G) as (_ & _ & _ & N4 & _). rewrite N4. apply filter_ext.
      intros x. unfold chf. destruct (tch x d); [|reflexivity]. cbn [andb].
      destruct (actd s x d) eqn:E1.
      * now rewrite (proj2 (Hc x)) by now left.
      * cbn [negb andb]. f_equal. apply eq_true_iff_eq. rewrite Hc, mem_nat_iff. intuition congruence.
  - (* alive: when the walk reaches the tail, no writer was left on the chain *)
    intros d Hal. cbn [g_ins s'].
    destruct (proj1 (Hcase d)) as [(_ & Hc & Htl)|(Hw & Htl & Hc)]; rewrite Htl in Hal |- *.
    + destruct (if_unread (rdo t d) (g_tile s d)) as (_ & Eal & Ech). rewrite Eal in Hal. rewrite Ech.
      destruct (IAL s G d Hal) as [H1 H2]. split; [exact H1|]. intros; apply HD; now apply H2.
    + destruct (end_write s d G) as (_ & _ & _ & _ & _ & _ & N7). destruct (N7 Hal) as [H1 H2].
      split; [exact H1|]. intros w0 Hw0 Hww0. apply (Hactw d w0 Hw Hww0).
      destruct (actd s w0 d) eqn:E0; [reflexivity|].
      rewrite (rdo_not_wrt w0 d) in Hww0; [discriminate|]. apply (H2 w0 Hw0). unfold chf. rewrite E0.
      apply andb_true_iff in Hww0. now rewrite (proj1 Hww0).
  - (* last user *)
    intros d Hlu x Hx. apply (ILU s G d); [|exact Hx].
    destruct (proj1 (Hcase d)) as [(_ & _ & Htl)|(_ & Htl & _)]; rewrite Htl in Hlu.
    + now rewrite <- (proj1 (if_unread (rdo t d) (g_tile s d))).
    + destruct (end_write s d G) as (_ & _ & _ & _ & _ & N6 & _). now rewrite <- N6.
  - intros x i Hx Hi Hc. apply HD. apply (ISAFE s G x i); auto.
Qed.
End Inv.

Section Refine.
Variable p : prog.
Hypothesis Hnr : norep p.

Lemma gi_step s e : GI p s -> GI p (gstep true p s e).
Proof.
  intros G. destruct e as [|t|t].
  - destruct (g_ins s <? length p) eqn:E.
    + apply gi_insert; [exact Hnr|exact G|now apply Nat.ltb_lt].
    + unfold gstep. now rewrite E.
  - unfold gstep. destruct (g_can_begin p s t) eqn:E; [|exact G]. now apply gi_begin.
  - destruct (stat_dec (g_st s t) Running) as [E|E].
    + now apply gi_end.
    + unfold gstep. destruct (g_st s t); try exact G. congruence.
Qed.

Lemma gi_run es : GI p (grun true p es).
Proof. unfold grun. apply fold_left_inv; [intros; now apply gi_step|apply gi_init]. Qed.

(* the mechanism lets a task begin only after every earlier conflicting task is done *)
Theorem gate_begun_after es t i :
  g_st (grun true p es) t <> Idle -> i < t -> conflict (task_at p i) (task_at p t) ->
  g_st (grun true p es) i = Done.
Proof. intros. eapply (ISAFE p _ (gi_run es)); eauto. Qed.

Theorem gate_exclusive es t1 t2 :
  g_st (grun true p es) t1 = Running -> g_st (grun true p es) t2 = Running -> t1 <> t2 ->
  ~ conflict (task_at p t1) (task_at p t2).
Proof. exact (exclusive_of_begun_after p _ (gate_begun_after es) t1 t2). Qed.

(* all the earlier conflicting tasks as dependencies: with these a run of the gate model is a run of
   the protocol engine ([gate_refines]) *)
Definition conf_dep (k : tid) : list tid :=
  filter (fun i => conflictb (task_at p i) (task_at p k)) (seq 0 k).

Lemma conflictb_iff t1 t2 : conflictb t1 t2 = true <-> conflict t1 t2.
Proof.
  unfold conflictb. rewrite existsb_exists. split.
  - intros (a & Ha & H). apply andb_true_iff in H. destruct H as [H1 H2]. apply orb_true_iff in H2.
    exists (fst a). split; [|split; [exact H1|exact H2]].
    unfold touches. apply existsb_exists. exists a. split; [exact Ha|apply Nat.eqb_refl].
  - intros (d & H1 & H2 & H3). unfold touches in H1. apply existsb_exists in H1.
    destruct H1 as ([d' m] & Ha & E). apply Nat.eqb_eq in E. cbn in E. subst d'. exists (d, m). split; [exact Ha|].
    cbn [fst]. rewrite H2. cbn [andb]. apply orb_true_iff. exact H3.
Qed.
Lemma conf_dep_back k j : In j (conf_dep k) -> j < k.
Proof. unfold conf_dep. intros H. apply filter_In in H. destruct H as [H _]. apply in_seq in H. lia. Qed.
Lemma conf_dep_cover k i : k < length p -> i < k ->
  conflict (task_at p i) (task_at p k) -> dpath conf_dep i k.
Proof.
  intros _ Hi Hc. apply dp_edge. unfold conf_dep. apply filter_In. split; [apply in_seq; lia|].
  now apply conflictb_iff.
Qed.

Theorem gate_refines body m0 es :
  exists es', let a := run body p conf_dep no_window m0 es' in
    ins a = g_ins (grun true p es) /\ forall t, st a t = g_st (grun true p es) t.
Proof.
  induction es as [|e es IH] using rev_ind.
  - exists []. cbn. auto.
  - destruct IH as (es' & Hi & Hs). unfold grun. rewrite fold_left_app. cbn [fold_left].
    fold (grun true p es). set (g := grun true p es) in *. pose proof (gi_run es) as G. fold g in G.
    set (a := run body p conf_dep no_window m0 es') in *.
    assert (Hstep : forall e', run body p conf_dep no_window m0 (es' ++ [e']) = step body p conf_dep no_window a e').
    { intros e'. unfold run. now rewrite fold_left_app. }
    destruct e as [|t|t].
    + (* Insert *)
      destruct (g_ins g <? length p) eqn:E.
      * exists (es' ++ [Insert]). rewrite Hstep. unfold step, can_insert, no_window, gstep.
        rewrite Hi, E. cbn. split; [reflexivity|exact Hs].
      * exists es'. unfold gstep. rewrite E. split; [exact Hi|exact Hs].
    + (* Begin *)
      destruct (g_can_begin p g t) eqn:E.
      * exists (es' ++ [Begin t]). rewrite Hstep.
        destruct (can_begin_safe p Hnr g t G E) as (Hlt & Hidle & _ & Hsafe).
        assert (Hcb : can_begin conf_dep a t = true).
        { apply can_begin_iff. rewrite Hi, Hs. split; [exact Hlt|]. split; [exact Hidle|].
          intros j Hj. rewrite Hs. apply Hsafe; [exact (conf_dep_back t j Hj)|].
          unfold conf_dep in Hj. apply filter_In in Hj. now apply conflictb_iff. }
        unfold step. rewrite Hcb. unfold gstep. rewrite E. cbn [ins st g_ins g_st].
        split; [exact Hi|]. intros x. unfold fupd. now rewrite Hs.
      * exists es'. unfold gstep. rewrite E. split; [exact Hi|exact Hs].
    + (* End *)
      destruct (is_running (g_st g t)) eqn:E.
      * exists (es' ++ [End t]). rewrite Hstep. unfold step, can_end. rewrite Hs, E. unfold gstep. rewrite E.
        cbn [ins st g_ins g_st]. split; [exact Hi|]. intros x. unfold fupd. now rewrite Hs.
      * exists es'. unfold gstep. rewrite E. split; [exact Hi|exact Hs].
Qed.
End Refine.

Fixpoint nodupb (l : list nat) : bool :=
  match l with [] => true | x :: r => negb (mem_nat x r) && nodupb r end.
Lemma nodupb_ok l : nodupb l = true -> NoDup l.
Proof.
  induction l as [|x l IH]; intros H; [constructor|]. cbn in H. apply andb_true_iff in H. destruct H as [H1 H2].
  constructor; [|now apply IH]. intros Hin. apply mem_nat_iff in Hin. rewrite Hin in H1. discriminate.
Qed.
Definition norepb (p : prog) : bool := forallb (fun t => nodupb (map fst t)) p.
Lemma norepb_ok p : norepb p = true -> norep p.
Proof.
  intros H k. unfold task_at. destruct (nth_in_or_default k p []) as [Hin|Hd]; [|rewrite Hd; constructor].
  unfold norepb in H. rewrite forallb_forall in H. apply nodupb_ok. now apply H.
Qed.

(* the code as it is ([stale_fix = false]): the witness of the stale last user *)
Theorem gate_unguarded_refuted : exists p es t1 t2, norep p /\ t1 <> t2 /\
  g_st (grun false p es) t1 = Running /\ g_st (grun false p es) t2 = Running /\
  conflict (task_at p t1) (task_at p t2).
Proof.
  exists gate_witness_p, gate_witness_es, 4, 5. split; [apply norepb_ok; reflexivity|].
  split; [discriminate|]. split; [vm_compute; reflexivity|]. split; [vm_compute; reflexivity|].
  apply conflictb_iff. vm_compute. reflexivity.
Qed.
