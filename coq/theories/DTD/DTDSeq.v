(* Facts about the sequential reference [seq_dtd]: it is the list of the inputs
   each task finds in the prefix memory, and the last prefix memory. *)
From PV Require Import Base.Tac DTD.DTDDefs.

Section Seq.
Variable body : tid -> list value -> value.
Notation prefix_mem := (prefix_mem body).
Notation seq_run := (seq_run body).

Lemma task_at_app (pre : prog) t p' : task_at (pre ++ t :: p') (length pre) = t.
Proof. unfold task_at. rewrite app_nth2 by lia. now rewrite Nat.sub_diag. Qed.

Lemma seq_run_spec p m0 : forall p' pre, p = pre ++ p' ->
  seq_run (length pre) p' (prefix_mem p m0 (length pre)) =
  (map (fun j => inputs (task_at p j) (prefix_mem p m0 j)) (seq (length pre) (length p')),
   prefix_mem p m0 (length pre + length p')).
Proof.
  induction p' as [|t p' IH]; intros pre Hp; cbn [DTDDefs.seq_run length seq map].
  - now rewrite Nat.add_0_r.
  - assert (Ht : task_at p (length pre) = t) by (subst p; apply task_at_app).
    specialize (IH (pre ++ [t])). rewrite app_length in IH. cbn [length] in IH.
    rewrite Nat.add_1_r in IH.
    assert (Hm : exec_task body (length pre) t (prefix_mem p m0 (length pre)) = prefix_mem p m0 (S (length pre))).
    { cbn [DTDDefs.prefix_mem]. now rewrite Ht. }
    rewrite Hm, IH by (rewrite <- app_assoc; exact Hp).
    cbn [fst snd]. rewrite Ht. f_equal. f_equal. lia.
Qed.

Lemma seq_dtd_spec p m0 :
  seq_dtd body p m0 =
  (map (fun j => inputs (task_at p j) (prefix_mem p m0 j)) (seq 0 (length p)), prefix_mem p m0 (length p)).
Proof. unfold seq_dtd. exact (seq_run_spec p m0 p [] eq_refl). Qed.

Lemma seq_inputs_nth p m0 t : t < length p ->
  nth t (fst (seq_dtd body p m0)) [] = inputs (task_at p t) (prefix_mem p m0 t).
Proof.
  intros Ht. rewrite seq_dtd_spec. cbn [fst].
  rewrite (nth_indep _ [] (inputs (task_at p 0) (prefix_mem p m0 0))) by (rewrite map_length, seq_length; exact Ht).
  rewrite (map_nth (fun j => inputs (task_at p j) (prefix_mem p m0 j))), seq_nth by exact Ht. reflexivity.
Qed.

Lemma seq_final p m0 : snd (seq_dtd body p m0) = prefix_mem p m0 (length p).
Proof. now rewrite seq_dtd_spec. Qed.

(* a datum keeps its value across tasks that do not write it *)
Lemma prefix_mem_stable p m0 d k : forall k', k <= k' ->
  (forall j, k <= j < k' -> writes (task_at p j) d = false) ->
  prefix_mem p m0 k' d = prefix_mem p m0 k d.
Proof.
  induction k' as [|k' IH]; intros Hle Hw.
  - now replace k with 0 by lia.
  - destruct (Nat.eq_dec k (S k')) as [->|Hne]; [reflexivity|].
    cbn [DTDDefs.prefix_mem]. unfold exec_task, write_back.
    rewrite (Hw k') by lia. apply IH; [lia|]. intros j Hj. apply Hw. lia.
Qed.

Lemma prefix_mem_written p m0 d k : writes (task_at p k) d = true ->
  prefix_mem p m0 (S k) d = body k (inputs (task_at p k) (prefix_mem p m0 k)).
Proof. intros Hw. cbn [DTDDefs.prefix_mem]. unfold exec_task, write_back. now rewrite Hw. Qed.

(* the value of a datum is what its last writer left *)
Lemma prefix_mem_last_writer p m0 d t k : t < k -> writes (task_at p t) d = true ->
  (forall j, t < j < k -> writes (task_at p j) d = false) ->
  prefix_mem p m0 k d = body t (inputs (task_at p t) (prefix_mem p m0 t)).
Proof.
  intros Ht Hw Hn. rewrite (prefix_mem_stable p m0 d (S t) k); [now apply prefix_mem_written|lia|].
  intros j Hj. apply Hn. lia.
Qed.

(* inputs depend only on the data the task reads *)
Lemma inputs_ext t m1 m2 : (forall d, touches t d = true -> m1 d = m2 d) -> inputs t m1 = inputs t m2.
Proof.
  intros H. unfold inputs. apply map_ext_in. intros a Ha. apply H.
  apply filter_In in Ha. destruct Ha as [Ha _]. unfold touches. apply existsb_exists.
  exists a. split; [exact Ha|]. apply Nat.eqb_refl.
Qed.
End Seq.
