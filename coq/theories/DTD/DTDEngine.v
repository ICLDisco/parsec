(* Execution engine: any run that begins a task only after its dependencies have
   ended, where the dependencies point backwards and cover the conflicts of the
   insertion order, is observation-equivalent to the sequential execution
   ([dag_serialisable]: independent of how the dependencies were obtained), never
   has two conflicting tasks running together, runs every task at most once and
   cannot get stuck before all tasks are done. *)
From PV Require Import Base.Tac DTD.DTDDefs DTD.DTDSeq DTD.DTDChain.

Lemma fupd_same {A} (f : tid -> A) t v : fupd f t v t = v.
Proof. unfold fupd. now rewrite Nat.eqb_refl. Qed.
Lemma fupd_other {A} (f : tid -> A) t v x : x <> t -> fupd f t v x = f x.
Proof. unfold fupd. intros H. apply Nat.eqb_neq in H. now rewrite H. Qed.

(* Done is final: a change of status of a task that is not done undoes nothing *)
Lemma fupd_done (st : tid -> stat) t v x : st t <> Done -> st x = Done -> fupd st t v x = Done.
Proof. intros Ht Hx. rewrite fupd_other; [exact Hx|]. intros ->. contradiction. Qed.

Lemma stat_dec (a b : stat) : {a = b} + {a <> b}.
Proof. decide equality. Qed.
Lemma is_done_iff x : is_done x = true <-> x = Done.
Proof. destruct x; cbn; split; congruence. Qed.
Lemma is_idle_iff x : is_idle x = true <-> x = Idle.
Proof. destruct x; cbn; split; congruence. Qed.
Lemma is_running_iff x : is_running x = true <-> x = Running.
Proof. destruct x; cbn; split; congruence. Qed.

Lemma prefix_done_dec (s : state) : forall n,
  (forall j, j < n -> st s j = Done) \/ (exists t, t < n /\ st s t <> Done).
Proof.
  induction n as [|n [IH|(t & Ht & Hs)]].
  - left. intros j Hj. lia.
  - destruct (stat_dec (st s n) Done) as [Hd|Hd].
    + left. intros j Hj. destruct (Nat.eq_dec j n) as [->|Hne]; [exact Hd|]. apply IH. lia.
    + right. exists n. split; [lia|exact Hd].
  - right. exists t. split; [lia|exact Hs].
Qed.

Lemma forallb_done s l : forallb (fun j => is_done (st s j)) l = true <-> forall j, In j l -> st s j = Done.
Proof. rewrite forallb_forall. split; intros H j Hj; apply is_done_iff; now apply H. Qed.

Lemma can_insert_iff p gate s :
  can_insert p gate s = true <-> ins s < length p /\ gate (ins s) (count_done s) = true.
Proof. unfold can_insert. now rewrite andb_true_iff, Nat.ltb_lt. Qed.
Lemma can_begin_iff dep s t :
  can_begin dep s t = true <-> t < ins s /\ st s t = Idle /\ forall j, In j (dep t) -> st s j = Done.
Proof. unfold can_begin. now rewrite !andb_true_iff, Nat.ltb_lt, is_idle_iff, forallb_done, and_assoc. Qed.
Lemma all_done_iff p s :
  all_done p s = true <-> ins s = length p /\ forall j, j < length p -> st s j = Done.
Proof.
  unfold all_done. rewrite andb_true_iff, Nat.eqb_eq, forallb_done.
  split; intros [H1 H2]; (split; [exact H1|]); intros j Hj; apply H2; [apply in_seq; lia|apply in_seq in Hj; lia].
Qed.

(* if a task leaves Idle only once every earlier conflicting task is done, running tasks never conflict *)
Lemma exclusive_of_begun_after (p : prog) (st : tid -> stat) :
  (forall t i, st t <> Idle -> i < t -> conflict (task_at p i) (task_at p t) -> st i = Done) ->
  forall t1 t2, st t1 = Running -> st t2 = Running -> t1 <> t2 -> ~ conflict (task_at p t1) (task_at p t2).
Proof.
  intros H t1 t2 H1 H2 Hne Hc.
  assert (Hc' : conflict (task_at p t2) (task_at p t1)).
  { destruct Hc as (d & Ha & Hb & Hw). exists d. repeat split; auto. tauto. }
  destruct (Nat.lt_total t1 t2) as [Hl|[He|Hg]]; [|contradiction|].
  - rewrite (H t2 t1) in H1; [discriminate|congruence|exact Hl|exact Hc].
  - rewrite (H t1 t2) in H2; [discriminate|congruence|exact Hg|exact Hc'].
Qed.

(* k cuts the writers of d: those inserted before k have ended, those from k on have not.  The current
   version of d is then the one the sequential execution has before task k. *)
Definition cut (p : prog) (st : tid -> stat) (d : datum) (k : nat) : Prop :=
  (forall i, i < k -> writes (task_at p i) d = true -> st i = Done) /\
  (forall i, k <= i -> writes (task_at p i) d = true -> st i <> Done).

(* a change of status that stays short of Done, or is made by a task that does not write d, moves no cut *)
Lemma cut_fupd p st t v d k : st t <> Done -> v <> Done \/ writes (task_at p t) d = false ->
  cut p (fupd st t v) d k -> cut p st d k.
Proof.
  intros Ht Hv [Ha Hb]. split; intros i Hi Hw.
  - specialize (Ha i Hi Hw). destruct (Nat.eq_dec i t) as [->|Hne]; [|now rewrite fupd_other in Ha].
    rewrite fupd_same in Ha. destruct Hv; congruence.
  - destruct (Nat.eq_dec i t) as [->|Hne]; [exact Ht|]. specialize (Hb i Hi Hw). now rewrite fupd_other in Hb.
Qed.

(* the end of a writer t of d, where begun tasks have seen their earlier conflicting tasks end: a cut of the
   new state lies behind t with no writer of d in between, and t was a cut before *)
Lemma cut_end_writer p st t d k :
  (forall j i, st j <> Idle -> i < j -> conflict (task_at p i) (task_at p j) -> st i = Done) ->
  st t = Running -> writes (task_at p t) d = true -> cut p (fupd st t Done) d k ->
  t < k /\ (forall j, t < j < k -> writes (task_at p j) d = false) /\ cut p st d t.
Proof.
  intros Hsafe Hr Hw [Ha Hb].
  assert (Htk : t < k).
  { destruct (Nat.lt_ge_cases t k) as [Hl|Hg]; [exact Hl|]. specialize (Hb t Hg Hw). now rewrite fupd_same in Hb. }
  assert (Hnone : forall j, t < j < k -> writes (task_at p j) d = false).
  { intros j Hj. destruct (writes (task_at p j) d) eqn:Ewj; [exfalso|reflexivity].
    specialize (Ha j (proj2 Hj) Ewj). rewrite fupd_other in Ha by lia.
    rewrite (Hsafe j t) in Hr; [discriminate|congruence|lia|]. apply conflict_wt with d; [exact Hw|now apply writes_touches]. }
  split; [exact Htk|]. split; [exact Hnone|]. split; intros i Hi Hwi.
  - apply (Hsafe t i); [congruence|exact Hi|]. apply conflict_wt with d; [exact Hwi|now apply writes_touches].
  - destruct (Nat.eq_dec i t) as [->|Hne]; [congruence|]. destruct (Nat.lt_ge_cases i k) as [Hl|Hg].
    + rewrite Hnone in Hwi by lia. discriminate.
    + specialize (Hb i Hg Hwi). now rewrite fupd_other in Hb.
Qed.

Section Engine.
Variable body : tid -> list value -> value.
Variable p : prog.
Variable dep : tid -> list tid.
Variable gate : nat -> nat -> bool.
Variable m0 : mem.
Hypothesis Hback : forall k j, In j (dep k) -> j < k.
Hypothesis Hcover : forall k i, k < length p -> i < k ->
  conflict (task_at p i) (task_at p k) -> dpath dep i k.

Notation step := (step body p dep gate).
Notation run := (run body p dep gate m0).
Notation pm := (prefix_mem body p m0).
Notation T k := (task_at p k).

(* an enabled event, as far as the counters of insertion and the task states go *)
Lemma step_insert s : can_insert p gate s = true ->
  ins (step s Insert) = S (ins s) /\ st (step s Insert) = st s.
Proof. intros H. unfold DTDDefs.step. now rewrite H. Qed.
Lemma step_begin s t : can_begin dep s t = true ->
  ins (step s (Begin t)) = ins s /\ st (step s (Begin t)) = fupd (st s) t Running.
Proof. intros H. unfold DTDDefs.step. now rewrite H. Qed.
Lemma step_end s t : st s t = Running ->
  ins (step s (End t)) = ins s /\ st (step s (End t)) = fupd (st s) t Done.
Proof. intros H. unfold DTDDefs.step, can_end. now rewrite H. Qed.

Record Inv (s : state) : Prop := {
  E0 : ins s <= length p;
  E1 : forall t, st s t <> Idle -> t < ins s;
  E2 : forall t, st s t <> Idle -> forall j, In j (dep t) -> st s j = Done;
  E3 : forall t, st s t <> Idle -> obs s t = Some (inputs (T t) (pm t));
  E3n : forall t, st s t = Idle -> obs s t = None;
  E4 : forall d k, cut p (st s) d k -> memo s d = pm k d;
  E5 : forall t, nruns s t = if is_idle (st s t) then 0 else 1 }.

(* everything on a dependency path into a task whose direct dependencies are done is done *)
Lemma path_done s : (forall t, st s t <> Idle -> forall j, In j (dep t) -> st s j = Done) ->
  forall i k, dpath dep i k -> (forall j, In j (dep k) -> st s j = Done) -> st s i = Done.
Proof.
  intros H2 i k Hp. induction Hp as [i k Hi|i j k Hp IH Hj]; intros Hd.
  - now apply Hd.
  - apply IH. intros x Hx. apply (H2 j); [|exact Hx]. rewrite (Hd j Hj). discriminate.
Qed.

(* a begun task has seen every earlier conflicting task end *)
Lemma begun_after s : Inv s -> forall t i, st s t <> Idle -> i < t ->
  conflict (T i) (T t) -> st s i = Done.
Proof.
  intros [H0 H1 H2 _ _ _ _] t i Ht Hi Hc.
  apply (path_done s H2 i t).
  - apply Hcover; [|exact Hi|exact Hc]. specialize (H1 t Ht). lia.
  - now apply H2.
Qed.

(* before anything has ended the versions are the initial ones *)
Lemma cut_init d k : cut p (fun _ => Idle) d k -> pm k d = m0 d.
Proof.
  intros [H _]. apply (prefix_mem_stable body p m0 d 0 k); [lia|].
  intros j Hj. destruct (writes (T j) d) eqn:E; [|reflexivity]. discriminate (H j (proj2 Hj) E).
Qed.

Lemma inv_init : Inv (init m0).
Proof.
  constructor; cbn; try congruence; try lia. intros d k H. symmetry. now apply cut_init.
Qed.

Lemma inv_step s e : Inv s -> Inv (step s e).
Proof.
  intros HI. pose proof HI as [H0 H1 H2 H3 H3n H4 H5]. destruct e as [|t|t]; unfold DTDDefs.step.
  - (* Insert *)
    destruct (can_insert p gate s) eqn:Eg; [|exact HI]. apply can_insert_iff in Eg. destruct Eg as [Eg _].
    constructor; cbn; auto. intros t Ht. specialize (H1 t Ht). lia.
  - (* Begin t *)
    destruct (can_begin dep s t) eqn:Eg; [|exact HI]. apply can_begin_iff in Eg. destruct Eg as (Hlt & Hidle & Hdeps).
    (* every earlier conflicting task is done, no later one has begun *)
    assert (Hearlier : forall i, i < t -> conflict (T i) (T t) -> st s i = Done).
    { intros i Hi Hc. apply (path_done s H2 i t); [|exact Hdeps]. apply Hcover; [lia|exact Hi|exact Hc]. }
    assert (Hlater : forall i, t < i -> conflict (T t) (T i) -> st s i = Idle).
    { intros i Hi Hc. destruct (stat_dec (st s i) Idle) as [Hs|Hs]; [exact Hs|].
      pose proof (begun_after s HI i t Hs Hi Hc). congruence. }
    constructor; cbn [ins st memo obs nruns].
    + exact H0.
    + intros x Hx. destruct (Nat.eq_dec x t) as [->|Hne]; [exact Hlt|].
      rewrite fupd_other in Hx by exact Hne. now apply H1.
    + intros x Hx j Hj. assert (Hjt : j <> t).
      { destruct (Nat.eq_dec x t) as [->|Hne].
        - specialize (Hback _ _ Hj). lia.
        - rewrite fupd_other in Hx by exact Hne. intros ->. specialize (H2 x Hx t Hj). congruence. }
      rewrite fupd_other by exact Hjt. destruct (Nat.eq_dec x t) as [->|Hne]; [now apply Hdeps|].
      rewrite fupd_other in Hx by exact Hne. now apply H2 with x.
    + intros x Hx. destruct (Nat.eq_dec x t) as [->|Hne].
      * rewrite fupd_same. f_equal. apply inputs_ext. intros d Hd. apply H4. split; intros i Hi Hw.
        -- apply Hearlier; [exact Hi|]. now apply conflict_wt with d.
        -- destruct (Nat.eq_dec i t) as [->|Hne]; [congruence|].
           rewrite Hlater; [discriminate|lia|]. now apply conflict_tw with d.
      * rewrite !fupd_other in * by exact Hne. now apply H3.
    + intros x Hx. destruct (Nat.eq_dec x t) as [->|Hne]; [rewrite fupd_same in Hx; discriminate|].
      rewrite !fupd_other in * by exact Hne. now apply H3n.
    + intros d k Hc. apply H4. apply (cut_fupd p (st s) t Running); [congruence|left; discriminate|exact Hc].
    + intros x. destruct (Nat.eq_dec x t) as [->|Hne].
      * rewrite !fupd_same. rewrite H5, Hidle. reflexivity.
      * rewrite !fupd_other by exact Hne. apply H5.
  - (* End t *)
    destruct (can_end s t) eqn:Eg; [|exact HI].
    unfold can_end in Eg. apply is_running_iff in Eg.
    assert (Hnid : forall x, fupd (st s) t Done x <> Idle -> st s x <> Idle).
    { intros x Hx. destruct (Nat.eq_dec x t) as [->|Hne]; [congruence|]. now rewrite fupd_other in Hx by exact Hne. }
    constructor; cbn [ins st memo obs nruns].
    + exact H0.
    + intros x Hx. apply H1. now apply Hnid.
    + intros x Hx j Hj. destruct (Nat.eq_dec j t) as [->|Hne]; [now rewrite fupd_same|].
      rewrite fupd_other by exact Hne. apply H2 with x; [now apply Hnid|exact Hj].
    + intros x Hx. apply H3. now apply Hnid.
    + intros x Hx. apply H3n. destruct (Nat.eq_dec x t) as [->|Hne]; [rewrite fupd_same in Hx; discriminate|].
      now rewrite fupd_other in Hx by exact Hne.
    + intros d k Hc. unfold write_back. rewrite (H3 t) by congruence.
      destruct (writes (T t) d) eqn:Ew.
      * (* t is the latest finished writer of d *)
        destruct (cut_end_writer p (st s) t d k (begun_after s HI) Eg Ew Hc) as (Htk & Hnone & _).
        symmetry. now apply prefix_mem_last_writer.
      * apply H4. apply (cut_fupd p (st s) t Done); [congruence|now right|exact Hc].
    + intros x. destruct (Nat.eq_dec x t) as [->|Hne].
      * rewrite fupd_same. rewrite H5, Eg. reflexivity.
      * rewrite fupd_other by exact Hne. apply H5.
Qed.

Lemma inv_run es : Inv (run es).
Proof. unfold DTDDefs.run. apply fold_left_inv; [intros; now apply inv_step|apply inv_init]. Qed.

Theorem dag_serialisable es :
  let s := run es in
  (forall t i, obs s t = Some i -> t < length p /\ i = nth t (fst (seq_dtd body p m0)) []) /\
  (all_done p s = true -> forall d, memo s d = snd (seq_dtd body p m0) d).
Proof.
  intros s. pose proof (inv_run es) as HI. fold s in HI. destruct HI as [H0 H1 H2 H3 H3n H4 H5]. split.
  - intros t i Ho. destruct (stat_dec (st s t) Idle) as [Hs|Hs]; [rewrite (H3n t Hs) in Ho; discriminate|].
    assert (Ht : t < length p) by (specialize (H1 t Hs); lia). split; [exact Ht|].
    rewrite (H3 t Hs) in Ho. inversion Ho. now rewrite seq_inputs_nth.
  - intros Hd d. apply all_done_iff in Hd. destruct Hd as [_ Hd]. rewrite seq_final. apply H4. split.
    + intros i Hi _. now apply Hd.
    + intros i Hi Hw. exfalso. unfold task_at in Hw. rewrite nth_overflow in Hw by exact Hi. discriminate.
Qed.

Theorem runs_at_most_once es t : nruns (run es) t <= 1 /\ (nruns (run es) t = 1 <-> st (run es) t <> Idle).
Proof.
  destruct (inv_run es) as [_ _ _ _ _ _ H5]. rewrite H5. destruct (st (run es) t); cbn; split; try lia; split; congruence.
Qed.

Theorem running_exclusive es t1 t2 :
  st (run es) t1 = Running -> st (run es) t2 = Running -> t1 <> t2 -> ~ conflict (T t1) (T t2).
Proof. exact (exclusive_of_begun_after p _ (begun_after _ (inv_run es)) t1 t2). Qed.

Theorem begun_after_conflicts es t i :
  st (run es) t <> Idle -> i < t -> conflict (T i) (T t) -> st (run es) i = Done.
Proof. intros. eapply begun_after; eauto. apply inv_run. Qed.

(* the moment of Begin: it is enabled only when every earlier conflicting task has ended *)
Theorem begin_waits es t i :
  can_begin dep (run es) t = true -> i < t -> conflict (T i) (T t) -> st (run es) i = Done.
Proof.
  intros Hb Hi Hc. pose proof (inv_run es) as [H0 H1 H2 _ _ _ _].
  apply can_begin_iff in Hb. destruct Hb as (Hlt & _ & Hd).
  apply (path_done _ H2 i t); [|exact Hd]. apply Hcover; [lia|exact Hi|exact Hc].
Qed.

Lemma least_not_done s : forall n, (exists t, t < n /\ st s t <> Done) ->
  exists t, t < n /\ st s t <> Done /\ forall j, j < t -> st s j = Done.
Proof.
  induction n as [|n IH]; intros (t & Ht & Hs); [lia|].
  destruct (prefix_done_dec s n) as [Hall|Hex].
  - exists n. split; [lia|]. split; [|exact Hall].
    destruct (Nat.eq_dec t n) as [->|Hne]; [exact Hs|]. rewrite Hall in Hs by lia. congruence.
  - destruct (IH Hex) as (u & Hu & Hsu & Hmin). exists u. split; [lia|]. now split.
Qed.

Lemma filter_all_true {A} (f : A -> bool) l : (forall x, In x l -> f x = true) -> filter f l = l.
Proof.
  induction l as [|x l IH]; intros H; cbn [filter]; [reflexivity|].
  rewrite (H x (or_introl eq_refl)). f_equal. apply IH. intros y Hy. apply H. now right.
Qed.
Lemma count_done_all s : (forall j, j < ins s -> st s j = Done) -> count_done s = ins s.
Proof.
  intros H. unfold count_done. rewrite filter_all_true.
  - apply seq_length.
  - intros j Hj. apply in_seq in Hj. apply is_done_iff. apply H. lia.
Qed.

Hypothesis Hgate : forall i, gate i i = true.    (* nothing pending: insertion is allowed *)

Theorem progress es : all_done p (run es) = false -> exists e, enabled p dep gate (run es) e = true.
Proof.
  intros Hnd. set (s := run es) in *. pose proof (inv_run es) as HI. fold s in HI.
  pose proof HI as [H0 H1 H2 _ _ _ _].
  destruct (prefix_done_dec s (ins s)) as [Hall|Hex].
  - (* every inserted task is done: the next one can be inserted *)
    exists Insert. apply can_insert_iff. rewrite (count_done_all s Hall). split; [|apply Hgate].
    destruct (Nat.eq_dec (ins s) (length p)) as [He|Hne]; [|lia].
    rewrite (proj2 (all_done_iff p s)) in Hnd; [discriminate|]. split; [exact He|]. now rewrite <- He.
  - destruct (least_not_done s (ins s) Hex) as (t & Ht & Hs & Hmin).
    destruct (st s t) eqn:Est; [| |congruence].
    + exists (Begin t). apply can_begin_iff. split; [exact Ht|]. split; [exact Est|].
      intros j Hj. apply Hmin. exact (Hback t j Hj).
    + exists (End t). cbn. unfold can_end. now rewrite Est.
Qed.

Corollary stuck_means_done es : (forall e, enabled p dep gate (run es) e = false) -> all_done p (run es) = true.
Proof.
  intros H. destruct (all_done p (run es)) eqn:E; [reflexivity|].
  destruct (progress es E) as (e & He). rewrite H in He. discriminate.
Qed.

(* maximal concurrency: idle tasks whose dependencies are done can all be running together *)
Lemma begin_many : forall ts s, NoDup ts ->
  (forall t, In t ts -> t < ins s /\ st s t = Idle /\ forall j, In j (dep t) -> st s j = Done) ->
  let s' := fold_left step (map Begin ts) s in
  (forall t, In t ts -> st s' t = Running) /\ (forall x, ~ In x ts -> st s' x = st s x) /\ ins s' = ins s.
Proof.
  induction ts as [|t ts IH]; intros s Hnd H; cbn [map fold_left].
  - cbn. repeat split; intros; try reflexivity; contradiction.
  - inversion Hnd as [|? ? Hnt Hnd']; subst.
    destruct (H t (or_introl eq_refl)) as (Hlt & Hid & Hd).
    destruct (step_begin s t (proj2 (can_begin_iff dep s t) (H t (or_introl eq_refl)))) as [Hins Hst].
    destruct (IH (step s (Begin t)) Hnd') as (Ha & Hb & Hc).
    { intros u Hu. destruct (H u (or_intror Hu)) as (Hlu & Hiu & Hdu).
      assert (Hut : u <> t) by (intros ->; contradiction).
      rewrite Hins, Hst, fupd_other by exact Hut. repeat split; auto.
      intros j Hj. rewrite fupd_other; [now apply Hdu|]. intros ->. specialize (Hdu t Hj). congruence. }
    repeat split.
    + intros u [<-|Hu]; [|now apply Ha]. rewrite Hb by exact Hnt. rewrite Hst. apply fupd_same.
    + intros x Hx. rewrite Hb by (intros Hi; apply Hx; now right). rewrite Hst. apply fupd_other.
      intros ->. apply Hx. now left.
    + now rewrite Hc.
Qed.

Hypothesis Hsound : forall k j, In j (dep k) -> conflict (T j) (T k).

Theorem concurrent_set es ts : NoDup ts ->
  (forall t, In t ts -> t < ins (run es) /\ st (run es) t = Idle /\
                        forall i, i < t -> conflict (T i) (T t) -> st (run es) i = Done) ->
  forall t, In t ts -> st (run (es ++ map Begin ts)) t = Running.
Proof.
  intros Hnd H. unfold DTDDefs.run. rewrite fold_left_app.
  apply (begin_many ts (run es) Hnd). intros t Ht. destruct (H t Ht) as (Ha & Hb & Hc).
  split; [exact Ha|]. split; [exact Hb|].
  intros j Hj. apply Hc; [exact (Hback t j Hj)|exact (Hsound t j Hj)].
Qed.
End Engine.
