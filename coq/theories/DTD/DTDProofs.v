(* The dependencies built by insertion meet the hypotheses of the generic engine
   (dtd_back, dtd_sound, chain_edges_complete), from which C03 and C04 follow; here
   what needs more than that: a schedule that completes every sequence, and the
   maximal concurrency of readers. *)
From PV Require Import Base.Tac DTD.DTDDefs DTD.DTDSeq DTD.DTDChain DTD.DTDEngine.

Lemma dtd_back p k j : In j (dep_fn p k) -> j < k.
Proof. intros H. now destruct (deps_sound p k j H). Qed.
Lemma dtd_sound p k j : In j (dep_fn p k) -> conflict (task_at p j) (task_at p k).
Proof. intros H. now destruct (deps_sound p k j H). Qed.

Section DTD.
Variable body : tid -> list value -> value.
Variable p : prog.
Variable gate : nat -> nat -> bool.
Variable m0 : mem.
Notation drun := (dtd_run body p gate m0).

Theorem dtd_concurrent_set es ts : NoDup ts ->
  (forall t, In t ts -> t < ins (drun es) /\ st (drun es) t = Idle /\
                        forall i, i < t -> conflict (task_at p i) (task_at p t) -> st (drun es) i = Done) ->
  forall t, In t ts -> st (drun (es ++ map Begin ts)) t = Running.
Proof. apply concurrent_set; [apply dtd_back|apply dtd_sound]. Qed.

Hypothesis Hgate : forall i, gate i i = true.

(* the schedule "insert k, begin k, end k" for k = 0, 1, ... is allowed and completes *)
Definition seq_sched (n : nat) : list event := flat_map (fun k => [Insert; Begin k; End k]) (seq 0 n).

Lemma triple_state s k : k < length p -> ins s = k ->
  (forall j, j < k -> st s j = Done) -> (forall j, k <= j -> st s j = Idle) ->
  let s' := fold_left (step body p (dep_fn p) gate) [Insert; Begin k; End k] s in
  ins s' = S k /\ (forall j, j < S k -> st s' j = Done) /\ (forall j, S k <= j -> st s' j = Idle).
Proof.
  intros Hk Hi Hd Hn. cbn [fold_left].
  destruct (step_insert body p (dep_fn p) gate s) as [I1 S1].
  { apply can_insert_iff. rewrite (count_done_all s) by (rewrite Hi; exact Hd). split; [lia|apply Hgate]. }
  set (s1 := step body p (dep_fn p) gate s Insert) in *.
  destruct (step_begin body p (dep_fn p) gate s1 k) as [I2 S2].
  { apply can_begin_iff. rewrite I1, S1. split; [lia|]. split; [apply Hn; lia|].
    intros j Hj. apply Hd. now apply dtd_back in Hj. }
  set (s2 := step body p (dep_fn p) gate s1 (Begin k)) in *.
  destruct (step_end body p (dep_fn p) gate s2 k) as [I3 S3]; [rewrite S2; apply fupd_same|].
  rewrite I3, I2, I1, S3, S2, S1. repeat split.
  - lia.
  - intros j Hj. destruct (Nat.eq_dec j k) as [->|Hne]; [apply fupd_same|].
    rewrite !fupd_other by exact Hne. apply Hd. lia.
  - intros j Hj. rewrite !fupd_other by lia. apply Hn. lia.
Qed.

Lemma seq_sched_state : forall k, k <= length p ->
  let s := drun (seq_sched k) in
  ins s = k /\ (forall j, j < k -> st s j = Done) /\ (forall j, k <= j -> st s j = Idle).
Proof.
  induction k as [|k IH]; intros Hk.
  - cbn. repeat split; intros; try reflexivity; lia.
  - destruct IH as (Hi & Hd & Hn); [lia|].
    unfold seq_sched. rewrite seq_S, flat_map_app. cbn [flat_map]. rewrite app_nil_r, Nat.add_0_l.
    unfold dtd_run, run. rewrite fold_left_app.
    apply triple_state; [lia|exact Hi|exact Hd|exact Hn].
Qed.

End DTD.

Definition wrw_prog (d : datum) (n : nat) : prog := [(d, RW)] :: repeat [(d, R)] n ++ [[(d, RW)]].

Lemma nth_repeat_lt {A} (x d : A) : forall n k, k < n -> nth k (repeat x n) d = x.
Proof. induction n as [|n IH]; intros k Hk; [lia|]. destruct k as [|k]; [reflexivity|]. cbn. apply IH. lia. Qed.

Lemma wrw_length d n : length (wrw_prog d n) = n + 2.
Proof. unfold wrw_prog. cbn [length]. rewrite app_length, repeat_length. cbn. lia. Qed.
Lemma wrw_reader d n t : 1 <= t <= n -> task_at (wrw_prog d n) t = [(d, R)].
Proof.
  intros Ht. unfold task_at, wrw_prog. destruct t as [|t]; [lia|]. cbn [nth].
  rewrite app_nth1 by (rewrite repeat_length; lia). apply nth_repeat_lt. lia.
Qed.

Section Readers.
Variable body : tid -> list value -> value.
Variable m0 : mem.

Lemma inserts_state p dep : forall k s, ins s + k <= length p ->
  let s' := fold_left (step body p dep no_window) (repeat Insert k) s in
  ins s' = ins s + k /\ (forall x, st s' x = st s x).
Proof.
  induction k as [|k IH]; intros s Hk; cbn [repeat fold_left].
  - split; [lia|reflexivity].
  - destruct (step_insert body p dep no_window s) as [I1 S1].
    { apply can_insert_iff. split; [lia|reflexivity]. }
    destruct (IH (step body p dep no_window s Insert)) as [Ha Hb]; [rewrite I1; lia|].
    rewrite Ha, I1. split; [lia|]. intros x. now rewrite Hb, S1.
Qed.

(* writer, n readers, writer on one datum: after the first writer has ended all n readers
   can be running at the same time (and the last writer cannot begin: C04_exclusive) *)
Theorem readers_run_together d n :
  exists es, let s := dtd_run body (wrw_prog d n) no_window m0 es in
    forall t, 1 <= t <= n -> st s t = Running.
Proof.
  set (p := wrw_prog d n).
  set (es0 := [Insert; Begin 0; End 0] ++ repeat Insert (n + 1)).
  exists (es0 ++ map Begin (seq 1 n)). intros s t Ht.
  assert (Hlen : length p = n + 2) by apply wrw_length.
  (* after es0 every task is inserted, the first writer is done and the others are idle *)
  assert (H0 : ins (dtd_run body p no_window m0 es0) = n + 2 /\
               st (dtd_run body p no_window m0 es0) 0 = Done /\
               forall x, x <> 0 -> st (dtd_run body p no_window m0 es0) x = Idle).
  { unfold es0, dtd_run, run. rewrite fold_left_app.
    destruct (triple_state body p no_window (fun _ => eq_refl) (init m0) 0) as (I1 & D1 & N1);
      [lia|reflexivity|intros; lia|reflexivity|].
    destruct (inserts_state p (dep_fn p) (n + 1) _ ltac:(rewrite I1; lia)) as [I2 S2].
    rewrite I2, I1. split; [lia|]. split; [rewrite S2; apply D1; lia|].
    intros x Hx. rewrite S2. apply N1. lia. }
  destruct H0 as (Hi & Hd & Hidle).
  apply (dtd_concurrent_set body p no_window m0 es0 (seq 1 n) (seq_NoDup n 1)); [|apply in_seq; lia].
  intros u Hu. apply in_seq in Hu. rewrite Hi. split; [lia|]. split; [apply Hidle; lia|].
  intros i Hiu Hc. destruct (Nat.eq_dec i 0) as [->|Hne]; [exact Hd|]. exfalso.
  destruct Hc as (x & Ha & Hb & Hw). unfold p in Ha, Hb, Hw.
  rewrite !wrw_reader in Hw by lia. cbn in Hw. rewrite !andb_false_r in Hw. cbn in Hw. destruct Hw; discriminate.
Qed.
End Readers.
